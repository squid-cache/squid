(* DnsProofs.v — proofs about DnsModel.v (C37).
   Decoding any datagram stays inside it and terminates.  A name, and a whole message, laid out in a
   datagram as RFC 1035 says ([name_at], [msg_at], stated independently of the decoder) decodes to what was
   laid out; the reference encoder [enc_msg] produces such layouts, and so do the query builders. *)
Require Import SquidV.Bytes SquidV.gen.Dns_gen SquidV.DnsModel.
Require Import ZifyBool ZifyN ZifyNat.
Local Open Scope N_scope.

Lemma nthN_app_l {A} (a b : list A) i : i < lenN a -> nthN i (a ++ b) = nthN i a.
Proof. apply Bytes.nthN_app_l. Qed.

Lemma dropN_app_ge {A} (a b : list A) n : lenN a <= n -> dropN n (a ++ b) = dropN (n - lenN a) b.
Proof. apply Bytes.dropN_app_ge. Qed.

Lemma lenN_dropN {A} (l : list A) n : lenN (dropN n l) = lenN l - n.
Proof. apply Bytes.lenN_dropN. Qed.

Lemma lenN_removelast {A} (l : list A) : lenN (removelast l) = lenN l - 1.
Proof.
  induction l as [|x l IH]; [reflexivity|]. destruct l as [|y l]; [reflexivity|].
  change (removelast (x :: y :: l)) with (x :: removelast (y :: l)). cbn [lenN] in *. rewrite IH. lia.
Qed.

Lemma lenN_setN i v l : lenN (setN i v l) = lenN l.
Proof.
  revert i. induction l as [|x l IH]; intros i; cbn [setN]; [reflexivity|].
  destruct (i =? 0); cbn [lenN]; [reflexivity|]. rewrite IH. reflexivity.
Qed.

Definition nz (c : N) : bool := negb (c =? 0).

Lemma cstr_nz s : forallb nz (cstr s) = true.
Proof. apply (span_all nz s). Qed.

Lemma cstr_id s : forallb nz s = true -> cstr s = s.
Proof. intros H. unfold cstr. now rewrite span_forall by exact H. Qed.

Definition labels_nz (labels : list bytes) : Prop := Forall (fun l => forallb nz l = true) labels.

Lemma join_dots_nz labels : forallb nz (join_dots labels) = true <-> labels_nz labels.
Proof.
  unfold labels_nz. induction labels as [|l [|l2 r] IH].
  - split; constructor.
  - split; [intros H; repeat constructor; exact H|intros H; inversion H; assumption].
  - change (join_dots (l :: l2 :: r)) with (l ++ [46] ++ join_dots (l2 :: r)).
    rewrite !forallb_app, Forall_cons_iff, <- IH. apply andb_true_iff.
Qed.

Lemma rd16_some buf off : off + 2 <= lenN buf -> exists v, rd16 buf off = Some v.
Proof.
  intros H. unfold rd16.
  destruct (nthN_some buf off) as [a Ha]; [lia|].
  destruct (nthN_some buf (off + 1)) as [b Hb]; [lia|].
  rewrite Ha, Hb. eexists; reflexivity.
Qed.

Lemma rd32_some buf off : off + 4 <= lenN buf -> exists v, rd32 buf off = Some v.
Proof.
  intros H. unfold rd32.
  destruct (rd16_some buf off) as [a Ha]; [lia|].
  destruct (rd16_some buf (off + 2)) as [b Hb]; [lia|].
  rewrite Ha, Hb. eexists; reflexivity.
Qed.

Lemma rd_range_some buf off len : off + len <= lenN buf -> exists d, rd_range buf off len = Some d.
Proof.
  intros H. unfold rd_range. destruct (off + len <=? lenN buf) eqn:E; [eexists; reflexivity|lia].
Qed.

(* the outcome is not one of the bad ones, and a returned offset is inside the datagram *)
Definition name_res_ok (sz : N) (r : outcome (bytes * N * N)) : Prop :=
  match r with
  | Bad _ => False
  | Err => True
  | Ok (_, off', _) => off' <= sz
  end.

(* ... and the destination holds at least what was there before (minus the dot a finishing activation turns into NUL) *)
Definition name_res_ok2 (sz : N) (acc : bytes) (no : N) (r : outcome (bytes * N * N)) : Prop :=
  match r with
  | Bad _ => False
  | Err => True
  | Ok (nm, off', _) => off' <= sz /\ lenN acc <= lenN nm + (if no =? 0 then 0 else 1)
  end.

Lemma name_finish_safe acc no ns cap off rdl sz :
  no <= ns -> ns <= cap -> 0 < ns -> off <= sz -> name_res_ok2 sz acc no (name_finish acc no ns cap off rdl).
Proof.
  intros H1 H2 H3 H4. unfold name_finish.
  destruct (no =? 0) eqn:E0.
  - destruct (cap =? 0) eqn:E1; [lia|]. cbn [name_res_ok2]. rewrite E0. lia.
  - destruct (cap <? no) eqn:E1; [lia|]. destruct (ns <? no) eqn:E2; [lia|].
    cbn [name_res_ok2]. rewrite E0, lenN_removelast. lia.
Qed.

Lemma name_loop_safe : forall fuel buf off rdl acc no ns cap rdepth,
  no < ns -> ns <= cap ->
  (ns - no) + (66 - rdepth) < N.of_nat fuel ->
  name_res_ok2 (lenN buf) acc no (name_loop fuel buf (lenN buf) off rdl acc no ns cap rdepth).
Proof.
  induction fuel as [|f IH]; intros buf off rdl acc no ns cap rdepth Hno Hcap Hfuel; [lia|].
  cbn [name_loop].
  destruct (lenN buf <=? off) eqn:Eoff; [exact I|].
  destruct (nthN_some buf off) as [c Hc]; [lia|]. rewrite Hc.
  destruct (191 <? c) eqn:Eptr.
  - destruct (64 <? rdepth) eqn:Erd; [exact I|].
    unfold dns_sizeof_ushort.
    destruct (lenN buf <? off + 2) eqn:Esz; [exact I|].
    destruct (rd16_some buf off) as [s Hs]; [lia|]. rewrite Hs.
    destruct (lenN buf <=? s mod 16384) eqn:Ep; [exact I|].
    destruct (ns <? no) eqn:E1; [lia|].
    destruct (cap <? no) eqn:E2; [lia|].
    destruct (ns - no =? 0) eqn:E3; [lia|].
    specialize (IH buf (s mod 16384) rdl acc 0 (ns - no) (cap - no) (rdepth + 1)).
    assert (H0 : 0 < ns - no) by lia.
    assert (H1 : ns - no <= cap - no) by lia.
    assert (H2 : (ns - no - 0) + (66 - (rdepth + 1)) < N.of_nat f) by lia.
    specialize (IH H0 H1 H2).
    destruct (name_loop f buf (lenN buf) (s mod 16384) rdl acc 0 (ns - no) (cap - no) (rdepth + 1)) as [[[nm o'] r']| |b];
      cbn [name_res_ok2] in *; [|exact I|exact IH].
    destruct IH as [_ IHlen]. change (0 =? 0) with true in IHlen. cbv iota in IHlen.
    destruct (0 <? no) eqn:Eno.
    + destruct (cap <=? no) eqn:E4; [lia|].
      destruct (nthN_some (nm ++ [0]) (lenN acc)) as [b0 Hb0]; [rewrite lenN_app; cbn [lenN]; lia|].
      rewrite Hb0. destruct (no =? 0) eqn:En0; [lia|].
      destruct (b0 =? 0); cbn [name_res_ok2]; rewrite En0; [|lia].
      destruct (lenN nm =? lenN acc); [rewrite lenN_removelast|rewrite lenN_setN]; lia.
    + cbn [name_res_ok2]. destruct (no =? 0); lia.
  - unfold dns_MAXLABELSZ.
    destruct (63 <? c) eqn:Elab; [exact I|].
    destruct (c =? 0) eqn:Ec0.
    + apply name_finish_safe; lia.
    + destruct (ns <? no + 1) eqn:E1; [lia|].
      destruct (ns - no - 1 <? c) eqn:E2; [exact I|].
      destruct (lenN buf <=? off + 1 + c) eqn:E3; [exact I|].
      destruct (rd_range_some buf (off + 1) c) as [lbl Hl]; [lia|]. rewrite Hl.
      destruct (cap <? no + c + 1) eqn:E4; [lia|].
      assert (Hacc : lenN acc + 1 <= lenN (acc ++ lbl ++ [46])) by (rewrite !lenN_app; cbn [lenN]; lia).
      assert (Hweak : forall r, name_res_ok2 (lenN buf) (acc ++ lbl ++ [46]) (no + c + 1) r -> name_res_ok2 (lenN buf) acc no r).
      { intros [[[nm o'] r']| |b]; cbn [name_res_ok2]; try tauto.
        destruct (no + c + 1 =? 0) eqn:E9; [lia|]. destruct (no =? 0); lia. }
      apply Hweak.
      destruct (no + c + 1 <? ns) eqn:E5.
      * apply IH; lia.
      * apply name_finish_safe; lia.
Qed.

Lemma name_res_ok2_weaken sz acc no r : name_res_ok2 sz acc no r -> name_res_ok sz r.
Proof. destruct r as [[[nm o'] r']| |b]; cbn [name_res_ok2 name_res_ok]; tauto. Qed.

Lemma name_unpack_safe buf off ns cap rdepth :
  0 < ns -> ns <= cap -> name_res_ok (lenN buf) (name_unpack buf (lenN buf) off ns cap rdepth).
Proof.
  intros Hns Hcap. unfold name_unpack. destruct (ns =? 0) eqn:E; [lia|].
  apply (name_res_ok2_weaken _ [] 0), name_loop_safe; [lia|lia|]. unfold name_fuel. lia.
Qed.

Definition res_ok {A} (sz : N) (r : outcome (A * N)) : Prop :=
  match r with Bad _ => False | Err => True | Ok (_, off') => off' <= sz end.

Lemma query_unpack_safe buf off : res_ok (lenN buf) (query_unpack buf (lenN buf) off).
Proof.
  unfold query_unpack.
  pose proof (name_unpack_safe buf off dns_MAXHOSTNAMESZ dns_sizeof_query_name 0 eq_refl (N.le_refl _)) as H.
  destruct (name_unpack buf (lenN buf) off dns_MAXHOSTNAMESZ dns_sizeof_query_name 0) as [[[nm off1] r]| |b];
    cbn [name_res_ok res_ok] in *; [|exact I|exact H].
  destruct (lenN buf <? off1 + 4) eqn:E; [exact I|].
  destruct (rd16_some buf off1) as [t Ht]; [lia|].
  destruct (rd16_some buf (off1 + 2)) as [c Hc]; [lia|].
  rewrite Ht, Hc. cbn [res_ok]. lia.
Qed.

Lemma rr_unpack_safe buf off : res_ok (lenN buf) (rr_unpack buf (lenN buf) off).
Proof.
  unfold rr_unpack.
  pose proof (name_unpack_safe buf off dns_MAXHOSTNAMESZ dns_sizeof_rr_name 0 eq_refl (N.le_refl _)) as H.
  destruct (name_unpack buf (lenN buf) off dns_MAXHOSTNAMESZ dns_sizeof_rr_name 0) as [[[nm off1] r]| |b];
    cbn [name_res_ok res_ok] in *; [|exact I|exact H].
  destruct (lenN buf <? off1 + 10) eqn:E; [exact I|].
  destruct (rd16_some buf off1) as [ty Hty]; [lia|].
  destruct (rd16_some buf (off1 + 2)) as [cl Hcl]; [lia|].
  destruct (rd32_some buf (off1 + 4)) as [ttl Httl]; [lia|].
  destruct (rd16_some buf (off1 + 8)) as [rdl Hrdl]; [lia|].
  rewrite Hty, Hcl, Httl, Hrdl.
  destruct (lenN buf <? off1 + 10 + rdl) eqn:E2; [exact I|].
  destruct (ty =? dns_TYPE_PTR) eqn:Ety.
  - pose proof (name_unpack_safe buf (off1 + 10) dns_MAXHOSTNAMESZ dns_MAXHOSTNAMESZ 0 eq_refl (N.le_refl _)) as H2.
    destruct (name_unpack buf (lenN buf) (off1 + 10) dns_MAXHOSTNAMESZ dns_MAXHOSTNAMESZ 0) as [[[pn o2] r2]| |b];
      cbn [name_res_ok res_ok] in *; [|exact I|exact H2].
    destruct (off1 + 10 + rdl <? o2) eqn:E3; [exact I|].
    cbn [res_ok]. lia.
  - destruct (rd_range_some buf (off1 + 10) rdl) as [d Hd]; [lia|]. rewrite Hd. cbn [res_ok]. lia.
Qed.

Definition list_res_ok {A} (r : outcome (list A)) : Prop :=
  match r with Bad _ => False | Err => False | Ok _ => True end.

Lemma rrs_loop_safe n buf off : list_res_ok (rrs_loop n buf (lenN buf) off).
Proof.
  revert off. induction n as [|k IH]; intros off; cbn [rrs_loop]; [exact I|].
  destruct (lenN buf <=? off) eqn:E; [exact I|].
  pose proof (rr_unpack_safe buf off) as H.
  destruct (rr_unpack buf (lenN buf) off) as [[r off']| |b]; cbn [res_ok] in H; [|exact I|exact H].
  specialize (IH off').
  destruct (rrs_loop k buf (lenN buf) off') as [l| |b]; cbn [list_res_ok] in *; [exact I|exact IH|exact IH].
Qed.

Lemma rrs_loop_count n buf sz off l : rrs_loop n buf sz off = Ok l -> lenN l <= N.of_nat n.
Proof.
  revert off l. induction n as [|k IH]; intros off l H; cbn [rrs_loop] in H.
  - injection H as <-. cbn [lenN]. lia.
  - destruct (sz <=? off); [injection H as <-; cbn [lenN]; lia|].
    destruct (rr_unpack buf sz off) as [[r off']| |b]; [|injection H as <-; cbn [lenN]; lia|discriminate].
    destruct (rrs_loop k buf sz off') as [l'| |b] eqn:E; try discriminate.
    injection H as <-. apply IH in E. cbn [lenN]. lia.
Qed.

Lemma header_unpack_safe buf : match header_unpack buf (lenN buf) with Bad _ => False | _ => True end.
Proof.
  unfold header_unpack. destruct (lenN buf <? 12) eqn:E; [exact I|].
  destruct (rd16_some buf 0) as [a Ha]; [lia|].
  destruct (rd16_some buf 2) as [b Hb]; [lia|].
  destruct (rd16_some buf 4) as [c Hc]; [lia|].
  destruct (rd16_some buf 6) as [d Hd]; [lia|].
  destruct (rd16_some buf 8) as [e He]; [lia|].
  destruct (rd16_some buf 10) as [f Hf]; [lia|].
  rewrite Ha, Hb, Hc, Hd, He, Hf. exact I.
Qed.

(* what a caller may rely on for ANY datagram *)
Definition unpacked_sane (u : unpacked) : Prop :=
  match u with
  | UFail => True
  | URcode h q => h_qd h = 1 /\ h_rcode h <> 0
  | UAnswers h q rrs => h_qd h = 1 /\ h_rcode h = 0 /\ lenN rrs <= h_an h /\ (h_an h <> 0 -> rrs <> [])
  end.

Theorem message_unpack_total : forall buf, exists u, message_unpack buf = Ok u /\ unpacked_sane u.
Proof.
  intros buf. unfold message_unpack.
  pose proof (header_unpack_safe buf) as Hh.
  destruct (header_unpack buf (lenN buf)) as [h| |b]; [|eexists; split; [reflexivity|exact I]|contradiction].
  destruct (h_qd h =? 1) eqn:Eqd; cbn [negb]; [|eexists; split; [reflexivity|exact I]].
  pose proof (query_unpack_safe buf 12) as Hq.
  destruct (query_unpack buf (lenN buf) 12) as [[q off]| |b]; cbn [res_ok] in Hq;
    [|eexists; split; [reflexivity|exact I]|contradiction].
  destruct (h_rcode h =? 0) eqn:Erc; cbn [negb].
  2:{ eexists; split; [reflexivity|]. cbn [unpacked_sane]. lia. }
  destruct (h_an h =? 0) eqn:Ean.
  { eexists; split; [reflexivity|]. cbn [unpacked_sane lenN]. repeat split; try lia. }
  pose proof (rrs_loop_safe (N.to_nat (h_an h)) buf off) as Hl.
  destruct (rrs_loop (N.to_nat (h_an h)) buf (lenN buf) off) as [l| |b] eqn:El; cbn [list_res_ok] in Hl; try contradiction.
  apply rrs_loop_count in El.
  destruct l as [|r l]; [eexists; split; [reflexivity|exact I]|].
  eexists; split; [reflexivity|]. cbn [unpacked_sane]. repeat split; try lia. discriminate.
Qed.

(* `name_at buf d off labels e` — the datagram holds at
   offset `off` an RFC 1035 encoding of the name `labels`: labels stored in line, ended either by the root label or
   by a compression pointer to an offset where the REST of the name (possibly nothing but the root label) is encoded;
   at most `d` pointers in a row are followed; `e` is the offset behind the part stored in line. *)
Inductive name_at (buf : bytes) : nat -> N -> list bytes -> N -> Prop :=
| na_root : forall d off, nthN off buf = Some 0 -> name_at buf d off [] (off + 1)
| na_label : forall d off l rest e,
    1 <= lenN l -> lenN l <= 63 ->
    nthN off buf = Some (lenN l) ->
    rd_range buf (off + 1) (lenN l) = Some l ->
    name_at buf d (off + 1 + lenN l) rest e ->
    name_at buf d off (l :: rest) e
| na_ptr : forall d off a b labels e',
    nthN off buf = Some a -> 191 < a -> nthN (off + 1) buf = Some b ->
    name_at buf d ((a * 256 + b) mod 16384) labels e' ->
    name_at buf (S d) off labels (off + 2).

(* octets the labels occupy in a name buffer / on the wire without the root: sum of (length + 1) *)
Fixpoint wire (labels : list bytes) : N :=
  match labels with [] => 0 | l :: r => lenN l + 1 + wire r end.

Fixpoint dotted (labels : list bytes) : bytes :=
  match labels with [] => [] | l :: r => l ++ [46] ++ dotted r end.

Lemma name_at_start buf d off labels e : name_at buf d off labels e -> off < lenN buf.
Proof. intros H. destruct H; eapply nthN_lt; eassumption. Qed.

Lemma name_at_labels_nonempty buf d off labels e :
  name_at buf d off labels e -> Forall (fun l => 1 <= lenN l) labels.
Proof. induction 1; [constructor|constructor; assumption|assumption]. Qed.

Lemma removelast_dotted acc l r : removelast (acc ++ dotted (l :: r)) = acc ++ join_dots (l :: r).
Proof.
  revert acc l. induction r as [|l2 r IH]; intros acc l.
  - cbn [dotted join_dots app]. rewrite app_assoc. apply removelast_last.
  - change (dotted (l :: l2 :: r)) with (l ++ [46] ++ dotted (l2 :: r)).
    change (join_dots (l :: l2 :: r)) with (l ++ [46] ++ join_dots (l2 :: r)).
    rewrite !app_assoc. rewrite <- (app_assoc acc l [46]). rewrite (IH (acc ++ l ++ [46]) l2).
    reflexivity.
Qed.

(* the destination contents the decoder must produce *)
Definition name_result (acc : bytes) (no : N) (labels : list bytes) : bytes :=
  match labels with
  | [] => if no =? 0 then acc else removelast acc
  | _ => removelast (acc ++ dotted labels)
  end.

Lemma name_loop_decodes : forall buf d off labels e,
  name_at buf d off labels e ->
  forall fuel rdl acc no ns cap rdepth,
    labels_nz labels ->
    no + wire labels < ns -> ns <= cap ->
    N.of_nat d + rdepth <= 65 ->
    rdl + wire labels < 65536 ->
    (ns - no) + (66 - rdepth) < N.of_nat fuel ->
    name_loop fuel buf (lenN buf) off rdl acc no ns cap rdepth =
    Ok (name_result acc no labels, e, rdl + wire labels).
Proof.
  intros buf d off labels e H.
  induction H as [d off Hc | d off l rest e Hl1 Hl2 Hc Hr Hrest IH | d off a b labels e' Ha Hgt Hb Htgt IH];
    intros fuel rdl acc no ns cap rdepth Hnz Hfit Hcap Hdepth Hrdl Hfuel;
    (destruct fuel as [|f]; [lia|]); cbn [name_loop].
  - (* root label *)
    pose proof (nthN_lt _ _ _ Hc) as Hin.
    destruct (lenN buf <=? off) eqn:E0; [lia|]. rewrite Hc.
    cbn [wire] in *.
    change (191 <? 0) with false. cbv iota.
    change (dns_MAXLABELSZ <? 0) with false. cbv iota.
    change (0 =? 0) with true. cbv iota.
    unfold name_finish, name_result.
    destruct (no =? 0) eqn:En.
    + destruct (cap =? 0) eqn:Ec; [lia|]. repeat f_equal; lia.
    + destruct (cap <? no) eqn:Ec; [lia|]. destruct (ns <? no) eqn:Ec2; [lia|]. repeat f_equal; lia.
  - (* a label *)
    pose proof (nthN_lt _ _ _ Hc) as Hin.
    pose proof (name_at_start _ _ _ _ _ Hrest) as Hnext.
    inversion Hnz as [|? ? Hnzl Hnzr]; subst.
    destruct (lenN buf <=? off) eqn:E0; [lia|]. rewrite Hc.
    cbn [wire] in *.
    destruct (191 <? lenN l) eqn:E1; [lia|].
    unfold dns_MAXLABELSZ. destruct (63 <? lenN l) eqn:E2; [lia|].
    destruct (lenN l =? 0) eqn:E3; [lia|].
    destruct (ns <? no + 1) eqn:E4; [lia|].
    destruct (ns - no - 1 <? lenN l) eqn:E5; [lia|].
    destruct (lenN buf <=? off + 1 + lenN l) eqn:E6; [lia|].
    rewrite Hr.
    destruct (cap <? no + lenN l + 1) eqn:E7; [lia|].
    destruct (no + lenN l + 1 <? ns) eqn:E8; [|lia].
    assert (Hm : (rdl + lenN l + 1) mod 65536 = rdl + lenN l + 1) by (apply N.mod_small; lia).
    rewrite Hm.
    rewrite (IH f (rdl + lenN l + 1) (acc ++ l ++ [46]) (no + lenN l + 1) ns cap rdepth) by (try assumption; lia).
    f_equal. f_equal; [|lia]. f_equal.
    unfold name_result.
    destruct (no + lenN l + 1 =? 0) eqn:E9; [lia|].
    destruct rest as [|l2 rest].
    + cbn [dotted app]. reflexivity.
    + change (dotted (l :: l2 :: rest)) with (l ++ [46] ++ dotted (l2 :: rest)).
      rewrite !app_assoc. reflexivity.
  - (* a compression pointer *)
    pose proof (nthN_lt _ _ _ Hb) as Hin.
    pose proof (name_at_start _ _ _ _ _ Htgt) as Hp.
    pose proof (name_at_labels_nonempty _ _ _ _ _ Htgt) as Hne.
    destruct (lenN buf <=? off) eqn:E0; [lia|]. rewrite Ha.
    destruct (191 <? a) eqn:Eg; [|lia].
    destruct (64 <? rdepth) eqn:E1; [lia|].
    unfold dns_sizeof_ushort.
    destruct (lenN buf <? off + 2) eqn:E2; [lia|].
    unfold rd16. rewrite Ha, Hb.
    destruct (lenN buf <=? (a * 256 + b) mod 16384) eqn:E3; [lia|].
    destruct (ns <? no) eqn:E4; [lia|].
    destruct (cap <? no) eqn:E5; [lia|].
    destruct (ns - no =? 0) eqn:E6; [lia|].
    rewrite (IH f rdl acc 0 (ns - no) (cap - no) (rdepth + 1)) by (try assumption; lia).
    destruct (0 <? no) eqn:Eno.
    + (* the fix-up after the recursive call *)
      destruct (cap <=? no) eqn:E7; [lia|].
      destruct (no =? 0) eqn:En0; [lia|].
      destruct labels as [|l r].
      * (* the pointer led to the root label: the dot behind our last label goes *)
        cbn [name_result]. change (0 =? 0) with true. cbv iota.
        rewrite nthN_app_len. change (0 =? 0) with true. cbv iota.
        rewrite N.eqb_refl. rewrite En0. reflexivity.
      * inversion Hne as [|? ? Hl1 _]; subst. inversion Hnz as [|? ? Hnzl _]; subst.
        destruct l as [|x l']; [cbn [lenN] in Hl1; lia|].
        cbn [forallb] in Hnzl. apply andb_prop in Hnzl as [Hx _]. unfold nz in Hx.
        unfold name_result. rewrite (removelast_dotted acc (x :: l') r).
        destruct (x =? 0) eqn:Ex; [discriminate|].
        destruct r as [|l2 r']; cbn [join_dots]; rewrite <- ?app_assoc; cbn [app];
          rewrite nthN_app_len, Ex; reflexivity.
    + assert (no = 0) by lia. subst no.
      unfold name_result. destruct labels; reflexivity.
Qed.

Theorem name_unpack_decodes : forall buf d off labels e ns cap,
  name_at buf d off labels e -> labels_nz labels ->
  (d <= 65)%nat -> wire labels < ns -> ns <= cap -> ns <= 65536 ->
  name_unpack buf (lenN buf) off ns cap 0 = Ok (join_dots labels, e, wire labels).
Proof.
  intros buf d off labels e ns cap H Hnz Hd Hw Hcap Hns.
  unfold name_unpack. destruct (ns =? 0) eqn:E; [lia|].
  rewrite (name_loop_decodes buf d off labels e H) by (try assumption; unfold name_fuel; lia).
  replace (0 + wire labels) with (wire labels) by lia.
  unfold name_result. destruct labels as [|l r]; [reflexivity|].
  rewrite (removelast_dotted [] l r). reflexivity.
Qed.

(* regression for the repaired defect: labels followed by a pointer to a root label lose their dot *)
Definition ptr_root_buf : bytes := [22;246;129;128;0;1;0;0;0;0;0;0; 3;119;119;119;192;4; 0;1;0;1].

Lemma ptr_root_layout : name_at ptr_root_buf 1 12 [[119;119;119]] 18.
Proof.
  apply na_label with (l := [119;119;119]); try (cbn; lia); try reflexivity.
  apply (na_ptr ptr_root_buf 0 16 192 4 [] 5); try reflexivity.
  apply (na_root ptr_root_buf 0 4). reflexivity.
Qed.

(* the text form is a C string (no NUL octet inside a label) *)
Definition text_ok (labels : list bytes) : Prop := cstr (join_dots labels) = join_dots labels.

Definition header_wf (h : header) : Prop :=
  h_id h < 65536 /\ h_qr h < 2 /\ h_opcode h < 16 /\ h_aa h < 2 /\ h_tc h < 2 /\ h_rd h < 2 /\ h_ra h < 2 /\
  h_rcode h < 16 /\ h_qd h < 65536 /\ h_an h < 65536 /\ h_ns h < 65536 /\ h_ar h < 65536.

(* header with the reserved Z bits set to z *)
Definition enc_header_z (h : header) (z : N) : bytes :=
  be16 (h_id h) ++
  be16 (h_qr h * 32768 + h_opcode h * 2048 + h_aa h * 1024 + h_tc h * 512 + h_rd h * 256 + h_ra h * 128 + z * 16 + h_rcode h) ++
  be16 (h_qd h) ++ be16 (h_an h) ++ be16 (h_ns h) ++ be16 (h_ar h).

Definition hdr_at (buf : bytes) (h : header) : Prop :=
  header_wf h /\ exists z, z < 8 /\ takeN 12 buf = enc_header_z h z.

Definition rr_at (buf : bytes) (off : N) (r : rr) (off' : N) : Prop :=
  exists d labels e rdlen,
    name_at buf d off labels e /\ (d <= 65)%nat /\ wire labels < 256 /\ text_ok labels /\
    rr_name r = join_dots labels /\
    rd16 buf e = Some (rr_type r) /\ rd16 buf (e + 2) = Some (rr_class r) /\
    rd32 buf (e + 4) = Some (rr_ttl r) /\ rd16 buf (e + 8) = Some rdlen /\
    off' = e + 10 + rdlen /\ off' <= lenN buf /\
    if rr_type r =? dns_TYPE_PTR then
      exists pd pl pe, name_at buf pd (e + 10) pl pe /\ (pd <= 65)%nat /\ wire pl < 256 /\ text_ok pl /\
        pe <= off' /\ rr_rdata r = join_dots pl /\ rr_rdlength r = wire pl
    else rd_range buf (e + 10) rdlen = Some (rr_rdata r) /\ rr_rdlength r = rdlen.

Inductive rrs_at (buf : bytes) : N -> list rr -> N -> Prop :=
| rrs_at_nil : forall off, rrs_at buf off [] off
| rrs_at_cons : forall off r off1 rest off2,
    rr_at buf off r off1 -> rrs_at buf off1 rest off2 -> rrs_at buf off (r :: rest) off2.

Definition msg_at (buf : bytes) (h : header) (q : query) (rrs : list rr) : Prop :=
  hdr_at buf h /\ h_qd h = 1 /\
  exists d ql e,
    name_at buf d 12 ql e /\ (d <= 65)%nat /\ wire ql < 256 /\ text_ok ql /\
    q_name q = join_dots ql /\ rd16 buf e = Some (q_type q) /\ rd16 buf (e + 2) = Some (q_class q) /\
    (h_rcode h = 0 -> exists eoff, rrs_at buf (e + 4) rrs eoff /\ lenN rrs = h_an h).

Lemma text_ok_nz labels : text_ok labels -> labels_nz labels.
Proof. intros H. apply join_dots_nz. rewrite <- H. apply cstr_nz. Qed.

Lemma be_val m v : m <> 0 -> v < m * m -> (v / m) mod m * m + v mod m = v.
Proof.
  intros Hm Hv. rewrite (N.mod_small (v / m)) by (apply N.div_lt_upper_bound; assumption).
  rewrite N.mul_comm. symmetry. apply N.div_mod, Hm.
Qed.

Lemma be16_rd a b : a < 256 -> b < 256 -> forall v, v < 65536 -> [a; b] = be16 v -> a * 256 + b = v.
Proof. intros _ _ v Hv H. injection H as -> ->. now apply (be_val 256). Qed.

Lemma nthN_at {A} (buf a : list A) x b off : buf = a ++ x :: b -> off = lenN a -> nthN off buf = Some x.
Proof. intros -> ->. apply nthN_app_len. Qed.

Lemma rd_range_at buf a d b off n : buf = a ++ d ++ b -> off = lenN a -> n = lenN d -> rd_range buf off n = Some d.
Proof.
  intros -> -> ->. unfold rd_range. rewrite !lenN_app.
  destruct (lenN a + lenN d <=? lenN a + (lenN d + lenN b)) eqn:E; [|lia].
  rewrite dropN_app_exact, takeN_app_exact. reflexivity.
Qed.

Lemma rd16_at buf a v b off : buf = a ++ be16 v ++ b -> off = lenN a -> v < 65536 -> rd16 buf off = Some v.
Proof.
  intros -> -> Hv. unfold rd16, be16. cbn [app]. rewrite nthN_app_len.
  rewrite (nthN_at _ (a ++ [(v / 256) mod 256]) (v mod 256) b (lenN a + 1)).
  - f_equal. now apply (be_val 256).
  - now rewrite <- app_assoc.
  - now rewrite lenN_app.
Qed.

Lemma rd32_at buf a v b off : buf = a ++ be32 v ++ b -> off = lenN a -> v < 4294967296 -> rd32 buf off = Some v.
Proof.
  intros -> -> Hv. unfold rd32, be32. rewrite <- app_assoc.
  rewrite (rd16_at _ a ((v / 65536) mod 65536) (be16 (v mod 65536) ++ b) (lenN a)), 
          (rd16_at _ (a ++ be16 ((v / 65536) mod 65536)) (v mod 65536) b (lenN a + 2));
    try reflexivity; try (apply N.mod_lt; discriminate).
  - f_equal. now apply (be_val 65536).
  - now rewrite <- app_assoc.
  - now rewrite lenN_app.
Qed.

Lemma rd16_in_range buf off v : rd16 buf off = Some v -> off + 2 <= lenN buf.
Proof.
  unfold rd16. destruct (nthN off buf) eqn:E1; [|discriminate].
  destruct (nthN (off + 1) buf) eqn:E2; [|discriminate]. intros _.
  apply nthN_lt in E2. lia.
Qed.

(* the bit fields of the second header word *)
Lemma flags_decode qr op aa tc rd ra z rc :
  qr < 2 -> op < 16 -> aa < 2 -> tc < 2 -> rd < 2 -> ra < 2 -> z < 8 -> rc < 16 ->
  forall t, t = qr * 32768 + op * 2048 + aa * 1024 + tc * 512 + rd * 256 + ra * 128 + z * 16 + rc ->
  (t / 32768) mod 2 = qr /\ (t / 2048) mod 16 = op /\ (t / 1024) mod 2 = aa /\ (t / 512) mod 2 = tc /\
  (t / 256) mod 2 = rd /\ (t / 128) mod 2 = ra /\ t mod 16 = rc /\ t < 65536.
Proof. intros. subst t. repeat split; (zify; Z.div_mod_to_equations; lia). Qed.

Lemma header_unpack_words id t qd an ns ar rest sz :
  12 <= sz -> id < 65536 -> t < 65536 -> qd < 65536 -> an < 65536 -> ns < 65536 -> ar < 65536 ->
  header_unpack (be16 id ++ be16 t ++ be16 qd ++ be16 an ++ be16 ns ++ be16 ar ++ rest) sz =
  Ok (mkHdr id ((t / 32768) mod 2) ((t / 2048) mod 16) ((t / 1024) mod 2) ((t / 512) mod 2)
            ((t / 256) mod 2) ((t / 128) mod 2) (t mod 16) qd an ns ar).
Proof.
  intros Hsz Hid Ht Hqd Han Hns Har. unfold header_unpack. rewrite (proj2 (N.ltb_ge sz 12) Hsz).
  rewrite (rd16_at _ [] id _ 0), (rd16_at _ (be16 id) t _ 2), (rd16_at _ (be16 id ++ be16 t) qd _ 4),
    (rd16_at _ (be16 id ++ be16 t ++ be16 qd) an _ 6), (rd16_at _ (be16 id ++ be16 t ++ be16 qd ++ be16 an) ns _ 8),
    (rd16_at _ (be16 id ++ be16 t ++ be16 qd ++ be16 an ++ be16 ns) ar rest 10) by (reflexivity || assumption).
  reflexivity.
Qed.

Lemma lenN_enc_header_z h z : lenN (enc_header_z h z) = 12. Proof. reflexivity. Qed.

Lemma header_unpack_at buf h : hdr_at buf h -> header_unpack buf (lenN buf) = Ok h.
Proof.
  intros (Hwf & z & Hz & Ht).
  assert (Hlen : 12 <= lenN buf).
  { pose proof (lenN_takeN 12 buf) as L. rewrite Ht, lenN_enc_header_z in L. lia. }
  revert Hlen. generalize (lenN buf) as sz. intros sz Hsz. rewrite <- (takeN_dropN 12 buf), Ht.
  destruct h as [id qr op aa tc rd ra rc qd an ns ar].
  destruct Hwf as (H1 & H2 & H3 & H4 & H5 & H6 & H7 & H8 & H9 & H10 & H11 & H12).
  unfold enc_header_z. cbn [h_id h_qr h_opcode h_aa h_tc h_rd h_ra h_rcode h_qd h_an h_ns h_ar] in *.
  remember (qr * 32768 + op * 2048 + aa * 1024 + tc * 512 + rd * 256 + ra * 128 + z * 16 + rc) as t eqn:Et.
  destruct (flags_decode qr op aa tc rd ra z rc H2 H3 H4 H5 H6 H7 Hz H8 t Et) as (F1 & F2 & F3 & F4 & F5 & F6 & F7 & Ft).
  rewrite <- !app_assoc, header_unpack_words by assumption. now rewrite F1, F2, F3, F4, F5, F6, F7.
Qed.

Lemma rr_unpack_at buf off r off' : rr_at buf off r off' -> rr_unpack buf (lenN buf) off = Ok (r, off').
Proof.
  intros (d & labels & e & rdlen & Hn & Hd & Hw & Htxt & Hname & Hty & Hcl & Httl & Hrdl & Hoff & Hin & Hrd).
  unfold rr_unpack.
  rewrite (name_unpack_decodes buf d off labels e dns_MAXHOSTNAMESZ dns_sizeof_rr_name Hn (text_ok_nz _ Htxt) Hd)
    by (unfold dns_MAXHOSTNAMESZ, dns_sizeof_rr_name; lia).
  destruct (lenN buf <? e + 10) eqn:E1; [lia|].
  rewrite Hty, Hcl, Httl, Hrdl.
  destruct (lenN buf <? e + 10 + rdlen) eqn:E2; [lia|].
  destruct r as [rn rt rc rtl rl rd]. cbn [rr_name rr_type rr_class rr_ttl rr_rdlength rr_rdata] in *.
  destruct (rt =? dns_TYPE_PTR) eqn:Ety.
  - destruct Hrd as (pd & pl & pe & Hpn & Hpd & Hpw & Hptxt & Hpe & Hrdata & Hrlen).
    rewrite (name_unpack_decodes buf pd (e + 10) pl pe dns_MAXHOSTNAMESZ dns_MAXHOSTNAMESZ Hpn (text_ok_nz _ Hptxt) Hpd)
      by (unfold dns_MAXHOSTNAMESZ; lia).
    destruct (e + 10 + rdlen <? pe) eqn:E3; [lia|].
    unfold text_ok in *. rewrite Htxt, Hptxt. subst. reflexivity.
  - destruct Hrd as (Hrdata & Hrlen). rewrite Hrdata.
    unfold text_ok in *. rewrite Htxt. subst. reflexivity.
Qed.

Lemma rr_at_start buf off r off' : rr_at buf off r off' -> off < lenN buf.
Proof. intros (d & labels & e & rdlen & Hn & _). eapply name_at_start; exact Hn. Qed.

Lemma rrs_loop_at buf off rrs eoff :
  rrs_at buf off rrs eoff -> rrs_loop (N.to_nat (lenN rrs)) buf (lenN buf) off = Ok rrs.
Proof.
  intros H. induction H as [off | off r off1 rest off2 Hr Hrest IH]; [reflexivity|].
  cbn [lenN]. rewrite N2Nat.inj_succ. cbn [rrs_loop].
  pose proof (rr_at_start _ _ _ _ Hr) as Hs.
  destruct (lenN buf <=? off) eqn:E; [lia|].
  rewrite (rr_unpack_at _ _ _ _ Hr), IH. reflexivity.
Qed.

Theorem message_unpack_at : forall buf h q rrs,
  msg_at buf h q rrs ->
  message_unpack buf = Ok (if h_rcode h =? 0 then UAnswers h q rrs else URcode h q).
Proof.
  intros buf h q rrs (Hh & Hqd & d & ql & e & Hn & Hd & Hw & Htxt & Hqn & Hqt & Hqc & Hrrs).
  unfold message_unpack. rewrite (header_unpack_at _ _ Hh).
  rewrite Hqd. cbn [N.eqb Pos.eqb negb].
  unfold query_unpack.
  rewrite (name_unpack_decodes buf d 12 ql e dns_MAXHOSTNAMESZ dns_sizeof_query_name Hn (text_ok_nz _ Htxt) Hd)
    by (unfold dns_MAXHOSTNAMESZ, dns_sizeof_query_name; lia).
  pose proof (rd16_in_range _ _ _ Hqc) as Hin.
  destruct (lenN buf <? e + 4) eqn:E1; [lia|].
  rewrite Hqt, Hqc.
  assert (Hq : mkQ (cstr (join_dots ql)) (q_type q) (q_class q) = q).
  { unfold text_ok in Htxt. rewrite Htxt. destruct q; cbn in *; subst; reflexivity. }
  rewrite Hq.
  destruct (h_rcode h =? 0) eqn:Erc; cbn [negb]; [|reflexivity].
  destruct Hrrs as (eoff & Hat & Hlen); [lia|].
  destruct (h_an h =? 0) eqn:Ean.
  - destruct rrs; [reflexivity|cbn [lenN] in Hlen; lia].
  - rewrite <- Hlen. rewrite (rrs_loop_at _ _ _ _ Hat).
    destruct rrs; [cbn [lenN] in Hlen; lia|reflexivity].
Qed.

Definition labels_wf (labels : list bytes) : Prop := Forall (fun l => 1 <= lenN l /\ lenN l <= 63) labels.

Lemma lenN_be16 v : lenN (be16 v) = 2. Proof. reflexivity. Qed.
Lemma lenN_be32 v : lenN (be32 v) = 4. Proof. reflexivity. Qed.

Lemma lenN_enc_labels labels : lenN (enc_labels labels) = wire labels.
Proof.
  induction labels as [|l r IH]; [reflexivity|].
  cbn [enc_labels wire lenN]. rewrite lenN_app, IH. lia.
Qed.

Lemma lenN_enc_name labels : lenN (enc_name labels) = wire labels + 1.
Proof. unfold enc_name. rewrite lenN_app, lenN_enc_labels. reflexivity. Qed.

(* the fixed part of a resource record: TYPE, CLASS, TTL, RDLENGTH *)
Lemma fixed_fields_at buf a ty cl ttl rdl b e :
  buf = a ++ be16 ty ++ be16 cl ++ be32 ttl ++ be16 rdl ++ b -> e = lenN a ->
  ty < 65536 -> cl < 65536 -> ttl < 4294967296 -> rdl < 65536 ->
  rd16 buf e = Some ty /\ rd16 buf (e + 2) = Some cl /\ rd32 buf (e + 4) = Some ttl /\ rd16 buf (e + 8) = Some rdl.
Proof.
  intros -> -> Hty Hcl Httl Hrdl. repeat split.
  - now apply (rd16_at _ a ty (be16 cl ++ be32 ttl ++ be16 rdl ++ b)).
  - apply (rd16_at _ (a ++ be16 ty) cl (be32 ttl ++ be16 rdl ++ b)); [now rewrite <- app_assoc| now rewrite lenN_app| exact Hcl].
  - apply (rd32_at _ (a ++ be16 ty ++ be16 cl) ttl (be16 rdl ++ b)); [now rewrite <- !app_assoc| now rewrite lenN_app| exact Httl].
  - apply (rd16_at _ (a ++ be16 ty ++ be16 cl ++ be32 ttl) rdl b); [now rewrite <- !app_assoc| now rewrite lenN_app| exact Hrdl].
Qed.

Lemma name_at_enc_labels : forall labels buf pre post,
  labels_wf labels ->
  buf = pre ++ enc_labels labels ++ 0 :: post ->
  name_at buf 0 (lenN pre) labels (lenN pre + wire labels + 1).
Proof.
  induction labels as [|l r IH]; intros buf pre post Hwf Hbuf.
  - cbn [enc_labels app wire] in *. replace (lenN pre + 0 + 1) with (lenN pre + 1) by lia.
    apply na_root. eapply nthN_at; [exact Hbuf|reflexivity].
  - inversion Hwf as [|? ? [Hl1 Hl2] Hwf']; subst.
    cbn [enc_labels wire].
    apply na_label; try assumption.
    + eapply nthN_at; [|reflexivity]. cbn [app]. reflexivity.
    + apply (rd_range_at _ (pre ++ [lenN l]) l (enc_labels r ++ 0 :: post)).
      * cbn [app]. rewrite <- !app_assoc. cbn [app]. reflexivity.
      * rewrite lenN_app. reflexivity.
      * reflexivity.
    + replace (lenN pre + (lenN l + 1 + wire r) + 1) with (lenN (pre ++ lenN l :: l) + wire r + 1)
        by (rewrite lenN_app; cbn [lenN]; lia).
      replace (lenN pre + 1 + lenN l) with (lenN (pre ++ lenN l :: l)) by (rewrite lenN_app; cbn [lenN]; lia).
      apply (IH _ (pre ++ lenN l :: l) post Hwf').
      cbn [app]. rewrite <- !app_assoc. cbn [app]. reflexivity.
Qed.

Lemma name_at_enc_name labels buf pre post :
  labels_wf labels -> buf = pre ++ enc_name labels ++ post ->
  name_at buf 0 (lenN pre) labels (lenN pre + lenN (enc_name labels)).
Proof.
  intros Hwf ->. rewrite lenN_enc_name. rewrite N.add_assoc.
  apply (name_at_enc_labels labels _ pre post Hwf).
  unfold enc_name. rewrite <- app_assoc. reflexivity.
Qed.

(* a record as the reference encoder sees it *)
Record rrspec := mkRS {
  rs_compress : bool;        (* emit the owner name as a pointer to the question name (offset 12) *)
  rs_owner : list bytes; rs_type : N; rs_class : N; rs_ttl : N;
  rs_target : list bytes;    (* rdata of a PTR record: a domain name *)
  rs_data : bytes }.         (* rdata of any other record (A, AAAA, CNAME, ...): opaque octets *)

Definition enc_rdata (r : rrspec) : bytes :=
  if rs_type r =? dns_TYPE_PTR then enc_name (rs_target r) else rs_data r.

Definition enc_rr (r : rrspec) : bytes :=
  (if rs_compress r then [192; 12] else enc_name (rs_owner r)) ++
  be16 (rs_type r) ++ be16 (rs_class r) ++ be32 (rs_ttl r) ++ be16 (lenN (enc_rdata r)) ++ enc_rdata r.

Definition dec_rr (r : rrspec) : rr :=
  mkRR (join_dots (rs_owner r)) (rs_type r) (rs_class r) (rs_ttl r)
       (if rs_type r =? dns_TYPE_PTR then wire (rs_target r) else lenN (rs_data r))
       (if rs_type r =? dns_TYPE_PTR then join_dots (rs_target r) else rs_data r).

Definition rr_wf (ql : list bytes) (r : rrspec) : Prop :=
  labels_wf (rs_owner r) /\ wire (rs_owner r) < 256 /\ text_ok (rs_owner r) /\
  rs_type r < 65536 /\ rs_class r < 65536 /\ rs_ttl r < 4294967296 /\
  (rs_compress r = true -> rs_owner r = ql /\ ql <> []) /\
  if rs_type r =? dns_TYPE_PTR
  then labels_wf (rs_target r) /\ wire (rs_target r) < 256 /\ text_ok (rs_target r)
  else lenN (rs_data r) < 65536.

Definition enc_msg (h : header) (z : N) (ql : list bytes) (qt qc : N) (rrs : list rrspec) (trailer : bytes) : bytes :=
  enc_header_z h z ++ enc_name ql ++ be16 qt ++ be16 qc ++ concat (map enc_rr rrs) ++ trailer.

Lemma rr_at_enc buf ql qe r pre post :
  name_at buf 0 12 ql qe -> rr_wf ql r ->
  buf = pre ++ enc_rr r ++ post ->
  rr_at buf (lenN pre) (dec_rr r) (lenN pre + lenN (enc_rr r)).
Proof.
  intros Hq (Hwf & Hw & Htxt & Hty & Hcl & Httl & Hcomp & Hrd) Hbuf.
  set (o := if rs_compress r then [192; 12] else enc_name (rs_owner r)) in *.
  assert (Hbuf' : buf = pre ++ o ++ be16 (rs_type r) ++ be16 (rs_class r) ++ be32 (rs_ttl r) ++
                        be16 (lenN (enc_rdata r)) ++ enc_rdata r ++ post).
  { rewrite Hbuf. unfold enc_rr. fold o. rewrite <- !app_assoc. reflexivity. }
  assert (Hlen : lenN (enc_rr r) = lenN o + 10 + lenN (enc_rdata r)).
  { unfold enc_rr. fold o. rewrite !lenN_app, !lenN_be16, lenN_be32. lia. }
  assert (Hname : exists d, name_at buf d (lenN pre) (rs_owner r) (lenN pre + lenN o) /\ (d <= 65)%nat).
  { subst o. destruct (rs_compress r) eqn:Ec.
    - destruct (Hcomp eq_refl) as [Heq Hne]. exists 1%nat. split; [|lia].
      replace (lenN pre + lenN [192; 12]) with (lenN pre + 2) by reflexivity.
      apply (na_ptr buf 0 (lenN pre) 192 12 (rs_owner r) qe).
      + eapply nthN_at; [exact Hbuf'|reflexivity].
      + reflexivity.
      + eapply (nthN_at buf (pre ++ [192])); [rewrite Hbuf', <- app_assoc; reflexivity| now rewrite lenN_app].
      + rewrite Heq. exact Hq.
    - exists 0%nat. split; [|lia]. apply (name_at_enc_name _ _ pre _ Hwf Hbuf'). }
  destruct Hname as (d & Hn & Hd).
  assert (Hrdl : lenN (enc_rdata r) < 65536).
  { unfold enc_rdata. destruct (rs_type r =? dns_TYPE_PTR); [|exact Hrd].
    destruct Hrd as (_ & Hw2 & _). rewrite lenN_enc_name. lia. }
  destruct (fixed_fields_at buf (pre ++ o) (rs_type r) (rs_class r) (rs_ttl r) (lenN (enc_rdata r)) (enc_rdata r ++ post)
              (lenN pre + lenN o)) as (R1 & R2 & R3 & R4); [now rewrite Hbuf', <- app_assoc| now rewrite lenN_app| assumption..|].
  exists d, (rs_owner r), (lenN pre + lenN o), (lenN (enc_rdata r)).
  cbn [dec_rr rr_name rr_type rr_class rr_ttl rr_rdata rr_rdlength].
  repeat (split; [assumption || reflexivity|]).
  split; [lia|].
  split. { rewrite Hbuf. rewrite !lenN_app. lia. }
  set (pre5 := ((((pre ++ o) ++ be16 (rs_type r)) ++ be16 (rs_class r)) ++ be32 (rs_ttl r)) ++ be16 (lenN (enc_rdata r))).
  assert (Hbuf5 : buf = pre5 ++ enc_rdata r ++ post).
  { subst pre5. rewrite Hbuf', <- !app_assoc. reflexivity. }
  assert (Hoff5 : lenN pre + lenN o + 10 = lenN pre5).
  { subst pre5. rewrite !lenN_app, !lenN_be16, lenN_be32. lia. }
  unfold enc_rdata in *.
  destruct (rs_type r =? dns_TYPE_PTR) eqn:Ety.
  - destruct Hrd as (Hwf2 & Hw2 & Htxt2).
    exists 0%nat, (rs_target r), (lenN pre5 + lenN (enc_name (rs_target r))).
    split. { rewrite Hoff5. apply (name_at_enc_name _ _ pre5 post Hwf2 Hbuf5). }
    split; [lia|]. split; [exact Hw2|]. split; [exact Htxt2|]. split; [lia|]. split; reflexivity.
  - split; [|reflexivity]. apply (rd_range_at buf pre5 (rs_data r) post); [exact Hbuf5|lia|reflexivity].
Qed.

Lemma rrs_at_enc buf ql qe : name_at buf 0 12 ql qe ->
  forall rrs pre post, Forall (rr_wf ql) rrs ->
  buf = pre ++ concat (map enc_rr rrs) ++ post ->
  rrs_at buf (lenN pre) (map dec_rr rrs) (lenN pre + lenN (concat (map enc_rr rrs))).
Proof.
  intros Hq. induction rrs as [|r rest IH]; intros pre post Hwf Hbuf.
  - cbn [map concat lenN]. rewrite N.add_0_r. constructor.
  - inversion Hwf as [|? ? Hr Hrest]; subst.
    cbn [map concat]. rewrite lenN_app, N.add_assoc.
    apply rrs_at_cons with (off1 := lenN pre + lenN (enc_rr r)).
    + apply (rr_at_enc _ ql qe r pre (concat (map enc_rr rest) ++ post) Hq Hr).
      cbn [map concat]. rewrite <- !app_assoc. reflexivity.
    + rewrite <- lenN_app. apply (IH (pre ++ enc_rr r) post Hrest).
      cbn [map concat]. rewrite <- !app_assoc. reflexivity.
Qed.

Theorem enc_msg_decodes : forall h z ql qt qc rrs trailer,
  header_wf h -> z < 8 -> h_qd h = 1 -> h_an h = lenN rrs ->
  labels_wf ql -> wire ql < 256 -> text_ok ql -> qt < 65536 -> qc < 65536 ->
  Forall (rr_wf ql) rrs ->
  message_unpack (enc_msg h z ql qt qc rrs trailer) =
  Ok (if h_rcode h =? 0 then UAnswers h (mkQ (join_dots ql) qt qc) (map dec_rr rrs)
      else URcode h (mkQ (join_dots ql) qt qc)).
Proof.
  intros h z ql qt qc rrs trailer Hh Hz Hqd Han Hwf Hw Htxt Hqt Hqc Hrrs.
  set (buf := enc_msg h z ql qt qc rrs trailer).
  assert (Hq : name_at buf 0 12 ql (12 + lenN (enc_name ql))).
  { change 12 with (lenN (enc_header_z h z)).
    eapply (name_at_enc_name ql buf (enc_header_z h z)); [exact Hwf| reflexivity]. }
  set (qpre := enc_header_z h z ++ enc_name ql).
  assert (Hbuf : buf = qpre ++ be16 qt ++ be16 qc ++ concat (map enc_rr rrs) ++ trailer)
    by (subst buf qpre; unfold enc_msg; now rewrite <- app_assoc).
  assert (Hqpre : 12 + lenN (enc_name ql) = lenN qpre) by (subst qpre; now rewrite lenN_app).
  apply message_unpack_at.
  split.
  { split; [exact Hh|]. exists z. split; [exact Hz|].
    subst buf. unfold enc_msg.
    rewrite <- (lenN_enc_header_z h z) at 1. apply takeN_app_exact. }
  split; [exact Hqd|].
  exists 0%nat, ql, (12 + lenN (enc_name ql)).
  split; [exact Hq|]. split; [lia|]. split; [exact Hw|]. split; [exact Htxt|]. split; [reflexivity|].
  cbn [q_type q_class].
  split. { now apply (rd16_at buf qpre qt (be16 qc ++ concat (map enc_rr rrs) ++ trailer)). }
  split. { apply (rd16_at buf (qpre ++ be16 qt) qc (concat (map enc_rr rrs) ++ trailer));
           [now rewrite Hbuf, <- app_assoc| now rewrite lenN_app, <- Hqpre| exact Hqc]. }
  intros _. set (pre := (qpre ++ be16 qt) ++ be16 qc).
  assert (Hpre : 12 + lenN (enc_name ql) + 4 = lenN pre).
  { subst pre. rewrite !lenN_app, !lenN_be16, <- Hqpre. lia. }
  exists (lenN pre + lenN (concat (map enc_rr rrs))). split.
  - rewrite Hpre. apply (rrs_at_enc buf ql _ Hq rrs pre trailer Hrrs).
    subst pre. now rewrite Hbuf, <- !app_assoc.
  - rewrite Han. apply lenN_map.
Qed.

(* every token is non-empty and made of non-NUL octets (when the string is) *)
Lemma tokens_from_ok : forall s cur,
  forallb nz cur = true -> forallb nz s = true ->
  Forall (fun t => 1 <= lenN t /\ forallb nz t = true) (tokens_from cur s).
Proof.
  induction s as [|c r IH]; intros cur Hcur Hs; cbn [tokens_from].
  - destruct cur as [|x cur']; [constructor|]. constructor; [|constructor].
    split; [cbn [lenN]; lia|exact Hcur].
  - cbn [forallb] in Hs. apply andb_prop in Hs as [Hc Hr].
    destruct (c =? 46) eqn:E.
    + destruct cur as [|x cur'].
      * apply IH; [reflexivity|exact Hr].
      * constructor; [split; [cbn [lenN]; lia|exact Hcur]|]. apply IH; [reflexivity|exact Hr].
    + apply IH; [|exact Hr]. rewrite forallb_app. rewrite Hcur. cbn [forallb]. rewrite Hc. reflexivity.
Qed.

Definition cut63 (toks : list bytes) : list bytes := map (takeN dns_MAXLABELSZ) toks.

Lemma label_pack_eq sz t :
  label_pack sz t = if sz <? lenN (takeN dns_MAXLABELSZ t) + 1 then Bad AssertFail
                    else Ok (lenN (takeN dns_MAXLABELSZ t) :: takeN dns_MAXLABELSZ t).
Proof.
  unfold label_pack. rewrite lenN_takeN, (N.min_comm dns_MAXLABELSZ).
  destruct (N.le_gt_cases (lenN t) dns_MAXLABELSZ) as [H|H]; [|now rewrite N.min_r by lia].
  now rewrite N.min_l, !takeN_all by lia.
Qed.

Lemma labels_pack_enc : forall toks sz off out out' off',
  labels_pack sz off toks out = Ok (out', off') ->
  out' = out ++ enc_labels (cut63 toks) /\ off' = off + wire (cut63 toks).
Proof.
  induction toks as [|t r IH]; intros sz off out out' off' H; cbn [labels_pack] in H.
  - injection H as <- <-. cbn [cut63 map enc_labels wire]. rewrite app_nil_r. split; [reflexivity|lia].
  - destruct (sz <? off); [discriminate|]. rewrite label_pack_eq in H.
    destruct (sz - off <? lenN (takeN dns_MAXLABELSZ t) + 1); [discriminate|].
    apply IH in H as [-> ->]. cbn [cut63 map enc_labels wire lenN]. fold (cut63 r).
    split; [now rewrite <- app_assoc|lia].
Qed.

Lemma name_pack_enc sz name out off :
  name_pack sz name = Ok (out, off) ->
  out = enc_name (cut63 (tokens (cstr name))) /\ off = lenN out.
Proof.
  unfold name_pack.
  destruct (labels_pack sz 0 (tokens (cstr name)) []) as [[o f]| |b] eqn:E; try discriminate.
  apply labels_pack_enc in E as [-> ->].
  destruct (sz <=? 0 + wire (cut63 (tokens (cstr name)))); [discriminate|].
  intros H. injection H as <- <-. cbn [app]. split; [reflexivity|].
  fold (enc_name (cut63 (tokens (cstr name)))). rewrite lenN_enc_name. lia.
Qed.

Lemma cut63_wf toks : Forall (fun t => 1 <= lenN t /\ forallb nz t = true) toks ->
  labels_wf (cut63 toks) /\ Forall (fun t => forallb nz t = true) (cut63 toks).
Proof.
  induction 1 as [|t r [H1 H2] Hr [IH1 IH2]]; cbn [cut63 map]; [split; constructor|].
  split; constructor; try assumption.
  - rewrite lenN_takeN. unfold dns_MAXLABELSZ. lia.
  - apply forallb_takeN_dropN, H2.
Qed.

(* the labels a host name is packed as: strtok tokens, each cut to 63 octets *)
Definition host_labels (hostname : bytes) : list bytes := cut63 (tokens (cstr hostname)).

Lemma host_labels_ok hostname : labels_wf (host_labels hostname) /\ text_ok (host_labels hostname).
Proof.
  unfold host_labels, tokens.
  destruct (cut63_wf (tokens_from [] (cstr hostname))) as [H1 H2].
  { apply tokens_from_ok; [reflexivity|apply cstr_nz]. }
  split; [exact H1|]. unfold text_ok. apply cstr_id. apply join_dots_nz. exact H2.
Qed.

Lemma cstr_cstr s : cstr (cstr s) = cstr s.
Proof. apply cstr_id. apply cstr_nz. Qed.

Definition query_header (qid edns : N) : header := mkHdr qid 0 0 0 0 1 0 0 1 0 0 (if 0 <? edns then 1 else 0).

Theorem build_query_roundtrip : forall sz hostname qid qtype edns msg q,
  build_query sz hostname qid qtype edns = Ok (msg, q) ->
  qid < 65536 -> wire (host_labels hostname) < 256 ->
  q = mkQ (takeN (dns_sizeof_query_name - 1) (cstr hostname)) (qtype mod 65536) dns_CLASS_IN /\
  message_unpack msg =
    Ok (UAnswers (query_header qid edns) (mkQ (join_dots (host_labels hostname)) (qtype mod 65536) dns_CLASS_IN) []).
Proof.
  intros sz hostname qid qtype edns msg q H Hqid Hw.
  unfold build_query in H. fold (query_header qid edns) in H.
  destruct (header_pack sz (query_header qid edns)) as [hb| |] eqn:Eh; try discriminate.
  assert (Hhb : hb = enc_header_z (query_header qid edns) 0).
  { unfold header_pack in Eh. destruct (sz <? 12); [discriminate|]. now injection Eh as <-. }
  unfold question_pack in H.
  destruct (name_pack (sz - 12) (cstr hostname)) as [[nb noff]| |b] eqn:En; try discriminate.
  apply name_pack_enc in En as [Hnb Hnoff]. rewrite cstr_cstr in Hnb. fold (host_labels hostname) in Hnb.
  destruct (sz - 12 <? noff + 4); [discriminate|].
  destruct (host_labels_ok hostname) as [Hwf Htxt].
  assert (Hdec : forall tail,
    message_unpack (hb ++ (nb ++ be16 (qtype mod 65536) ++ be16 dns_CLASS_IN) ++ tail) =
    Ok (UAnswers (query_header qid edns) (mkQ (join_dots (host_labels hostname)) (qtype mod 65536) dns_CLASS_IN) [])).
  { intros tail.
    replace (hb ++ (nb ++ be16 (qtype mod 65536) ++ be16 dns_CLASS_IN) ++ tail)
      with (enc_msg (query_header qid edns) 0 (host_labels hostname) (qtype mod 65536) dns_CLASS_IN [] tail)
      by (subst hb nb; unfold enc_msg; cbn [map concat app]; now rewrite <- !app_assoc).
    rewrite enc_msg_decodes; try assumption; try reflexivity; try (constructor; fail).
    - unfold header_wf, query_header. cbn [h_id h_qr h_opcode h_aa h_tc h_rd h_ra h_rcode h_qd h_an h_ns h_ar].
      destruct (0 <? edns); lia.
    - apply N.mod_lt. discriminate. }
  destruct (0 <? edns) eqn:Ee.
  - destruct (opt_pack _ edns) as [ob| |b]; try discriminate.
    destruct (sz <? _); [discriminate|]. injection H as <- <-. split; [reflexivity| apply Hdec].
  - destruct (sz <? _); [discriminate|]. injection H as <- <-. split; [reflexivity|].
    rewrite <- (Hdec []). now rewrite app_nil_r.
Qed.

(* the hypothesis `wire (host_labels hostname) < 256` holds for every host name of at most 254 octets *)
Lemma wire_cut63_le toks : wire (cut63 toks) <= wire toks.
Proof.
  induction toks as [|t r IH]; [cbn; lia|]. cbn [cut63 map wire]. fold (cut63 r).
  rewrite lenN_takeN. lia.
Qed.

Lemma wire_tokens_from_le : forall s cur, wire (tokens_from cur s) <= lenN cur + lenN s + 1.
Proof.
  induction s as [|c r IH]; intros cur; cbn [tokens_from lenN].
  - destruct cur; cbn [wire lenN]; lia.
  - destruct (c =? 46).
    + destruct cur as [|x cur'].
      * specialize (IH []). cbn [lenN] in *. lia.
      * specialize (IH []). cbn [wire lenN] in *. lia.
    + specialize (IH (cur ++ [c])). rewrite lenN_app in IH. cbn [lenN] in IH. lia.
Qed.

Lemma host_labels_wire hostname : wire (host_labels hostname) <= lenN (cstr hostname) + 1.
Proof.
  unfold host_labels, tokens. pose proof (wire_cut63_le (tokens_from [] (cstr hostname))).
  pose proof (wire_tokens_from_le (cstr hostname) []). cbn [lenN] in *. lia.
Qed.

Theorem build_query_roundtrip_len : forall sz hostname qid qtype edns msg q,
  build_query sz hostname qid qtype edns = Ok (msg, q) ->
  qid < 65536 -> lenN (cstr hostname) <= 254 ->
  message_unpack msg =
    Ok (UAnswers (query_header qid edns) (mkQ (join_dots (host_labels hostname)) (qtype mod 65536) dns_CLASS_IN) []).
Proof.
  intros sz hostname qid qtype edns msg q H Hqid Hlen.
  apply (build_query_roundtrip sz hostname qid qtype edns msg q H Hqid).
  pose proof (host_labels_wire hostname). lia.
Qed.

(* well-formed host names: the decoded name is the name itself, and rfc1035QueryCompare says "same query" *)
Definition nodot (l : bytes) : bool := forallb (fun c => negb (c =? 46)) l.

Definition hostname_wf (labels : list bytes) : Prop :=
  labels <> [] /\ Forall (fun l => 1 <= lenN l /\ lenN l <= 63 /\ nodot l = true /\ forallb nz l = true) labels.

Lemma tokens_from_label : forall l cur s, nodot l = true -> tokens_from cur (l ++ s) = tokens_from (cur ++ l) s.
Proof.
  induction l as [|c l IH]; intros cur s H; cbn [app].
  - rewrite app_nil_r. reflexivity.
  - cbn [nodot forallb] in H. apply andb_prop in H as [Hc Hl].
    cbn [tokens_from]. destruct (c =? 46) eqn:E; [discriminate|].
    rewrite (IH (cur ++ [c]) s Hl). rewrite <- app_assoc. reflexivity.
Qed.

Lemma tokens_join_dots : forall labels, hostname_wf labels -> tokens (join_dots labels) = labels.
Proof.
  intros labels [Hne Hall]. unfold tokens.
  induction Hall as [|l r (H1 & H2 & H3 & H4) Hr IH]; [contradiction|].
  destruct r as [|l2 r].
  - cbn [join_dots]. rewrite <- (app_nil_r l) at 1. rewrite (tokens_from_label l [] [] H3).
    cbn [app tokens_from]. destruct l; [cbn [lenN] in H1; lia|reflexivity].
  - change (join_dots (l :: l2 :: r)) with (l ++ 46 :: join_dots (l2 :: r)).
    rewrite (tokens_from_label l [] _ H3). cbn [app tokens_from N.eqb Pos.eqb].
    destruct l as [|x l']; [cbn [lenN] in H1; lia|].
    rewrite IH by discriminate. reflexivity.
Qed.

Lemma cut63_id labels : Forall (fun l => lenN l <= 63) labels -> cut63 labels = labels.
Proof.
  induction 1 as [|l r Hl Hr IH]; [reflexivity|]. cbn [cut63 map]. fold (cut63 r).
  rewrite IH. rewrite takeN_all by (unfold dns_MAXLABELSZ; lia). reflexivity.
Qed.

Lemma host_labels_wf labels : hostname_wf labels -> host_labels (join_dots labels) = labels.
Proof.
  intros H. pose proof H as [Hne Hall]. unfold host_labels.
  rewrite cstr_id.
  - rewrite (tokens_join_dots labels H). apply cut63_id.
    eapply Forall_impl; [|exact Hall]. intros l (H1 & H2 & _). exact H2.
  - apply join_dots_nz. eapply Forall_impl; [|exact Hall]. intros l (_ & _ & _ & H4). exact H4.
Qed.

Lemma query_compare_refl q : query_compare q q = true.
Proof.
  unfold query_compare. rewrite !N.eqb_refl. cbn [negb]. cbv zeta. rewrite ?N.eqb_refl. cbn [negb].
  apply list_eqb_refl.
Qed.

Lemma lenN_join_dots_le labels : lenN (join_dots labels) <= wire labels.
Proof.
  induction labels as [|l r IH]; [cbn; lia|].
  destruct r as [|l2 r]; [cbn [join_dots wire]; lia|].
  change (join_dots (l :: l2 :: r)) with (l ++ [46] ++ join_dots (l2 :: r)).
  rewrite !lenN_app. cbn [wire lenN] in *. lia.
Qed.

Theorem build_query_wellformed_roundtrip : forall sz labels qid qtype edns msg q,
  hostname_wf labels -> wire labels < 256 -> qid < 65536 ->
  build_query sz (join_dots labels) qid qtype edns = Ok (msg, q) ->
  q = mkQ (join_dots labels) (qtype mod 65536) dns_CLASS_IN /\
  message_unpack msg = Ok (UAnswers (query_header qid edns) q []) /\
  query_compare q q = true.
Proof.
  intros sz labels qid qtype edns msg q Hwf Hw Hqid H.
  pose proof (host_labels_wf labels Hwf) as Hl.
  destruct (build_query_roundtrip sz (join_dots labels) qid qtype edns msg q H Hqid) as [Hq Hm].
  { rewrite Hl. exact Hw. }
  assert (Hc : cstr (join_dots labels) = join_dots labels).
  { destruct Hwf as [_ Hall]. apply cstr_id. apply join_dots_nz.
    eapply Forall_impl; [|exact Hall]. intros l (_ & _ & _ & H4). exact H4. }
  assert (Hq' : q = mkQ (join_dots labels) (qtype mod 65536) dns_CLASS_IN).
  { rewrite Hq, Hc. rewrite takeN_all; [reflexivity|].
    pose proof (lenN_join_dots_le labels). unfold dns_sizeof_query_name. lia. }
  split; [exact Hq'|]. split; [|apply query_compare_refl].
  rewrite Hm, Hl, Hq'. reflexivity.
Qed.

(* builders do succeed when the buffer is large enough (so the round-trip theorems are not vacuous) *)
Lemma labels_pack_fits : forall toks sz off out,
  off + wire (cut63 toks) <= sz ->
  labels_pack sz off toks out = Ok (out ++ enc_labels (cut63 toks), off + wire (cut63 toks)).
Proof.
  induction toks as [|t r IH]; intros sz off out H; cbn [labels_pack cut63 map enc_labels wire].
  - rewrite app_nil_r, N.add_0_r. reflexivity.
  - fold (cut63 r). cbn [cut63 map wire] in H. fold (cut63 r) in H.
    destruct (sz <? off) eqn:E1; [lia|]. rewrite label_pack_eq.
    destruct (sz - off <? lenN (takeN dns_MAXLABELSZ t) + 1) eqn:E2; [lia|].
    rewrite IH by (cbn [lenN]; lia). cbn [lenN]. rewrite <- app_assoc. do 2 f_equal. lia.
Qed.

Theorem build_query_succeeds : forall sz hostname qid qtype,
  12 + wire (host_labels hostname) + 5 <= sz ->
  exists msg q, build_query sz hostname qid qtype 0 = Ok (msg, q).
Proof.
  intros sz hostname qid qtype Hsz.
  unfold build_query. unfold header_pack. destruct (sz <? 12) eqn:E0; [lia|].
  unfold question_pack, name_pack. rewrite cstr_cstr. fold (host_labels hostname).
  unfold host_labels in *.
  rewrite (labels_pack_fits (tokens (cstr hostname)) (sz - 12) 0 []) by lia.
  destruct (sz - 12 <=? 0 + wire (cut63 (tokens (cstr hostname)))) eqn:E1; [lia|].
  destruct (sz - 12 <? 0 + wire (cut63 (tokens (cstr hostname))) + 1 + 4) eqn:E2; [lia|].
  change (0 <? 0) with false. cbv iota.
  match goal with |- context [if ?c then _ else _] => destruct c eqn:E3 end.
  - exfalso. rewrite !lenN_app, !lenN_be16, lenN_enc_labels in E3. cbn [lenN app] in E3. lia.
  - eexists. eexists. reflexivity.
Qed.
