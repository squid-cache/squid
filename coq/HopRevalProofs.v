Require Import SquidV.Bytes SquidV.HopModel SquidV.HopProofs SquidV.CondModel SquidV.CondProofs SquidV.HopRevalModel.
Require Import SquidV.gen.HdrTable_gen.
Local Open Scope N_scope.

Lemma map_snd_tag_from {A} (l : list A) i : map snd (tag_from i l) = l.
Proof. revert i; induction l as [|x r IH]; intros i; cbn [tag_from map snd]; [reflexivity|now rewrite IH]. Qed.

Lemma filter_map_snd {A} (p : A -> bool) (l : list (N * A)) :
  map snd (filter (fun q => p (snd q)) l) = filter p (map snd l).
Proof. induction l as [|[i x] r IH]; cbn [filter map snd]; [reflexivity|]. destruct (p x); cbn [map snd]; now rewrite IH. Qed.

Lemma existsb_filter {A} (p q : A -> bool) l : existsb q (filter p l) = existsb (fun x => p x && q x) l.
Proof. induction l as [|x r IH]; cbn [filter existsb]; [reflexivity|]. destruct (p x); cbn [existsb andb orb]; now rewrite IH. Qed.

(* the index-tracking merge is HttpHeader::update (CondModel.hdr_update) *)
Theorem merged_tagged_is_update old fresh : map snd (merged_tagged old fresh) = hdr_update old fresh.
Proof.
  unfold merged_tagged, hdr_update. rewrite map_app, update_delete_closed. unfold update_added.
  rewrite (filter_map_snd (fun h => negb (existsb (fun e => negb (skip_entry fresh e) && deleted_by e h) fresh))).
  rewrite (filter_map_snd (fun h => negb (skip_entry fresh h))), !map_snd_tag_from.
  f_equal. apply filter_ext_all. intros h. now rewrite existsb_filter.
Qed.

(* after a revalidation the client still receives no hop-by-hop / Connection-named field: the response
   filter guarantee applies to the merged header whatever the stored and the 304 header sets were *)
Theorem reval_filter_sound old fresh e :
  In e (resp_filter false (hdr_update old fresh)) ->
  is_hopbyhop (hdr_id e) = false /\
  (hdr_id e =? ID_PROXY_AUTHENTICATE) = false /\
  is_member (conn_value (filter (fun h => negb (hdr_id h =? ID_PROXY_AUTHENTICATE)) (hdr_update old fresh))) (h_name e) = false /\
  (In e old \/ In e fresh).
Proof.
  intros H. apply resp_filter_sound in H. destruct H as (H1 & H2 & H3 & H4).
  repeat split; try assumption.
  rewrite hdr_update_closed in H4. unfold update_added in H4.
  apply in_app_or in H4. destruct H4 as [H4|H4]; apply filter_In in H4; tauto.
Qed.

(* ---- repaired update() (/repo 5d5369d): the 304's hop-by-hop fields, its Connection field included, are skipped ---- *)
Lemma connection_is_hopbyhop : is_hopbyhop ID_CONNECTION = true.
Proof. vm_compute. reflexivity. Qed.
Lemma connection_not_pa : (ID_CONNECTION =? ID_PROXY_AUTHENTICATE) = false.
Proof. vm_compute. reflexivity. Qed.

(* none of the 304's fields becomes a Connection entry of the merged header *)
Lemma added_no_connection fresh e : In e (update_added fresh) -> (hdr_id e =? ID_CONNECTION) = false.
Proof.
  unfold update_added. intros H. apply filter_In in H. destruct H as [_ Hs]. apply negb_true_iff in Hs.
  unfold skip_entry in Hs. apply orb_false_iff in Hs. destruct Hs as [Hs _]. apply orb_false_iff in Hs. destruct Hs as [_ Hh].
  destruct (hdr_id e =? ID_CONNECTION) eqn:E; [|reflexivity]. apply N.eqb_eq in E.
  rewrite E, connection_is_hopbyhop in Hh. discriminate.
Qed.
(* ... so none of them bears the name of a stored Connection entry, and deletes it *)
Lemma connection_not_named fresh c : hdr_id c = ID_CONNECTION -> named_in (update_added fresh) c = false.
Proof.
  intros Hc. unfold named_in. destruct (existsb _ _) eqn:E; [|reflexivity].
  apply existsb_exists in E. destruct E as (e & He & Hn).
  apply (lookup_id_ci hdr_table) in Hn. fold (hdr_id c) (hdr_id e) in Hn.
  pose proof (added_no_connection fresh e He) as Hno. rewrite <- Hn, Hc, N.eqb_refl in Hno. discriminate.
Qed.

(* the stored Connection entries survive the update: they keep nominating the stored hop-by-hop fields *)
Theorem reval_stored_connection_survives old fresh c :
  In c old -> hdr_id c = ID_CONNECTION -> In c (hdr_update old fresh).
Proof.
  intros Hin Hc. rewrite hdr_update_closed. apply in_or_app. left.
  apply filter_In. split; [exact Hin|]. now rewrite (connection_not_named fresh c Hc).
Qed.

(* so the Connection entries the response filter sees after the merge are exactly the stored ones, in order *)
Lemma merged_connection_entries old fresh :
  filter (fun h => hdr_id h =? ID_CONNECTION)
         (filter (fun h => negb (hdr_id h =? ID_PROXY_AUTHENTICATE)) (hdr_update old fresh)) =
  filter (fun h => hdr_id h =? ID_CONNECTION) old.
Proof.
  rewrite filter_filter, hdr_update_closed, filter_app, filter_filter.
  rewrite (filter_none _ (update_added fresh)).
  2:{ intros e He. rewrite (added_no_connection fresh e He). now rewrite andb_false_r. }
  rewrite app_nil_r. apply filter_ext_all. intros h.
  destruct (hdr_id h =? ID_CONNECTION) eqn:Ec; [|now rewrite !andb_false_r].
  apply N.eqb_eq in Ec. now rewrite (connection_not_named fresh h Ec), Ec, connection_not_pa.
Qed.
Lemma merged_conn_value old fresh :
  conn_value (filter (fun h => negb (hdr_id h =? ID_PROXY_AUTHENTICATE)) (hdr_update old fresh)) = conn_value old.
Proof. unfold conn_value. now rewrite merged_connection_entries. Qed.

(* the property on the revalidation path (formerly refuted, now a theorem of the repaired code): a stored field that the
   stored response's own Connection field nominates is never relayed after a 304 has been merged, whatever the 304
   carries. No extra hypothesis is needed. *)
Theorem reval_stored_field_dropped old fresh e :
  In e old -> is_member (conn_value old) (h_name e) = true ->
  ~ In e (resp_filter false (hdr_update old fresh)).
Proof.
  intros _ Hm Hin. apply resp_filter_sound in Hin. destruct Hin as (_ & _ & H3 & _).
  rewrite merged_conn_value in H3. congruence.
Qed.

(* non-vacuity / regression witness: the scenario of the former finding *)
Definition wit_old : list hdr :=
  [ {| h_name := map N.of_nat [67;111;110;110;101;99;116;105;111;110]%nat; h_value := map N.of_nat [88;45;70;111;111]%nat |};
    {| h_name := map N.of_nat [88;45;70;111;111]%nat; h_value := [118] |} ].
Definition wit_fresh : list hdr :=
  [ {| h_name := map N.of_nat [67;111;110;110;101;99;116;105;111;110]%nat; h_value := map N.of_nat [120;45;111;116;104;101;114]%nat |} ].
Lemma reval_witness_now_filtered :
  is_member (conn_value wit_old) (h_name (nth 1 wit_old {| h_name := []; h_value := [] |})) = true /\
  resp_filter false (hdr_update wit_old wit_fresh) = [].
Proof. vm_compute. split; reflexivity. Qed.
