(* Proofs about DiskcrashModel.v (C16, C17): the two properties stated on the model, their refutations by
   concrete workloads, and the positive result for workloads that write every slot at most once, by an
   invariant of the rebuild scan (LInv), one of the validation pass (VInv), and the chain walk of a hit. *)
Require Import SquidV.Bytes.
Require Import SquidV.gen.DiskCrash_gen.
Require Import SquidV.DiskcrashModel.
Require Import ZifyBool ZifyNat.
Local Open Scope Z_scope.

(* the session's last slot write is among the first n writes of the workload *)
Definition completed (P : Z) (ss : list session) (n : nat) (s : session) : Prop :=
  exists ss1 ss2, ss = ss1 ++ s :: ss2 /\ (length (all_writes P (ss1 ++ [s])) <= n)%nat.

Lemma completed_in : forall P ss n s, completed P ss n s -> In s ss.
Proof. intros P ss n s (ss1 & ss2 & -> & _). apply in_or_app. right. left. reflexivity. Qed.

(* C16 on the model: whatever is served as a hit after the crash is the complete stream of one session with that
   key whose last write completed before the crash *)
Definition crash_consistent (N P : Z) (ss : list session) (n : nat) (torn : option Z) : Prop :=
  forall k c, hit_after N P ss n torn k = Some c ->
    exists s, completed P ss n s /\ s_key s = k /\ c = full_stream s.

(* C17 on the model: after ALL writes (clean shutdown), the entry last stored under a key and not purged is a hit
   with its complete stream *)
Definition survives (N P : Z) (ss : list session) (s : session) : Prop :=
  hit_after N P ss (length (all_writes P ss)) None (s_key s) = Some (full_stream s).

(* Refutations: witnesses found by running the extracted model over small workloads; each is replayed against the
   real binary by the checks (corpus/C16/known.jsonl, corpus/C17/known.jsonl).
   8 slots, 4 payload bytes per slot, 10-byte objects = 3 slots. *)
Definition w_ops : list op := [OStore (1, 0) 1 5 10 2 0; OStore (1, 0) 2 6 10 2 0].

Lemma w_ops_slots : map s_slots (sessions_of 8 4 w_ops) = [[1; 0; 2]; [1; 0; 2]].
Proof. vm_compute. reflexivity. Qed.

(* F12: version 2 of the same key goes into the recycled slots of version 1 in the same order; killed after 5 of
   the 6 slot writes, the rebuild accepts the chain new, new, OLD (versions are never compared) *)
Lemma overwrite_crash_mixes :
  hit_after 8 4 (sessions_of 8 4 w_ops) 5 None (1, 0)
  = Some [(2,0);(2,1);(2,2);(2,3);(2,4);(2,5);(2,6);(2,7);(1,8);(1,9)].
Proof. vm_compute. reflexivity. Qed.

Lemma crash_consistent_refuted :
  exists N P ops n, ~ crash_consistent N P (sessions_of N P ops) n None.
Proof.
  exists 8, 4, w_ops, 5%nat. intros H.
  destruct (H (1, 0) _ overwrite_crash_mixes) as (s & Hin & _ & Hc). apply completed_in in Hin.
  vm_compute in Hin. destruct Hin as [<- | [<- | []]]; vm_compute in Hc; discriminate Hc.
Qed.

(* a torn write: a one-slot object whose only write is cut after the header and 2 of its 3 payload bytes: the
   header (entrySize, payloadSize) is complete, so the entry is accepted and the never-written byte is served *)
Definition t_ops : list op := [OStore (1, 0) 1 5 3 2 0].

Lemma torn_write_serves_unwritten_bytes :
  hit_after 8 4 (sessions_of 8 4 t_ops) 0 (Some 42) (1, 0) = Some [(1,0);(1,1);(0,0)].
Proof. vm_compute. reflexivity. Qed.

Lemma torn_crash_consistent_refuted :
  exists N P ops n t, ~ crash_consistent N P (sessions_of N P ops) n (Some t).
Proof.
  exists 8, 4, t_ops, 0%nat, 42. intros H.
  destruct (H (1, 0) _ torn_write_serves_unwritten_bytes) as (s & Hin & _ & Hc). apply completed_in in Hin.
  vm_compute in Hin. destruct Hin as [<- | []]; vm_compute in Hc; discriminate Hc.
Qed.

(* C17: a completed overwrite by an object that needs FEWER slots leaves the old chain's extra slot on disk with the
   same key; after a clean restart the rebuild counts it into the entry (le.size), the chain walk comes up short,
   and the complete new entry is dropped *)
Definition l_ops : list op := [OStore (1, 0) 1 5 10 2 0; OStore (1, 0) 2 6 7 2 0].

Lemma overwrite_by_smaller_lost :
  hit_after 8 4 (sessions_of 8 4 l_ops) (length (all_writes 4 (sessions_of 8 4 l_ops))) None (1, 0) = None.
Proof. vm_compute. reflexivity. Qed.

Lemma survives_refuted :
  exists N P ops s, last (sessions_of N P ops) s = s /\ In s (sessions_of N P ops) /\
                    ~ survives N P (sessions_of N P ops) s.
Proof.
  exists 8, 4, l_ops, (mkSess (1, 0) 2 6 7 2 0 [1; 0]).
  split; [vm_compute; reflexivity|]. split; [vm_compute; auto|].
  unfold survives. cbn [s_key]. rewrite overwrite_by_smaller_lost. discriminate.
Qed.

(* Workloads that write every slot at most once: for ALL such workloads and ALL crash points at write boundaries,
   recovery makes readable exactly the sessions whose last write completed, with their full streams. *)

Lemma zseq_in : forall n a c, In c (zseq a n) <-> a <= c < a + Z.of_nat n.
Proof.
  induction n as [|n IH]; intros a c; cbn [zseq In].
  - lia.
  - rewrite IH. lia.
Qed.

Lemma zseq_length : forall n a, length (zseq a n) = n.
Proof. induction n as [|n IH]; intros a; cbn [zseq length]; [reflexivity| now rewrite IH]. Qed.

(* a scan over the ids a, a+1, ..: an invariant indexed by the position is carried from a to a + n *)
Lemma fold_zseq_inv : forall (T : Type) (I : Z -> T -> Prop) (step : T -> Z -> T) n a st,
  (forall p s, I p s -> I (p + 1) (step s p)) ->
  I a st -> I (a + Z.of_nat n) (fold_left step (zseq a n) st).
Proof.
  induction n as [|n IH]; intros a st Hstep HI; cbn [zseq fold_left].
  - replace (a + Z.of_nat 0) with a by lia. exact HI.
  - replace (a + Z.of_nat (S n)) with ((a + 1) + Z.of_nat n) by lia. apply IH; [exact Hstep| apply Hstep, HI].
Qed.

Lemma firstn_zseq : forall n m a, (n <= m)%nat -> firstn n (zseq a m) = zseq a n.
Proof.
  induction n as [|n IH]; intros m a Hle; [reflexivity|].
  destruct m as [|m]; [lia|]. cbn [zseq firstn]. rewrite IH by lia. reflexivity.
Qed.

Lemma stream_length : forall o len, length (stream o len) = Z.to_nat len.
Proof. intros. unfold stream. now rewrite map_length, zseq_length. Qed.

Lemma firstn_stream : forall o len n, 0 <= n <= len -> firstn (Z.to_nat n) (stream o len) = stream o n.
Proof. intros o len n H. unfold stream. rewrite firstn_map, firstn_zseq by lia. reflexivity. Qed.

Lemma is_run_firstn : forall n o off l,
  firstn n l = map (fun i => (o, i)) (zseq off n) -> is_run o off n l = true.
Proof.
  induction n as [|n IH]; intros o off l H; [reflexivity|].
  destruct l as [|a l]; [discriminate H|]. cbn [firstn zseq map] in H. injection H as Ha Hl.
  cbn [is_run]. rewrite (IH _ _ _ Hl). subst a. unfold atom_eqb. cbn [fst snd]. rewrite !Z.eqb_refl. reflexivity.
Qed.

Lemma stream_prefix_head : forall o n buf, 0 < n -> firstn (Z.to_nat n) buf = stream o n -> exists r, buf = (o, 0) :: r.
Proof.
  intros o n buf Hn H. unfold stream in H. destruct (Z.to_nat n) eqn:E; [lia|].
  destruct buf as [|a r]; [discriminate H|]. injection H as -> _. eauto.
Qed.

Lemma parse_meta_stream : forall oi o info buf,
  oi o = Some info -> 0 < o_mlen info ->
  firstn (Z.to_nat (o_mlen info)) buf = stream o (o_mlen info) ->
  parse_meta oi buf = Some info.
Proof.
  intros oi o info buf Hoi Hm Hf. pose proof (is_run_firstn _ _ _ _ Hf) as Hrun.
  destruct (stream_prefix_head _ _ _ Hm Hf) as (r & ->). unfold parse_meta. rewrite Hoi, Hrun.
  assert (0 <? o_mlen info = true) as -> by lia. reflexivity.
Qed.

Lemma zeroed_false : forall o i buf, 0 < o -> zeroed ((o, i) :: buf) = false.
Proof.
  intros o i buf Ho. unfold zeroed. cbn [firstn forallb fst].
  assert (o =? 0 = false) as -> by lia. cbn [andb]. apply andb_false_r.
Qed.

Lemma read_area_exact : forall a, read_area (Z.of_nat (length a)) a = a.
Proof.
  intros a. unfold read_area. rewrite Nat2Z.id, firstn_all, Nat.sub_diag. cbn [repeat]. apply app_nil_r.
Qed.

Lemma chunks_aux_concat : forall fuel p l, (0 < p)%nat -> (length l <= fuel)%nat -> concat (chunks_aux fuel p l) = l.
Proof.
  induction fuel as [|fuel IH]; intros p l Hp Hl.
  - destruct l; [reflexivity| cbn [length] in Hl; lia].
  - destruct l as [|a l]; [reflexivity|]. cbn [chunks_aux concat].
    rewrite IH; [apply firstn_skipn| exact Hp|].
    rewrite skipn_length. cbn [length] in *. lia.
Qed.

Lemma chunks_aux_sizes : forall fuel p l ch, (0 < p)%nat -> In ch (chunks_aux fuel p l) -> (0 < length ch <= p)%nat.
Proof.
  induction fuel as [|fuel IH]; intros p l ch Hp Hin; [destruct Hin|].
  destruct l as [|a l]; [destruct Hin|]. cbn [chunks_aux In] in Hin. destruct Hin as [<- | Hin].
  - rewrite firstn_length. cbn [length]. lia.
  - eapply IH; eauto.
Qed.

Lemma chunks_aux_first : forall fuel p l ch r, chunks_aux fuel p l = ch :: r -> ch = firstn p l.
Proof.
  intros [|fuel] p l ch r H; [discriminate H|]. destruct l; [discriminate H|]. cbn [chunks_aux] in H. now injection H as <- _.
Qed.

Lemma chunks_nonempty : forall P l, l <> [] -> chunks P l <> [].
Proof. intros P [|a l] H; [congruence|]. unfold chunks. cbn [length chunks_aux]. discriminate. Qed.

Fixpoint linked_to (ws : list wr) (e : Z) : Prop :=
  match ws with
  | [] => True
  | w :: r => h_next (w_hdr w) = match r with w' :: _ => w_slot w' | [] => e end /\ linked_to r e
  end.

Definition psz_sum (l : list wr) : Z := fold_right (fun w a => h_psz (w_hdr w) + a) 0 l.

Lemma mk_writes_facts : forall chs slots k ver first total,
  length chs = length slots ->
  let ws := mk_writes k ver first total chs slots in
  map w_slot ws = slots /\ map w_data ws = chs /\
  (forall w, In w ws -> h_key (w_hdr w) = k /\ h_ver (w_hdr w) = ver /\ h_first (w_hdr w) = first /\
                        h_psz (w_hdr w) = Z.of_nat (length (w_data w))) /\
  linked_to ws (-1) /\
  (forall w r, ws = w :: r -> h_esz (w_hdr w) = match r with [] => total | _ :: _ => 0 end).
Proof.
  induction chs as [|ch chs IH]; intros slots k ver first total Hlen; destruct slots as [|c slots]; try discriminate Hlen.
  - cbn. split; [reflexivity|]. split; [reflexivity|]. split; [intros ? []|]. split; [exact I|].
    intros w r H. discriminate H.
  - cbn [length] in Hlen. injection Hlen as Hlen.
    specialize (IH slots k ver first total Hlen). cbv zeta in IH. destruct IH as (I1 & I2 & I3 & I4 & I5).
    cbn [mk_writes]. cbv zeta. cbn [map w_slot w_data]. rewrite I1, I2.
    split; [reflexivity|]. split; [reflexivity|]. split; [|split].
    + intros w [<- | Hin]; [cbn; auto| apply I3, Hin].
    + cbn [linked_to w_hdr h_next]. split; [|exact I4].
      destruct chs as [|ch' chs']; destruct slots as [|c' slots']; try discriminate Hlen; reflexivity.
    + intros w r H. injection H as <- <-. cbn [w_hdr h_esz].
      destruct chs as [|ch' chs']; destruct slots as [|c' slots']; try discriminate Hlen; reflexivity.
Qed.

Lemma linked_firstn : forall ws e m d, linked_to ws e -> (m < length ws)%nat ->
  linked_to (firstn m ws) (w_slot (nth m ws d)).
Proof.
  induction ws as [|w ws IH]; intros e m d Hl Hm; [cbn in Hm; lia|].
  destruct m as [|m]; [exact I|]. cbn [firstn nth linked_to]. destruct Hl as [Hn Hl]. cbn [length] in Hm.
  split; [| apply (IH e); [exact Hl| lia]].
  destruct ws as [|w' ws']; [cbn in Hm; lia|]. destruct m; cbn [firstn nth]; exact Hn.
Qed.

Definition cell_of (w : wr) : cell := mkCell (w_hdr w) (w_data w).

Lemma fold_apply_spec : forall W d, NoDup (map w_slot W) ->
  (forall w, In w W -> c_area (d (w_slot w)) = []) ->
  (forall w, In w W -> fold_left apply_wr W d (w_slot w) = cell_of w) /\
  (forall c, ~ In c (map w_slot W) -> fold_left apply_wr W d c = d c).
Proof.
  induction W as [|w W IH]; intros d Hnd Hz; [split; [intros ? []| reflexivity]|].
  cbn [map] in Hnd. inversion Hnd as [|? ? Hnin Hnd']; subst. cbn [fold_left].
  assert (Hz' : forall w', In w' W -> c_area (apply_wr d w (w_slot w')) = []).
  { intros w' Hin. unfold apply_wr, upd. destruct (w_slot w' =? w_slot w) eqn:E.
    - exfalso. apply Hnin. apply Z.eqb_eq in E. rewrite <- E. apply in_map, Hin.
    - apply Hz. right. exact Hin. }
  destruct (IH (apply_wr d w) Hnd' Hz') as [A B]. split.
  - intros w' [<- | Hin]; [|apply A, Hin].
    rewrite B by exact Hnin. unfold apply_wr, upd. rewrite Z.eqb_refl.
    rewrite (Hz w (or_introl eq_refl)). unfold cell_of. f_equal. rewrite skipn_nil. apply app_nil_r.
  - intros c Hc. cbn [map In] in Hc. rewrite B by tauto. unfold apply_wr, upd.
    destruct (c =? w_slot w) eqn:E; [apply Z.eqb_eq in E; subst; tauto| reflexivity].
Qed.

Lemma disk_after_spec : forall W, NoDup (map w_slot W) ->
  (forall w, In w W -> disk_after W (w_slot w) = cell_of w) /\
  (forall c, ~ In c (map w_slot W) -> disk_after W c = cell0).
Proof. intros W H. unfold disk_after. apply (fold_apply_spec W disk0 H). intros; reflexivity. Qed.

Lemma upd_eq : forall A (g : Z -> A) k v, upd g k v k = v.
Proof. intros. unfold upd. now rewrite Z.eqb_refl. Qed.
Lemma upd_neq : forall A (g : Z -> A) k v x, x <> k -> upd g k v x = g x.
Proof. intros. unfold upd. destruct (x =? k) eqn:E; [apply Z.eqb_eq in E; congruence| reflexivity]. Qed.

(* compute field accesses through the state and record updates of the model *)
Ltac rsimp := repeat first [rewrite upd_eq | progress cbn [set_ent set_sl set_nofuel r_ent r_sl r_nofuel
  e_state e_anch e_size e_start e_swapsz e_rewind le_state le_anch le_size la_key la_start la_swapsz
  x_more x_final x_freed x_map ls_more ls_mapped ls_final ls_freed ls_size ls_next lslot0 lent0 negb andb orb]].

Lemma psz_sum_app : forall a b, psz_sum (a ++ b) = psz_sum a + psz_sum b.
Proof. unfold psz_sum. induction a as [|w a IH]; intros b; cbn [app fold_right]; [lia| rewrite IH; lia]. Qed.

Lemma psz_sum_cons : forall w l, psz_sum (w :: l) = h_psz (w_hdr w) + psz_sum l.
Proof. reflexivity. Qed.

Lemma psz_sum_nonneg : forall l, (forall w, In w l -> 0 < h_psz (w_hdr w)) -> 0 <= psz_sum l.
Proof.
  induction l as [|a l IH]; intros H; [reflexivity|]. rewrite psz_sum_cons.
  specialize (H a (or_introl eq_refl)) as Ha. specialize (IH (fun w Hw => H w (or_intror Hw))). lia.
Qed.

(* the chain walk of finalizeOrThrow marks the slots it visits *)
Definition mark_final (l : list wr) (st : rst) : rst :=
  fold_left (fun s w => set_sl s (w_slot w) (x_final (r_sl s (w_slot w)))) l st.

Lemma mark_final_cons : forall w l st,
  mark_final (w :: l) st = mark_final l (set_sl st (w_slot w) (x_final (r_sl st (w_slot w)))).
Proof. reflexivity. Qed.

Lemma mark_final_ent : forall l st f, r_ent (mark_final l st) f = r_ent st f.
Proof. induction l as [|w l IH]; intros st f; [reflexivity|]. rewrite mark_final_cons, IH. reflexivity. Qed.

Lemma mark_final_nofuel : forall l st, r_nofuel (mark_final l st) = r_nofuel st.
Proof. induction l as [|w l IH]; intros st; [reflexivity|]. cbn [mark_final fold_left]. fold (mark_final l). rewrite IH. reflexivity. Qed.

Lemma mark_final_out : forall l st x, ~ In x (map w_slot l) -> r_sl (mark_final l st) x = r_sl st x.
Proof.
  induction l as [|w l IH]; intros st x Hx; [reflexivity|]. cbn [map In] in Hx.
  rewrite mark_final_cons, IH by tauto. cbn [set_sl r_sl]. apply upd_neq. intros E. apply Hx. left. congruence.
Qed.

Lemma mark_final_in : forall l st w, NoDup (map w_slot l) -> In w l ->
  r_sl (mark_final l st) (w_slot w) = x_final (r_sl st (w_slot w)).
Proof.
  induction l as [|a l IH]; intros st w Hnd Hw; [destruct Hw|]. rewrite mark_final_cons.
  cbn [map] in Hnd. inversion Hnd as [|? ? Hn Hd]; subst. destruct Hw as [<- | Hw].
  - rewrite mark_final_out by exact Hn. cbn [set_sl r_sl]. apply upd_eq.
  - rewrite IH by assumption. cbn [set_sl r_sl]. rewrite upd_neq; [reflexivity|].
    intros E. apply Hn. rewrite <- E. apply in_map, Hw.
Qed.

Definition head_slot (l : list wr) (e : Z) : Z := match l with w :: _ => w_slot w | [] => e end.

Lemma linked_head : forall w l e, linked_to (w :: l) e -> h_next (w_hdr w) = head_slot l e /\ linked_to l e.
Proof. intros w [|w' l] e H; exact H. Qed.

Section Walk.
Variable N : Z.
Notation finalize_or_free := (finalize_or_free N).
Notation fin_walk := (fin_walk N).

Lemma fin_walk_done : forall fuel pos lesize slot sum s,
  (slot <? 0) || negb (sum <? lesize) = true -> fin_walk fuel pos lesize slot sum s = WDone slot sum s.
Proof. intros [|fuel] pos lesize slot sum s H; cbn [DiskcrashModel.fin_walk]; rewrite H; reflexivity. Qed.

(* over loaded, not yet finalised slots linked in the order of l the walk runs to the end of l, or as far as the
   sizes allow: here they add up to exactly the entry size *)
Lemma fin_walk_chain : forall l e fuel pos lesize sum st,
  linked_to l e -> (length l <= fuel)%nat -> NoDup (map w_slot l) ->
  (forall w, In w l -> 0 <= w_slot w < N /\ w_slot w <= pos /\ 0 < h_psz (w_hdr w) /\
      exists mo, r_sl st (w_slot w) = mkLslot mo true false false (h_psz (w_hdr w)) (h_next (w_hdr w))) ->
  sum + psz_sum l = lesize ->
  fin_walk fuel pos lesize (head_slot l e) sum st = WDone e lesize (mark_final l st).
Proof.
  induction l as [|w l IH]; intros e fuel pos lesize sum st Hl Hf Hnd Hok Hsum.
  - cbn [psz_sum fold_right] in Hsum. cbn [head_slot mark_final fold_left]. rewrite fin_walk_done; [f_equal; lia|].
    assert (sum <? lesize = false) as -> by lia. apply orb_true_r.
  - destruct fuel as [|fuel]; [cbn [length] in Hf; lia|]. cbn [head_slot DiskcrashModel.fin_walk].
    destruct (Hok w (or_introl eq_refl)) as (Hr & Hp & Hps & mo & Hsl). rewrite psz_sum_cons in Hsum.
    assert (Hnn : 0 <= psz_sum l) by (apply psz_sum_nonneg; intros w' Hw'; apply (Hok w' (or_intror Hw'))).
    assert (w_slot w <? 0 = false) as -> by lia. assert (sum <? lesize = true) as -> by lia.
    assert (w_slot w <? N = true) as -> by lia. assert (w_slot w <=? pos = true) as -> by lia.
    rewrite Hsl. rsimp. assert (h_psz (w_hdr w) <=? 0 = false) as -> by lia.
    apply linked_head in Hl. destruct Hl as [Hnx Hl]. cbn [map] in Hnd. inversion Hnd as [|? ? Hn Hd]; subst.
    rewrite mark_final_cons, Hsl, Hnx. apply IH; auto; [cbn [length] in Hf; lia| | lia].
    intros w' Hw'. destruct (Hok w' (or_intror Hw')) as (A & B & C & mo' & D). repeat split; try lia.
    exists mo'. cbn [set_sl r_sl]. rewrite upd_neq; [exact D|]. intros E. apply Hn. rewrite <- E. apply in_map, Hw'.
Qed.

(* finalizeOrFree on an anchored entry whose loaded slots are exactly a complete chain of the recorded size *)
Lemma finalize_complete : forall l pos f st z k sw,
  r_ent st f = mkLent LeLoading true z k (head_slot l (-1)) sw -> sw = 0 \/ sw = z -> l <> [] ->
  linked_to l (-1) -> (length l <= fuelN N)%nat -> NoDup (map w_slot l) ->
  (forall w, In w l -> 0 <= w_slot w < N /\ w_slot w <= pos /\ 0 < h_psz (w_hdr w) /\
      exists mo, r_sl st (w_slot w) = mkLslot mo true false false (h_psz (w_hdr w)) (h_next (w_hdr w))) ->
  psz_sum l = z ->
  finalize_or_free pos f st = set_ent (mark_final l st) f (mkLent LeLoaded true z k (head_slot l (-1)) z).
Proof.
  intros l pos f st z k sw He Hsw Hne Hl Hf Hnd Hok Hz.
  assert (0 < z).
  { destruct l as [|w l]; [congruence|]. rewrite psz_sum_cons in Hz.
    assert (0 <= psz_sum l) by (apply psz_sum_nonneg; intros w' Hw'; apply (Hok w' (or_intror Hw'))).
    destruct (Hok w (or_introl eq_refl)) as (_ & _ & Hp & _). lia. }
  unfold DiskcrashModel.finalize_or_free. rewrite He. rsimp. assert (z <=? 0 = false) as -> by lia.
  rewrite (fin_walk_chain l (-1)) by (auto; lia). change (-1 <? 0) with true. rewrite Z.eqb_refl, mark_final_ent, He. rsimp.
  destruct Hsw as [-> | ->]; [|assert (z =? 0 = false) as -> by lia]; reflexivity.
Qed.

End Walk.

Section RebuildSteps.
Variables (N P : Z) (oi : Z -> option oinfo) (d : disk).

Notation add_slot := (add_slot N P oi d).
Notation add_tail := (add_tail N).

(* while the total size is unknown the tail of addSlotToEntry only maps the slot *)
Lemma add_tail_unknown : forall pos f i h s,
  la_swapsz (r_ent s f) = 0 ->
  add_tail pos f i h s = set_sl s i (x_map (r_sl s i) (h_psz h) (h_next h)).
Proof. intros pos f i h s H. unfold DiskcrashModel.add_tail. rewrite H. reflexivity. Qed.

(* chainSlots: before the inode is known the new slot heads the [more] list and is the provisional start; afterwards
   it goes behind the inode *)
Lemma chain_slot_unanch : forall f i s,
  le_anch (r_ent s f) = false ->
  chain_slot f i s = set_ent (set_sl s i (x_more (r_sl s i) (la_start (r_ent s f)))) f (e_start (r_ent s f) i).
Proof. intros f i s H. unfold chain_slot. rewrite H. reflexivity. Qed.

Lemma chain_slot_anch : forall f i s,
  le_anch (r_ent s f) = true ->
  chain_slot f i s =
    let ino := la_start (r_ent s f) in
    let s' := set_sl s i (x_more (r_sl s i) (ls_more (r_sl s ino))) in
    set_sl s' ino (x_more (r_sl s' ino) i).
Proof. intros f i s H. unfold chain_slot. rewrite H. reflexivity. Qed.

(* the metadata the inode's payload starts with is intact *)
Definition meta_buf (w : wr) : list atom := read_area (Z.min P (dc_page_size - dc_cell_header_size)) (w_data w).
Definition meta_ok (w : wr) : Prop :=
  zeroed (meta_buf w) = false /\ exists info, parse_meta oi (meta_buf w) = Some info /\ o_ssz info = 0.

Lemma import_entry_unknown : forall i w e,
  d i = cell_of w -> meta_ok w -> h_esz (w_hdr w) = 0 -> la_swapsz e = 0 ->
  import_entry P oi d i (w_hdr w) e = Some 0.
Proof.
  intros i w e Hd (Hz & info & Hp & Hs) He Hsw. unfold import_entry, import_buf. rewrite Hd. cbn [cell_of c_area].
  fold (meta_buf w). rewrite Hz, Hp, He, Hsw, Hs. reflexivity.
Qed.

Lemma import_entry_known : forall i w e,
  d i = cell_of w -> meta_ok w -> 0 < h_esz (w_hdr w) ->
  import_entry P oi d i (w_hdr w) e = Some (h_esz (w_hdr w)).
Proof.
  intros i w e Hd (Hz & info & Hp & Hs) He. unfold import_entry, import_buf. rewrite Hd. cbn [cell_of c_area].
  fold (meta_buf w). rewrite Hz, Hp, Hs. assert (H0 : 0 <? h_esz (w_hdr w) = true) by lia.
  rewrite H0. cbv iota. rewrite H0. reflexivity.
Qed.

(* a slot joins a Loading entry whose total size is not known and stays so: before the inode has been seen
   (a = false) any slot, the inode of a multi-slot entry (entrySize 0, metadata intact) among them; afterwards
   (a = true) any other slot, which chainSlots puts behind the inode on the [more] list *)
Lemma add_slot_loading : forall pos f i w st (a : bool) z k start,
  r_ent st f = mkLent LeLoading a z k start 0 ->
  let h := w_hdr w in
  (a = true -> h_first h <> i /\ start <> i) ->
  (h_first h = i -> h_esz h = 0 /\ d i = cell_of w /\ meta_ok w) ->
  let st' := add_slot pos f i h st in
  (forall f', r_ent st' f' =
     if f' =? f then mkLent LeLoading (a || (h_first h =? i)) (z + h_psz h) k (if a then start else i) 0
     else r_ent st f') /\
  (forall c, r_sl st' c =
     if c =? i then mkLslot (if a then ls_more (r_sl st start) else start) true (ls_final (r_sl st i))
                            (ls_freed (r_sl st i)) (h_psz h) (h_next h)
     else if a && (c =? start) then x_more (r_sl st c) i else r_sl st c).
Proof.
  intros pos f i w st a z k start He h Ha Hino st'. subst st' h. unfold DiskcrashModel.add_slot, chain_slot.
  rewrite He. rsimp. destruct a; rsimp.
  - destruct (Ha eq_refl) as (Hf & Hs). assert (h_first (w_hdr w) =? i = false) as -> by lia.
    rewrite He. rsimp. rewrite add_tail_unknown by (rsimp; reflexivity).
    split; intros x; rsimp; unfold upd.
    + destruct (x =? f); reflexivity.
    + assert (start =? i = false) as -> by lia. assert (i =? start = false) as -> by lia. rewrite Z.eqb_refl.
      destruct (x =? i); [reflexivity|]. destruct (x =? start) eqn:E; [|reflexivity].
      apply Z.eqb_eq in E. subst x. reflexivity.
  - destruct (h_first (w_hdr w) =? i) eqn:Ei.
    + destruct Hino as (Hesz & Hd & Hm); [lia|]. unfold add_inode. rsimp.
      rewrite (import_entry_unknown i w _ Hd Hm Hesz) by reflexivity. rewrite Hesz. change (0 <? 0) with false. cbv iota.
      rewrite add_tail_unknown by (rsimp; reflexivity).
      split; intros x; rsimp; unfold upd; [destruct (x =? f)| destruct (x =? i)]; reflexivity.
    + rewrite add_tail_unknown by (rsimp; reflexivity).
      split; intros x; rsimp; unfold upd; [destruct (x =? f)| destruct (x =? i)]; reflexivity.
Qed.

(* a complete one-slot entry is finalised as soon as its slot is loaded *)
Lemma add_slot_single : forall pos f i w st k,
  r_ent st f = mkLent LeLoading false 0 k (-1) 0 -> r_sl st i = lslot0 ->
  h_first (w_hdr w) = i -> h_esz (w_hdr w) = h_psz (w_hdr w) -> 0 < h_psz (w_hdr w) -> h_next (w_hdr w) = -1 ->
  0 <= i < N -> i <= pos -> d i = cell_of w -> meta_ok w -> w_slot w = i ->
  let T := h_psz (w_hdr w) in
  let st' := add_slot pos f i (w_hdr w) st in
  (forall f', r_ent st' f' = if f' =? f then mkLent LeLoaded true T k i T else r_ent st f') /\
  (forall c, r_sl st' c = if c =? i then mkLslot (-1) true true false T (-1) else r_sl st c).
Proof.
  intros pos f i w st k He Hfresh Hf Hesz Hpsz Hnext Hi Hpos Hd Hm Hw T st'. subst st' T.
  unfold DiskcrashModel.add_slot, chain_slot. rewrite He. rsimp.
  assert (h_first (w_hdr w) =? i = true) as -> by lia. unfold add_inode. rsimp.
  rewrite (import_entry_known i w _ Hd Hm) by lia. assert (0 <? h_esz (w_hdr w) = true) as -> by lia. rsimp.
  assert (h_esz (w_hdr w) =? 0 = false) as -> by lia. rewrite Z.eqb_refl. rsimp.
  unfold DiskcrashModel.add_tail. rsimp. rewrite Hesz.
  assert (0 <? h_psz (w_hdr w) = true) as -> by lia.
  assert (h_psz (w_hdr w) <? 0 + h_psz (w_hdr w) = false) as -> by lia.
  assert (0 + h_psz (w_hdr w) =? h_psz (w_hdr w) = true) as -> by lia. rsimp.
  (* the entry is anchored at i, complete with the one slot w, of known size: finalizeOrFree *)
  rewrite (finalize_complete N [w] pos f _ (h_psz (w_hdr w)) k (h_psz (w_hdr w))).
  - rewrite mark_final_cons. cbn [mark_final fold_left head_slot]. rewrite Hw.
    split; intros x; rsimp; unfold upd; [destruct (x =? f)| rewrite Hfresh, Hnext; destruct (x =? i)]; reflexivity.
  - rsimp. cbn [head_slot]. rewrite Hw. unfold e_swapsz, e_anch, e_size, e_start. rsimp. f_equal; lia.
  - right. reflexivity.
  - discriminate.
  - split; [exact Hnext| exact I].
  - unfold fuelN. cbn [length]. lia.
  - repeat constructor. intros [].
  - intros w' [<- | []]. rewrite Hw. repeat split; try lia. exists (-1). rsimp. rewrite Hfresh. reflexivity.
  - rewrite psz_sum_cons. cbn [psz_sum fold_right]. lia.
Qed.

End RebuildSteps.

Record chain := mkChain { ch_key : key; ch_T : Z; ch_ws : list wr; ch_m : nat }.
Definition ch_written (c : chain) : list wr := firstn (ch_m c) (ch_ws c).
Definition ch_c0 (c : chain) : Z := match ch_ws c with w :: _ => w_slot w | [] => 0 end.
Definition ch_single (c : chain) : bool := match ch_ws c with [_] => true | _ => false end.
Definition ch_complete (c : chain) : Prop := ch_m c = length (ch_ws c).

Lemma nodup_firstn : forall A k (l : list A), NoDup l -> NoDup (firstn k l).
Proof. intros A k l H. rewrite <- (firstn_skipn k l) in H. apply (NoDup_app_inv _ _ H). Qed.

Lemma nodup_concat_in : forall A (L : list (list A)) l, NoDup (concat L) -> In l L -> NoDup l.
Proof.
  induction L as [|a L IH]; intros l Hnd Hin; [destruct Hin|]. cbn [concat] in Hnd.
  destruct (NoDup_app_inv _ _ Hnd) as (Ha & HL & _). destruct Hin as [<- | Hin]; [exact Ha| apply IH; assumption].
Qed.

(* among lists that are disjoint and duplicate-free together, an element tells its list *)
Lemma nodup_concat_owner : forall A B (g : A -> list B) l a1 a2 x,
  NoDup (concat (map g l)) -> In a1 l -> In a2 l -> In x (g a1) -> In x (g a2) -> a1 = a2.
Proof.
  induction l as [|a l IH]; intros a1 a2 x Hnd H1 H2 Hx1 Hx2; [destruct H1|].
  cbn [map concat] in Hnd. destruct (NoDup_app_inv _ _ Hnd) as (_ & Hnd' & Hdis).
  assert (Hin_concat : forall a', In a' l -> In x (g a') -> In x (concat (map g l))).
  { intros a' Ha' Hx'. apply in_concat. exists (g a'). split; [apply in_map, Ha'| exact Hx']. }
  destruct H1 as [<- | H1]; destruct H2 as [<- | H2].
  - reflexivity.
  - exfalso. apply (Hdis x Hx1). apply (Hin_concat a2); assumption.
  - exfalso. apply (Hdis x Hx2). apply (Hin_concat a1); assumption.
  - apply (IH a1 a2 x); assumption.
Qed.

Lemma existsb_dec : forall A (b : A -> bool) l, (exists x, In x l /\ b x = true) \/ (forall x, In x l -> b x = false).
Proof.
  intros A b l. destruct (existsb b l) eqn:E; [left; apply existsb_exists, E|]. right. intros x Hx.
  destruct (b x) eqn:Ex; [|reflexivity]. rewrite <- E. symmetry. apply existsb_exists. exists x. auto.
Qed.

Lemma in_firstn : forall A n (l : list A) x, In x (firstn n l) -> In x l.
Proof. intros A n l x H. rewrite <- (firstn_skipn n l). apply in_or_app. left. exact H. Qed.

Lemma key_eqb_refl : forall k, key_eqb k k = true.
Proof. intros [a b]. unfold key_eqb. cbn [fst snd]. now rewrite !Z.eqb_refl. Qed.

Section Recovery.
Variables (N P : Z) (oi : Z -> option oinfo) (d : disk).
Hypothesis HN : 0 < N.

Definition ch_f (c : chain) : Z := fileno_of N (ch_key c).

Record good_chain (c : chain) : Prop := {
  gc_nonempty : ch_ws c <> [];
  gc_m : (ch_m c <= length (ch_ws c))%nat;
  gc_hdr : forall w, In w (ch_ws c) ->
     h_key (w_hdr w) = ch_key c /\ h_first (w_hdr w) = ch_c0 c /\ 0 < h_ver (w_hdr w) /\
     0 < h_psz (w_hdr w) <= P /\ 0 <= w_slot w < N /\ -1 <= h_next (w_hdr w) < N;
  gc_linked : linked_to (ch_ws c) (-1);
  gc_esz : forall w r, ch_ws c = w :: r ->
     h_esz (w_hdr w) = match r with [] => ch_T c | _ :: _ => 0 end /\ (r = [] -> h_psz (w_hdr w) = ch_T c);
  gc_meta : forall w r, ch_ws c = w :: r -> meta_ok P oi w;
  gc_nodup : NoDup (map w_slot (ch_ws c));
  gc_data : forall w, In w (ch_ws c) -> h_psz (w_hdr w) = Z.of_nat (length (w_data w)) }.

Variable cs : list chain.
Hypothesis Hgood : forall c, In c cs -> good_chain c.
Hypothesis Hslots : NoDup (concat (map (fun c => map w_slot (ch_ws c)) cs)).
Hypothesis Hfiles : NoDup (map ch_f cs).
Hypothesis Himg_w : forall c w, In c cs -> In w (ch_written c) -> d (w_slot w) = cell_of w.
Hypothesis Himg_0 : forall x, (forall c w, In c cs -> In w (ch_written c) -> w_slot w <> x) -> d x = cell0.

Lemma owner_unique : forall c1 c2 w1 w2,
  In c1 cs -> In c2 cs -> In w1 (ch_ws c1) -> In w2 (ch_ws c2) -> w_slot w1 = w_slot w2 -> c1 = c2 /\ w1 = w2.
Proof.
  intros c1 c2 w1 w2 H1 H2 Hw1 Hw2 Hs.
  assert (c1 = c2).
  { apply (nodup_concat_owner _ _ (fun c => map w_slot (ch_ws c)) cs c1 c2 (w_slot w1) Hslots H1 H2).
    - apply in_map, Hw1.
    - rewrite Hs. apply in_map, Hw2. }
  subst c2. split; [reflexivity|].
  apply (NoDup_map_inj w_slot (ch_ws c1)); auto. apply (gc_nodup c1 (Hgood c1 H1)).
Qed.

Lemma files_distinct : forall c1 c2, In c1 cs -> In c2 cs -> ch_f c1 = ch_f c2 -> c1 = c2.
Proof. intros c1 c2 H1 H2 Hf. apply (NoDup_map_inj ch_f cs); auto. Qed.

Lemma written_in : forall c w, In w (ch_written c) -> In w (ch_ws c).
Proof. intros c w. apply in_firstn. Qed.

Lemma written_head : forall c w, In w (ch_written c) ->
  exists w0 r, ch_ws c = w0 :: r /\ In w0 (ch_written c) /\ ch_c0 c = w_slot w0.
Proof.
  intros c w Hw. unfold ch_written, ch_c0 in *. destruct (ch_ws c) as [|w0 r] eqn:E.
  - rewrite firstn_nil in Hw. destruct Hw.
  - exists w0, r. split; [reflexivity|]. split; [|reflexivity].
    destruct (ch_m c); [destruct Hw| cbn [firstn]; left; reflexivity].
Qed.

(* scanned part of a chain at scan position p *)
Definition Scn (c : chain) (p : Z) (w : wr) : Prop := In w (ch_written c) /\ w_slot w < p.
Definition ssum (c : chain) (p : Z) : Z := psz_sum (filter (fun w => w_slot w <? p) (ch_written c)).

Lemma ssum_same : forall c p, (forall w, In w (ch_written c) -> w_slot w <> p) -> ssum c (p + 1) = ssum c p.
Proof.
  intros c p H. unfold ssum. f_equal. apply filter_ext_in. intros w Hw. specialize (H w Hw). lia.
Qed.

Lemma ssum_step : forall c p w1, NoDup (map w_slot (ch_written c)) -> In w1 (ch_written c) -> w_slot w1 = p ->
  ssum c (p + 1) = ssum c p + h_psz (w_hdr w1).
Proof.
  intros c p w1. unfold ssum. induction (ch_written c) as [|w l IH]; intros Hnd Hin Hs; [destruct Hin|].
  cbn [map] in Hnd. inversion Hnd as [|? ? Hn Hd]; subst. cbn [filter].
  destruct Hin as [-> | Hin].
  - assert (w_slot w1 <? w_slot w1 + 1 = true) as -> by lia. assert (w_slot w1 <? w_slot w1 = false) as -> by lia.
    cbn [psz_sum fold_right]. fold (psz_sum (filter (fun w => w_slot w <? w_slot w1 + 1) l)).
    assert (filter (fun w => w_slot w <? w_slot w1 + 1) l = filter (fun w => w_slot w <? w_slot w1) l) as ->.
    { apply filter_ext_in. intros w Hw. assert (w_slot w <> w_slot w1) by (intros E; apply Hn; rewrite <- E; apply in_map, Hw). lia. }
    unfold psz_sum. lia.
  - assert (w_slot w <> w_slot w1) by (intros E; apply Hn; rewrite E; apply in_map, Hin).
    specialize (IH Hd Hin eq_refl).
    destruct (w_slot w <? w_slot w1 + 1) eqn:E1; destruct (w_slot w <? w_slot w1) eqn:E2; try lia;
      cbn [psz_sum fold_right] in *; unfold psz_sum in *; lia.
Qed.

Lemma written_nodup : forall c, In c cs -> NoDup (map w_slot (ch_written c)).
Proof. intros c Hc. unfold ch_written. rewrite <- firstn_map. apply nodup_firstn, (gc_nodup c (Hgood c Hc)). Qed.

Definition slot_ok (st : rst) (c : chain) (p : Z) (w : wr) : Prop :=
  exists mo, r_sl st (w_slot w) = mkLslot mo true false false (h_psz (w_hdr w)) (h_next (w_hdr w)) /\
             (mo = -1 \/ exists w', Scn c p w' /\ w_slot w' = mo).

Definition linv (c : chain) (p : Z) (st : rst) : Prop :=
  ((forall w, In w (ch_written c) -> p <= w_slot w) /\ r_ent st (ch_f c) = lent0) \/
  ((exists w, Scn c p w) /\ ch_single c = true /\
     r_ent st (ch_f c) = mkLent LeLoaded true (ch_T c) (ch_key c) (ch_c0 c) (ch_T c) /\
     r_sl st (ch_c0 c) = mkLslot (-1) true true false (ch_T c) (-1)) \/
  ((exists w, Scn c p w) /\ ch_single c = false /\ exists start,
     r_ent st (ch_f c) = mkLent LeLoading (ch_c0 c <? p) (ssum c p) (ch_key c) start 0 /\
     ((ch_c0 c <? p) = true -> start = ch_c0 c) /\
     (exists w, Scn c p w /\ w_slot w = start) /\
     (forall w, Scn c p w -> slot_ok st c p w)).

Definition LInv (p : Z) (st : rst) : Prop :=
  (forall c, In c cs -> linv c p st) /\
  (forall f, (forall c, In c cs -> ch_f c <> f) -> r_ent st f = lent0) /\
  (forall x, p <= x -> r_sl st x = lslot0).

(* nothing of chain c lives in slot p: its invariant carries over when its entry and slots are untouched *)
Lemma linv_frame : forall c p st st', linv c p st ->
  (forall w, In w (ch_written c) -> w_slot w <> p) ->
  r_ent st' (ch_f c) = r_ent st (ch_f c) ->
  (forall w, In w (ch_written c) -> r_sl st' (w_slot w) = r_sl st (w_slot w)) ->
  linv c (p + 1) st'.
Proof.
  intros c p st st' Hinv Hno He Hsl.
  assert (Hscn : forall w, Scn c (p + 1) w <-> Scn c p w).
  { intros w. unfold Scn. split; intros [A B]; split; auto; [specialize (Hno w A)|]; lia. }
  destruct Hinv as [[A B] | [(Hex & Hsg & Hent & Hs0) | (Hex & Hsg & start & Hent & Hst & Hstart & Hok)]].
  - left. split; [intros w Hw; specialize (A w Hw); specialize (Hno w Hw); lia| now rewrite He].
  - right; left. destruct Hex as [w Hw]. split; [exists w; apply Hscn, Hw|]. split; [exact Hsg|].
    split; [now rewrite He|].
    destruct (written_head c w (proj1 Hw)) as (w0 & r & _ & Hw0 & Hc0). rewrite Hc0, (Hsl w0 Hw0), <- Hc0. exact Hs0.
  - right; right. destruct Hex as [w Hw]. split; [exists w; apply Hscn, Hw|]. split; [exact Hsg|].
    destruct (written_head c w (proj1 Hw)) as (w0 & r & _ & Hw0 & Hc0).
    assert (Hc0p : (ch_c0 c <? p + 1) = (ch_c0 c <? p)). { specialize (Hno w0 Hw0). rewrite Hc0. lia. }
    exists start. rewrite He, Hc0p, (ssum_same c p Hno). split; [exact Hent|]. split; [exact Hst|].
    split.
    + destruct Hstart as (ws & Hws & Hwss). exists ws. split; [apply Hscn, Hws| exact Hwss].
    + intros w' Hw'. apply Hscn in Hw'. destruct (Hok w' Hw') as (mo & Hmo & Hcl). exists mo.
      rewrite (Hsl w' (proj1 Hw')). split; [exact Hmo|].
      destruct Hcl as [-> | (w'' & Hw'' & Hm)]; [left; reflexivity| right; exists w''; split; [apply Hscn, Hw''| exact Hm]].
Qed.

Lemma dec_owner : forall p,
  (exists c w, In c cs /\ In w (ch_written c) /\ w_slot w = p) \/
  (forall c w, In c cs -> In w (ch_written c) -> w_slot w <> p).
Proof.
  intros p. destruct (existsb_dec _ (fun c => existsb (fun w => w_slot w =? p) (ch_written c)) cs) as [(c & Hc & E) | H].
  - apply existsb_exists in E. destruct E as (w & Hw & E). left. exists c, w. repeat split; auto. lia.
  - right. intros c w Hc Hw Hs. specialize (H c Hc).
    assert (existsb (fun w => w_slot w =? p) (ch_written c) = true); [|congruence].
    apply existsb_exists. exists w. split; [exact Hw| lia].
Qed.

Lemma ssum_zero : forall c p, (forall w, In w (ch_written c) -> p <= w_slot w) -> ssum c p = 0.
Proof.
  intros c p H. unfold ssum. induction (ch_written c) as [|w l IH]; [reflexivity|].
  cbn [filter]. assert (w_slot w <? p = false) as -> by (specialize (H w (or_introl eq_refl)); lia).
  apply IH. intros w' Hw'. apply H. right. exact Hw'.
Qed.

Lemma load_one_empty : forall st p, d p = cell0 -> load_one N P oi d st p = free_slot p st.
Proof. intros st p H. unfold load_one. rewrite H. reflexivity. Qed.

Lemma load_one_owned : forall st p c w, In c cs -> In w (ch_written c) -> w_slot w = p ->
  load_one N P oi d st p = use_new_slot N P oi d p p (w_hdr w) st.
Proof.
  intros st p c w Hc Hw Hs. unfold load_one. rewrite <- Hs, (Himg_w c w Hc Hw). cbn [cell_of c_hdr].
  destruct (gc_hdr c (Hgood c Hc) w (written_in c w Hw)) as (_ & Hf & Hv & Hp & Hsl & Hn).
  destruct (written_head c w Hw) as (w0 & r & _ & Hw0 & Hc0).
  destruct (gc_hdr c (Hgood c Hc) w0 (written_in c w0 Hw0)) as (_ & _ & _ & _ & Hsl0 & _).
  assert (hdr_empty (w_hdr w) = false) as -> by (unfold hdr_empty; lia).
  assert (hdr_sane N P (w_hdr w) = true) as -> by (unfold hdr_sane; lia). reflexivity.
Qed.

Lemma single_only : forall c w w', ch_single c = true -> In w (ch_ws c) -> In w' (ch_ws c) -> w = w'.
Proof.
  intros c w w' Hs Hw Hw'. unfold ch_single in Hs. destruct (ch_ws c) as [|a [|b r]]; try discriminate Hs.
  destruct Hw as [<- | []]; destruct Hw' as [<- | []]; reflexivity.
Qed.

(* the state and the entry that addSlotToEntry sees when the scan reaches a written slot of chain c1 *)
Lemma owner_pre : forall p st c1 w1, LInv p st -> In c1 cs -> In w1 (ch_written c1) -> w_slot w1 = p ->
  exists st0 start,
    use_new_slot N P oi d p p (w_hdr w1) st = add_slot N P oi d p (ch_f c1) p (w_hdr w1) st0 /\
    r_ent st0 (ch_f c1) = mkLent LeLoading (ch_c0 c1 <? p) (ssum c1 p) (ch_key c1) start 0 /\
    (forall f', f' <> ch_f c1 -> r_ent st0 f' = r_ent st f') /\ (forall x, r_sl st0 x = r_sl st x) /\
    ((ch_c0 c1 <? p) = true -> start = ch_c0 c1) /\
    (start = -1 \/ exists w, Scn c1 p w /\ w_slot w = start) /\
    (forall w, Scn c1 p w -> slot_ok st c1 p w) /\
    ((exists w, Scn c1 p w) -> ch_single c1 = false).
Proof.
  intros p st c1 w1 (Hall & _ & _) Hc1 Hw1 Hs1.
  destruct (gc_hdr c1 (Hgood c1 Hc1) w1 (written_in c1 w1 Hw1)) as (Hk & _).
  unfold use_new_slot. rewrite Hk. fold (ch_f c1).
  destruct (Hall c1 Hc1) as [[A B] | [(Hex & Hsg & Hent & Hs0) | (Hex & Hsg & start & Hent & Hst & Hstart & Hok)]].
  - rewrite B. cbn [lent0 le_state].
    exists (set_ent st (ch_f c1) (mkLent LeLoading false 0 (ch_key c1) (-1) 0)), (-1).
    split; [reflexivity|].
    destruct (written_head c1 w1 Hw1) as (w0 & r & _ & Hw0 & Hc0).
    assert (Hc0p : (ch_c0 c1 <? p) = false) by (specialize (A w0 Hw0); rewrite Hc0; lia).
    rewrite Hc0p, (ssum_zero c1 p A). split; [cbn [set_ent r_ent]; apply upd_eq|].
    split; [intros f' Hf'; cbn [set_ent r_ent]; apply upd_neq, Hf'|]. split; [reflexivity|].
    split; [discriminate|]. split; [left; reflexivity|].
    split; intros; [|destruct H as (w & Hw & Hlt)]; try (destruct H as [Hw Hlt]); specialize (A _ Hw); lia.
  - exfalso. destruct Hex as (w & Hw & Hlt).
    assert (w = w1) by (apply (single_only c1); auto using written_in). subst w. lia.
  - rewrite Hent. cbn [le_state la_key]. rewrite key_eqb_refl.
    exists st, start. split; [reflexivity|]. split; [exact Hent|]. split; [reflexivity|]. split; [reflexivity|].
    split; [exact Hst|]. split; [right; exact Hstart|]. split; [exact Hok|]. intros _. exact Hsg.
Qed.

Lemma c0_in : forall c, In c cs -> exists w0, In w0 (ch_ws c) /\ w_slot w0 = ch_c0 c.
Proof.
  intros c Hc. pose proof (gc_nonempty c (Hgood c Hc)) as Hne. unfold ch_c0.
  destruct (ch_ws c) as [|w0 r]; [congruence|]. exists w0. split; [left; reflexivity| reflexivity].
Qed.

Lemma classic_chain_eq : forall c c1, In c cs -> In c1 cs -> c = c1 \/ c <> c1.
Proof.
  intros c c1 Hc Hc1. destruct (Z.eq_dec (ch_f c) (ch_f c1)) as [E | E].
  - left. apply files_distinct; assumption.
  - right. intros ->. apply E. reflexivity.
Qed.

Lemma scn_mono : forall c p w, Scn c p w -> Scn c (p + 1) w.
Proof. intros c p w [A B]. split; [exact A| lia]. Qed.

(* the other chains, the unowned filenos and the unscanned slots after a step that touched only chain c1 *)
Lemma load_step_others : forall p st st' c1 w1 (b : bool),
  LInv p st -> In c1 cs -> In w1 (ch_written c1) -> w_slot w1 = p ->
  (forall f', f' <> ch_f c1 -> r_ent st' f' = r_ent st f') ->
  (forall x, x <> p -> (b = true -> x <> ch_c0 c1) -> r_sl st' x = r_sl st x) ->
  (b = true -> ch_c0 c1 < p) ->
  (forall c, In c cs -> c <> c1 -> linv c (p + 1) st') /\
  (forall f, (forall c, In c cs -> ch_f c <> f) -> r_ent st' f = lent0) /\
  (forall x, p + 1 <= x -> r_sl st' x = lslot0).
Proof.
  intros p st st' c1 w1 b (Hall & Hfree & Hfresh) Hc1 Hw1 Hs1 He Hsl Hb.
  split; [|split].
  - intros c Hc Hne. apply (linv_frame c p st st' (Hall c Hc)).
    + intros w Hw Hs. apply Hne. apply (owner_unique c c1 w w1); auto using written_in. lia.
    + apply He. intros Hf. apply Hne. apply files_distinct; auto.
    + intros w Hw. apply Hsl.
      * intros Hs. apply Hne. apply (owner_unique c c1 w w1); auto using written_in. lia.
      * intros _ Hs. destruct (c0_in c1 Hc1) as (w0 & Hw0 & Hs0). apply Hne.
        apply (owner_unique c c1 w w0); auto using written_in. lia.
  - intros f Hf. rewrite He; [apply Hfree, Hf| intros ->; apply (Hf c1 Hc1); reflexivity].
  - intros x Hx. rewrite Hsl; [apply Hfresh; lia| lia| intros Hb'; specialize (Hb Hb'); lia].
Qed.

Lemma load_step_owner_multi : forall p st st' c1 w1 (b : bool) start' mo',
  LInv p st -> In c1 cs -> In w1 (ch_written c1) -> w_slot w1 = p -> ch_single c1 = false ->
  (forall f', r_ent st' f' = if f' =? ch_f c1
        then mkLent LeLoading (ch_c0 c1 <? p + 1) (ssum c1 (p + 1)) (ch_key c1) start' 0 else r_ent st f') ->
  (forall x, r_sl st' x =
        if x =? p then mkLslot mo' true false false (h_psz (w_hdr w1)) (h_next (w_hdr w1))
        else if b && (x =? ch_c0 c1) then x_more (r_sl st x) p else r_sl st x) ->
  (b = true -> ch_c0 c1 < p) ->
  ((ch_c0 c1 <? p + 1) = true -> start' = ch_c0 c1) ->
  (start' = p \/ exists w, Scn c1 p w /\ w_slot w = start') ->
  (mo' = -1 \/ exists w, Scn c1 p w /\ w_slot w = mo') ->
  (forall w, Scn c1 p w -> slot_ok st c1 p w) ->
  LInv (p + 1) st'.
Proof.
  intros p st st' c1 w1 b start' mo' HI Hc1 Hw1 Hs1 Hsg He Hsl Hb Hst Hstart Hmo Hok.
  destruct (load_step_others p st st' c1 w1 b HI Hc1 Hw1 Hs1) as (Ho & Hf & Hx).
  { intros f' Hf'. rewrite He. assert (f' =? ch_f c1 = false) as -> by lia. reflexivity. }
  { intros x Hx1 Hx2. rewrite Hsl. assert (x =? p = false) as -> by lia.
    destruct b; [|reflexivity]. specialize (Hx2 eq_refl). assert (x =? ch_c0 c1 = false) as -> by lia. reflexivity. }
  { exact Hb. }
  split; [|split; assumption].
  intros c Hc. destruct (classic_chain_eq c c1 Hc Hc1) as [-> | Hne]; [|apply Ho; assumption].
  right; right. split; [exists w1; split; [exact Hw1| lia]|]. split; [exact Hsg|].
  exists start'. split; [rewrite He, Z.eqb_refl; reflexivity|]. split; [exact Hst|]. split.
  - destruct Hstart as [-> | (w & Hw & Hws)]; [exists w1; split; [split; [exact Hw1| lia]| exact Hs1]|].
    exists w. split; [apply scn_mono, Hw| exact Hws].
  - intros w [Hw Hlt]. unfold slot_ok. rewrite Hsl.
    destruct (w_slot w =? p) eqn:Ep.
    + assert (w = w1).
      { apply (NoDup_map_inj w_slot (ch_written c1)); auto using written_nodup. lia. }
      subst w. exists mo'. split; [reflexivity|].
      destruct Hmo as [-> | (w & Hw' & Hws)]; [left; reflexivity| right; exists w; split; [apply scn_mono, Hw'| exact Hws]].
    + assert (Hscn : Scn c1 p w) by (split; [exact Hw| lia]).
      destruct (Hok w Hscn) as (mo & Hmo_eq & Hcl).
      destruct (b && (w_slot w =? ch_c0 c1)) eqn:Eb.
      * exists p. rewrite Hmo_eq. unfold x_more. cbn [ls_mapped ls_final ls_freed ls_size ls_next]. split; [reflexivity|].
        right. exists w1. split; [split; [exact Hw1| lia]| exact Hs1].
      * exists mo. split; [exact Hmo_eq|].
        destruct Hcl as [-> | (w' & Hw' & Hws)]; [left; reflexivity| right; exists w'; split; [apply scn_mono, Hw'| exact Hws]].
Qed.

Lemma load_step : forall p st, LInv p st -> LInv (p + 1) (load_one N P oi d st p).
Proof.
  intros p st HI. destruct (dec_owner p) as [(c1 & w1 & Hc1 & Hw1 & Hs1) | Hnone].
  2:{ rewrite load_one_empty by (apply Himg_0; intros c w Hc Hw; apply (Hnone c w Hc Hw)).
      destruct HI as (Hall & Hfree & Hfresh). split; [|split].
      - intros c Hc. apply (linv_frame c p st _ (Hall c Hc)); [intros w Hw; apply (Hnone c w Hc Hw)| reflexivity|].
        intros w Hw. unfold free_slot. cbn [set_sl r_sl]. apply upd_neq. apply (Hnone c w Hc Hw).
      - intros f Hf. unfold free_slot. cbn [set_sl r_ent]. apply Hfree, Hf.
      - intros x Hx. unfold free_slot. cbn [set_sl r_sl]. rewrite upd_neq by lia. apply Hfresh. lia. }
  rewrite (load_one_owned st p c1 w1 Hc1 Hw1 Hs1).
  destruct (owner_pre p st c1 w1 HI Hc1 Hw1 Hs1) as (st0 & start & Heq & Hent & Hof & Hsl0 & Hst & Hstart & Hok & Hsgl).
  rewrite Heq. clear Heq.
  pose proof (Hgood c1 Hc1) as G.
  destruct (gc_hdr c1 G w1 (written_in c1 w1 Hw1)) as (Hk & Hfirst & Hver & Hpsz & Hslot & Hnext).
  assert (Hfreshp : r_sl st p = lslot0) by (destruct HI as (_ & _ & HIx); apply HIx; lia).
  assert (Himg : d p = cell_of w1) by (rewrite <- Hs1; apply (Himg_w c1 w1 Hc1 Hw1)).
  destruct (written_head c1 w1 Hw1) as (w0 & r & Hws & Hw0 & Hc0).
  destruct (ch_single c1) eqn:Esg.
  - (* a one-slot entry *)
    assert (w0 = w1) by (apply (single_only c1); auto using written_in). subst w0.
    assert (r = []) by (unfold ch_single in Esg; rewrite Hws in Esg; destruct r; [reflexivity| discriminate Esg]). subst r.
    destruct (gc_esz c1 G w1 [] Hws) as (Hesz & HT). specialize (HT eq_refl).
    pose proof (gc_linked c1 G) as Hl. rewrite Hws in Hl. cbn [linked_to] in Hl. destruct Hl as [Hnx _].
    assert (Hnoscan : forall w, In w (ch_written c1) -> p <= w_slot w).
    { intros w Hw. assert (w = w1) by (apply (single_only c1); auto using written_in). subst w. lia. }
    assert (Hstart1 : start = -1).
    { destruct Hstart as [-> | (w & Hw & _)]; [reflexivity|]. assert (true = false) by (apply Hsgl; exists w; exact Hw). discriminate. }
    assert (Hc0p : (ch_c0 c1 <? p) = false) by lia.
    rewrite Hc0p, (ssum_zero c1 p Hnoscan), Hstart1 in Hent.
    destruct (add_slot_single N P oi d p (ch_f c1) p w1 st0 (ch_key c1)) as (E1 & S1); auto; try lia.
    { rewrite Hsl0. exact Hfreshp. }
    { apply (gc_meta c1 G w1 [] Hws). }
    set (st' := add_slot N P oi d p (ch_f c1) p (w_hdr w1) st0) in *.
    destruct (load_step_others p st st' c1 w1 false HI Hc1 Hw1 Hs1) as (Ho & Hf & Hx).
    { intros f' Hf'. rewrite E1. assert (f' =? ch_f c1 = false) as -> by lia. apply Hof, Hf'. }
    { intros x Hx1 _. rewrite S1. assert (x =? p = false) as -> by lia. apply Hsl0. }
    { discriminate. }
    split; [|split; assumption].
    intros c Hc. destruct (classic_chain_eq c c1 Hc Hc1) as [-> | Hne]; [|apply Ho; assumption].
    right; left. split; [exists w1; split; [exact Hw1| lia]|]. split; [exact Esg|].
    split; [rewrite E1, Z.eqb_refl, HT, Hc0, Hs1; reflexivity|].
    rewrite S1, Hc0, Hs1, Z.eqb_refl, HT. reflexivity.
  - (* a slot of a multi-slot entry: the entry stays Loading, its size still unknown *)
    assert (Hstep : ssum c1 (p + 1) = ssum c1 p + h_psz (w_hdr w1)) by (apply ssum_step; auto using written_nodup).
    assert (Hino : h_first (w_hdr w1) = p -> h_esz (w_hdr w1) = 0 /\ d p = cell_of w1 /\ meta_ok P oi w1).
    { intros E. assert (w0 = w1).
      { apply (NoDup_map_inj w_slot (ch_ws c1)); auto using written_in; [apply (gc_nodup c1 G)| lia]. }
      subst w0. destruct (gc_esz c1 G w1 r Hws) as (Hesz & _).
      destruct r; [unfold ch_single in Esg; rewrite Hws in Esg; discriminate Esg|].
      split; [exact Hesz|]. split; [exact Himg| apply (gc_meta c1 G w1 _ Hws)]. }
    destruct (add_slot_loading N P oi d p (ch_f c1) p w1 st0 _ _ _ _ Hent) as (E1 & S1); [|exact Hino|].
    { intros Ea. specialize (Hst Ea). lia. }
    rewrite Hfirst in E1.
    apply (load_step_owner_multi p st _ c1 w1 (ch_c0 c1 <? p) (if ch_c0 c1 <? p then start else p)
             (if ch_c0 c1 <? p then ls_more (r_sl st start) else start) HI Hc1 Hw1 Hs1 Esg).
    + intros f'. rewrite E1, Hstep. destruct (f' =? ch_f c1) eqn:Ef; [|apply Hof; lia].
      replace ((ch_c0 c1 <? p) || (ch_c0 c1 =? p)) with (ch_c0 c1 <? p + 1) by lia. reflexivity.
    + intros x. rewrite S1, !Hsl0, Hfreshp. destruct (ch_c0 c1 <? p) eqn:Ea; [rewrite (Hst eq_refl)|]; reflexivity.
    + lia.
    + destruct (ch_c0 c1 <? p) eqn:Ea; [auto| lia].
    + destruct (ch_c0 c1 <? p) eqn:Ea; [|left; reflexivity].
      right. exists w0. split; [split; [exact Hw0| lia]| rewrite (Hst eq_refl); auto].
    + destruct (ch_c0 c1 <? p) eqn:Ea; [|exact Hstart].
      destruct (Hok w0) as (mo & Hmo & Hcl); [split; [exact Hw0| lia]|]. rewrite (Hst eq_refl), Hc0, Hmo. exact Hcl.
    + exact Hok.
Qed.

Lemma LInv_init : LInv 0 rst0.
Proof.
  split; [|split; reflexivity]. intros c Hc. left. split; [|reflexivity].
  intros w Hw. apply (gc_hdr c (Hgood c Hc) w (written_in c w Hw)).
Qed.

Lemma loaded : LInv N (fold_left (load_one N P oi d) (zseq 0 (Z.to_nat N)) rst0).
Proof.
  pose proof (fold_zseq_inv rst LInv (load_one N P oi d) (Z.to_nat N) 0 rst0 load_step LInv_init) as H.
  rewrite Z2Nat.id in H by lia. exact H.
Qed.

(* freeBadEntry touches only the entry and the slots on its [more] list *)
Lemma free_more_frame : forall (S : Z -> Prop) fuel i st,
  (i = -1 \/ S i) ->
  (forall x, S x -> 0 <= x /\ (ls_more (r_sl st x) = -1 \/ S (ls_more (r_sl st x)))) ->
  (forall f, r_ent (free_more fuel i st) f = r_ent st f) /\
  (forall x, ~ S x -> r_sl (free_more fuel i st) x = r_sl st x).
Proof.
  intros S. induction fuel as [|fuel IH]; intros i st Hi Hcl.
  - cbn [free_more]. destruct (i <? 0); split; intros; reflexivity.
  - cbn [free_more]. destruct (i <? 0) eqn:Ei; [split; intros; reflexivity|].
    destruct Hi as [-> | Hi]; [discriminate Ei|].
    destruct (Hcl i Hi) as (Hi0 & Hmo).
    destruct (IH (ls_more (r_sl st i)) (free_slot i st)) as (A & B).
    + exact Hmo.
    + intros x Hx. destruct (Hcl x Hx) as (Hx0 & Hxm). split; [exact Hx0|].
      unfold free_slot. cbn [set_sl r_sl]. unfold upd. destruct (x =? i) eqn:E.
      * apply Z.eqb_eq in E. subst x. cbn [x_freed ls_more]. exact Hxm.
      * exact Hxm.
    + split.
      * intros f. rewrite A. reflexivity.
      * intros x Hx. rewrite B by exact Hx. unfold free_slot. cbn [set_sl r_sl]. apply upd_neq.
        intros ->. apply Hx, Hi.
Qed.

Lemma free_bad_entry_spec : forall (S : Z -> Prop) f st,
  (la_start (r_ent st f) = -1 \/ S (la_start (r_ent st f))) ->
  (forall x, S x -> 0 <= x /\ (ls_more (r_sl st x) = -1 \/ S (ls_more (r_sl st x)))) ->
  le_state (r_ent (free_bad_entry N f st) f) = LeCorrupted /\
  (forall f', f' <> f -> r_ent (free_bad_entry N f st) f' = r_ent st f') /\
  (forall x, ~ S x -> r_sl (free_bad_entry N f st) x = r_sl st x).
Proof.
  intros S f st Hs Hcl. unfold free_bad_entry.
  set (st1 := set_ent st f (e_state (r_ent st f) LeCorrupted)).
  destruct (free_more_frame S (fuelN N) (la_start (r_ent st f)) st1 Hs) as (A & B).
  { intros x Hx. apply Hcl, Hx. }
  split; [|split].
  - cbn [set_ent r_ent]. rewrite upd_eq, A. unfold st1. cbn [set_ent r_ent]. rewrite upd_eq. reflexivity.
  - intros f' Hf'. cbn [set_ent r_ent]. rewrite upd_neq by exact Hf'. rewrite A. unfold st1. cbn [set_ent r_ent].
    apply upd_neq, Hf'.
  - intros x Hx. cbn [set_ent r_sl]. rewrite B by exact Hx. reflexivity.
Qed.

Definition slot_done (st : rst) (w : wr) : Prop :=
  exists mo, r_sl st (w_slot w) = mkLslot mo true true false (h_psz (w_hdr w)) (h_next (w_hdr w)).

Definition vinv (c : chain) (g : Z) (st : rst) : Prop :=
  (ch_written c = [] /\ r_ent st (ch_f c) = lent0) \/
  (ch_written c <> [] /\ ch_single c = true /\
     r_ent st (ch_f c) = mkLent LeLoaded true (ch_T c) (ch_key c) (ch_c0 c) (ch_T c) /\
     r_sl st (ch_c0 c) = mkLslot (-1) true true false (ch_T c) (-1)) \/
  (ch_written c <> [] /\ ch_single c = false /\ g <= ch_f c /\
     r_ent st (ch_f c) = mkLent LeLoading true (psz_sum (ch_written c)) (ch_key c) (ch_c0 c) 0 /\
     forall w, In w (ch_written c) -> slot_ok st c N w) \/
  (ch_written c <> [] /\ ch_single c = false /\ ch_f c < g /\ ch_complete c /\
     r_ent st (ch_f c) = mkLent LeLoaded true (psz_sum (ch_ws c)) (ch_key c) (ch_c0 c) (psz_sum (ch_ws c)) /\
     forall w, In w (ch_ws c) -> slot_done st w) \/
  (ch_written c <> [] /\ ch_single c = false /\ ch_f c < g /\ ~ ch_complete c /\
     le_state (r_ent st (ch_f c)) = LeCorrupted).

Definition VInv (g : Z) (st : rst) : Prop :=
  (forall c, In c cs -> vinv c g st) /\
  (forall f, (forall c, In c cs -> ch_f c <> f) -> r_ent st f = lent0).

Lemma ch_f_range : forall c, 0 <= ch_f c < N.
Proof. intros c. unfold ch_f, fileno_of. apply Z.mod_pos_bound. exact HN. Qed.

Lemma ssum_all : forall c, In c cs -> ssum c N = psz_sum (ch_written c).
Proof.
  intros c Hc. unfold ssum. f_equal.
  assert (H : forall w, In w (ch_written c) -> w_slot w <? N = true).
  { intros w Hw. destruct (gc_hdr c (Hgood c Hc) w (written_in c w Hw)) as (_ & _ & _ & _ & Hr & _). lia. }
  induction (ch_written c) as [|w l IH]; [reflexivity|]. cbn [filter]. rewrite (H w (or_introl eq_refl)).
  f_equal. apply IH. intros w' Hw'. apply H. right. exact Hw'.
Qed.

Lemma VInv_of_LInv : forall st, LInv N st -> VInv 0 st.
Proof.
  intros st (Hall & Hfree & _). split; [|exact Hfree].
  intros c Hc. pose proof (ch_f_range c) as Hfr.
  assert (Hrange : forall w, In w (ch_written c) -> w_slot w < N).
  { intros w Hw. apply (gc_hdr c (Hgood c Hc) w (written_in c w Hw)). }
  destruct (Hall c Hc) as [[A B] | [(Hex & Hsg & Hent & Hs0) | (Hex & Hsg & start & Hent & Hst & Hstart & Hok)]].
  - left. split; [|exact B]. destruct (ch_written c) as [|w l]; [reflexivity|].
    specialize (A w (or_introl eq_refl)). specialize (Hrange w (or_introl eq_refl)). lia.
  - right; left. destruct Hex as (w & Hw & _). split; [intros E; rewrite E in Hw; destruct Hw|]. auto.
  - right; right; left. destruct Hex as (w & Hw & _).
    split; [intros E; rewrite E in Hw; destruct Hw|]. split; [exact Hsg|]. split; [lia|].
    destruct (written_head c w Hw) as (w0 & r & _ & Hw0 & Hc0).
    assert (Hc0N : (ch_c0 c <? N) = true) by (specialize (Hrange w0 Hw0); lia).
    rewrite Hc0N, (ssum_all c Hc) in Hent. rewrite (Hst Hc0N) in Hent. split; [exact Hent|].
    intros w' Hw'. apply Hok. split; [exact Hw'| apply Hrange, Hw'].
Qed.

Lemma vinv_frame : forall c g st st', In c cs -> vinv c g st -> ch_f c <> g ->
  r_ent st' (ch_f c) = r_ent st (ch_f c) ->
  (forall w, In w (ch_ws c) -> r_sl st' (w_slot w) = r_sl st (w_slot w)) ->
  vinv c (g + 1) st'.
Proof.
  intros c g st st' Hc Hv Hne He Hsl.
  destruct Hv as [(A & B) | [(A & Hsg & B & C) | [(A & Hsg & Hg & B & C) | [(A & Hsg & Hg & Hco & B & C) | (A & Hsg & Hg & Hco & B)]]]].
  - left. split; [exact A| now rewrite He].
  - right; left. split; [exact A|]. split; [exact Hsg|]. split; [now rewrite He|].
    destruct (c0_in c Hc) as (w0 & Hw0 & Hs0). rewrite <- Hs0, (Hsl w0 Hw0), Hs0. exact C.
  - right; right; left. split; [exact A|]. split; [exact Hsg|]. split; [lia|]. split; [now rewrite He|].
    intros w Hw. destruct (C w Hw) as (mo & Hmo & Hcl). exists mo. rewrite (Hsl w (written_in c w Hw)). auto.
  - right; right; right; left. split; [exact A|]. split; [exact Hsg|]. split; [lia|]. split; [exact Hco|].
    split; [now rewrite He|]. intros w Hw. destruct (C w Hw) as (mo & Hmo). exists mo. rewrite (Hsl w Hw). exact Hmo.
  - right; right; right; right. split; [exact A|]. split; [exact Hsg|]. split; [lia|]. split; [exact Hco|]. now rewrite He.
Qed.

Lemma chain_length : forall c, In c cs -> (length (ch_ws c) <= Z.to_nat N)%nat.
Proof.
  intros c Hc. rewrite <- (map_length w_slot), <- (zseq_length (Z.to_nat N) 0).
  apply NoDup_incl_length; [apply (gc_nodup c (Hgood c Hc))|].
  intros x Hx. apply in_map_iff in Hx. destruct Hx as (w & <- & Hw). apply zseq_in.
  destruct (gc_hdr c (Hgood c Hc) w Hw) as (_ & _ & _ & _ & Hr & _). lia.
Qed.

Lemma written_head_slot : forall c e, ch_written c <> [] -> head_slot (ch_written c) e = ch_c0 c.
Proof.
  intros c e Hne. destruct (ch_written c) as [|w W] eqn:E; [congruence|].
  destruct (written_head c w) as (w0 & r & Hws & _ & ->); [rewrite E; left; reflexivity|].
  unfold ch_written in E. rewrite Hws in E. destruct (ch_m c); [discriminate E|]. injection E as <- _. reflexivity.
Qed.

(* validation of a multi-slot entry: Loaded with every slot finalised if all its writes reached the disk, freed if
   the crash cut the chain short (the walk then stops at a slot that was never loaded) *)
Lemma finalize_chain : forall c st, In c cs -> ch_written c <> [] ->
  r_ent st (ch_f c) = mkLent LeLoading true (psz_sum (ch_written c)) (ch_key c) (ch_c0 c) 0 ->
  (forall w, In w (ch_written c) -> slot_ok st c N w) ->
  let st' := finalize_or_free N N (ch_f c) st in
  (ch_complete c ->
     r_ent st' (ch_f c) = mkLent LeLoaded true (psz_sum (ch_ws c)) (ch_key c) (ch_c0 c) (psz_sum (ch_ws c)) /\
     forall w, In w (ch_ws c) -> slot_done st' w) /\
  (~ ch_complete c -> le_state (r_ent st' (ch_f c)) = LeCorrupted) /\
  (forall f', f' <> ch_f c -> r_ent st' f' = r_ent st f') /\
  (forall x, (forall w, In w (ch_written c) -> w_slot w <> x) -> r_sl st' x = r_sl st x).
Proof.
  intros c st Hc Hne Hent Hok st'. pose proof (Hgood c Hc) as G.
  pose proof (written_nodup c Hc) as HndW. pose proof (written_head_slot c) as Hhd.
  assert (Hlen : (length (ch_written c) <= fuelN N)%nat).
  { unfold fuelN, ch_written. pose proof (chain_length c Hc). rewrite firstn_length. lia. }
  assert (HokW : forall w, In w (ch_written c) -> 0 <= w_slot w < N /\ w_slot w <= N /\ 0 < h_psz (w_hdr w) /\
      exists mo, r_sl st (w_slot w) = mkLslot mo true false false (h_psz (w_hdr w)) (h_next (w_hdr w))).
  { intros w Hw. destruct (gc_hdr c G w (written_in c w Hw)) as (_ & _ & _ & Hp & Hr & _).
    destruct (Hok w Hw) as (mo & Hmo & _). repeat split; try lia. exists mo. exact Hmo. }
  assert (Hout : forall x, (forall w, In w (ch_written c) -> w_slot w <> x) -> ~ In x (map w_slot (ch_written c))).
  { intros x Hx Hin. apply in_map_iff in Hin. destruct Hin as (w & Hs & Hw). apply (Hx w Hw Hs). }
  destruct (Nat.eq_dec (ch_m c) (length (ch_ws c))) as [Hco | Hco].
  - assert (HW : ch_written c = ch_ws c) by (unfold ch_written; rewrite Hco; apply firstn_all).
    rewrite <- (Hhd (-1) Hne) in Hent. subst st'.
    rewrite (finalize_complete N (ch_written c) N (ch_f c) st _ _ 0 Hent); auto;
      [|rewrite HW; apply (gc_linked c G)].
    rewrite (Hhd (-1) Hne), <- HW. split; [|split; [|split]].
    + intros _. split; [cbn [set_ent r_ent]; apply upd_eq|].
      intros w Hw. unfold slot_done. cbn [set_ent r_sl]. rewrite mark_final_in by assumption.
      destruct (HokW w Hw) as (_ & _ & _ & mo & ->). exists mo. reflexivity.
    + intros Hn. destruct (Hn Hco).
    + intros f' Hf'. cbn [set_ent r_ent]. rewrite upd_neq by exact Hf'. apply mark_final_ent.
    + intros x Hx. cbn [set_ent r_sl]. apply mark_final_out, Hout, Hx.
  - pose proof (gc_m c G) as Hm. destruct (ch_written c) as [|w0 W'] eqn:EW; [congruence|]. set (W := w0 :: W') in *.
    pose proof (linked_firstn (ch_ws c) (-1) (ch_m c) w0 (gc_linked c G) ltac:(lia)) as Hl.
    fold (ch_written c) in Hl. rewrite EW in Hl.
    set (e := w_slot (nth (ch_m c) (ch_ws c) w0)) in *.
    assert (He0 : 0 <= e).
    { destruct (gc_hdr c G (nth (ch_m c) (ch_ws c) w0)) as (_ & _ & _ & _ & Hr & _); [apply nth_In; lia| unfold e; lia]. }
    assert (0 < psz_sum W).
    { unfold W. rewrite psz_sum_cons. destruct (HokW w0 (or_introl eq_refl)) as (_ & _ & Hp & _).
      assert (0 <= psz_sum W') by (apply psz_sum_nonneg; intros w Hw; apply (HokW w (or_intror Hw))). lia. }
    subst st'. unfold finalize_or_free. rewrite Hent. cbn [le_size la_start].
    assert (psz_sum W <=? 0 = false) as -> by lia.
    rewrite <- (Hhd e Hne), (fin_walk_chain N W e) by auto. assert (e <? 0 = false) as -> by lia. cbn [andb].
    set (S := fun x => exists w, In w W /\ w_slot w = x).
    destruct (free_bad_entry_spec S (ch_f c) (mark_final W st)) as (A & B & C).
    { right. rewrite mark_final_ent, Hent. cbn [la_start]. exists w0. split; [left; reflexivity| apply (Hhd 0 Hne)]. }
    { intros x (w & Hw & <-). destruct (HokW w Hw) as (Hr & _). split; [lia|].
      rewrite mark_final_in by assumption. destruct (Hok w Hw) as (mo & Hmo & Hcl). rewrite Hmo. cbn [x_final ls_more].
      destruct Hcl as [-> | (w' & (Hw' & _) & Hs')]; [left; reflexivity| right; exists w'; split; [rewrite EW in Hw'; exact Hw'| exact Hs']]. }
    split; [|split; [|split]].
    + intros Hn. destruct (Hco Hn).
    + intros _. exact A.
    + intros f' Hf'. rewrite B by exact Hf'. apply mark_final_ent.
    + intros x Hx. rewrite C; [apply mark_final_out, Hout, Hx|]. intros (w & Hw & Hs). apply (Hx w Hw Hs).
Qed.

Lemma dec_file : forall g, (exists c, In c cs /\ ch_f c = g) \/ (forall c, In c cs -> ch_f c <> g).
Proof.
  intros g. destruct (existsb_dec _ (fun c => ch_f c =? g) cs) as [(c & Hc & E) | H].
  - left. exists c. split; [exact Hc| lia].
  - right. intros c Hc. specialize (H c Hc). lia.
Qed.

(* validateOneEntry leaves every entry that is not Loading as it is *)
Lemma vinv_same : forall c g st, In c cs -> vinv c g st -> (ch_f c = g -> le_state (r_ent st g) <> LeLoading) ->
  vinv c (g + 1) st.
Proof.
  intros c g st Hc Hv Hg. destruct (Z.eq_dec (ch_f c) g) as [E | E]; [|apply (vinv_frame c g st st Hc Hv E); reflexivity].
  specialize (Hg E). rewrite <- E in Hg.
  destruct Hv as [Hv | [Hv | [(_ & _ & _ & B & _) | [(_ & _ & Hlt & _) | (_ & _ & Hlt & _)]]]]; try lia.
  - left. exact Hv.
  - right; left. exact Hv.
  - rewrite B in Hg. destruct (Hg eq_refl).
Qed.

Lemma validate_step : forall g st, VInv g st -> VInv (g + 1) (validate_one N st g).
Proof.
  intros g st (Hall & Hfree). unfold validate_one.
  assert (Hother : le_state (r_ent st g) <> LeLoading -> VInv (g + 1) st).
  { intros E. split; [|exact Hfree]. intros c Hc. apply (vinv_same c g st Hc (Hall c Hc)). intros _. exact E. }
  destruct (le_state (r_ent st g)) eqn:E; try (apply Hother; discriminate). clear Hother.
  destruct (dec_file g) as [(c1 & Hc1 & <-) | Hnone]; [|rewrite (Hfree _ Hnone) in E; discriminate E].
  destruct (Hall c1 Hc1) as [(_ & B) | [(_ & _ & B & _) | [(A & Hsg & _ & B & C) | [(_ & _ & Hlt & _) | (_ & _ & Hlt & _)]]]];
    try lia; try (rewrite B in E; discriminate E).
  destruct (finalize_chain c1 st Hc1 A B C) as (Fco & Finc & Fent & Fsl). split.
  - intros c Hc. destruct (classic_chain_eq c c1 Hc Hc1) as [-> | Hne].
    + destruct (Nat.eq_dec (ch_m c1) (length (ch_ws c1))) as [Hco | Hco].
      * right; right; right; left. destruct (Fco Hco) as (F1 & F2). repeat split; auto; lia.
      * right; right; right; right. repeat split; auto; lia.
    + assert (Hfne : ch_f c <> ch_f c1) by (intros E'; apply Hne, files_distinct; auto).
      apply (vinv_frame c _ st _ Hc (Hall c Hc) Hfne).
      * apply Fent, Hfne.
      * intros w Hw. apply Fsl. intros w' Hw' Hs. apply Hne.
        apply (owner_unique c c1 w w'); auto using written_in.
  - intros f Hf. rewrite Fent; [apply Hfree, Hf| intros ->; apply (Hf c1 Hc1); reflexivity].
Qed.

Lemma rebuilt : VInv N (rebuild N P oi d).
Proof.
  pose proof (fold_zseq_inv rst VInv (validate_one N) (Z.to_nat N) 0 _ validate_step (VInv_of_LInv _ loaded)) as H.
  rewrite Z2Nat.id in H by lia. exact H.
Qed.

Lemma read_chain_spec : forall l e fuel st,
  linked_to l e -> (length l <= fuel)%nat ->
  (forall w, In w l -> 0 <= w_slot w /\ ls_size (r_sl st (w_slot w)) = h_psz (w_hdr w) /\
       ls_next (r_sl st (w_slot w)) = h_next (w_hdr w) /\ d (w_slot w) = cell_of w /\
       h_psz (w_hdr w) = Z.of_nat (length (w_data w))) ->
  read_chain d fuel st (head_slot l e) = concat (map w_data l) ++ read_chain d (fuel - length l) st e.
Proof.
  induction l as [|w l IH]; intros e fuel st Hl Hf Hok.
  - cbn [head_slot map concat length app]. rewrite Nat.sub_0_r. reflexivity.
  - destruct fuel as [|fuel]; [cbn [length] in Hf; lia|].
    destruct (Hok w (or_introl eq_refl)) as (H0 & Hsz & Hnx & Hd & Hps).
    cbn [head_slot read_chain]. assert (w_slot w <? 0 = false) as -> by lia.
    rewrite Hsz, Hnx, Hd, Hps. cbn [cell_of c_area]. rewrite read_area_exact.
    cbn [linked_to] in Hl. destruct Hl as [Hn Hl].
    assert (Hhead : h_next (w_hdr w) = head_slot l e) by (destruct l; exact Hn).
    rewrite Hhead, (IH e fuel st Hl); [| cbn [length] in Hf; lia| intros w' Hw'; apply Hok; right; exact Hw'].
    cbn [map concat length Nat.sub]. rewrite app_assoc. reflexivity.
Qed.

Lemma read_chain_end : forall fuel st, read_chain d fuel st (-1) = [].
Proof. intros [|fuel] st; reflexivity. Qed.

(* what a hit on a complete chain serves: the swap-in checks applied to the concatenated payloads *)
Definition serve (c : chain) : option (list atom) :=
  let content := firstn (Z.to_nat (psz_sum (ch_ws c))) (concat (map w_data (ch_ws c))) in
  match parse_meta oi (firstn (Z.to_nat dc_page_size) content) with
  | Some info => if key_eqb (o_key info) (ch_key c) then Some (firstn (Z.to_nat (o_len info)) content) else None
  | None => None
  end.

(* what the rebuilt index holds for chain c: a Loaded entry over the whole chain, if all its writes reached the disk;
   nothing readable otherwise *)
Lemma rebuilt_chain : forall c, In c cs ->
  let R := rebuild N P oi d in
  (ch_complete c /\
   r_ent R (ch_f c) = mkLent LeLoaded true (psz_sum (ch_ws c)) (ch_key c) (ch_c0 c) (psz_sum (ch_ws c)) /\
   forall w, In w (ch_ws c) ->
     ls_size (r_sl R (w_slot w)) = h_psz (w_hdr w) /\ ls_next (r_sl R (w_slot w)) = h_next (w_hdr w)) \/
  (~ ch_complete c /\ le_state (r_ent R (ch_f c)) <> LeLoaded).
Proof.
  intros c Hc R. subst R. pose proof (Hgood c Hc) as G. destruct rebuilt as (Hall & _). unfold ch_complete.
  destruct (Hall c Hc) as [(A & B) | [(A & Hsg & B & C) | [(A & Hsg & Hge & _) | [(A & Hsg & Hlt & Hco & B & C) | (A & Hsg & Hlt & Hnco & B)]]]].
  - right. rewrite B. split; [|discriminate]. intros Hco. apply (gc_nonempty c G).
    rewrite <- A. unfold ch_written. rewrite Hco. symmetry. apply firstn_all.
  - left. pose proof (gc_m c G) as Hm. pose proof (gc_linked c G) as Hl. unfold ch_single in Hsg.
    assert (Hc0 : ch_c0 c = head_slot (ch_ws c) 0) by reflexivity.
    destruct (ch_ws c) as [|w0 [|w1 r]] eqn:Ews; try discriminate Hsg.
    destruct (gc_esz c G w0 [] Ews) as (_ & HT). specialize (HT eq_refl). destruct Hl as [Hnx _].
    rewrite psz_sum_cons. cbn [psz_sum fold_right length]. rewrite HT, Z.add_0_r. split; [|split; [exact B|]].
    + unfold ch_written in A. rewrite Ews in A. cbn [length] in Hm. destruct (ch_m c) as [|[|m]]; [destruct (A eq_refl)| reflexivity| lia].
    + intros w [<- | []]. cbn [head_slot] in Hc0. rewrite <- Hc0, C, HT, Hnx. auto.
  - pose proof (ch_f_range c). lia.
  - left. split; [exact Hco|]. split; [exact B|]. intros w Hw. destruct (C w Hw) as (mo & ->). auto.
  - right. split; [exact Hnco|]. rewrite B. discriminate.
Qed.

Lemma hit_complete : forall c, In c cs -> ch_complete c ->
  hit N oi d (rebuild N P oi d) (ch_key c) = serve c.
Proof.
  intros c Hc Hco. pose proof (Hgood c Hc) as G.
  destruct (rebuilt_chain c Hc) as [(_ & B & C) | (Hn & _)]; [|destruct (Hn Hco)].
  assert (Hread : read_chain d (fuelN N) (rebuild N P oi d) (ch_c0 c) = concat (map w_data (ch_ws c))).
  { pose proof (gc_nonempty c G) as Hne. unfold ch_c0.
    destruct (ch_ws c) as [|w0 r] eqn:Ews; [congruence|]. change (w_slot w0) with (head_slot (w0 :: r) (-1)).
    rewrite <- Ews in *. rewrite read_chain_spec.
    - rewrite read_chain_end. apply app_nil_r.
    - apply (gc_linked c G).
    - unfold fuelN. pose proof (chain_length c Hc). lia.
    - intros w Hw. destruct (gc_hdr c G w Hw) as (_ & _ & _ & _ & Hr & _). destruct (C w Hw) as (A1 & A2).
      repeat split; auto; [lia| | apply (gc_data c G w Hw)].
      apply (Himg_w c w Hc). unfold ch_written. rewrite Hco, firstn_all. exact Hw. }
  unfold hit, serve. fold (ch_f c). rewrite B. cbn [le_state la_key la_start la_swapsz]. rewrite key_eqb_refl, Hread. reflexivity.
Qed.

Lemma key_eqb_true : forall a b : key, key_eqb a b = true -> a = b.
Proof.
  intros [a0 a1] [b0 b1] H. unfold key_eqb in H. cbn [fst snd] in H. apply andb_prop in H. destruct H as [H0 H1].
  apply Z.eqb_eq in H0, H1. now subst.
Qed.

Lemma hit_only : forall k content, hit N oi d (rebuild N P oi d) k = Some content ->
  exists c, In c cs /\ ch_complete c /\ ch_key c = k.
Proof.
  intros k content Hh. destruct rebuilt as (_ & Hfree). unfold hit in Hh.
  destruct (dec_file (fileno_of N k)) as [(c & Hc & Hf) | Hnone].
  2:{ rewrite (Hfree _ Hnone) in Hh. discriminate Hh. }
  rewrite <- Hf in Hh. destruct (rebuilt_chain c Hc) as [(Hco & B & _) | (_ & Hn)].
  - exists c. split; [exact Hc|]. split; [exact Hco|]. rewrite B in Hh. cbn [le_state la_key] in Hh.
    destruct (key_eqb (ch_key c) k) eqn:E; [apply key_eqb_true, E| discriminate Hh].
  - destruct (le_state (r_ent (rebuild N P oi d) (ch_f c))); try discriminate Hh. destruct (Hn eq_refl).
Qed.

End Recovery.

Record sess_ok (N P : Z) (s : session) : Prop := {
  so_obj : 0 < s_obj s;
  so_ver : 0 < s_ver s;
  so_len : 0 < s_len s;
  so_mlen : 0 < s_mlen s <= s_len s;
  so_mlen_slot : s_mlen s <= Z.min P (dc_page_size - dc_cell_header_size);
  so_ssz : s_ssz s = 0;
  so_slots : length (s_slots s) = length (chunks P (stream (s_obj s) (s_len s)));
  so_range : forall c, In c (s_slots s) -> 0 <= c < N }.

(* the workload writes every slot at most once; keys hash to different filenos; object ids are distinct *)
Record write_once (N P : Z) (ss : list session) : Prop := {
  wo_N : 0 < N;
  wo_P : 0 < P;
  wo_sess : forall s, In s ss -> sess_ok N P s;
  wo_slots : NoDup (concat (map s_slots ss));
  wo_files : NoDup (map (fun s => fileno_of N (s_key s)) ss);
  wo_objs : NoDup (map s_obj ss) }.

Definition chain_of (P : Z) (sm : session * nat) : chain :=
  mkChain (s_key (fst sm)) (s_len (fst sm)) (writes_of P (fst sm)) (snd sm).

Lemma split_n_fst : forall P ss n, map fst (split_n P ss n) = ss.
Proof. induction ss as [|s ss IH]; intros n; cbn [split_n map fst]; [reflexivity| now rewrite IH]. Qed.

Lemma split_n_le : forall P ss n sm, In sm (split_n P ss n) -> (snd sm <= nwrites P (fst sm))%nat.
Proof.
  induction ss as [|s ss IH]; intros n sm H; [destruct H|]. cbn [split_n In] in H. destruct H as [<- | H].
  - cbn [fst snd]. lia.
  - apply (IH _ _ H).
Qed.

Lemma firstn_min_length : forall A (l : list A) n, firstn (Nat.min n (length l)) l = firstn n l.
Proof.
  intros A l n. destruct (Nat.le_ge_cases n (length l)) as [H | H].
  - now rewrite Nat.min_l.
  - rewrite Nat.min_r by exact H. now rewrite !firstn_all2 by lia.
Qed.

Lemma firstn_all_writes : forall P ss n,
  firstn n (all_writes P ss) = concat (map (fun sm => ch_written (chain_of P sm)) (split_n P ss n)).
Proof.
  induction ss as [|s ss IH]; intros n; [cbn; apply firstn_nil|].
  change (all_writes P (s :: ss)) with (writes_of P s ++ all_writes P ss).
  cbn [split_n map concat]. rewrite firstn_app, IH. f_equal.
  unfold ch_written, chain_of, nwrites. cbn [ch_m ch_ws fst snd]. symmetry. apply firstn_min_length.
Qed.

Lemma linked_next_range : forall N ws e, linked_to ws e -> -1 <= e < N ->
  (forall w, In w ws -> 0 <= w_slot w < N) -> forall w, In w ws -> -1 <= h_next (w_hdr w) < N.
Proof.
  induction ws as [|a ws IH]; intros e Hl He Hr w Hw; [destruct Hw|]. cbn [linked_to] in Hl. destruct Hl as [Hn Hl].
  destruct Hw as [<- | Hw].
  - rewrite Hn. destruct ws as [|b ws']; [exact He|]. specialize (Hr b (or_intror (or_introl eq_refl))). lia.
  - apply (IH e Hl He); [intros w' Hw'; apply Hr; right; exact Hw'| exact Hw].
Qed.

Lemma oinfo_of_in : forall ss s, NoDup (map s_obj ss) -> In s ss ->
  oinfo_of ss (s_obj s) = Some (mkOinfo (s_key s) (s_len s) (s_mlen s) (s_ssz s)).
Proof.
  intros ss s Hnd Hin. unfold oinfo_of.
  assert (find (fun x => s_obj x =? s_obj s) ss = Some s) as ->; [|reflexivity].
  induction ss as [|a ss IH]; [destruct Hin|]. cbn [map] in Hnd. inversion Hnd as [|? ? Hn Hd]; subst.
  cbn [find]. destruct Hin as [-> | Hin]; [rewrite Z.eqb_refl; reflexivity|].
  destruct (s_obj a =? s_obj s) eqn:E; [|apply IH; assumption].
  exfalso. apply Hn. apply Z.eqb_eq in E. rewrite E. apply in_map, Hin.
Qed.

Lemma psz_sum_data : forall ws, (forall w, In w ws -> h_psz (w_hdr w) = Z.of_nat (length (w_data w))) ->
  psz_sum ws = Z.of_nat (length (concat (map w_data ws))).
Proof.
  induction ws as [|w ws IH]; intros H; [reflexivity|]. cbn [psz_sum fold_right map concat]. fold (psz_sum ws).
  rewrite app_length, Nat2Z.inj_add, <- IH, (H w (or_introl eq_refl)); [reflexivity|].
  intros w' Hw'. apply H. right. exact Hw'.
Qed.

Section Bridge.
Variables (N P : Z) (ss : list session).
Hypothesis WO : write_once N P ss.

Let oi := oinfo_of ss.

Lemma sess_writes : forall s, In s ss ->
  let ws := writes_of P s in
  map w_slot ws = s_slots s /\ map w_data ws = chunks P (stream (s_obj s) (s_len s)) /\
  (forall w, In w ws -> h_key (w_hdr w) = s_key s /\ h_ver (w_hdr w) = s_ver s /\ h_first (w_hdr w) = hd 0 (s_slots s) /\
                        h_psz (w_hdr w) = Z.of_nat (length (w_data w))) /\
  linked_to ws (-1) /\
  (forall w r, ws = w :: r -> h_esz (w_hdr w) = match r with [] => s_len s | _ :: _ => 0 end) /\
  ws <> [].
Proof.
  intros s Hs ws. pose proof (wo_sess N P ss WO s Hs) as SO.
  pose proof (mk_writes_facts (chunks P (stream (s_obj s) (s_len s))) (s_slots s) (s_key s) (s_ver s)
                (hd 0 (s_slots s)) (s_len s) (eq_sym (so_slots N P s SO))) as F. cbv zeta in F.
  fold (writes_of P s) in F. fold ws in F. destruct F as (F1 & F2 & F3 & F4 & F5).
  split; [exact F1|]. split; [exact F2|]. split; [exact F3|]. split; [exact F4|]. split; [exact F5|].
  intros E. assert (Hc : chunks P (stream (s_obj s) (s_len s)) = []) by (rewrite <- F2, E; reflexivity).
  apply (chunks_nonempty P (stream (s_obj s) (s_len s))); [|exact Hc].
  pose proof (so_len N P s SO). intros E'. apply (f_equal (@length atom)) in E'. rewrite stream_length in E'. cbn in E'. lia.
Qed.

Lemma chunk_sizes : forall l ch, In ch (chunks P l) -> 0 < Z.of_nat (length ch) <= P.
Proof. intros l ch Hch. pose proof (wo_P N P ss WO). apply chunks_aux_sizes in Hch; lia. Qed.

Lemma chunks_concat : forall l, concat (chunks P l) = l.
Proof. intros l. pose proof (wo_P N P ss WO). apply chunks_aux_concat; lia. Qed.

Lemma sess_meta : forall s w r, In s ss -> writes_of P s = w :: r -> meta_ok P oi w.
Proof.
  intros s w r Hs Hws. pose proof (wo_sess N P ss WO s Hs) as SO. pose proof (wo_P N P ss WO) as HP.
  destruct (sess_writes s Hs) as (_ & F2 & _). rewrite Hws in F2. cbn [map] in F2.
  assert (Hdata : w_data w = firstn (Z.to_nat P) (stream (s_obj s) (s_len s))).
  { unfold chunks in F2. symmetry in F2. apply chunks_aux_first in F2. exact F2. }
  destruct (so_mlen N P s SO) as (Hm0 & Hml). pose proof (so_mlen_slot N P s SO) as Hms.
  set (B := Z.min P (dc_page_size - dc_cell_header_size)) in *.
  assert (Hpre : firstn (Z.to_nat (s_mlen s)) (meta_buf P w) = stream (s_obj s) (s_mlen s)).
  { unfold meta_buf, read_area. fold B. rewrite Hdata, firstn_firstn.
    rewrite firstn_app, firstn_firstn.
    rewrite firstn_length, stream_length.
    replace (Z.to_nat (s_mlen s) - Nat.min (Nat.min (Z.to_nat B) (Z.to_nat P)) (Z.to_nat (s_len s)))%nat with 0%nat by lia.
    cbn [firstn]. rewrite app_nil_r.
    replace (Nat.min (Z.to_nat (s_mlen s)) (Nat.min (Z.to_nat B) (Z.to_nat P))) with (Z.to_nat (s_mlen s)) by lia.
    apply firstn_stream. lia. }
  pose proof (oinfo_of_in ss s (wo_objs N P ss WO) Hs) as Hoi. fold oi in Hoi.
  split.
  - destruct (stream_prefix_head _ _ _ Hm0 Hpre) as (r' & ->). apply zeroed_false, (so_obj N P s SO).
  - exists (mkOinfo (s_key s) (s_len s) (s_mlen s) (s_ssz s)). split; [|apply (so_ssz N P s SO)].
    apply (parse_meta_stream oi (s_obj s)); auto.
Qed.

Lemma serve_full : forall s m, In s ss -> serve oi (chain_of P (s, m)) = Some (full_stream s).
Proof.
  intros s m Hs. pose proof (wo_sess N P ss WO s Hs) as SO.
  destruct (sess_writes s Hs) as (_ & F2 & F3 & _).
  unfold serve, chain_of. cbn [ch_ws ch_key fst].
  rewrite psz_sum_data by (intros w Hw; apply (F3 w Hw)).
  rewrite F2, chunks_concat, Nat2Z.id, firstn_all.
  destruct (so_mlen N P s SO) as (Hm0 & Hml). pose proof (so_mlen_slot N P s SO) as Hms.
  pose proof (oinfo_of_in ss s (wo_objs N P ss WO) Hs) as Hoi. fold oi in Hoi.
  rewrite (parse_meta_stream oi (s_obj s) _ _ Hoi); cbn [o_mlen o_key o_len]; [|exact Hm0|].
  - rewrite key_eqb_refl. unfold full_stream. f_equal. rewrite <- (stream_length (s_obj s) (s_len s)). apply firstn_all.
  - rewrite firstn_firstn. replace (Nat.min (Z.to_nat (s_mlen s)) (Z.to_nat dc_page_size)) with (Z.to_nat (s_mlen s)).
    + apply firstn_stream. lia.
    + assert (s_mlen s <= dc_page_size) by (unfold dc_page_size, dc_cell_header_size in *; lia). lia.
Qed.

Lemma split_n_completed : forall l n s m, In (s, m) (split_n P l n) -> m = nwrites P s -> (0 < nwrites P s)%nat ->
  completed P l n s.
Proof.
  induction l as [|a l IH]; intros n s m Hin Hm Hpos; [destruct Hin|].
  cbn [split_n In] in Hin. destruct Hin as [E | Hin].
  - injection E as Ea Em. subst a. exists [], l. split; [reflexivity|]. cbn [app]. unfold all_writes. cbn [map concat].
    rewrite app_nil_r. fold (nwrites P s). lia.
  - destruct (IH _ _ _ Hin Hm Hpos) as (l1 & l2 & -> & Hlen). exists (a :: l1), l2. split; [reflexivity|].
    assert (Hs : (nwrites P s <= length (all_writes P (l1 ++ [s])))%nat).
    { unfold all_writes. rewrite map_app, concat_app, app_length. cbn [map concat]. rewrite app_nil_r. unfold nwrites. lia. }
    change ((a :: l1) ++ [s]) with (a :: (l1 ++ [s])). unfold all_writes in *. cbn [map concat]. rewrite app_length.
    fold (nwrites P a). lia.
Qed.

Lemma completed_split : forall l n s, completed P l n s -> In (s, nwrites P s) (split_n P l n).
Proof.
  intros l n s (l1 & l2 & -> & Hlen). revert n Hlen. induction l1 as [|a l1 IH]; intros n Hlen.
  - cbn [app split_n]. left. f_equal. cbn [app] in Hlen. unfold all_writes in Hlen. cbn [map concat] in Hlen.
    rewrite app_nil_r in Hlen. fold (nwrites P s) in Hlen. lia.
  - cbn [app split_n]. right. apply IH. change ((a :: l1) ++ [s]) with (a :: (l1 ++ [s])) in Hlen.
    unfold all_writes in *. cbn [map concat] in Hlen. rewrite app_length in Hlen. fold (nwrites P a) in Hlen. lia.
Qed.

Section AtCrash.
Variable n : nat.

Let L := split_n P ss n.
Let cs := map (chain_of P) L.
Let d := crash_disk (all_writes P ss) n None.

Lemma L_in : forall sm, In sm L -> In (fst sm) ss.
Proof. intros sm H. rewrite <- (split_n_fst P ss n). apply in_map, H. Qed.

Lemma slots_of_writes : map w_slot (all_writes P ss) = concat (map s_slots ss).
Proof.
  unfold all_writes. rewrite concat_map, map_map. f_equal. apply map_ext_in. intros s Hs. apply (sess_writes s Hs).
Qed.

Lemma cs_slots_nodup : NoDup (concat (map (fun c => map w_slot (ch_ws c)) cs)).
Proof.
  unfold cs. rewrite map_map, (map_ext_in _ (fun sm => s_slots (fst sm)) L).
  - rewrite <- (map_map fst s_slots). unfold L. rewrite split_n_fst. apply (wo_slots N P ss WO).
  - intros sm Hsm. apply (sess_writes (fst sm) (L_in sm Hsm)).
Qed.

Lemma cs_files_nodup : NoDup (map (ch_f N) cs).
Proof.
  pose proof (wo_files N P ss WO) as H. rewrite <- (split_n_fst P ss n), map_map in H.
  unfold cs. rewrite map_map. exact H.
Qed.

Lemma cs_good : forall c, In c cs -> good_chain N P oi c.
Proof.
  intros c Hc. unfold cs in Hc. apply in_map_iff in Hc. destruct Hc as (sm & <- & Hsm).
  pose proof (L_in sm Hsm) as Hs. pose proof (wo_sess N P ss WO _ Hs) as SO.
  destruct (sess_writes _ Hs) as (F1 & F2 & F3 & F4 & F5 & F6).
  assert (Hc0 : ch_c0 (chain_of P sm) = hd 0 (s_slots (fst sm))).
  { unfold ch_c0, chain_of. cbn [ch_ws]. rewrite <- F1. destruct (writes_of P (fst sm)); reflexivity. }
  assert (Hrange : forall w, In w (writes_of P (fst sm)) -> 0 <= w_slot w < N).
  { intros w Hw. apply (so_range N P _ SO). rewrite <- F1. apply in_map, Hw. }
  constructor; cbn [chain_of ch_ws ch_key ch_T ch_m].
  - exact F6.
  - apply (split_n_le P ss n sm Hsm).
  - intros w Hw. destruct (F3 w Hw) as (A & B & C & D).
    assert (Hch : 0 < Z.of_nat (length (w_data w)) <= P).
    { apply (chunk_sizes (stream (s_obj (fst sm)) (s_len (fst sm)))). rewrite <- F2. apply in_map, Hw. }
    pose proof (so_ver N P _ SO). pose proof (wo_N N P ss WO).
    rewrite Hc0.
    repeat split; try lia; try (apply Hrange, Hw); try apply (linked_next_range N _ (-1) F4); auto; try lia.
  - exact F4.
  - intros w r Hws. split; [apply (F5 w r Hws)|]. intros ->.
    destruct (F3 w) as (_ & _ & _ & D); [rewrite Hws; left; reflexivity|]. rewrite D.
    assert (Hd : w_data w = stream (s_obj (fst sm)) (s_len (fst sm))).
    { rewrite <- (chunks_concat (stream _ _)), <- F2, Hws. cbn [map concat]. now rewrite app_nil_r. }
    rewrite Hd, stream_length. pose proof (so_len N P _ SO). lia.
  - intros w r Hws. apply (sess_meta (fst sm) w r Hs Hws).
  - rewrite F1. apply (nodup_concat_in _ (map s_slots ss)); [apply (wo_slots N P ss WO)| apply in_map, Hs].
  - intros w Hw. apply (F3 w Hw).
Qed.

Lemma W_eq : firstn n (all_writes P ss) = concat (map ch_written cs).
Proof. unfold cs. rewrite map_map. apply firstn_all_writes. Qed.

Lemma W_nodup : NoDup (map w_slot (firstn n (all_writes P ss))).
Proof. rewrite <- firstn_map. apply nodup_firstn. rewrite slots_of_writes. apply (wo_slots N P ss WO). Qed.

Lemma img_w : forall c w, In c cs -> In w (ch_written c) -> d (w_slot w) = cell_of w.
Proof.
  intros c w Hc Hw. apply (disk_after_spec _ W_nodup). rewrite W_eq. apply in_concat.
  exists (ch_written c). split; [apply in_map, Hc| exact Hw].
Qed.

Lemma img_0 : forall x, (forall c w, In c cs -> In w (ch_written c) -> w_slot w <> x) -> d x = cell0.
Proof.
  intros x Hx. apply (disk_after_spec _ W_nodup). intros Hin. apply in_map_iff in Hin.
  destruct Hin as (w & Hs & Hw). rewrite W_eq in Hw. apply in_concat in Hw. destruct Hw as (l & Hl & Hw).
  apply in_map_iff in Hl. destruct Hl as (c & <- & Hc). apply (Hx c w Hc Hw Hs).
Qed.

Theorem write_once_crash_consistent : crash_consistent N P ss n None.
Proof.
  intros k c Hh. unfold hit_after in Hh. fold d in Hh. fold oi in Hh.
  pose proof (wo_N N P ss WO) as HN.
  destruct (hit_only N P oi d HN cs cs_good cs_slots_nodup cs_files_nodup img_w img_0 k c Hh) as (c0 & Hc0 & Hco & Hk).
  pose proof (hit_complete N P oi d HN cs cs_good cs_slots_nodup cs_files_nodup img_w img_0 c0 Hc0 Hco) as Hs.
  unfold cs in Hc0. apply in_map_iff in Hc0. destruct Hc0 as ([s m] & <- & Hsm).
  pose proof (L_in _ Hsm) as Hin. cbn [fst] in Hin.
  cbn [chain_of ch_key fst] in Hk, Hs. rewrite Hk in Hs. rewrite Hs in Hh. rewrite (serve_full s m Hin) in Hh.
  injection Hh as <-. exists s. split; [|split; [exact Hk| reflexivity]].
  unfold ch_complete, chain_of in Hco. cbn [ch_m ch_ws fst snd] in Hco.
  apply (split_n_completed ss n s m Hsm Hco).
  destruct (sess_writes s Hin) as (_ & _ & _ & _ & _ & Hne). unfold nwrites.
  destruct (writes_of P s); [congruence| cbn [length]; lia].
Qed.

Theorem write_once_completed_served : forall s, completed P ss n s ->
  hit_after N P ss n None (s_key s) = Some (full_stream s).
Proof.
  intros s Hc. pose proof (completed_in P ss n s Hc) as Hin. apply completed_split in Hc.
  unfold hit_after. fold d. fold oi. pose proof (wo_N N P ss WO) as HN.
  assert (Hc0 : In (chain_of P (s, nwrites P s)) cs) by (unfold cs; apply in_map, Hc).
  pose proof (hit_complete N P oi d HN cs cs_good cs_slots_nodup cs_files_nodup img_w img_0 _ Hc0) as Hs.
  cbn [chain_of ch_key fst] in Hs. rewrite Hs; [apply (serve_full s _ Hin)|].
  unfold ch_complete. reflexivity.
Qed.

End AtCrash.
End Bridge.

Lemma all_writes_app : forall P a b, all_writes P (a ++ b) = all_writes P a ++ all_writes P b.
Proof. intros. unfold all_writes. now rewrite map_app, concat_app. Qed.

Theorem write_once_survives : forall N P ss, write_once N P ss -> forall s, In s ss -> survives N P ss s.
Proof.
  intros N P ss WO s Hin. unfold survives. apply (write_once_completed_served N P ss WO).
  apply in_split in Hin. destruct Hin as (l1 & l2 & ->). exists l1, l2. split; [reflexivity|].
  replace (l1 ++ s :: l2) with ((l1 ++ [s]) ++ l2) by (rewrite <- app_assoc; reflexivity).
  rewrite (all_writes_app P (l1 ++ [s]) l2), app_length. lia.
Qed.

Fixpoint nodupb (l : list Z) : bool :=
  match l with [] => true | x :: r => negb (existsb (Z.eqb x) r) && nodupb r end.

Lemma nodupb_sound : forall l, nodupb l = true -> NoDup l.
Proof.
  induction l as [|x l IH]; intros H; [constructor|]. cbn [nodupb] in H. apply andb_prop in H. destruct H as [H1 H2].
  constructor; [|apply IH, H2]. intros Hin. apply negb_true_iff in H1.
  assert (existsb (Z.eqb x) l = true); [|congruence]. apply existsb_exists. exists x. split; [exact Hin| apply Z.eqb_refl].
Qed.

Definition sess_ok_b (N P : Z) (s : session) : bool :=
  (0 <? s_obj s) && (0 <? s_ver s) && (0 <? s_len s) && (0 <? s_mlen s) && (s_mlen s <=? s_len s) &&
  (s_mlen s <=? Z.min P (dc_page_size - dc_cell_header_size)) && (s_ssz s =? 0) &&
  (length (s_slots s) =? length (chunks P (stream (s_obj s) (s_len s))))%nat &&
  forallb (fun c => (0 <=? c) && (c <? N)) (s_slots s).

Definition write_once_b (N P : Z) (ss : list session) : bool :=
  (0 <? N) && (0 <? P) && forallb (sess_ok_b N P) ss && nodupb (concat (map s_slots ss)) &&
  nodupb (map (fun s => fileno_of N (s_key s)) ss) && nodupb (map s_obj ss).

Lemma write_once_b_sound : forall N P ss, write_once_b N P ss = true -> write_once N P ss.
Proof.
  intros N P ss H. unfold write_once_b in H. rewrite !andb_true_iff in H.
  destruct H as (((((HN & HP) & Hsess) & Hslots) & Hfiles) & Hobjs).
  constructor; try (apply nodupb_sound; assumption); try lia.
  intros s Hs. rewrite forallb_forall in Hsess. specialize (Hsess s Hs). unfold sess_ok_b in Hsess.
  rewrite !andb_true_iff, !Z.ltb_lt, !Z.leb_le, Z.eqb_eq, Nat.eqb_eq, forallb_forall in Hsess.
  destruct Hsess as ((((((((Ho & Hv) & Hl) & Hm0) & Hml) & Hms) & Hssz) & Hlen) & Hrange).
  constructor; auto.
  intros c Hc. specialize (Hrange c Hc). lia.
Qed.

(* the hypotheses are satisfiable, and the theorems are not vacuous: three stores (3 slots, 1 slot, 2 slots),
   8 slots of 4 payload bytes; killed after 5 of the 6 writes, the first two objects are hits, the third is not *)
Definition ex_ops : list op := [OStore (1, 0) 1 5 10 2 0; OStore (2, 0) 2 6 3 2 0; OStore (3, 0) 3 7 5 1 0].

Lemma ex_write_once : write_once 8 4 (sessions_of 8 4 ex_ops).
Proof. apply write_once_b_sound. vm_compute. reflexivity. Qed.

Lemma ex_hits_after_crash :
  map (fun k => match hit_after 8 4 (sessions_of 8 4 ex_ops) 5 None k with Some c => Some (segments c []) | None => None end)
      [(1, 0); (2, 0); (3, 0)]
  = [Some [(1, 0, 10)]; Some [(2, 0, 3)]; None].
Proof. vm_compute. reflexivity. Qed.

(* What comes later in a workload does not change what a crash before it leaves behind: the writes, the crashed
   image, and (as long as the later sessions store other objects than those on the disk) the recovered index and
   the hits. *)
Lemma run_ops_app : forall N P p q m,
  run_ops N P m (p ++ q) =
  let '(m1, s1) := run_ops N P m p in let '(m2, s2) := run_ops N P m1 q in (m2, s1 ++ s2).
Proof.
  induction p as [|x p IH]; intros q m; cbn [app run_ops].
  - destruct (run_ops N P m q). reflexivity.
  - destruct (step_op N P m x) as [m1 so]. rewrite IH. destruct (run_ops N P m1 p) as [m2 s1].
    destruct (run_ops N P m2 q) as [m3 s2]. destruct so; reflexivity.
Qed.

Lemma crash_disk_app : forall w1 w2 n, (n <= length w1)%nat -> crash_disk (w1 ++ w2) n None = crash_disk w1 n None.
Proof.
  intros w1 w2 n H. unfold crash_disk. rewrite firstn_app. replace (n - length w1)%nat with 0%nat by lia.
  cbn [firstn]. rewrite app_nil_r. reflexivity.
Qed.

Lemma find_app : forall A (f : A -> bool) l1 l2,
  find f (l1 ++ l2) = match find f l1 with Some x => Some x | None => find f l2 end.
Proof. induction l1 as [|a l1 IH]; intros l2; cbn [app find]; [reflexivity|]. destruct (f a); [reflexivity| apply IH]. Qed.

Lemma find_all_false : forall A (f : A -> bool) l, (forall x, In x l -> f x = false) -> find f l = None.
Proof.
  induction l as [|a l IH]; intros H; cbn [find]; [reflexivity|]. rewrite (H a (or_introl eq_refl)).
  apply IH. intros x Hx. apply H. right. exact Hx.
Qed.

Lemma find_some_ex : forall A (f : A -> bool) l x, In x l -> f x = true -> exists y, find f l = Some y.
Proof.
  induction l as [|a l IH]; intros x Hx Hf; [destruct Hx|]. cbn [find]. destruct (f a) eqn:E; [eauto|].
  destruct Hx as [-> | Hx]; [congruence| apply (IH x Hx Hf)].
Qed.


(* the objects a buffer read from the image can show: those with atoms on the disk, and object 0 of the padding *)
Definition on_disk (d : disk) (o : Z) : Prop := o = 0 \/ exists i a, In a (c_area (d i)) /\ fst a = o.
Definition from_disk (d : disk) (buf : list atom) : Prop := forall a, In a buf -> on_disk d (fst a).

Lemma read_area_from_disk : forall d n i, from_disk d (read_area n (c_area (d i))).
Proof.
  intros d n i a Ha. unfold read_area in Ha. apply in_app_or in Ha. destruct Ha as [Ha | Ha].
  - right. exists i, a. split; [apply (in_firstn _ _ _ _ Ha)| reflexivity].
  - left. apply repeat_spec in Ha. subst a. reflexivity.
Qed.

Lemma read_chain_from_disk : forall d fuel s i, from_disk d (read_chain d fuel s i).
Proof.
  induction fuel as [|fuel IH]; intros s i a Ha; cbn [read_chain] in Ha; destruct (i <? 0); try destruct Ha.
  apply in_app_or in Ha. destruct Ha as [Ha | Ha]; [apply (read_area_from_disk d _ i a Ha)| apply (IH _ _ a Ha)].
Qed.

(* recovery and hits consult the object table only for objects the image shows *)
Section OinfoExt.
Variables (N P : Z) (oi1 oi2 : Z -> option oinfo) (d : disk).
Hypothesis Hoi : forall o, on_disk d o -> oi1 o = oi2 o.

Lemma parse_meta_ext : forall buf, from_disk d buf -> parse_meta oi1 buf = parse_meta oi2 buf.
Proof.
  intros [|[o i] buf] H; [reflexivity|]. unfold parse_meta. destruct i; try reflexivity.
  rewrite (Hoi o) by (apply (H (o, 0)); left; reflexivity). reflexivity.
Qed.

Lemma import_entry_ext : forall i h e, import_entry P oi1 d i h e = import_entry P oi2 d i h e.
Proof. intros i h e. unfold import_entry. rewrite parse_meta_ext by apply read_area_from_disk. reflexivity. Qed.

Lemma load_one_ext : forall s i, load_one N P oi1 d s i = load_one N P oi2 d s i.
Proof.
  intros s i. unfold load_one, use_new_slot, add_slot, add_inode. rewrite !import_entry_ext. reflexivity.
Qed.

Lemma rebuild_ext : rebuild N P oi1 d = rebuild N P oi2 d.
Proof. unfold rebuild. cbv zeta. now rewrite (fold_left_ext _ (load_one N P oi2 d) load_one_ext). Qed.

Lemma hit_ext : forall s k, hit N oi1 d s k = hit N oi2 d s k.
Proof.
  intros s k. unfold hit. rewrite parse_meta_ext; [reflexivity|].
  intros a Ha. apply in_firstn, in_firstn in Ha. apply (read_chain_from_disk d _ _ _ a Ha).
Qed.

End OinfoExt.

(* the atoms on the image come from the data of the writes applied to it *)
Lemma fold_apply_atoms : forall ws d i a, In a (c_area (fold_left apply_wr ws d i)) ->
  In a (c_area (d i)) \/ exists w, In w ws /\ In a (w_data w).
Proof.
  induction ws as [|w ws IH]; intros d i a H; cbn [fold_left] in H; [left; exact H|].
  destruct (IH _ _ _ H) as [H1 | (w' & Hw' & Ha)]; [|right; exists w'; split; [right; exact Hw'| exact Ha]].
  unfold apply_wr, upd in H1. destruct (i =? w_slot w) eqn:E; [|left; exact H1].
  apply Z.eqb_eq in E. subst i. cbn [c_area] in H1. apply in_app_or in H1. destruct H1 as [H1 | H1].
  - right. exists w. split; [left; reflexivity| exact H1].
  - left. rewrite <- (firstn_skipn (length (w_data w)) (c_area (d (w_slot w)))). apply in_or_app. right. exact H1.
Qed.

Lemma chunks_aux_in : forall fuel p l ch a, In ch (chunks_aux fuel p l) -> In a ch -> In a l.
Proof.
  induction fuel as [|fuel IH]; intros p l ch a Hch Ha; [destruct Hch|]. destruct l as [|x l]; [destruct Hch|].
  cbn [chunks_aux] in Hch. destruct Hch as [<- | Hch]; [apply (in_firstn _ _ _ _ Ha)|].
  specialize (IH _ _ _ _ Hch Ha). rewrite <- (firstn_skipn p (x :: l)). apply in_or_app. right. exact IH.
Qed.

Lemma mk_writes_data_in : forall chs slots k ver first total w,
  In w (mk_writes k ver first total chs slots) -> In (w_data w) chs.
Proof.
  induction chs as [|ch chs IH]; intros [|c slots] k ver first total w H; try destruct H.
  - subst w. left. reflexivity.
  - right. apply (IH _ _ _ _ _ _ H).
Qed.

Lemma all_writes_atoms : forall P ss w a, In w (all_writes P ss) -> In a (w_data w) ->
  exists s, In s ss /\ s_obj s = fst a.
Proof.
  intros P ss w a Hw Ha. unfold all_writes in Hw. apply in_concat in Hw. destruct Hw as (l & Hl & Hw).
  apply in_map_iff in Hl. destruct Hl as (s & <- & Hs). exists s. split; [exact Hs|].
  apply mk_writes_data_in in Hw. unfold chunks in Hw. apply (chunks_aux_in _ _ _ _ a Hw) in Ha.
  unfold stream in Ha. apply in_map_iff in Ha. destruct Ha as (j & <- & _). reflexivity.
Qed.

Lemma hit_after_app : forall N P ss1 ss2 n k,
  (n <= length (all_writes P ss1))%nat -> (forall s, In s ss2 -> s_obj s <> 0) ->
  hit_after N P (ss1 ++ ss2) n None k = hit_after N P ss1 n None k.
Proof.
  intros N P ss1 ss2 n k Hn H0. unfold hit_after. rewrite all_writes_app, crash_disk_app by exact Hn.
  set (d := crash_disk (all_writes P ss1) n None).
  assert (Hoi : forall o, on_disk d o -> oinfo_of (ss1 ++ ss2) o = oinfo_of ss1 o).
  { intros o Ho. unfold oinfo_of. rewrite find_app. destruct (find (fun s => s_obj s =? o) ss1) eqn:E; [reflexivity|].
    destruct Ho as [-> | (i & a & Ha & <-)].
    - rewrite find_all_false; [reflexivity|]. intros s Hs. specialize (H0 s Hs). lia.
    - apply fold_apply_atoms in Ha. destruct Ha as [[] | (w & Hw & Ha)].
      destruct (all_writes_atoms P ss1 w a (in_firstn _ _ _ _ Hw) Ha) as (s & Hs & Hobj).
      destruct (find_some_ex _ (fun s => s_obj s =? fst a) ss1 s Hs) as (y & Hy); [lia| congruence]. }
  rewrite (rebuild_ext N P _ _ d Hoi). apply (hit_ext N _ _ d Hoi).
Qed.
