(* SplayProofs.v — theorems about the model of include/splay.h (SplayModel.v),
   for an arbitrary value type and an arbitrary comparator.

   1. [splay_spec]: splay() keeps the in-order sequence, leaves in
      splayLastResult the comparison with the new root, and stops at a
      boundary: if the root compares "less" its in-order predecessor compares
      "greater", and symmetrically.
   2. With a comparator whose sign is monotone (non-increasing) along the
      in-order sequence: find succeeds iff a stored element compares equal;
      insert puts the value between the "greater" and the "less" elements;
      remove deletes exactly the element that compares equal.
   3. Containers that keep their elements sorted by a relation the comparator
      decides ([stored]): what insert and remove do to such a sequence. *)
Require Import SquidV.Bytes SquidV.SplayModel.
Local Open Scope Z_scope.

Section Sorted.
Context {V : Type}.
Variable R : V -> V -> Prop.

(* every element is related to all later ones *)
Fixpoint sorted (l : list V) : Prop :=
  match l with
  | [] => True
  | x :: r => Forall (R x) r /\ sorted r
  end.

Lemma sorted_app a b :
  sorted (a ++ b) <-> sorted a /\ sorted b /\ (forall x y, In x a -> In y b -> R x y).
Proof.
  induction a as [|x a IH]; cbn [app sorted].
  - split; [intros H; repeat split; [exact H| intros x y []] | intros (_ & H & _); exact H].
  - rewrite IH, Forall_app, !Forall_forall. split.
    + intros ((Fa & Fb) & Sa & Sb & Hc). repeat split; try assumption.
      intros x0 y [<-|Hx] Hy; [apply Fb, Hy| apply Hc; assumption].
    + intros ((Fa & Sa) & Sb & Hc). repeat split; try assumption.
      * intros y Hy. apply Hc; [left; reflexivity| exact Hy].
      * intros x0 y Hx Hy. apply Hc; [right; exact Hx| exact Hy].
Qed.

End Sorted.

Section SplayProofs.
Context {V : Type}.
Variable cmp : V -> Z.

Lemma buildL_snoc (L : @lctx V) l x t : buildL (L ++ [(l, x)]) t = buildL L (Node l x t).
Proof. induction L as [|[l0 x0] L IH]; cbn [buildL app]; [reflexivity| now rewrite IH]. Qed.

Lemma buildR_snoc (R : @rctx V) x r t : buildR (R ++ [(x, r)]) t = buildR R (Node t x r).
Proof. induction R as [|[x0 r0] R IH]; cbn [buildR app]; [reflexivity| now rewrite IH]. Qed.

Definition first_neg (l : list V) : Prop := match l with [] => True | y :: _ => cmp y < 0 end.
Definition last_pos (l : list V) : Prop := match rev l with [] => True | y :: _ => cmp y > 0 end.

Lemma first_neg_app b y r : first_neg b -> cmp y < 0 -> first_neg (b ++ y :: r).
Proof. destruct b; cbn [app first_neg]; auto. Qed.

Lemma last_pos_app l y a : last_pos a -> cmp y > 0 -> last_pos (l ++ y :: a).
Proof. unfold last_pos. rewrite rev_app_distr. cbn [rev]. destruct (rev a); cbn [app]; auto. Qed.

Lemma inorder_nil (t : tree V) : inorder t = [] -> t = Leaf.
Proof. destruct t as [|l x r]; [reflexivity|]. cbn [inorder]. intros H. destruct (inorder l); discriminate. Qed.

Lemma inorder_length (t : tree V) : length (inorder t) = tree_size t.
Proof.
  induction t as [|l IHl x r IHr]; cbn [inorder tree_size length]; [reflexivity|].
  rewrite app_length. cbn [length]. lia.
Qed.

(* [res] is a correct outcome of the loop entered at subtree [t] with the nodes [L], [R] already linked *)
Definition loop_ok (t : tree V) (L : lctx) (R : rctx) (res : tree V * Z) : Prop :=
  exists a z b, res = (assemble L a z b R, cmp z) /\
    inorder t = inorder a ++ z :: inorder b /\
    (cmp z < 0 -> last_pos (inorder a)) /\
    (cmp z > 0 -> first_neg (inorder b)).

Lemma ok_break t L a z b R : inorder t = inorder a ++ z :: inorder b ->
  (cmp z < 0 -> a = Leaf) -> (cmp z > 0 -> b = Leaf) -> loop_ok t L R (assemble L a z b R, cmp z).
Proof.
  intros Hi Ha Hb. exists a, z, b. split; [reflexivity|]. split; [exact Hi|].
  split; intros Hz; [rewrite (Ha Hz)| rewrite (Hb Hz)]; exact I.
Qed.

Lemma ok_link_right t L R y r T res : loop_ok t L (R ++ [(y, r)]) res ->
  cmp y < 0 -> inorder T = inorder t ++ y :: inorder r -> loop_ok T L R res.
Proof.
  intros (a & z & b & -> & Hi & Hl & Hf) Hy HT. exists a, z, (Node b y r).
  unfold assemble. rewrite buildR_snoc. split; [reflexivity|].
  cbn [inorder]. rewrite HT, Hi, <- app_assoc. split; [reflexivity|]. split; [exact Hl|].
  intros Hz. apply first_neg_app; auto.
Qed.

Lemma ok_link_left t L R l y T res : loop_ok t (L ++ [(l, y)]) R res ->
  cmp y > 0 -> inorder T = inorder l ++ y :: inorder t -> loop_ok T L R res.
Proof.
  intros (a & z & b & -> & Hi & Hl & Hf) Hy HT. exists (Node l y a), z, b.
  unfold assemble. rewrite buildL_snoc. split; [reflexivity|].
  cbn [inorder]. rewrite HT, Hi, <- app_assoc. split; [reflexivity|]. split; [|exact Hf].
  intros Hz. apply last_pos_app; auto.
Qed.

Lemma splay_loop_ok (n : nat) : forall t L R, (tree_size t <= n)%nat -> t <> Leaf ->
  loop_ok t L R (splay_loop cmp t L R).
Proof.
  induction n as [|n IH]; intros [|l x r] L R Hn Ht; try congruence; cbn [tree_size] in Hn; [lia|].
  clear Ht. cbn [splay_loop].
  destruct (Z.ltb_spec (cmp x) 0) as [E1|E1]; [|destruct (Z.gtb_spec (cmp x) 0) as [E3|E3]].
  - destruct l as [|ll y lr]; [apply ok_break; [reflexivity| reflexivity| lia]|].
    cbn [tree_size] in Hn. destruct (Z.ltb_spec (cmp y) 0) as [E2|E2].
    + destruct ll as [|l3 w r3].
      * apply ok_break; [reflexivity| reflexivity| lia].
      * apply (ok_link_right (Node l3 w r3) L R y (Node lr x r)); [|exact E2| cbn [inorder]; now rewrite <- !app_assoc].
        apply IH; [cbn [tree_size] in *; lia| discriminate].
    + apply (ok_link_right (Node ll y lr) L R x r); [|exact E1| reflexivity].
      apply IH; [cbn [tree_size]; lia| discriminate].
  - destruct r as [|rl y rr]; [apply ok_break; [reflexivity| lia| reflexivity]|].
    cbn [tree_size] in Hn. destruct (Z.gtb_spec (cmp y) 0) as [E4|E4].
    + destruct rr as [|l3 w r3].
      * apply ok_break; [cbn [inorder]; now rewrite <- app_assoc| lia| reflexivity].
      * apply (ok_link_left (Node l3 w r3) L R (Node l x rl) y); [|lia| cbn [inorder]; now rewrite <- !app_assoc].
        apply IH; [cbn [tree_size] in *; lia| discriminate].
    + apply (ok_link_left (Node rl y rr) L R l x); [|lia| reflexivity].
      apply IH; [cbn [tree_size]; lia| discriminate].
  - apply ok_break; [reflexivity| lia| lia].
Qed.

Theorem splay_spec t : t <> Leaf ->
  exists a z b, splay cmp t = (Node a z b, cmp z) /\
    inorder t = inorder a ++ z :: inorder b /\
    (cmp z < 0 -> last_pos (inorder a)) /\
    (cmp z > 0 -> first_neg (inorder b)).
Proof. exact (splay_loop_ok (tree_size t) t [] [] (le_n _)). Qed.

Corollary splay_inorder t : t <> Leaf -> inorder (fst (splay cmp t)) = inorder t.
Proof.
  intros Ht. destruct (splay_spec t Ht) as (a & z & b & E & Hi & _). rewrite E. cbn [fst inorder]. now rewrite Hi.
Qed.

(* the sign of cmp never increases along the list: "greater" elements first,
   then "equal" ones, then "less" ones *)
Fixpoint mono (l : list V) : Prop :=
  match l with
  | [] => True
  | x :: r => Forall (fun y => Z.sgn (cmp y) <= Z.sgn (cmp x)) r /\ mono r
  end.

(* [mono] is [sorted] by "the sign does not increase" *)
Lemma mono_app a b :
  mono (a ++ b) <-> mono a /\ mono b /\ (forall x y, In x a -> In y b -> Z.sgn (cmp y) <= Z.sgn (cmp x)).
Proof. exact (sorted_app (fun x y => Z.sgn (cmp y) <= Z.sgn (cmp x)) a b). Qed.

(* it is enough that along the order "less" stays "less" and "greater" was "greater" before *)
Lemma mono_of_sorted (P : V -> Prop) (R : V -> V -> Prop) l :
  (forall x y, P x -> P y -> R x y -> (cmp x < 0 -> cmp y < 0) /\ (cmp y > 0 -> cmp x > 0)) ->
  Forall P l -> sorted R l -> mono l.
Proof.
  intros Hc. induction l as [|x l IH]; intros W S; cbn [mono]; [exact I|].
  inversion W as [|? ? Wx Wl]; subst. destruct S as [F S]. split; [|apply IH; assumption].
  rewrite Forall_forall in *. intros y Hy. destruct (Hc x y Wx (Wl y Hy) (F y Hy)). lia.
Qed.

Lemma mono_const s l : Forall (fun y => Z.sgn (cmp y) = s) l -> mono l.
Proof.
  induction 1 as [|x l Hx F IH]; cbn [mono]; [exact I|]. split; [|exact IH].
  revert F. apply Forall_impl. intros y Hy. lia.
Qed.

Lemma mono_signs A x B : Forall (fun y => cmp y > 0) A -> Forall (fun y => cmp y < 0) B ->
  mono (A ++ x :: B).
Proof.
  intros FA FB. apply mono_app. cbn [mono]. rewrite !Forall_forall in *. repeat split.
  - apply (mono_const 1), Forall_forall. intros y Hy. specialize (FA y Hy). lia.
  - intros y Hy. specialize (FB y Hy). lia.
  - apply (mono_const (-1)), Forall_forall. intros y Hy. specialize (FB y Hy). lia.
  - intros a y Ha [<-|Hy]; specialize (FA a Ha); [|specialize (FB y Hy)]; lia.
Qed.

Lemma last_pos_all a : mono a -> last_pos a -> Forall (fun y => cmp y > 0) a.
Proof.
  destruct a as [|y q _] using rev_ind; [constructor|].
  unfold last_pos. rewrite rev_unit, mono_app. intros (_ & _ & Hc) Hy.
  apply Forall_app. split; [|repeat constructor; exact Hy].
  apply Forall_forall. intros w Hw. specialize (Hc w y Hw (or_introl eq_refl)). lia.
Qed.

Lemma first_neg_all b : mono b -> first_neg b -> Forall (fun y => cmp y < 0) b.
Proof.
  destruct b as [|y b]; [constructor|]. cbn [mono first_neg]. intros [F _] Hy.
  constructor; [exact Hy|]. revert F. apply Forall_impl. intros w Hw. lia.
Qed.

(* under a monotone comparator the new root splits the sequence by sign *)
Theorem splay_split t : t <> Leaf -> mono (inorder t) ->
  exists a z b, splay cmp t = (Node a z b, cmp z) /\
    inorder t = inorder a ++ z :: inorder b /\
    (cmp z <> 0 -> Forall (fun y => cmp y > 0) (inorder a) /\ Forall (fun y => cmp y < 0) (inorder b)).
Proof.
  intros Ht M. destruct (splay_spec t Ht) as (a & z & b & E & Hi & Hl & Hf).
  exists a, z, b. split; [exact E|]. split; [exact Hi|].
  rewrite Hi in M. apply mono_app in M. destruct M as (Ma & Mzb & Hc). cbn [mono] in Mzb. destruct Mzb as [Fb Mb].
  intros Hz. destruct (Z.lt_trichotomy (cmp z) 0) as [Hn|[H0|Hp]]; [|contradiction|]; split.
  - apply last_pos_all; auto.
  - revert Fb. apply Forall_impl. intros y Hy. lia.
  - apply Forall_forall. intros y Hy. specialize (Hc y z Hy (or_introl eq_refl)). lia.
  - apply first_neg_all; [exact Mb| apply Hf; lia].
Qed.

(* ... so that it compares equal as soon as some stored element does *)
Corollary splay_zero t x : mono (inorder t) -> In x (inorder t) -> cmp x = 0 ->
  exists a z b, splay cmp t = (Node a z b, cmp z) /\ inorder t = inorder a ++ z :: inorder b /\ cmp z = 0.
Proof.
  intros M Hx Hx0. assert (Ht : t <> Leaf) by (intros ->; destruct Hx).
  destruct (splay_split t Ht M) as (a & z & b & E & Hi & Hs). exists a, z, b. split; [exact E|]. split; [exact Hi|].
  destruct (Z.eq_dec (cmp z) 0) as [H0|Hz]; [exact H0| exfalso]. destruct (Hs Hz) as [Fa Fb].
  rewrite Forall_forall in Fa, Fb. rewrite Hi in Hx.
  apply in_app_or in Hx. destruct Hx as [Hx|[<-|Hx]]; [specialize (Fa x Hx); lia| exact (Hz Hx0)| specialize (Fb x Hx); lia].
Qed.

Theorem sp_find_inorder h : inorder (fst (sp_find cmp h)) = inorder h.
Proof.
  destruct h as [|l x r]; [reflexivity|]. unfold sp_find.
  pose proof (splay_inorder (Node l x r) ltac:(discriminate)) as H.
  destruct (splay cmp (Node l x r)) as [h' s]. exact H.
Qed.

Theorem sp_find_some h x : snd (sp_find cmp h) = Some x -> cmp x = 0 /\ In x (inorder h).
Proof.
  destruct h as [|l y r]; [discriminate|]. unfold sp_find.
  destruct (splay_spec (Node l y r) ltac:(discriminate)) as (a & z & b & E & Hi & _).
  rewrite E. cbn [snd root_value].
  destruct (cmp z =? 0) eqn:Ez; [|discriminate]. intros H; inversion H; subst x.
  split; [apply Z.eqb_eq, Ez|]. rewrite Hi. apply in_elt.
Qed.

(* the point of the monotonicity condition *)
Theorem sp_find_none h : mono (inorder h) -> snd (sp_find cmp h) = None ->
  forall x, In x (inorder h) -> cmp x <> 0.
Proof.
  intros M Hn x Hx Hx0. destruct (splay_zero h x M Hx Hx0) as (a & z & b & E & _ & Hz).
  destruct h as [|l y r]; [destruct Hx|]. unfold sp_find in Hn. rewrite E, Hz in Hn. discriminate.
Qed.

Corollary sp_find_iff h : mono (inorder h) ->
  (exists x, snd (sp_find cmp h) = Some x) <-> (exists x, In x (inorder h) /\ cmp x = 0).
Proof.
  intros M. split.
  - intros [x Hx]. exists x. destruct (sp_find_some h x Hx). auto.
  - intros [x [Hx Hz]]. destruct (snd (sp_find cmp h)) as [y|] eqn:E; [exists y; reflexivity|].
    exfalso. exact (sp_find_none h M E x Hx Hz).
Qed.

(* the form in which the ACL containers use find(): "a value was found" as a boolean *)
Corollary sp_find_hit h : mono (inorder h) ->
  (if snd (sp_find cmp h) then true else false) = true <-> (exists x, In x (inorder h) /\ cmp x = 0).
Proof.
  intros M. rewrite <- (sp_find_iff h M).
  destruct (snd (sp_find cmp h)) as [y|]; split; try discriminate; eauto. intros [x H]. discriminate.
Qed.

Theorem sp_insert_found v h h' old : sp_insert cmp v h = (h', Some old) ->
  inorder h' = inorder h /\ cmp old = 0 /\ In old (inorder h).
Proof.
  unfold sp_insert. pose proof (sp_find_inorder h) as Hi. pose proof (sp_find_some h) as Hs.
  destruct (sp_find cmp h) as [h1 [o|]]; cbn [fst snd] in *; intros H; inversion H; subst.
  split; [exact Hi| apply Hs; reflexivity].
Qed.

Theorem sp_insert_new v h h' : mono (inorder h) -> sp_insert cmp v h = (h', None) ->
  exists A B, inorder h = A ++ B /\ inorder h' = A ++ v :: B /\
    Forall (fun y => cmp y > 0) A /\ Forall (fun y => cmp y < 0) B.
Proof.
  intros M. unfold sp_insert. pose proof (sp_find_inorder h) as Hi. pose proof (sp_find_none h M) as Hn.
  destruct (sp_find cmp h) as [h1 [o|]]; cbn [fst snd] in *; intros H; inversion H; subst; clear H.
  specialize (Hn eq_refl).
  destruct h1 as [|l1 x1 r1].
  - exists [], []. rewrite <- Hi. cbn. repeat split; constructor.
  - unfold node_insert. rewrite <- Hi in M, Hn |- *.
    destruct (splay_split (Node l1 x1 r1) ltac:(discriminate) M) as (a & z & b & E & Hi2 & Hs).
    rewrite E, Hi2.
    assert (Hz : cmp z <> 0) by (apply Hn; rewrite Hi2; apply in_elt).
    destruct (Hs Hz) as [Fa Fb].
    destruct (Z.ltb_spec (cmp z) 0) as [E1|E1]; [|destruct (Z.gtb_spec (cmp z) 0) as [E2|E2]; [|lia]].
    + exists (inorder a), (z :: inorder b). cbn [inorder app]. repeat split; try assumption. constructor; assumption.
    + exists (inorder a ++ [z]), (inorder b). cbn [inorder app]. rewrite <- !app_assoc.
      repeat split; try assumption. apply Forall_app. split; [assumption| repeat constructor; lia].
Qed.

Lemma split_unique (P : V -> Prop) l1 y l2 A x B :
  l1 ++ y :: l2 = A ++ x :: B -> P y -> Forall (fun w => ~ P w) A -> Forall (fun w => ~ P w) B ->
  l1 = A /\ y = x /\ l2 = B.
Proof.
  revert A. induction l1 as [|w l1 IH]; intros [|a A] E Py FA FB; cbn [app] in E; inversion E; subst.
  - auto.
  - inversion FA; subst. contradiction.
  - rewrite Forall_forall in FB. exfalso. apply (FB y); [apply in_elt| exact Py].
  - inversion FA; subst. destruct (IH A H1 Py H3 FB) as (-> & -> & ->). auto.
Qed.

Theorem sp_remove_spec h A x B : inorder h = A ++ x :: B -> cmp x = 0 ->
  Forall (fun y => cmp y > 0) A -> Forall (fun y => cmp y < 0) B ->
  exists h', sp_remove cmp h = (h', true) /\ inorder h' = A ++ B.
Proof.
  intros Hi Hx FA FB.
  assert (M : mono (inorder h)) by (rewrite Hi; apply mono_signs; assumption).
  assert (Hin : In x (inorder h)) by (rewrite Hi; apply in_elt).
  unfold sp_remove.
  pose proof (sp_find_inorder h) as Hfi. pose proof (sp_find_none h M) as Hfn.
  destruct (sp_find cmp h) as [h1 [o|]]; cbn [fst snd] in *; [clear Hfn| destruct (Hfn eq_refl x Hin Hx)].
  rewrite <- Hfi in M, Hin, Hi. unfold node_remove.
  (* the root after the second splay compares equal as well: it is x *)
  destruct (splay_zero h1 x M Hin Hx) as (a & z & b & E & Hi2 & Hz). rewrite E, Hz. cbn [Z.eqb].
  destruct (split_unique (fun w => cmp w = 0) (inorder a) z (inorder b) A x B) as (Ha & -> & Hb);
    [congruence| exact Hz| revert FA; apply Forall_impl; lia| revert FB; apply Forall_impl; lia|].
  destruct a as [|al ax ar].
  - exists b. split; [reflexivity|]. now rewrite <- Ha, <- Hb.
  - (* the left subtree holds "greater" elements only, so its splay ends at its last node *)
    destruct (splay_spec (Node al ax ar) ltac:(discriminate)) as (nl & nx & nr & E2 & Hi3 & _ & Hf3).
    rewrite E2. cbn [fst]. rewrite <- Ha, Hi3 in FA. apply Forall_app in FA. destruct FA as [_ FA].
    apply Forall_cons_iff in FA. destruct FA as [Hnx Fnr].
    assert (Hnr : nr = Leaf).
    { apply inorder_nil. specialize (Hf3 Hnx). destruct Fnr as [|w q Hw _]; [reflexivity|]. cbn in Hf3. lia. }
    subst nr. exists (Node nl nx b). split; [reflexivity|].
    rewrite <- Ha, Hi3, <- Hb. cbn [inorder]. now rewrite <- app_assoc.
Qed.

End SplayProofs.

(* containers sorted by a relation that the comparator decides *)
Section Stored.
Context {V : Type}.
Variable P : V -> Prop.          (* what every stored value satisfies *)
Variable R : V -> V -> Prop.     (* "entirely before" *)
Variable c : V -> V -> Z.        (* compare(a, b) *)

Definition stored (t : tree V) : Prop := Forall P (inorder t) /\ sorted R (inorder t).

Lemma stored_leaf : stored Leaf.
Proof. split; [constructor| exact I]. Qed.

Lemma stored_inorder t t' : inorder t' = inorder t -> stored t -> stored t'.
Proof. unfold stored. intros ->. auto. Qed.

Variable K : Type.
Variable D : K -> V -> Prop.     (* the keys a value answers for *)

(* Merge() meets a stored value that compares equal ... *)
Lemma found_stored v t t1 old : stored t -> sp_insert (c v) v t = (t1, Some old) ->
  In old (inorder t) /\ P old /\ c v old = 0 /\ inorder t1 = inorder t.
Proof.
  intros [W _] Ei. destruct (sp_insert_found _ _ _ _ _ Ei) as (Hi & Hz & Hin).
  rewrite Forall_forall in W. auto.
Qed.

(* ... or the new value goes where the order wants it *)
Lemma insert_stored v t t' : P v ->
  (forall y, P y -> c v y < 0 -> R v y) -> (forall y, P y -> c v y > 0 -> R y v) ->
  stored t -> mono (c v) (inorder t) -> sp_insert (c v) v t = (t', None) ->
  stored t' /\
  forall q, (exists x, In x (inorder t') /\ D q x) <-> (exists x, In x (inorder t) /\ D q x) \/ D q v.
Proof.
  intros Pv Hneg Hpos [W S] M Ei.
  destruct (sp_insert_new _ v t t' M Ei) as (A & B & HAB & Hi & PA & PB).
  split; [|intros q; rewrite <- !Exists_exists, Hi, HAB, !Exists_app, Exists_cons; tauto].
  unfold stored. rewrite Hi. rewrite HAB in W, S.
  apply Forall_app in W. destruct W as [WA WB]. apply sorted_app in S. destruct S as (SA & SB & Hc).
  split; [apply Forall_app; split; [exact WA| constructor; assumption]|].
  rewrite Forall_forall in *. apply sorted_app. cbn [sorted]. rewrite Forall_forall. repeat split; try assumption.
  - intros y Hy. apply Hneg; [apply WB, Hy| apply PB, Hy].
  - intros x y Hx [<-|Hy]; [apply Hpos; [apply WA, Hx| apply PA, Hx]| apply Hc; assumption].
Qed.

(* removing a stored value [old] with its own comparator, from a tree re-shaped by a lookup *)
Lemma remove_stored old t t1 : stored t -> In old (inorder t) -> inorder t1 = inorder t ->
  c old old = 0 ->
  (forall y, P y -> R y old -> c old y > 0) -> (forall y, P y -> R old y -> c old y < 0) ->
  (forall x y, R x old -> R old y -> R x y) ->
  exists t2, sp_remove (c old) t1 = (t2, true) /\ stored t2 /\ (tree_size t2 < tree_size t)%nat /\
    forall q, (exists x, In x (inorder t) /\ D q x) <-> (exists x, In x (inorder t2) /\ D q x) \/ D q old.
Proof.
  intros [W S] Hin Hi H0 Hpos Hneg Htr.
  destruct (in_split old (inorder t) Hin) as (A & B & HAB). rewrite HAB in W, S.
  apply Forall_app in W. destruct W as [WA WB']. inversion WB' as [|? ? _ WB]; subst.
  apply sorted_app in S. destruct S as (SA & SB' & Hc). cbn [sorted] in SB'. destruct SB' as [FB SB].
  rewrite Forall_forall in *.
  destruct (sp_remove_spec (c old) t1 A old B) as (t2 & Er & Hi2); [congruence| exact H0| | |].
  { apply Forall_forall. intros y Hy. apply Hpos; [apply WA, Hy| apply Hc; [exact Hy| left; reflexivity]]. }
  { apply Forall_forall. intros y Hy. apply Hneg; [apply WB, Hy| apply FB, Hy]. }
  exists t2. split; [exact Er|]. split; [|split].
  - unfold stored. rewrite Hi2. split; [apply Forall_app; split; apply Forall_forall; assumption|].
    apply sorted_app. repeat split; try assumption.
    intros x y Hx Hy. apply Htr; [apply Hc; [exact Hx| left; reflexivity]| apply FB, Hy].
  - rewrite <- !inorder_length, Hi2, HAB, !app_length. cbn [length]. lia.
  - intros q. rewrite <- !Exists_exists, Hi2, HAB, !Exists_app, Exists_cons. tauto.
Qed.

End Stored.
