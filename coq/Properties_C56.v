(* Properties_C56.v — C56: inter-process queues (src/ipc/Queue.h OneToOneUniQueue + QueueReader) are FIFO
   without lost items or wakeups. Statements, closed by `exact` or by the few lines that assemble them; proofs live in QueueProofs.v.

   Vocabulary (QueueModel.v):
     reach c i p its sched  the state after running schedule `sched` (0 = producer, 1 = consumer; one entry = one
                            atomic operation, one non-atomic item copy, one notify, or one idle look) from a queue of
                            capacity c whose cursors theIn = theOut = i, with a producer that pushes the values `its`
                            (Full => dropped; push() = true => sends a notification) and a consumer that runs
                            clearSignal(); pop() until false; idle — taking notifications, making up to p polls of its own.
                            ANY capacity, values, p and schedule.
     acc s / pushed s       (ghost) the values copied into the ring so far / whose push() has returned
     popped s               (ghost) the values returned by pop() = true so far (None = an unwritten slot)
     queued s               the ring contents from the last completed pop up to the last copied-in item, read from
                            the ring at the positions the code computes: ((i + j) mod 2^32) mod c
     cidle (cp s)           the consumer is asleep: its last pop() answered false (after block() and the re-check)
     will_notify s          the push() in flight will answer true (at raiseSignal with blocked && !signal, or already decided)
     valid_cfg c i          0 < c < 2^32 and i < 2^32
     no_wrap_or_dividing c i its   2^32 mod c = 0, or i + |its| <= 2^32 (the unsigned cursors do not pass 2^32 in this run) *)
Require Import SquidV.Bytes SquidV.QueueModel SquidV.QueueProofs.
Local Open Scope N_scope.

(* ================= FIFO exactness ================= *)

(* at every step: what pop() returned so far, followed by what the ring still holds between the cursors, is exactly
   what push() copied in, in order: no loss, no duplication, no reordering *)
Theorem C56_fifo_exact_partial : forall c i p its sched,
  valid_cfg c i -> no_wrap_or_dividing c i its ->
  let s := reach c i p its sched in map Some (acc s) = popped s ++ queued s.
Proof. intros. apply inv_fifo, reach_inv; assumption. Qed.
Print Assumptions C56_fifo_exact_partial.

(* the statement without the hypothesis on the indices is false: capacity 3, cursors at 2^32-1, push 1, push 2,
   pop, pop returns 2, 2 (confirmed on the real code: corpus/C56/known.txt) *)
Theorem C56_fifo_exact_refuted :
  exists c i p its sched, valid_cfg c i /\
    let s := reach c i p its sched in
    all_done s = true /\ pushed s = [1; 2] /\ popped s = [Some 2; Some 2] /\ map Some (acc s) <> popped s ++ queued s.
Proof. exact fifo_exact_refuted. Qed.
Print Assumptions C56_fifo_exact_refuted.

(* the values popped so far are the first values copied in *)
Theorem C56_popped_is_prefix_of_copied_in_partial : forall c i p its sched,
  valid_cfg c i -> no_wrap_or_dividing c i its ->
  let s := reach c i p its sched in
  popped s = map Some (takeN (lenN (popped s)) (acc s)) /\ lenN (popped s) <= lenN (acc s).
Proof. intros. apply inv_popped_prefix, reach_inv; assumption. Qed.
Print Assumptions C56_popped_is_prefix_of_copied_in_partial.

(* pop() never returns a slot before push() has copied the item into it *)
Theorem C56_never_reads_unwritten_slot_partial : forall c i p its sched,
  valid_cfg c i -> no_wrap_or_dividing c i its ->
  forall v, In v (popped (reach c i p its sched)) -> exists x, v = Some x.
Proof. intros c i p its sched Hv Hw. apply inv_popped_written, reach_inv; assumption. Qed.
Print Assumptions C56_never_reads_unwritten_slot_partial.

(* theSize = (items copied in and counted) - (items popped); it never exceeds the capacity (a slot copied in but
   not yet counted included), never wraps, and a consumer committed to a pop always has an item. Any indices. *)
Theorem C56_size_counts_queued_items : forall c i p its sched, valid_cfg c i ->
  let s := reach c i p its sched in
  size s + wp (pp s) + lenN (popped s) = lenN (acc s) /\ size s + tp (pp s) + wp (pp s) <= cap s /\ cc (cp s) <= size s.
Proof. intros c i p its sched Hv s. destruct (reach_inv1 c i p its sched Hv). auto. Qed.
Print Assumptions C56_size_counts_queued_items.

(* Full is thrown only when exactly `capacity` items are queued *)
Theorem C56_full_only_when_full : forall c i p its sched v, valid_cfg c i ->
  let s := reach c i p its sched in
  pp s = PPush1 v -> snd (pstep s) = [EvFull v] -> lenN (acc s) = lenN (popped s) + cap s.
Proof. intros c i p its sched v Hv. apply inv1_full_only_when_full, reach_inv1, Hv. Qed.
Print Assumptions C56_full_only_when_full.

(* ================= no lost wakeup (any capacity, any indices) ================= *)

(* whenever the consumer sleeps and the queue is not empty, a notification is pending or the push in flight will ask for one *)
Theorem C56_no_lost_wakeup : forall c i p its sched, valid_cfg c i ->
  let s := reach c i p its sched in
  cidle (cp s) = true -> 0 < size s -> 0 < notifs s \/ will_notify s = true.
Proof. intros c i p its sched Hv. apply i_wake, reach_inv1, Hv. Qed.
Print Assumptions C56_no_lost_wakeup.

(* a sleeping consumer with nothing pending has left blocked = true and signal = false behind ... *)
Theorem C56_idle_consumer_flags : forall c i p its sched, valid_cfg c i ->
  let s := reach c i p its sched in
  cidle (cp s) = true -> notifs s = 0 -> is_notify (pp s) = false -> blocked s = true /\ signal s = false.
Proof. intros c i p its sched Hv. apply inv1_idle_flags, reach_inv1, Hv. Qed.
Print Assumptions C56_idle_consumer_flags.

(* ... so the next push into the empty queue answers "notify": five producer steps later push(v) has returned true *)
Theorem C56_next_push_notifies : forall c i p its sched v, valid_cfg c i ->
  let s := reach c i p its sched in
  cp s = CIdle -> size s = 0 -> notifs s = 0 -> pp s = PPush1 v ->
  exists s', exec s [0; 0; 0; 0; 0] = (s', [EvPush v true], 5) /\ pp s' = PNotify /\ signal s' = true.
Proof. intros c i p its sched v Hv. apply next_push_from_idle, reach_inv1, Hv. Qed.
Print Assumptions C56_next_push_notifies.

(* ================= completed runs ================= *)

(* when both processes have ended (the consumer ends only asleep, with nothing pending, after the producer): nothing is
   left in the queue, a final single-threaded pop loop finds nothing, the flags are "blocked, no signal". Any indices. *)
Theorem C56_completed_run_leaves_nothing : forall c i p its sched, valid_cfg c i ->
  let s := reach c i p its sched in
  all_done s = true -> size s = 0 /\ notifs s = 0 /\ blocked s = true /\ signal s = false /\ drain_all s = [].
Proof. intros c i p its sched Hv. apply inv1_all_done, reach_inv1, Hv. Qed.
Print Assumptions C56_completed_run_leaves_nothing.

(* ... and the consumer received exactly the values whose push() returned, once each, in order *)
Theorem C56_completed_run_delivers_all_partial : forall c i p its sched,
  valid_cfg c i -> no_wrap_or_dividing c i its ->
  let s := reach c i p its sched in
  all_done s = true ->
  size s = 0 /\ notifs s = 0 /\ blocked s = true /\ signal s = false /\
  acc s = pushed s /\ popped s = map Some (pushed s) /\ drain_all s = [].
Proof. intros. apply inv_all_done; [apply reach_inv|]; assumption. Qed.
Print Assumptions C56_completed_run_delivers_all_partial.

(* the same on what an observer sees (no ghost state): the EvPop values of a completed run are the EvPush values *)
Theorem C56_completed_run_events_partial : forall c i p its sched s evs n,
  valid_cfg c i -> no_wrap_or_dividing c i its ->
  exec (init c i p its) sched = (s, evs, n) -> all_done s = true ->
  pops_of evs = map Some (pushes_of evs).
Proof. exact completed_run_events. Qed.
Print Assumptions C56_completed_run_events_partial.

(* and at every moment of any run the EvPop values are a prefix of the values copied in *)
Theorem C56_run_events_prefix_partial : forall c i p its sched s evs n,
  valid_cfg c i -> no_wrap_or_dividing c i its ->
  exec (init c i p its) sched = (s, evs, n) ->
  pops_of evs = map Some (takeN (lenN (pops_of evs)) (acc s)).
Proof. exact run_events_prefix. Qed.
Print Assumptions C56_run_events_prefix_partial.

(* every run completes: after ANY schedule the round-robin continuation ends with both processes ended — the consumer asleep
   with nothing pending, the producer out of items (the runner's out-of-fuel answer is impossible). Any indices. *)
Theorem C56_every_run_completes : forall c i p its sched, valid_cfg c i ->
  exists s evs n, run_case c i p its sched = Some (s, evs, n) /\ all_done s = true.
Proof. exact run_case_completes. Qed.
Print Assumptions C56_every_run_completes.

(* what the runner prints for every case (and the harness must print too): completed, popped values = pushed values,
   final drain empty, nothing pending, flags "blocked, no signal" *)
Theorem C56_every_run_completes_and_delivers_partial : forall c i p its sched,
  valid_cfg c i -> no_wrap_or_dividing c i its ->
  exists s evs n, run_case c i p its sched = Some (s, evs, n) /\ all_done s = true /\
    pops_of evs = map Some (pushes_of evs) /\ drain_all s = [] /\ notifs s = 0 /\ blocked s = true /\ signal s = false.
Proof. exact run_case_completes_and_delivers. Qed.
Print Assumptions C56_every_run_completes_and_delivers_partial.

(* ================= the invariants themselves ================= *)
Theorem C56_invariant_all_interleavings : forall c i p its sched,
  valid_cfg c i -> no_wrap_or_dividing c i its -> Inv (reach c i p its sched).
Proof. exact reach_inv. Qed.
Print Assumptions C56_invariant_all_interleavings.

Theorem C56_signalling_invariant_any_indices : forall c i p its sched,
  valid_cfg c i -> Inv1 (reach c i p its sched).
Proof. exact reach_inv1. Qed.
Print Assumptions C56_signalling_invariant_any_indices.

(* every power-of-two capacity (squid's callers: 1024) satisfies the index hypothesis for every cursor value and run length *)
Theorem C56_power_of_two_capacity_ok : forall k i its, k <= 32 -> no_wrap_or_dividing (2 ^ k) i its.
Proof. exact pow2_capacity_ok. Qed.
Print Assumptions C56_power_of_two_capacity_ok.

(* ================= the hypotheses are satisfiable, non-trivially ================= *)
Example C56_ex_cfg_1024 : valid_cfg 1024 4294967295 /\ no_wrap_or_dividing 1024 4294967295 [1; 2; 3].
Proof. vm_compute. repeat split; try reflexivity. left. reflexivity. Qed.

Example C56_ex_cfg_nondividing_no_wrap : valid_cfg 3 0 /\ no_wrap_or_dividing 3 0 [1; 2; 3; 4].
Proof. vm_compute. repeat split; try reflexivity. right. discriminate. Qed.

(* the consumer went to sleep first; the producer published item 1 and is inside raiseSignal():
   asleep + non-empty + nothing pending yet, and the push in flight will notify *)
Example C56_ex_asleep_nonempty_push_in_flight :
  let s := reach 2 0 0 [1] [1; 1; 1; 1; 1; 1; 0; 0; 0] in
  cp s = CIdle /\ size s = 1 /\ notifs s = 0 /\ pp s = PPush4 1 /\ will_notify s = true.
Proof. vm_compute. repeat split; reflexivity. Qed.

(* two steps later the notification is on its way, one more and it is pending *)
Example C56_ex_asleep_nonempty_notification_pending :
  let s := reach 2 0 0 [1] [1; 1; 1; 1; 1; 1; 0; 0; 0; 0; 0; 0] in
  cp s = CIdle /\ size s = 1 /\ notifs s = 1 /\ signal s = true.
Proof. vm_compute. repeat split; reflexivity. Qed.

(* the premises of C56_next_push_notifies / C56_idle_consumer_flags *)
Example C56_ex_asleep_empty :
  let s := reach 2 0 0 [7] [1; 1; 1; 1; 1; 1] in
  cp s = CIdle /\ size s = 0 /\ notifs s = 0 /\ pp s = PPush1 7 /\ is_notify (pp s) = false.
Proof. vm_compute. repeat split; reflexivity. Qed.

(* the window the re-check after block() exists for: the producer publishes between the consumer's first empty()
   and block(), sees blocked = false and does not notify; the re-check finds the item *)
Example C56_ex_recheck_window :
  match run_case 2 0 0 [1] [1; 1; 1; 0; 0; 0; 0; 1; 1] with
  | Some (s, evs, _) => evs = [EvClear; EvPush 1 false; EvPop (Some 1); EvEmpty; EvEnd] /\ all_done s = true
  | None => False
  end.
Proof. vm_compute. split; reflexivity. Qed.

(* Full: capacity 1, the producer runs ahead *)
Example C56_ex_full :
  let s := reach 1 0 0 [1; 2] [0; 0; 0; 0] in
  pp s = PPush1 2 /\ snd (pstep s) = [EvFull 2] /\ lenN (acc s) = lenN (popped s) + cap s.
Proof. vm_compute. repeat split; reflexivity. Qed.

(* a completed run with contention, a poll, a Full and a notification *)
Example C56_ex_completed_run :
  match run_case 2 0 1 [1; 2; 3; 4] [1;1;1;1;1;1; 0;0;0;0;0;0;0;0;0;0; 1;1;1;1;1;1; 0;0;0; 1;1;1] with
  | Some (s, evs, _) => all_done s = true /\ pops_of evs = map Some (pushes_of evs) /\ pushes_of evs = [1; 2; 4]
  | None => False
  end.
Proof. vm_compute. repeat split; reflexivity. Qed.
