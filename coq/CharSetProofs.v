Require Import SquidV.Bytes SquidV.CharSetModel.
Local Open Scope N_scope.

Definition wf (s : storage) : Prop := lenN s = 256.

Lemma mem_plus d s c : lenN d = lenN s -> cs_mem (cs_plus d s) c = cs_mem d c || cs_mem s c.
Proof.
  unfold cs_mem. revert s c; induction d as [|db d IH]; intros [|sb s] c H; cbn [lenN] in H; try lia.
  - reflexivity.
  - cbn [cs_plus tbl_get]. destruct (c =? 0); [destruct sb, db; reflexivity|]. apply IH. lia.
Qed.

Lemma mem_minus d s c : lenN d = lenN s -> cs_mem (cs_minus d s) c = cs_mem d c && negb (cs_mem s c).
Proof.
  unfold cs_mem. revert s c; induction d as [|db d IH]; intros [|sb s] c H; cbn [lenN] in H; try lia.
  - reflexivity.
  - cbn [cs_minus tbl_get]. destruct (c =? 0); [destruct sb, db; reflexivity|]. apply IH. lia.
Qed.

Lemma len_plus d s : lenN (cs_plus d s) = lenN d.
Proof. revert s; induction d as [|db d IH]; intros [|sb s]; cbn [cs_plus lenN]; try reflexivity. now rewrite IH. Qed.
Lemma len_minus d s : lenN (cs_minus d s) = lenN d.
Proof. revert s; induction d as [|db d IH]; intros [|sb s]; cbn [cs_minus lenN]; try reflexivity. now rewrite IH. Qed.

Lemma mem_complement s c : c < lenN s -> cs_mem (cs_complement s) c = negb (cs_mem s c).
Proof.
  unfold cs_mem, cs_complement. revert c; induction s as [|x s IH]; intros c H; cbn [lenN] in H; [lia|].
  cbn [map tbl_get]. destruct (c =? 0) eqn:E; [reflexivity|]. apply N.eqb_neq in E. apply IH. lia.
Qed.
Lemma len_complement s : lenN (cs_complement s) = lenN s.
Proof. apply lenN_map. Qed.

Lemma mem_set s c v d : c < lenN s -> cs_mem (cs_set s c v) d = if d =? c then v else cs_mem s d.
Proof.
  unfold cs_mem. revert c d; induction s as [|x s IH]; intros c d H; cbn [lenN] in H; [lia|].
  cbn [cs_set]. destruct (N.eqb_spec c 0) as [->|E]; cbn [tbl_get].
  - destruct (d =? 0); reflexivity.
  - destruct (N.eqb_spec d 0) as [->|D].
    + destruct (N.eqb_spec 0 c); [lia | reflexivity].
    + rewrite IH by lia. destruct (N.eqb_spec (N.pred d) (N.pred c)), (N.eqb_spec d c); try reflexivity; lia.
Qed.
Lemma len_set s c v : lenN (cs_set s c v) = lenN s.
Proof. revert c; induction s as [|x s IH]; intros c; cbn [cs_set lenN]; [reflexivity|]. destruct (c =? 0); cbn [lenN]; [reflexivity| now rewrite IH]. Qed.

Lemma addRange_loop_spec fuel : forall s low high d,
  lenN s = 256 -> high < 256 -> (N.to_nat (high - low) <= fuel)%nat ->
  lenN (cs_addRange_loop fuel s low high) = 256 /\
  cs_mem (cs_addRange_loop fuel s low high) d = cs_mem s d || ((low <=? d) && (d <? high)).
Proof.
  induction fuel as [|k IH]; intros s low high d Hs Hh Hf; cbn [cs_addRange_loop].
  - split; [exact Hs|]. assert (high <= low) by lia.
    destruct (low <=? d) eqn:A, (d <? high) eqn:B; cbn; rewrite ?orb_false_r; try reflexivity.
    apply N.leb_le in A; apply N.ltb_lt in B; lia.
  - destruct (low <? high) eqn:L.
    + apply N.ltb_lt in L.
      destruct (IH (cs_add s low) (low + 1) high d) as [IH1 IH2];
        [unfold cs_add; now rewrite len_set | exact Hh | lia |].
      split; [exact IH1|]. rewrite IH2. unfold cs_add. rewrite mem_set by lia.
      destruct (d =? low) eqn:E.
      * apply N.eqb_eq in E; subst. replace (low <=? low) with true by (symmetry; apply N.leb_le; lia).
        replace (low <? high) with true by (symmetry; apply N.ltb_lt; lia).
        cbn. now rewrite orb_true_r.
      * apply N.eqb_neq in E. f_equal.
        destruct (low + 1 <=? d) eqn:A, (low <=? d) eqn:B; try reflexivity;
          [apply N.leb_le in A; apply N.leb_nle in B; lia | apply N.leb_nle in A; apply N.leb_le in B; lia].
    + split; [exact Hs|]. apply N.ltb_ge in L.
      destruct (low <=? d) eqn:A, (d <? high) eqn:B; cbn; rewrite ?orb_false_r; try reflexivity.
      apply N.leb_le in A; apply N.ltb_lt in B; lia.
Qed.

(* addRange(low, high) adds exactly [low, high] when low <= high, and
   exactly {high} otherwise (the behaviour of the C++ loop). *)
Lemma mem_addRange s low high d :
  lenN s = 256 -> low < 256 -> high < 256 ->
  cs_mem (cs_addRange s low high) d = cs_mem s d || ((low <=? d) && (d <=? high)) || (d =? high).
Proof.
  intros Hs Hl Hh. unfold cs_addRange.
  destruct (addRange_loop_spec 256 s low high d Hs Hh) as [L1 L2]; [lia|].
  unfold cs_add. rewrite mem_set by lia. rewrite L2.
  destruct (d =? high) eqn:E; [now rewrite orb_true_r|]. rewrite orb_false_r. f_equal. f_equal.
  apply N.eqb_neq in E.
  destruct (d <? high) eqn:A, (d <=? high) eqn:B; try reflexivity;
    [apply N.ltb_lt in A; apply N.leb_nle in B; lia | apply N.ltb_ge in A; apply N.leb_le in B; lia].
Qed.

Lemma len_addRange s low high : lenN s = 256 -> high < 256 -> lenN (cs_addRange s low high) = 256.
Proof.
  intros Hs Hh. unfold cs_addRange, cs_add. rewrite len_set.
  destruct (addRange_loop_spec 256 s low high 0 Hs Hh) as [L1 _]; [lia| exact L1].
Qed.
