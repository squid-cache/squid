(* AccessProofs.v — proofs for C45: the http_access decision path (AccessModel.v) refines the
   reference first-match evaluation over set-semantics ACLs.

   1. bookkeeping: find_acl / set_data, the four parse() routines continue where the
      previous line of the same ACL stopped (…_app).
   2. cfg_parse: after reading the lines, every named ACL object holds exactly what parsing ALL tokens of
      its name from scratch yields, and the rule list is the list of non-empty http_access lines (or the
      default "deny all").
   3. semantic invariants of the four kinds of ACL data (from C41, C42, C43 and, for methods, here) and
      their preservation by every lookup.
   4. the walk: literal, rule, tree; a request; a sequence of requests.
   5. the method-prefix defect: witness.
   6. the C44 checklist machine on the same tree decides the same. *)
Require Import SquidV.Bytes SquidV.SplayModel SquidV.TokModel SquidV.IntrangeModel SquidV.IntrangeProofs SquidV.AccessModel.
Require SquidV.AcldomModel SquidV.AclipModel SquidV.AcldomProofs SquidV.AclipProofs SquidV.AcltreeModel SquidV.AcltreeProofs.
Require Import SquidV.gen.AccessMeth_gen.
Local Open Scope N_scope.

(* 1. bookkeeping *)
Lemma list_eqb_sym (a b : bytes) : list_eqb a b = list_eqb b a.
Proof.
  destruct (list_eqb a b) eqn:E; symmetry.
  - apply list_eqb_iff. symmetry. apply list_eqb_iff, E.
  - destruct (list_eqb b a) eqn:F; [|reflexivity]. apply list_eqb_iff in F. subst b. now rewrite list_eqb_refl in E.
Qed.

Lemma find_acl_name name acls a : find_acl name acls = Some a -> a_name a = name.
Proof.
  induction acls as [|x r IH]; cbn [find_acl]; [discriminate|].
  destruct (list_eqb (a_name x) name) eqn:E; [|exact IH].
  intros H. inversion H; subst. apply list_eqb_iff, E.
Qed.

Lemma find_acl_app name acls x :
  find_acl name (acls ++ [x]) =
  match find_acl name acls with
  | Some a => Some a
  | None => if list_eqb (a_name x) name then Some x else None
  end.
Proof.
  induction acls as [|y r IH]; cbn [find_acl app]; [reflexivity|].
  destruct (list_eqb (a_name y) name); [reflexivity| exact IH].
Qed.

Lemma find_set name' name d acls :
  find_acl name' (set_data name d acls) =
  if list_eqb name' name
  then match find_acl name acls with Some a => Some (mkAcl (a_name a) (a_type a) d) | None => None end
  else find_acl name' acls.
Proof.
  induction acls as [|x r IH]; cbn [find_acl set_data]; [destruct (list_eqb name' name); reflexivity|].
  destruct (list_eqb (a_name x) name) eqn:E1; cbn [find_acl a_name].
  - apply list_eqb_iff in E1. rewrite E1, (list_eqb_sym name name'). destruct (list_eqb name' name); reflexivity.
  - destruct (list_eqb (a_name x) name') eqn:E3; [|exact IH].
    apply list_eqb_iff in E3. subst name'. rewrite E1. reflexivity.
Qed.

(* ---- parse() continues where the previous line stopped ---- *)
Lemma ip_parse_app A : forall B f4 f6 t n,
  AclipModel.acl_parse_from f4 f6 t n (A ++ B) =
  match AclipModel.acl_parse_from f4 f6 t n A with
  | AclipModel.POk f4' f6' t' n' => AclipModel.acl_parse_from f4' f6' t' n' B
  | bad => bad
  end.
Proof.
  induction A as [|[tok sp] A IH]; intros B f4 f6 t n; cbn [app AclipModel.acl_parse_from]; [reflexivity|].
  destruct (AclipModel.parse_global tok) as [[g4 g6]|]; [apply IH|].
  destruct sp as [| |vals]; try reflexivity.
  destruct (AclipModel.merge_all t n vals); try reflexivity. apply IH.
Qed.

Lemma dom_parse_app A : forall B t n,
  AcldomModel.acl_parse_from t n (A ++ B) =
  match AcldomModel.acl_parse_from t n A with
  | AcldomModel.MOk t' n' => AcldomModel.acl_parse_from t' n' B
  | bad => bad
  end.
Proof.
  induction A as [|tok A IH]; intros B t n; cbn [app AcldomModel.acl_parse_from]; [reflexivity|].
  destruct (AcldomModel.merge _ t n _); try reflexivity. apply IH.
Qed.

Lemma ir_parse_ub toks : forall acc ub ub', fst (ir_parse toks acc ub) = fst (ir_parse toks acc ub').
Proof.
  induction toks as [|t r IH]; intros acc ub ub'; cbn [ir_parse]; [reflexivity|].
  destruct (ir_parse_token t) as [[rg|] o]; cbn [fst]; [apply IH| reflexivity].
Qed.

Lemma ir_parse_app A : forall B acc ub rs,
  fst (ir_parse A acc ub) = Some rs ->
  fst (ir_parse (A ++ B) acc ub) = fst (ir_parse B (rev rs) false).
Proof.
  induction A as [|t r IH]; intros B acc ub rs; cbn [ir_parse app].
  - cbn [fst]. intros H. inversion H; subst. rewrite rev_involutive. apply ir_parse_ub.
  - destruct (ir_parse_token t) as [[rg|] o]; cbn [fst]; [apply IH| discriminate].
Qed.

Lemma parse_into_app d0 ips1 txt1 d1 ips2 txt2 :
  parse_into d0 ips1 txt1 = Some d1 ->
  parse_into d1 ips2 txt2 = parse_into d0 (ips1 ++ ips2) (txt1 ++ txt2).
Proof.
  destruct d0 as [f4 f6 t n|t n|rs|vs]; cbn [parse_into].
  - rewrite map_app, ip_parse_app.
    destruct (AclipModel.acl_parse_from f4 f6 t n (map ip_spec ips1)); try discriminate.
    intros H. inversion H; subst. reflexivity.
  - rewrite dom_parse_app. destruct (AcldomModel.acl_parse_from t n txt1); try discriminate.
    intros H. inversion H; subst. reflexivity.
  - destruct (ir_parse txt1 (rev rs) false) as [[rs1|] u1] eqn:E1; [|discriminate].
    intros H. inversion H; subst. cbn [parse_into].
    pose proof (ir_parse_app txt1 txt2 (rev rs) false rs1 ltac:(rewrite E1; reflexivity)) as E.
    destruct (ir_parse txt2 (rev rs1) false) as [[x|] ?]; destruct (ir_parse (txt1 ++ txt2) (rev rs) false) as [[y|] ?];
      cbn [fst] in E; congruence.
  - intros H. inversion H; subst. cbn [parse_into]. rewrite map_app, app_assoc. reflexivity.
Qed.

(* 2. what the lines of a configuration say (reference vocabulary) *)
Definition line_ips (name : bytes) (l : line) : list iptok :=
  match l with LAcl n _ ips _ => if list_eqb n name then ips else [] | _ => [] end.
Definition line_txt (name : bytes) (l : line) : list bytes :=
  match l with LAcl n _ _ txt => if list_eqb n name then txt else [] | _ => [] end.
(* all values given for a name, in the order of the lines *)
Definition acl_ips (cfg : list line) (name : bytes) : list iptok := flat_map (line_ips name) cfg.
Definition acl_txt (cfg : list line) (name : bytes) : list bytes := flat_map (line_txt name) cfg.
(* the type of a name is the type of its first acl line *)
Fixpoint acl_type (cfg : list line) (name : bytes) : option atype :=
  match cfg with
  | [] => None
  | LAcl n ty _ _ :: r => if list_eqb n name then Some ty else acl_type r name
  | _ :: r => acl_type r name
  end.
(* the http_access lines that name at least one ACL *)
Definition line_rule (l : line) : list rule :=
  match l with LAccess allow (t :: ts) => [(allow, t :: ts)] | _ => [] end.
Definition raw_rules (cfg : list line) : list rule := flat_map line_rule cfg.

Lemma raw_rules_app a b : raw_rules (a ++ b) = raw_rules a ++ raw_rules b.
Proof. apply flat_map_app. Qed.
Lemma acl_type_app a b name :
  acl_type (a ++ b) name = match acl_type a name with Some ty => Some ty | None => acl_type b name end.
Proof.
  induction a as [|l a IH]; cbn [app acl_type]; [reflexivity|].
  destruct l as [n ty ips txt|al ts]; [|exact IH]. destruct (list_eqb n name); [reflexivity| exact IH].
Qed.

Lemma acl_type_none pre name : acl_type pre name = None -> acl_ips pre name = [] /\ acl_txt pre name = [].
Proof.
  unfold acl_ips, acl_txt. induction pre as [|l pre IH]; cbn [acl_type flat_map]; [auto|].
  destruct l as [n ty i x|? ?]; cbn [line_ips line_txt]; [|exact IH].
  destruct (list_eqb n name); [discriminate| exact IH].
Qed.

(* the state of the parser after the lines [pre] *)
Definition acl_parsed (pre : list line) (name : bytes) (a : aclobj) : Prop :=
  a_name a = name /\ acl_type pre name = Some (a_type a) /\ parse_into (empty_data (a_type a)) (acl_ips pre name) (acl_txt pre name) = Some (a_data a).

Definition slot (pre : list line) (acls : list aclobj) (name : bytes) : Prop :=
  match find_acl name acls with
  | Some a => acl_parsed pre name a
  | None => acl_type pre name = None
  end.

Definition parsed (pre : list line) (s : cstate) : Prop :=
  (forall name, slot pre (c_acls s) name) /\ c_rules s = raw_rules pre /\
  (forall r t, In r (c_rules s) -> In t (snd r) -> find_acl (snd t) (c_acls s) <> None).

Lemma parsed_nil : parsed [] (mkC [] []).
Proof. split; [intros name; reflexivity|]. split; [reflexivity|]. intros r t []. Qed.

Lemma empty_data_parse_shape ty ips txt d :
  parse_into (empty_data ty) ips txt = Some d ->
  match ty, d with
  | (TSrc | TDst), DIp _ _ _ _ | TDom, DDom _ _ | TPort, DPort _ | TMeth, DMeth _ => True
  | _, _ => False
  end.
Proof.
  destruct ty; cbn [empty_data parse_into].
  1,2: destruct (AclipModel.acl_parse_from _ _ _ _ _); try discriminate; intros H; inversion H; exact I.
  - destruct (AcldomModel.acl_parse_from _ _ _); try discriminate; intros H; inversion H; exact I.
  - destruct (ir_parse _ _ _) as [[?|] ?]; try discriminate; intros H; inversion H; exact I.
  - intros H; inversion H; exact I.
Qed.

(* what one more line adds to the values and the type of a name *)
Lemma snoc_line pre l name :
  acl_ips (pre ++ [l]) name = acl_ips pre name ++ line_ips name l /\
  acl_txt (pre ++ [l]) name = acl_txt pre name ++ line_txt name l /\
  acl_type (pre ++ [l]) name = match acl_type pre name with Some ty => Some ty | None => acl_type [l] name end.
Proof.
  rewrite acl_type_app. unfold acl_ips, acl_txt. rewrite !flat_map_app. cbn [flat_map]. rewrite !app_nil_r. auto.
Qed.

Lemma raw_rules_snoc pre l : raw_rules (pre ++ [l]) = raw_rules pre ++ line_rule l.
Proof. rewrite raw_rules_app. unfold raw_rules. cbn [flat_map]. now rewrite app_nil_r. Qed.

(* a line that is not an acl line of [name] leaves the slot of [name] as it is *)
Lemma slot_other pre l acls name : acl_type [l] name = None -> (slot (pre ++ [l]) acls name <-> slot pre acls name).
Proof.
  intros E. destruct (snoc_line pre l name) as (Ei & Ex & Ey). unfold slot, acl_parsed. rewrite Ei, Ex, Ey, E.
  assert (line_ips name l = [] /\ line_txt name l = []) as [-> ->].
  { destruct l as [n ty ips txt|? ?]; cbn [acl_type line_ips line_txt] in *; [destruct (list_eqb n name); [discriminate|]|]; auto. }
  rewrite !app_nil_r. destruct (acl_type pre name); reflexivity.
Qed.

Lemma atype_eqb_eq a b : atype_eqb a b = true -> a = b.
Proof. destruct a, b; (reflexivity || discriminate). Qed.

Lemma cfg_step_parsed pre s l s' : parsed pre s -> cfg_step s l = Some s' -> parsed (pre ++ [l]) s'.
Proof.
  intros (HA & HR & HN) Hs. rewrite <- (app_nil_r (raw_rules pre)) in HR.
  assert (HO : forall name' acls, acl_type [l] name' = None -> find_acl name' acls = find_acl name' (c_acls s) ->
                 slot (pre ++ [l]) acls name').
  { intros name' acls E F. apply slot_other; [exact E|]. unfold slot. rewrite F. apply HA. }
  destruct l as [name ty ips txt|allow terms]; cbn [cfg_step] in Hs.
  - (* acl line *)
    pose proof (HA name) as Hn. unfold slot in Hn.
    destruct (snoc_line pre (LAcl name ty ips txt) name) as (Ei & Ex & Ey).
    cbn [line_ips line_txt acl_type] in Ei, Ex, Ey. rewrite list_eqb_refl in Ei, Ex, Ey.
    assert (HO' : forall name' acls, list_eqb name name' = false -> find_acl name' acls = find_acl name' (c_acls s) ->
                    slot (pre ++ [LAcl name ty ips txt]) acls name').
    { intros name' acls E. apply HO. cbn [acl_type]. rewrite E. reflexivity. }
    destruct (find_acl name (c_acls s)) as [a|] eqn:Ef.
    + (* a further line of a known name: parse() appends *)
      destruct (atype_eqb (a_type a) ty) eqn:Et; [|discriminate].
      destruct (parse_into (a_data a) ips txt) as [d|] eqn:Ep; [|discriminate]. inversion Hs; subst s'. clear Hs.
      destruct Hn as (N1 & N2 & N3). split; [|split]; cbn [c_acls c_rules].
      * intros name'. destruct (list_eqb name name') eqn:E.
        -- apply list_eqb_iff in E. subst name'. unfold slot, acl_parsed. rewrite find_set, list_eqb_refl, Ef, Ei, Ex, Ey, N2.
           cbn [a_name a_type a_data]. rewrite <- (parse_into_app _ _ _ _ ips txt N3). auto.
        -- apply HO'; [exact E|]. rewrite find_set, (list_eqb_sym name' name), E. reflexivity.
      * rewrite raw_rules_snoc. exact HR.
      * intros r t Hr Ht. rewrite find_set. specialize (HN r t Hr Ht).
        destruct (list_eqb (snd t) name); [rewrite Ef; discriminate| exact HN].
    + (* the first line of a name: a new object *)
      destruct (parse_into (empty_data ty) ips txt) as [d|] eqn:Ep; [|discriminate]. inversion Hs; subst s'. clear Hs.
      destruct (acl_type_none pre name Hn) as (Ni & Nx). rewrite Hn, Ni, Nx in *.
      split; [|split]; cbn [c_acls c_rules].
      * intros name'. destruct (list_eqb name name') eqn:E.
        -- apply list_eqb_iff in E. subst name'. unfold slot, acl_parsed. rewrite find_acl_app, Ef. cbn [a_name].
           rewrite list_eqb_refl, Ei, Ex, Ey. cbn [a_name a_type a_data app]. auto.
        -- apply HO'; [exact E|]. rewrite find_acl_app. cbn [a_name]. rewrite E.
           destruct (find_acl name' (c_acls s)); reflexivity.
      * rewrite raw_rules_snoc. exact HR.
      * intros r t Hr Ht. rewrite find_acl_app. specialize (HN r t Hr Ht).
        destruct (find_acl (snd t) (c_acls s)); [discriminate| contradiction].
  - (* http_access line *)
    destruct (forallb _ terms) eqn:Ef; [|discriminate]. rewrite forallb_forall in Ef.
    assert (HA' : forall name, slot (pre ++ [LAccess allow terms]) (c_acls s) name).
    { intros name. apply HO; reflexivity. }
    destruct terms as [|t ts]; inversion Hs; subst s'; (split; [exact HA'|]); rewrite raw_rules_snoc.
    + split; [exact HR| exact HN].
    + cbn [c_acls c_rules line_rule]. rewrite app_nil_r in HR. split; [rewrite HR; reflexivity|].
      intros r t' Hr Ht. apply in_app_or in Hr. destruct Hr as [Hr|[<-|[]]]; [exact (HN r t' Hr Ht)|].
      specialize (Ef t' Ht). destruct (find_acl (snd t') (c_acls s)); discriminate.
Qed.

(* all lines of a name have the type of its first line *)
Definition typed (cfg : list line) : Prop :=
  forall n ty ips txt, In (LAcl n ty ips txt) cfg -> acl_type cfg n = Some ty.

Lemma cfg_step_typed pre s l s' : parsed pre s -> typed pre -> cfg_step s l = Some s' -> typed (pre ++ [l]).
Proof.
  intros (HA & _ & _) HT Hs n ty ips txt Hin. rewrite acl_type_app.
  apply in_app_or in Hin. destruct Hin as [Hin|[->|[]]]; [rewrite (HT n ty ips txt Hin); reflexivity|].
  cbn [cfg_step] in Hs. specialize (HA n). unfold slot in HA. destruct (find_acl n (c_acls s)) as [a|].
  - destruct (atype_eqb (a_type a) ty) eqn:Et; [|discriminate].
    destruct HA as (_ & -> & _). rewrite (atype_eqb_eq _ _ Et). reflexivity.
  - rewrite HA. cbn [acl_type]. rewrite list_eqb_refl. reflexivity.
Qed.

Lemma cfg_steps_parsed rest : forall pre s s', parsed pre s -> typed pre -> cfg_steps s rest = Some s' ->
  parsed (pre ++ rest) s' /\ typed (pre ++ rest).
Proof.
  induction rest as [|l rest IH]; intros pre s s' HP HT Hs; cbn [cfg_steps] in Hs.
  - inversion Hs; subst. rewrite app_nil_r. auto.
  - destruct (cfg_step s l) as [s1|] eqn:E; [|discriminate].
    replace (pre ++ l :: rest) with ((pre ++ [l]) ++ rest) by (rewrite <- app_assoc; reflexivity).
    apply (IH _ s1); [apply (cfg_step_parsed pre s l s1 HP E)| apply (cfg_step_typed pre s l s1 HP HT E)| exact Hs].
Qed.

Lemma typed_nil : typed [].
Proof. intros ? ? ? ? []. Qed.

(* the rule list of the reference: the non-empty http_access lines, or "deny all" when there is none *)
Definition ref_rules (cfg : list line) : list rule :=
  match raw_rules cfg with [] => [(false, [(false, s_all)])] | rs => rs end.

Definition full (cfg : list line) : list line := predefined ++ cfg.

Theorem cfg_parse_parsed cfg s : cfg_parse cfg = Some s ->
  (forall name, match find_acl name (c_acls s) with
                | Some a => acl_parsed (full cfg) name a
                | None => acl_type (full cfg) name = None
                end) /\ c_rules s = ref_rules (full cfg) /\ (forall r t, In r (c_rules s) -> In t (snd r) -> find_acl (snd t) (c_acls s) <> None).
Proof.
  unfold cfg_parse, full. intros H.
  destruct (cfg_steps (mkC [] []) (predefined ++ cfg)) as [s1|] eqn:E1; [|discriminate].
  pose proof (proj1 (cfg_steps_parsed _ [] _ _ parsed_nil typed_nil E1)) as P1. cbn [app] in P1.
  destruct (c_rules s1) as [|r0 rs0] eqn:ER.
  - (* no rule: the default "deny all" is added *)
    pose proof (cfg_step_parsed _ _ _ _ P1 H) as (PA & PR & PN).
    destruct P1 as (_ & PR1 & _). rewrite ER in PR1.
    split; [|split; [|exact PN]].
    + intros name. apply (slot_other _ default_rule); [reflexivity| apply PA].
    + rewrite PR, raw_rules_snoc. unfold ref_rules. cbn [app] in PR1 |- *. rewrite <- PR1. reflexivity.
  - inversion H; subst s1. destruct P1 as (PA & PR & PN). split; [exact PA|]. split; [|exact PN].
    unfold ref_rules. cbn [app] in PR |- *. rewrite <- PR, ER. reflexivity.
Qed.

Lemma cfg_parse_typed cfg s : cfg_parse cfg = Some s -> typed (full cfg).
Proof.
  unfold cfg_parse, full. intros H.
  destruct (cfg_steps (mkC [] []) (predefined ++ cfg)) as [s1|] eqn:E1; [|discriminate].
  apply (cfg_steps_parsed _ [] _ _ parsed_nil typed_nil E1).
Qed.

(* 3a. IP values (src, dst): C42 *)
Module IP := SquidV.AclipProofs.
Module IM := SquidV.AclipModel.

Definition W32 : N := 4294967296.

(* the values the property quantifies over: IPv4, ends ordered, prefix length 1..32, no host bits *)
Definition iptok_ok (t : iptok) : Prop :=
  match t with
  | IWord w => IM.parse_global w <> None
  | ISingle a => a < W32
  | ICidr a n => a < W32 /\ 1 <= n <= 32 /\ a mod 2 ^ (32 - n) = 0
  | IRange a b => a <= b /\ b < W32
  | IRangeCidr a b n => a <= b /\ b < W32 /\ 1 <= n <= 32 /\ a mod 2 ^ (32 - n) = 0 /\ b mod 2 ^ (32 - n) = 0
  end.

(* the set of (32-bit) addresses a value stands for *)
Definition ip_in (x : N) (t : iptok) : Prop :=
  match t with
  | IWord w => exists g6, IM.parse_global w = Some (true, g6)          (* all, ipv4 and the legacy spellings of all *)
  | ISingle a => x = a
  | ICidr a n => a <= x <= a + (2 ^ (32 - n) - 1)
  | IRange a b => a <= x <= b
  | IRangeCidr a b n => a <= x <= b + (2 ^ (32 - n) - 1)
  end.

Definition cv_of (t : iptok) : list IP.cval :=
  match t with
  | IWord _ => []
  | ISingle a => [IP.CNet (v4 a) 0]
  | ICidr a n => [IP.CNet (v4 a) (32 - n)]
  | IRange a b => [IP.CRange (v4 a) (v4 b) 0]
  | IRangeCidr a b n => [IP.CRange (v4 a) (v4 b) (32 - n)]
  end.

Lemma V4ANY_eq : IM.V4ANY = 65535 * W32. Proof. reflexivity. Qed.
Lemma TOP_big : W32 * W32 * W32 * W32 = IM.TOP. Proof. reflexivity. Qed.

Lemma pow_le_32 h : h <= 32 -> 0 < 2 ^ h /\ W32 = 2 ^ (32 - h) * 2 ^ h.
Proof.
  intros H. split; [apply IP.pow2_pos|]. rewrite <- N.pow_add_r. replace (32 - h + h) with 32 by lia. reflexivity.
Qed.

Lemma v4_aligned a h : h <= 32 -> a mod 2 ^ h = 0 -> v4 a mod 2 ^ h = 0.
Proof.
  intros Hh Ha. destruct (pow_le_32 h Hh) as [HP E]. unfold v4. rewrite V4ANY_eq, E.
  rewrite N.mul_assoc, N.add_comm, N.mod_add by lia. exact Ha.
Qed.

Lemma aligned_bound a P M : 0 < P -> a mod P = 0 -> M mod P = 0 -> a < M -> a + P <= M.
Proof.
  intros HP Ha HM Hlt. pose proof (proj2 (N.neq_0_lt_0 P) HP) as NZ.
  apply (N.div_exact _ _ NZ) in Ha, HM. set (q := a / P) in *. set (r := M / P) in *. clearbody q r. subst a M.
  apply N.mul_lt_mono_pos_l in Hlt; [|exact HP].
  rewrite <- N.mul_succ_r. apply N.mul_le_mono_l, N.le_succ_l, Hlt.
Qed.

Lemma w32_aligned h : h <= 32 -> W32 mod 2 ^ h = 0.
Proof.
  intros Hh. destruct (pow_le_32 h Hh) as [HP E]. rewrite E. apply N.mod_mul. lia.
Qed.

Lemma v4_lt_top a : a < W32 -> v4 a < IM.TOP.
Proof. intros H. unfold v4. rewrite V4ANY_eq, <- TOP_big. unfold W32 in *. lia. Qed.

Lemma v4_is_v4 a : a < W32 -> IM.isIPv4 (v4 a) = true.
Proof.
  intros H. unfold IM.isIPv4, v4. rewrite V4ANY_eq. apply N.eqb_eq. change (2 ^ 32) with W32.
  rewrite N.div_add_l by discriminate. rewrite (N.div_small a W32 H). reflexivity.
Qed.

Lemma tok_plain_not_global : IM.parse_global tok_plain = None. Proof. reflexivity. Qed.

Lemma cidr_val a n : a < W32 -> 1 <= n <= 32 -> a mod 2 ^ (32 - n) = 0 ->
  IM.mask_of_cidr n true = Some (IP.pmask (32 - n)) /\ IM.applyMask (v4 a) (IP.pmask (32 - n)) = v4 a.
Proof.
  intros Ha Hn Hal. split; [apply (IP.mask_of_cidr_pmask n true); lia|].
  unfold IM.applyMask. rewrite IP.land_pmask by (try apply v4_lt_top; lia).
  symmetry. apply IP.aligned_mul; [pose proof (IP.pow2_pos (32 - n)); lia|]. apply v4_aligned; [lia| exact Hal].
Qed.

Lemma mod_pow2_0 a : a mod 2 ^ 0 = 0.
Proof. rewrite N.pow_0_r. apply N.mod_1_r. Qed.

Lemma cnet_ok a h : a < W32 -> h <= 32 -> a mod 2 ^ h = 0 -> IP.cv_ok (IP.CNet (v4 a) h).
Proof.
  intros Ha Hh Hal. cbn [IP.cv_ok]. split; [clear -Hh; lia|].
  split; [apply v4_lt_top, Ha| apply v4_aligned; assumption].
Qed.

Lemma crange_ok a b h : a <= b -> b < W32 -> h <= 32 -> a mod 2 ^ h = 0 -> b mod 2 ^ h = 0 ->
  IP.cv_ok (IP.CRange (v4 a) (v4 b) h).
Proof.
  intros Hab Hb Hh Hala Halb. cbn [IP.cv_ok]. split; [clear -Hh; lia|].
  split; [apply N.add_le_mono_l, Hab|]. split; [apply v4_lt_top, Hb|].
  split; [apply v4_aligned; assumption|]. split; [apply v4_aligned; assumption|].
  unfold v4. clear -Hab. lia.
Qed.

(* FactoryParse() stores for a well-formed value exactly the triple C42 reasons about *)
Lemma ip_spec_cv t : iptok_ok t ->
  IP.tok_parsed (ip_spec t) /\ IP.tok_vals (ip_spec t) = map IP.cv_val (cv_of t) /\
  Forall IP.cv_ok (cv_of t).
Proof.
  assert (V : forall vals, IP.tok_parsed (tok_plain, IM.SV vals) /\ IP.tok_vals (tok_plain, IM.SV vals) = vals).
  { intros vals. split; [right; eexists; reflexivity| reflexivity]. }
  destruct t as [w|a|a n|a b|a b n]; cbn [iptok_ok ip_spec cv_of map]; intros H.
  - unfold IP.tok_parsed, IP.tok_vals. cbn [fst]. destruct (IM.parse_global w); [|contradiction].
    split; [left; discriminate| auto].
  - destruct (V [IM.IpVal (v4 a) 0 IM.ALL1]) as [V1 ->]. split; [exact V1|]. split; [reflexivity|].
    constructor; [|constructor]. apply cnet_ok; [exact H| discriminate| apply mod_pow2_0].
  - destruct H as (Ha & Hn & Hal). destruct (cidr_val a n Ha Hn Hal) as [Em Ev]. rewrite Em, Ev.
    destruct (V [IM.IpVal (v4 a) (IM.applyMask 0 (IP.pmask (32 - n))) (IP.pmask (32 - n))]) as [V1 ->].
    split; [exact V1|]. split; [unfold IM.applyMask; rewrite N.land_0_l; reflexivity|].
    constructor; [|constructor]. apply cnet_ok; [exact Ha| clear; lia| exact Hal].
  - destruct H as (Hab & Hb). destruct (V [IM.IpVal (v4 a) (v4 b) IM.ALL1]) as [V1 ->].
    split; [exact V1|]. split; [reflexivity|].
    constructor; [|constructor]. apply crange_ok; try assumption; [discriminate| apply mod_pow2_0..].
  - destruct H as (Hab & Hb & Hn & Hala & Halb). pose proof (N.le_lt_trans _ _ _ Hab Hb) as Ha.
    destruct (cidr_val a n Ha Hn Hala) as [Em Eva]. destruct (cidr_val b n Hb Hn Halb) as [_ Evb]. rewrite Em, Eva, Evb.
    destruct (V [IM.IpVal (v4 a) (v4 b) (IP.pmask (32 - n))]) as [V1 ->].
    split; [exact V1|]. split; [reflexivity|].
    constructor; [|constructor]. apply crange_ok; try assumption. clear; lia.
Qed.

Lemma net_in x a h : IP.cv_in (v4 x) (IP.CNet (v4 a) h) <-> a <= x <= a + (2 ^ h - 1).
Proof. unfold IP.cv_in, v4. cbn [IP.cv_lo IP.cv_hi]. lia. Qed.

Lemma range_in x a b h : IP.cv_in (v4 x) (IP.CRange (v4 a) (v4 b) h) <-> a <= x <= b + (2 ^ h - 1).
Proof. unfold IP.cv_in, v4. cbn [IP.cv_lo IP.cv_hi]. lia. Qed.

Lemma ip_in_cv x t :
  ip_in x t <-> (exists w g6, t = IWord w /\ IM.parse_global w = Some (true, g6)) \/
                (exists c, In c (cv_of t) /\ IP.cv_in (v4 x) c).
Proof.
  assert (S : forall c0, (forall w, t <> IWord w) ->
            ((exists w g6, t = IWord w /\ IM.parse_global w = Some (true, g6)) \/
             (exists c, In c [c0] /\ IP.cv_in (v4 x) c) <-> IP.cv_in (v4 x) c0)).
  { intros c0 NW. split; [|intros Hc; right; exists c0; split; [left; reflexivity| exact Hc]].
    intros [(w & _ & E & _)|(c & [<-|[]] & Hc)]; [destruct (NW w E)| exact Hc]. }
  destruct t as [w|a|a n|a b|a b n]; cbn [ip_in cv_of]; try rewrite S by discriminate.
  - split.
    + intros [g6 E]. left. exists w, g6. auto.
    + intros [(w' & g6 & E1 & E2)|(c & [] & _)]. inversion E1; subst. exists g6. exact E2.
  - rewrite net_in, N.pow_0_r. lia.
  - apply iff_sym, net_in.
  - rewrite range_in, N.pow_0_r. lia.
  - apply iff_sym, range_in.
Qed.

Definition cvs (ips : list iptok) : list IP.cval := flat_map cv_of ips.

Lemma ips_facts ips : Forall iptok_ok ips ->
  Forall IP.tok_parsed (map ip_spec ips) /\ IP.vals_of (map ip_spec ips) = map IP.cv_val (cvs ips) /\
  Forall IP.cv_ok (cvs ips) /\
  (IP.any4 (map ip_spec ips) = true <-> exists w g6, In (IWord w) ips /\ IM.parse_global w = Some (true, g6)).
Proof.
  induction ips as [|t ips IH]; intros H.
  - cbn. repeat split; try constructor; [discriminate| intros (w & g6 & [] & _)].
  - inversion H as [|? ? Ht Hr]; subst. destruct (IH Hr) as (I1 & I2 & I3 & I5).
    destruct (ip_spec_cv t Ht) as (S1 & S2 & S3).
    split; [constructor; assumption|]. split.
    { unfold IP.vals_of, cvs in *. cbn [map flat_map]. rewrite map_app, <- S2, <- I2. reflexivity. }
    split; [unfold cvs; cbn [flat_map]; apply Forall_app; auto|].
    unfold IP.any4 in *. cbn [map existsb]. rewrite Bool.orb_true_iff, I5. split.
    + intros [Hh|(w & g6 & Hin & E)]; [|exists w, g6; split; [right; exact Hin| exact E]].
      destruct t as [w|a|a n|a b|a b n]; cbn [ip_spec fst] in Hh; try (rewrite tok_plain_not_global in Hh; discriminate).
      destruct (IM.parse_global w) as [[g4 g6]|] eqn:E; [|discriminate]. subst g4. exists w, g6. split; [left; reflexivity| exact E].
    + intros (w & g6 & [->|Hin] & E); [left; cbn [ip_spec fst]; rewrite E; reflexivity| right; exists w, g6; auto].
Qed.

(* the invariant of an ACLIP object whose lines listed [ips] *)
Definition ip_inv (ips : list iptok) (f4 f6 : bool) (t : tree IM.ipval) : Prop :=
  f4 = IP.any4 (map ip_spec ips) /\ f6 = IP.any6 (map ip_spec ips) /\ IP.stored_ok (cvs ips) t.

Lemma ip_parse_inv ips f4 f6 t n : Forall iptok_ok ips ->
  IM.acl_parse_from false false (@Leaf _) 0%Z (map ip_spec ips) = IM.POk f4 f6 t n -> ip_inv ips f4 f6 t.
Proof.
  intros H E. destruct (ips_facts ips H) as (I1 & I2 & I3 & _).
  destruct (IP.acl_parse_ok _ _ I1 I2 I3) as (t' & n' & E' & St).
  unfold IM.acl_parse in E'. rewrite E in E'. inversion E'; subst. split; [reflexivity|]. split; [reflexivity| exact St].
Qed.

(* ACLIP::match(address): the invariant survives, the answer is membership in the union *)
Lemma ip_lookup ips f4 f6 t x : Forall iptok_ok ips -> ip_inv ips f4 f6 t -> x < W32 ->
  ip_inv ips f4 f6 (fst (IM.acl_match f4 f6 t (v4 x))) /\
  (snd (IM.acl_match f4 f6 t (v4 x)) = true <-> exists tk, In tk ips /\ ip_in x tk).
Proof.
  intros H (E4 & E6 & St) Hx. destruct (ips_facts ips H) as (I1 & I2 & I3 & I5).
  destruct (IP.acl_match_ok (cvs ips) t f4 f6 (v4 x) St (v4_lt_top x Hx)) as [St' Hm].
  split; [split; [exact E4|]; split; [exact E6| exact St']|].
  rewrite Hm. unfold IP.acl_spec. rewrite (v4_is_v4 x Hx). split.
  - intros [[F _]|[[F _]|[[_ F]|(c & Hc & Hin)]]]; try discriminate.
    1,2: rewrite E4 in F; apply I5 in F; destruct F as (w & g6 & Hw & E); exists (IWord w); split; [exact Hw| exists g6; exact E].
    unfold cvs in Hc. apply in_flat_map in Hc. destruct Hc as (tk & Htk & Hc). exists tk. split; [exact Htk|].
    apply ip_in_cv. right. exists c. auto.
  - intros (tk & Htk & Hin). apply ip_in_cv in Hin.
    destruct Hin as [(w & g6 & -> & E)|(c & Hc & Hin)].
    + right. left. split; [|reflexivity]. rewrite E4. apply I5. exists w, g6. auto.
    + right. right. right. exists c. split; [|exact Hin]. unfold cvs. apply in_flat_map. exists tk. auto.
Qed.

(* 3b. methods *)
Lemma meth_eq_iff a b : meth_eq a b = true <->
  m_id a = m_id b /\ (m_id a <> am_OTHER \/ m_image a = m_image b).
Proof.
  unfold meth_eq. rewrite Bool.andb_true_iff, Bool.orb_true_iff, Bool.negb_true_iff, N.eqb_eq, N.eqb_neq, list_eqb_iff.
  reflexivity.
Qed.
Lemma meth_eq_refl a : meth_eq a a = true.
Proof. apply meth_eq_iff. auto. Qed.
Lemma meth_eq_sym a b : meth_eq a b = true -> meth_eq b a = true.
Proof. rewrite !meth_eq_iff. intros [E [H|H]]; (split; [congruence|]); [left; congruence| right; congruence]. Qed.
Lemma meth_eq_trans a b c : meth_eq a b = true -> meth_eq b c = true -> meth_eq a c = true.
Proof.
  rewrite !meth_eq_iff. intros [E1 H1] [E2 H2]. split; [congruence|].
  destruct H1 as [H1|H1]; [left; exact H1|]. destruct H2 as [H2|H2]; [left; congruence| right; congruence].
Qed.

(* the values of an ACLMethodData whose lines listed [toks], up to the order the lookups impose *)
Definition meth_inv (toks : list bytes) (vs : list meth) : Prop :=
  forall m, (exists v, In v vs /\ meth_eq v m = true) <-> (exists tok, In tok toks /\ meth_eq (meth_parse_cfg tok) m = true).

Lemma meth_find_spec vs m : forall seen,
  match meth_find vs m seen with
  | Some vs' => exists r1 v r2, vs = r1 ++ v :: r2 /\ meth_eq v m = true /\ vs' = m :: rev seen ++ r1 ++ r2
  | None => forall v, In v vs -> meth_eq v m = false
  end.
Proof.
  induction vs as [|v r IH]; intros seen; cbn [meth_find]; [intros v []|].
  destruct (meth_eq v m) eqn:E.
  - exists [], v, r. auto.
  - specialize (IH (v :: seen)). destruct (meth_find r m (v :: seen)) as [vs'|].
    + destruct IH as (r1 & v' & r2 & -> & E' & ->). exists (v :: r1), v', r2. split; [reflexivity|]. split; [exact E'|].
      cbn [rev]. rewrite <- !app_assoc. reflexivity.
    + intros x [<-|Hx]; [exact E| exact (IH x Hx)].
Qed.

Lemma meth_lookup toks vs m : meth_inv toks vs ->
  match meth_find vs m [] with
  | Some vs' => meth_inv toks vs' /\ exists tok, In tok toks /\ meth_eq (meth_parse_cfg tok) m = true
  | None => ~ exists tok, In tok toks /\ meth_eq (meth_parse_cfg tok) m = true
  end.
Proof.
  intros Inv. pose proof (meth_find_spec vs m []) as S. destruct (meth_find vs m []) as [vs'|].
  - destruct S as (r1 & v & r2 & -> & E & ->). cbn [rev app]. split.
    + intros m'. rewrite <- (Inv m'). split.
      * intros (x & [<-|Hx] & Hm).
        -- exists v. split; [apply in_or_app; right; left; reflexivity| exact (meth_eq_trans _ _ _ E Hm)].
        -- exists x. split; [|exact Hm]. apply in_app_or in Hx. apply in_or_app. destruct Hx; [left|right; right]; assumption.
      * intros (x & Hx & Hm). apply in_app_or in Hx. destruct Hx as [Hx|[<-|Hx]].
        -- exists x. split; [right; apply in_or_app; left; exact Hx| exact Hm].
        -- exists m. split; [left; reflexivity| exact (meth_eq_trans _ _ _ (meth_eq_sym _ _ E) Hm)].
        -- exists x. split; [right; apply in_or_app; right; exact Hx| exact Hm].
    + apply Inv. exists v. split; [apply in_or_app; right; left; reflexivity| exact E].
  - intros H. apply Inv in H. destruct H as (v & Hv & Hm). rewrite (S v Hv) in Hm. discriminate.
Qed.

Lemma meth_parse_inv toks : meth_inv toks ([] ++ map meth_parse_cfg toks).
Proof.
  intros m. cbn [app]. split.
  - intros (v & Hv & Hm). apply in_map_iff in Hv. destruct Hv as (tok & <- & Ht). exists tok. auto.
  - intros (tok & Ht & Hm). exists (meth_parse_cfg tok). split; [apply in_map, Ht| exact Hm].
Qed.

(* a method value means what it says: reading it the way request lines are read gives the same method.
   (Before /repo ae7c270 this failed for proper prefixes of registered names: "GE" was GET, "p" was POST.) *)
Definition meth_tok_exact (tok : bytes) : Prop := meth_parse_cfg tok = meth_parse_req tok.

Lemma cfg_req_image_eq image tok : cfg_image_eq image tok = req_image_eq image tok.
Proof.
  unfold cfg_image_eq, req_image_eq. destruct (N.eqb_spec (lenN tok) (lenN image)) as [E|E]; [|reflexivity].
  rewrite E, takeN_all by apply N.le_refl. reflexivity.
Qed.

Lemma meth_scan_same tbl tok : meth_scan cfg_image_eq tbl tok = meth_scan req_image_eq tbl tok.
Proof.
  induction tbl as [|[id image] r IH]; cbn [meth_scan]; [reflexivity|]. rewrite cfg_req_image_eq, IH. reflexivity.
Qed.

Theorem meth_cfg_req_same tok : meth_tok_exact tok.
Proof. unfold meth_tok_exact, meth_parse_cfg, meth_parse_req, meth_parse. rewrite meth_scan_same. reflexivity. Qed.

(* 3c. dstdomain: C41 *)
Module DP := SquidV.AcldomProofs.
Module DM := SquidV.AcldomModel.

Definition rdns_name (e : env) (a : N) : bytes :=
  match assoc_n a (e_rev e) with Some nm => nm | None => s_none end.

(* checklist->dst_rdns, once set, is the reverse name of the numeric URL host *)
Definition rdns_ok (e : env) (rq : request) (rdns : option bytes) : Prop :=
  match rdns with
  | None => True
  | Some r => exists a, rq_hostip rq = Some a /\ assoc_n a (e_rev e) = Some r
  end.

(* what a dstdomain ACL is asked about: the URL host and, for numeric hosts, its reverse name *)
Definition dom_hit (e : env) (rq : request) (toks : list bytes) : Prop :=
  exists tok, In tok toks /\
    (DP.dom_match (DP.norm tok) (rq_host rq) \/
     exists a, rq_hostip rq = Some a /\ DP.dom_match (DP.norm tok) (rdns_name e a)).

Lemma dom_lookup e rq rdns toks t : Forall DP.nonempty toks -> DP.acl_holds toks t -> rdns_ok e rq rdns ->
  DP.acl_holds toks (fst (fst (dom_eval e rq rdns t))) /\
  rdns_ok e rq (snd (dom_eval e rq rdns t)) /\
  (snd (fst (dom_eval e rq rdns t)) = true <-> dom_hit e rq toks).
Proof.
  intros W Ht Hr. unfold dom_eval, dom_hit.
  destruct (DP.acl_match_correct toks t (rq_host rq) W Ht) as [Ht1 Hb1].
  destruct (DM.acl_match t (rq_host rq)) as [t1 b1]. cbn [fst snd] in Ht1, Hb1.
  destruct b1.
  - cbn [fst snd]. split; [exact Ht1|]. split; [exact Hr|]. split; [intros _|reflexivity].
    destruct (proj1 Hb1 eq_refl) as (tok & Hin & Hm). exists tok. auto.
  - assert (Hno : forall tok, In tok toks -> ~ DP.dom_match (DP.norm tok) (rq_host rq)).
    { intros tok Hin Hm. assert (false = true) by (apply Hb1; exists tok; auto). discriminate. }
    destruct (rq_hostip rq) as [a|] eqn:Eh.
    + assert (Hsecond : forall nm t2 b2, rdns_name e a = nm -> DM.acl_match t1 nm = (t2, b2) ->
                DP.acl_holds toks t2 /\ (b2 = true <-> exists tok, In tok toks /\
                  (DP.dom_match (DP.norm tok) (rq_host rq) \/ exists a0, Some a = Some a0 /\ DP.dom_match (DP.norm tok) (rdns_name e a0)))).
      { intros nm t2 b2 En Em. destruct (DP.acl_match_correct toks t1 nm W Ht1) as [Ht2 Hb2]. rewrite Em in Ht2, Hb2.
        cbn [fst snd] in Ht2, Hb2. split; [exact Ht2|]. rewrite Hb2. split.
        - intros (tok & Hin & Hm). exists tok. split; [exact Hin|]. right. exists a. rewrite En. auto.
        - intros (tok & Hin & [Hm|(a0 & Ea & Hm)]); [destruct (Hno tok Hin Hm)|]. inversion Ea; subst a0. exists tok. rewrite <- En. auto. }
      destruct rdns as [r|].
      * destruct Hr as (a' & Ea' & Er). rewrite Eh in Ea'. inversion Ea'; subst a'.
        destruct (DM.acl_match t1 r) as [t2 b2] eqn:Em. cbn [fst snd].
        destruct (Hsecond r t2 b2 ltac:(unfold rdns_name; rewrite Er; reflexivity) Em) as [H1 H2].
        split; [exact H1|]. split; [exists a; auto| exact H2].
      * destruct (assoc_n a (e_rev e)) as [nm|] eqn:Er.
        -- destruct (DM.acl_match t1 nm) as [t2 b2] eqn:Em. cbn [fst snd].
           destruct (Hsecond nm t2 b2 ltac:(unfold rdns_name; rewrite Er; reflexivity) Em) as [H1 H2].
           split; [exact H1|]. split; [exists a; auto| exact H2].
        -- destruct (DM.acl_match t1 s_none) as [t2 b2] eqn:Em. cbn [fst snd].
           destruct (Hsecond s_none t2 b2 ltac:(unfold rdns_name; rewrite Er; reflexivity) Em) as [H1 H2].
           split; [exact H1|]. split; [exact I| exact H2].
    + cbn [fst snd]. split; [exact Ht1|]. split; [exact Hr|]. split; [discriminate|].
      intros (tok & Hin & [Hm|(a0 & Ea & _)]); [destruct (Hno tok Hin Hm)| discriminate].
Qed.

(* 3d. dst: the resolved addresses of the URL host *)
Lemma dst_lookup ips f4 f6 : Forall iptok_ok ips -> forall addrs t, ip_inv ips f4 f6 t -> Forall (fun a => a < W32) addrs ->
  ip_inv ips f4 f6 (fst (dst_loop f4 f6 t addrs)) /\
  (snd (dst_loop f4 f6 t addrs) = true <-> exists a tk, In a addrs /\ In tk ips /\ ip_in a tk).
Proof.
  intros H. induction addrs as [|a r IH]; intros t Inv Hr; cbn [dst_loop].
  - cbn [fst snd]. split; [exact Inv|]. split; [discriminate| intros (a & tk & [] & _)].
  - inversion Hr as [|? ? Ha Hr']; subst. destruct (ip_lookup ips f4 f6 t a H Inv Ha) as [Inv1 Hm].
    destruct (IM.acl_match f4 f6 t (v4 a)) as [t1 b]. cbn [fst snd] in Inv1, Hm. destruct b.
    + cbn [fst snd]. split; [exact Inv1|]. split; [intros _|reflexivity].
      destruct (proj1 Hm eq_refl) as (tk & Hin & Hi). exists a, tk. split; [left; reflexivity| auto].
    + destruct (IH t1 Inv1 Hr') as [Inv2 Hm2]. split; [exact Inv2|]. rewrite Hm2. split.
      * intros (a' & tk & Hin & Htk & Hi). exists a', tk. split; [right; exact Hin| auto].
      * intros (a' & tk & [<-|Hin] & Htk & Hi); [|exists a', tk; auto].
        assert (false = true) by (apply Hm; exists tk; auto). discriminate.
Qed.

(* 4. the reference evaluation and the walk *)

(* ---- well-formed lines (the quantifier of the property) ---- *)
Definition line_ok (l : line) : Prop :=
  match l with
  | LAcl _ (TSrc | TDst) ips _ => Forall iptok_ok ips
  | LAcl _ TDom _ txt => Forall DP.nonempty txt
  | LAcl _ TPort _ txt => Forall (fun t => clean t = true) txt
  | LAcl _ TMeth _ _ => True
  | LAccess _ _ => True
  end.

Lemma toks_ok cfg name ty : typed cfg -> Forall line_ok cfg -> acl_type cfg name = Some ty ->
  match ty with
  | TSrc | TDst => Forall iptok_ok (acl_ips cfg name)
  | TDom => Forall DP.nonempty (acl_txt cfg name)
  | TPort => forallb clean (acl_txt cfg name) = true
  | TMeth => True
  end.
Proof.
  intros HT HW Hty. rewrite Forall_forall in HW.
  assert (Hl : forall n ty' ips txt, In (LAcl n ty' ips txt) cfg -> list_eqb n name = true -> ty' = ty).
  { intros n ty' ips txt Hin E. apply list_eqb_iff in E. subst n. pose proof (HT _ _ _ _ Hin). congruence. }
  assert (Hfb : forall l, Forall (fun t => clean t = true) l -> forallb clean l = true).
  { intros l F. apply forallb_forall. rewrite Forall_forall in F. exact F. }
  destruct ty; [| |  |apply Hfb|exact I]; unfold acl_ips, acl_txt; apply Forall_flat_map, Forall_forall; intros l Hin;
    pose proof (HW l Hin) as Hok; destruct l as [n ty' ips txt|? ?]; cbn [line_ips line_txt]; try constructor;
    destruct (list_eqb n name) eqn:E; try constructor; pose proof (Hl _ _ _ _ Hin E) as ->; exact Hok.
Qed.

(* ---- the reference: set semantics of one named ACL ---- *)
Definition ref_acl (cfg : list line) (e : env) (rq : request) (name : bytes) : Prop :=
  match acl_type cfg name with
  | Some TSrc => exists tk, In tk (acl_ips cfg name) /\ ip_in (rq_client rq) tk
  | Some TDst => exists a tk, In a (resolve e rq) /\ In tk (acl_ips cfg name) /\ ip_in a tk
  | Some TDom => dom_hit e rq (acl_txt cfg name)
  | Some TPort => exists t lo hi, In t (acl_txt cfg name) /\ tok_range t = Some (lo, hi) /\ (lo <= rq_port rq <= hi)%Z
  | Some TMeth => exists tok, In tok (acl_txt cfg name) /\
                    meth_eq (meth_parse_req tok) (meth_parse_req (rq_method rq)) = true
  | None => False
  end.

Definition req_ok (e : env) (rq : request) : Prop :=
  rq_client rq < W32 /\ Forall (fun a => a < W32) (resolve e rq) /\ (0 <= rq_port rq <= 65535)%Z.

(* ---- the invariant of an ACL object ---- *)
Definition data_inv (cfg : list line) (name : bytes) (ty : atype) (d : adata) : Prop :=
  match ty, d with
  | (TSrc | TDst), DIp f4 f6 t _ => ip_inv (acl_ips cfg name) f4 f6 t
  | TDom, DDom t _ => DP.acl_holds (acl_txt cfg name) t
  | TPort, DPort rs => fst (ir_parse (acl_txt cfg name) [] false) = Some rs
  | TMeth, DMeth vs => meth_inv (acl_txt cfg name) vs
  | _, _ => False
  end.

Lemma parsed_data_inv cfg name a : typed cfg -> Forall line_ok cfg -> acl_parsed cfg name a ->
  data_inv cfg name (a_type a) (a_data a).
Proof.
  intros HT HW (_ & Hty & Hp). pose proof (toks_ok cfg name (a_type a) HT HW Hty) as Hok.
  destruct (a_type a); cbn [empty_data parse_into] in Hp.
  1,2: destruct (IM.acl_parse_from false false Leaf 0%Z (map ip_spec (acl_ips cfg name))) as [f4 f6 t n| | |] eqn:E; try discriminate;
       inversion Hp; cbn [data_inv]; exact (ip_parse_inv _ _ _ _ _ Hok E).
  - destruct (DM.acl_parse_from Leaf 0%Z (acl_txt cfg name)) as [t n| | |] eqn:E; try discriminate. inversion Hp. cbn [data_inv].
    destruct (DP.acl_parse_ok _ Hok) as (t' & n' & E' & Hh). unfold DM.acl_parse in E'. rewrite E in E'. inversion E'; subst. exact Hh.
  - cbn [rev] in Hp. destruct (ir_parse (acl_txt cfg name) [] false) as [[rs|] u] eqn:E; try discriminate. inversion Hp.
    cbn [data_inv]. rewrite E. reflexivity.
  - inversion Hp. cbn [data_inv]. apply meth_parse_inv.
Qed.

(* ---- one literal ---- *)
Lemma leaf_ok cfg e rq rdns name a : typed cfg -> Forall line_ok cfg -> req_ok e rq -> rdns_ok e rq rdns ->
  acl_type cfg name = Some (a_type a) -> data_inv cfg name (a_type a) (a_data a) ->
  data_inv cfg name (a_type a) (snd (fst (leaf_eval e rq rdns a))) /\
  rdns_ok e rq (snd (leaf_eval e rq rdns a)) /\
  (fst (fst (leaf_eval e rq rdns a)) = true <-> ref_acl cfg e rq name).
Proof.
  intros HT HW (Hc & Hres & Hport) Hr Hty Hd. pose proof (toks_ok cfg name (a_type a) HT HW Hty) as Hok.
  unfold leaf_eval, ref_acl. rewrite Hty.
  destruct (a_type a); destruct (a_data a) as [f4 f6 t n|t n|rs|vs]; cbn [data_inv] in Hd; try contradiction.
  - destruct (ip_lookup _ f4 f6 t (rq_client rq) Hok Hd Hc) as [I M].
    destruct (IM.acl_match f4 f6 t (v4 (rq_client rq))) as [t' b]. cbn [fst snd data_inv] in *. auto.
  - destruct (dst_lookup _ f4 f6 Hok (resolve e rq) t Hd Hres) as [I M].
    destruct (dst_loop f4 f6 t (resolve e rq)) as [t' b]. cbn [fst snd data_inv] in *. auto.
  - destruct (dom_lookup e rq rdns _ t Hok Hd Hr) as (I & R & M).
    destruct (dom_eval e rq rdns t) as [[t' b] rdns']. cbn [fst snd data_inv] in *. auto.
  - cbn [fst snd data_inv]. split; [exact Hd|]. split; [exact Hr|].
    apply (intrange_match_iff _ rs (rq_port rq) Hok Hd). unfold two31, int_max. lia.
  - pose proof (meth_lookup _ vs (meth_parse_req (rq_method rq)) Hd) as L.
    assert (Hex : (exists tok, In tok (acl_txt cfg name) /\ meth_eq (meth_parse_cfg tok) (meth_parse_req (rq_method rq)) = true) <->
                  (exists tok, In tok (acl_txt cfg name) /\ meth_eq (meth_parse_req tok) (meth_parse_req (rq_method rq)) = true)).
    { split; intros (tok & Hin & Hm); exists tok; (split; [exact Hin|]);
        [rewrite <- (meth_cfg_req_same tok)| rewrite (meth_cfg_req_same tok)]; exact Hm. }
    destruct (meth_find vs (meth_parse_req (rq_method rq)) []) as [vs'|]; cbn [fst snd data_inv].
    + destruct L as [I X]. split; [exact I|]. split; [exact Hr|]. split; [intros _; apply Hex, X| reflexivity].
    + split; [exact Hd|]. split; [exact Hr|]. split; [discriminate|]. intros X. apply Hex in X. contradiction.
Qed.

(* ---- the walk ---- *)
Definition acls_inv (cfg : list line) (acls : list aclobj) : Prop :=
  forall name, match find_acl name acls with
               | Some a => acl_type cfg name = Some (a_type a) /\ data_inv cfg name (a_type a) (a_data a)
               | None => True
               end.

(* a literal holds: the ACL matches, or does not when preceded by '!' *)
Definition term_holds (cfg : list line) (e : env) (rq : request) (t : bool * bytes) : Prop :=
  if fst t then ~ ref_acl cfg e rq (snd t) else ref_acl cfg e rq (snd t).
(* a rule applies when all its literals hold *)
Definition rule_holds (cfg : list line) (e : env) (rq : request) (terms : list (bool * bytes)) : Prop :=
  Forall (term_holds cfg e rq) terms.

Lemma term_holds_xorb cfg e rq neg name b :
  (b = true <-> ref_acl cfg e rq name) -> (xorb neg b = true <-> term_holds cfg e rq (neg, name)).
Proof.
  unfold term_holds. cbn [fst snd]. destruct neg, b; cbn [xorb]; intuition congruence.
Qed.

Definition same_names (acls acls' : list aclobj) : Prop :=
  forall n, find_acl n acls' = None <-> find_acl n acls = None.

Lemma and_walk_ok cfg e rq : typed cfg -> Forall line_ok cfg -> req_ok e rq ->
  forall terms acls rdns, acls_inv cfg acls -> rdns_ok e rq rdns ->
  (forall t, In t terms -> find_acl (snd t) acls <> None) ->
  acls_inv cfg (snd (fst (and_walk e rq acls rdns terms))) /\
  rdns_ok e rq (snd (and_walk e rq acls rdns terms)) /\
  same_names acls (snd (fst (and_walk e rq acls rdns terms))) /\
  (fst (fst (and_walk e rq acls rdns terms)) = true <-> rule_holds cfg e rq terms).
Proof.
  intros HT HW HQ. induction terms as [|[neg name] terms IH]; intros acls rdns Inv Hr Hex; cbn [and_walk].
  - cbn [fst snd]. split; [exact Inv|]. split; [exact Hr|]. split; [intros n; reflexivity|]. split; [constructor| reflexivity].
  - pose proof (Hex (neg, name) ltac:(left; reflexivity)) as Hn. cbn [snd] in Hn.
    pose proof (Inv name) as Ia. destruct (find_acl name acls) as [a|] eqn:Ef; [|contradiction]. destruct Ia as [Hty Hd].
    destruct (leaf_ok cfg e rq rdns name a HT HW HQ Hr Hty Hd) as (Hd' & Hr' & Hb).
    destruct (leaf_eval e rq rdns a) as [[b d] rdns']. cbn [fst snd] in Hd', Hr', Hb.
    assert (Inv' : acls_inv cfg (set_data name d acls)).
    { intros n. rewrite find_set. destruct (list_eqb n name) eqn:E.
      - apply list_eqb_iff in E. subst n. rewrite Ef. cbn [a_type a_data]. auto.
      - apply Inv. }
    assert (Same : same_names acls (set_data name d acls)).
    { intros n. rewrite find_set. destruct (list_eqb n name) eqn:E; [|reflexivity].
      apply list_eqb_iff in E. subst n. rewrite Ef. split; discriminate. }
    pose proof (term_holds_xorb cfg e rq neg name b Hb) as Hterm.
    destruct (xorb neg b) eqn:Ex.
    + assert (Hex' : forall t, In t terms -> find_acl (snd t) (set_data name d acls) <> None).
      { intros t Ht X. apply Same in X. exact (Hex t (or_intror Ht) X). }
      destruct (IH (set_data name d acls) rdns' Inv' Hr' Hex') as (I2 & R2 & S2 & B2).
      split; [exact I2|]. split; [exact R2|]. split.
      * intros n. exact (iff_trans (S2 n) (Same n)).
      * rewrite B2. unfold rule_holds. split; [intros F; constructor; [apply Hterm; reflexivity| exact F]| intros F; inversion F; assumption].
    + cbn [fst snd]. split; [exact Inv'|]. split; [exact Hr'|]. split; [exact Same|]. split; [discriminate|].
      intros F. inversion F as [|? ? F1 _]; subst. apply Hterm in F1. discriminate.
Qed.

(* first match: "allow" of the first rule that applies, or the default when none applies *)
Fixpoint fm_allows (holds : list (bool * bytes) -> Prop) (rules : list rule) (dflt : bool) : Prop :=
  match rules with
  | [] => dflt = true
  | (allow, terms) :: r => (holds terms /\ allow = true) \/ (~ holds terms /\ fm_allows holds r dflt)
  end.

Lemma or_walk_ok cfg e rq : typed cfg -> Forall line_ok cfg -> req_ok e rq ->
  forall rules acls rdns, acls_inv cfg acls -> rdns_ok e rq rdns ->
  (forall r t, In r rules -> In t (snd r) -> find_acl (snd t) acls <> None) ->
  acls_inv cfg (snd (or_walk e rq acls rdns rules)) /\
  same_names acls (snd (or_walk e rq acls rdns rules)) /\
  forall dflt, (match fst (or_walk e rq acls rdns rules) with Some al => al = true | None => dflt = true end)
               <-> fm_allows (rule_holds cfg e rq) rules dflt.
Proof.
  intros HT HW HQ. induction rules as [|[allow terms] rules IH]; intros acls rdns Inv Hr Hex; cbn [or_walk].
  - cbn [fst snd fm_allows]. split; [exact Inv|]. split; [intros n; reflexivity|]. intros dflt. reflexivity.
  - destruct (and_walk_ok cfg e rq HT HW HQ terms acls rdns Inv Hr
                (fun t Ht => Hex (allow, terms) t (or_introl eq_refl) Ht)) as (I1 & R1 & S1 & B1).
    destruct (and_walk e rq acls rdns terms) as [[b acls1] rdns1]. cbn [fst snd] in I1, R1, S1, B1.
    destruct b.
    + cbn [fst snd fm_allows]. split; [exact I1|]. split; [exact S1|]. intros dflt.
      pose proof (proj1 B1 eq_refl) as Hh. split; [intros ->; left; auto| intros [[_ E]|[N _]]; [exact E| contradiction]].
    + assert (Hex' : forall r t, In r rules -> In t (snd r) -> find_acl (snd t) acls1 <> None).
      { intros r t Hr' Ht X. apply S1 in X. exact (Hex r t (or_intror Hr') Ht X). }
      destruct (IH acls1 rdns1 I1 R1 Hex') as (I2 & S2 & B2).
      split; [exact I2|]. split; [intros n; exact (iff_trans (S2 n) (S1 n))|]. intros dflt. rewrite B2. cbn [fm_allows].
      assert (Nh : ~ rule_holds cfg e rq terms) by (intros X; apply B1 in X; discriminate).
      split; [intros F; right; auto| intros [[X _]|[_ F]]; [contradiction| exact F]].
Qed.

(* the reference decision for a request *)
Definition ref_allows (cfg : list line) (e : env) (rq : request) : Prop :=
  fm_allows (rule_holds (full cfg) e rq) (ref_rules (full cfg))
            (negb (fst (last (ref_rules (full cfg)) (true, [])))).     (* no rule applies: reverse of the last action *)

Definition st_inv (cfg : list line) (s : cstate) : Prop :=
  acls_inv (full cfg) (c_acls s) /\ c_rules s = ref_rules (full cfg) /\
  (forall r t, In r (c_rules s) -> In t (snd r) -> find_acl (snd t) (c_acls s) <> None).

Lemma last_hd_rev {A} (l : list A) d : last l d = hd d (rev l).
Proof.
  rewrite <- (rev_involutive l) at 1. destruct (rev l) as [|x r]; [reflexivity|]. cbn [rev hd]. apply last_last.
Qed.

Lemma check_ok cfg e s rq : typed (full cfg) -> Forall line_ok (full cfg) -> req_ok e rq -> st_inv cfg s ->
  st_inv cfg (snd (check e s rq)) /\
  (access_done (fst (check e s rq)) = OForward <-> ref_allows cfg e rq).
Proof.
  intros HT HW HQ (Inv & HR & Hex). unfold check.
  destruct (or_walk_ok (full cfg) e rq HT HW HQ (c_rules s) (c_acls s) None Inv I Hex) as (I1 & S1 & B1).
  destruct (or_walk e rq (c_acls s) None (c_rules s)) as [w acls']. cbn [fst snd] in *.
  split.
  - split; [exact I1|]. split; [exact HR|]. cbn [c_rules c_acls]. intros r t Hr Ht X. apply S1 in X. exact (Hex r t Hr Ht X).
  - unfold ref_allows. rewrite <- HR, <- B1. destruct w as [[|]|]; cbn [access_done].
    + split; reflexivity.
    + split; discriminate.
    + rewrite last_hd_rev. destruct (rev (c_rules s)) as [|[[|] ts] r]; cbn; split; (reflexivity || discriminate).
Qed.

Lemma serve_ok cfg e : typed (full cfg) -> Forall line_ok (full cfg) ->
  forall reqs s, st_inv cfg s -> Forall (req_ok e) reqs ->
  Forall2 (fun rq o => o = OForward <-> ref_allows cfg e rq) reqs (serve e s reqs).
Proof.
  intros HT HW. induction reqs as [|rq reqs IH]; intros s Inv HQ; cbn [serve]; [constructor|].
  inversion HQ as [|? ? Q1 QR]; subst. destruct (check_ok cfg e s rq HT HW Q1 Inv) as [Inv' Hv].
  destruct (check e s rq) as [v s']. cbn [fst snd] in *. constructor; [exact Hv| exact (IH s' Inv' QR)].
Qed.

Lemma full_ok cfg : Forall line_ok cfg -> Forall line_ok (full cfg).
Proof. intros H. constructor; [|exact H]. cbn. constructor; [|constructor]. cbn. discriminate. Qed.

Lemma cfg_parse_inv cfg s : Forall line_ok cfg -> cfg_parse cfg = Some s -> st_inv cfg s.
Proof.
  intros HW H. pose proof (cfg_parse_typed cfg s H) as HT. destruct (cfg_parse_parsed cfg s H) as (PA & PR & PN).
  pose proof (full_ok cfg HW) as HW'.
  split; [|split; assumption].
  intros name. specialize (PA name). destruct (find_acl name (c_acls s)) as [a|]; [|exact I].
  split; [apply PA| exact (parsed_data_inv _ _ _ HT HW' PA)].
Qed.

Theorem access_correct cfg e reqs outs :
  Forall line_ok cfg -> Forall (req_ok e) reqs -> access_run cfg e reqs = Some outs ->
  Forall2 (fun rq o => (o = OForward <-> ref_allows cfg e rq) /\ (o = ODeny403 <-> ~ ref_allows cfg e rq)) reqs outs.
Proof.
  intros HW HQ H. unfold access_run in H. destruct (cfg_parse cfg) as [s|] eqn:E; [|discriminate]. inversion H; subst outs.
  pose proof (cfg_parse_typed cfg s E) as HT.
  pose proof (full_ok cfg HW) as HW'.
  pose proof (serve_ok cfg e HT HW' reqs s (cfg_parse_inv cfg s HW E) HQ) as F.
  clear -F. induction F as [|rq o reqs outs Ho F IH]; constructor; [|exact IH].
  split; [exact Ho|]. destruct o; split.
  - discriminate.
  - intros N. exfalso. apply N, Ho. reflexivity.
  - intros _ X. apply Ho in X. discriminate.
  - reflexivity.
Qed.

(* ---- no http_access line that names an ACL: everything is denied ---- *)
Lemma all_always_matches cfg e rq : ref_acl (full cfg) e rq s_all.
Proof.
  unfold ref_acl, full, predefined. cbn [app acl_type]. rewrite list_eqb_refl.
  exists (IWord s_all). split; [|exists true; reflexivity].
  unfold acl_ips. cbn [flat_map line_ips]. rewrite list_eqb_refl. left. reflexivity.
Qed.

Theorem no_rules_deny cfg e rq : raw_rules cfg = [] -> ~ ref_allows cfg e rq.
Proof.
  intros H. unfold ref_allows, ref_rules, full. rewrite raw_rules_app, H. cbn [predefined raw_rules flat_map line_rule app fm_allows].
  intros [[_ E]|[N _]]; [discriminate|]. apply N. constructor; [|constructor]. unfold term_holds. cbn [fst snd].
  apply (all_always_matches cfg e rq).
Qed.

(* 5. the former defect (repaired by /repo ae7c270): a method value that is a proper prefix of a
      registered method name was read as that method *)
Definition b_m : bytes := [109].                     (* "m" *)
Definition b_GE : bytes := [71; 69].                 (* "GE" *)
Definition b_GET : bytes := [71; 69; 84].            (* "GET" *)
(* acl m method GE / http_access deny m / http_access allow all *)
Definition wit_cfg : list line :=
  [LAcl b_m TMeth [] [b_GE]; LAccess false [(false, b_m)]; LAccess true [(false, s_all)]].
(* from 127.0.0.3: <method> http://127.0.0.1:80/ *)
Definition wit_req (m : bytes) : request := mkReq 2130706435 m [49; 50; 55; 46; 48; 46; 48; 46; 49] (Some 2130706433) 80%Z.
Definition wit_env : env := mkEnv [] [].

(* the former witness now behaves as the access list says: GE is denied, GET is forwarded; "GE", "g" and "p"
   are extension methods, "get" is GET *)
Theorem former_prefix_witness_repaired :
  access_run wit_cfg wit_env [wit_req b_GE; wit_req b_GET] = Some [ODeny403; OForward] /\
  meth_parse_cfg b_GE = mkMeth am_OTHER b_GE /\ meth_parse_cfg [103] = mkMeth am_OTHER [103] /\
  meth_parse_cfg [112] = mkMeth am_OTHER [112] /\ meth_parse_cfg [103; 101; 116] = meth_parse_req b_GET.
Proof. repeat split; vm_compute; reflexivity. Qed.

(* a well-formed example: acl a src 127.0.0.0/30 127.0.0.9; acl d dstdomain .verif.test; acl p port 80 8000-8080;
   acl g method get POST; http_access deny !a g; http_access allow d p *)
Definition ex_a : bytes := [97].
Definition ex_d : bytes := [100].
Definition ex_p : bytes := [112].
Definition ex_g : bytes := [103].
Definition ex_dom : bytes := [46; 118; 101; 114; 105; 102; 46; 116; 101; 115; 116].           (* .verif.test *)
Definition ex_host : bytes := [97; 46; 118; 101; 114; 105; 102; 46; 116; 101; 115; 116].      (* a.verif.test *)
Definition ex_cfg : list line :=
  [LAcl ex_a TSrc [ICidr 2130706432 30; ISingle 2130706441] [];
   LAcl ex_d TDom [] [ex_dom];
   LAcl ex_p TPort [] [[56; 48]; [56; 48; 48; 48; 45; 56; 48; 56; 48]];
   LAcl ex_g TMeth [] [[103; 101; 116]; [80; 79; 83; 84]];
   LAccess false [(true, ex_a); (false, ex_g)];
   LAccess true [(false, ex_d); (false, ex_p)]].
Definition ex_env : env := mkEnv [(ex_host, 2130706433)] [(2130706433, ex_host)].
Definition ex_req (c : N) (m : bytes) (port : Z) : request := mkReq c m ex_host None port.

Lemma ex_cfg_ok : Forall line_ok ex_cfg.
Proof.
  repeat (apply Forall_cons); try apply Forall_nil; cbn [line_ok]; try exact I;
    repeat (apply Forall_cons); try apply Forall_nil; cbn [iptok_ok]; try reflexivity; try discriminate.
  all: try (split; [reflexivity|]; split; [split; discriminate| reflexivity]).
Qed.
Lemma ex_reqs_ok : Forall (req_ok ex_env)
  [ex_req 2130706434 b_GET 80; ex_req 2130706437 b_GET 80; ex_req 2130706437 [72; 69; 65; 68] 8001; ex_req 2130706441 [80; 79; 83; 84] 9000].
Proof.
  repeat (apply Forall_cons); try apply Forall_nil; (split; [reflexivity|]; split;
    [cbn; repeat constructor| split; discriminate]).
Qed.
Lemma ex_run : access_run ex_cfg ex_env
  [ex_req 2130706434 b_GET 80; ex_req 2130706437 b_GET 80; ex_req 2130706437 [72; 69; 65; 68] 8001; ex_req 2130706441 [80; 79; 83; 84] 9000]
  = Some [OForward; ODeny403; OForward; ODeny403].
Proof. vm_compute. reflexivity. Qed.

(* 6. composition with C44: the ACLChecklist machine on the same tree *)
Module TM := SquidV.AcltreeModel.
Module TP := SquidV.AcltreeProofs.

(* The Acl::Tree of the rule list. Every literal occurrence k (counted from 1 over the whole list) becomes
   its own scripted leaf 3k, so that it may go asynchronous on its own; '!' is the NotNode 3k+1 above it;
   a rule is the AndNode 3k+2 of its first literal; the tree itself is node 0. *)
Fixpoint num_terms (k : N) (terms : list (bool * bytes)) : list TM.node :=
  match terms with
  | [] => []
  | (neg, _) :: r =>
      (if neg then TM.Inner (3 * k + 1) TM.KNot [TM.Leaf (3 * k)] else TM.Leaf (3 * k)) :: num_terms (k + 1) r
  end.
Fixpoint num_rules (k : N) (rules : list rule) : list TM.node :=
  match rules with
  | [] => []
  | (_, ts) :: r => TM.Inner (3 * k + 2) TM.KAnd (num_terms k ts) :: num_rules (k + lenN ts) r
  end.
Definition act_of (r : rule) : TM.answer := TM.action (if fst r then TM.Allowed else TM.Denied) 0.
Definition tree_of (rules : list rule) : TM.tree := TM.mkTree 0 (num_rules 1 rules) (map act_of rules).

(* what the literal answers in the state s (a fresh checklist: no cached reverse name) *)
Definition lit_truth (e : env) (s : cstate) (rq : request) (name : bytes) : bool :=
  match find_acl name (c_acls s) with
  | Some a => fst (fst (leaf_eval e rq None a))
  | None => false
  end.

(* the scripts: leaf 3k answers lit_truth after [sched (3k)] lookups that really go asynchronous *)
Fixpoint scr_terms (e : env) (s : cstate) (rq : request) (sched : N -> nat) (k : N) (terms : list (bool * bytes))
  : list (N * TM.lscript) :=
  match terms with
  | [] => []
  | (_, name) :: r =>
      (3 * k, TM.mkScript (lit_truth e s rq name) false (repeat TM.Real (sched (3 * k)))) :: scr_terms e s rq sched (k + 1) r
  end.
Fixpoint scr_rules (e : env) (s : cstate) (rq : request) (sched : N -> nat) (k : N) (rules : list rule)
  : list (N * TM.lscript) :=
  match rules with
  | [] => []
  | (_, ts) :: r => scr_terms e s rq sched k ts ++ scr_rules e s rq sched (k + lenN ts) r
  end.
Definition scripts_of (e : env) (s : cstate) (rq : request) (sched : N -> nat) : list (N * TM.lscript) :=
  scr_rules e s rq sched 1 (c_rules s).

(* ---- leaf ids are distinct ---- *)
Lemma term_leaf_ids k (neg : bool) :
  TM.leaf_ids (if neg then TM.Inner (3 * k + 1) TM.KNot [TM.Leaf (3 * k)] else TM.Leaf (3 * k)) = [3 * k].
Proof. destruct neg; reflexivity. Qed.

Lemma terms_ids_bounds terms : forall k x,
  In x (flat_map TM.leaf_ids (num_terms k terms)) -> 3 * k <= x < 3 * (k + lenN terms).
Proof.
  induction terms as [|[neg name] r IH]; intros k x; cbn [num_terms flat_map lenN]; [intros []|].
  rewrite term_leaf_ids. intros [<-|H]; [lia|]. apply IH in H. lia.
Qed.
Lemma rules_ids_lower rules : forall k x, In x (flat_map TM.leaf_ids (num_rules k rules)) -> 3 * k <= x.
Proof.
  induction rules as [|[al ts] r IH]; intros k x; cbn [num_rules flat_map TM.leaf_ids]; [intros []|].
  intros H. apply in_app_or in H. destruct H as [H|H]; [apply terms_ids_bounds in H; lia| apply IH in H; lia].
Qed.
Lemma NoDup_app' {A} (a b : list A) : NoDup a -> NoDup b -> (forall x, In x a -> In x b -> False) -> NoDup (a ++ b).
Proof.
  induction a as [|x a IH]; intros Ha Hb Hd; cbn [app]; [exact Hb|].
  inversion Ha as [|? ? Hx Ha']; subst. constructor.
  - intros H. apply in_app_or in H. destruct H as [H|H]; [contradiction| exact (Hd x (or_introl eq_refl) H)].
  - apply IH; [exact Ha'| exact Hb|]. intros y Hy1 Hy2. exact (Hd y (or_intror Hy1) Hy2).
Qed.
Lemma terms_ids_nodup terms : forall k, NoDup (flat_map TM.leaf_ids (num_terms k terms)).
Proof.
  induction terms as [|[neg name] r IH]; intros k; cbn [num_terms flat_map]; [constructor|].
  rewrite term_leaf_ids. constructor; [|apply IH]. intros H. apply terms_ids_bounds in H. lia.
Qed.
Lemma rules_ids_nodup rules : forall k, NoDup (flat_map TM.leaf_ids (num_rules k rules)).
Proof.
  induction rules as [|[al ts] r IH]; intros k; cbn [num_rules flat_map TM.leaf_ids]; [constructor|].
  apply NoDup_app'; [apply terms_ids_nodup| apply IH|].
  intros x H1 H2. apply terms_ids_bounds in H1. apply rules_ids_lower in H2. lia.
Qed.

(* ---- the table ---- *)
Lemma lookup_skip A : forall B i, (forall p, In p A -> fst p <> i) ->
  TM.lookup_script (A ++ B) i = TM.lookup_script B i.
Proof.
  induction A as [|[j sc] A IH]; intros B i H; cbn [app TM.lookup_script]; [reflexivity|].
  destruct (N.eqb_spec j i) as [E|E]; [exfalso; exact (H (j, sc) (or_introl eq_refl) E)|].
  apply IH. intros p Hp. exact (H p (or_intror Hp)).
Qed.

Lemma scr_terms_keys e s rq sched terms : forall k p, In p (scr_terms e s rq sched k terms) ->
  3 * k <= fst p < 3 * (k + lenN terms).
Proof.
  induction terms as [|[neg name] r IH]; intros k p; cbn [scr_terms lenN In]; [intros []|].
  intros [<-|H]; [cbn [fst]; lia|]. apply IH in H. lia.
Qed.

Lemma all_real_lookup tbl : Forall (fun p => forallb TM.is_real (TM.attempts (snd p)) = true) tbl ->
  forall i, forallb TM.is_real (TM.attempts (TM.lookup_script tbl i)) = true.
Proof.
  induction tbl as [|[j sc] r IH]; intros H i; cbn [TM.lookup_script]; [reflexivity|].
  inversion H as [|? ? H1 H2]; subst. destruct (j =? i); [exact H1| exact (IH H2 i)].
Qed.
Lemma repeat_real n : forallb TM.is_real (repeat TM.Real n) = true.
Proof. induction n as [|n IH]; [reflexivity| exact IH]. Qed.
Lemma scr_terms_real e s rq sched terms : forall k,
  Forall (fun p => forallb TM.is_real (TM.attempts (snd p)) = true) (scr_terms e s rq sched k terms).
Proof.
  induction terms as [|[neg name] r IH]; intros k; cbn [scr_terms]; constructor; [apply repeat_real| apply IH].
Qed.
Lemma scr_rules_real e s rq sched rules : forall k,
  Forall (fun p => forallb TM.is_real (TM.attempts (snd p)) = true) (scr_rules e s rq sched k rules).
Proof.
  induction rules as [|[al ts] r IH]; intros k; cbn [scr_rules]; [constructor|].
  apply Forall_app. split; [apply scr_terms_real| apply IH].
Qed.

(* ---- evaluation of the numbered tree under the table's truth values ---- *)
Definition lit_holds_b (e : env) (s : cstate) (rq : request) (t : bool * bytes) : bool :=
  xorb (fst t) (lit_truth e s rq (snd t)).
Definition rule_holds_b (e : env) (s : cstate) (rq : request) (ts : list (bool * bytes)) : bool :=
  forallb (lit_holds_b e s rq) ts.

Section Eval.
Variables (e : env) (s : cstate) (rq : request) (sched : N -> nat).
Variable T : list (N * TM.lscript).
Let v : N -> bool := fun i => TM.truth (TM.lookup_script T i).

Lemma terms_eval terms : forall k P S,
  (forall p, In p P -> fst p < 3 * k) -> T = P ++ scr_terms e s rq sched k terms ++ S ->
  forallb (TM.eval v) (num_terms k terms) = rule_holds_b e s rq terms.
Proof.
  induction terms as [|[neg name] r IH]; intros k P S HP HT; cbn [num_terms rule_holds_b forallb]; [reflexivity|].
  assert (Hv : v (3 * k) = lit_truth e s rq name).
  { unfold v. rewrite HT, lookup_skip by (intros p Hp; apply HP in Hp; lia).
    cbn [scr_terms app TM.lookup_script]. rewrite N.eqb_refl. reflexivity. }
  assert (Hrest : forallb (TM.eval v) (num_terms (k + 1) r) = rule_holds_b e s rq r).
  { apply (IH (k + 1) (P ++ [(3 * k, TM.mkScript (lit_truth e s rq name) false (repeat TM.Real (sched (3 * k))))]) S).
    - intros p Hp. apply in_app_or in Hp. destruct Hp as [Hp|[<-|[]]]; [apply HP in Hp; lia| cbn [fst]; lia].
    - rewrite HT. cbn [scr_terms]. rewrite <- !app_assoc. reflexivity. }
  unfold rule_holds_b in Hrest. rewrite Hrest. f_equal. unfold lit_holds_b. cbn [fst snd].
  destruct neg; cbn [TM.eval]; rewrite Hv; destruct (lit_truth e s rq name); reflexivity.
Qed.

(* the index of the first rule that applies, as first_from counts it *)
Fixpoint first_pos (idx : N) (rules : list rule) : option N :=
  match rules with
  | [] => None
  | (_, ts) :: r => if rule_holds_b e s rq ts then Some idx else first_pos (idx + 1) r
  end.

Lemma rules_eval rules : forall k idx P S,
  (forall p, In p P -> fst p < 3 * k) -> T = P ++ scr_rules e s rq sched k rules ++ S ->
  TM.first_from v (fun _ => false) idx (num_rules k rules) = first_pos idx rules.
Proof.
  induction rules as [|[al ts] r IH]; intros k idx P S HP HT; cbn [num_rules TM.first_from first_pos]; [reflexivity|].
  cbn [negb andb TM.eval].
  rewrite (terms_eval ts k P (scr_rules e s rq sched (k + lenN ts) r ++ S) HP
             ltac:(rewrite HT; cbn [scr_rules]; rewrite <- !app_assoc; reflexivity)).
  destruct (rule_holds_b e s rq ts); [reflexivity|].
  apply (IH (k + lenN ts) (idx + 1) (P ++ scr_terms e s rq sched k ts) S).
  - intros p Hp. apply in_app_or in Hp. destruct Hp as [Hp|Hp]; [apply HP in Hp; lia| apply scr_terms_keys in Hp; lia].
  - rewrite HT. cbn [scr_rules]. rewrite <- !app_assoc. reflexivity.
Qed.
End Eval.

(* first match, computed *)
Fixpoint fm_bool (hb : list (bool * bytes) -> bool) (rules : list rule) (dflt : bool) : bool :=
  match rules with
  | [] => dflt
  | (allow, ts) :: r => if hb ts then allow else fm_bool hb r dflt
  end.

Lemma fm_bool_allows hb holds rules dflt :
  (forall r, In r rules -> (hb (snd r) = true <-> holds (snd r))) ->
  (fm_bool hb rules dflt = true <-> fm_allows holds rules dflt).
Proof.
  induction rules as [|[al ts] r IH]; intros H; cbn [fm_bool fm_allows]; [reflexivity|].
  pose proof (H (al, ts) (or_introl eq_refl)) as Hh. cbn [snd] in Hh.
  specialize (IH (fun x Hx => H x (or_intror Hx))).
  destruct (hb ts) eqn:E.
  - split; [intros ->; left; split; [apply Hh; reflexivity| reflexivity]| intros [[_ X]|[N _]]; [exact X| exfalso; apply N, Hh; reflexivity]].
  - rewrite IH. split; [intros F; right; split; [intros X; apply Hh in X; discriminate| exact F]|
                        intros [[X _]|[_ F]]; [apply Hh in X; discriminate| exact F]].
Qed.

Lemma first_pos_action e s rq rules : forall idx pre, lenN pre = idx ->
  match first_pos e s rq idx rules with
  | Some pos => exists r, nthN pos (pre ++ map act_of rules) = Some (act_of r) /\
                  forall d, fm_bool (rule_holds_b e s rq) rules d = fst r
  | None => forall d, fm_bool (rule_holds_b e s rq) rules d = d
  end.
Proof.
  induction rules as [|[al ts] r IH]; intros idx pre Hl; cbn [first_pos fm_bool]; [reflexivity|].
  destruct (rule_holds_b e s rq ts) eqn:E.
  - exists (al, ts). split; [|reflexivity]. subst idx. rewrite nthN_app_r, N.sub_diag by apply N.le_refl. reflexivity.
  - specialize (IH (idx + 1) (pre ++ [act_of (al, ts)]) ltac:(rewrite lenN_app; cbn [lenN]; lia)).
    destruct (first_pos e s rq (idx + 1) r) as [pos|]; [|exact IH].
    destruct IH as (r0 & Hn & Hf). exists r0. split; [|exact Hf]. rewrite <- app_assoc in Hn. exact Hn.
Qed.

Lemma lenN_num_rules rules : forall k, lenN (num_rules k rules) = lenN rules.
Proof. induction rules as [|[al ts] r IH]; intros k; cbn [num_rules lenN]; [reflexivity| rewrite IH; reflexivity]. Qed.
Lemma wf_num_terms terms : forall k, forallb TM.wf_node (num_terms k terms) = true.
Proof.
  induction terms as [|[neg name] r IH]; intros k; cbn [num_terms forallb]; [reflexivity|].
  rewrite IH. destruct neg; reflexivity.
Qed.
Lemma wf_num_rules rules : forall k, forallb TM.wf_node (num_rules k rules) = true.
Proof.
  induction rules as [|[al ts] r IH]; intros k; cbn [num_rules forallb TM.wf_node]; [reflexivity|].
  rewrite wf_num_terms, IH. reflexivity.
Qed.
Lemma explicit_acts rules : forallb (fun a => negb (TM.aimplicit a)) (map act_of rules) = true.
Proof. induction rules as [|r rs IH]; cbn [map forallb]; [reflexivity| rewrite IH; reflexivity]. Qed.
Lemma first_from_isb v isb l : (forall p, isb p = false) -> forall idx,
  TM.first_from v isb idx l = TM.first_from v (fun _ => false) idx l.
Proof.
  intros H. induction l as [|x r IH]; intros idx; cbn [TM.first_from]; [reflexivity|]. rewrite H, IH. reflexivity.
Qed.
Lemma last_map_ne {A B} (f : A -> B) (l : list A) d d' : l <> [] -> last (map f l) d' = f (last l d).
Proof.
  induction l as [|x r IH]; intros H; [contradiction|]. destruct r as [|y r]; [reflexivity|].
  change (last (f x :: map f (y :: r)) d') with (last (map f (y :: r)) d').
  change (last (x :: y :: r) d) with (last (y :: r) d). apply IH. discriminate.
Qed.

Lemma lit_truth_ok cfg e s rq name : typed (full cfg) -> Forall line_ok (full cfg) -> req_ok e rq -> st_inv cfg s ->
  find_acl name (c_acls s) <> None -> (lit_truth e s rq name = true <-> ref_acl (full cfg) e rq name).
Proof.
  intros HT HW HQ (Inv & _ & _) Hex. unfold lit_truth. specialize (Inv name).
  destruct (find_acl name (c_acls s)) as [a|]; [|contradiction]. destruct Inv as [Hty Hd].
  exact (proj2 (proj2 (leaf_ok (full cfg) e rq None name a HT HW HQ I Hty Hd))).
Qed.

Theorem checklist_machine_agrees cfg e s rq sched :
  Forall line_ok cfg -> req_ok e rq -> cfg_parse cfg = Some s ->
  exists c a, TM.run_check TM.MNonBlocking (tree_of (c_rules s)) [] (scripts_of e s rq sched) = Some c /\
    TM.err c = false /\ TM.cbk c = Some a /\ (TM.acode a = TM.Allowed <-> ref_allows cfg e rq).
Proof.
  intros HW HQ HP. pose proof (cfg_parse_typed cfg s HP) as HT.
  pose proof (full_ok cfg HW) as HW'.
  pose proof (cfg_parse_inv cfg s HW HP) as Inv. destruct Inv as (IA & IR & IE).
  set (rules := c_rules s) in *. set (t := tree_of rules). set (tbl := scripts_of e s rq sched).
  assert (TK : TM.tree_ok t = true).
  { unfold TM.tree_ok, t, tree_of. cbn [TM.actions TM.rules]. destruct (map act_of rules) eqn:E; [reflexivity|].
    rewrite <- E, lenN_map, lenN_num_rules. apply N.eqb_refl. }
  assert (WF : forallb TM.wf_node (TM.rules t) = true) by apply wf_num_rules.
  assert (EX : TM.explicit_actions t = true) by apply explicit_acts.
  assert (SH : TM.shared_leaves_sync t tbl).
  { apply TP.NoDup_shared_leaves_sync. unfold TM.tree_leaf_ids, t, tree_of. cbn [TM.rules].
    apply rules_ids_nodup. }
  assert (AR : forall i, In i (TM.tree_leaf_ids t) -> forallb TM.is_real (TM.attempts (TM.lookup_script tbl i)) = true).
  { intros i _. apply all_real_lookup, scr_rules_real. }
  destruct (TP.nonblocking_async_invisible t [] tbl TK WF EX SH AR) as (c & a & R1 & R2 & R3 & R4).
  exists c, a. split; [exact R1|]. split; [exact R2|]. split; [exact R3|].
  (* the decision *)
  assert (Hb : forall r, In r rules -> (rule_holds_b e s rq (snd r) = true <-> rule_holds (full cfg) e rq (snd r))).
  { intros r Hr. unfold rule_holds_b, rule_holds. rewrite forallb_forall, Forall_forall.
    assert (Hl : forall x, In x (snd r) -> (lit_holds_b e s rq x = true <-> term_holds (full cfg) e rq x)).
    { intros [neg name] Hx. apply term_holds_xorb.
      exact (lit_truth_ok cfg e s rq name HT HW' HQ (conj IA (conj IR IE)) (IE r (neg, name) Hr Hx)). }
    split; intros H x Hx; apply (Hl x Hx), H, Hx. }
  unfold ref_allows. rewrite <- IR. rewrite <- (fm_bool_allows _ _ rules _ Hb).
  unfold TM.result, TM.decide in R4.
  rewrite (first_from_isb _ (TM.rule_banned t []) _ ltac:(intros p; unfold TM.rule_banned; destruct (TM.actions t); reflexivity)) in R4.
  unfold t at 1, tree_of in R4. cbn [TM.rules] in R4.
  rewrite (rules_eval e s rq sched tbl rules 1 0 [] [] ltac:(intros p []) ltac:(unfold tbl, scripts_of; fold rules; rewrite app_nil_r; reflexivity)) in R4.
  pose proof (first_pos_action e s rq rules 0 [] eq_refl) as FA. cbn [app] in FA.
  unfold TM.nth_action, t, tree_of in R4. cbn [TM.actions] in R4.
  destruct (first_pos e s rq 0 rules) as [pos|].
  - destruct FA as (r0 & Hn & Hf). rewrite Hf. rewrite Hn in R4.
    destruct (map act_of rules); [discriminate Hn|]. injection R4 as -> _ _.
    destruct r0 as [[|] ?]; cbn; split; (reflexivity || discriminate).
  - rewrite FA. injection R4 as -> _ _. destruct rules as [|r1 rs] eqn:ER; [cbn; split; discriminate|].
    rewrite (last_map_ne act_of (r1 :: rs) (true, []) (TM.action TM.Dunno 0) ltac:(discriminate)).
    destruct (last (r1 :: rs) (true, [])) as [[|] ?]; cbn; split; (reflexivity || discriminate).
Qed.
