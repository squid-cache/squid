(* Properties_C55.v — C55: the shared store index (src/ipc/StoreMap.cc on src/ipc/ReadWriteLock.cc) exposes only
   complete, stable entries. Statements, closed by `exact` or by the few lines that assemble them; proofs live in StoremapLock.v and StoremapProofs.v.

   Vocabulary (StoremapModel.v):
     sinit n scripts       a map of n anchors / n slices (StoreMap::Init(path, n)), one process per script, all idle
     sexec st sched        each schedule entry lets the named process perform ONE atomic operation (or its use step)
     sreach n scripts sched  the state after running `sched` from `sinit n scripts`: ANY number of processes, ANY
                           scripts over openForWriting(+setKey) / openForWritingAt / append-a-slice / startAppending /
                           closeForWriting / abortWriting / openForReading / chain walk / closeForReading /
                           closeForReadingAndFreeIdle / freeEntry / freeEntryByKey, ANY interleaving of single atomic
                           operations, including those inside the ReadWriteLock methods
     pri f th, tra f th    the two shares of process th in the lock of anchor f, as processes of RwlockModel (C54):
                           through the entry it opens/holds, and through its freeEntry/freeEntryByKey calls
     holdsP f th = Some m  th is between two lock calls of its primary activity and holds m of anchor f's lock
                           (MIdle | MShared | MExcl | MAppend (writer after startAppending) | MBusy (abortWriting of an
                           appending writer that found readers) | MHeaders (not used by the modelled methods))
     isReader th f k       th's openForReading(k) returned anchor f and th has not yet started to close it
     exclOn f th           an activity of th is between lock calls holding anchor f's lock exclusively
     MFree s               event: StoreMap returned slice s to the pool (StoreMapCleaner::noteFreeMapSlice)
     MRet o (OOpenR (Some k)) m   event: openForReading under key k succeeded

   PARTIAL (every theorem named ..._partial): the model contains openForUpdating / sliceContaining / the updater's
   fresh-prefix writes / closeForUpdating / abortUpdating (one transition per atomic operation, validated against the
   code like the rest), but the theorems are proved for scripts WITHOUT update operations only
   ([noupd scripts = true]: no KU/KSp/KCu/KAu). What is known about updating rests on the correspondence runs and the
   oracle (checks/c55.py): one updater per entry (headers lock), readers keep reading during an update, after an update
   every chain walk yields fresh prefix ++ old suffix, a recycled stale anchor frees exactly the replaced prefix, no
   slice of an open or current entry is freed — with ONE exception that the unchanged code really has and which is
   stated below as C55_stale_reader_loses_shared_suffix_refuted (known finding). *)
Require Import SquidV.Bytes SquidV.RwlockModel SquidV.RwlockProofs SquidV.StoremapModel SquidV.StoremapLock SquidV.StoremapProofs.
Local Open Scope Z_scope.

(* --- composition with C54: the counting invariant of the read/write lock holds for EVERY anchor in every
       reachable state, and no assert() about the lock state (writing()/reading()) can fail --- *)
Theorem C55_lock_invariant_every_anchor_partial : forall n scripts sched, noupd scripts = true -> LInvC (sreach n scripts sched).
Proof. exact sreach_linv. Qed.
Print Assumptions C55_lock_invariant_every_anchor_partial.

Theorem C55_no_lock_assertion_fires_partial : forall n scripts sched i th,
  noupd scripts = true ->
  nthN i (mths (sreach n scripts sched)) = Some th -> tpc th <> CrashedL.
Proof. intros n scripts sched i th NU. apply no_lock_assert_fails, sreach_linv, NU. Qed.
Print Assumptions C55_no_lock_assertion_fires_partial.

(* --- no two writers hold the same entry (exclusive, appending or aborting alike) --- *)
Theorem C55_at_most_one_writer_per_entry_partial : forall n scripts sched f a i j thi thj x y,
  let st := sreach n scripts sched in
  noupd scripts = true ->
  nthN f (anchors (msh st)) = Some a ->
  i <> j -> nthN i (mths st) = Some thi -> nthN j (mths st) = Some thj ->
  holdsP f thi = Some x -> holdsP f thj = Some y -> is_writer x = true -> is_writer y = true -> False.
Proof.
  intros n scripts sched f a i j thi thj x y st NU Ha D Ni Nj Hx Hy Wx Wy.
  pose proof (holders_compat_PP st (sreach_linv n scripts sched NU) f a i j thi thj x y Ha D Ni Nj Hx Hy) as C.
  destruct x, y; simpl in *; discriminate.
Qed.
Print Assumptions C55_at_most_one_writer_per_entry_partial.

(* --- a reader holds an entry only under the requested key ... --- *)
Theorem C55_reader_key_matches_partial : forall n scripts sched t th f k a,
  let st := sreach n scripts sched in
  noupd scripts = true ->
  nthN t (mths st) = Some th -> isReader th f k -> nthN f (anchors (msh st)) = Some a -> akey a = k.
Proof. intros n scripts sched t th f k a st NU. apply (sreach_kinv n scripts sched NU). Qed.
Print Assumptions C55_reader_key_matches_partial.

(* --- ... and only while the entry is complete or being appended: any writer of the entry coexisting with the
       reader has called startAppending (MAppend), or is the appending writer inside abortWriting that found the
       reader and is about to mark the entry and leave (MBusy) --- *)
Theorem C55_reader_only_with_complete_or_appending_entry_partial : forall n scripts sched f a i j thi thj k y,
  let st := sreach n scripts sched in
  noupd scripts = true ->
  nthN f (anchors (msh st)) = Some a ->
  i <> j -> nthN i (mths st) = Some thi -> nthN j (mths st) = Some thj ->
  isReader thi f k -> holdsP f thj = Some y -> is_writer y = true -> y = MAppend \/ y = MBusy.
Proof.
  intros n scripts sched f a i j thi thj k y st NU Ha D Ni Nj [_ R] Hy Wy.
  pose proof (holders_compat_PP st (sreach_linv n scripts sched NU) f a i j thi thj MShared y Ha D Ni Nj R Hy) as C.
  destruct y; simpl in *; try discriminate; auto.
Qed.
Print Assumptions C55_reader_only_with_complete_or_appending_entry_partial.

(* the same for freeEntry/freeEntryByKey calls of any process (the reader itself included): none of them holds the
   entry exclusively while it is being read *)
Theorem C55_reader_excludes_exclusive_deleter_partial : forall n scripts sched f a i j thi thj k y,
  let st := sreach n scripts sched in
  noupd scripts = true ->
  nthN f (anchors (msh st)) = Some a ->
  nthN i (mths st) = Some thi -> nthN j (mths st) = Some thj ->
  isReader thi f k -> holdsT f thj = Some y -> y = MIdle \/ y = MShared \/ y = MHeaders \/ y = MAppend \/ y = MBusy.
Proof.
  intros n scripts sched f a i j thi thj k y st NU Ha Ni Nj [_ R] Hy.
  pose proof (holders_compat_PT st (sreach_linv n scripts sched NU) f a i j thi thj MShared y Ha Ni Nj R Hy) as C.
  destruct y; simpl in *; try discriminate; auto.
Qed.
Print Assumptions C55_reader_excludes_exclusive_deleter_partial.

(* --- a successful openForReading saw, at the moment it succeeded, an anchor that is not waitingToBeFreed and
       carries the requested key --- *)
Theorem C55_marked_entry_is_not_opened_partial : forall n scripts sched t st' evs b c k m',
  let st := sreach n scripts sched in
  noupd scripts = true ->
  sstep st t = (st', evs, b) -> In (t, MRet c (OOpenR (Some k)) m') evs ->
  exists f a, nthN f (anchors (msh st)) = Some a /\ wtbf a = false /\ akey a = k.
Proof. intros n scripts sched t st' evs b c k m' st NU. exact (open_saw_unmarked st (sreach_linv n scripts sched NU) t st' evs b c k m'). Qed.
Print Assumptions C55_marked_entry_is_not_opened_partial.

(* --- the key of an anchor changes, and a set waitingToBeFreed mark disappears, only by a step of a process that
       holds the anchor exclusively (rewind() while freeing the entry, setKey() of the writer that created it) --- *)
Theorem C55_key_and_mark_change_only_under_exclusive_lock_partial : forall n scripts sched t st' evs b f a a',
  let st := sreach n scripts sched in
  noupd scripts = true ->
  sstep st t = (st', evs, b) ->
  nthN f (anchors (msh st)) = Some a -> nthN f (anchors (msh st')) = Some a' ->
  akey a' <> akey a \/ (wtbf a = true /\ wtbf a' = false) ->
  exists th, nthN t (mths st) = Some th /\ exclOn f th.
Proof. intros n scripts sched t st' evs b f a a' st NU. exact (step_protected st (sreach_linv n scripts sched NU) t st' evs b f a a'). Qed.
Print Assumptions C55_key_and_mark_change_only_under_exclusive_lock_partial.

(* --- hence, while a reader holds an entry, whatever any process does: the key stays and a deletion mark stays
       (a deleted entry does not become openable again under its readers) --- *)
Theorem C55_entry_stable_while_read_partial : forall n scripts sched t st' evs b f a a' i thi k,
  let st := sreach n scripts sched in
  noupd scripts = true ->
  sstep st t = (st', evs, b) ->
  nthN f (anchors (msh st)) = Some a -> nthN f (anchors (msh st')) = Some a' ->
  nthN i (mths st) = Some thi -> isReader thi f k ->
  akey a' = akey a /\ (wtbf a = true -> wtbf a' = true).
Proof. intros n scripts sched t st' evs b f a a' i thi k st NU. exact (stable_while_read st (sreach_linv n scripts sched NU) t st' evs b f a a' i thi k). Qed.
Print Assumptions C55_entry_stable_while_read_partial.

(* --- slices: StoreMap gives a slice back to the pool only in freeChainAt() run by an activity that holds
       exclusively the anchor g whose chain it walks; so no slice is freed through the chain of an entry while a
       process has that entry open for reading.
       PARTIAL: not proved here: that the chain walked from anchor g only contains slices that a writer of g put
       there (chains of different entries are disjoint); the correspondence runs check it on every explored
       schedule through the oracle's slice-ownership table --- *)
Theorem C55_slices_not_freed_while_read_partial : forall n scripts sched t st' evs b sid,
  let st := sreach n scripts sched in
  noupd scripts = true ->
  sstep st t = (st', evs, b) -> In (t, MFree sid) evs ->
  exists th g p, nthN t (mths st) = Some th /\ (tpc th = Prim g p \/ tpc th = Tran g p) /\
    forall a i thi k, nthN g (anchors (msh st)) = Some a -> nthN i (mths st) = Some thi -> ~ isReader thi g k.
Proof. intros n scripts sched t st' evs b sid st NU. exact (no_free_while_read st (sreach_linv n scripts sched NU) t st' evs b sid). Qed.
Print Assumptions C55_slices_not_freed_while_read_partial.

Theorem C55_slices_freed_only_by_exclusive_holder_partial : forall n scripts sched t st' evs b sid,
  let st := sreach n scripts sched in
  noupd scripts = true ->
  sstep st t = (st', evs, b) -> In (t, MFree sid) evs ->
  exists th g p, nthN t (mths st) = Some th /\ exclOn g th /\ (tpc th = Prim g p \/ tpc th = Tran g p).
Proof. intros n scripts sched t st' evs b sid st NU. exact (free_by_exclusive st (sreach_linv n scripts sched NU) t st' evs b sid). Qed.
Print Assumptions C55_slices_freed_only_by_exclusive_holder_partial.

(* --- after every process closed what it had opened, the lock of every anchor is idle again and can be taken in
       each of the three ways (lockExclusive is the first thing openForWritingAt and freeEntry do) --- *)
Theorem C55_all_closed_entries_lockable_again_partial : forall n scripts sched f a,
  let st := sreach n scripts sched in
  noupd scripts = true ->
  allClosed st -> nthN f (anchors (msh st)) = Some a ->
  lk a = idle_shared /\ probe (lk a) = Some [EvRet OpLX true; EvRet OpLS true; EvRet OpLH true].
Proof. intros n scripts sched f a st NU. exact (idle_when_all_closed st f a (sreach_linv n scripts sched NU)). Qed.
Print Assumptions C55_all_closed_entries_lockable_again_partial.


(* --- KNOWN FINDING (unchanged tree), with updaters the property is FALSE: a reader that opened the entry before an
       update holds a lock on the stale anchor only; when the updated entry is then freed (here: freeEntryByKey), the
       chain suffix it shares with the stale version is cleared and returned to the pool while the reader still walks
       it: the same reader, without closing, first sees slice 1 with size 3, later (after MFree 1) with size 0.
       Reproduced on the real code: corpus/C55/known.txt --- *)
Definition k1u : key := (1%N, 0%N).
Theorem C55_stale_reader_loses_shared_suffix_refuted :
  exists scripts sched st evs n,
    srun_case 4 scripts sched = Some (st, evs, n) /\
    (* reader1_view: process 1's open / chain walks / close and every MFree, in the order they happened *)
    reader1_view evs =
      [ (1%N, MRet (KR k1u) (OOpenR (Some k1u)) (CRead 1 k1u));
        (1%N, MRet KLook (OLook [(0, 2%N); (1, 3%N)] true) (CRead 1 k1u));
        (0%N, MFree 2); (0%N, MFree 1);
        (1%N, MRet KLook (OLook [(0, 2%N); (1, 0%N)] true) (CRead 1 k1u));
        (1%N, MRet KLook (OLook [(0, 2%N); (1, 0%N)] true) (CRead 1 k1u));
        (1%N, MRet KCr OUnit CIdle) ].
Proof. exact stale_reader_witness. Qed.
Print Assumptions C55_stale_reader_loses_shared_suffix_refuted.

(* --- the hypotheses are satisfiable, non-trivially --- *)
Definition k1 : key := (1%N, 0%N).
Definition rep (t : N) (k : nat) : list N := repeat t k.

(* a reader holds entry 1 under key k1 while its writer is appending: the exception in the property is real *)
Example C55_ex_reader_with_appending_writer :
  let st := sreach 4 [[KW k1; KAdd 2; KApp; KAdd 3]; [KR k1; KLook]] (rep 0 26 ++ rep 1 7) in
  option_map cm (nthN 0%N (mths st)) = Some (CAppend 1 0) /\
  option_map (holdsP 1) (nthN 0%N (mths st)) = Some (Some MAppend) /\
  option_map cm (nthN 1%N (mths st)) = Some (CRead 1 k1) /\
  option_map (holdsP 1) (nthN 1%N (mths st)) = Some (Some MShared) /\
  option_map akey (nthN 1%N (anchors (msh st))) = Some k1.
Proof. vm_compute. repeat split; reflexivity. Qed.

(* a writer holds entry 1 exclusively while another process is inside openForReading on it; the reader fails *)
Example C55_ex_exclusive_writer_reader_fails :
  match srun_case 4 [[KW k1; KAdd 2]; [KR k1]] (rep 0 13 ++ rep 1 9) with
  | Some (st, evs, _) =>
      option_map (holdsP 1) (nthN 0%N (mths st)) = Some (Some MExcl) /\
      In (1%N, MRet (KR k1) (OOpenR None) CIdle) evs
  | None => False
  end.
Proof. vm_compute. split; [reflexivity | tauto]. Qed.

(* a successful open is reported, and a later freeEntry by another process only marks the entry (the reader stays) *)
Example C55_ex_open_event_and_mark :
  match srun_case 4 [[KW k1; KAdd 2; KCw; KR k1]; [KF 1]] (rep 0 40 ++ rep 1 12) with
  | Some (st, evs, _) =>
      In (0%N, MRet (KR k1) (OOpenR (Some k1)) (CRead 1 k1)) evs /\ In (1%N, MRet (KF 1) (OFree true) CIdle) evs /\
      option_map wtbf (nthN 1%N (anchors (msh st))) = Some true /\
      option_map akey (nthN 1%N (anchors (msh st))) = Some k1
  | None => False
  end.
Proof. vm_compute. repeat split; try reflexivity; tauto. Qed.

(* slices are given back to the pool when the entry is freed *)
Example C55_ex_slices_freed :
  match srun_case 4 [[KW k1; KAdd 2; KAdd 3; KCw; KF 1]] [] with
  | Some (st, evs, _) => In (0%N, MFree 0) evs /\ In (0%N, MFree 1) evs /\ owner (msh st) = [None; None; None; None]
  | None => False
  end.
Proof. vm_compute. repeat split; try reflexivity; tauto. Qed.

(* everybody closed: the hypothesis of the last theorem holds after a run with real contention *)
Example C55_ex_all_closed :
  match srun_case 4 [[KW k1; KAdd 2; KApp; KAdd 3; KCw]; [KR k1; KLook; KCr]; [KK k1]] (rep 0 26 ++ rep 1 12 ++ rep 2 20) with
  | Some (st, evs, _) => closedb st = true
  | None => False
  end.
Proof. vm_compute. reflexivity. Qed.

(* an update: the reader of the updated entry walks fresh prefix ++ old suffix; recycling the stale anchor (key 2 now
   maps to it) gives back exactly the replaced prefix (slice 0) *)
Example C55_ex_update_then_recycle :
  match srun_case 4 [[KW k1; KAdd 2; KAdd 3; KCw; KU k1; KSp 1; KAdd 5; KCu; KR k1; KLook; KCr; KW (2%N, 0%N)]] [] with
  | Some (st, evs, _) =>
      In (0%N, MRet (KU k1) (OUpd (Some (1%N, 2%N))) (CUpd (mkU k1 1 1 2 2 (-1) (-1) (-1)))) evs /\
      In (0%N, MRet KLook (OLook [(2, 5%N); (1, 3%N)] true) (CRead 2 k1)) evs /\
      filter (fun e => match snd e with MFree _ => true | _ => false end) evs = [(0%N, MFree 0)] /\
      fileNos (msh st) = [0; 3; 2; 0]
  | None => False
  end.
Proof. vm_compute. repeat split; try reflexivity; tauto. Qed.
