(* Properties_C54.v — C54: the shared read/write lock (src/ipc/ReadWriteLock.cc) provides mutual exclusion.
   Statements, closed by `exact` or by the few lines that assemble them; proofs live in RwlockProofs.v.

   Vocabulary (RwlockModel.v):
     init scripts        one process per script, lock fields all zero, every process idle
     exec st sched       each schedule entry lets the named process perform ONE atomic operation (or its use step)
     reach scripts sched the state after running schedule `sched` from `init scripts`
                         (any number of processes, any scripts over the 10 public methods, any interleaving)
     holds p = Some m    the process is between two calls (or has ended) and holds m:
                         MIdle | MShared | MHeaders | MExcl | MAppend (writer in append mode)
                         | MBusy (writer whose stopAppendingAndRestoreExclusive() answered false)
     compat a b          the compatibility table: idle with anything; exclusive with nothing; one writer;
                         one header updater; sharers with sharers and with an append-mode / busy writer
     probe s             answers of lockExclusive, lockShared, lockHeaders tried by a fresh process on fields s *)
Require Import SquidV.Bytes SquidV.RwlockModel SquidV.RwlockProofs.
Local Open Scope Z_scope.

(* --- the inductive counting invariant holds in every reachable state --- *)
Theorem C54_counting_invariant_all_interleavings : forall scripts sched, Inv (reach scripts sched).
Proof. exact reach_inv. Qed.
Print Assumptions C54_counting_invariant_all_interleavings.

(* --- mutual exclusion: any two different holders are compatible --- *)
Theorem C54_holders_pairwise_compatible : forall scripts sched i j pi si pj sj a b,
  i <> j ->
  nthN i (ths (reach scripts sched)) = Some (pi, si) ->
  nthN j (ths (reach scripts sched)) = Some (pj, sj) ->
  holds pi = Some a -> holds pj = Some b -> compat a b = true.
Proof. intros scripts sched. apply holders_compatible, reach_inv. Qed.
Print Assumptions C54_holders_pairwise_compatible.

(* an exclusive holder never coexists with another exclusive holder nor with any shared holder *)
Theorem C54_exclusive_holder_is_alone : forall scripts sched i j pi si pj sj b,
  i <> j ->
  nthN i (ths (reach scripts sched)) = Some (pi, si) ->
  nthN j (ths (reach scripts sched)) = Some (pj, sj) ->
  holds pi = Some MExcl -> holds pj = Some b -> b = MIdle.
Proof.
  intros scripts sched i j pi si pj sj b D Ni Nj Ha Hb.
  pose proof (holders_compatible _ (reach_inv _ _) _ _ _ _ _ _ _ _ D Ni Nj Ha Hb) as C.
  destruct b; simpl in C; try discriminate; reflexivity.
Qed.
Print Assumptions C54_exclusive_holder_is_alone.

(* never two writers, whatever their append state *)
Theorem C54_at_most_one_writer : forall scripts sched i j pi si pj sj a b,
  i <> j ->
  nthN i (ths (reach scripts sched)) = Some (pi, si) ->
  nthN j (ths (reach scripts sched)) = Some (pj, sj) ->
  holds pi = Some a -> holds pj = Some b -> is_writer a = true -> is_writer b = true -> False.
Proof.
  intros scripts sched i j pi si pj sj a b D Ni Nj Ha Hb Wa Wb.
  pose proof (holders_compatible _ (reach_inv _ _) _ _ _ _ _ _ _ _ D Ni Nj Ha Hb) as C.
  destruct a, b; simpl in *; discriminate.
Qed.
Print Assumptions C54_at_most_one_writer.

(* a shared holder coexists with a writer only if that writer switched to append mode
   (and, having stopped appending, was told that its access did not become exclusive) *)
Theorem C54_shared_with_writer_only_after_append : forall scripts sched i j pi si pj sj a b,
  i <> j ->
  nthN i (ths (reach scripts sched)) = Some (pi, si) ->
  nthN j (ths (reach scripts sched)) = Some (pj, sj) ->
  holds pi = Some a -> holds pj = Some b -> is_sharer a = true -> is_writer b = true ->
  b = MAppend \/ b = MBusy.
Proof.
  intros scripts sched i j pi si pj sj a b D Ni Nj Ha Hb Sa Wb.
  pose proof (holders_compatible _ (reach_inv _ _) _ _ _ _ _ _ _ _ D Ni Nj Ha Hb) as C.
  destruct a, b; simpl in *; try discriminate; auto.
Qed.
Print Assumptions C54_shared_with_writer_only_after_append.

(* at most one shared holder updates headers at a time *)
Theorem C54_one_header_updater : forall scripts sched i j pi si pj sj,
  i <> j ->
  nthN i (ths (reach scripts sched)) = Some (pi, si) ->
  nthN j (ths (reach scripts sched)) = Some (pj, sj) ->
  holds pi = Some MHeaders -> holds pj = Some MHeaders -> False.
Proof.
  intros scripts sched i j pi si pj sj D Ni Nj Ha Hb.
  discriminate (holders_compatible _ (reach_inv _ _) _ _ _ _ _ _ _ _ D Ni Nj Ha Hb).
Qed.
Print Assumptions C54_one_header_updater.

(* none of the assert()s of ReadWriteLock.cc can fail for protocol-following clients *)
Theorem C54_no_assertion_fires : forall scripts sched i p s,
  nthN i (ths (reach scripts sched)) = Some (p, s) -> p <> Crashed.
Proof. intros scripts sched. apply no_crash, reach_inv. Qed.
Print Assumptions C54_no_assertion_fires.

(* --- after every holder releases, the lock is idle ... --- *)
Theorem C54_idle_after_all_release : forall scripts sched,
  (forall th, In th (ths (reach scripts sched)) -> holds (fst th) = Some MIdle) ->
  sh (reach scripts sched) = idle_shared.
Proof. intros scripts sched. apply idle_when_all_released, reach_inv. Qed.
Print Assumptions C54_idle_after_all_release.

(* --- ... and can be acquired again, in each of the three ways --- *)
Theorem C54_obtainable_after_all_release : forall scripts sched,
  (forall th, In th (ths (reach scripts sched)) -> holds (fst th) = Some MIdle) ->
  probe (sh (reach scripts sched)) = Some [EvRet OpLX true; EvRet OpLS true; EvRet OpLH true].
Proof. intros scripts sched A. rewrite (idle_when_all_released _ (reach_inv _ _) A). exact probe_idle. Qed.
Print Assumptions C54_obtainable_after_all_release.

(* whenever every process is between calls, the six fields say exactly who holds what *)
Theorem C54_quiescent_fields_count_holders : forall scripts sched,
  let st := reach scripts sched in
  (forall th, In th (ths st) -> holds (fst th) <> None) ->
  readers (sh st) = holders is_sharer (ths st) /\
  readLevel (sh st) = holders is_sharer (ths st) /\
  writeLevel (sh st) = holders is_writer (ths st) /\
  b2z (writing (sh st)) = holders is_writer (ths st) /\
  b2z (appending (sh st)) = holders is_append (ths st) /\
  b2z (updating (sh st)) = holders is_headers (ths st).
Proof. intros scripts sched st. apply quiescent_fields, reach_inv. Qed.
Print Assumptions C54_quiescent_fields_count_holders.

(* --- every operation finishes: the round-robin completion of any schedule ends with all processes ended
       (the runner's out-of-fuel answer is impossible) --- *)
Theorem C54_every_run_completes : forall scripts sched,
  exists st evs n, run_case scripts sched = Some (st, evs, n) /\ all_terminal st = true.
Proof. exact run_case_completes. Qed.
Print Assumptions C54_every_run_completes.

(* the states the runner reports (after completion) satisfy the invariant too *)
Theorem C54_completed_run_invariant : forall scripts sched st evs n,
  run_case scripts sched = Some (st, evs, n) -> Inv st.
Proof. exact run_case_inv. Qed.
Print Assumptions C54_completed_run_invariant.

(* --- the hypotheses are satisfiable, non-trivially --- *)
(* a writer holds exclusively while a reader is inside lockShared *)
Example C54_ex_exclusive_reached :
  let st := reach [[OpLX; OpUX]; [OpLS; OpUS]] [0; 0; 0; 0; 0; 1; 1; 0]%N in
  option_map (fun th => holds (fst th)) (nthN 0%N (ths st)) = Some (Some MExcl) /\
  option_map fst (nthN 1%N (ths st)) = Some (LS2 LsPlain).
Proof. vm_compute. split; reflexivity. Qed.

(* a reader and an append-mode writer coexist: the exception in the property is real *)
Example C54_ex_reader_with_appending_writer :
  let st := reach [[OpLX; OpSA; OpSP]; [OpLS; OpUS]] [0; 0; 0; 0; 0; 0; 0; 0; 0; 1; 1; 1; 1; 1]%N in
  option_map (fun th => holds (fst th)) (nthN 0%N (ths st)) = Some (Some MAppend) /\
  option_map (fun th => holds (fst th)) (nthN 1%N (ths st)) = Some (Some MShared).
Proof. vm_compute. split; reflexivity. Qed.

(* ... and stopAppendingAndRestoreExclusive() then answers false: the writer is "busy", not exclusive *)
Example C54_ex_busy_writer :
  let st := reach [[OpLX; OpSA; OpSP]; [OpLS; OpUS]] [0; 0; 0; 0; 0; 0; 0; 0; 0; 1; 1; 1; 1; 1; 0; 0; 0; 0; 0]%N in
  option_map (fun th => holds (fst th)) (nthN 0%N (ths st)) = Some (Some MBusy) /\
  option_map (fun th => holds (fst th)) (nthN 1%N (ths st)) = Some (Some MShared).
Proof. vm_compute. split; reflexivity. Qed.

(* two header updaters compete: one wins, the other is told false *)
Example C54_ex_header_updater :
  match run_case [[OpLH]; [OpLH]] [0; 1; 0; 1; 0; 1; 0; 1; 0; 1; 0; 1]%N with
  | Some (st, evs, _) => map (fun th => holds (fst th)) (ths st) = [Some MHeaders; Some MIdle]
  | None => False
  end.
Proof. vm_compute. reflexivity. Qed.

(* everybody released: the hypothesis of the idle theorems holds in a run with real contention *)
Example C54_ex_all_released :
  match run_case [[OpLX; OpSA; OpSP; OpUX]; [OpLS; OpSX; OpUX]; [OpLH; OpUH]] [0; 1; 2; 0; 1; 2; 2; 1; 0; 0; 1; 2]%N with
  | Some (st, evs, _) => forallb (fun th => match holds (fst th) with Some MIdle => true | _ => false end) (ths st) = true
                         /\ sh st = idle_shared
  | None => False
  end.
Proof. vm_compute. split; reflexivity. Qed.
