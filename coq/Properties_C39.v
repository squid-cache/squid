(* Properties_C39.v -- C39: the ICP, HTCP and SNMP listeners tolerate arbitrary datagrams.
   Statements, closed by `exact` or by the few lines that assemble them; proofs live in AdversarialProofs.v.

   Vocabulary (AdversarialModel.v): a decoder model answers [Ok v] / [Fail] (datagram refused) / [OOB] (the C code
   would access a receive buffer or a fixed destination outside its bounds) / [NoFuel] (model loop budget, never
   reached).  [icp_udp size recvmax stale d], [htcp_udp pending size recvmax stale d], [snmp_udp size recvmax stale d]
   model icpHandleUdp, htcpRecv+htcpHandleMsg and snmpHandleUdp+snmp_parse on a static buffer of [size] bytes whose
   previous content is [stale], after receiving at most [recvmax] bytes of the datagram [d].  Buffer sizes and
   receive limits are the regenerated constants of gen/Adversarial_gen.v and gen/Udpbufs_gen.v.
   [is_byte x] = 0 <= x < 256. *)
Require Import SquidV.Bytes SquidV.gen.Adversarial_gen SquidV.gen.Udpbufs_gen.
Require Import SquidV.AdversarialModel SquidV.AdversarialProofs.
Local Open Scope Z_scope.

(* --- the checked access is the checked list lookup --- *)
Theorem C39_checked_read_is_nth_error : forall (l : list Z) (i : Z),
  rd (buf_of_list l) i =
  if i <? 0 then OOB else match nth_error l (Z.to_nat i) with Some x => Ok x | None => OOB end.
Proof. exact rd_list_is_nth_error. Qed.
Print Assumptions C39_checked_read_is_nth_error.

(* --- ICP: no datagram and no stale buffer content takes icpHandleUdp / icpHandleIcpV2 / V3 / icpGetUrl outside the
       SQUID_UDP_SO_RCVBUF-byte buffer --- *)
Theorem C39_icp_in_bounds : forall (stale : Z -> Z) (d : list Z),
  Forall is_byte d -> (forall i, is_byte (stale i)) ->
  icp_udp icp_bufsize (icp_bufsize - icp_recv_slack) stale d <> Got OOB /\
  icp_udp icp_bufsize (icp_bufsize - icp_recv_slack) stale d <> Got NoFuel.
Proof. intros stale d Hd Hs. eapply upost_safe, icp_udp_spec; [exact Hd | exact Hs | vm_compute; split; congruence]. Qed.
Print Assumptions C39_icp_in_bounds.

(* ... and a URL handed on by icpGetUrl starts after the header and ends, with its NUL, exactly at the end of the
   received bytes ([class_inside len c]: for IcpQuery/IcpReply (Some (offset, strlen)):
   icp_hdr_size <= offset /\ 0 <= strlen /\ offset + strlen + 1 = len) *)
Theorem C39_icp_url_inside_datagram : forall (stale : Z -> Z) (d : list Z) (c : icp_class),
  Forall is_byte d -> (forall i, is_byte (stale i)) ->
  icp_udp icp_bufsize (icp_bufsize - icp_recv_slack) stale d = Got (Ok c) ->
  class_inside (Z.min (lenZ d) (icp_bufsize - icp_recv_slack)) c.
Proof.
  intros stale d c Hd Hs E. pose proof (icp_udp_spec icp_bufsize (icp_bufsize - icp_recv_slack) stale d Hd Hs) as H.
  rewrite E in H. apply H. vm_compute; split; congruence.
Qed.
Print Assumptions C39_icp_url_inside_datagram.

Theorem C39_icp_header_and_url_readers_in_bounds : forall (stale : Z -> Z) (d : list Z),
  Forall is_byte d -> (forall i, is_byte (stale i)) ->
  icp_unit icp_bufsize (icp_bufsize - icp_recv_slack) stale d <> OOB /\
  icp_unit icp_bufsize (icp_bufsize - icp_recv_slack) stale d <> NoFuel.
Proof. intros stale d Hd Hs. apply icp_unit_safe; [exact Hd | exact Hs | vm_compute; split; congruence]. Qed.
Print Assumptions C39_icp_header_and_url_readers_in_bounds.

(* --- HTCP: no datagram, no stale content and no set of outstanding queries takes htcpHandleMsg /
       htcpUnpackSpecifier / htcpUnpackDetail (reads, in-place NUL writes, later C-string scans) outside the buffer --- *)
Theorem C39_htcp_in_bounds : forall (pending : Z -> bool) (stale : Z -> Z) (d : list Z),
  Forall is_byte d -> (forall i, is_byte (stale i)) ->
  htcp_udp pending htcp_bufsize (htcp_bufsize - htcp_recv_slack) stale d <> OOB /\
  htcp_udp pending htcp_bufsize (htcp_bufsize - htcp_recv_slack) stale d <> NoFuel.
Proof. intros pending stale d Hd Hs. eapply post_safe, htcp_udp_spec; [exact Hd | exact Hs | vm_compute; split; congruence]. Qed.
Print Assumptions C39_htcp_in_bounds.

(* ... every in-place write lands in [0, len] and every unpacked field (offset, counted size, C-string length) lies in
   [0, len], len = number of received bytes ([wrange], [hclass_inside], [spec_inside], [detail_inside]) *)
Theorem C39_htcp_fields_and_writes_inside_datagram :
  forall (pending : Z -> bool) (stale : Z -> Z) (d : list Z) (r : htcp_result),
  Forall is_byte d -> (forall i, is_byte (stale i)) ->
  htcp_udp pending htcp_bufsize (htcp_bufsize - htcp_recv_slack) stale d = Ok r ->
  wrange 0 (Z.min (lenZ d) (htcp_bufsize - htcp_recv_slack)) (hr_state r) /\
  hclass_inside (Z.min (lenZ d) (htcp_bufsize - htcp_recv_slack)) (hr_class r).
Proof.
  intros pending stale d r Hd Hs E.
  pose proof (htcp_udp_spec pending htcp_bufsize (htcp_bufsize - htcp_recv_slack) stale d Hd Hs) as H.
  rewrite E in H. apply H. vm_compute; split; congruence.
Qed.
Print Assumptions C39_htcp_fields_and_writes_inside_datagram.

Theorem C39_htcp_unpackers_in_bounds : forall (stale : Z -> Z) (d : list Z),
  Forall is_byte d -> (forall i, is_byte (stale i)) ->
  safe (htcp_spec_unit htcp_bufsize (htcp_bufsize - htcp_recv_slack) stale d) /\
  safe (htcp_detail_unit htcp_bufsize (htcp_bufsize - htcp_recv_slack) stale d).
Proof.
  intros stale d Hd Hs. split; eapply post_safe;
    [apply htcp_spec_unit_spec | apply htcp_detail_unit_spec]; try assumption; vm_compute; split; congruence.
Qed.
Print Assumptions C39_htcp_unpackers_in_bounds.

(* --- SNMP: no datagram (up to the sizeof(buf)-1 bytes snmpHandleUdp receives) takes snmp_parse / snmp_msg_Decode and
       the ASN.1 readers outside the SNMP_REQUEST_SIZE-byte buffer or the fixed destinations (Community[128], the
       MAX_NAME_LEN-element object identifiers, the value strings)
       [holds since /repo 71f8893 (asn_header_fits); before it a 4095-byte datagram was read 1..3 bytes past the buffer] --- *)
Theorem C39_snmp_in_bounds : forall (stale : Z -> Z) (d : list Z),
  Forall is_byte d -> (forall i, is_byte (stale i)) ->
  snmp_udp snmp_request_size (snmp_request_size - snmp_recv_slack) stale d <> Got OOB /\
  snmp_udp snmp_request_size (snmp_request_size - snmp_recv_slack) stale d <> Got NoFuel.
Proof.
  intros stale d Hd Hs. apply snmp_udp_safe; [exact Hd | exact Hs | | vm_compute; reflexivity].
  assert (H : snmp_request_size - snmp_recv_slack + 1 <= snmp_request_size) by (vm_compute; congruence). lia.
Qed.
Print Assumptions C39_snmp_in_bounds.

(* the decoder itself on ANY object: one byte after the [len] bytes it is asked to decode suffices *)
Theorem C39_snmp_decoder_in_bounds_on_any_object : forall (b : buf) (len : Z),
  bytes_ok b -> 0 <= len -> len + 1 <= bsize b -> len < 2147483648 ->
  snmp_msg_decode b len <> OOB /\ snmp_msg_decode b len <> NoFuel.
Proof. exact snmp_msg_decode_safe. Qed.
Print Assumptions C39_snmp_decoder_in_bounds_on_any_object.

(* --- the hypotheses are satisfiable, the decoders accept real messages --- *)
Example C39_snmp_get_is_decoded :
  snmp_udp snmp_request_size (snmp_request_size - snmp_recv_slack) (fun _ => 165)
    [48; 41; 2; 1; 0; 4; 6; 112; 117; 98; 108; 105; 99; 160; 28; 2; 1; 7; 2; 1; 0; 2; 1; 0; 48; 17; 48; 15; 6; 11; 43; 6; 1; 4;
     1; 155; 39; 1; 1; 1; 0; 5; 0]
  = Got (Ok (mkmsg 0 [112; 117; 98; 108; 105; 99] 160 7 0 0 [mkvar 5 11 0])).
Proof. vm_compute. reflexivity. Qed.

Example C39_icp_query_url_is_found :
  icp_udp icp_bufsize (icp_bufsize - icp_recv_slack) (fun _ => 165)
    [1; 2; 0; 44; 0; 0; 0; 7; 0; 0; 0; 0; 0; 0; 0; 0; 0; 0; 0; 0; 0; 0; 0; 0; 104; 116; 116; 112; 58; 47; 47; 101; 120; 97; 109;
     112; 108; 101; 46; 99; 111; 109; 47; 0]
  = Got (Ok (IcpQuery (Some (24, 19)))).
Proof. vm_compute. reflexivity. Qed.

Example C39_htcp_tst_specifier_is_unpacked :
  match htcp_udp (fun _ => false) htcp_bufsize (htcp_bufsize - htcp_recv_slack) (fun _ => 165)
    [0; 58; 0; 1; 0; 52; 16; 2; 0; 0; 0; 9; 0; 3; 71; 69; 84; 0; 19; 104; 116; 116; 112; 58; 47; 47; 101; 120; 97; 109; 112; 108;
     101; 46; 99; 111; 109; 47; 0; 8; 72; 84; 84; 80; 47; 49; 46; 49; 0; 6; 65; 58; 32; 98; 13; 10; 0; 2] with
  | Ok r => hr_class r = HtcpTstReq (Some (mkspec 14 19 40 50 6 [3; 19; 8; 6])) /\ hw (hr_state r) = [56; 48; 38; 17]
  | _ => False
  end.
Proof. vm_compute. split; reflexivity. Qed.

(* the former over-read witness (4095 bytes, last variable `30 00` at the very end) is receivable and now refused *)
Example C39_snmp_former_witness_refused : forall stale,
  lenZ snmp_witness = snmp_request_size - snmp_recv_slack /\
  snmp_udp snmp_request_size (snmp_request_size - snmp_recv_slack) stale snmp_witness = Got Fail.
Proof. split; vm_compute; reflexivity. Qed.

(* the one byte of slack is needed: on an object of exactly the datagram's size an empty INTEGER at the end is over-read *)
Example C39_snmp_exact_size_object_needs_the_spare_byte : snmp_exact [48; 2; 2; 0] = Got OOB.
Proof. vm_compute. reflexivity. Qed.
