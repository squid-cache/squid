(* Properties_C58.v — C58: IPC messages round-trip and malformed messages are rejected safely.
   Statements, closed by `exact` or by the few lines that assemble them; proofs live in TypedmsgProofs.v.  Model: TypedmsgModel.v (src/ipc/TypedMsgHdr.cc/.h).
   wf m          := data.raw has its declared size (tm_raw_size bytes); nothing is assumed about type_, size,
                    the content or the cursor.
   readable m n  := size <= sizeof(raw) /\ offset <= size /\ n <= size - offset
   segment m n   := the n bytes of data.raw at the cursor;  payload m := raw[0, size).
   TUndef/OUndef := a memcpy range not contained in data.raw (what ASan would report). *)
Require Import SquidV.Bytes SquidV.TypedmsgModel SquidV.TypedmsgProofs.
Require Import SquidV.gen.Typedmsg_gen.
Local Open Scope N_scope.

(* --- the platform facts the model builds in, checked against the constants generated from /repo ------- *)
Theorem C58_layout_constants :
  tm_int_size = 4 /\ tm_little_endian = true /\ tm_int_max = 2147483647%Z /\ tm_int_min = (-2147483648)%Z /\
  tm_raw_size = tm_max_size /\ tm_raw_size <= tm_offset_max /\ tm_raw_size <= tm_size_t_max /\
  int_bytes 1 = [1; 0; 0; 0] /\ int_bytes (-2) = [254; 255; 255; 255].
Proof. repeat split; vm_compute; congruence. Qed.
Print Assumptions C58_layout_constants.

(* --- round trip ---------------------------------------------------------------------------------------
   For every non-zero type and every list of int / fixed-or-POD / string fields that fits the buffer:
   setType, the puts, transfer (received byte for byte, or copy-constructed), checkType, the matching gets,
   hasMoreData  answer  ok, ok.., ok, ok, exactly the stored values, false. *)
Theorem C58_roundtrip : forall (transfer : top) t fs,
  transfer = TRecv \/ transfer = TCopy -> t <> 0%Z -> Forall field_ok fs -> lenN (enc_all fs) <= tm_raw_size ->
  outs (fst (tm_run tm_fresh ([TSetType t] ++ map put_op fs ++ [transfer; TCheckType t] ++ map get_op fs ++ [THasMore])))
  = [OOk] ++ repeat OOk (length fs) ++ [OOk; OOk] ++ map val_out fs ++ [OBool false].
Proof. exact roundtrip. Qed.
Print Assumptions C58_roundtrip.

Theorem C58_int_roundtrip : forall z, (tm_int_min <= z <= tm_int_max)%Z -> bytes_int (int_bytes z) = z.
Proof. exact int_roundtrip. Qed.
Print Assumptions C58_int_roundtrip.

(* --- safety: for every buffer and every history, nothing is read or written outside data.raw ----------- *)
Theorem C58_never_outside_buffer : forall ops m, wf m -> Forall reset_ok ops ->
  Forall (fun x => fst (fst x) <> OUndef) (fst (tm_run m ops)) /\ wf (snd (tm_run m ops)).
Proof. exact run_safe. Qed.
Print Assumptions C58_never_outside_buffer.

(* --- getRaw/getFixed/getPod: succeeds exactly when the bytes are inside [offset, size), size <= sizeof(raw);
       then returns exactly those bytes and advances; otherwise throws and changes nothing ----------------- *)
Theorem C58_get_raw_exact : forall m n, wf m -> n <> 0 ->
  (readable m n /\ tm_get_raw m n = (TOk (segment m n), advance m n) /\
   lenN (segment m n) = n /\ t_off m + n <= t_size m /\ t_size m <= lenN (t_raw m)) \/
  (~ readable m n /\ tm_get_raw m n = (TThrow, m)).
Proof.
  intros m n Hwf Hn. destruct (readable_dec m n) as [Hr|Hr].
  - left. split; [assumption|]. split; [apply get_raw_ok; assumption|]. split; [apply segment_len; assumption|].
    destruct Hr as (H1 & H2 & H3). unfold wf in Hwf. lia.
  - right. split; [assumption | apply get_raw_throw; assumption].
Qed.
Print Assumptions C58_get_raw_exact.

Theorem C58_get_int_exact : forall m, wf m ->
  (readable m 4 /\ tm_get_int m = (TOk (bytes_int (segment m 4)), advance m 4)) \/
  (~ readable m 4 /\ tm_get_int m = (TThrow, m)).
Proof.
  intros m Hwf. destruct (readable_dec m 4) as [Hr|Hr]; [left | right]; (split; [assumption|]).
  - apply get_int_ok; assumption.
  - apply get_int_throw; assumption.
Qed.
Print Assumptions C58_get_int_exact.

(* --- getString: throws on a missing, negative, oversized or truncated length ---------------------------- *)
Theorem C58_get_string_exact : forall m, wf m ->
  tm_get_string m =
  match readable_dec m 4 with
  | right _ => (TThrow, m)
  | left _ =>
    let len := bytes_int (segment m 4) in
    let m1 := advance m 4 in
    if (len <? 0)%Z then (TThrow, m1)
    else if (len =? 0)%Z then (TOk [], m1)
    else if (Z.of_N tm_max_size <? len)%Z then (TThrow, m1)
    else match readable_dec m1 (Z.to_N len) with
         | left _ => (TOk (segment m1 (Z.to_N len)), advance m1 (Z.to_N len))
         | right _ => (TThrow, m1)
         end
  end.
Proof. exact get_string_spec. Qed.
Print Assumptions C58_get_string_exact.

(* --- checkType accepts exactly the stored type ---------------------------------------------------------- *)
Theorem C58_check_type_exact : forall m t,
  tm_check_type m t = (if (tm_raw_type m =? t)%Z then TOk tt else TThrow, m).
Proof. exact check_type_spec. Qed.
Print Assumptions C58_check_type_exact.

(* --- putRaw/putFixed/putPod/putInt: appends inside the array or throws and changes nothing -------------- *)
Theorem C58_put_raw_exact : forall m b, wf m -> lenN b <> 0 ->
  (writable m (lenN b) /\ tm_put_raw m b = (TOk tt, appended m b) /\ wf (appended m b) /\
   payload (appended m b) = payload m ++ b /\ t_size m + lenN b <= lenN (t_raw m)) \/
  (~ writable m (lenN b) /\ tm_put_raw m b = (TThrow, m)).
Proof.
  intros m b Hwf Hn. destruct (writable_dec m (lenN b)) as [Hw|Hw].
  - left. split; [assumption|]. split; [apply put_raw_ok; assumption|]. split; [apply appended_wf; assumption|].
    split; [apply appended_payload; assumption|]. destruct Hw as (H1 & H2). unfold wf in Hwf. lia.
  - right. split; [assumption | apply put_raw_throw; assumption].
Qed.
Print Assumptions C58_put_raw_exact.

Theorem C58_put_string_too_long_rejected : forall m s, tm_max_size < lenN s -> tm_put_string m s = (TThrow, m).
Proof. intros m s H. unfold tm_put_string. replace (lenN s <=? tm_max_size) with false by lia. reflexivity. Qed.
Print Assumptions C58_put_string_too_long_rejected.

(* --- the received-size check is what this rests on: without it the same read leaves the array ----------- *)
Theorem C58_size_check_is_needed :
  exists m n, wf m /\ fst (tm_get_raw_unchecked m n) = TUndef /\ fst (tm_get_raw m n) = TThrow.
Proof.
  exists (tm_received 1%Z 5000 zero_raw), 4097. split; [apply fresh_wf|]. split; vm_compute; reflexivity.
Qed.
Print Assumptions C58_size_check_is_needed.

(* --- the hypotheses are satisfiable by non-trivial values ------------------------------------------------ *)
Definition ex_fields : list field := [FInt (-2); FString [97; 0; 98]; FBytes [1; 2; 3; 4; 5; 6; 7; 8]; FString []; FInt 2147483647].

Example C58_ex_fields_ok : Forall field_ok ex_fields /\ lenN (enc_all ex_fields) = 27 /\ lenN (enc_all ex_fields) <= tm_raw_size.
Proof. split; [repeat constructor; vm_compute; congruence | split; vm_compute; congruence]. Qed.

Example C58_ex_roundtrip :
  outs (fst (tm_run tm_fresh ([TSetType 7] ++ map put_op ex_fields ++ [TRecv; TCheckType 7] ++ map get_op ex_fields ++ [THasMore])))
  = [OOk; OOk; OOk; OOk; OOk; OOk; OOk; OOk; OInt (-2); OBytes [97; 0; 98]; OBytes [1; 2; 3; 4; 5; 6; 7; 8]; OBytes []; OInt 2147483647; OBool false].
Proof. vm_compute. reflexivity. Qed.

(* a received buffer announcing 5000 bytes: every getter throws, none reads *)
Example C58_ex_oversized : wf (tm_received 3 5000 zero_raw) /\
  outs (fst (tm_run (tm_received 3 5000 zero_raw) [TGetFixed 4200; TGetInt; TGetString; TPutInt 1; TCheckType 4; TCheckType 3]))
  = [OThrow; OThrow; OThrow; OThrow; OThrow; OOk].
Proof. split; [apply fresh_wf | vm_compute; reflexivity]. Qed.

(* a string whose length field says -1, 4097, or more than what is left *)
Example C58_ex_bad_lengths :
  outs (fst (tm_run tm_fresh [TReset 3 8 (raw_of 0 0 [255; 255; 255; 255]); TGetString;
                              TReset 3 4096 (raw_of 0 0 [1; 16; 0; 0]); TGetString;
                              TReset 3 8 (raw_of 0 0 [5; 0; 0; 0; 97; 98; 99; 100]); TGetString;
                              TReset 3 8 (raw_of 0 0 [4; 0; 0; 0; 97; 98; 99; 100]); TGetString]))
  = [OOk; OThrow; OOk; OThrow; OOk; OThrow; OOk; OBytes [97; 98; 99; 100]].
Proof. vm_compute. reflexivity. Qed.

Example C58_ex_reset_ok : reset_ok (TReset 3 8 (raw_of 0 0 [4; 0; 0; 0])).
Proof. intros ty sz raw H. inversion H; subst. vm_compute. reflexivity. Qed.
