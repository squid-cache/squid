(* ProxypProofs.v — lemmas and proofs for C38 (PROXY protocol).
   In order: stability of the Tokenizer and BinaryTokenizer reads under extension of the input (front_stable);
   the magic dispatch (magic_cases) and the outcome invariant (sane); definitive outcomes are stable
   (pp_parse_ext); v1 lines forward (v1_tcp_line, the rejections, the decimal port text); v2 round trips
   (v2_addr_roundtrip) and rejections; the converse for accepted v1 lines (v1_accepted_is_wellformed). *)
Require Import SquidV.Bytes SquidV.TokModel SquidV.TokProofs SquidV.Int64Proofs SquidV.ProxypModel.
Require Import SquidV.gen.Proxyp_gen.
Require Import ZifyBool.
Local Open Scope N_scope.
(* ZifyBool makes lia split on every boolean in the context; the arithmetic here never needs that *)
Ltac Zify.zify_post_hook ::= idtac.

Lemma lenN_nil_iff {A} (l : list A) : lenN l = 0 <-> l = [].
Proof. apply Bytes.lenN_nil_iff. Qed.

(* BinaryTokenizer with expectMore = true: a read that is not short of bytes gives the same value
   on every extension of the input and leaves the extension unread *)
Definition front_stable {A} (f : bytes -> bres A) : Prop :=
  forall d, f d = BMore \/ exists v r, f d = BOk v r /\ forall x, f (d ++ x) = BOk v (r ++ x).

Lemma bt_area_stable n : front_stable (bt_area true n).
Proof.
  intros d. unfold bt_area, bt_short.
  destruct (N.ltb_spec (lenN d) n) as [H|H]; [left; reflexivity|right].
  eexists _, _. split; [reflexivity|]. intros x. rewrite lenN_app.
  destruct (N.ltb_spec (lenN d + lenN x) n); [lia|]. now rewrite takeN_app_le, dropN_app_le.
Qed.

Lemma bt_uintN_stable k : front_stable (bt_uintN true k).
Proof.
  intros d. unfold bt_uintN.
  destruct (bt_area_stable k d) as [->|(v & r & -> & X)]; [left; reflexivity|right].
  eexists _, _. split; [reflexivity|]. intros x. rewrite X. reflexivity.
Qed.

Lemma bt_pstringN_stable k : front_stable (bt_pstringN true k).
Proof.
  intros d. unfold bt_pstringN.
  destruct (bt_uintN_stable k d) as [->|(len & r & -> & X)]; [left; reflexivity|].
  destruct (len =? 0) eqn:E.
  - right. eexists _, _. split; [reflexivity|]. intros x. rewrite X, E. reflexivity.
  - destruct (bt_area_stable len r) as [->|(v & r' & -> & Y)]; [left; reflexivity|right].
    eexists _, _. split; [reflexivity|]. intros x. rewrite X, E, Y. reflexivity.
Qed.

Lemma bt_area_len em n d v r : bt_area em n d = BOk v r -> lenN v = n /\ lenN d = n + lenN r.
Proof.
  unfold bt_area. destruct (N.ltb_spec (lenN d) n); [destruct em; discriminate|].
  intros [= <- <-]. rewrite lenN_takeN, lenN_dropN. lia.
Qed.

Lemma bt_uintN_len em k d v r : bt_uintN em k d = BOk v r -> lenN d = k + lenN r.
Proof.
  unfold bt_uintN. destruct (bt_area em k d) as [a r'| |] eqn:E; try discriminate.
  intros [= _ <-]. now apply bt_area_len in E.
Qed.

Lemma bt_pstringN_len em k d v r : bt_pstringN em k d = BOk v r -> lenN d = k + lenN v + lenN r.
Proof.
  unfold bt_pstringN. destruct (bt_uintN em k d) as [len r'| |] eqn:E; try discriminate.
  apply bt_uintN_len in E. destruct (len =? 0).
  - intros [= <- <-]. cbn [lenN]. lia.
  - intros H. apply bt_area_len in H. lia.
Qed.

Lemma v2_parse_ext b x : v2_parse b <> More -> v2_parse (b ++ x) = v2_parse b.
Proof.
  unfold v2_parse, bt_uint8, bt_pstring16.
  destruct (bt_uintN_stable 1 b) as [->|(vc & r1 & -> & X1)]; [congruence|]. rewrite X1.
  destruct (negb (vc / 16 =? 2)); [reflexivity|].
  destruct (pp_cmdProxy <? vc mod 16); [reflexivity|].
  destruct (bt_uintN_stable 1 r1) as [->|(fp & r2 & -> & X2)]; [congruence|]. rewrite X2.
  destruct (pp_afUnix <? fp / 16); [reflexivity|].
  destruct (pp_tpDgram <? fp mod 16); [reflexivity|].
  destruct (bt_pstringN_stable 2 r2) as [->|(raw & r3 & -> & X3)]; [congruence|]. now rewrite X3.
Qed.

Lemma skipChar_ext c r x : r <> [] -> tok_skipChar c (r ++ x) =
  (fst (tok_skipChar c r), snd (tok_skipChar c r) ++ x).
Proof. apply tok_skipChar_ext. Qed.

Lemma v1_isolate_ext b x : v1_isolate b <> IsoMore -> v1_isolate (b ++ x) = v1_isolate b.
Proof.
  unfold v1_isolate.
  destruct (tok_prefix nonCR v1_maxInteriorLength b) as [[t r1]|] eqn:P.
  - destruct r1 as [|c1 r1']; [cbn; congruence|].
    rewrite (tok_prefix_ext_some _ _ _ x _ _ P) by discriminate.
    cbn [app tok_skipChar]. destruct (c1 =? 13); [|reflexivity].
    destruct r1' as [|c2 r2']; [cbn; congruence|].
    cbn [app tok_skipChar]. destruct (c2 =? 10); reflexivity.
  - destruct b as [|c b']; [cbn; congruence|].
    rewrite (tok_prefix_ext_none _ _ _ x P) by discriminate. reflexivity.
Qed.

Lemma v1_parse_ext ipf b x : v1_parse ipf b <> More -> v1_parse ipf (b ++ x) = v1_parse ipf b.
Proof.
  unfold v1_parse. intros H. rewrite v1_isolate_ext; [reflexivity|].
  destruct (v1_isolate b); congruence.
Qed.

Lemma starts_with_takeN l p : starts_with l p = list_eqb (takeN (lenN p) l) p.
Proof.
  revert l; induction p as [|y p IH]; intros l; [now destruct l|].
  destruct l as [|a l]; [reflexivity|]. cbn [starts_with lenN takeN list_eqb].
  destruct (N.eqb_spec (N.succ (lenN p)) 0); [lia|]. now rewrite N.pred_succ, IH.
Qed.

Lemma starts_with_app_le l p x : lenN p <= lenN l -> starts_with (l ++ x) p = starts_with l p.
Proof. intros H. now rewrite !starts_with_takeN, takeN_app_le. Qed.

Lemma pp_parse_v2 ipf y : pp_parse ipf (pp_magic2 ++ y) = add_size (lenN pp_magic2) (v2_parse y).
Proof. unfold pp_parse. now rewrite tok_skip_self. Qed.

(* the two magics differ in their first byte *)
Lemma pp_parse_v1 ipf y : pp_parse ipf (pp_magic1 ++ y) = add_size (lenN pp_magic1) (v1_parse ipf y).
Proof.
  unfold pp_parse. change (tok_skip pp_magic2 (pp_magic1 ++ y)) with (false, pp_magic1 ++ y).
  now rewrite tok_skip_self.
Qed.

Lemma pp_parse_other ipf b :
  starts_with b pp_magic1 = false -> starts_with b pp_magic2 = false ->
  pp_parse ipf b = if lenN pp_magic2 <=? lenN b then Reject E_magic else More.
Proof. intros H1 H2. unfold pp_parse, tok_skip. now rewrite H2, H1. Qed.

Lemma magic_cases b :
  (exists r, b = pp_magic2 ++ r) \/ (exists r, b = pp_magic1 ++ r) \/
  (starts_with b pp_magic1 = false /\ starts_with b pp_magic2 = false).
Proof.
  destruct (starts_with b pp_magic2) eqn:S2; [left; eexists; apply starts_with_split, S2|right].
  destruct (starts_with b pp_magic1) eqn:S1; [left; eexists; apply starts_with_split, S1|right].
  split; reflexivity.
Qed.

Lemma add_size_more k o : add_size k o <> More <-> o <> More.
Proof. destruct o; cbn [add_size]; split; congruence. Qed.

(* whatever is not "need more" is final (the first sentence of property C38) *)
Theorem pp_parse_ext ipf b x : pp_parse ipf b <> More -> pp_parse ipf (b ++ x) = pp_parse ipf b.
Proof.
  destruct (magic_cases b) as [(r & ->)|[(r & ->)|(S1 & S2)]].
  - rewrite <- app_assoc, !pp_parse_v2. intros H. apply add_size_more in H. now rewrite v2_parse_ext.
  - rewrite <- app_assoc, !pp_parse_v1. intros H. apply add_size_more in H. now rewrite v1_parse_ext.
  - rewrite (pp_parse_other ipf b S1 S2).
    destruct (N.leb_spec (lenN pp_magic2) (lenN b)) as [L|L]; [intros _|congruence].
    assert (M : lenN pp_magic1 <= lenN pp_magic2) by (vm_compute; discriminate).
    rewrite pp_parse_other, lenN_app by (rewrite starts_with_app_le; [assumption|lia]).
    destruct (N.leb_spec (lenN pp_magic2) (lenN b + lenN x)); [reflexivity|lia].
Qed.

Corollary pp_ok_stable ipf b x h n : pp_parse ipf b = Ok h n -> pp_parse ipf (b ++ x) = Ok h n.
Proof. intros H. rewrite pp_parse_ext; [exact H|rewrite H; discriminate]. Qed.

Corollary pp_reject_stable ipf b x e : pp_parse ipf b = Reject e -> pp_parse ipf (b ++ x) = Reject e.
Proof. intros H. rewrite pp_parse_ext; [exact H|rewrite H; discriminate]. Qed.

Theorem pp_prefix_consistent ipf p x :
  pp_parse ipf p = More \/ pp_parse ipf p = pp_parse ipf (p ++ x).
Proof.
  destruct (pp_parse ipf p) eqn:E; [right|left; reflexivity|right];
    symmetry; rewrite <- E; apply pp_parse_ext; rewrite E; discriminate.
Qed.

Lemma inits_spec l p : In p (inits l) -> exists x, l = p ++ x.
Proof.
  revert p; induction l as [|a l IH]; intros p H; cbn [inits] in H.
  - destruct H as [<-|[]]. exists []. reflexivity.
  - destruct H as [<-|H]; [exists (a :: l); reflexivity|].
    apply in_map_iff in H as (q & <- & Hq). destruct (IH q Hq) as (x & ->). exists x. reflexivity.
Qed.

Theorem pp_all_prefixes_consistent ipf full o :
  In o (pp_parse_prefixes ipf full) -> o = More \/ o = pp_parse ipf full.
Proof.
  unfold pp_parse_prefixes. intros H. apply in_map_iff in H as (p & <- & Hp).
  destruct (inits_spec _ _ Hp) as (x & ->). apply pp_prefix_consistent.
Qed.

Theorem invalid_magic_rejected ipf b :
  starts_with b pp_magic1 = false -> starts_with b pp_magic2 = false -> lenN pp_magic2 <= lenN b ->
  pp_parse ipf b = Reject E_magic.
Proof.
  intros H1 H2 Hl. rewrite pp_parse_other by assumption.
  destruct (N.leb_spec (lenN pp_magic2) (lenN b)); [reflexivity|lia].
Qed.

(* decimal ports through Tokenizer::int64(port, 10, false) *)
Definition is_dec (c : N) : Prop := 48 <= c <= 57.
Definition dec_val_from (ds : bytes) (a : N) : N := fold_left (fun a c => a * 10 + (c - 48)) ds a.
Definition stops10 (r : bytes) : Prop := match r with [] => True | c :: _ => digit_of 10 c = None end.

Lemma digit_run_dec ds r :
  Forall is_dec ds -> stops10 r -> digit_run 10 (ds ++ r) = map (fun c => (Z.of_N c - 48)%Z) ds.
Proof.
  intros Hd Hs. induction Hd as [|c ds Hc _ IH]; cbn [app map digit_run].
  - destruct r; cbn [digit_run]; [reflexivity|]. cbn [stops10] in Hs. now rewrite Hs.
  - rewrite digit_of_10. replace (is_digit c) with true by (unfold is_digit, is_dec in *; lia). now rewrite IH.
Qed.

Lemma digits_value_dec ds : forall a, Forall is_dec ds ->
  digits_value 10 (map (fun c => (Z.of_N c - 48)%Z) ds) (Z.of_N a) = Z.of_N (dec_val_from ds a).
Proof.
  induction ds as [|c ds IH]; intros a Hd; [reflexivity|]. inversion Hd as [|? ? Hc Hds]; subst.
  cbn [map]. rewrite digits_value_cons. unfold dec_val_from. cbn [fold_left].
  rewrite <- (IH _ Hds). f_equal. unfold is_dec in Hc. lia.
Qed.

(* on a digit string, int64 returns exactly its value, or fails when that does not fit *)
Lemma tok_int64_digits ds r :
  ds <> [] -> Forall is_dec ds -> stops10 r -> lenN (ds ++ r) <= npos ->
  tok_int64 10 false npos (ds ++ r) =
  if (Z.of_N (dec_value ds) >? two63 - 1)%Z then None else Some (Z.of_N (dec_value ds), lenN ds).
Proof.
  intros Hne Hd Hs Hlen. rewrite tok_int64_dec_unsigned, takeN_all, digit_run_dec by assumption.
  pose proof (digits_value_dec ds 0 Hd) as V. pose proof (lenN_map (fun c => (Z.of_N c - 48)%Z) ds) as L.
  destruct ds as [|c ds]; [congruence|]. cbn [map] in *. cbv zeta.
  change (Z.of_N 0) with 0%Z in V. now rewrite V, L.
Qed.

Lemma tok_int64_nondigit c r : digit_of 10 c = None -> tok_int64 10 false npos (c :: r) = None.
Proof.
  intros H. rewrite tok_int64_dec_unsigned. cbn [takeN]. change (npos =? 0) with false.
  cbn [digit_run]. now rewrite H.
Qed.

(* One::ExtractPort on digits followed by what ends the field *)
Lemma extract_port_ok (ts : bool) ds (r r' : list N) :
  ds <> [] -> Forall is_dec ds -> dec_value ds <= 65535 -> stops10 r -> lenN (ds ++ r) <= npos ->
  (if ts then tok_skipChar 32 r else (true, r)) = (true, r') ->
  v1_extract_port ts (ds ++ r) = inr (dec_value ds, r').
Proof.
  intros Hne Hd Hv Hs Hlen Hsp. unfold v1_extract_port. rewrite tok_int64_digits by assumption.
  unfold two63. destruct (_ >? _ - 1)%Z eqn:E; [lia|]. cbv beta iota zeta. rewrite dropN_app_exact, Hsp.
  destruct (_ >? 65535)%Z eqn:E'; [lia|]. now rewrite Z.mod_small, N2Z.id by lia.
Qed.

(* a port field whose digits denote more than 65535 (any number of digits) is rejected *)
Lemma extract_port_big ts ds r :
  ds <> [] -> Forall is_dec ds -> 65535 < dec_value ds -> stops10 r -> lenN (ds ++ r) <= npos ->
  exists e, v1_extract_port ts (ds ++ r) = inl e.
Proof.
  intros Hne Hd Hv Hs Hlen. unfold v1_extract_port. rewrite tok_int64_digits by assumption.
  destruct (_ >? two63 - 1)%Z; [eexists; reflexivity|]. cbv beta iota zeta.
  destruct (if ts then _ else _) as [[|] r2]; [|eexists; reflexivity].
  replace (_ >? 65535)%Z with true by lia. eexists; reflexivity.
Qed.

Lemma extract_port_nondigit ts c r :
  digit_of 10 c = None -> v1_extract_port ts (c :: r) = inl E1_port_malformed.
Proof. intros H. unfold v1_extract_port. now rewrite tok_int64_nondigit. Qed.

(* the character classes, from the regenerated tables *)
Lemma nonCR_spec c : nonCR c = negb (c =? 13).
Proof.
  destruct (N.ltb_spec c 256) as [H|H].
  - apply (forallb_bytes (fun c => Bool.eqb (nonCR c) (negb (c =? 13)))) in H; [apply eqb_prop; exact H|].
    vm_compute. reflexivity.
  - unfold nonCR, pp_CR, mem_tbl. rewrite tbl_get_default by (vm_compute lenN; exact H).
    destruct (c =? 13) eqn:E; [lia|reflexivity].
Qed.

(* no CR in the parts a v1 line is put together from *)
Lemma nonCR_cons c l : c <> 13 -> forallb nonCR l = true -> forallb nonCR (c :: l) = true.
Proof. intros Hc Hl. cbn [forallb]. rewrite Hl, nonCR_spec. now destruct (N.eqb_spec c 13). Qed.

Lemma nonCR_app a b : forallb nonCR a = true -> forallb nonCR b = true -> forallb nonCR (a ++ b) = true.
Proof. intros Ha Hb. now rewrite forallb_app, Ha, Hb. Qed.

Lemma nonCR_dec ds : Forall is_dec ds -> forallb nonCR ds = true.
Proof.
  induction 1 as [|c ds Hc _ IH]; [reflexivity|].
  apply nonCR_cons; [unfold is_dec in Hc; lia|exact IH].
Qed.

Lemma nonCR_ip t : forallb ipChars t = true -> forallb nonCR t = true.
Proof.
  apply forallb_impl. intros c H. rewrite nonCR_spec.
  destruct (N.eqb_spec c 13) as [->|]; [vm_compute in H; discriminate|reflexivity].
Qed.

Lemma fam_not_CR fam : famChars fam = true -> fam <> 13.
Proof. intros H ->. discriminate H. Qed.

Create HintDb nonCR.
#[local] Hint Resolve nonCR_cons nonCR_app nonCR_dec nonCR_ip fam_not_CR : nonCR.
#[local] Hint Extern 1 (_ <> 13) => discriminate : nonCR.

(* lengths of lists put together with ++ and ::, then linear arithmetic on the goal alone: callers `revert`
   the hypothesis they need first *)
Ltac len_lia :=
  repeat (rewrite lenN_app || cbn [lenN pp_magic1 pp_magic2 s_TCP s_UNKNOWN]); unfold npos; lia.

Lemma v1_isolate_ok interior rest :
  interior <> [] -> forallb nonCR interior = true -> lenN interior <= v1_maxInteriorLength ->
  v1_isolate (interior ++ 13 :: 10 :: rest) = IsoOk interior (lenN interior + 1 + 1).
Proof.
  intros Hne Hall Hle. unfold v1_isolate.
  now rewrite tok_prefix_complete; try assumption; [|right; reflexivity].
Qed.

Lemma extract_ip_ok ipf t a r :
  t <> [] -> forallb ipChars t = true -> ipf t = Some a -> lenN t <= npos ->
  v1_extract_ip ipf (t ++ 32 :: r) = inr (a, r).
Proof.
  intros Hne Hall Hip Hlen. unfold v1_extract_ip.
  rewrite tok_prefix_complete; try assumption; [|right; reflexivity].
  cbn [tok_skipChar N.eqb Pos.eqb]. now rewrite Hip.
Qed.

Lemma enc_v1_tcp_shape fam st dt sps dps rest :
  enc_v1_tcp fam st dt sps dps ++ rest =
  pp_magic1 ++ (32 :: s_TCP ++ fam :: 32 :: st ++ 32 :: dt ++ 32 :: sps ++ 32 :: dps) ++ 13 :: 10 :: rest.
Proof. unfold enc_v1_tcp. repeat (rewrite <- app_assoc; cbn [app]). reflexivity. Qed.

Lemma enc_v1_tcp_len fam st dt sps dps :
  lenN (enc_v1_tcp fam st dt sps dps) = 16 + lenN st + lenN dt + lenN sps + lenN dps.
Proof. unfold enc_v1_tcp. len_lia. Qed.

(* v1 TCP lines "PROXY TCP" fam SP st SP dt SP ..., with two address texts the conversion accepts *)
Section TcpLine.
Variables (ipf : bytes -> option ipaddr) (fam : N) (st dt : bytes) (sa da : ipaddr).
Hypotheses (Hst : st <> []) (Hdt : dt <> []) (Hsc : forallb ipChars st = true) (Hdc : forallb ipChars dt = true)
           (Hsa : ipf st = Some sa) (Hda : ipf dt = Some da).

(* on a complete line the outcome is that of the family check, of One::ExtractPort on what follows,
   and of the final atEnd test *)
Lemma v1_tcp_line more rest :
  famChars fam = true -> forallb nonCR more = true -> lenN (fam :: 32 :: st ++ 32 :: dt ++ 32 :: more) <= 96 ->
  pp_parse ipf (pp_magic1 ++ (32 :: s_TCP ++ fam :: 32 :: st ++ 32 :: dt ++ 32 :: more) ++ 13 :: 10 :: rest) =
  if negb (list_eqb (address_family sa da) [fam]) then Reject E1_family_mismatch else
  match v1_extract_port true more with
  | inl e => Reject e
  | inr (sp, r5) =>
      match v1_extract_port false r5 with
      | inl e => Reject e
      | inr (dp, r6) =>
          if bt_atEnd r6
          then Ok {| h_v2 := false; h_cmd := pp_cmdProxy; h_ignore := false;
                     h_src := sa; h_sport := sp; h_dst := da; h_dport := dp; h_tlvs := [] |}
                  (lenN st + lenN dt + lenN more + 15)
          else Reject E1_garbage_after_dst_port
      end
  end.
Proof.
  intros Hfc Hm Hlen.
  repeat (rewrite lenN_app in Hlen || cbn [lenN] in Hlen).
  rewrite pp_parse_v1. unfold v1_parse. rewrite v1_isolate_ok; [|discriminate|cbn [app]; auto 9 with nonCR|].
  2:{ change v1_maxInteriorLength with 100. len_lia. }
  unfold v1_interior. cbn [tok_skipChar N.eqb Pos.eqb]. rewrite tok_skip_self.
  change (negb (lenN s_TCP =? 0)) with true. cbv iota.
  unfold v1_addresses.
  change (fam :: 32 :: st ++ 32 :: dt ++ 32 :: more) with ([fam] ++ 32 :: st ++ 32 :: dt ++ 32 :: more).
  rewrite tok_prefix_complete; [|discriminate|cbn [forallb]; now rewrite Hfc|cbn [lenN]; lia|left; reflexivity].
  cbn [tok_skipChar N.eqb Pos.eqb].
  rewrite (extract_ip_ok ipf st sa _ Hst Hsc Hsa), (extract_ip_ok ipf dt da _ Hdt Hdc Hda) by (unfold npos; lia).
  destruct (negb _); [reflexivity|].
  destruct (v1_extract_port true more) as [e|[sp r5]]; [reflexivity|].
  destruct (v1_extract_port false r5) as [e|[dp r6]]; [reflexivity|].
  destruct (bt_atEnd r6); [|reflexivity]. cbn [add_size]. f_equal. len_lia.
Qed.

Theorem v1_tcp_roundtrip sps dps rest :
  ((fam = 52 /\ is_ipv4 sa = true /\ is_ipv4 da = true) \/ (fam = 54 /\ is_ipv4 sa = false /\ is_ipv4 da = false)) ->
  sps <> [] -> Forall is_dec sps -> dec_value sps <= 65535 ->
  dps <> [] -> Forall is_dec dps -> dec_value dps <= 65535 ->
  lenN (enc_v1_tcp fam st dt sps dps) <= v1_maxHeaderLength ->
  pp_parse ipf (enc_v1_tcp fam st dt sps dps ++ rest) =
  Ok {| h_v2 := false; h_cmd := pp_cmdProxy; h_ignore := false;
        h_src := sa; h_sport := dec_value sps; h_dst := da; h_dport := dec_value dps; h_tlvs := [] |}
     (lenN (enc_v1_tcp fam st dt sps dps)).
Proof.
  intros Hfam Hsp1 Hsp2 Hsp3 Hdp1 Hdp2 Hdp3 Hlen.
  rewrite enc_v1_tcp_len in Hlen |- *. change v1_maxHeaderLength with 107 in Hlen.
  assert (Hfc : famChars fam = true) by (destruct Hfam as [(-> & _)|(-> & _)]; reflexivity).
  assert (Haf : address_family sa da = [fam]).
  { unfold address_family. destruct Hfam as [(-> & -> & ->)|(-> & -> & ->)]; reflexivity. }
  rewrite enc_v1_tcp_shape, v1_tcp_line; [|assumption|auto with nonCR|revert Hlen; len_lia].
  rewrite Haf, list_eqb_refl. cbn [negb].
  rewrite (extract_port_ok true sps (32 :: dps) dps); try assumption; [|reflexivity|revert Hlen; len_lia|reflexivity].
  pose proof (extract_port_ok false dps [] [] Hdp1 Hdp2 Hdp3 I) as P. rewrite app_nil_r in P.
  rewrite P; [|revert Hlen; len_lia|reflexivity]. cbn [bt_atEnd]. f_equal. len_lia.
Qed.

Theorem v1_family_mismatch_rejected more rest :
  ((fam = 52 /\ (is_ipv4 sa = false \/ is_ipv4 da = false)) \/ (fam = 54 /\ (is_ipv4 sa = true \/ is_ipv4 da = true))) ->
  forallb nonCR more = true -> lenN (fam :: 32 :: st ++ 32 :: dt ++ 32 :: more) <= 96 ->
  pp_parse ipf (pp_magic1 ++ (32 :: s_TCP ++ fam :: 32 :: st ++ 32 :: dt ++ 32 :: more) ++ 13 :: 10 :: rest)
  = Reject E1_family_mismatch.
Proof.
  intros Hfam Hm Hlen.
  assert (Hfc : famChars fam = true) by (destruct Hfam as [(-> & _)|(-> & _)]; reflexivity).
  rewrite v1_tcp_line by assumption.
  replace (list_eqb (address_family sa da) [fam]) with false; [reflexivity|].
  unfold address_family.
  destruct Hfam as [(-> & [H|H])|(-> & [H|H])]; rewrite H; destruct (is_ipv4 sa), (is_ipv4 da); reflexivity.
Qed.

(* a source or destination port above 65535 (any number of digits, leading zeros included) *)
Theorem v1_big_src_port_rejected sps more rest :
  famChars fam = true ->
  sps <> [] -> Forall is_dec sps -> 65535 < dec_value sps -> stops10 more ->
  forallb nonCR more = true -> lenN (fam :: 32 :: st ++ 32 :: dt ++ 32 :: sps ++ more) <= 96 ->
  exists e, pp_parse ipf (pp_magic1 ++ (32 :: s_TCP ++ fam :: 32 :: st ++ 32 :: dt ++ 32 :: sps ++ more) ++ 13 :: 10 :: rest)
  = Reject e.
Proof.
  intros Hfc Hs1 Hs2 Hs3 Hstop Hm Hlen.
  rewrite v1_tcp_line by (assumption || auto with nonCR).
  destruct (negb _); [eexists; reflexivity|].
  destruct (extract_port_big true sps more Hs1 Hs2 Hs3 Hstop) as [e ->]; [revert Hlen; len_lia|].
  eexists; reflexivity.
Qed.

Theorem v1_nonnumeric_src_port_rejected c more rest :
  famChars fam = true -> digit_of 10 c = None ->
  forallb nonCR (c :: more) = true -> lenN (fam :: 32 :: st ++ 32 :: dt ++ 32 :: c :: more) <= 96 ->
  exists e, pp_parse ipf (pp_magic1 ++ (32 :: s_TCP ++ fam :: 32 :: st ++ 32 :: dt ++ 32 :: c :: more) ++ 13 :: 10 :: rest)
  = Reject e.
Proof.
  intros Hfc Hc Hm Hlen. rewrite v1_tcp_line by assumption.
  destruct (negb _); [eexists; reflexivity|].
  rewrite (extract_port_nondigit true c more Hc). eexists; reflexivity.
Qed.

Theorem v1_big_dst_port_rejected sps dps more rest :
  famChars fam = true ->
  sps <> [] -> Forall is_dec sps -> dec_value sps <= 65535 ->
  dps <> [] -> Forall is_dec dps -> 65535 < dec_value dps -> stops10 more ->
  forallb nonCR more = true -> lenN (fam :: 32 :: st ++ 32 :: dt ++ 32 :: sps ++ 32 :: dps ++ more) <= 96 ->
  exists e, pp_parse ipf (pp_magic1 ++ (32 :: s_TCP ++ fam :: 32 :: st ++ 32 :: dt ++ 32 :: sps ++ 32 :: dps ++ more) ++ 13 :: 10 :: rest)
  = Reject e.
Proof.
  intros Hfc Hs1 Hs2 Hs3 Hd1 Hd2 Hd3 Hstop Hm Hlen.
  rewrite v1_tcp_line by (assumption || auto with nonCR).
  destruct (negb _); [eexists; reflexivity|].
  rewrite (extract_port_ok true sps (32 :: dps ++ more) (dps ++ more));
    try assumption; [|reflexivity|revert Hlen; len_lia|reflexivity].
  destruct (extract_port_big false dps more Hd1 Hd2 Hd3 Hstop) as [e ->]; [revert Hlen; len_lia|].
  eexists; reflexivity.
Qed.

(* bytes after the digits of the destination port: rejected (since the repair of One::Parse) *)
Theorem v1_trailing_bytes_rejected sps dps junk rest :
  famChars fam = true ->
  sps <> [] -> Forall is_dec sps -> dps <> [] -> Forall is_dec dps ->
  junk <> [] -> stops10 junk -> forallb nonCR junk = true ->
  lenN (fam :: 32 :: st ++ 32 :: dt ++ 32 :: sps ++ 32 :: dps ++ junk) <= 96 ->
  exists e,
  pp_parse ipf (pp_magic1 ++ (32 :: s_TCP ++ fam :: 32 :: st ++ 32 :: dt ++ 32 :: sps ++ 32 :: dps ++ junk) ++ 13 :: 10 :: rest)
  = Reject e.
Proof.
  intros Hfc Hs1 Hs2 Hd1 Hd2 Hjn Hstop Hj Hlen.
  rewrite v1_tcp_line by (assumption || auto with nonCR).
  destruct (negb _); [eexists; reflexivity|].
  destruct (N.leb_spec (dec_value sps) 65535) as [Hs3|Hs3].
  2:{ destruct (extract_port_big true sps (32 :: dps ++ junk) Hs1 Hs2 Hs3 eq_refl) as [e ->]; [revert Hlen; len_lia|].
      eexists; reflexivity. }
  rewrite (extract_port_ok true sps (32 :: dps ++ junk) (dps ++ junk));
    try assumption; [|reflexivity|revert Hlen; len_lia|reflexivity].
  destruct (N.leb_spec (dec_value dps) 65535) as [Hd3|Hd3].
  2:{ destruct (extract_port_big false dps junk Hd1 Hd2 Hd3 Hstop) as [e ->]; [revert Hlen; len_lia|]. eexists; reflexivity. }
  rewrite (extract_port_ok false dps junk junk); try assumption; [|revert Hlen; len_lia|reflexivity].
  destruct junk; [congruence|]. eexists; reflexivity.
Qed.

End TcpLine.

Theorem v1_unknown_roundtrip ipf junk rest :
  forallb nonCR junk = true -> lenN (enc_v1_unknown junk) <= v1_maxHeaderLength ->
  pp_parse ipf (enc_v1_unknown junk ++ rest) =
  Ok {| h_v2 := false; h_cmd := pp_cmdProxy; h_ignore := true;
        h_src := addr_empty; h_sport := 0; h_dst := addr_empty; h_dport := 0; h_tlvs := [] |}
     (lenN (enc_v1_unknown junk)).
Proof.
  intros Hj Hlen. unfold enc_v1_unknown in *. change v1_maxHeaderLength with 107 in Hlen.
  replace ((pp_magic1 ++ [32] ++ s_UNKNOWN ++ junk ++ [13; 10]) ++ rest)
    with (pp_magic1 ++ ((32 :: s_UNKNOWN ++ junk) ++ 13 :: 10 :: rest))
    by (repeat (rewrite <- app_assoc; cbn [app]); reflexivity).
  rewrite pp_parse_v1. unfold v1_parse.
  rewrite v1_isolate_ok; [|discriminate|auto with nonCR|change v1_maxInteriorLength with 100; revert Hlen; len_lia].
  unfold v1_interior. cbn [tok_skipChar N.eqb Pos.eqb].
  change (tok_skip s_TCP (s_UNKNOWN ++ junk)) with (false, s_UNKNOWN ++ junk). rewrite tok_skip_self.
  change (negb (lenN s_UNKNOWN =? 0)) with true. cbv iota. cbn [add_size]. f_equal. len_lia.
Qed.

(* oversized v1 line: 101 bytes without CR after the magic *)
Theorem v1_oversized_rejected ipf body rest :
  forallb nonCR body = true -> v1_maxInteriorLength < lenN body ->
  pp_parse ipf (pp_magic1 ++ body ++ rest) = Reject E1_malformed_header.
Proof.
  intros Hb Hlen. rewrite pp_parse_v1. unfold v1_parse, v1_isolate.
  pose proof (lenN_takeN v1_maxInteriorLength body) as Ht.
  pose proof (lenN_dropN v1_maxInteriorLength body) as Hd.
  rewrite <- (takeN_dropN v1_maxInteriorLength body) in Hb |- *.
  rewrite forallb_app in Hb. apply andb_true_iff in Hb as [Hat Har]. rewrite <- app_assoc.
  destruct (dropN v1_maxInteriorLength body) as [|c r']; [cbn [lenN] in Hd; lia|].
  rewrite tok_prefix_complete; [|intros E; rewrite E in Ht; cbn in Ht; lia|exact Hat|lia|left; lia].
  cbn [app tok_skipChar]. cbn [forallb] in Har. apply andb_true_iff in Har as [Hc _].
  rewrite nonCR_spec in Hc. now destruct (c =? 13).
Qed.

Definition b_1111 : bytes := [49;46;49;46;49;46;49].                      (* "1.1.1.1" *)
Definition a_1111 : ipaddr := v4_prefix ++ [1;1;1;1].
Definition b_mapped : bytes := [58;58;102;102;102;102;58;49;46;49;46;49;46;49].   (* "::ffff:1.1.1.1" *)
Definition b_v6 : bytes := [58;58;49].                                    (* "::1" *)
Definition a_v6 : ipaddr := [0;0;0;0;0;0;0;0;0;0;0;0;0;0;0;1].
(* "PROXY TCP4 1.1.1.1 1.1.1.1 1 2xyz\r\n" *)
Definition line_trailing : bytes :=
  pp_magic1 ++ (32 :: s_TCP ++ 52 :: 32 :: b_1111 ++ 32 :: b_1111 ++ 32 :: [49] ++ 32 :: [50] ++ [120;121;122]) ++ 13 :: 10 :: [].
(* "PROXY TCP6 ::ffff:1.1.1.1 ::1 1 2\r\n" *)
Definition line_mapped : bytes :=
  pp_magic1 ++ (32 :: s_TCP ++ 54 :: 32 :: b_mapped ++ 32 :: b_v6 ++ 32 :: [49;32;50]) ++ 13 :: 10 :: [].

Theorem v1_bytes_after_dst_port_rejected ipf :
  ipf b_1111 = Some a_1111 ->
  forall rest, pp_parse ipf (line_trailing ++ rest) = Reject E1_garbage_after_dst_port.
Proof.
  intros H rest.
  change (line_trailing ++ rest) with
    (pp_magic1 ++ (32 :: s_TCP ++ 52 :: 32 :: b_1111 ++ 32 :: b_1111 ++ 32 :: [49] ++ 32 :: [50] ++ [120;121;122]) ++ 13 :: 10 :: rest).
  rewrite (v1_tcp_line ipf 52 b_1111 b_1111 a_1111 a_1111); try assumption; try discriminate; reflexivity.
Qed.

Theorem v1_tcp6_v4mapped_refuted ipf :
  ipf b_mapped = Some a_1111 -> ipf b_v6 = Some a_v6 ->
  pp_parse ipf line_mapped = Reject E1_family_mismatch.
Proof.
  intros H1 H2. unfold line_mapped.
  apply (v1_family_mismatch_rejected ipf 54 b_mapped b_v6 a_1111 a_v6);
    try assumption; try discriminate; try reflexivity.
  right. split; [reflexivity|left; reflexivity].
Qed.

Lemma bt_area_app em n a b : lenN a = n -> bt_area em n (a ++ b) = BOk a b.
Proof.
  intros <-. unfold bt_area. rewrite lenN_app. destruct (N.ltb_spec (lenN a + lenN b) (lenN a)); [lia|].
  now rewrite takeN_app_exact, dropN_app_exact.
Qed.

Lemma bt_uint8_cons em c l : bt_uintN em 1 (c :: l) = BOk c l.
Proof. unfold bt_uintN. change (c :: l) with ([c] ++ l). now rewrite bt_area_app. Qed.

Lemma bt_uint16_u16be em n l : bt_uintN em 2 (u16be n ++ l) = BOk n l.
Proof.
  unfold bt_uintN. rewrite bt_area_app by reflexivity.
  unfold u16be, be_value. cbn [fold_left]. f_equal. pose proof (N.div_mod' n 256). lia.
Qed.

Lemma bt_pstring16_enc em v l : bt_pstringN em 2 (u16be (lenN v) ++ v ++ l) = BOk v l.
Proof.
  unfold bt_pstringN. rewrite bt_uint16_u16be.
  destruct (N.eqb_spec (lenN v) 0) as [E|_]; [apply lenN_nil_iff in E; now subst|now apply bt_area_app].
Qed.

Lemma nibble_hi hi lo : lo < 16 -> (hi * 16 + lo) / 16 = hi.
Proof. intros H. rewrite N.div_add_l, N.div_small by lia. apply N.add_0_r. Qed.

Lemma nibble_lo hi lo : lo < 16 -> (hi * 16 + lo) mod 16 = lo.
Proof. intros H. rewrite N.add_comm, N.mod_add by lia. now apply N.mod_small. Qed.

(* the fixed part of a v2 header *)
Lemma pp_parse_enc_v2 ipf cmd fam proto payload rest :
  cmd <= pp_cmdProxy -> fam <= pp_afUnix -> proto <= pp_tpDgram ->
  pp_parse ipf (enc_v2 cmd fam proto payload ++ rest) =
  add_size (lenN pp_magic2) (v2_finish cmd fam proto payload).
Proof.
  intros Hc Hf Hp. unfold enc_v2. rewrite <- !app_assoc, pp_parse_v2. f_equal.
  unfold v2_parse, bt_uint8, bt_pstring16. cbn [app].
  assert (Hc' : cmd < 16) by (change pp_cmdProxy with 1 in Hc; lia).
  assert (Hp' : proto < 16) by (change pp_tpDgram with 2 in Hp; lia).
  rewrite !bt_uint8_cons, !nibble_hi, !nibble_lo by assumption.
  apply N.ltb_ge in Hc, Hf, Hp. rewrite Hc, Hf, Hp.
  now rewrite bt_pstring16_enc.
Qed.

Lemma enc_v2_len cmd fam proto payload : lenN (enc_v2 cmd fam proto payload) = 16 + lenN payload.
Proof. unfold enc_v2, u16be. len_lia. Qed.

Lemma enc_tlvs_length tlvs : (length tlvs <= length (enc_tlvs tlvs))%nat.
Proof.
  induction tlvs as [|t ts IH]; cbn [enc_tlvs map concat length]; [lia|].
  fold (enc_tlvs ts). unfold enc_tlv. cbn [app length]. rewrite app_length. lia.
Qed.

Lemma tlvs_loop_enc tlvs : forall fuel, (length tlvs <= fuel)%nat -> tlvs_loop fuel (enc_tlvs tlvs) = TOk tlvs.
Proof.
  induction tlvs as [|[ty v] ts IH]; intros fuel Hf.
  - destruct fuel; reflexivity.
  - cbn [enc_tlvs map concat]. fold (enc_tlvs ts). unfold enc_tlv. cbn [fst snd app].
    destruct fuel as [|f]; [cbn [length] in Hf; lia|]. cbn [tlvs_loop bt_atEnd].
    unfold bt_uint8, bt_pstring16. rewrite bt_uint8_cons, <- app_assoc, bt_pstring16_enc.
    rewrite IH; [reflexivity|cbn [length] in Hf; lia].
Qed.

Lemma parse_tlvs_enc tlvs : parse_tlvs (enc_tlvs tlvs) = TOk tlvs.
Proof. unfold parse_tlvs. apply tlvs_loop_enc, le_S, enc_tlvs_length. Qed.

(* the TLV loop never runs out of fuel *)
Lemma tlvs_loop_fuel : forall fuel d, (length d < fuel)%nat -> tlvs_loop fuel d <> TFuel.
Proof.
  induction fuel as [|f IH]; intros d H; [lia|].
  cbn [tlvs_loop]. destruct (bt_atEnd d); [discriminate|].
  destruct (bt_uint8 false d) as [ty r1| |] eqn:E1; try discriminate.
  destruct (bt_pstring16 false r1) as [v r2| |] eqn:E2; try discriminate.
  apply bt_uintN_len in E1. apply bt_pstringN_len in E2. rewrite !lenN_length in *.
  specialize (IH r2). destruct (tlvs_loop f r2); try discriminate. apply IH. lia.
Qed.

Lemma parse_tlvs_fuel d : parse_tlvs d <> TFuel.
Proof. apply tlvs_loop_fuel. lia. Qed.

Lemma v2_addresses_enc a more :
  v2addr_wf a ->
  v2_addresses (v2addr_family a) (enc_v2_addr a ++ more) =
  Some (h_src (v2_expected 0 a []), h_sport (v2_expected 0 a []), h_dst (v2_expected 0 a []), h_dport (v2_expected 0 a []), more).
Proof.
  destruct a as [s d sp dp|s d sp dp|raw]; cbn [v2addr_wf v2addr_family enc_v2_addr v2_expected h_src h_sport h_dst h_dport].
  - intros (Hs & Hd & Hsp & Hdp). unfold v2_addresses, bt_inet4, bt_uint16.
    change (pp_afInet =? pp_afInet) with true. cbv iota.
    now rewrite <- !app_assoc, !bt_area_app, !bt_uint16_u16be by assumption.
  - intros (Hs & Hd & Hsp & Hdp). unfold v2_addresses, bt_inet6, bt_uint16.
    change (pp_afInet6 =? pp_afInet) with false. change (pp_afInet6 =? pp_afInet6) with true. cbv iota.
    now rewrite <- !app_assoc, !bt_area_app, !bt_uint16_u16be by assumption.
  - intros Hr. unfold v2_addresses, bt_skip. change (pp_afUnix =? pp_afInet) with false.
    change (pp_afUnix =? pp_afInet6) with false. change (pp_afUnix =? pp_afUnix) with true. cbv iota.
    rewrite lenN_app, Hr. destruct (N.ltb_spec (216 + lenN more) 216); [lia|].
    now rewrite <- Hr, dropN_app_exact.
Qed.

Lemma v2addr_family_bounds a : v2addr_family a <= pp_afUnix /\ (v2addr_family a =? pp_afUnspecified) = false.
Proof. destruct a; split; vm_compute; congruence. Qed.

(* a v2 header with an address block: the addresses and ports come back and the consumed size is the
   header length; with LOCAL what follows the block inside the header is discarded, otherwise it is
   read as TLVs *)
Theorem v2_addr_roundtrip ipf cmd a proto more rest :
  cmd <= pp_cmdProxy -> v2addr_wf a -> (proto = pp_tpStream \/ proto = pp_tpDgram) ->
  pp_parse ipf (enc_v2 cmd (v2addr_family a) proto (enc_v2_addr a ++ more) ++ rest) =
  if cmd =? pp_cmdLocal
  then Ok (v2_expected cmd a []) (lenN (enc_v2 cmd (v2addr_family a) proto (enc_v2_addr a ++ more)))
  else match parse_tlvs more with
       | TOk t => Ok (v2_expected cmd a t) (lenN (enc_v2 cmd (v2addr_family a) proto (enc_v2_addr a ++ more)))
       | TFail => Reject E_must
       | TFuel => Reject E_fuel
       end.
Proof.
  intros Hc Hwf Hp. destruct (v2addr_family_bounds a) as [Hf1 Hf2].
  rewrite pp_parse_enc_v2, enc_v2_len; [|exact Hc|exact Hf1|destruct Hp as [->| ->]; vm_compute; congruence].
  unfold v2_finish. rewrite Hf2.
  replace (proto =? pp_tpUnspecified) with false by (destruct Hp as [->| ->]; reflexivity). cbn [orb].
  rewrite (v2_addresses_enc a _ Hwf).
  unfold has_forwarded_addresses, local_connection, has_addresses.
  cbn [header_set_addrs header_new h_cmd h_ignore negb]. rewrite andb_true_r.
  change (lenN pp_magic2) with 12. destruct (cmd =? pp_cmdLocal); cbn [negb].
  - cbn [add_size]. f_equal; [destruct a; reflexivity|lia].
  - destruct (parse_tlvs more); [|reflexivity|reflexivity].
    cbn [add_size]. f_equal; [destruct a; reflexivity|lia].
Qed.

Theorem v2_proxy_roundtrip ipf a proto tlvs rest :
  v2addr_wf a -> (proto = pp_tpStream \/ proto = pp_tpDgram) ->
  Forall (fun t => lenN (snd t) < 65536) tlvs ->
  lenN (enc_v2_addr a ++ enc_tlvs tlvs) < 65536 ->
  pp_parse ipf (enc_v2 pp_cmdProxy (v2addr_family a) proto (enc_v2_addr a ++ enc_tlvs tlvs) ++ rest) =
  Ok (v2_expected pp_cmdProxy a tlvs) (lenN (enc_v2 pp_cmdProxy (v2addr_family a) proto (enc_v2_addr a ++ enc_tlvs tlvs))).
Proof.
  intros Hwf Hp _ _. rewrite v2_addr_roundtrip; [|vm_compute; congruence|assumption..].
  now rewrite parse_tlvs_enc.
Qed.

Theorem v2_local_roundtrip ipf a proto extra rest :
  v2addr_wf a -> (proto = pp_tpStream \/ proto = pp_tpDgram) ->
  lenN (enc_v2_addr a ++ extra) < 65536 ->
  pp_parse ipf (enc_v2 pp_cmdLocal (v2addr_family a) proto (enc_v2_addr a ++ extra) ++ rest) =
  Ok (v2_expected pp_cmdLocal a []) (lenN (enc_v2 pp_cmdLocal (v2addr_family a) proto (enc_v2_addr a ++ extra))).
Proof. intros Hwf Hp _. now rewrite v2_addr_roundtrip; [|vm_compute; congruence|assumption..]. Qed.

(* unspecified family or protocol: the block is skipped as a whole and no address is reported *)
Theorem v2_unspec_roundtrip ipf cmd fam proto payload rest :
  cmd <= pp_cmdProxy -> fam <= pp_afUnix -> proto <= pp_tpDgram ->
  (fam = pp_afUnspecified \/ proto = pp_tpUnspecified) -> lenN payload < 65536 ->
  pp_parse ipf (enc_v2 cmd fam proto payload ++ rest) =
  Ok {| h_v2 := true; h_cmd := cmd; h_ignore := true;
        h_src := addr_empty; h_sport := 0; h_dst := addr_empty; h_dport := 0; h_tlvs := [] |}
     (lenN (enc_v2 cmd fam proto payload)).
Proof.
  intros Hc Hf Hp Hu _. rewrite pp_parse_enc_v2, enc_v2_len by assumption. unfold v2_finish.
  replace ((proto =? pp_tpUnspecified) || (fam =? pp_afUnspecified)) with true
    by (destruct Hu as [->| ->]; [rewrite orb_true_r|]; reflexivity).
  cbn [add_size]. change (lenN pp_magic2) with 12. f_equal. lia.
Qed.

Theorem v2_bad_version_rejected ipf vc rest : vc / 16 <> 2 ->
  pp_parse ipf (pp_magic2 ++ vc :: rest) = Reject (E2_version (vc / 16)).
Proof.
  intros H. rewrite pp_parse_v2. unfold v2_parse, bt_uint8. rewrite bt_uint8_cons.
  apply N.eqb_neq in H. rewrite H. reflexivity.
Qed.

Theorem v2_bad_command_rejected ipf vc rest : vc / 16 = 2 -> pp_cmdProxy < vc mod 16 ->
  pp_parse ipf (pp_magic2 ++ vc :: rest) = Reject (E2_command (vc mod 16)).
Proof.
  intros H1 H2. rewrite pp_parse_v2. unfold v2_parse, bt_uint8. rewrite bt_uint8_cons, H1.
  apply N.ltb_lt in H2. rewrite H2. reflexivity.
Qed.

Theorem v2_bad_family_rejected ipf vc fp rest : vc / 16 = 2 -> vc mod 16 <= pp_cmdProxy -> pp_afUnix < fp / 16 ->
  pp_parse ipf (pp_magic2 ++ vc :: fp :: rest) = Reject (E2_family (fp / 16)).
Proof.
  intros H1 H2 H3. rewrite pp_parse_v2. unfold v2_parse, bt_uint8. rewrite !bt_uint8_cons, H1.
  apply N.ltb_ge in H2. apply N.ltb_lt in H3. rewrite H2, H3. reflexivity.
Qed.

Theorem v2_bad_proto_rejected ipf vc fp rest :
  vc / 16 = 2 -> vc mod 16 <= pp_cmdProxy -> fp / 16 <= pp_afUnix -> pp_tpDgram < fp mod 16 ->
  pp_parse ipf (pp_magic2 ++ vc :: fp :: rest) = Reject (E2_proto (fp mod 16)).
Proof.
  intros H1 H2 H3 H4. rewrite pp_parse_v2. unfold v2_parse, bt_uint8. rewrite !bt_uint8_cons, H1.
  apply N.ltb_ge in H2, H3. apply N.ltb_lt in H4. rewrite H2, H3, H4. reflexivity.
Qed.

(* the declared length is too small for the address block of the declared family *)
Definition v2_block_size (fam : N) : N :=
  if fam =? pp_afInet then 12 else if fam =? pp_afInet6 then 36 else 216.

Lemma v2_addresses_short fam raw :
  (fam = pp_afInet \/ fam = pp_afInet6 \/ fam = pp_afUnix) -> lenN raw < v2_block_size fam -> v2_addresses fam raw = None.
Proof.
  intros Hf Hl. unfold v2_addresses, v2_block_size, bt_inet4, bt_inet6, bt_uint16, bt_skip in *.
  destruct Hf as [->|[->| ->]]; cbv [N.eqb Pos.eqb pp_afInet pp_afInet6 pp_afUnix] in *.
  (* two address areas and two ports, each read taking its size off what is left *)
  1,2: destruct (bt_area false _ raw) as [v1 r1| |] eqn:E1; [|reflexivity..];
       destruct (bt_area false _ r1) as [v2 r2| |] eqn:E2; [|reflexivity..];
       destruct (bt_uintN false 2 r2) as [v3 r3| |] eqn:E3; [|reflexivity..];
       destruct (bt_uintN false 2 r3) as [v4 r4| |] eqn:E4; [|reflexivity..];
       apply bt_area_len in E1, E2; apply bt_uintN_len in E3, E4;
       cbv [pp_in4_size pp_in6_size] in *; lia.
  now destruct (N.ltb_spec (lenN raw) 216); [|lia].
Qed.

Theorem v2_short_address_block_rejected ipf cmd fam proto payload rest :
  cmd <= pp_cmdProxy -> (fam = pp_afInet \/ fam = pp_afInet6 \/ fam = pp_afUnix) ->
  (proto = pp_tpStream \/ proto = pp_tpDgram) -> lenN payload < v2_block_size fam ->
  pp_parse ipf (enc_v2 cmd fam proto payload ++ rest) = Reject E_must.
Proof.
  intros Hc Hf Hp Hl.
  rewrite pp_parse_enc_v2; [|exact Hc|destruct Hf as [->|[->| ->]]; vm_compute; congruence
                            |destruct Hp as [->| ->]; vm_compute; congruence].
  unfold v2_finish.
  replace (proto =? pp_tpUnspecified) with false by (destruct Hp as [->| ->]; reflexivity).
  replace (fam =? pp_afUnspecified) with false by (destruct Hf as [->|[->| ->]]; reflexivity). cbn [orb].
  now rewrite (v2_addresses_short fam payload Hf Hl).
Qed.

(* what holds of every outcome: a header has the version of its parser and a size within the input,
   and the out-of-fuel artefact of the TLV loop does not occur *)
Definition sane (v2 : bool) (len : N) (o : outcome) : Prop :=
  match o with Ok h n => h_v2 h = v2 /\ n <= len | More => True | Reject e => e <> E_fuel end.

Lemma sane_add_size k v2 len o : sane v2 len o -> sane v2 (k + len) (add_size k o).
Proof. destruct o; cbn [sane add_size]; [intros []; split; [assumption|lia]|trivial..]. Qed.

Lemma v2_finish_sane c f p raw : sane true (1 + 1 + (2 + lenN raw)) (v2_finish c f p raw).
Proof.
  unfold v2_finish. destruct (_ || _); [split; [reflexivity|lia]|].
  destruct (v2_addresses f raw) as [[[[[s sp] d] dp] lo]|]; [|discriminate].
  destruct (has_forwarded_addresses _); [|split; [reflexivity|lia]].
  pose proof (parse_tlvs_fuel lo). destruct (parse_tlvs lo); [split; [reflexivity|lia]|discriminate|congruence].
Qed.

Lemma v2_parse_sane d : sane true (lenN d) (v2_parse d).
Proof.
  unfold v2_parse, bt_uint8, bt_pstring16.
  destruct (bt_uintN true 1 d) as [vc r1| |] eqn:E1; [|exact I|discriminate].
  destruct (negb _); [discriminate|]. destruct (pp_cmdProxy <? _); [discriminate|].
  destruct (bt_uintN true 1 r1) as [fp r2| |] eqn:E2; [|exact I|discriminate].
  destruct (pp_afUnix <? _); [discriminate|]. destruct (pp_tpDgram <? _); [discriminate|].
  destruct (bt_pstringN true 2 r2) as [raw r3| |] eqn:E3; [|exact I|discriminate].
  apply bt_uintN_len in E1, E2. apply bt_pstringN_len in E3.
  pose proof (v2_finish_sane (vc mod 16) (fp / 16) (fp mod 16) raw) as S.
  destruct (v2_finish _ _ _ raw); [split; [apply S|destruct S; lia]|exact I|exact S].
Qed.

Lemma v1_isolate_inv b i m :
  v1_isolate b = IsoOk i m ->
  exists rest, b = i ++ 13 :: 10 :: rest /\ m = lenN i + 1 + 1 /\ lenN i <= v1_maxInteriorLength.
Proof.
  unfold v1_isolate. destruct (tok_prefix nonCR v1_maxInteriorLength b) as [[t r1]|] eqn:P.
  - apply tok_prefix_sound in P as (<- & _ & _ & Hle & _).
    destruct r1 as [|c1 r1]; [discriminate|]. cbn [tok_skipChar].
    destruct (N.eqb_spec c1 13) as [->|]; [|discriminate].
    destruct r1 as [|c2 r2]; [discriminate|]. cbn [tok_skipChar].
    destruct (N.eqb_spec c2 10) as [->|]; [|discriminate].
    intros [= <- <-]. now exists r2.
  - destruct (bt_atEnd b); discriminate.
Qed.

Lemma extract_ip_err ipf t e : v1_extract_ip ipf t = inl e -> e <> E_fuel.
Proof.
  unfold v1_extract_ip. destruct (tok_prefix ipChars npos t) as [[ip q]|]; [|congruence].
  destruct (tok_skipChar 32 q) as [[|] q2]; [|congruence]. destruct (ipf ip); congruence.
Qed.

Lemma extract_port_err ts t e : v1_extract_port ts t = inl e -> e <> E_fuel.
Proof.
  unfold v1_extract_port. destruct (tok_int64 10 false npos t) as [[port k]|]; [|congruence].
  destruct (if ts then _ else _) as [[|] q2]; [|congruence]. destruct (port >? 65535)%Z; congruence.
Qed.

Lemma v1_addresses_err ipf t e : v1_addresses ipf t = inl e -> e <> E_fuel.
Proof.
  unfold v1_addresses. destruct (tok_prefix famChars 1 t) as [[fam r1]|]; [|congruence].
  destruct (tok_skipChar 32 r1) as [[|] r2]; [|congruence].
  destruct (v1_extract_ip ipf r2) as [e1|[src r3]] eqn:X1; [intros [= <-]; exact (extract_ip_err _ _ _ X1)|].
  destruct (v1_extract_ip ipf r3) as [e2|[dst r4]] eqn:X2; [intros [= <-]; exact (extract_ip_err _ _ _ X2)|].
  destruct (negb _); [congruence|].
  destruct (v1_extract_port true r4) as [e3|[sp r5]] eqn:X3; [intros [= <-]; exact (extract_port_err _ _ _ X3)|].
  destruct (v1_extract_port false r5) as [e4|[dp r6]] eqn:X4; [intros [= <-]; exact (extract_port_err _ _ _ X4)|].
  discriminate.
Qed.

Lemma v1_interior_sane ipf i m : sane false m (v1_interior ipf i m).
Proof.
  unfold v1_interior. destruct (tok_skipChar 32 i) as [[|] t1]; [|discriminate].
  destruct (tok_skip s_TCP t1) as [[|] t2].
  - destruct (v1_addresses ipf t2) as [e|[[[[s sp] d] dp] lo]] eqn:V; [exact (v1_addresses_err _ _ _ V)|].
    destruct (bt_atEnd lo); [split; [reflexivity|lia]|discriminate].
  - destruct (tok_skip s_UNKNOWN t1) as [[|] t3]; [split; [reflexivity|lia]|discriminate].
Qed.

Lemma v1_parse_sane ipf d : sane false (lenN d) (v1_parse ipf d).
Proof.
  unfold v1_parse. destruct (v1_isolate d) as [i m| |] eqn:Q; [|exact I|discriminate].
  apply v1_isolate_inv in Q as (rest & -> & -> & _). pose proof (v1_interior_sane ipf i (lenN i + 1 + 1)) as S.
  destruct (v1_interior _ _ _); [split; [apply S|destruct S as [_ S]; revert S; len_lia]|exact I|exact S].
Qed.

Theorem pp_parse_sane ipf b : exists v2, sane v2 (lenN b) (pp_parse ipf b).
Proof.
  destruct (magic_cases b) as [(r & ->)|[(r & ->)|(S1 & S2)]].
  - exists true. rewrite pp_parse_v2, lenN_app. apply sane_add_size, v2_parse_sane.
  - exists false. rewrite pp_parse_v1, lenN_app. apply sane_add_size, v1_parse_sane.
  - exists true. rewrite pp_parse_other by assumption. destruct (_ <=? _); [discriminate|exact I].
Qed.

(* the consumed size lies within the input that produced the header *)
Corollary pp_ok_size_le ipf b h n : pp_parse ipf b = Ok h n -> n <= lenN b.
Proof. intros H. destruct (pp_parse_sane ipf b) as [v S]. rewrite H in S. apply S. Qed.

(* the out-of-fuel artefact of the TLV loop is unreachable *)
Corollary pp_never_out_of_fuel ipf b : pp_parse ipf b <> Reject E_fuel.
Proof. intros H. destruct (pp_parse_sane ipf b) as [v S]. rewrite H in S. now apply S. Qed.

(* canonical decimal text of a port: the digits are produced from the least significant end and read
   from the most significant one *)
Lemma dec_aux_value f : forall n acc, n < 10 ^ N.of_nat f -> dec_val_from (dec_aux f n acc) 0 = dec_val_from acc n.
Proof.
  induction f as [|f IH]; intros n acc Hn.
  - change (10 ^ N.of_nat 0) with 1 in Hn. now replace n with 0 by lia.
  - rewrite Nat2N.inj_succ, N.pow_succ_r' in Hn. cbn [dec_aux].
    destruct (N.ltb_spec n 10) as [L|L].
    + unfold dec_val_from. cbn [fold_left]. f_equal. lia.
    + rewrite IH by (apply N.div_lt_upper_bound; lia). unfold dec_val_from. cbn [fold_left]. apply f_equal.
      rewrite (N.add_comm 48), N.add_sub, N.mul_comm. symmetry. apply N.div_mod'.
Qed.

Lemma dec_aux_digits f : forall n acc, acc <> [] \/ f <> O -> Forall is_dec acc ->
  dec_aux f n acc <> [] /\ Forall is_dec (dec_aux f n acc).
Proof.
  induction f as [|f IH]; intros n acc Hne Ha; cbn [dec_aux]; [split; [tauto|exact Ha]|].
  destruct (N.ltb_spec n 10) as [L|L].
  - split; [discriminate|]. constructor; [unfold is_dec; lia|exact Ha].
  - apply IH; [left; discriminate|]. constructor; [|exact Ha].
    pose proof (N.mod_lt n 10). split; [apply N.le_add_r|lia].
Qed.

Lemma dec_canonical p : p < 10 ^ 20 -> dec p <> [] /\ Forall is_dec (dec p) /\ dec_value (dec p) = p.
Proof.
  intros H. unfold dec. destruct (dec_aux_digits 20 p []) as [Hn Hd]; [right; discriminate|constructor|].
  split; [exact Hn|]. split; [exact Hd|]. exact (dec_aux_value 20 p [] H).
Qed.

Corollary v1_tcp_roundtrip_numeric ipf fam st dt sa da sp dp rest :
  st <> [] -> dt <> [] -> forallb ipChars st = true -> forallb ipChars dt = true ->
  ipf st = Some sa -> ipf dt = Some da ->
  ((fam = 52 /\ is_ipv4 sa = true /\ is_ipv4 da = true) \/ (fam = 54 /\ is_ipv4 sa = false /\ is_ipv4 da = false)) ->
  sp < 65536 -> dp < 65536 ->
  lenN (enc_v1_tcp fam st dt (dec sp) (dec dp)) <= v1_maxHeaderLength ->
  pp_parse ipf (enc_v1_tcp fam st dt (dec sp) (dec dp) ++ rest) =
  Ok {| h_v2 := false; h_cmd := pp_cmdProxy; h_ignore := false;
        h_src := sa; h_sport := sp; h_dst := da; h_dport := dp; h_tlvs := [] |}
     (lenN (enc_v1_tcp fam st dt (dec sp) (dec dp))).
Proof.
  intros Hst Hdt Hsc Hdc Hsa Hda Hfam Hsp Hdp Hlen.
  destruct (dec_canonical sp ltac:(lia)) as (S1 & S2 & S3). destruct (dec_canonical dp ltac:(lia)) as (D1 & D2 & D3).
  rewrite (v1_tcp_roundtrip ipf fam st dt sa da); try assumption; try lia.
  now rewrite S3, D3.
Qed.

(* converse direction: what One::Parse accepts as a TCP line IS well-formed *)
Lemma digit_split t : exists ds r, t = ds ++ r /\ Forall is_dec ds /\ stops10 r.
Proof.
  exists (fst (span is_digit t)), (snd (span is_digit t)).
  split; [symmetry; apply span_app|]. split.
  - apply Forall_forall. intros c Hc. pose proof (span_all is_digit t) as H. rewrite forallb_forall in H.
    apply H in Hc. unfold is_digit in Hc. unfold is_dec. lia.
  - pose proof (span_stop is_digit t) as H. destruct (snd (span is_digit t)) as [|y r]; [exact I|].
    cbn [stops10]. now rewrite digit_of_10, H.
Qed.

Lemma tok_int64_inv t v k :
  lenN t <= npos -> tok_int64 10 false npos t = Some (v, k) ->
  exists ds r, t = ds ++ r /\ ds <> [] /\ Forall is_dec ds /\ stops10 r /\ v = Z.of_N (dec_value ds) /\ k = lenN ds.
Proof.
  intros Hl H. destruct (digit_split t) as (ds & r & -> & Hd & Hs).
  destruct ds as [|c ds].
  - destruct r as [|y r]; [discriminate|]. cbn [app] in H. now rewrite tok_int64_nondigit in H.
  - assert (Hne : c :: ds <> []) by discriminate. rewrite tok_int64_digits in H by assumption.
    destruct (_ >? _)%Z; [discriminate|]. injection H as <- <-. now exists (c :: ds), r.
Qed.

Lemma extract_port_inv ts t p r2 :
  lenN t <= npos -> v1_extract_port ts t = inr (p, r2) ->
  exists ds, t = ds ++ (if ts then 32 :: r2 else r2) /\ ds <> [] /\ Forall is_dec ds /\
             p = dec_value ds /\ p <= 65535 /\ (if ts then True else stops10 r2).
Proof.
  intros Hl. unfold v1_extract_port.
  destruct (tok_int64 10 false npos t) as [[port k]|] eqn:E; [|discriminate].
  destruct (tok_int64_inv t port k Hl E) as (ds & r & -> & Hne & Hd & Hs & -> & ->).
  cbv zeta. rewrite dropN_app_exact.
  destruct (if ts then _ else _) as [[|] q] eqn:S; [|discriminate].
  destruct (_ >? 65535)%Z eqn:G; [discriminate|]. intros [= <- <-].
  exists ds. rewrite Z.mod_small, N2Z.id by lia.
  destruct ts; [apply skipChar_inv in S as ->|injection S as <-]; repeat split; try assumption; lia.
Qed.

Lemma extract_ip_inv ipf t a r2 :
  v1_extract_ip ipf t = inr (a, r2) ->
  exists ip, t = ip ++ 32 :: r2 /\ ip <> [] /\ forallb ipChars ip = true /\ ipf ip = Some a.
Proof.
  unfold v1_extract_ip. destruct (tok_prefix ipChars npos t) as [[ip r1]|] eqn:P; [|discriminate].
  apply tok_prefix_sound in P as (<- & Hne & Hall & _).
  destruct (tok_skipChar 32 r1) as [[|] q] eqn:S; [|discriminate]. apply skipChar_inv in S as ->.
  destruct (ipf ip) as [a'|] eqn:Q; [|discriminate]. intros [= <- <-]. now exists ip.
Qed.

Lemma v1_addresses_inv ipf t s sp d dp lo :
  lenN t <= npos -> v1_addresses ipf t = inr (s, sp, d, dp, lo) ->
  exists fam st dt sps dps,
    t = fam :: 32 :: st ++ 32 :: dt ++ 32 :: sps ++ 32 :: dps ++ lo /\
    famChars fam = true /\ address_family s d = [fam] /\
    st <> [] /\ forallb ipChars st = true /\ ipf st = Some s /\
    dt <> [] /\ forallb ipChars dt = true /\ ipf dt = Some d /\
    sps <> [] /\ Forall is_dec sps /\ sp = dec_value sps /\ sp <= 65535 /\
    dps <> [] /\ Forall is_dec dps /\ dp = dec_value dps /\ dp <= 65535 /\ stops10 lo.
Proof.
  intros Hl. unfold v1_addresses.
  destruct (tok_prefix famChars 1 t) as [[fam r1]|] eqn:P; [|discriminate].
  apply tok_prefix_sound in P as (<- & Hne & Hall & Hle & _).
  assert (exists f, fam = [f]) as (f & ->).
  { destruct fam as [|f [|g fam]]; [congruence|now exists f|cbn [lenN] in Hle; lia]. }
  cbn [forallb] in Hall. rewrite andb_true_r in Hall.
  destruct (tok_skipChar 32 r1) as [[|] r2] eqn:S; [|discriminate]. apply skipChar_inv in S as ->.
  destruct (v1_extract_ip ipf r2) as [e|[src r3]] eqn:X1; [discriminate|].
  apply extract_ip_inv in X1 as (st & -> & Hst & Hsc & Hsa).
  destruct (v1_extract_ip ipf r3) as [e|[dst r4]] eqn:X2; [discriminate|].
  apply extract_ip_inv in X2 as (dt & -> & Hdt & Hdc & Hda).
  destruct (negb (list_eqb (address_family src dst) [f])) eqn:F; [discriminate|].
  apply negb_false_iff, list_eqb_eq in F.
  destruct (v1_extract_port true r4) as [e|[p1 r5]] eqn:X3; [discriminate|].
  apply extract_port_inv in X3 as (sps & -> & Hs1 & Hs2 & -> & Hs3 & _); [|revert Hl; len_lia].
  destruct (v1_extract_port false r5) as [e|[p2 r6]] eqn:X4; [discriminate|].
  apply extract_port_inv in X4 as (dps & -> & Hd1 & Hd2 & -> & Hd3 & Hstop); [|revert Hl; len_lia].
  intros [= <- <- <- <- <-]. exists f, st, dt, sps, dps. cbn [app]. repeat split; assumption.
Qed.

Lemma add_size_ok k o h n : add_size k o = Ok h n -> exists n', o = Ok h n' /\ n = k + n'.
Proof. destruct o; cbn [add_size]; try discriminate. intros [= <- <-]. now eexists. Qed.

(* every input on which Parse reports a v1 header with addresses starts with a well-formed
   TCP line (modulo leading zeros in ports and what the IP conversion accepts), the reported
   fields are the written ones and the size is the length of that line *)
Theorem v1_accepted_is_wellformed ipf b h n :
  pp_parse ipf b = Ok h n -> h_v2 h = false -> h_ignore h = false ->
  exists fam st dt sps dps rest,
    b = enc_v1_tcp fam st dt sps dps ++ rest /\ n = lenN (enc_v1_tcp fam st dt sps dps) /\
    n <= v1_maxHeaderLength /\
    famChars fam = true /\ address_family (h_src h) (h_dst h) = [fam] /\
    st <> [] /\ forallb ipChars st = true /\ ipf st = Some (h_src h) /\
    dt <> [] /\ forallb ipChars dt = true /\ ipf dt = Some (h_dst h) /\
    sps <> [] /\ Forall is_dec sps /\ h_sport h = dec_value sps /\ h_sport h <= 65535 /\
    dps <> [] /\ Forall is_dec dps /\ h_dport h = dec_value dps /\ h_dport h <= 65535 /\
    h_cmd h = pp_cmdProxy /\ h_tlvs h = [].
Proof.
  intros H Hv Hi. destruct (magic_cases b) as [(r & ->)|[(r1 & ->)|(S1 & S2)]].
  - rewrite pp_parse_v2 in H. apply add_size_ok in H as (n' & H & ->).
    pose proof (v2_parse_sane r) as S. rewrite H in S. destruct S. congruence.
  - rewrite pp_parse_v1 in H. apply add_size_ok in H as (n' & H & ->). unfold v1_parse in H.
    destruct (v1_isolate r1) as [i m| |] eqn:Q; try discriminate.
    apply v1_isolate_inv in Q as (q3 & -> & -> & Hle). change v1_maxInteriorLength with 100 in Hle.
    unfold v1_interior in H.
    destruct (tok_skipChar 32 i) as [[|] t1] eqn:C3; [|discriminate]. apply skipChar_inv in C3 as ->.
    destruct (tok_skip s_TCP t1) as [[|] t2] eqn:T.
    + apply tok_skip_inv in T as ->.
      destruct (v1_addresses ipf t2) as [e|[[[[s sp] d] dp] lo]] eqn:V; [discriminate|].
      destruct lo as [|l0 lo]; [|discriminate]. injection H as <- <-.
      apply v1_addresses_inv in V; [|revert Hle; len_lia].
      destruct V as (fam & st & dt & sps & dps & -> & Hf & Haf & Hst & Hsc & Hsa & Hdt & Hdc & Hda
                     & Hs1 & Hs2 & Hs3 & Hs4 & Hd1 & Hd2 & Hd3 & Hd4 & _).
      exists fam, st, dt, sps, dps, q3. rewrite app_nil_r in *. rewrite enc_v1_tcp_shape, enc_v1_tcp_len.
      cbn [h_src h_dst h_sport h_dport h_cmd h_tlvs header_set_addrs header_new].
      split; [reflexivity|]. split; [len_lia|]. split; [change v1_maxHeaderLength with 107; revert Hle; len_lia|].
      repeat split; assumption.
    + destruct (tok_skip s_UNKNOWN t1) as [[|] t3]; [|discriminate]. injection H as <- _. discriminate.
  - rewrite pp_parse_other in H by assumption. destruct (_ <=? _); discriminate.
Qed.

(* a concrete IP text conversion for the Examples of Properties_C38.v: knows 1.1.1.1, ::1 and ::ffff:1.1.1.1 *)
Definition ex_ipf (t : bytes) : option ipaddr :=
  if list_eqb t b_1111 then Some a_1111 else if list_eqb t b_v6 then Some a_v6
  else if list_eqb t b_mapped then Some a_1111 else None.
