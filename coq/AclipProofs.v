(* AclipProofs.v — theorems about the model of IP-address ACLs (AclipModel.v), property C42.

   1. Prefix masks: for mask = 2^128 - 2^h, [a & mask = a / 2^h * 2^h] and filling in the host
      bits of an aligned address adds 2^h - 1.
   2. Configured values [cval] (network a/(128-h), range of addresses/networks) stated
      independently of the code: cv_in; the stored triple cv_val; firstAddress/lastAddress
      are the ends of the set (cv_first/cv_last); aclIpAddrNetworkCompare() has the sign
      of the position of the address relative to the set (good_cv).
   3. Compare/IsSubset/MakeCombinedValue (all on matchIPAddr(), a total order, since 98f97cc)
      are interval order/inclusion/union; Merge() terminates within its fuel, keeps the stored
      sequence sorted and pairwise disjoint and adds exactly the new value's addresses to the
      union (merge_spec); parse() and match() follow (shared splay library theorems of
      SplayProofs.v).
   4. The statements over lists of configured values. *)
Require Import SquidV.Bytes SquidV.SplayModel SquidV.SplayProofs SquidV.AclipModel.
Require Import ZifyBool ZifyN.
Local Open Scope N_scope.

Definition pmask (h : N) : N := TOP - 2 ^ h.

Lemma ones_bit n i : N.testbit (N.ones n) i = (i <? n).
Proof.
  destruct (N.ltb_spec i n) as [H|H]; [apply N.ones_spec_low, H| apply N.ones_spec_high, H].
Qed.

Lemma pow2_pos h : 0 < 2 ^ h.
Proof. apply N.neq_0_lt_0, N.pow_nonzero. discriminate. Qed.

Lemma pow2_le_top h : h <= 128 -> 2 ^ h <= TOP.
Proof. intros H. unfold TOP. apply N.pow_le_mono_r; [discriminate| exact H]. Qed.

Lemma pmask_ldiff h : h <= 128 -> pmask h = N.ldiff ALL1 (N.ones h).
Proof.
  intros H. unfold pmask, ALL1.
  assert (E : N.ldiff (N.ones h) (N.ones 128) = 0).
  { apply N.bits_inj. intros i. rewrite N.ldiff_spec, !ones_bit, N.bits_0.
    destruct (N.ltb_spec i h), (N.ltb_spec i 128); try reflexivity; lia. }
  rewrite <- (N.sub_nocarry_ldiff _ _ E). rewrite !N.ones_equiv.
  pose proof (pow2_pos h). pose proof (pow2_le_top h H). unfold TOP in *. lia.
Qed.

Lemma land_pmask a h : a < TOP -> h <= 128 -> N.land a (pmask h) = a / 2 ^ h * 2 ^ h.
Proof.
  intros Ha Hh. rewrite (pmask_ldiff h Hh).
  rewrite <- N.shiftr_div_pow2, <- N.shiftl_mul_pow2, <- N.ldiff_ones_r.
  apply N.bits_inj. intros i. unfold ALL1. rewrite N.land_spec, !N.ldiff_spec, !ones_bit.
  destruct (N.ltb_spec i 128) as [H|H]; cbn [andb negb]; [reflexivity|].
  assert (E : N.testbit a i = false).
  { destruct (N.eq_dec a 0) as [->|Na]; [apply N.bits_0|].
    apply N.bits_above_log2. unfold TOP in Ha. apply N.log2_lt_pow2 in Ha; [|lia]. lia. }
  rewrite E. reflexivity.
Qed.

Lemma hostbits_pmask h : h <= 128 -> N.ldiff ALL1 (pmask h) = N.ones h.
Proof.
  intros Hh. rewrite (pmask_ldiff h Hh). apply N.bits_inj. intros i. unfold ALL1.
  rewrite !N.ldiff_spec, !ones_bit.
  destruct (N.ltb_spec i 128), (N.ltb_spec i h); cbn [andb negb]; try reflexivity; lia.
Qed.

(* filling in the host bits of an address that has none *)
Lemma lor_ones_aligned a h : a mod 2 ^ h = 0 -> N.lor a (N.ones h) = a + (2 ^ h - 1).
Proof.
  intros Ha. assert (E : N.land a (N.ones h) = 0) by (rewrite N.land_ones; exact Ha).
  rewrite <- (N.lxor_lor _ _ E), <- (N.add_nocarry_lxor _ _ E), N.ones_equiv.
  pose proof (pow2_pos h). lia.
Qed.

Lemma turn_on_pmask a h : h <= 128 -> a mod 2 ^ h = 0 -> turnMaskedBitsOn a (pmask h) = a + (2 ^ h - 1).
Proof. intros Hh Ha. unfold turnMaskedBitsOn. rewrite (hostbits_pmask h Hh). apply lor_ones_aligned, Ha. Qed.

Lemma aligned_mul a P : P <> 0 -> a mod P = 0 -> a = a / P * P.
Proof. intros HP Ha. apply (N.div_exact a P HP) in Ha. lia. Qed.

(* comparisons of x rounded down to a multiple of P with a multiple a of P *)
Lemma round_cmp P a x : 0 < P -> a mod P = 0 ->
  (x / P * P < a <-> x < a) /\
  (a < x / P * P <-> a + (P - 1) < x) /\
  (x / P * P = a <-> a <= x <= a + (P - 1)).
Proof.
  intros HP Ha. rewrite (aligned_mul a P ltac:(lia) Ha). generalize (a / P). clear a Ha. intros k.
  pose proof (N.div_mod x P ltac:(lia)) as E. pose proof (N.mod_lt x P ltac:(lia)) as L.
  set (q := x / P) in *. set (r := x mod P) in *. clearbody q r.
  destruct (N.lt_trichotomy q k) as [H|[H|H]].
  - assert (H1 : (q + 1) * P <= k * P) by (apply N.mul_le_mono_r; lia).
    repeat split; intros; lia.
  - subst k. repeat split; intros; lia.
  - assert (H1 : (k + 1) * P <= q * P) by (apply N.mul_le_mono_r; lia).
    repeat split; intros; lia.
Qed.

Lemma V4ANY_val : V4ANY = 281470681743360. Proof. reflexivity. Qed.
Lemma V4NO_val : V4NO = 281474976710655. Proof. reflexivity. Qed.
Lemma ALL1_val : ALL1 = 340282366920938463463374607431768211455. Proof. reflexivity. Qed.
Lemma TOP_val : TOP = 340282366920938463463374607431768211456. Proof. reflexivity. Qed.

Ltac consts := rewrite ?V4ANY_val, ?V4NO_val, ?ALL1_val, ?TOP_val in *.

Lemma mip_sign l r :
  ((matchIPAddr l r < 0)%Z <-> l < r) /\ ((matchIPAddr l r > 0)%Z <-> r < l).
Proof. unfold matchIPAddr. destruct (N.compare_spec l r); split; split; intros; lia. Qed.

Lemma mip_ltb l r : (matchIPAddr l r <? 0)%Z = (l <? r).
Proof. unfold matchIPAddr. destruct (N.compare_spec l r), (N.ltb_spec l r); try reflexivity; lia. Qed.
Lemma mip_gtb l r : (matchIPAddr l r >? 0)%Z = (r <? l).
Proof. unfold matchIPAddr. destruct (N.compare_spec l r), (N.ltb_spec r l); try reflexivity; lia. Qed.
Lemma mip_leb l r : (matchIPAddr l r <=? 0)%Z = (l <=? r).
Proof. unfold matchIPAddr. destruct (N.compare_spec l r), (N.leb_spec l r); try reflexivity; lia. Qed.
Lemma mip_geb l r : (matchIPAddr l r >=? 0)%Z = (r <=? l).
Proof. unfold matchIPAddr. destruct (N.compare_spec l r), (N.leb_spec r l); try reflexivity; lia. Qed.

Lemma land_ALL1 x : x < TOP -> N.land x ALL1 = x.
Proof. intros H. unfold ALL1. rewrite N.land_ones. apply N.mod_small. exact H. Qed.

Lemma isAny_iff b : isAnyAddr b = true <-> b = 0 \/ b = V4ANY.
Proof. unfold isAnyAddr. rewrite orb_true_iff, !N.eqb_eq. reflexivity. Qed.

(* aclIpAddrNetworkCompare() places the masked client address A relative to addr1 .. addr2
   (to addr1 alone when there is no second address) *)
Lemma net_cmp_sign c q :
  let A := applyMask c (mk q) in
  let top := if isAnyAddr (a2 q) then a1 q else a2 q in
  a1 q <= top ->
  ((net_cmp c q < 0)%Z <-> A < a1 q) /\ ((net_cmp c q > 0)%Z <-> top < A).
Proof.
  intros A top. unfold net_cmp. fold A. subst top. destruct (mip_sign A (a1 q)) as [M1 M2].
  destruct (isAnyAddr (a2 q)); [intros _; split; assumption|]. rewrite mip_geb, mip_leb. intros H.
  destruct (N.leb_spec (a1 q) A), (N.leb_spec A (a2 q)); cbn [andb]; rewrite ?M1, ?M2; split; split; intros; lia.
Qed.

(* configured values, stated independently of the code's representation *)
(* CNet a h   : the network a/(128-h) (h host bits): a single address when h = 0
   CRange a b h : the addresses a .. b when h = 0; the networks a/(128-h) .. b/(128-h) otherwise *)
Inductive cval : Type := CNet (a h : N) | CRange (a b h : N).

Definition cv_ok (c : cval) : Prop :=
  match c with
  | CNet a h => h <= 128 /\ a < TOP /\ a mod 2 ^ h = 0
  | CRange a b h => h <= 128 /\ a <= b /\ b < TOP /\ a mod 2 ^ h = 0 /\ b mod 2 ^ h = 0 /\ (b = V4ANY -> a = V4ANY)
  end.

(* the set of addresses a configured value stands for *)
Definition cv_lo (c : cval) : N := match c with CNet a _ => a | CRange a _ _ => a end.
Definition cv_hi (c : cval) : N := match c with CNet a h => a + (2 ^ h - 1) | CRange _ b h => b + (2 ^ h - 1) end.
Definition cv_in (x : N) (c : cval) : Prop := cv_lo c <= x <= cv_hi c.

(* the triple FactoryParse() stores for it *)
Definition cv_val (c : cval) : ipval :=
  match c with CNet a h => IpVal a 0 (pmask h) | CRange a b h => IpVal a b (pmask h) end.

(* membership in a network, the CIDR way: same (128-h)-bit prefix *)
Lemma cv_in_net a h x : a mod 2 ^ h = 0 -> (cv_in x (CNet a h) <-> x / 2 ^ h = a / 2 ^ h).
Proof.
  intros Ha. pose proof (pow2_pos h) as HP.
  destruct (round_cmp (2 ^ h) a x HP Ha) as (_ & _ & <-).
  pose proof (aligned_mul a (2 ^ h) ltac:(lia) Ha) as Ea.
  split; intros E; [apply (N.mul_cancel_r _ _ (2 ^ h)); [lia| congruence]| rewrite E; auto].
Qed.

Lemma aligned_top k h : h <= 128 -> k < TOP -> k mod 2 ^ h = 0 -> k + 2 ^ h <= TOP.
Proof.
  intros Hh Hk Hm. pose proof (pow2_pos h) as HP.
  assert (ET : TOP = 2 ^ (128 - h) * 2 ^ h) by (unfold TOP; rewrite <- N.pow_add_r; f_equal; lia).
  pose proof (aligned_mul k (2 ^ h) ltac:(lia) Hm) as Ek. rewrite ET in *.
  set (q := k / 2 ^ h) in *. set (Q := 2 ^ (128 - h)) in *. set (P := 2 ^ h) in *.
  assert (q < Q) by (apply (N.mul_lt_mono_pos_r P); [lia| lia]).
  assert ((q + 1) * P <= Q * P) by (apply N.mul_le_mono_r; lia). lia.
Qed.

Lemma pow2_even h : h <> 0 -> exists P, 2 ^ h = 2 * P /\ 0 < P.
Proof.
  intros Hn. exists (2 ^ (h - 1)). split; [|apply pow2_pos]. rewrite <- N.pow_succ_r'. f_equal. lia.
Qed.

Lemma pmask_noaddr h : h <= 128 -> isNoAddr (pmask h) = true -> h = 0.
Proof.
  intros Hh. unfold isNoAddr, pmask. rewrite orb_true_iff, !N.eqb_eq. pose proof (pow2_le_top h Hh) as HT.
  destruct (N.eq_dec h 0) as [->|Hn]; [reflexivity|]. destruct (pow2_even h Hn) as (P & E & HP).
  rewrite E in *. clear E. consts. lia.
Qed.

Lemma pmask_0 : pmask 0 = ALL1. Proof. reflexivity. Qed.

(* the last address of an aligned block is odd unless the block is a single address; 0.0.0.0 is even *)
Lemma block_end_V4ANY b h : b mod 2 ^ h = 0 -> b + (2 ^ h - 1) = V4ANY -> b = V4ANY.
Proof.
  intros Hm. destruct (N.eq_dec h 0) as [->|Hn]; [change (2 ^ 0 - 1) with 0; lia|].
  destruct (pow2_even h Hn) as (P & E & HP). rewrite E in *.
  pose proof (aligned_mul b (2 * P) ltac:(lia) Hm) as Eb. revert Eb. generalize (b / (2 * P)). intros q Eb.
  clear E Hm. consts. lia.
Qed.

Definition inR (x : N) (w : ipval) : Prop := first_addr w <= x <= last_addr w.

Definition good (w : ipval) : Prop :=
  first_addr w <= last_addr w /\ last_addr w < TOP /\
  (last_addr w = V4ANY -> first_addr w = V4ANY) /\
  (forall x, x < TOP ->
     ((net_cmp x w < 0)%Z <-> x < first_addr w) /\ ((net_cmp x w > 0)%Z <-> last_addr w < x)).

Lemma good_zero w p : good w -> p < TOP -> ((net_cmp p w = 0)%Z <-> inR p w).
Proof. intros (_ & _ & _ & G) Hp. destruct (G p Hp) as [X1 X2]. unfold inR. lia. Qed.

(* the stored triple (a, a2, prefix mask with h host bits) for the aligned networks a .. b,
   where a2 is b, or "no second address" when b = a *)
Lemma good_triple a b h a2 : h <= 128 -> a <= b -> b < TOP -> a mod 2 ^ h = 0 -> b mod 2 ^ h = 0 ->
  (b = V4ANY -> a = V4ANY) -> (if isAnyAddr a2 then a else a2) = b ->
  let w := IpVal a a2 (pmask h) in
  first_addr w = a /\ last_addr w = b + (2 ^ h - 1) /\ good w.
Proof.
  intros Hh Hab Hb Hma Hmb Hany E2 w. pose proof (pow2_pos h) as HP.
  assert (F : first_addr w = a).
  { unfold first_addr, w. cbn [mk a1]. destruct (isNoAddr (pmask h)); [reflexivity|].
    unfold applyMask. rewrite land_pmask by lia. symmetry. apply aligned_mul; [lia| exact Hma]. }
  assert (L : last_addr w = b + (2 ^ h - 1)).
  { unfold last_addr, w. cbn [mk AclipModel.a1 AclipModel.a2]. rewrite E2. destruct (isNoAddr (pmask h)) eqn:E.
    - apply (pmask_noaddr h Hh) in E. subst h. change (2 ^ 0 - 1) with 0. lia.
    - apply turn_on_pmask; assumption. }
  split; [exact F|]. split; [exact L|]. unfold good. rewrite F, L.
  pose proof (aligned_top b h Hh Hb Hmb) as HT.
  split; [lia|]. split; [lia|]. split; [intros E; apply Hany, (block_end_V4ANY b h Hmb E)|].
  intros x Hx. destruct (net_cmp_sign x w) as [N1 N2]; unfold w in *; cbn [mk AclipModel.a1 AclipModel.a2] in *.
  { rewrite E2. exact Hab. }
  rewrite E2 in N2. unfold applyMask in *. rewrite (land_pmask x h Hx Hh) in *.
  destruct (round_cmp (2 ^ h) a x HP Hma) as (R1 & _). destruct (round_cmp (2 ^ h) b x HP Hmb) as (_ & S2 & _).
  rewrite N1, N2, R1, S2. split; reflexivity.
Qed.

Lemma cv_triple c : cv_ok c ->
  first_addr (cv_val c) = cv_lo c /\ last_addr (cv_val c) = cv_hi c /\ good (cv_val c).
Proof.
  destruct c as [a h|a b h]; cbn [cv_ok cv_val cv_lo cv_hi].
  - intros (Hh & Ha & Hm). apply good_triple; try assumption; [lia| auto| reflexivity].
  - intros (Hh & Hab & Hb & Hma & Hmb & Hany). apply good_triple; try assumption.
    destruct (isAnyAddr b) eqn:EA; [|reflexivity]. apply isAny_iff in EA. destruct EA as [E|E]; [clear - E Hab; lia| rewrite Hany; auto].
Qed.

Lemma cv_first c : cv_ok c -> first_addr (cv_val c) = cv_lo c.
Proof. apply cv_triple. Qed.

Lemma cv_last c : cv_ok c -> last_addr (cv_val c) = cv_hi c.
Proof. apply cv_triple. Qed.

Lemma good_cv c : cv_ok c -> good (cv_val c).
Proof. apply cv_triple. Qed.

Definition before (a b : ipval) : Prop := last_addr a < first_addr b.

Fixpoint sd (l : list ipval) : Prop :=
  match l with
  | [] => True
  | x :: r => Forall (before x) r /\ sd r
  end.

Definition covered (x : N) (l : list ipval) : Prop := exists w, In w l /\ inR x w.

Lemma covered_app q a b : covered q (a ++ b) <-> covered q a \/ covered q b.
Proof. unfold covered. rewrite <- !Exists_exists. apply Exists_app. Qed.

Lemma covered_cons q x l : covered q (x :: l) <-> inR q x \/ covered q l.
Proof. unfold covered. rewrite <- !Exists_exists. apply Exists_cons. Qed.

Lemma covered_nil q : ~ covered q [].
Proof. intros (x & [] & _). Qed.

Lemma mono_net_cmp p l : p < TOP -> Forall good l -> sd l -> mono (net_cmp p) l.
Proof.
  intros Hp. apply mono_of_sorted. intros x y (Gx1 & _ & _ & Gx4) (Gy1 & _ & _ & Gy4) B.
  destruct (Gx4 p Hp) as (X1 & X2). destruct (Gy4 p Hp) as (Y1 & Y2). unfold before in B.
  rewrite X1, X2, Y1, Y2. lia.
Qed.

Lemma icompare_spec a b : good a -> good b ->
  ((icompare a b < 0)%Z <-> before a b) /\ ((icompare a b > 0)%Z <-> before b a) /\
  ((icompare a b = 0)%Z <-> ~ before a b /\ ~ before b a).
Proof.
  intros (Ga1 & _) (Gb1 & _). unfold icompare, before. rewrite mip_ltb, mip_gtb.
  destruct (N.ltb_spec (last_addr a) (first_addr b)), (N.ltb_spec (last_addr b) (first_addr a));
    repeat split; intros; try lia.
Qed.

Lemma icompare_refl a : good a -> icompare a a = 0%Z.
Proof.
  intros G. destruct (icompare_spec a a G G) as (_ & _ & H). apply H.
  destruct G as (G1 & _). unfold before. lia.
Qed.

Lemma is_subset_spec a b :
  (is_subset a b = true <-> first_addr b <= first_addr a /\ last_addr a <= last_addr b).
Proof. unfold is_subset. rewrite !mip_leb, andb_true_iff, !N.leb_le. reflexivity. Qed.

Lemma mono_icompare v l : good v -> Forall good l -> sd l -> mono (icompare v) l.
Proof.
  intros Gv. apply mono_of_sorted. intros x y Gx Gy B.
  destruct (icompare_spec v x Gv Gx) as (X1 & X2 & _). destruct (icompare_spec v y Gv Gy) as (Y1 & Y2 & _).
  destruct Gx as (Gx1 & _). destruct Gy as (Gy1 & _). unfold before in *.
  rewrite X1, X2, Y1, Y2. lia.
Qed.

(* MakeCombinedValue() on two partially overlapping values *)
Lemma combined_good a b : good a -> good b ->
  ~ before a b -> ~ before b a -> is_subset a b = false -> is_subset b a = false ->
  good (combined a b) /\
  first_addr (combined a b) = N.min (first_addr a) (first_addr b) /\
  last_addr (combined a b) = N.max (last_addr a) (last_addr b).
Proof.
  intros Ga Gb Nab Nba Sab Sba.
  assert (S1 : ~ (first_addr b <= first_addr a /\ last_addr a <= last_addr b))
    by (intros H; apply (is_subset_spec a b) in H; congruence).
  assert (S2 : ~ (first_addr a <= first_addr b /\ last_addr b <= last_addr a))
    by (intros H; apply (is_subset_spec b a) in H; congruence).
  destruct Ga as (Ga1 & Ga2 & Ga3 & _). destruct Gb as (Gb1 & Gb2 & Gb3 & _).
  unfold before in *.
  set (f := addr_min (first_addr a) (first_addr b)).
  set (l := addr_max (last_addr a) (last_addr b)).
  assert (Ef : f = N.min (first_addr a) (first_addr b)).
  { unfold f, addr_min, addr_less. rewrite mip_ltb. destruct (N.ltb_spec (first_addr b) (first_addr a)); lia. }
  assert (El : l = N.max (last_addr a) (last_addr b)).
  { unfold l, addr_max, addr_less. rewrite mip_ltb. destruct (N.ltb_spec (last_addr a) (last_addr b)); lia. }
  assert (Hfl : f < l) by lia.
  assert (Hany : isAnyAddr l = false).
  { destruct (isAnyAddr l) eqn:E; [|reflexivity]. exfalso. apply isAny_iff in E. destruct E as [E|E]; [lia|].
    destruct (N.max_spec (last_addr a) (last_addr b)) as [[_ M]|[_ M]]; rewrite <- El, E in M; symmetry in M;
      [apply Gb3 in M| apply Ga3 in M]; lia. }
  assert (Fc : first_addr (combined a b) = f) by reflexivity.
  assert (Lc : last_addr (combined a b) = l).
  { unfold last_addr, combined. cbn [a1 a2 mk]. fold f l. rewrite Hany. reflexivity. }
  split; [|rewrite Fc, Lc; auto].
  unfold good. rewrite Fc, Lc. split; [lia|]. split; [lia|].
  split; [intros E; exfalso; assert (X : isAnyAddr l = true) by (apply isAny_iff; right; exact E); congruence|].
  intros x Hx. pose proof (net_cmp_sign x (combined a b)) as N. cbv zeta in N. unfold combined in N.
  cbn [a1 a2 mk] in N. fold f l in N. rewrite Hany in N. unfold applyMask in N. rewrite (land_ALL1 x Hx) in N.
  apply N. lia.
Qed.

Definition inv (t : tree ipval) : Prop := Forall good (inorder t) /\ sd (inorder t).

Theorem merge_spec : forall fuel t n v, inv t -> good v -> (tree_size t < fuel)%nat ->
  exists t' n', merge fuel t n v = MOk t' n' /\ inv t' /\
    (forall q, covered q (inorder t') <-> covered q (inorder t) \/ inR q v).
Proof.
  induction fuel as [|f IH]; intros t n v Hinv Gv Hf; [lia|].
  cbn [merge].
  pose proof (mono_icompare v (inorder t) Gv (proj1 Hinv) (proj2 Hinv)) as M.
  destruct (sp_insert (icompare v) v t) as [t1 [old|]] eqn:Ei.
  - destruct (found_stored good before icompare v t t1 old Hinv Ei) as (Hin & Gold & Hz & Hi).
    apply (icompare_spec v old Gv Gold) in Hz. destruct Hz as [Nvo Nov].
    pose proof (is_subset_spec v old) as SS1. pose proof (is_subset_spec old v) as SS2.
    (* the removal of old, common to the two "continue" branches *)
    destruct (remove_stored good before icompare N inR old t t1 Hinv Hin Hi (icompare_refl old Gold))
      as (t2 & Er & Inv2 & Sz & Hrem);
      [intros y Gy; apply (icompare_spec old y Gold Gy)| intros y Gy; apply (icompare_spec old y Gold Gy)|
       intros x y; destruct Gold as (G1 & _); unfold before; lia|].
    destruct (is_subset v old) eqn:S1.
    + exists t1, n. split; [reflexivity|]. split; [exact (stored_inorder _ _ t t1 Hi Hinv)|].
      intros q. rewrite Hi. split; [auto|]. intros [H|H]; [exact H|].
      exists old. split; [exact Hin|]. pose proof (proj1 SS1 eq_refl) as S1'. unfold inR in *. lia.
    + rewrite Er. destruct (is_subset old v) eqn:S2.
      * destruct (IH t2 (n - 1)%Z v Inv2 Gv ltac:(lia)) as (t' & n' & Em & Inv' & Hcov).
        exists t', n'. split; [exact Em|]. split; [exact Inv'|].
        intros q. rewrite Hcov. unfold covered. rewrite (Hrem q).
        assert (Hsub : inR q old -> inR q v) by (pose proof (proj1 SS2 eq_refl); unfold inR; lia). clear - Hsub. tauto.
      * destruct (combined_good old v Gold Gv Nov Nvo S2 S1) as (Gc & Fc & Lc).
        destruct (IH t2 (n - 1)%Z (combined old v) Inv2 Gc ltac:(lia)) as (t' & n' & Em & Inv' & Hcov).
        exists t', n'. split; [exact Em|]. split; [exact Inv'|].
        intros q. rewrite Hcov. unfold covered. rewrite (Hrem q).
        assert (Hu : inR q (combined old v) <-> inR q old \/ inR q v).
        { unfold inR. rewrite Fc, Lc. unfold before in *.
          destruct Gold as (Go1 & _). destruct Gv as (Gv1 & _). lia. }
        rewrite Hu. clear. tauto.
  - destruct (insert_stored good before icompare N inR v t t1 Gv) as (Inv1 & Hc); try assumption;
      [intros y Gy; apply (icompare_spec v y Gv Gy)| intros y Gy; apply (icompare_spec v y Gv Gy)|].
    exists t1, (n + 1)%Z. split; [reflexivity|]. split; [exact Inv1| exact Hc].
Qed.

Theorem merge_all_spec : forall vals t n, inv t -> Forall good vals ->
  exists t' n', merge_all t n vals = MOk t' n' /\ inv t' /\
    (forall q, covered q (inorder t') <-> covered q (inorder t) \/ covered q vals).
Proof.
  induction vals as [|v vals IH]; intros t n Hinv W.
  - exists t, n. split; [reflexivity|]. split; [exact Hinv|].
    intros q. split; [auto|]. intros [H|H]; [exact H| destruct (covered_nil q H)].
  - inversion W as [|? ? Wv Wr]; subst. cbn [merge_all].
    destruct (merge_spec (merge_fuel t) t n v Hinv Wv ltac:(unfold merge_fuel; lia)) as (t1 & n1 & Em & Inv1 & Hc1).
    rewrite Em. destruct (IH t1 n1 Inv1 Wr) as (t' & n' & Ep & Inv' & Hc').
    exists t', n'. split; [exact Ep|]. split; [exact Inv'|].
    intros q. rewrite Hc', Hc1, covered_cons. tauto.
Qed.

Theorem acl_lookup_spec t p : inv t -> p < TOP ->
  inorder (fst (acl_lookup t p)) = inorder t /\
  (snd (acl_lookup t p) = true <-> covered p (inorder t)).
Proof.
  intros [W S] Hp. unfold acl_lookup.
  pose proof (sp_find_inorder (net_cmp p) t) as Hi.
  pose proof (sp_find_hit (net_cmp p) t (mono_net_cmp p _ Hp W S)) as Hh.
  destruct (sp_find (net_cmp p) t) as [t' r]. cbn [fst snd] in *. split; [exact Hi|].
  rewrite Hh. unfold covered. rewrite Forall_forall in W.
  split; intros (x & Hin & Hx); exists x; (split; [exact Hin|]); apply (good_zero x p (W x Hin) Hp), Hx.
Qed.

(* a lookup re-shapes the tree but keeps the invariant *)
Lemma inv_lookup t p : inv t -> inv (fst (acl_lookup t p)).
Proof.
  apply stored_inorder. unfold acl_lookup. pose proof (sp_find_inorder (net_cmp p) t) as Hi.
  destruct (sp_find (net_cmp p) t) as [t' r]. exact Hi.
Qed.

Definition tok_vals (tk : bytes * spec) : list ipval :=
  match parse_global (fst tk) with
  | Some _ => []
  | None => match snd tk with SV vals => vals | _ => [] end
  end.
Definition vals_of (toks : list (bytes * spec)) : list ipval := flat_map tok_vals toks.
Definition any4 (toks : list (bytes * spec)) : bool :=
  existsb (fun tk => match parse_global (fst tk) with Some (g4, _) => g4 | None => false end) toks.
Definition any6 (toks : list (bytes * spec)) : bool :=
  existsb (fun tk => match parse_global (fst tk) with Some (_, g6) => g6 | None => false end) toks.
(* the token was understood: a global word, or FactoryParse() returned values *)
Definition tok_parsed (tk : bytes * spec) : Prop :=
  parse_global (fst tk) <> None \/ exists vals, snd tk = SV vals.

Theorem acl_parse_from_spec : forall toks f4 f6 t n, inv t -> Forall tok_parsed toks -> Forall good (vals_of toks) ->
  exists t' n', acl_parse_from f4 f6 t n toks = POk (f4 || any4 toks) (f6 || any6 toks) t' n' /\ inv t' /\
    (forall q, covered q (inorder t') <-> covered q (inorder t) \/ covered q (vals_of toks)).
Proof.
  induction toks as [|[tok sp] toks IH]; intros f4 f6 t n Hinv HP HG.
  - exists t, n. cbn. rewrite !orb_false_r. split; [reflexivity|]. split; [exact Hinv|].
    intros q. split; [auto|]. intros [H|H]; [exact H| destruct (covered_nil q H)].
  - inversion HP as [|? ? P1 PR]; subst. unfold vals_of in HG. cbn [flat_map] in HG.
    apply Forall_app in HG. destruct HG as [G1 GR].
    cbn [acl_parse_from any4 any6 existsb fst]. unfold tok_vals in G1. cbn [fst snd] in G1.
    unfold tok_parsed in P1. cbn [fst snd] in P1.
    destruct (parse_global tok) as [[g4 g6]|] eqn:EG.
    + destruct (IH (f4 || g4) (f6 || g6) t n Hinv PR GR) as (t' & n' & E & Inv' & Hc).
      exists t', n'. rewrite E, !orb_assoc. split; [reflexivity|]. split; [exact Inv'|].
      intros q. rewrite Hc. unfold vals_of. cbn [flat_map]. unfold tok_vals at 2. cbn [fst]. rewrite EG. cbn [app]. tauto.
    + destruct P1 as [P1|[vals ->]]; [congruence|].
      destruct (merge_all_spec vals t n Hinv G1) as (t1 & n1 & Em & Inv1 & Hc1). rewrite Em.
      destruct (IH f4 f6 t1 n1 Inv1 PR GR) as (t' & n' & E & Inv' & Hc).
      exists t', n'. rewrite E. cbn [orb]. split; [reflexivity|]. split; [exact Inv'|].
      intros q. rewrite Hc, Hc1. unfold vals_of. cbn [flat_map]. unfold tok_vals at 2. cbn [fst snd]. rewrite EG.
      rewrite covered_app. tauto.
Qed.

Definition match_spec (f4 f6 : bool) (p : N) (l : list ipval) : Prop :=
  (f4 = true /\ f6 = true) \/ (f4 = true /\ isIPv4 p = true) \/ (f6 = true /\ isIPv4 p = false) \/ covered p l.

Theorem acl_match_spec f4 f6 t p : inv t -> p < TOP ->
  inv (fst (acl_match f4 f6 t p)) /\ inorder (fst (acl_match f4 f6 t p)) = inorder t /\
  (snd (acl_match f4 f6 t p) = true <-> match_spec f4 f6 p (inorder t)).
Proof.
  intros Hinv Hp. destruct (acl_lookup_spec t p Hinv Hp) as [Li Lm].
  pose proof (inv_lookup t p Hinv) as Linv.
  unfold acl_match, match_spec, isIPv6.
  destruct f4, f6, (isIPv4 p); cbn [negb fst snd]; (split; [assumption|]); (split; [assumption || reflexivity|]);
    rewrite ?Lm; split; intros; try tauto; try (destruct H as [[? ?]|[[? ?]|[[? ?]|?]]]; try discriminate; tauto).
Qed.

Lemma cv_hi_top c : cv_ok c -> cv_lo c <= cv_hi c /\ cv_hi c < TOP.
Proof.
  intros H. destruct (good_cv c H) as (G1 & G2 & _). rewrite (cv_first c H), (cv_last c H) in *. lia.
Qed.

Lemma good_cv_all cs : Forall cv_ok cs -> Forall good (map cv_val cs).
Proof.
  intros H. rewrite Forall_forall in *. intros v Hv. apply in_map_iff in Hv. destruct Hv as (c & <- & Hc).
  apply good_cv, H, Hc.
Qed.

Lemma covered_cv cs q : Forall cv_ok cs -> (covered q (map cv_val cs) <-> exists c, In c cs /\ cv_in q c).
Proof.
  intros H. rewrite Forall_forall in H. unfold covered, inR, cv_in. split.
  - intros (w & Hw & Hq). apply in_map_iff in Hw. destruct Hw as (c & <- & Hc). exists c. split; [exact Hc|].
    rewrite (cv_first c (H c Hc)), (cv_last c (H c Hc)) in Hq. exact Hq.
  - intros (c & Hc & Hq). exists (cv_val c). split; [apply in_map, Hc|].
    rewrite (cv_first c (H c Hc)), (cv_last c (H c Hc)). exact Hq.
Qed.

Definition acl_spec (f4 f6 : bool) (cs : list cval) (p : N) : Prop :=
  (f4 = true /\ f6 = true) \/ (f4 = true /\ isIPv4 p = true) \/ (f6 = true /\ isIPv4 p = false) \/
  (exists c, In c cs /\ cv_in p c).

Definition stored_ok (cs : list cval) (t : tree ipval) : Prop :=
  inv t /\ (forall q, covered q (inorder t) <-> exists c, In c cs /\ cv_in q c).

(* parse(): ends normally; the stored ranges are sorted, pairwise disjoint, and have the configured union *)
Theorem acl_parse_ok toks cs : Forall tok_parsed toks -> vals_of toks = map cv_val cs -> Forall cv_ok cs ->
  exists t n, acl_parse toks = POk (any4 toks) (any6 toks) t n /\ stored_ok cs t.
Proof.
  intros HP HV Hok.
  destruct (acl_parse_from_spec toks false false Leaf 0%Z (stored_leaf good before) HP ltac:(rewrite HV; apply good_cv_all; assumption))
    as (t & n & E & Inv & Hc).
  exists t, n. split; [exact E|]. split; [exact Inv|].
  intros q. rewrite Hc, HV, (covered_cv cs q Hok). cbn [inorder]. split; [|tauto].
  intros [H|H]; [destruct (covered_nil q H)| exact H].
Qed.

Lemma sd_disjoint l : sd l -> forall A x B y C, l = A ++ x :: B ++ y :: C -> last_addr x < first_addr y.
Proof.
  intros S A x B y C ->. apply (sorted_app before) in S. destruct S as (_ & S & _). cbn [sd] in S. destruct S as [F _].
  rewrite Forall_forall in F. apply F. apply in_or_app. right. left. reflexivity.
Qed.

Theorem acl_match_ok cs t f4 f6 p : stored_ok cs t -> p < TOP ->
  stored_ok cs (fst (acl_match f4 f6 t p)) /\
  (snd (acl_match f4 f6 t p) = true <-> acl_spec f4 f6 cs p).
Proof.
  intros [Inv Hc] Hp.
  destruct (acl_match_spec f4 f6 t p Inv Hp) as (I2 & Hi & Hm).
  split.
  - split; [exact I2|]. intros q. rewrite Hi. apply Hc.
  - rewrite Hm. unfold match_spec, acl_spec. rewrite Hc. tauto.
Qed.

Theorem acl_match_seq_ok cs f4 f6 : forall ps t,
  stored_ok cs t -> Forall (fun p => p < TOP) ps ->
  Forall2 (fun p b => b = true <-> acl_spec f4 f6 cs p) ps (snd (acl_match_seq f4 f6 t ps)).
Proof.
  induction ps as [|p ps IH]; intros t St HP; cbn [acl_match_seq]; [constructor|].
  inversion HP as [|? ? Hp HR]; subst.
  destruct (acl_match_ok cs t f4 f6 p St Hp) as [St1 Hm].
  destruct (acl_match f4 f6 t p) as [t1 b]. cbn [fst snd] in *.
  specialize (IH t1 St1 HR). destruct (acl_match_seq f4 f6 t1 ps) as [t2 bs]. cbn [snd] in *.
  constructor; assumption.
Qed.

Theorem acl_correct toks cs p : Forall tok_parsed toks -> vals_of toks = map cv_val cs -> Forall cv_ok cs ->
  p < TOP ->
  exists t n, acl_parse toks = POk (any4 toks) (any6 toks) t n /\
    (snd (acl_match (any4 toks) (any6 toks) t p) = true <-> acl_spec (any4 toks) (any6 toks) cs p).
Proof.
  intros HP HV Hok Hp.
  destruct (acl_parse_ok toks cs HP HV Hok) as (t & n & E & St).
  exists t, n. split; [exact E|]. apply (acl_match_ok cs t _ _ p St Hp).
Qed.

(* the stored ranges are non-empty, increasing and pairwise disjoint *)
Theorem stored_disjoint cs t : stored_ok cs t ->
  (forall x, In x (inorder t) -> first_addr x <= last_addr x) /\
  (forall A x B y C, inorder t = A ++ x :: B ++ y :: C -> last_addr x < first_addr y).
Proof.
  intros [[W S] _]. split.
  - intros x Hx. rewrite Forall_forall in W. destruct (W x Hx) as (G1 & _). exact G1.
  - apply sd_disjoint, S.
Qed.

Theorem compare_overlap c1 c2 : cv_ok c1 -> cv_ok c2 ->
  ((icompare (cv_val c1) (cv_val c2) < 0)%Z <-> cv_hi c1 < cv_lo c2) /\
  ((icompare (cv_val c1) (cv_val c2) > 0)%Z <-> cv_hi c2 < cv_lo c1) /\
  ((icompare (cv_val c1) (cv_val c2) = 0)%Z <-> exists x, cv_in x c1 /\ cv_in x c2).
Proof.
  intros H1 H2.
  destruct (icompare_spec _ _ (good_cv c1 H1) (good_cv c2 H2)) as (X1 & X2 & X3).
  unfold before in *. rewrite (cv_first c1 H1), (cv_last c1 H1), (cv_first c2 H2), (cv_last c2 H2) in *.
  pose proof (cv_hi_top c1 H1) as [L1 _]. pose proof (cv_hi_top c2 H2) as [L2 _].
  split; [exact X1|]. split; [exact X2|]. rewrite X3. unfold cv_in. split.
  - intros [N1 N2]. exists (N.max (cv_lo c1) (cv_lo c2)). lia.
  - intros (x & I1 & I2). lia.
Qed.

Theorem subset_is_inclusion c1 c2 : cv_ok c1 -> cv_ok c2 ->
  (is_subset (cv_val c1) (cv_val c2) = true <-> cv_lo c2 <= cv_lo c1 /\ cv_hi c1 <= cv_hi c2).
Proof.
  intros H1 H2. rewrite is_subset_spec, (cv_first c1 H1), (cv_last c1 H1), (cv_first c2 H2), (cv_last c2 H2). reflexivity.
Qed.

Theorem netcompare_sign c p : cv_ok c -> p < TOP ->
  ((net_cmp p (cv_val c) < 0)%Z <-> p < cv_lo c) /\
  ((net_cmp p (cv_val c) = 0)%Z <-> cv_in p c) /\
  ((net_cmp p (cv_val c) > 0)%Z <-> cv_hi c < p).
Proof.
  intros H Hp. destruct (good_cv c H) as (_ & _ & _ & G4). destruct (G4 p Hp) as [X1 X2].
  rewrite (cv_first c H), (cv_last c H) in *. unfold cv_in. repeat split; intros; lia.
Qed.

Definition tok_x : bytes := [120%N].
Definition plain_toks (cs : list cval) : list (bytes * spec) := map (fun c => (tok_x, SV [cv_val c])) cs.

Lemma plain_toks_vals cs : vals_of (plain_toks cs) = map cv_val cs.
Proof. induction cs as [|c cs IH]; [reflexivity|]. unfold vals_of, plain_toks in *. cbn [map flat_map]. rewrite IH. reflexivity. Qed.

Lemma plain_toks_parsed cs : Forall tok_parsed (plain_toks cs).
Proof. unfold plain_toks. rewrite Forall_forall. intros tk H. apply in_map_iff in H. destruct H as (c & <- & _). right. eexists. reflexivity. Qed.

Lemma plain_toks_flags cs : any4 (plain_toks cs) = false /\ any6 (plain_toks cs) = false.
Proof.
  assert (E : parse_global tok_x = None) by reflexivity.
  unfold plain_toks, any4, any6. split; induction cs as [|c cs IH]; cbn [map existsb fst]; [reflexivity| |reflexivity|];
    rewrite E, IH; reflexivity.
Qed.

Lemma mask_of_cidr_pmask k (v4 : bool) : 0 < k -> k <= (if v4 then 32 else 128) ->
  mask_of_cidr k v4 = Some (pmask ((if v4 then 32 else 128) - k)).
Proof.
  intros H0 Hk. unfold mask_of_cidr.
  assert (E1 : (128 <? k) = false) by (apply N.ltb_ge; destruct v4; lia).
  assert (E2 : ((32 <? k) && v4)%bool = false) by (destruct v4; [rewrite andb_true_r; apply N.ltb_ge; lia| apply andb_false_r]).
  assert (E3 : (k =? 0) = false) by (apply N.eqb_neq; lia).
  rewrite E1, E2, E3. f_equal.
  rewrite <- N.ldiff_ones_r. symmetry. apply pmask_ldiff. destruct v4; lia.
Qed.

Lemma cv_ok_net0 a : a < TOP -> cv_ok (CNet a 0).
Proof. intros H. cbn [cv_ok]. change (2 ^ 0) with 1. rewrite N.mod_1_r. lia. Qed.
Lemma cv_ok_range0 a b : a <= b -> b < TOP -> (b = V4ANY -> a = V4ANY) -> cv_ok (CRange a b 0).
Proof. intros H1 H2 H3. cbn [cv_ok]. change (2 ^ 0) with 1. rewrite !N.mod_1_r. lia. Qed.
Lemma cv_in_net0 x a : cv_in x (CNet a 0) <-> x = a.
Proof. unfold cv_in, cv_lo, cv_hi. change (2 ^ 0) with 1. lia. Qed.
Lemma cv_in_range0 x a b : cv_in x (CRange a b 0) <-> a <= x <= b.
Proof. unfold cv_in, cv_lo, cv_hi. change (2 ^ 0) with 1. lia. Qed.

Definition db8_1 : N := 42540766411282592856903984951653826561.   (* 2001:db8::1 *)
Definition db8_5 : N := 42540766411282592856903984951653826565.   (* 2001:db8::5 *)

Definition net10 : N := V4ANY + 167772160.           (* 10.0.0.0 *)
Definition blk_lo : N := V4ANY + 3232237328.         (* 192.168.7.16 *)
Definition blk_hi : N := V4ANY + 3232237335.         (* 192.168.7.23 *)

Lemma ex_values_ok : Forall cv_ok [CNet net10 24; CRange blk_lo blk_hi 0; CNet db8_1 0; CNet V4ANY 0; CRange 1 5 0].
Proof.
  unfold net10, blk_lo, blk_hi. repeat (apply Forall_cons || apply Forall_nil).
  - cbn [cv_ok]. split; [lia|]. split; [rewrite V4ANY_val, TOP_val; lia|]. vm_compute. reflexivity.
  - apply cv_ok_range0; rewrite ?V4ANY_val, ?TOP_val; lia.
  - apply cv_ok_net0. unfold db8_1. rewrite TOP_val. lia.
  - apply cv_ok_net0. rewrite V4ANY_val, TOP_val. lia.
  - apply cv_ok_range0; rewrite ?V4ANY_val, ?TOP_val; lia.
Qed.

Lemma ex_plain_tokens cs : Forall tok_parsed (plain_toks cs) /\ vals_of (plain_toks cs) = map cv_val cs.
Proof. split; [apply plain_toks_parsed| apply plain_toks_vals]. Qed.
