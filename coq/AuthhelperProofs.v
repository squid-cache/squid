(* AuthhelperProofs.v — proofs about AuthhelperModel.v (C47: helper reply reader; C46: Basic authentication). *)
Require Import SquidV.Bytes SquidV.AuthhelperModel.
Require Import ZifyBool ZifyN ZifyNat.
Local Open Scope N_scope.

Lemma span_app_keep {A} (p : A -> bool) a x :
  snd (span p a) <> [] \/ match x with [] => True | y :: _ => p y = false end ->
  span p (a ++ x) = (fst (span p a), snd (span p a) ++ x).
Proof.
  intros H. pose proof (span_app p a) as E. pose proof (span_all p a) as F.
  destruct (span p a) as [u [|y v]] eqn:S; cbn [fst snd] in *.
  - destruct H as [H|H]; [congruence|]. rewrite app_nil_r in E. subst u. now apply span_app_stop.
  - now apply span_stable.
Qed.

Lemma skip_ws_nows l : hd_isspace l = false -> skip_ws l = l.
Proof. destruct l as [|c l]; cbn [hd_isspace skip_ws]; intros H; [reflexivity| now rewrite H]. Qed.

Lemma skip_ws_allws w x : forallb isspace w = true -> skip_ws (w ++ x) = skip_ws x.
Proof.
  induction w as [|c w IH]; cbn [forallb app skip_ws]; intros H; [reflexivity|].
  apply andb_prop in H as [H1 H2]. rewrite H1. auto.
Qed.

Lemma skip_ws_split e : exists w, forallb isspace w = true /\ e = w ++ skip_ws e.
Proof.
  induction e as [|c e [w [H1 H2]]]; [exists []; split; reflexivity|].
  cbn [skip_ws]. destruct (isspace c) eqn:E.
  - exists (c :: w). cbn [forallb app]. rewrite E, H1. split; [reflexivity| now f_equal].
  - exists []. split; reflexivity.
Qed.

Lemma skip_ws_idem x : skip_ws (skip_ws x) = skip_ws x.
Proof.
  induction x as [|c x IH]; cbn [skip_ws]; [reflexivity|].
  destruct (isspace c) eqn:E; [exact IH| cbn [skip_ws]; now rewrite E].
Qed.

Lemma skip_ws_hd x : hd_isspace (skip_ws x) = false.
Proof.
  induction x as [|c x IH]; cbn [skip_ws]; [reflexivity|].
  destruct (isspace c) eqn:E; [exact IH| cbn [hd_isspace]; exact E].
Qed.

Lemma skip_ws_snoc x c : isspace c = true ->
  skip_ws (x ++ [c]) = match skip_ws x with [] => [] | _ => skip_ws x ++ [c] end.
Proof.
  intros Hc. induction x as [|d x IH]; cbn [app skip_ws]; [now rewrite Hc|].
  destruct (isspace d) eqn:E; [exact IH| reflexivity].
Qed.

(* the reply text up to blanks at both ends *)
Definition trim (x : bytes) : bytes := rev (skip_ws (rev (skip_ws x))).

Lemma trim_skip_ws x : trim (skip_ws x) = trim x.
Proof. unfold trim. now rewrite skip_ws_idem. Qed.

Lemma trim_ws_prefix w x : forallb isspace w = true -> trim (w ++ x) = trim x.
Proof. intros H. unfold trim. now rewrite skip_ws_allws. Qed.

Lemma trim_snoc_ws x c : isspace c = true -> trim (x ++ [c]) = trim x.
Proof.
  intros Hc. unfold trim. rewrite skip_ws_snoc by exact Hc.
  destruct (skip_ws x) as [|d y] eqn:E; [reflexivity|].
  rewrite rev_app_distr. cbn [rev app skip_ws]. now rewrite Hc.
Qed.

Definition nows (l : bytes) : Prop := hd_isspace l = false.

Lemma sign_rest_app c s x : sign_rest ((c :: s) ++ x) = sign_rest (c :: s) ++ x.
Proof. cbn [app sign_rest]. destruct ((c =? 45) || (c =? 43)); reflexivity. Qed.

(* more bytes after s do not change what strtol makes of s, once the number is known to be complete: the
   character after it was seen, or the new bytes do not start with a digit *)
Lemma strtol_app s x :
  s <> [] -> nows s ->
  hd_isspace (snd (strtol s)) = true \/ match x with [] => True | y :: _ => isdigit y = false end ->
  strtol (s ++ x) = (fst (strtol s), snd (strtol s) ++ x).
Proof.
  intros Hne Hs H. destruct s as [|c s]; [congruence|].
  unfold strtol in *. rewrite (skip_ws_nows _ Hs) in *. rewrite (skip_ws_nows ((c :: s) ++ x) Hs).
  rewrite sign_rest_app, span_app_keep.
  - destruct (span isdigit (sign_rest (c :: s))) as [[|d ds] e]; reflexivity.
  - destruct H as [H|H]; [left|right; exact H].
    destruct (span isdigit (sign_rest (c :: s))) as [[|d ds] e]; cbn [snd] in *; [unfold nows in Hs; congruence|].
    destruct e; [discriminate H| discriminate].
Qed.

Definition noLF (l : bytes) : Prop := forallb (fun c => negb (c =? LF)) l = true.

Lemma split_lf_nolf a : noLF a -> split_lf a = ([], a).
Proof.
  unfold noLF. induction a as [|c a IH]; cbn [forallb split_lf]; intros H; [reflexivity|].
  apply andb_prop in H as [H1 H2]. rewrite (IH H2).
  destruct (c =? LF); [discriminate H1| reflexivity].
Qed.

Lemma split_lf_line a b : noLF a ->
  split_lf (a ++ LF :: b) = (a :: fst (split_lf b), snd (split_lf b)).
Proof.
  unfold noLF. induction a as [|c a IH]; cbn [forallb app]; intros H.
  - cbn [split_lf]. destruct (split_lf b) as [ls p]. rewrite N.eqb_refl. reflexivity.
  - apply andb_prop in H as [H1 H2]. cbn [split_lf]. rewrite (IH H2). cbn [fst snd].
    destruct (c =? LF); [discriminate H1| reflexivity].
Qed.

Lemma split_first_lf (x : bytes) : noLF x \/ exists a b, x = a ++ LF :: b /\ noLF a.
Proof.
  induction x as [|c x IH]; [left; reflexivity|].
  destruct (c =? LF) eqn:E.
  - right. exists [], x. apply N.eqb_eq in E. subst c. split; reflexivity.
  - destruct IH as [H|[a [b [H1 H2]]]].
    + left. unfold noLF. cbn [forallb]. rewrite E. exact H.
    + right. exists (c :: a), b. split; [now rewrite H1|]. unfold noLF. cbn [forallb]. rewrite E. exact H2.
Qed.

Lemma noLF_app a b : noLF a -> noLF b -> noLF (a ++ b).
Proof. unfold noLF. intros Ha Hb. rewrite forallb_app, Ha, Hb. reflexivity. Qed.

Lemma split_lf_tail_nolf x : noLF (snd (split_lf x)).
Proof.
  induction x as [|c x IH]; [reflexivity|]. cbn [split_lf].
  destruct (split_lf x) as [ls p]. cbn [snd] in *.
  destruct (c =? LF) eqn:E; [exact IH|].
  destruct ls; cbn [snd]; [|exact IH]. unfold noLF. cbn [forallb]. rewrite E. exact IH.
Qed.

Lemma split_lf_app x y :
  split_lf (x ++ y) =
  (fst (split_lf x) ++ fst (split_lf (snd (split_lf x) ++ y)), snd (split_lf (snd (split_lf x) ++ y))).
Proof.
  induction x as [|c x IH]; cbn [app split_lf fst snd].
  - destruct (split_lf y); reflexivity.
  - rewrite IH. destruct (split_lf x) as [ls p]. cbn [fst snd].
    destruct (split_lf (p ++ y)) as [ls2 p2] eqn:S2. cbn [fst snd].
    destruct (c =? LF) eqn:E; cbn [fst snd app]; [now rewrite S2|].
    destruct ls as [|l ls]; cbn [app fst snd].
    + cbn [split_lf]. rewrite S2, E. destruct ls2; reflexivity.
    + now rewrite S2.
Qed.

Lemma last_app_ne {A} (q c1 : list A) d : c1 <> [] -> last (q ++ c1) d = last c1 d.
Proof.
  intros H. induction q as [|y q IH]; [reflexivity|].
  cbn [app]. assert (E : q ++ c1 <> []) by (intros E; apply app_eq_nil in E as [_ E]; congruence).
  destruct (q ++ c1) as [|z r]; [congruence|]. exact IH.
Qed.

Lemma strip_cr_app q c1 : c1 <> [] -> strip_cr (q ++ c1) = q ++ strip_cr c1.
Proof.
  intros H. unfold strip_cr.
  destruct (q ++ c1) eqn:E; [apply app_eq_nil in E as [_ E]; congruence|]. rewrite <- E.
  destruct c1 as [|d c1]; [congruence|].
  rewrite last_app_ne by discriminate.
  destruct (last (d :: c1) 0 =? CR); [|reflexivity].
  apply removelast_app. discriminate.
Qed.

(* What a helper reply stream means, line by line and independently of how it was read: the decimal number at the
   start of the line selects the waiting request (concurrent helpers; the oldest request otherwise), which is called
   back with the rest of the line; when no request is selected the line is dropped. *)
Definition spec_line (conc : bool) (rs : reqtab) (l : bytes) : reqtab * list disp :=
  let line := strip_cr l in
  let '(i, e) := if conc then strtol line else (0%Z, line) in
  let text := if conc then skip_ws e else line in
  match pop_request conc i rs with
  | Some (tag, rs') => (rs', [(tag, Some text)])
  | None => (rs, [])
  end.

Fixpoint spec_lines (conc : bool) (rs : reqtab) (ls : list bytes) : reqtab * list disp :=
  match ls with
  | [] => (rs, [])
  | l :: r => let '(rs1, o1) := spec_line conc rs l in
              let '(rs2, o2) := spec_lines conc rs1 r in (rs2, o1 ++ o2)
  end.

Definition spec_stream (conc : bool) (rs : reqtab) (stream : bytes) : list disp :=
  snd (spec_lines conc rs (fst (split_lf stream))).

Lemma spec_lines_app conc rs a b :
  spec_lines conc rs (a ++ b) =
  (fst (spec_lines conc (fst (spec_lines conc rs a)) b),
   snd (spec_lines conc rs a) ++ snd (spec_lines conc (fst (spec_lines conc rs a)) b)).
Proof.
  revert rs. induction a as [|l a IH]; intros rs; cbn [app spec_lines fst snd].
  - destruct (spec_lines conc rs b); reflexivity.
  - destruct (spec_line conc rs l) as [rs1 o1]. rewrite IH.
    destruct (spec_lines conc rs1 a) as [rs2 o2]. cbn [fst snd].
    destruct (spec_lines conc rs2 b) as [rs3 o3]. cbn [fst snd]. now rewrite app_assoc.
Qed.

(* equality of callbacks up to blanks at both ends of the text *)
Definition dsim1 (a b : disp) : Prop :=
  fst a = fst b /\
  match snd a, snd b with
  | Some x, Some y => trim x = trim y
  | None, None => True
  | _, _ => False
  end.
Definition dsim := Forall2 dsim1.

Lemma dsim_refl l : dsim l l.
Proof. induction l as [|[t [x|]] l IH]; constructor; try exact IH; split; reflexivity || exact I. Qed.

Lemma dsim_app a b c d : dsim a b -> dsim c d -> dsim (a ++ c) (b ++ d).
Proof. apply Forall2_app. Qed.

Definition fresh_st (rs : reqtab) (st : hstate) : Prop :=
  h_rbuf st = [] /\ h_cur st = None /\ h_ign st = false /\ h_reqs st = rs /\ h_closed st = false /\ h_queue st = [].

(* the reader between two lines, nothing waiting in squid's own queue; h_next is its only free component *)
Definition idle (rs : reqtab) (nx : N) : hstate := mkH [] None false rs nx false [].

Ltac hsimp := cbn [h_cur h_queue h_rbuf h_ign h_reqs h_next h_closed kick set_cur set_rbuf app fst snd clear_ign andb negb].

Lemma kick_nil lim st : h_queue st = [] -> kick lim (h_queue st) st = st.
Proof. intros H. rewrite H. destruct st; cbn in *. now subst. Qed.

(* a complete line read between two lines is handled exactly as the specification says *)
Lemma process_idle c rs nx l :
  process c true (idle rs nx) l =
  Some (idle (fst (spec_line (hc_conc c) rs l)) nx, snd (spec_line (hc_conc c) rs l)).
Proof.
  unfold process, spec_line, idle. hsimp. rewrite andb_false_r.
  destruct (if hc_conc c then strtol (strip_cr l) else (0%Z, strip_cr l)) as [i e].
  destruct (pop_request (hc_conc c) i rs) as [[tag rs1]|]; reflexivity.
Qed.

Lemma process_lines_idle c nx ls : forall rs,
  process_lines c (idle rs nx) ls =
  (idle (fst (spec_lines (hc_conc c) rs ls)) nx, snd (spec_lines (hc_conc c) rs ls)).
Proof.
  induction ls as [|l ls IH]; intros rs; cbn [process_lines spec_lines]; [reflexivity|].
  rewrite process_idle. destruct (spec_line (hc_conc c) rs l) as [rs1 o1]. cbn [fst snd]. rewrite IH.
  destruct (spec_lines (hc_conc c) rs1 ls); reflexivity.
Qed.

Lemma body2_cons c st l ls tl st1 o1 : process c true st l = Some (st1, o1) ->
  body2 c st (l :: ls) tl = (fst (body2 c st1 ls tl), o1 ++ snd (body2 c st1 ls tl)).
Proof.
  intros E. unfold body2. cbn [process_lines]. rewrite E. destruct (process_lines c st1 ls) as [st2 o2].
  destruct tl as [|t0 t1]; [reflexivity|].
  destruct (process c false st2 (t0 :: t1)) as [[st3 o3]|]; cbn [fst snd]; [now rewrite app_assoc| reflexivity].
Qed.

(* what the reader makes of the bytes q of a still unterminated line when it sees them first: the channel number
   and the rest, or (concurrent helpers, number not yet followed by a blank) nothing *)
Definition decide (conc : bool) (q : bytes) : option (Z * bytes) :=
  match q with
  | [] => None
  | _ => if conc then (if hd_isspace (snd (strtol q)) then Some (strtol q) else None) else Some (0%Z, q)
  end.

(* st is the reader's state after the bytes q of a still unterminated line, the table having been rs0 at the
   start of that line: q is still in rbuf, or the request it names has been taken out of the table and has
   received the text so far (up to leading blanks), or it names none and the line is being skipped *)
Inductive Rep (conc : bool) (rs0 : reqtab) (q : bytes) : hstate -> Prop :=
| Rep_wait nx : decide conc q = None -> Rep conc rs0 q (mkH q None false rs0 nx false [])
| Rep_cur nx i w acc tag rs1 :
    decide conc q = Some (i, w ++ acc) -> forallb isspace w = true -> pop_request conc i rs0 = Some (tag, rs1) ->
    Rep conc rs0 q (mkH [] (Some (tag, acc)) false rs1 nx false [])
| Rep_ign nx i e :
    decide conc q = Some (i, e) -> pop_request conc i rs0 = None -> Rep conc rs0 q (mkH [] None true rs0 nx false []).

Lemma fresh_Rep conc rs st : fresh_st rs st -> Rep conc rs [] st.
Proof. destruct st. unfold fresh_st. cbn. intros (-> & -> & -> & -> & -> & ->). now apply Rep_wait. Qed.

(* the lines ls and the unterminated tail t, read between two lines *)
Lemma body_idle c rs nx ls t :
  exists st', body2 c (idle rs nx) ls t = (st', snd (spec_lines (hc_conc c) rs ls)) /\
              Rep (hc_conc c) (fst (spec_lines (hc_conc c) rs ls)) t st'.
Proof.
  unfold body2. rewrite process_lines_idle.
  destruct (spec_lines (hc_conc c) rs ls) as [rs1 o1]. cbn [fst snd].
  destruct t as [|t0 t1]; [eexists; split; [reflexivity| now apply Rep_wait]|].
  unfold process, idle. hsimp. destruct (hc_conc c); hsimp.
  - destruct (strtol (t0 :: t1)) as [i e] eqn:Es. destruct (hd_isspace e) eqn:He; hsimp.
    + destruct (skip_ws_split e) as (w & Hw & Ee).
      assert (D : decide true (t0 :: t1) = Some (i, w ++ skip_ws e))
        by (unfold decide; rewrite Es; cbn [snd]; now rewrite He, <- Ee).
      destruct (pop_request true i rs1) as [[tag rs2]|] eqn:P; unfold deliver; hsimp; rewrite app_nil_r;
        eexists; (split; [reflexivity|]).
      * exact (Rep_cur _ _ _ nx i w _ tag rs2 D Hw P).
      * exact (Rep_ign _ _ _ nx i _ D P).
    + eexists. split; [reflexivity|]. apply Rep_wait. unfold decide. rewrite Es. cbn [snd]. now rewrite He.
  - destruct (pop_request false 0%Z rs1) as [[tag rs2]|] eqn:P; unfold deliver; hsimp; rewrite app_nil_r;
      eexists; (split; [reflexivity|]).
    + exact (Rep_cur false _ (t0 :: t1) nx 0%Z [] _ tag rs2 eq_refl eq_refl P).
    + exact (Rep_ign false _ (t0 :: t1) nx 0%Z _ eq_refl P).
Qed.

Lemma nows_app q x : nows (q ++ x) -> nows q.
Proof. destruct q; [reflexivity| exact id]. Qed.

Lemma decide_conc q i e : decide true q = Some (i, e) -> strtol q = (i, e) /\ hd_isspace e = true.
Proof.
  unfold decide. destruct q as [|q0 q1]; [discriminate|].
  destruct (hd_isspace (snd (strtol (q0 :: q1)))) eqn:H; [|discriminate].
  intros E. injection E as E. rewrite E in H. split; [exact E| exact H].
Qed.

Lemma decide_false q i e : decide false q = Some (i, e) -> i = 0%Z /\ e = q.
Proof. destruct q; [discriminate|]. intros E. injection E as <- <-. split; reflexivity. Qed.

Lemma decide_app conc q x i e :
  (conc = true -> nows q) -> decide conc q = Some (i, e) -> decide conc (q ++ x) = Some (i, e ++ x).
Proof.
  intros Hn D. destruct q as [|q0 q1]; [discriminate|]. destruct conc.
  - apply decide_conc in D as [E He]. unfold decide. cbn [app]. change (q0 :: q1 ++ x) with ((q0 :: q1) ++ x).
    rewrite (strtol_app (q0 :: q1) x ltac:(discriminate) (Hn eq_refl)) by (left; now rewrite E). rewrite E. cbn [fst snd].
    destruct e; [discriminate He| cbn [app hd_isspace] in *; now rewrite He].
  - apply decide_false in D as [-> ->]. reflexivity.
Qed.

(* more bytes of the same line, no LF yet *)
Lemma tail_rep c rs0 q st x :
  Rep (hc_conc c) rs0 q st -> (hc_conc c = true -> nows q) ->
  exists st', body2 c (set_rbuf st []) [] (h_rbuf st ++ x) = (st', []) /\ Rep (hc_conc c) rs0 (q ++ x) st'.
Proof.
  intros R Hn. destruct R as [nx D|nx i w acc tag rs1 D Hw P|nx i e D P]; hsimp.
  - apply (body_idle c rs0 nx []).
  - pose proof (decide_app _ _ x _ _ Hn D) as D'. rewrite <- app_assoc in D'.
    destruct x as [|x0 x1]; unfold body2, process, deliver; hsimp; eexists; (split; [reflexivity|]).
    + rewrite !app_nil_r in *. exact (Rep_cur _ _ _ nx i w acc tag rs1 D' Hw P).
    + exact (Rep_cur _ _ _ nx i w _ tag rs1 D' Hw P).
  - pose proof (decide_app _ _ x _ _ Hn D) as D'.
    destruct x as [|x0 x1]; unfold body2, process, deliver; hsimp; eexists; (split; [reflexivity|]);
      exact (Rep_ign _ _ _ nx i _ D' P).
Qed.

Lemma strip_cr_cases q : strip_cr q = q \/ exists q', q = q' ++ [CR] /\ strip_cr q = q'.
Proof.
  unfold strip_cr. destruct q as [|q0 q1]; [now left|].
  destruct (last (q0 :: q1) 0 =? CR) eqn:E; [|now left].
  right. exists (removelast (q0 :: q1)). split; [|reflexivity].
  apply N.eqb_eq in E. rewrite <- E. apply app_removelast_last. discriminate.
Qed.

Lemma trim_strip_cr x a : trim (x ++ strip_cr a) = trim (x ++ a).
Proof.
  destruct (strip_cr_cases a) as [->|(a' & -> & ->)]; [reflexivity|].
  rewrite app_assoc. symmetry. now apply trim_snoc_ws.
Qed.

(* the specification's reading of a complete line is what the reader decides on seeing its bytes, the CR apart *)
Lemma spec_line_decide conc rs l i e :
  (conc = true -> nows l) -> decide conc l = Some (i, e) ->
  exists text, spec_line conc rs l = match pop_request conc i rs with
                                     | Some (tag, rs1) => (rs1, [(tag, Some text)])
                                     | None => (rs, [])
                                     end /\ trim text = trim e.
Proof.
  intros Hn D. unfold spec_line. destruct (strip_cr_cases l) as [->|(l' & -> & ->)]; destruct conc.
  - apply decide_conc in D as [-> _]. exists (skip_ws e). split; [reflexivity| apply trim_skip_ws].
  - apply decide_false in D as [-> ->]. eexists. split; reflexivity.
  - apply decide_conc in D as [D _]. specialize (Hn eq_refl).
    assert (Hl : l' <> []) by (intros ->; discriminate Hn).
    rewrite (strtol_app l' [CR] Hl (nows_app _ _ Hn) (or_intror eq_refl)) in D.
    destruct (strtol l') as [i' e']. injection D as <- <-.
    exists (skip_ws e'). split; [reflexivity|]. rewrite trim_skip_ws. symmetry. now apply trim_snoc_ws.
  - apply decide_false in D as [-> ->]. eexists. split; [reflexivity|]. symmetry. now apply trim_snoc_ws.
Qed.

Lemma decide_nows conc q x ie : decide conc q = Some ie -> nows q -> nows (q ++ x).
Proof. destruct q; [discriminate| exact (fun _ H => H)]. Qed.

(* the LF of the current line arrives (after the bytes a) *)
Lemma finish_line c rs0 q st a :
  Rep (hc_conc c) rs0 q st -> (hc_conc c = true -> nows q) ->
  exists nx d, process c true (set_rbuf st []) (h_rbuf st ++ a) =
               Some (idle (fst (spec_line (hc_conc c) rs0 (q ++ a))) nx, d) /\
               dsim d (snd (spec_line (hc_conc c) rs0 (q ++ a))).
Proof.
  intros R Hn. destruct R as [nx D|nx i w acc tag rs1 D Hw P|nx i e D P]; hsimp; exists nx.
  - eexists. split; [apply process_idle| apply dsim_refl].
  - destruct (spec_line_decide _ rs0 _ _ _ (fun E => decide_nows _ _ a _ D (Hn E)) (decide_app _ _ a _ _ Hn D))
      as (text & -> & Et). rewrite P.
    eexists. split; [reflexivity|]. constructor; [split; [reflexivity|]; cbn [snd]| constructor].
    rewrite Et, <- app_assoc, (trim_ws_prefix w) by exact Hw. apply trim_strip_cr.
  - destruct (spec_line_decide _ rs0 _ _ _ (fun E => decide_nows _ _ a _ D (Hn E)) (decide_app _ _ a _ _ Hn D))
      as (text & -> & _). rewrite P.
    eexists. split; [reflexivity| constructor].
Qed.

Definition lines_all (s : bytes) : list bytes := fst (split_lf s) ++ [snd (split_lf s)].
(* every line of the stream (the unterminated last one included) starts with a byte that is not a blank *)
Definition wf (conc : bool) (s : bytes) : Prop := conc = true -> Forall nows (lines_all s).

Lemma lines_all_app x y :
  lines_all (x ++ y) = fst (split_lf x) ++ lines_all (snd (split_lf x) ++ y).
Proof. unfold lines_all. rewrite split_lf_app. cbn [fst snd]. now rewrite app_assoc. Qed.

(* the first line of q ++ y begins with q *)
Lemma wf_hd conc q y : noLF q -> wf conc (q ++ y) -> conc = true -> nows q.
Proof.
  intros Hq W E. specialize (W E). unfold lines_all in W.
  destruct (split_first_lf y) as [Hy|(a & b & -> & Ha)].
  - rewrite split_lf_nolf in W by now apply noLF_app. inversion W. now apply (nows_app q y).
  - rewrite app_assoc, split_lf_line in W by now apply noLF_app. inversion W. now apply (nows_app q a).
Qed.

Lemma body_sim c rs0 q st chunk :
  Rep (hc_conc c) rs0 q st -> noLF q -> (hc_conc c = true -> nows q) ->
  exists st' ds, hread_body c st (h_rbuf st ++ chunk) = (st', ds) /\
    dsim ds (snd (spec_lines (hc_conc c) rs0 (fst (split_lf (q ++ chunk))))) /\
    Rep (hc_conc c) (fst (spec_lines (hc_conc c) rs0 (fst (split_lf (q ++ chunk))))) (snd (split_lf (q ++ chunk))) st'.
Proof.
  intros R Hq Hn. unfold hread_body.
  assert (Hrb : noLF (h_rbuf st)) by (destruct R; [exact Hq| reflexivity| reflexivity]).
  destruct (split_first_lf chunk) as [Hc|(a & b & -> & Ha)].
  - rewrite !split_lf_nolf by now apply noLF_app. cbn [fst snd spec_lines].
    destruct (tail_rep c rs0 q st chunk R Hn) as (st' & E & R'). exists st', []. split; [exact E|].
    split; [constructor| exact R'].
  - rewrite (app_assoc (h_rbuf st)), (app_assoc q), !split_lf_line by now apply noLF_app. cbn [fst snd spec_lines].
    destruct (finish_line c rs0 q st a R Hn) as (nx & d1 & E1 & S1). rewrite (body2_cons _ _ _ _ _ _ _ E1).
    destruct (spec_line (hc_conc c) rs0 (q ++ a)) as [rs1 o1]. cbn [fst snd] in *.
    destruct (body_idle c rs1 nx (fst (split_lf b)) (snd (split_lf b))) as (st' & -> & R').
    destruct (spec_lines (hc_conc c) rs1 (fst (split_lf b))) as [rs2 o2]. cbn [fst snd] in *.
    exists st', (d1 ++ o2). split; [reflexivity|]. split; [apply dsim_app; [exact S1| apply dsim_refl]| exact R'].
Qed.

Lemma hreads_cons c st ch r :
  hreads c st (ch :: r) = (fst (hreads c (fst (hread c st ch)) r), snd (hread c st ch) ++ snd (hreads c (fst (hread c st ch)) r)).
Proof.
  unfold hreads. cbn [map hrun hstep]. destruct (hread c st ch) as [st1 o1]. cbn [fst snd].
  destruct (hrun c st1 (map HRead r)) as [st2 o2]. reflexivity.
Qed.

Lemma hreads_closed c st chunks : h_closed st = true -> hreads c st chunks = (st, []).
Proof.
  intros H. induction chunks as [|ch r IH]; [reflexivity|].
  rewrite hreads_cons. unfold hread. rewrite H. cbn [fst snd]. rewrite IH. reflexivity.
Qed.

(* the reads of a stream, cut in any way, call back what the specification says for its complete lines; if the
   helper gets killed on the way ("spoke without being spoken to") a prefix of it *)
Lemma frag_main c chunks : forall rs0 q st,
  Rep (hc_conc c) rs0 q st -> noLF q -> wf (hc_conc c) (q ++ concat chunks) ->
  (exists k, dsim (snd (hreads c st chunks))
                  (firstn k (snd (spec_lines (hc_conc c) rs0 (fst (split_lf (q ++ concat chunks))))))) /\
  (h_closed (fst (hreads c st chunks)) = false ->
   dsim (snd (hreads c st chunks)) (snd (spec_lines (hc_conc c) rs0 (fst (split_lf (q ++ concat chunks)))))).
Proof.
  induction chunks as [|ch r IH]; intros rs0 q st R Hq W.
  - cbn [concat]. rewrite app_nil_r. rewrite (split_lf_nolf q Hq). cbn [fst snd spec_lines hreads map hrun].
    split; [exists 0%nat; constructor| intros _; constructor].
  - pose proof (wf_hd _ _ _ Hq W) as Hn. cbn [concat] in *. rewrite app_assoc in *.
    assert (Hcl : h_closed st = false) by (destruct R; reflexivity).
    rewrite hreads_cons. unfold hread. rewrite Hcl. destruct (h_pending st =? 0); cbn [fst snd].
    + rewrite hreads_closed by reflexivity. split; [exists 0%nat; constructor| discriminate].
    + destruct (body_sim c rs0 q st ch R Hq Hn) as (st1 & o1 & -> & S1 & R1). cbn [fst snd].
      rewrite split_lf_app. cbn [fst snd]. rewrite spec_lines_app. cbn [fst snd].
      destruct (IH _ _ st1 R1 (split_lf_tail_nolf (q ++ ch))) as ((k & I1) & I2).
      { intros E. specialize (W E). rewrite lines_all_app in W. now apply Forall_app in W. }
      split.
      * eexists. rewrite firstn_app_2. apply dsim_app; eassumption.
      * intros Hc. apply dsim_app; [exact S1| exact (I2 Hc)].
Qed.

Lemma dsim_sym a b : dsim a b -> dsim b a.
Proof.
  induction 1 as [|x y a b H _ IH]; constructor; [|exact IH].
  destruct H as [H1 H2]. split; [now symmetry|]. destruct (snd x), (snd y); try tauto. now symmetry.
Qed.

Lemma dsim_trans a b c : dsim a b -> dsim b c -> dsim a c.
Proof.
  intros H. revert c. induction H as [|x y a b H _ IH]; intros c Hc; inversion Hc as [|y' z b' c' H' Hc']; subst; constructor.
  - destruct H as [H1 H2], H' as [H3 H4]. split; [congruence|].
    destruct (snd x), (snd y), (snd z); try tauto. congruence.
  - now apply IH.
Qed.

(* for every way of cutting the helper's byte stream into reads the callbacks are those of the per-line
   specification (up to blanks at the ends of the text): all of them if the helper was not killed, else a prefix *)
Theorem dispatch_is_spec c st chunks :
  fresh_st (h_reqs st) st -> wf (hc_conc c) (concat chunks) ->
  (exists k, dsim (snd (hreads c st chunks)) (firstn k (spec_stream (hc_conc c) (h_reqs st) (concat chunks)))) /\
  (h_closed (fst (hreads c st chunks)) = false ->
   dsim (snd (hreads c st chunks)) (spec_stream (hc_conc c) (h_reqs st) (concat chunks))).
Proof.
  intros F W. exact (frag_main c chunks (h_reqs st) [] st (fresh_Rep _ _ st F) eq_refl W).
Qed.

(* two fragmentations of the same stream *)
Theorem fragmentation_independent c st chunks1 chunks2 :
  fresh_st (h_reqs st) st -> concat chunks1 = concat chunks2 -> wf (hc_conc c) (concat chunks1) ->
  h_closed (fst (hreads c st chunks1)) = false -> h_closed (fst (hreads c st chunks2)) = false ->
  dsim (snd (hreads c st chunks1)) (snd (hreads c st chunks2)).
Proof.
  intros F E W C1 C2.
  destruct (dispatch_is_spec c st chunks1 F W) as [_ H1].
  rewrite E in W. destruct (dispatch_is_spec c st chunks2 F W) as [_ H2].
  rewrite E in H1. exact (dsim_trans _ _ _ (H1 C1) (dsim_sym _ _ (H2 C2))).
Qed.

Lemma pop_id_split i rs t rs' :
  pop_id i rs = Some (t, rs') -> exists a b, rs = a ++ (i, t) :: b /\ rs' = a ++ b.
Proof.
  revert t rs'. induction rs as [|[j u] rs IH]; intros t rs'; cbn [pop_id]; [discriminate|].
  destruct (j =? i) eqn:E.
  - intros H. injection H as <- <-. apply N.eqb_eq in E. subst j. exists [], rs. split; reflexivity.
  - destruct (pop_id i rs) as [[t' r']|]; [|discriminate]. intros H. injection H as <- <-.
    destruct (IH t' r' eq_refl) as (a & b & -> & ->). exists ((j, u) :: a), b. split; reflexivity.
Qed.

Lemma pop_id_none i rs : (forall t, ~ In (i, t) rs) -> pop_id i rs = None.
Proof.
  induction rs as [|[j u] rs IH]; intros H; cbn [pop_id]; [reflexivity|].
  destruct (j =? i) eqn:E.
  - apply N.eqb_eq in E. subst j. exfalso. apply (H u). now left.
  - rewrite IH; [reflexivity|]. intros t Ht. apply (H t). now right.
Qed.

Lemma pop_request_split conc i rs t rs' :
  pop_request conc i rs = Some (t, rs') ->
  exists a j b, rs = a ++ (j, t) :: b /\ rs' = a ++ b /\ (conc = true -> (0 <= i)%Z /\ j = Z.to_N i).
Proof.
  unfold pop_request. destruct conc.
  - destruct (i <? 0)%Z eqn:E; [discriminate|]. intros H.
    destruct (pop_id_split _ _ _ _ H) as (a & b & -> & ->). exists a, (Z.to_N i), b.
    repeat split; try reflexivity. lia.
  - destruct rs as [|[j u] rs]; [discriminate|]. intros H. injection H as <- <-.
    exists [], j, rs. repeat split; try reflexivity; discriminate.
Qed.

(* the number at the start of a (complete) line *)
Definition line_number (l : bytes) : Z := fst (strtol (strip_cr l)).

Lemma spec_lines_sound rs ls tag d :
  In (tag, d) (snd (spec_lines true rs ls)) ->
  exists l, In l ls /\ (0 <= line_number l)%Z /\ In (Z.to_N (line_number l), tag) rs.
Proof.
  revert rs. induction ls as [|l ls IH]; intros rs; cbn [spec_lines snd]; [intros []|].
  destruct (spec_line true rs l) as [rs1 o1] eqn:E1.
  destruct (spec_lines true rs1 ls) as [rs2 o2] eqn:E2. cbn [snd]. intros H.
  unfold spec_line in E1. destruct (strtol (strip_cr l)) as [i e] eqn:Es.
  destruct (pop_request true i rs) as [[t r']|] eqn:P.
  - injection E1 as <- <-. destruct (pop_request_split _ _ _ _ _ P) as (a & j & b & -> & -> & Hj).
    destruct (Hj eq_refl) as [Hi ->].
    destruct H as [H|H].
    + injection H as <- _. exists l. split; [now left|]. unfold line_number. rewrite Es. cbn [fst].
      split; [exact Hi|]. apply in_or_app. right. now left.
    + specialize (IH (a ++ b)). rewrite E2 in IH. destruct (IH H) as (l' & L1 & L2 & L3).
      exists l'. split; [now right|]. split; [exact L2|].
      apply in_app_or in L3. apply in_or_app. destruct L3; [now left| right; now right].
  - injection E1 as <- <-. cbn [app] in H. specialize (IH rs). rewrite E2 in IH.
    destruct (IH H) as (l' & L1 & L2 & L3). exists l'. split; [now right|]. tauto.
Qed.

Lemma dsim_In a b t d : dsim a b -> In (t, d) a -> exists d', In (t, d') b.
Proof.
  induction 1 as [|x y a b H _ IH]; [intros []|]. intros [Hx|Hx].
  - subst x. destruct y as [t' d']. destruct H as [H _]. cbn in H. subst t'. exists d'. now left.
  - destruct (IH Hx) as (d' & Hd). exists d'. now right.
Qed.

(* whoever is called back was waiting on the channel whose number starts that reply line *)
Theorem reply_applied_to_its_channel c st chunks tag d :
  hc_conc c = true -> fresh_st (h_reqs st) st -> wf true (concat chunks) ->
  In (tag, d) (snd (hreads c st chunks)) ->
  exists l, In l (fst (split_lf (concat chunks))) /\ (0 <= line_number l)%Z /\
            In (Z.to_N (line_number l), tag) (h_reqs st).
Proof.
  intros Ec F W H. rewrite <- Ec in W. destruct (dispatch_is_spec c st chunks F W) as [(k & Hk) _].
  destruct (dsim_In _ _ _ _ Hk H) as (d' & Hd).
  assert (Hs : In (tag, d') (spec_stream (hc_conc c) (h_reqs st) (concat chunks)))
    by (rewrite <- (firstn_skipn k); apply in_or_app; now left).
  unfold spec_stream in Hs. rewrite Ec in Hs. exact (spec_lines_sound _ _ _ _ Hs).
Qed.

Lemma spec_lines_none rs ls :
  (forall l, In l ls -> pop_request true (line_number l) rs = None) -> spec_lines true rs ls = (rs, []).
Proof.
  induction ls as [|l ls IH]; intros H; cbn [spec_lines]; [reflexivity|].
  pose proof (H l (or_introl eq_refl)) as E. unfold spec_line, line_number in *.
  destruct (strtol (strip_cr l)) as [i e]. cbn [fst] in E. rewrite E, IH; [reflexivity|].
  intros l' Hl. apply H. now right.
Qed.

(* lines whose number is not the id of a waiting request (unknown, negative) call nobody back *)
Theorem unknown_channel_dropped c st chunks :
  hc_conc c = true -> fresh_st (h_reqs st) st -> wf true (concat chunks) ->
  (forall l, In l (fst (split_lf (concat chunks))) ->
             (line_number l < 0)%Z \/ forall tag, ~ In (Z.to_N (line_number l), tag) (h_reqs st)) ->
  snd (hreads c st chunks) = [].
Proof.
  intros Ec F W H. rewrite <- Ec in W. destruct (dispatch_is_spec c st chunks F W) as [(k & Hk) _].
  unfold spec_stream in Hk. rewrite Ec, spec_lines_none in Hk.
  - cbn [snd] in Hk. destruct k; cbn [firstn] in Hk; now inversion Hk.
  - intros l Hl. unfold pop_request. destruct (H l Hl) as [Hn|Hn].
    + apply Z.ltb_lt in Hn. now rewrite Hn.
    + destruct (line_number l <? 0)%Z; [reflexivity|]. now apply pop_id_none.
Qed.

(* the transactions that still wait for an answer, in the order in which they asked *)
Definition order (st : hstate) : list N :=
  match h_cur st with Some (t, _) => [t] | None => [] end ++ map snd (h_reqs st) ++ h_queue st.

Lemma kick_order lim q st :
  h_cur (kick lim q st) = h_cur st /\
  map snd (h_reqs (kick lim q st)) ++ h_queue (kick lim q st) = map snd (h_reqs st) ++ q.
Proof.
  revert st. induction q as [|t q IH]; intros st; cbn [kick].
  - cbn. now rewrite app_nil_r.
  - destruct (h_pending st <? lim); [|cbn; tauto].
    destruct (IH (hdispatch st t)) as (I1 & I2). rewrite I1, I2. unfold hdispatch. cbn.
    rewrite map_app. cbn. now rewrite <- app_assoc.
Qed.

Lemma order_kick lim st : order (kick lim (h_queue st) st) = order st.
Proof.
  unfold order. destruct (kick_order lim (h_queue st) st) as (I1 & I2). now rewrite I1, I2.
Qed.

Definition tags (ds : list disp) : list N := map fst ds.

Lemma deliver_order c s text eom :
  order s = tags (snd (deliver c s text eom)) ++ order (fst (deliver c s text eom)).
Proof.
  unfold deliver. destruct (h_cur s) as [[t acc]|] eqn:Hc; [|symmetry; apply order_kick].
  destruct eom; cbn [fst snd]; [change (h_queue s) with (h_queue (set_cur s None)); rewrite order_kick|];
    unfold order, set_cur; cbn; now rewrite Hc.
Qed.

Lemma process_order c eom st seg st' ds :
  hc_conc c = false -> process c eom st seg = Some (st', ds) -> order st = tags ds ++ order st'.
Proof.
  intros Ec. unfold process. rewrite Ec. cbn [andb].
  assert (K : forall s1 text, order s1 = order st ->
                (let '(st2, out) := deliver c s1 text eom in Some (clear_ign eom st2, out)) = Some (st', ds) ->
                order st = tags ds ++ order st').
  { intros s1 text <-. rewrite (deliver_order c s1 text eom). destruct (deliver c s1 text eom) as [st2 out].
    intros H. injection H as <- <-. cbn [fst snd]. unfold clear_ign. now destruct (eom && h_ign st2). }
  destruct (negb (h_ign st) && match h_cur st with None => true | Some _ => false end) eqn:Ef; [|now apply K].
  (* a new reply: the oldest request leaves the table and becomes the one being answered *)
  apply K. apply andb_prop in Ef as [_ Ef]. destruct (h_cur st) eqn:Hc; [discriminate|].
  unfold order, pop_request. destruct (h_reqs st) as [|[j u] r]; cbn; now rewrite Hc.
Qed.

Lemma process_lines_order c st ls st' ds :
  hc_conc c = false -> process_lines c st ls = (st', ds) -> order st = tags ds ++ order st'.
Proof.
  intros Ec. revert st st' ds. induction ls as [|l ls IH]; intros st st' ds; cbn [process_lines].
  - intros H. injection H as <- <-. reflexivity.
  - destruct (process c true st l) as [[st1 o1]|] eqn:E1.
    + destruct (process_lines c st1 ls) as [st2 o2] eqn:E2. intros H. injection H as <- <-.
      rewrite (process_order c true st l st1 o1 Ec E1), (IH st1 st2 o2 E2).
      unfold tags. now rewrite map_app, app_assoc.
    + intros H. injection H as <- <-. reflexivity.
Qed.

Lemma hread_order c st chunk :
  hc_conc c = false -> order st = tags (snd (hread c st chunk)) ++ order (fst (hread c st chunk)).
Proof.
  intros Ec. unfold hread. destruct (h_closed st); [reflexivity|].
  destruct (h_pending st =? 0); [reflexivity|].
  unfold hread_body. destruct (split_lf (h_rbuf st ++ chunk)) as [ls tl]. unfold body2.
  destruct (process_lines c (set_rbuf st []) ls) as [st1 o1] eqn:E1.
  pose proof (process_lines_order c _ ls st1 o1 Ec E1) as H1.
  change (order (set_rbuf st [])) with (order st) in H1.
  destruct tl as [|t0 t1]; [exact H1|].
  destruct (process c false st1 (t0 :: t1)) as [[st2 o2]|] eqn:E2; cbn [fst snd].
  - rewrite H1, (process_order c false st1 _ st2 o2 Ec E2). unfold tags. now rewrite map_app, app_assoc.
  - exact H1.
Qed.

Lemma hsubmit_order c st t : order (hsubmit c st t) = order st ++ [t].
Proof.
  unfold hsubmit. destruct (h_queue st) as [|q0 q] eqn:Eq.
  - destruct (h_pending st <? hc_limit c); unfold order, hdispatch; cbn; rewrite ?Eq, ?map_app; cbn;
      rewrite ?app_nil_r, <- ?app_assoc; reflexivity.
  - unfold order. cbn [h_cur h_reqs h_queue]. rewrite Eq. now rewrite <- !app_assoc.
Qed.

Fixpoint submitted (ops : list hop) : list N :=
  match ops with
  | [] => []
  | HSubmit t :: r => t :: submitted r
  | _ :: r => submitted r
  end.

(* a helper without channels answers the transactions in the order in which they asked, whatever the reads
   look like and including the transactions that had to wait in squid's own queue *)
Theorem nonconcurrent_fifo c ops : forall st,
  hc_conc c = false -> (forall op, In op ops -> op <> HEof) ->
  order st ++ submitted ops = tags (snd (hrun c st ops)) ++ order (fst (hrun c st ops)).
Proof.
  induction ops as [|op ops IH]; intros st Ec Hn; cbn [hrun submitted].
  - cbn [snd fst tags map app]. now rewrite app_nil_r.
  - assert (Hn' : forall o, In o ops -> o <> HEof) by (intros o Ho; apply Hn; now right).
    destruct op as [t|ch|]; cbn [hstep].
    + specialize (IH (hsubmit c st t) Ec Hn'). destruct (hrun c (hsubmit c st t) ops) as [st2 o2]. cbn [fst snd app] in *.
      rewrite hsubmit_order, <- app_assoc in IH. exact IH.
    + pose proof (hread_order c st ch Ec) as H1. destruct (hread c st ch) as [st1 o1]. cbn [fst snd] in *.
      specialize (IH st1 Ec Hn'). destruct (hrun c st1 ops) as [st2 o2]. cbn [fst snd] in *.
      rewrite H1. unfold tags in *. rewrite map_app, <- !app_assoc. f_equal. exact IH.
    + exfalso. apply (Hn HEof); [now left| reflexivity].
Qed.

Definition cfg16 : hcfg := mkHC true 16.
Definition two_waiting : hstate := submit_all cfg16 h_init 2 1.       (* tags 1, 2 on channels 1, 2 *)
Definition bytes_of (l : list nat) : bytes := map N.of_nat l.

(* the exact (unbounded) value of a digit string *)
Fixpoint dec_exact (acc : Z) (ds : bytes) : Z :=
  match ds with
  | [] => acc
  | d :: r => dec_exact (acc * 10 + (Z.of_N d - 48)) r
  end.

Lemma dec_exact_ge a ds : forallb isdigit ds = true -> (0 <= a)%Z -> (a <= dec_exact a ds)%Z.
Proof.
  revert a. induction ds as [|d r IH]; intros a Hd Ha; cbn [dec_exact]; [lia|].
  cbn [forallb] in Hd. apply andb_prop in Hd as [H1 H2]. unfold isdigit in H1.
  specialize (IH (a * 10 + (Z.of_N d - 48))%Z H2). lia.
Qed.

Lemma dec_acc_exact a ds : forallb isdigit ds = true -> (0 <= a <= 9223372036854775808)%Z ->
  dec_acc a ds = Z.min (dec_exact a ds) 9223372036854775808%Z.
Proof.
  revert a. induction ds as [|d r IH]; intros a Hd Ha; cbn [dec_acc dec_exact]; [lia|].
  cbn [forallb] in Hd. apply andb_prop in Hd as [H1 H2]. unfold isdigit in H1.
  rewrite IH by (try exact H2; lia).
  destruct (Z_le_gt_dec (a * 10 + (Z.of_N d - 48)) 9223372036854775808) as [Hle|Hgt].
  - rewrite (Z.min_l (a * 10 + (Z.of_N d - 48)) 9223372036854775808) by exact Hle. reflexivity.
  - rewrite (Z.min_r (a * 10 + (Z.of_N d - 48)) 9223372036854775808) by lia.
    pose proof (dec_exact_ge 9223372036854775808 r H2 ltac:(lia)).
    pose proof (dec_exact_ge (a * 10 + (Z.of_N d - 48)) r H2 ltac:(lia)). lia.
Qed.

(* the channel a reply line names is EXACTLY the decimal number it starts with, or no channel at all (-1) when
   that number does not fit an int: no wrap-around, whatever the number of digits *)
Lemma channel_number_exact ds rest :
  ds <> [] -> forallb isdigit ds = true -> match rest with [] => True | c :: _ => isdigit c = false end ->
  fst (strtol (ds ++ rest)) = dec_exact 0 ds \/
  (fst (strtol (ds ++ rest)) = (-1)%Z /\ (INT_MAX < dec_exact 0 ds)%Z).
Proof.
  intros Hne Hd Hr. destruct ds as [|d ds']; [congruence|]. set (ds := d :: ds') in *.
  assert (Hd0 : isdigit d = true) by (cbn [forallb] in Hd; now apply andb_prop in Hd as [H _]).
  assert (Hsp : isspace d = false) by (unfold isdigit, isspace in *; lia).
  assert (Hsg : (d =? 45) || (d =? 43) = false) by (unfold isdigit in Hd0; lia).
  assert (Hng : (d =? 45) = false) by (unfold isdigit in Hd0; lia).
  unfold strtol. change (ds ++ rest) with (d :: (ds' ++ rest)). cbn [skip_ws]. rewrite Hsp.
  cbn [sign_rest is_neg]. rewrite Hsg, Hng.
  change (d :: ds' ++ rest) with (ds ++ rest).
  rewrite (span_app_stop isdigit ds rest Hd Hr). unfold ds at 1. cbn [fst]. fold ds.
  rewrite (dec_acc_exact 0 ds Hd ltac:(lia)).
  pose proof (dec_exact_ge 0 ds Hd ltac:(lia)) as Hge.
  unfold chan_of, LONG_MAX, INT_MAX.
  destruct (Z_le_gt_dec (dec_exact 0 ds) 2147483647) as [Hle|Hgt].
  - left. rewrite !Z.min_l by lia.
    replace ((dec_exact 0 ds <? 0)%Z) with false by lia.
    replace ((2147483647 <? dec_exact 0 ds)%Z) with false by lia. reflexivity.
  - right. split; [|unfold INT_MAX; lia].
    replace ((2147483647 <? Z.min (Z.min (dec_exact 0 ds) 9223372036854775808) 9223372036854775807)%Z) with true by lia.
    now rewrite orb_true_r.
Qed.

Lemma find_set_same k u us : find_user k (set_user k u us) = Some u.
Proof.
  induction us as [|[k' u'] us IH]; cbn [set_user find_user]; [now rewrite list_eqb_refl|].
  destruct (list_eqb k k') eqn:E; cbn [find_user]; [now rewrite list_eqb_refl| now rewrite E].
Qed.

Lemma find_set_other k k' u us : k <> k' -> find_user k' (set_user k u us) = find_user k' us.
Proof.
  intros Hne. induction us as [|[k2 u2] us IH]; cbn [set_user find_user].
  - destruct (list_eqb k' k) eqn:E; [apply list_eqb_iff in E; congruence| reflexivity].
  - destruct (list_eqb k k2) eqn:E; cbn [find_user].
    + apply list_eqb_iff in E. subst k2.
      destruct (list_eqb k' k) eqn:E2; [apply list_eqb_iff in E2; congruence| reflexivity].
    + destruct (list_eqb k' k2); [reflexivity| exact IH].
Qed.

Lemma take_lookup_sound rid ls x rest :
  take_lookup rid ls = Some (x, rest) -> In (rid, x) ls /\ incl rest ls.
Proof.
  revert x rest. induction ls as [|[r y] ls IH]; intros x rest; cbn [take_lookup]; [discriminate|].
  destruct (r =? rid) eqn:E.
  - intros H. injection H as <- <-. apply N.eqb_eq in E. subst r. split; [now left| intros z Hz; now right].
  - destruct (take_lookup rid ls) as [[y' rest']|]; [|discriminate]. intros H. injection H as <- <-.
    destruct (IH y' rest' eq_refl) as [I1 I2]. split; [now right|].
    intros z [Hz|Hz]; [now left| right; now apply I2].
Qed.

(* a property of all cached users survives set_user when the new entry has it *)
Lemma find_set_all (P : bytes -> user -> Prop) us name u' :
  (forall n usr, find_user n us = Some usr -> P n usr) -> P name u' ->
  forall n usr, find_user n (set_user name u' us) = Some usr -> P n usr.
Proof.
  intros H Hu n usr Hf. destruct (list_eq_dec N.eq_dec n name) as [->|Hne].
  - rewrite find_set_same in Hf. injection Hf as <-. exact Hu.
  - rewrite find_set_other in Hf by congruence. exact (H n usr Hf).
Qed.

(* the credentials a request presents: None when there is no header or it does not decode to user:password *)
Definition creds (cfg : acfg) (hdr : option bytes) : option (bytes * bytes) :=
  match hdr with None => None | Some h => decode_header (c_casesensitive cfg) h end.

Section AuthProofs.
  Variable good : bytes -> bytes -> bool.
  Variable cfg : acfg.

  (* valid arrivals seen so far: (request, user name, password) *)
  Fixpoint seen_of (evs : list aev) : list (N * bytes * bytes) :=
    match evs with
    | [] => []
    | Arrive rid hdr :: r => match creds cfg hdr with
                             | Some (u, p) => (rid, u, p) :: seen_of r
                             | None => seen_of r
                             end
    | _ :: r => seen_of r
    end.

  Definition named (seen : list (N * bytes * bytes)) (rid : N) (u : bytes) : Prop := exists p, In (rid, u, p) seen.
  Definition approved (seen : list (N * bytes * bytes)) (u : bytes) : Prop :=
    exists rid p, In (rid, u, p) seen /\ good u p = true.

  Definition UserOk (seen : list (N * bytes * bytes)) (name : bytes) (usr : user) : Prop :=
    (forall rid, In rid (u_queue usr) -> named seen rid name) /\
    (exists rid', In (rid', name, u_pass usr) seen) /\
    (u_cred usr = COk -> approved seen name).

  Definition Inv (st : astate) (seen : list (N * bytes * bytes)) : Prop :=
    (forall rid u, In (rid, Some u) (a_out st) -> named seen rid u /\ approved seen u) /\
    (forall rid u s, In (rid, (u, s)) (a_lookups st) -> named seen rid u /\ exists rid', In (rid', u, s) seen) /\
    (forall name usr, find_user name (a_users st) = Some usr -> UserOk seen name usr).

  Lemma Inv_mono st seen x : Inv st seen -> Inv st (seen ++ [x]).
  Proof.
    assert (N1 : forall rid u, named seen rid u -> named (seen ++ [x]) rid u).
    { intros rid u (p & H). exists p. apply in_or_app. now left. }
    assert (A1 : forall u, approved seen u -> approved (seen ++ [x]) u).
    { intros u (rid & p & H & G). exists rid, p. split; [apply in_or_app; now left| exact G]. }
    intros (I1 & I2 & I3). repeat split.
    - apply N1, (I1 rid u H).
    - apply A1, (I1 rid u H).
    - apply N1, (I2 rid u s H).
    - destruct (I2 rid u s H) as [_ (r' & Hr)]. exists r'. apply in_or_app. now left.
    - intros rid Hq. apply N1. exact (proj1 (I3 name usr H) rid Hq).
    - destruct (proj1 (proj2 (I3 name usr H))) as (r' & Hr). exists r'. apply in_or_app. now left.
    - intros Hc. apply A1. exact (proj2 (proj2 (I3 name usr H)) Hc).
  Qed.

  (* a verdict: 407, or authorised under a name the request presented and the helper approved *)
  Lemma Inv_out st seen rid v :
    Inv st seen -> (forall u, v = Some u -> named seen rid u /\ approved seen u) ->
    Inv (mkA (a_users st) (a_lookups st) (a_out st ++ [(rid, v)]) (a_now st)) seen.
  Proof.
    intros (I1 & I2 & I3) H. split; [|split; assumption]. intros r u Hin.
    apply in_app_or in Hin as [Hin|[Hin|[]]]; [exact (I1 r u Hin)|]. injection Hin as <- ->. now apply H.
  Qed.

  Lemma Inv_user st seen name u' :
    Inv st seen -> UserOk seen name u' ->
    Inv (mkA (set_user name u' (a_users st)) (a_lookups st) (a_out st) (a_now st)) seen.
  Proof. intros (I1 & I2 & I3) H. split; [exact I1|]. split; [exact I2|]. now apply find_set_all. Qed.

  Lemma Inv_lookups st seen ls :
    Inv st seen -> (forall r u s, In (r, (u, s)) ls -> named seen r u /\ exists rid', In (rid', u, s) seen) ->
    Inv (mkA (a_users st) ls (a_out st) (a_now st)) seen.
  Proof. intros (I1 & I2 & I3) H. split; [exact I1|]. split; [exact H| exact I3]. Qed.

  Lemma evaluate_inv st seen rid name :
    Inv st seen -> named seen rid name -> Inv (evaluate cfg st rid name) seen.
  Proof.
    intros I Hn. assert (Deny := Inv_out st seen rid None I ltac:(discriminate)). unfold evaluate.
    destruct (find_user name (a_users st)) as [u|] eqn:Fu; [|exact Deny].
    destruct (proj2 (proj2 I) name u Fu) as (Q1 & Q2 & Q3).
    assert (Lookup : Inv (mkA (set_user name (mkU (u_pass u) Pending (u_expire u) (u_queue u)) (a_users st))
                              (a_lookups st ++ [(rid, (name, u_pass u))]) (a_out st) (a_now st)) seen).
    { apply (Inv_lookups (mkA _ (a_lookups st) _ _)).
      - apply Inv_user; [exact I|]. split; [exact Q1|]. split; [exact Q2| discriminate].
      - intros r u0 s0 Hin. apply in_app_or in Hin as [Hin|[Hin|[]]]; [exact (proj1 (proj2 I) r u0 s0 Hin)|].
        injection Hin as <- <- <-. split; [exact Hn| exact Q2]. }
    destruct (user_authenticated cfg (a_now st) u) eqn:Ea.
    - (* authorised: the shared user is Ok *)
      apply Inv_out; [exact I|]. intros u0 E. injection E as <-. split; [exact Hn|]. apply Q3.
      unfold user_authenticated in Ea. apply andb_prop in Ea as [Ea _]. now destruct (u_cred u).
    - destruct (u_cred u) eqn:Ec; [exact Lookup| |exact Lookup|exact Deny].
      (* Pending: queued on the shared user *)
      apply Inv_user; [exact I|]. split; [|split; [exact Q2| discriminate]].
      intros r [<-|Hr]; [exact Hn| exact (Q1 r Hr)].
  Qed.

  Lemma fold_evaluate_inv seen name l : forall st,
    Inv st seen -> (forall q, In q l -> named seen q name) ->
    Inv (fold_left (fun s q => evaluate cfg s q name) l st) seen.
  Proof.
    induction l as [|q l IH]; intros st I H; cbn [fold_left]; [exact I|].
    apply IH; [apply evaluate_inv; [exact I| apply H; now left]| intros q' Hq; apply H; now right].
  Qed.

  Lemma seen_of_app a b : seen_of (a ++ b) = seen_of a ++ seen_of b.
  Proof.
    induction a as [|e a IH]; [reflexivity|]. cbn [app seen_of].
    destruct e as [rid hdr|rid|dt]; try exact IH. destruct (creds cfg hdr) as [[u p]|]; [cbn [app]; now rewrite IH| exact IH].
  Qed.

  Lemma decode_cache_inv st seen rid name pass :
    Inv st seen -> In (rid, name, pass) seen -> Inv (decode_into_cache st name pass) seen.
  Proof.
    intros I Hin. apply Inv_user; [exact I|]. cbv zeta.
    destruct (find_user name (a_users st)) as [u|] eqn:Fu.
    - destruct (proj2 (proj2 I) name u Fu) as (Q1 & Q2 & Q3).
      destruct (list_eqb pass (u_pass u)) eqn:Ep.
      + destruct (u_cred u) eqn:Ec; split; try split; cbn [u_queue u_pass u_cred]; try assumption; try discriminate;
          rewrite ?Ec; try discriminate; try (intros _; now apply Q3).
      + cbn [u_cred u_pass u_queue]. split; [|split]; cbn [u_queue u_pass u_cred]; [exact Q1| now exists rid| discriminate].
    - split; [|split]; cbn [u_queue u_pass u_cred]; [intros r []| now exists rid| discriminate].
  Qed.

  (* no header, or a header that does not decode to user:password: 407 at once ... *)
  Theorem no_credentials_challenged st rid hdr :
    creds cfg hdr = None ->
    astep good cfg st (Arrive rid hdr) = mkA (a_users st) (a_lookups st) (a_out st ++ [(rid, None)]) (a_now st).
  Proof.
    destruct hdr as [h|]; cbn [creds astep]; [|reflexivity]. intros ->. reflexivity.
  Qed.

  Lemma credentials_evaluated st rid hdr name pass :
    creds cfg hdr = Some (name, pass) ->
    astep good cfg st (Arrive rid hdr) = evaluate cfg (decode_into_cache st name pass) rid name.
  Proof. destruct hdr as [h|]; [|discriminate]. cbn [creds astep]. now intros ->. Qed.


  Lemma astep_inv st pre ev : Inv st (seen_of pre) -> Inv (astep good cfg st ev) (seen_of (pre ++ [ev])).
  Proof.
    intros I. rewrite seen_of_app. destruct ev as [rid hdr|rid|dt]; cbn [seen_of].
    - destruct (creds cfg hdr) as [[name pass]|] eqn:Ec.
      + rewrite (credentials_evaluated _ _ _ _ _ Ec).
        apply evaluate_inv; [|exists pass; apply in_or_app; right; now left].
        apply (decode_cache_inv _ _ rid); [now apply Inv_mono| apply in_or_app; right; now left].
      + rewrite app_nil_r, (no_credentials_challenged _ _ _ Ec). now apply Inv_out.
    - (* helper reply *)
      rewrite app_nil_r. cbn [astep].
      destruct (take_lookup rid (a_lookups st)) as [[[name sent] rest]|] eqn:Et; [|exact I].
      destruct (take_lookup_sound _ _ _ _ Et) as [T1 T2].
      destruct (proj1 (proj2 I) rid name sent T1) as [Hn (r' & Hs)].
      assert (IR := Inv_lookups st _ rest I (fun r u s Hin => proj1 (proj2 I) r u s (T2 _ Hin))).
      destruct (find_user name (a_users st)) as [u|] eqn:Fu; [|exact IR].
      destruct (proj2 (proj2 I) name u Fu) as (Q1 & Q2 & Q3).
      apply fold_evaluate_inv; [|intros q [<-|Hq]; [exact Hn| exact (Q1 q Hq)]].
      apply (Inv_user _ _ _ _ IR). split; [intros r []|]. split; [exact Q2|]. cbn [u_cred].
      destruct (good name sent) eqn:G; [|discriminate]. intros _. now exists r', sent.
    - rewrite app_nil_r. exact I.
  Qed.

  Lemma arun_inv evs : forall pre st, Inv st (seen_of pre) -> Inv (arun good cfg st evs) (seen_of (pre ++ evs)).
  Proof.
    induction evs as [|ev evs IH]; intros pre st I; cbn [arun fold_left].
    - now rewrite app_nil_r.
    - change (fold_left (astep good cfg) evs (astep good cfg st ev)) with (arun good cfg (astep good cfg st ev) evs).
      replace (pre ++ ev :: evs) with ((pre ++ [ev]) ++ evs) by (now rewrite <- app_assoc).
      apply IH. now apply astep_inv.
  Qed.

  Lemma Inv_init : Inv a_init [].
  Proof. split; [|split]; cbn; [intros ? ? []| intros ? ? ? []| discriminate]. Qed.

  Lemma seen_of_In evs rid u p :
    In (rid, u, p) (seen_of evs) -> exists hdr, In (Arrive rid hdr) evs /\ creds cfg hdr = Some (u, p).
  Proof.
    induction evs as [|e evs IH]; cbn [seen_of]; [intros []|].
    assert (K : In (rid, u, p) (seen_of evs) -> exists hdr, In (Arrive rid hdr) (e :: evs) /\ creds cfg hdr = Some (u, p))
      by (intros H; destruct (IH H) as (h & H1 & H2); exists h; split; [now right| exact H2]).
    destruct e as [r hdr|r|dt]; try exact K. destruct (creds cfg hdr) as [[u' p']|] eqn:Ec; [|exact K].
    intros [H|H]; [|exact (K H)]. injection H as -> -> ->. exists hdr. split; [now left| exact Ec].
  Qed.

  (* all interleavings: whoever is authorised is authorised under the user name of its own credentials, and
     the helper has accepted some password presented for that user name *)
  Theorem authorised_under_own_name evs rid u :
    In (rid, Some u) (a_out (arun good cfg a_init evs)) ->
    (exists hdr p, In (Arrive rid hdr) evs /\ creds cfg hdr = Some (u, p)) /\
    (exists rid' hdr' p', In (Arrive rid' hdr') evs /\ creds cfg hdr' = Some (u, p') /\ good u p' = true).
  Proof.
    intros H. destruct (arun_inv evs [] a_init Inv_init) as (I1 & _ & _). cbn [app] in I1.
    destruct (I1 rid u H) as [(p & Hp) (r' & p' & Hp' & G)]. split.
    - destruct (seen_of_In _ _ _ _ Hp) as (hdr & H1 & H2). now exists hdr, p.
    - destruct (seen_of_In _ _ _ _ Hp') as (hdr & H1 & H2). now exists r', hdr, p'.
  Qed.

  (* ... and never authorised afterwards, whatever else happens *)
  Theorem no_credentials_never_forwarded evs rid :
    (forall hdr, In (Arrive rid hdr) evs -> creds cfg hdr = None) ->
    forall u, ~ In (rid, Some u) (a_out (arun good cfg a_init evs)).
  Proof.
    intros H u Hin. destruct (authorised_under_own_name evs rid u Hin) as [(hdr & p & H1 & H2) _].
    rewrite (H hdr H1) in H2. discriminate.
  Qed.

  (* every lookup is answered before the next request arrives (clock ticks anywhere between the rounds) *)
  Inductive seq_evs : list aev -> Prop :=
  | seq_nil : seq_evs []
  | seq_tick dt r : seq_evs r -> seq_evs (Tick dt :: r)
  | seq_round rid hdr r : seq_evs r -> seq_evs (Arrive rid hdr :: Reply rid :: r).

  Definition UQuiet (name : bytes) (usr : user) : Prop :=
    u_queue usr = [] /\ u_cred usr <> Pending /\ (u_cred usr = COk -> good name (u_pass usr) = true).

  Definition Quiet (st : astate) : Prop :=
    a_lookups st = [] /\ forall name usr, find_user name (a_users st) = Some usr -> UQuiet name usr.

  Lemma set_set k a b us : set_user k b (set_user k a us) = set_user k b us.
  Proof.
    induction us as [|[k' u'] us IH]; cbn [set_user]; [now rewrite list_eqb_refl|].
    destruct (list_eqb k k') eqn:E; cbn [set_user]; [now rewrite list_eqb_refl| now rewrite E, IH].
  Qed.

  Hypothesis ttl_pos : (0 < c_ttl cfg)%Z.

  Lemma round_quiet st rid hdr :
    Quiet st ->
    let st' := astep good cfg (astep good cfg st (Arrive rid hdr)) (Reply rid) in
    exists v, Quiet st' /\ a_out st' = a_out st ++ [(rid, v)] /\
              forall u, v = Some u -> exists p, creds cfg hdr = Some (u, p) /\ good u p = true.
  Proof.
    intros [QL QU]. cbv zeta.
    assert (RI : forall s, a_lookups s = [] -> astep good cfg s (Reply rid) = s)
      by (intros s H; cbn [astep]; now rewrite H).
    destruct (creds cfg hdr) as [[name pass]|] eqn:Eh.
    2:{ rewrite (no_credentials_challenged st rid hdr Eh), RI by exact QL. exists None.
        split; [split; [exact QL| exact QU]|]. split; [reflexivity| discriminate]. }
    rewrite (credentials_evaluated st rid hdr name pass Eh).
    (* the cache entry after decode() *)
    set (st1 := decode_into_cache st name pass).
    assert (D : exists u', a_users st1 = set_user name u' (a_users st) /\ u_pass u' = pass /\ u_queue u' = [] /\
                           (u_cred u' = Unchecked \/ (u_cred u' = COk /\ good name pass = true))).
    { unfold st1, decode_into_cache. cbn [a_users]. eexists. split; [reflexivity|].
      destruct (find_user name (a_users st)) as [u|] eqn:Fu.
      - destruct (QU name u Fu) as (U1 & U2 & U3).
        destruct (list_eqb pass (u_pass u)) eqn:Ep.
        + apply list_eqb_iff in Ep. destruct (u_cred u) eqn:Ec; cbn [u_pass u_queue u_cred]; rewrite ?Ec;
            repeat split; try (symmetry; exact Ep); try exact U1; try (now left); try congruence.
          right. split; [reflexivity|]. rewrite Ep. now apply U3.
        + cbn [u_pass u_queue u_cred]. repeat split; [exact U1| now left].
      - cbn [u_pass u_queue u_cred]. repeat split. now left. }
    destruct D as (u' & DU & DP & DQ & DC).
    assert (L1 : a_lookups st1 = []) by exact QL.
    assert (O1 : a_out st1 = a_out st) by reflexivity.
    assert (F1 : find_user name (a_users st1) = Some u') by (rewrite DU; apply find_set_same).
    unfold evaluate. rewrite F1.
    destruct (user_authenticated cfg (a_now st1) u') eqn:Ea.
    - (* served from the cache *)
      assert (Hok : u_cred u' = COk).
      { unfold user_authenticated in Ea. apply andb_prop in Ea as [Ea _]. destruct (u_cred u'); try discriminate. reflexivity. }
      destruct DC as [DC|[_ DG]]; [congruence|].
      rewrite RI by exact L1. exists (Some name). split; [|split; [cbn [a_out]; now rewrite O1|]].
      + split; [exact L1|]. cbn [a_users]. rewrite DU. apply find_set_all; [exact QU|].
        split; [exact DQ|]. split; [congruence|]. intros _. now rewrite DP.
      + intros u E. injection E as <-. now exists pass.
    - (* asks the helper, which answers before anything else happens *)
      assert (Ecr : (match u_cred u' with
                     | CFailed => mkA (a_users st1) (a_lookups st1) (a_out st1 ++ [(rid, None)]) (a_now st1)
                     | Pending => mkA (set_user name (mkU (u_pass u') Pending (u_expire u') (rid :: u_queue u')) (a_users st1))
                                      (a_lookups st1) (a_out st1) (a_now st1)
                     | _ => mkA (set_user name (mkU (u_pass u') Pending (u_expire u') (u_queue u')) (a_users st1))
                                (a_lookups st1 ++ [(rid, (name, u_pass u'))]) (a_out st1) (a_now st1)
                     end) =
                    mkA (set_user name (mkU pass Pending (u_expire u') []) (a_users st1)) [(rid, (name, pass))] (a_out st) (a_now st1)).
      { rewrite L1, DP, DQ, O1. destruct DC as [DC|[DC _]]; rewrite DC; reflexivity. }
      rewrite Ecr. clear Ecr. cbn [astep a_lookups take_lookup]. rewrite N.eqb_refl. cbn [a_users].
      rewrite find_set_same. cbn [u_pass u_queue fold_left a_now a_out].
      set (v := if good name pass then COk else CFailed).
      rewrite set_set, DU, set_set.
      set (us2 := set_user name (mkU pass v (a_now st1) []) (a_users st)).
      assert (QU2 : forall n usr, find_user n us2 = Some usr -> UQuiet n usr).
      { unfold us2. apply find_set_all; [exact QU|].
        split; [reflexivity|]. unfold v. cbn [u_cred u_pass]. destruct (good name pass) eqn:G; split; congruence. }
      assert (Fus2 : find_user name us2 = Some (mkU pass v (a_now st1) [])) by (unfold us2; apply find_set_same).
      unfold evaluate. cbn [a_users]. rewrite Fus2.
      unfold user_authenticated. cbn [u_cred u_expire a_now a_lookups].
      unfold v. destruct (good name pass) eqn:G; cbn [is_ok andb u_cred].
      + rewrite (proj2 (Z.ltb_lt _ _)) by lia. exists (Some name).
        split; [split; [reflexivity| exact QU2]|]. split; [reflexivity|]. intros u E. injection E as <-. now exists pass.
      + exists None. split; [split; [reflexivity| exact QU2]|]. split; [reflexivity| discriminate].
  Qed.

  Lemma seq_run evs : seq_evs evs -> forall st, Quiet st ->
    Quiet (arun good cfg st evs) /\
    forall r u, In (r, Some u) (a_out (arun good cfg st evs)) ->
      In (r, Some u) (a_out st) \/
      exists hdr p, In (Arrive r hdr) evs /\ creds cfg hdr = Some (u, p) /\ good u p = true.
  Proof.
    induction 1 as [|dt r _ IH|rid hdr r _ IH]; intros st Q.
    - split; [exact Q| intros r u H; now left].
    - assert (Q1 : Quiet (astep good cfg st (Tick dt))) by exact Q.
      destruct (IH _ Q1) as [I1 I2]. split; [exact I1|]. intros r0 u Hin.
      destruct (I2 r0 u Hin) as [Ho|(h & p & H1 & H2 & H3)]; [now left|].
      right. exists h, p. split; [now right| split; assumption].
    - destruct (round_quiet st rid hdr Q) as (v & Q1 & O1 & V1). cbv zeta in Q1, O1.
      destruct (IH _ Q1) as [I1 I2]. split; [exact I1|]. intros r0 u Hin.
      destruct (I2 r0 u Hin) as [Ho|(h & p & H1 & H2 & H3)].
      + rewrite O1 in Ho. apply in_app_or in Ho as [Ho|[Ho|[]]]; [now left|]. injection Ho as <- ->.
        destruct (V1 u eq_refl) as (p & H2 & H3). right. exists hdr, p. split; [now left| split; assumption].
      + right. exists h, p. split; [right; now right| split; assumption].
  Qed.

  (* in a sequential history whoever is authorised presented credentials that the helper accepts *)
  Theorem sequential_rejected_never_forwarded evs rid u :
    seq_evs evs -> In (rid, Some u) (a_out (arun good cfg a_init evs)) ->
    exists hdr p, In (Arrive rid hdr) evs /\ creds cfg hdr = Some (u, p) /\ good u p = true.
  Proof.
    intros S Hin. assert (Q0 : Quiet a_init) by (split; [reflexivity| discriminate]).
    destruct (seq_run evs S a_init Q0) as [_ I]. destruct (I rid u Hin) as [[]|H]. exact H.
  Qed.
End AuthProofs.

Definition good_ok (_ p : bytes) : bool := starts_with p [111; 107].            (* passwords starting with "ok" *)
Definition cfg_w : acfg := mkCfg 3600 false.
Definition hdr_alice_ok : bytes := [66;97;115;105;99;32;89;87;120;112;89;50;85;54;98;50;115;61].        (* Basic base64("alice:ok") *)
Definition hdr_alice_no : bytes := [66;97;115;105;99;32;89;87;120;112;89;50;85;54;98;109;56;61].        (* Basic base64("alice:no") *)
Definition race_events : list aev :=
  [Arrive 1 (Some hdr_alice_ok); Arrive 2 (Some hdr_alice_no); Reply 1; Arrive 3 (Some hdr_alice_no); Reply 2].
Definition b_alice : bytes := [97; 108; 105; 99; 101].

