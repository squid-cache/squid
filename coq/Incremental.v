(* Incremental.v — segmentation independence of restartable parsers, proved once.

   A restartable parser is a function  P : St -> bytes -> res  where a call sees
   the bytes retained by the previous call followed by the newly arrived bytes:
     Done r rest   the unit is complete; rest = unconsumed bytes
     Bad e         definitive rejection
     More s keep   more input needed; s = parser state, keep = what the caller
                   retains (remaining()) and prefixes to the next read.
   If, for the parser states satisfying an invariant [Inv] (take [fun _ => True] when
   none is needed) and on the inputs admitted by a side condition [Good] (for
   instance "no longer than the buffer type can hold"; again [fun _ => True] if none),
     (i)  definitive outcomes are stable under extension of the input, and
     (ii) a More checkpoint commutes with extension (the new state satisfies Inv and
          what is retained stays Good),
   then the caller's read loop over ANY segmentation of an input ends in exactly
   the outcome of a single call on the whole input.

   Instantiated by the request parser (C21, and through it C03, C09, C62), the response
   parser (C23) and the chunked decoder (C24). *)
Require Import SquidV.Bytes.

Section Incremental.
  Variables St R E : Type.

  Inductive res :=
  | Done (r : R) (rest : bytes)
  | Bad (e : E)
  | More (s : St) (keep : bytes).

  Variable P : St -> bytes -> res.
  Variable Inv : St -> Prop.
  Variable Good : bytes -> Prop.

  Definition stable_done : Prop :=
    forall s b r rest x, Inv s -> Good (b ++ x) -> P s b = Done r rest -> P s (b ++ x) = Done r (rest ++ x).
  Definition stable_bad : Prop :=
    forall s b e x, Inv s -> Good (b ++ x) -> P s b = Bad e -> P s (b ++ x) = Bad e.
  Definition checkpoint_commutes : Prop :=
    forall s b s' keep x, Inv s -> Good (b ++ x) -> P s b = More s' keep ->
      P s (b ++ x) = P s' (keep ++ x) /\ Inv s' /\ Good (keep ++ x).

  (* the caller's loop: retained bytes ++ next segment; segments after a
     definitive outcome are never looked at and stay behind the rest *)
  Fixpoint drive (s : St) (keep : bytes) (segs : list bytes) : res :=
    match segs with
    | [] => More s keep
    | x :: more =>
        match P s (keep ++ x) with
        | Done r rest => Done r (rest ++ concat more)
        | Bad e => Bad e
        | More s' keep' => drive s' keep' more
        end
    end.

  Hypothesis Hdone : stable_done.
  Hypothesis Hbad : stable_bad.
  Hypothesis Hmore : checkpoint_commutes.

  Theorem drive_cons_oneshot : forall more s keep x,
    Inv s -> Good (keep ++ x ++ concat more) ->
    drive s keep (x :: more) = P s (keep ++ x ++ concat more).
  Proof.
    induction more as [|y more IH]; intros s keep x HI HG.
    - cbn [drive concat]. rewrite app_nil_r.
      destruct (P s (keep ++ x)) as [r rest|e|s' keep']; [now rewrite app_nil_r| reflexivity | reflexivity].
    - cbn [drive]. cbn [drive] in IH.
      assert (HG' : Good ((keep ++ x) ++ concat (y :: more))) by (rewrite <- app_assoc; exact HG).
      destruct (P s (keep ++ x)) as [r rest|e|s' keep'] eqn:HP.
      + pose proof (Hdone s (keep ++ x) r rest (concat (y :: more)) HI HG' HP) as G.
        rewrite <- app_assoc in G. symmetry. exact G.
      + pose proof (Hbad s (keep ++ x) e (concat (y :: more)) HI HG' HP) as G.
        rewrite <- app_assoc in G. symmetry. exact G.
      + destruct (Hmore s (keep ++ x) s' keep' (concat (y :: more)) HI HG' HP) as (G & Gi & Gk).
        cbn [concat] in Gk. rewrite (IH s' keep' y Gi Gk).
        rewrite <- app_assoc in G. symmetry. exact G.
  Qed.

  (* any non-empty list of segments, starting from any state / retained bytes *)
  Theorem drive_oneshot : forall segs s keep, segs <> [] -> Inv s -> Good (keep ++ concat segs) ->
    drive s keep segs = P s (keep ++ concat segs).
  Proof.
    intros [|x more] s keep H HI HG; [congruence|]. cbn [concat] in *. apply drive_cons_oneshot; assumption.
  Qed.

  (* a parser that has asked for more data asks for the same when re-run on what it retained *)
  Lemma more_idempotent : forall s b s' keep, Inv s -> Good b -> P s b = More s' keep -> P s' keep = More s' keep.
  Proof.
    intros s b s' keep HI HG H. rewrite <- (app_nil_r b) in HG.
    destruct (Hmore s b s' keep [] HI HG H) as [G _].
    rewrite !app_nil_r in G. congruence.
  Qed.

  (* every segmentation of the same bytes gives the same outcome *)
  Theorem drive_segmentation_irrelevant : forall segs1 segs2 s keep,
    segs1 <> [] -> segs2 <> [] -> concat segs1 = concat segs2 -> Inv s -> Good (keep ++ concat segs1) ->
    drive s keep segs1 = drive s keep segs2.
  Proof.
    intros segs1 segs2 s keep H1 H2 Hc HI HG.
    rewrite (drive_oneshot segs1) by assumption.
    rewrite (drive_oneshot segs2) by (try assumption; rewrite <- Hc; exact HG).
    now rewrite Hc.
  Qed.
End Incremental.

Arguments Done {St R E}.
Arguments Bad {St R E}.
Arguments More {St R E}.
