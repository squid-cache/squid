(* StoremapLock.v — proofs about StoremapModel.v (C55), part 1.

   Part 1 (composition with C54). Every process takes part in the lock of every anchor f as TWO processes
   of RwlockModel: [pri f th] (the entry it opens / holds) and [tra f th] (its freeEntry / freeEntryByKey
   calls). [LInv]: for every anchor, the counting invariant of RwlockProofs ([Inv]) holds of the anchor's
   lock fields and the list of these virtual processes. It is preserved by every step of every process:
   steps inside a lock method by RwlockProofs.pstep_inv, all other steps because they leave the weights
   unchanged; an assert() about the lock state cannot fail. *)
Require Import SquidV.Bytes SquidV.RwlockModel SquidV.RwlockProofs SquidV.StoremapModel.
Require Import ZifyBool ZifyN ZifyNat.
Local Open Scope Z_scope.

Lemma nthN_updN_same : forall (A : Type) (l : list A) (n : N) (x y : A),
  nthN n l = Some x -> nthN n (updN n y l) = Some y.
Proof.
  induction l as [|a l IH]; intros n x y H; simpl in *; [discriminate|].
  destruct (N.eqb_spec n 0%N) as [E|E]; simpl.
  - subst. reflexivity.
  - destruct (N.eqb_spec n 0%N); [contradiction|]. eapply IH; eassumption.
Qed.

Lemma nthN_updN_other : forall (A : Type) (l : list A) (n m : N) (y : A),
  n <> m -> nthN m (updN n y l) = nthN m l.
Proof.
  induction l as [|a l IH]; intros n m y D; simpl; [reflexivity|].
  destruct (N.eqb_spec n 0%N) as [E|E]; simpl.
  - destruct (N.eqb_spec m 0%N); [lia | reflexivity].
  - destruct (N.eqb_spec m 0%N); [reflexivity|]. apply IH. lia.
Qed.

Lemma updN_same : forall (A : Type) (l : list A) (n : N) (x : A), nthN n l = Some x -> updN n x l = l.
Proof.
  induction l as [|a l IH]; intros n x H; simpl in *; [reflexivity|].
  destruct (N.eqb_spec n 0%N) as [E|E].
  - inversion H; subst. reflexivity.
  - f_equal. apply IH. assumption.
Qed.

Lemma updN_none : forall (A : Type) (l : list A) (n : N) (x : A), nthN n l = None -> updN n x l = l.
Proof.
  induction l as [|a l IH]; intros n x H; simpl in *; [reflexivity|].
  destruct (N.eqb_spec n 0%N) as [E|E]; [discriminate|]. f_equal. apply IH. assumption.
Qed.

Lemma lenN_updN : forall (A : Type) (l : list A) (n : N) (x : A), lenN (updN n x l) = lenN l.
Proof.
  induction l as [|a l IH]; intros n x; simpl; [reflexivity|].
  destruct (n =? 0)%N; simpl; [reflexivity | rewrite IH; reflexivity].
Qed.

Lemma inv_no_crashed : forall s l1 l2 sp, Inv (mkState s (l1 ++ (Crashed, sp) :: l2)) -> False.
Proof.
  intros s l1 l2 sp H. apply inv_focus in H. destruct H as (_ & _ & _ & _ & _ & _ & _ & _ & H9).
  destruct (sums_ok (l1 ++ l2)) as (_ & _ & _ & _ & _ & _ & _ & _ & _ & F & _). cbn [cr] in H9. lia.
Qed.

(* whoever is counted in `readers` has decided to read *)
Lemma rd_le_rc : forall l, Srd l <= Src l.
Proof. intro l. apply (sums_ok l). Qed.

(* what a holder can conclude about the lock fields *)
Lemma inv_holder_facts : forall s l1 l2 p sp,
  Inv (mkState s (l1 ++ (p, sp) :: l2)) ->
  (wr (wt p) = 1 -> writing s = true) /\
  (rd (wt p) = 1 -> (readers s =? 0) = false) /\
  (xc (wt p) = 1 -> readers s = 0) /\
  (xc (wt p) = 1 -> appending s = false) /\
  (ap (wt p) = 1 -> appending s = true) /\
  (fw (wt p) = 1 -> ap (wt p) = 0 -> appending s = false).
Proof.
  intros [R Wr Ap Up RL WL] l1 l2 p sp H. apply inv_focus in H.
  pose proof (sums_ok (l1 ++ l2)) as F. pose proof (wt_ok p) as P.
  unfold inv_at, wok, sums in *.
  cbn [rl rd wl fw wr ap up xc rc readers writing appending updating readLevel writeLevel] in *.
  destruct Wr, Ap; cbn [b2z] in H; repeat split; intros; try reflexivity; lia.
Qed.

Definition res_inv (L : shared) (l1 l2 : list thread) (r : ares) : Prop :=
  match r with
  | ANext p' => Inv (mkState L (l1 ++ (alock p', []) :: l2))
  | ADone m _ => Inv (mkState L (l1 ++ (Ready m, []) :: l2))
  | ACrashL => False
  | ACrashD m => Inv (mkState L (l1 ++ (Done m, []) :: l2))
  end.

Ltac swap_with H := eapply inv_swap; [ | | exact H]; reflexivity.

(* calling a lock method that is legal in the caller's mode (the use step of RwlockModel) *)
Lemma enter_inv : forall s l1 l2 m o sp sq,
  legal m o = true ->
  Inv (mkState s (l1 ++ (Ready m, sp) :: l2)) -> Inv (mkState s (l1 ++ (entry m o, sq) :: l2)).
Proof.
  intros s l1 l2 m o sp sq Lg H.
  assert (H0 : Inv (mkState s (l1 ++ (Ready m, [o]) :: l2))) by (swap_with H).
  assert (P : pstep s (Ready m) [o] = (s, entry m o, [], [EvUse m])).
  { cbn [pstep fetch]. rewrite Lg. reflexivity. }
  pose proof (pstep_inv _ _ _ _ _ _ _ _ _ H0 P) as H1.
  swap_with H1.
Qed.

Lemma callL_inv : forall L l1 l2 c m o sp,
  legal m o = true -> Inv (mkState L (l1 ++ (Ready m, sp) :: l2)) -> res_inv L l1 l2 (callL c m o).
Proof. intros L l1 l2 c m o sp Lg H. exact (enter_inv _ _ _ _ _ _ _ Lg H). Qed.

(* what comes next either calls a lock method that is legal in the mode held, or carries the same weights *)
Ltac step_with H := first [ swap_with H | (eapply callL_inv; [reflexivity | exact H]) ].

Lemma lcont_inv : forall L l1 l2 a c m sp,
  Inv (mkState L (l1 ++ (Ready m, sp) :: l2)) -> res_inv L l1 l2 (lcont a c m).
Proof.
  intros L l1 l2 a c m sp H.
  destruct c as [ow ok| | | | | |c'| |k| |k| |k| | | | | | ]; try destruct c'; destruct m; cbn [lcont keep]; unfold fc_entry;
    repeat match goal with
           | |- context [if ?x then _ else _] => destruct x
           end;
    cbn [res_inv alock amode keep wmode_of]; step_with H.
Qed.

Ltac split_ifs_in E :=
  repeat match type of E with
         | context [if ?c then _ else _] => destruct c eqn:?
         | context [match getS ?a ?b with _ => _ end] => destruct (getS a b) eqn:?
         | context [match sidx ?a ?b with _ => _ end] => destruct (sidx a b) eqn:?
         end.

Lemma astepA_inv : forall sh a p a' sh1 r evs l1 l2 sp,
  Inv (mkState (lk a) (l1 ++ (alock p, sp) :: l2)) ->
  astepA sh a p = (a', sh1, r, evs) ->
  anchors sh1 = anchors sh /\ res_inv (lk a') l1 l2 r.
Proof.
  intros sh a p a' sh1 r evs l1 l2 sp HI E.
  destruct p.
  1: { (* inside a lock method *)
    cbn [astepA alock] in *.
    destruct (pstep (lk a) lp []) as [[[L' lp'] scr'] evs'] eqn:P.
    assert (HI0 : Inv (mkState (lk a) (l1 ++ (lp, []) :: l2))) by (swap_with HI).
    pose proof (pstep_inv _ _ _ _ _ _ _ _ _ HI0 P) as HI'.
    destruct lp'; inversion E; subst; clear E; cbn [lk set_lk]; split; try reflexivity;
      try (cbn [res_inv alock]; swap_with HI').
    - eapply lcont_inv. exact HI'.
    - apply (lcont_inv _ _ _ _ _ _ []). eapply inv_swap; [ | | exact HI']; reflexivity.
    - cbn [res_inv]. eapply inv_no_crashed. exact HI'. }
  all: cbn [alock amode] in HI;
    try match goal with b : bool |- _ => destruct b end;
    try match goal with c : fcx |- _ => destruct c end;
    cbn [wmode_of keep] in HI;
    pose proof (inv_holder_facts _ _ _ _ _ HI) as (F1 & F2 & F3 & F4 & F5 & F6);
    cbn [wt wmode rl rd wl fw wr ap up xc rc] in F1, F2, F3, F4, F5, F6;
    cbn [astepA keep] in E;
    try rewrite (F1 eq_refl) in E; try rewrite (F2 eq_refl) in E; try rewrite (F3 eq_refl) in E;
    try rewrite (F4 eq_refl) in E; try rewrite (F5 eq_refl) in E;
    cbn [Z.eqb] in E;
    unfold fc_entry, fl_head, lk_head in E;
    split_ifs_in E;
    try match type of E with context [match ?c with Some _ => _ | None => _ end] => destruct c end;
    split_ifs_in E;
    injection E as <- <- <- <-;
    cbn [lk set_wtbf set_halted set_akey set_astart set_asplice anchors putS putO set_slices set_owner set_count];
    (split; [reflexivity|]);
    cbn [res_inv alock amode keep wmode_of]; step_with HI.
Qed.

Definition LInv (st : mstate) : Prop :=
  forall f a, nthN f (anchors (msh st)) = Some a -> Inv (mkState (lk a) (proj f (mths st))).

Lemma proj_app : forall f l1 l2, proj f (l1 ++ l2) = proj f l1 ++ proj f l2.
Proof. intros. unfold proj. apply flat_map_app. Qed.

Lemma proj_cons : forall f th l, proj f (th :: l) = (pri f th, []) :: (tra f th, []) :: proj f l.
Proof. reflexivity. Qed.

Lemma mid2 : forall (A : Type) (L1 L2 : list A) x y, L1 ++ x :: y :: L2 = (L1 ++ [x]) ++ y :: L2.
Proof. intros. rewrite <- app_assoc. reflexivity. Qed.

Lemma inv_swap2 : forall s L1 L2 p q p' q' a b c d,
  wt p = wt p' -> cr p = cr p' -> wt q = wt q' -> cr q = cr q' ->
  Inv (mkState s (L1 ++ (p, a) :: (q, b) :: L2)) -> Inv (mkState s (L1 ++ (p', c) :: (q', d) :: L2)).
Proof.
  intros s L1 L2 p q p' q' a b c d H1 H2 H3 H4 H.
  apply (inv_swap s L1 _ p p' a c H1 H2) in H.
  rewrite mid2 in *. apply (inv_swap s _ L2 q q' b d H3 H4) in H. exact H.
Qed.

Lemma linv_replace : forall sh sh' l1 th th' l2,
  LInv (mkS sh (l1 ++ th :: l2)) ->
  (forall f a', nthN f (anchors sh') = Some a' ->
     exists a, nthN f (anchors sh) = Some a /\
       forall L1 L2, Inv (mkState (lk a) (L1 ++ (pri f th, []) :: (tra f th, []) :: L2)) ->
                     Inv (mkState (lk a') (L1 ++ (pri f th', []) :: (tra f th', []) :: L2))) ->
  LInv (mkS sh' (l1 ++ th' :: l2)).
Proof.
  intros sh sh' l1 th th' l2 HL HS f a' Ha'. cbn [msh mths] in *.
  destruct (HS f a' Ha') as (a & Ha & K).
  specialize (HL f a Ha). cbn [msh mths] in HL.
  rewrite proj_app, proj_cons in *. apply K. exact HL.
Qed.

(* a step that leaves the anchors and the weights of both shares alone *)
Lemma linv_same : forall sh sh' l1 th th' l2,
  anchors sh' = anchors sh ->
  (forall f, wt (pri f th) = wt (pri f th') /\ cr (pri f th) = cr (pri f th') /\
             wt (tra f th) = wt (tra f th') /\ cr (tra f th) = cr (tra f th')) ->
  LInv (mkS sh (l1 ++ th :: l2)) -> LInv (mkS sh' (l1 ++ th' :: l2)).
Proof.
  intros sh sh' l1 th th' l2 A W HL. eapply linv_replace; [exact HL|]. intros f a' Ha'. rewrite A in Ha'.
  exists a'. split; [assumption|]. intros L1 L2 H. destruct (W f) as (W1 & C1 & W2 & C2).
  exact (inv_swap2 _ _ _ _ _ _ _ _ _ _ _ W1 C1 W2 C2 H).
Qed.

(* a step that changes one anchor g, and on the other anchors leaves the weights of both shares alone *)
Lemma linv_at : forall sh sh' g a0 a1 l1 th th' l2,
  nthN g (anchors sh) = Some a0 -> anchors sh' = updN g a1 (anchors sh) ->
  (forall f, f <> g -> wt (pri f th) = wt (pri f th') /\ cr (pri f th) = cr (pri f th') /\
                       wt (tra f th) = wt (tra f th') /\ cr (tra f th) = cr (tra f th')) ->
  (forall L1 L2, Inv (mkState (lk a0) (L1 ++ (pri g th, []) :: (tra g th, []) :: L2)) ->
                 Inv (mkState (lk a1) (L1 ++ (pri g th', []) :: (tra g th', []) :: L2))) ->
  LInv (mkS sh (l1 ++ th :: l2)) -> LInv (mkS sh' (l1 ++ th' :: l2)).
Proof.
  intros sh sh' g a0 a1 l1 th th' l2 Ha0 An W K HL. eapply linv_replace; [exact HL|]. intros f a' Ha'. rewrite An in Ha'.
  destruct (N.eq_dec f g) as [->|D].
  - rewrite (nthN_updN_same _ _ _ _ _ Ha0) in Ha'. inversion Ha'; subst a'. exists a0. split; [assumption | exact K].
  - rewrite nthN_updN_other in Ha' by congruence. exists a'. split; [assumption|]. intros L1 L2 H.
    destruct (W f D) as (W1 & C1 & W2 & C2). exact (inv_swap2 _ _ _ _ _ _ _ _ _ _ _ W1 C1 W2 C2 H).
Qed.

Lemma fetchk_legal : forall m s o r, fetchk m s = Some (o, r) -> legalk m o = true /\ (length r < length s)%nat.
Proof.
  induction s as [|x s IH]; simpl; intros o r H; [discriminate|].
  destruct (legalk m x) eqn:E.
  - inversion H; subst. split; [assumption | lia].
  - destruct (IH _ _ H). split; [assumption | lia].
Qed.

Lemma cm_lmode_newcm_same : forall old f m o, cm_lmode (newcm old f m o) f = m.
Proof.
  intros. destruct m; cbn [newcm cm_lmode]; rewrite ?N.eqb_refl; try reflexivity.
  destruct o as [| |[k|]| | |l w| | ]; cbn [cm_lmode]; rewrite ?N.eqb_refl; try reflexivity.
  destruct old; cbn [cm_lmode]; rewrite ?N.eqb_refl; try reflexivity.
  destruct (f0 =? f)%N; cbn [cm_lmode]; rewrite ?N.eqb_refl; reflexivity.
Qed.

Lemma cm_lmode_newcm_other : forall old f g m o, f <> g -> cm_lmode (newcm old f m o) g = MIdle.
Proof.
  intros old f g m o D.
  assert (X : (f =? g)%N = false) by (destruct (N.eqb_spec f g); [contradiction | reflexivity]).
  destruct m; cbn [newcm cm_lmode]; rewrite ?X; try reflexivity.
  destruct o as [| |[k|]| | |l w| | ]; cbn [cm_lmode]; rewrite ?X; try reflexivity.
  destruct old; cbn [cm_lmode]; rewrite ?X; try reflexivity.
  destruct (f0 =? f)%N; cbn [cm_lmode]; rewrite ?X; reflexivity.
Qed.

(* start of an operation: the first pc carries the same weights as the client's mode *)
Lemma start_op_weights : forall sh m o sh' p' evs r c f,
  legalk m o = true ->
  start_op sh m o = (sh', p', evs) ->
  anchors sh' = anchors sh /\
  wt (pri f (mkT m p' c r)) = wt (Ready (cm_lmode m f)) /\ cr (pri f (mkT m p' c r)) = 0 /\
  wt (tra f (mkT m p' c r)) = wt (Ready MIdle) /\ cr (tra f (mkT m p' c r)) = 0.
Proof.
  intros sh m o sh' p' evs r c f Lg E.
  destruct m; destruct o; try discriminate Lg; cbn [start_op cm_anchor cm_app cm_last] in E;
    repeat match type of E with
           | context [if ?x then _ else _] => destruct x eqn:?
           | context [match first_free ?a ?b with _ => _ end] => destruct (first_free a b) eqn:?
           end;
    inversion E; subst; clear E;
    cbn [pri tra tpc cm alock amode cm_lmode cm_anchor cm_app cm_last entry anchors putO set_owner wmode_of];
    repeat match goal with |- context [(?a =? ?b)%N] => destruct (N.eqb_spec a b) end;
    repeat split; try reflexivity; subst; try contradiction.
Qed.

(* a step inside a lock method only changes the lock fields; it ends the method (lcont), fails an assertion of the
   lock, or stays inside *)
Lemma astepA_AL : forall sh a c lp a' sh1 r evs,
  astepA sh a (AL c lp) = (a', sh1, r, evs) ->
  sh1 = sh /\ evs = [] /\ akey a' = akey a /\ wtbf a' = wtbf a /\
  ((exists m, r = lcont a' c m) \/ r = ACrashL \/ exists lp', r = ANext (AL c lp') /\ holds lp' = None).
Proof.
  intros sh a c lp a' sh1 r evs E. cbn [astepA] in E.
  destruct (pstep (lk a) lp []) as [[[L' lp'] ?] ?].
  destruct lp'; inversion E; subst; repeat split; eauto.
Qed.

(* all the ways a step outside the lock methods can go *)
Ltac astepA_split E :=
  cbn [astepA] in E; unfold fc_entry, fl_head, lk_head, callL in E;
  repeat match type of E with
         | context [if ?c then _ else _] => destruct c eqn:?
         | context [match getS ?a ?b with _ => _ end] => destruct (getS a b) eqn:?
         | context [match sidx ?a ?b with _ => _ end] => destruct (sidx a b) eqn:?
         | context [match ?c with Some _ => _ | None => _ end] => destruct c eqn:?
         | context [match ?c with FcOW _ => _ | _ => _ end] => destruct c eqn:?
         end;
  inversion E; subst; clear E.

(* what one step does besides moving the pc: it leaves the anchors of the rest alone, reports nothing but freed slices,
   and changes the key, clears a waitingToBeFreed mark or frees a slice only while holding the anchor's lock exclusively *)
Lemma astepA_effect : forall sh a p a' sh1 r evs,
  astepA sh a p = (a', sh1, r, evs) ->
  anchors sh1 = anchors sh /\ (forall e, In e evs -> exists sid, e = MFree sid) /\
  (akey a' <> akey a \/ (wtbf a = true /\ wtbf a' = false) \/ (exists sid, In (MFree sid) evs) -> alock p = Ready MExcl).
Proof.
  intros sh a p a' sh1 r evs E. destruct p.
  1: { apply astepA_AL in E. destruct E as (-> & -> & K & W & _). split; [reflexivity|]. split; [intros e []|].
       intros [H|[[H1 H2]|[sid []]]]; congruence. }
  all: astepA_split E; (split; [reflexivity|]);
    (split; [intros e I; cbn [In] in I; try contradiction; destruct I as [<-|[]]; eexists; reflexivity|]);
    intro H; try reflexivity;
    cbn [akey wtbf set_lk set_wtbf set_halted set_akey set_astart set_asplice] in H;
    exfalso; destruct H as [H|[[H1 H2]|[sid0 H]]]; try congruence; try (apply H; reflexivity);
    try (cbn [In] in H; tauto).
Qed.

Lemma astep_anchors : forall sh g p sh' r evs a0,
  nthN g (anchors sh) = Some a0 ->
  astep sh g p = (sh', r, evs) ->
  exists a1 sh1 , astepA sh a0 p = (a1, sh1, r, evs) /\ anchors sh' = updN g a1 (anchors sh) /\ anchors sh1 = anchors sh.
Proof.
  intros sh g p sh' r evs a0 Ha E. unfold astep in E. rewrite Ha in E.
  destruct (astepA sh a0 p) as [[[a1 sh1] r1] evs1] eqn:EA.
  inversion E; subst; clear E.
  exists a1, sh1. split; [reflexivity|].
  pose proof (proj1 (astepA_effect _ _ _ _ _ _ _ EA)) as H.
  split; [|assumption]. cbn [putA set_anchors anchors]. rewrite H. reflexivity.
Qed.

(* the theorems below are about processes that never call the update methods (openForUpdating ... ):
   their scripts contain no update operation, so they are never inside one nor in the updater's mode *)
Definition nou_op (o : kop) : bool := match o with KU _ | KSp _ | KCu | KAu => false | _ => true end.
Definition nou_cm (m : cmode) : bool := match m with CUpd _ => false | _ => true end.
Definition nou_pc (p : spc) : bool := match p with UP _ _ => false | _ => true end.
Definition noU (th : mthread) : Prop :=
  nou_cm (cm th) = true /\ nou_pc (tpc th) = true /\ forallb nou_op (scr th) = true.

(* what starting an operation does besides choosing the first pc *)
Lemma start_op_facts : forall sh m o sh' p' evs,
  start_op sh m o = (sh', p', evs) ->
  anchors sh' = anchors sh /\ p' <> CrashedL /\
  (forall e, In e evs -> e = MCrash \/ e = MRet o (OAdd (-1)) m) /\
  (nou_cm m = true -> nou_op o = true -> nou_pc p' = true).
Proof.
  intros sh m o sh' p' evs E.
  destruct o; cbn [start_op] in E;
    repeat match type of E with
           | context [if ?x then _ else _] => destruct x
           | context [match first_free ?a ?b with _ => _ end] => destruct (first_free a b)
           | context [match ?m with CUpd _ => _ | _ => _ end] => destruct m
           end;
    inversion E; subst; cbn [In]; repeat split; try discriminate; try tauto; intros e [<-|[]]; auto.
Qed.

Lemma fetchk_nou : forall m s o r, forallb nou_op s = true -> fetchk m s = Some (o, r) -> nou_op o = true /\ forallb nou_op r = true.
Proof.
  induction s as [|x s IH]; simpl; intros o r H F; [discriminate|].
  apply andb_true_iff in H. destruct H as [H1 H2].
  destruct (legalk m x); [inversion F; subst; split; assumption | eapply IH; eassumption].
Qed.

Lemma newcm_nou : forall old f m o, nou_cm (newcm old f m o) = true.
Proof.
  intros. destruct m; cbn [newcm nou_cm]; try reflexivity.
  destruct o as [| |[k|]| | |l w| | ]; try reflexivity. destruct old; try reflexivity. destruct (f0 =? f)%N; reflexivity.
Qed.

Lemma tstep_noU : forall sh th sh' th' evs, noU th -> tstep sh th = (sh', th', evs) -> noU th'.
Proof.
  intros sh [m p c s] sh' th' evs (N1 & N2 & N3) E. unfold tstep in E. cbn [cm tpc cur scr] in *.
  destruct p as [ | | |f0 m0|g0 m0|k|k|k|g p|g p|u q]; try discriminate N2.
  1: { destruct (fetchk m s) as [[o r]|] eqn:F.
       - destruct (fetchk_nou _ _ _ _ N3 F) as [O1 O2].
         destruct (start_op sh m o) as [[sh1 p1] evs1] eqn:S. inversion E; subst; clear E.
         destruct (start_op_facts _ _ _ _ _ _ S) as (_ & _ & _ & NP). repeat split; auto.
       - inversion E; subst. repeat split; auto. }
  1-4: inversion E; subst; repeat split; auto.
  1-3: destruct (fileno_of sh k); inversion E; subst; repeat split; auto.
  all: destruct (astep sh g p) as [[sh1 r] evs1]; destruct r; inversion E; subst; unfold noU; cbn [cm tpc scr];
    repeat split; auto.
  - apply newcm_nou.
  - destruct m0; reflexivity.
Qed.

(* one step of one process preserves the lock invariant of every anchor *)
Lemma tstep_linv : forall sh l1 th l2 sh' th' evs,
  nou_pc (tpc th) = true ->
  LInv (mkS sh (l1 ++ th :: l2)) ->
  tstep sh th = (sh', th', evs) ->
  LInv (mkS sh' (l1 ++ th' :: l2)) /\ tpc th' <> CrashedL \/ tpc th = CrashedL.
Proof.
  intros sh l1 th l2 sh' th' evs NU HL E.
  destruct th as [m p c s]. unfold tstep in E. cbn [cm tpc cur scr] in E. cbn [tpc] in NU.
  destruct p as [ | | |f0 m0|g0 m0|k|k|k|g p|g p|u q]; try discriminate NU.
  3: right; reflexivity.
  all: left.
  2-4: inversion E; subst; clear E; split; [exact HL | discriminate].
  2-4: destruct (fileno_of sh k) as [idx|]; inversion E; subst; clear E; (split; [|discriminate]);
    (eapply linv_same; [reflexivity | | exact HL]); intro f; cbn [pri tra tpc cm alock entry];
    repeat match goal with |- context [(?a =? ?b)%N] => destruct (a =? b)%N end; repeat split; reflexivity.
  - destruct (fetchk m s) as [[o r]|] eqn:F.
    + destruct (start_op sh m o) as [[sh1 p1] evs1] eqn:S. inversion E; subst; clear E.
      destruct (fetchk_legal _ _ _ _ F) as [Lg _].
      split; [|apply (start_op_facts _ _ _ _ _ _ S)].
      eapply linv_same; [ | | exact HL].
      * apply (start_op_facts _ _ _ _ _ _ S).
      * intro f. destruct (start_op_weights _ _ _ _ _ _ r (match p1 with Rdy => None | _ => Some o end) f Lg S) as (_ & W1 & C1 & W2 & C2).
        cbn [pri tra tpc cm]. auto.
    + inversion E; subst; clear E. split; [|discriminate].
      eapply linv_same; [reflexivity | | exact HL]. intro f. repeat split; reflexivity.
  - (* Prim g p: the primary share of anchor g is the activity *)
    destruct (astep sh g p) as [[sh1 r] evs1] eqn:EA.
    destruct (nthN g (anchors sh)) as [a0|] eqn:Ha0.
    + destruct (astep_anchors _ _ _ _ _ _ _ Ha0 EA) as (a1 & sh2 & EA2 & An & _).
      assert (K : forall L1 L2, Inv (mkState (lk a0) (L1 ++ (alock p, []) :: (Ready MIdle, []) :: L2)) ->
                                res_inv (lk a1) L1 ((Ready MIdle, []) :: L2) r).
      { intros L1 L2 H. exact (proj2 (astepA_inv _ _ _ _ _ _ _ _ _ _ H EA2)). }
      pose proof (HL g a0 Ha0) as HIg. cbn [msh mths] in HIg.
      rewrite proj_app, proj_cons in HIg. cbn [pri tra tpc] in HIg. rewrite N.eqb_refl in HIg. apply K in HIg.
      destruct r as [p'|lm o| |lm]; inversion E; subst; clear E; [ | | destruct HIg | ];
        (split; [|discriminate]); (eapply linv_at; [exact Ha0 | exact An | intros f D | intros L1 L2 H | exact HL]).
      (* the other anchors: its shares are idle before and after *)
      1, 3, 5: cbn [pri tra tpc cm]; rewrite ?cm_lmode_newcm_other by congruence;
        destruct (N.eqb_spec g f); [congruence|]; repeat split; reflexivity.
      (* anchor g *)
      all: cbn [pri tra tpc cm] in H; rewrite N.eqb_refl in H; apply K in H;
        cbn [pri tra tpc cm]; rewrite ?cm_lmode_newcm_same, ?N.eqb_refl; exact H.
    + (* invalid anchor: assert(validEntry()) *)
      unfold astep in EA. rewrite Ha0 in EA. inversion EA; subst; clear EA. inversion E; subst; clear E.
      split; [|discriminate].
      eapply linv_replace; [exact HL|]. intros f a' Ha'. exists a'. split; [assumption|]. intros L1 L2 H.
      cbn [pri tra tpc] in *. destruct (N.eqb_spec g f); [subst; congruence|]. exact H.
  - (* Tran g p: the same for the transient share *)
    destruct (astep sh g p) as [[sh1 r] evs1] eqn:EA.
    destruct (nthN g (anchors sh)) as [a0|] eqn:Ha0.
    + destruct (astep_anchors _ _ _ _ _ _ _ Ha0 EA) as (a1 & sh2 & EA2 & An & _).
      assert (K : forall L1 L2, Inv (mkState (lk a0) (L1 ++ (Ready (cm_lmode m g), []) :: (alock p, []) :: L2)) ->
                                res_inv (lk a1) (L1 ++ [(Ready (cm_lmode m g), [])]) L2 r).
      { intros L1 L2 H. rewrite mid2 in H. exact (proj2 (astepA_inv _ _ _ _ _ _ _ _ _ _ H EA2)). }
      pose proof (HL g a0 Ha0) as HIg. cbn [msh mths] in HIg.
      rewrite proj_app, proj_cons in HIg. cbn [pri tra tpc cm] in HIg. rewrite N.eqb_refl in HIg. apply K in HIg.
      destruct r as [p'|lm o| |lm]; inversion E; subst; clear E; [ | | destruct HIg | ];
        (split; [|try destruct lm; discriminate]);
        (eapply linv_at; [exact Ha0 | exact An | intros f D | intros L1 L2 H | exact HL]).
      1, 3, 5: try destruct lm; cbn [pri tra tpc cm];
        (destruct (N.eqb_spec g f); [congruence|]); repeat split; reflexivity.
      (* anchor g; a call that returns holding the lock leaves the process stuck with it (Done lm for Ready lm) *)
      all: cbn [pri tra tpc cm] in H; rewrite N.eqb_refl in H; apply K in H; cbn [res_inv] in H; rewrite <- mid2 in H;
        try destruct lm; cbn [pri tra tpc cm]; rewrite ?N.eqb_refl; first [exact H | rewrite mid2 in *; swap_with H].
    + unfold astep in EA. rewrite Ha0 in EA. inversion EA; subst; clear EA. inversion E; subst; clear E.
      split; [|discriminate].
      eapply linv_replace; [exact HL|]. intros f a' Ha'. exists a'. split; [assumption|]. intros L1 L2 H.
      cbn [pri tra tpc cm] in *. destruct (N.eqb_spec g f); [subst; congruence|]. exact H.
Qed.

Definition NoCrashL (st : mstate) : Prop := forall th, In th (mths st) -> tpc th <> CrashedL.
Definition NoUpd (st : mstate) : Prop := forall th, In th (mths st) -> noU th.
Definition LInvC (st : mstate) : Prop := LInv st /\ (NoCrashL st /\ NoUpd st).

Lemma in_replace : forall (A : Type) (P : A -> Prop) l1 l2 (a b : A),
  (forall x, In x (l1 ++ a :: l2) -> P x) -> P b -> forall x, In x (l1 ++ b :: l2) -> P x.
Proof.
  intros A P l1 l2 a b HP Hb x I. apply in_app_or in I. destruct I as [I|[I|I]].
  - apply HP. apply in_or_app. left. exact I.
  - subst x. exact Hb.
  - apply HP. apply in_or_app. right. right. exact I.
Qed.

(* one scheduling step is a step of the named process, or nothing *)
Lemma sstep_cases : forall st t st' evs b,
  sstep st t = (st', evs, b) ->
  (st' = st /\ evs = []) \/
  exists th sh1 th1 evs1, nthN t (mths st) = Some th /\ tstep (msh st) th = (sh1, th1, evs1) /\
    st' = mkS sh1 (updN t th1 (mths st)) /\ evs = map (fun e => (t, e)) evs1.
Proof.
  intros st t st' evs b E. unfold sstep in E.
  destruct (nthN t (mths st)) as [th|]; [|inversion E; auto].
  destruct (terminalk (tpc th)); [inversion E; auto|].
  destruct (tstep (msh st) th) as [[sh1 th1] evs1] eqn:TS. inversion E; subst. right. exists th, sh1, th1, evs1. auto.
Qed.

Lemma sstep_linv : forall st t st' evs b, LInvC st -> sstep st t = (st', evs, b) -> LInvC st'.
Proof.
  intros [sh l] t st' evs b HI E.
  destruct (sstep_cases _ _ _ _ _ E) as [[-> _]|(th & sh1 & th1 & evs1 & Nt & TS & -> & _)]; [exact HI|].
  destruct HI as (HL & HN & HU). cbn [msh mths] in *.
  destruct (updN_split _ _ _ _ Nt) as (l1 & l2 & E1 & E2). rewrite E2. subst l.
  assert (UT : noU th) by (apply HU; cbn [mths]; apply in_or_app; right; left; reflexivity).
  destruct (tstep_linv _ _ _ _ _ _ _ (proj1 (proj2 UT)) HL TS) as [[A B]|C].
  - split; [exact A|]. split.
    + exact (in_replace _ _ _ _ _ _ HN B).
    + exact (in_replace _ noU _ _ _ _ HU (tstep_noU _ _ _ _ _ UT TS)).
  - exfalso. apply (HN th); [cbn [mths]; apply in_or_app; right; left; reflexivity | exact C].
Qed.

Lemma sexec_linv : forall sched st st' evs n, LInvC st -> sexec st sched = (st', evs, n) -> LInvC st'.
Proof.
  induction sched as [|t r IH]; intros st st' evs n HI E; simpl in E.
  - inversion E; subst; assumption.
  - destruct (sstep st t) as [[st1 e1] b] eqn:S1.
    destruct (sexec st1 r) as [[st2 e2] n2] eqn:S2.
    inversion E; subst; clear E.
    eapply IH; [|eassumption]. eapply sstep_linv; eassumption.
Qed.

Lemma nthN_repeatN : forall (A : Type) (x y : A) k f, nthN f (repeatN x k) = Some y -> y = x.
Proof.
  induction k as [|k IH]; intros f H; simpl in H; [discriminate|].
  destruct (f =? 0)%N; [inversion H; reflexivity | eapply IH; eassumption].
Qed.

Lemma sumf_proj_init : forall g f scripts,
  g (Ready MIdle) = 0 ->
  sumf g (proj f (map (fun s => mkT CIdle Rdy None s) scripts)) = 0.
Proof.
  intros g f scripts H. induction scripts as [|s l IH]; [reflexivity|].
  cbn [map]. rewrite proj_cons. rewrite !sumf_cons. cbn [pri tra tpc cm cm_lmode]. rewrite H, IH. reflexivity.
Qed.

Definition noupd (scripts : list (list kop)) : bool := forallb (forallb nou_op) scripts.

Lemma sinit_linv : forall n scripts, noupd scripts = true -> LInvC (sinit n scripts).
Proof.
  intros n scripts NU. split; [|split].
  - intros f a Ha. cbn [sinit msh mths mshared0 anchors] in *.
    apply nthN_repeatN in Ha. subst a. cbn [lk anchor0].
    constructor; cbn [sh ths idle_shared readers writing appending updating readLevel writeLevel];
      unfold Srl, Srd, Swl, Sfw, Swr, Sap, Sup, Sxc, Src, Scr; rewrite ?sumf_proj_init; try reflexivity; try lia.
  - intros th I. cbn [sinit mths] in I. apply in_map_iff in I. destruct I as (s & E & _). subst th. discriminate.
  - intros th I. cbn [sinit mths] in I. apply in_map_iff in I. destruct I as (s & E & Is). subst th.
    unfold noU. cbn [cm tpc scr]. repeat split. unfold noupd in NU. rewrite forallb_forall in NU. apply NU. exact Is.
Qed.

Theorem sreach_linv : forall n scripts sched, noupd scripts = true -> LInvC (sreach n scripts sched).
Proof.
  intros n scripts sched NU. unfold sreach. destruct (sexec (sinit n scripts) sched) as [[st e] k] eqn:E. simpl.
  eapply sexec_linv; [apply sinit_linv; exact NU | eassumption].
Qed.

Lemma nthN_proj : forall f ths t th, nthN t ths = Some th ->
  nthN (2 * t) (proj f ths) = Some (pri f th, []) /\ nthN (2 * t + 1) (proj f ths) = Some (tra f th, []).
Proof.
  intros f ths. induction ths as [|x l IH]; intros t th H; simpl in H; [discriminate|].
  change (proj f (x :: l)) with ([(pri f x, @nil op); (tra f x, [])] ++ proj f l).
  destruct (N.eqb_spec t 0%N) as [E|E].
  - subst. inversion H; subst. split; reflexivity.
  - rewrite !nthN_app_r by (cbn [lenN]; lia). cbn [lenN].
    replace (2 * t - N.succ (N.succ 0))%N with (2 * N.pred t)%N by lia.
    replace (2 * t + 1 - N.succ (N.succ 0))%N with (2 * N.pred t + 1)%N by lia. exact (IH _ _ H).
Qed.

(* what process th holds of anchor f's lock through the entry it opened (None: it is inside a lock method) *)
Definition holdsP (f : N) (th : mthread) : option mode := holds (pri f th).
Definition holdsT (f : N) (th : mthread) : option mode := holds (tra f th).

Section LockConsequences.
  Variable st : mstate.
  Hypothesis HI : LInvC st.

  Theorem holders_compat_PP : forall f a i j thi thj x y,
    nthN f (anchors (msh st)) = Some a ->
    i <> j -> nthN i (mths st) = Some thi -> nthN j (mths st) = Some thj ->
    holdsP f thi = Some x -> holdsP f thj = Some y -> compat x y = true.
  Proof.
    intros f a i j thi thj x y Ha D Ni Nj Hx Hy.
    destruct HI as [HL _]. specialize (HL f a Ha).
    destruct (nthN_proj f _ _ _ Ni) as [Pi _]. destruct (nthN_proj f _ _ _ Nj) as [Pj _].
    eapply (holders_compatible _ HL (2 * i)%N (2 * j)%N); cbn [ths]; try eassumption. lia.
  Qed.

  Theorem holders_compat_PT : forall f a i j thi thj x y,
    nthN f (anchors (msh st)) = Some a ->
    nthN i (mths st) = Some thi -> nthN j (mths st) = Some thj ->
    holdsP f thi = Some x -> holdsT f thj = Some y -> compat x y = true.
  Proof.
    intros f a i j thi thj x y Ha Ni Nj Hx Hy.
    destruct HI as [HL _]. specialize (HL f a Ha).
    destruct (nthN_proj f _ _ _ Ni) as [Pi _]. destruct (nthN_proj f _ _ _ Nj) as [_ Pj].
    eapply (holders_compatible _ HL (2 * i)%N (2 * j + 1)%N); cbn [ths]; try eassumption. lia.
  Qed.

  Theorem no_lock_assert_fails : forall i th, nthN i (mths st) = Some th -> tpc th <> CrashedL.
  Proof.
    intros i th Ni. destruct HI as [_ [HN _]]. apply HN. eapply nthN_in; eassumption.
  Qed.
End LockConsequences.

(* the two lock shares of one process are compatible as well *)
Theorem holders_compat_same : forall st, LInvC st -> forall f a i th x y,
  nthN f (anchors (msh st)) = Some a -> nthN i (mths st) = Some th ->
  holdsP f th = Some x -> holdsT f th = Some y -> compat x y = true.
Proof. intros st HI f a i th x y Ha Ni Hx Hy. eapply holders_compat_PT; eassumption. Qed.
