(* Properties_C11.v — C11: responses forbidden to be stored are never served from cache.
   Statements, closed by `exact` or by the few lines that assemble them; proofs live in ReuseProofs.v. Directive names/ids, status codes, the method table, the implicit
   refresh_pattern rule (gen/Reuse_gen.v) and the squid.conf defaults (gen/ReuseCfg_gen.v) are regenerated from
   /repo on every run. `two_requests cf h q p now gap` is the transcription of what Squid does with a request q for a new
   URL answered by the origin with p at time `now`, followed `gap` seconds later by an identical request. *)
Require Import SquidV.Bytes SquidV.HopModel SquidV.HopProofs SquidV.ReuseModel SquidV.ReuseProofs.
Require Import SquidV.gen.Reuse_gen SquidV.gen.ReuseCfg_gen.
Local Open Scope Z_scope.

(* ---- the property, on header text: a response sent with no-store or private, or a request sent with no-store, is never
   answered from the cache, for ALL configurations of the numeric knobs, all other headers, statuses and times; the second
   request goes to the origin unconditionally (unless the client itself said only-if-cached) *)
Theorem C11_forbidden_never_hit : forall cf h q p now gap,
  ignore_cache_control h = false ->
  simple (join_values (p_cc_vals p)) = true -> simple (join_values (q_cc_vals q)) = true ->
  sent_with d_no_store (p_cc_vals p) \/ sent_with d_private (p_cc_vals p) \/ sent_with d_no_store (q_cc_vals q) ->
  two_requests cf h q p now gap <> Hit /\
  (q_only_if_cached q = false -> two_requests cf h q p now gap = Miss).
Proof. exact forbidden_never_hit. Qed.
Print Assumptions C11_forbidden_never_hit.

(* ---- Authorization: without public / must-revalidate / s-maxage in the response the second request always reaches
   the origin (default negative_ttl) *)
Theorem C11_authorization_never_hit_without_permission : forall cf h q p now gap,
  negative_ttl cf <= 0 -> q_has_authorization q = true ->
  simple (join_values (p_cc_vals p)) = true ->
  ~ sent_with d_public (p_cc_vals p) -> ~ sent_with d_must_revalidate (p_cc_vals p) -> ~ sent_with d_s_maxage (p_cc_vals p) ->
  two_requests cf h q p now gap <> Hit /\
  (q_only_if_cached q = false ->
   two_requests cf h q p now gap = Miss \/ two_requests cf h q p now gap = Revalidate).
Proof. exact authorization_never_hit_without_permission. Qed.
Print Assumptions C11_authorization_never_hit_without_permission.

(* ---- the same four statements over Squid's own (quote-aware) list reader, without the `simple` restriction *)
Theorem C11_response_no_store_never_reused : forall cf h q p now gap,
  ignore_cache_control h = false -> has_directive d_no_store (p_cc_vals p) ->
  two_requests cf h q p now gap = (if q_only_if_cached q then NotForwarded else Miss).
Proof. exact response_no_store_never_reused. Qed.
Print Assumptions C11_response_no_store_never_reused.

Theorem C11_response_private_never_reused : forall cf h q p now gap,
  ignore_cache_control h = false -> has_directive d_private (p_cc_vals p) ->
  two_requests cf h q p now gap = (if q_only_if_cached q then NotForwarded else Miss).
Proof. exact response_private_never_reused. Qed.
Print Assumptions C11_response_private_never_reused.

Theorem C11_request_no_store_never_reused : forall cf h q p now gap,
  has_directive d_no_store (q_cc_vals q) ->
  two_requests cf h q p now gap = (if q_only_if_cached q then NotForwarded else Miss).
Proof. exact request_no_store_never_reused. Qed.
Print Assumptions C11_request_no_store_never_reused.

Theorem C11_authorization_hit_needs_permission : forall cf h q p now gap,
  negative_ttl cf <= 0 -> q_has_authorization q = true ->
  two_requests cf h q p now gap = Hit ->
  has_directive d_public (p_cc_vals p) \/ has_directive d_must_revalidate (p_cc_vals p)
  \/ has_directive d_s_maxage (p_cc_vals p).
Proof. exact authorization_hit_needs_permission. Qed.
Print Assumptions C11_authorization_hit_needs_permission.

(* the negative_ttl hypothesis is necessary: with negative caching configured (not a default), an authenticated 404 that
   carries only no-cache is served as a negative hit *)
Theorem C11_authorization_nondefault_negative_ttl_witness :
  two_requests wit_cf plain_hstate wit_q (wit_p 404 [d_no_cache]) 1700000000 1 = Hit /\ 0 < negative_ttl wit_cf.
Proof. split; [vm_compute; reflexivity|reflexivity]. Qed.
Print Assumptions C11_authorization_nondefault_negative_ttl_witness.

(* ---- components *)
(* HttpHdrCc::parse never misses a no-store / private element, whatever else the field contains (duplicates, malformed
   arguments, unknown directives, quoted strings elsewhere) *)
Theorem C11_no_store_element_always_recognised : forall s,
  (exists item, In item (cc_items s) /\ is_directive d_no_store item = true) ->
  exists c, cc_parse s = Some c /\ m_no_store c = true.
Proof. exact parse_sees_no_store. Qed.
Print Assumptions C11_no_store_element_always_recognised.

Theorem C11_private_element_always_recognised : forall s,
  (exists item, In item (cc_items s) /\ is_directive d_private item = true) ->
  exists c, cc_parse s = Some c /\ m_private c = true.
Proof. exact parse_sees_private. Qed.
Print Assumptions C11_private_element_always_recognised.

(* ... and never invents a shared-caching permission *)
Theorem C11_shared_permission_bits_sound : forall s c, cc_parse s = Some c ->
  (m_public c || m_must_revalidate c || is_some (v_s_maxage c)) = true ->
  exists item, In item (cc_items s) /\
    (is_directive d_public item || is_directive d_must_revalidate item || is_directive d_s_maxage item) = true.
Proof. exact parse_permission_sound. Qed.
Print Assumptions C11_shared_permission_bits_sound.

(* the strListGetItem loop reads quote-free list text as: split at commas, trim SP/HTAB, ignore empty elements *)
Theorem C11_cache_control_list_reading : forall l, simple l = true -> cc_items l = ref_items l.
Proof. exact cc_items_is_ref. Qed.
Print Assumptions C11_cache_control_list_reading.

(* the model's loop bound is never what ends the list *)
Theorem C11_list_loop_bound_sufficient : forall l k,
  ritems_fuel (S (length (c_str l)) + k) (c_str l) = ritems l.
Proof. exact ritems_fuel_sufficient. Qed.
Print Assumptions C11_list_loop_bound_sufficient.

(* ... nor is the bound of the quoted-string loop (httpHeaderParseQuotedString): the out-of-fuel result is unreachable and
   the reader never records it *)
Theorem C11_quoted_string_loop_bound_sufficient : forall p len, parse_quoted p len <> QsFuel.
Proof. exact parse_quoted_never_out_of_fuel. Qed.
Print Assumptions C11_quoted_string_loop_bound_sufficient.

Theorem C11_cache_control_reader_total : forall s c, cc_parse s = Some c -> fuel_out c = false.
Proof. exact cc_parse_total. Qed.
Print Assumptions C11_cache_control_reader_total.

(* the default settings the model hard-wires (regenerated constants) *)
Theorem C11_defaults_assumed :
  cfg_no_refresh_pattern = true /\ refresh_default_flags_clear = true /\ cfg_reload_into_ims = false /\
  cfg_refresh_all_ims = false /\ cfg_offline_mode = false /\ cfg_vary_ignore_expire = false /\
  cfg_no_store_miss = true /\ cfg_no_send_hit = true /\ cfg_no_cache_acl = true /\
  (negative_ttl default_config <= 0)%Z /\ use_http_violations = true.
Proof. repeat split; try reflexivity; vm_compute; discriminate. Qed.
Print Assumptions C11_defaults_assumed.

(* ---- non-vacuity: the hypotheses are satisfiable and the unforbidden counterparts ARE hits *)
Example C11_ex_plain_hit : run (ex_q false []) (ex_p [t_max_age_3600]) = Hit.
Proof. vm_compute. reflexivity. Qed.
Example C11_ex_no_store_miss : run (ex_q false []) (ex_p [t_max_age_no_store]) = Miss.
Proof. vm_compute. reflexivity. Qed.
Example C11_ex_private_miss : run (ex_q false []) (ex_p [t_max_age_3600; t_private_arg]) = Miss.
Proof. vm_compute. reflexivity. Qed.
Example C11_ex_request_no_store_miss : run (ex_q false [d_no_store]) (ex_p [t_max_age_3600]) = Miss.
Proof. vm_compute. reflexivity. Qed.
Example C11_ex_authorization_miss : run (ex_q true []) (ex_p [t_max_age_3600]) = Miss.
Proof. vm_compute. reflexivity. Qed.
Example C11_ex_authorization_public_hit : run (ex_q true []) (ex_p [t_max_age_3600; d_public]) = Hit.
Proof. vm_compute. reflexivity. Qed.
Example C11_ex_authorization_no_cache_revalidates : run (ex_q true []) (ex_p [t_max_age_3600; d_no_cache]) = Revalidate.
Proof. vm_compute. reflexivity. Qed.
Example C11_ex_sent_with_no_store :
  sent_with d_no_store [t_max_age_no_store] /\ simple (join_values [t_max_age_no_store]) = true.
Proof.
  split; [|reflexivity]. exists [78;111;45;83;116;111;114;101]%N. split; [vm_compute; right; left; reflexivity|reflexivity].
Qed.
Example C11_ex_sent_with_private : sent_with d_private [t_max_age_3600; t_private_arg].
Proof. exists t_private_arg. split; [vm_compute; right; left; reflexivity|reflexivity]. Qed.
Example C11_ex_no_shared_permission :
  ~ sent_with d_public [t_max_age_3600] /\ ~ sent_with d_must_revalidate [t_max_age_3600] /\
  ~ sent_with d_s_maxage [t_max_age_3600] /\ simple (join_values [t_max_age_3600]) = true /\
  (negative_ttl default_config <= 0)%Z.
Proof.
  repeat split; try (intros [it [Hin Hd]]; vm_compute in Hin; destruct Hin as [<-|[]]; vm_compute in Hd; discriminate).
  vm_compute. discriminate.
Qed.
