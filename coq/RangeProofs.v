(* RangeProofs.v — proofs for C28 (Range header parsing and canonicalisation). *)
Require Import SquidV.Bytes SquidV.TokModel SquidV.Int64Proofs SquidV.HopModel SquidV.HopProofs SquidV.RangeModel.
Require Import ZifyBool ZifyN.
Local Open Scope Z_scope.

(* a requested byte-range-spec *)
Inductive rspec := RSuffix (n : Z) | RFrom (a : Z) | RRange (a b : Z).

Definition dec_value (ds : bytes) : Z := fold_left (fun a c => a * 10 + (Z.of_N c - 48)) ds 0.
(* 1*DIGIT whose value fits int64_t *)
Definition pos_value (ds : bytes) : option Z :=
  match ds with
  | [] => None
  | _ => if forallb is_digit ds && (dec_value ds <=? int64_max) then Some (dec_value ds) else None
  end.

(* byte-range-spec = first-byte-pos "-" [last-byte-pos] (last >= first); suffix-byte-range-spec = "-" suffix-length *)
Definition spec_of_text (el : bytes) : option rspec :=
  match el with
  | [] => None
  | c :: r =>
      if (c =? 45)%N then match pos_value r with Some n => Some (RSuffix n) | None => None end
      else
        let '(a, rest) := span (fun c => negb (c =? 45)%N) el in
        match rest with
        | [] => None
        | _ :: b =>
            match pos_value a with
            | None => None
            | Some x =>
                match b with
                | [] => Some (RFrom x)
                | _ => match pos_value b with
                       | Some y => if y <? x then None else Some (RRange x y)
                       | None => None
                       end
                end
            end
        end
  end.

(* the bytes of a clen-byte representation a spec selects *)
Definition wants (clen : Z) (s : rspec) (p : Z) : Prop :=
  0 <= p < clen /\
  match s with
  | RSuffix n => clen - n <= p
  | RFrom a => a <= p
  | RRange a b => a <= p <= b
  end.

(* Squid's in-memory form of a parsed spec: (offset, length), -1 = unknown *)
Definition repr (s : rspec) : Z * Z :=
  match s with
  | RSuffix n => (-1, n)
  | RFrom a => (a, -1)
  | RRange a b => if b <? int64_max then (a, b + 1 - a) else (a, -1)
  end.

Fixpoint all_some {A} (l : list (option A)) : option (list A) :=
  match l with
  | [] => Some []
  | None :: _ => None
  | Some x :: r => match all_some r with Some xs => Some (x :: xs) | None => None end
  end.

(* list syntax: comma separated, elements trimmed of Squid's white space, empty elements skipped *)
Definition trim_x (l : bytes) : bytes := rev (drop_while is_xspace (rev (drop_while is_xspace l))).
Definition elements (l : bytes) : list bytes := filter nonempty (map trim_x (split_on 44 l [])).

(* the specs a Range header value requests; None = the header is to be ignored *)
Definition header_specs (value : bytes) : option (list rspec) :=
  let s := c_str value in
  if ci_eqb (takeN 6 s) bytes_eq then
    match all_some (map spec_of_text (elements (dropN 6 s))) with
    | Some (x :: l) => Some (x :: l)
    | _ => None
    end
  else None.

Lemma dec_value_nonneg ds : forallb is_digit ds = true -> 0 <= dec_value ds.
Proof. apply dec_value_nonneg_acc. lia. Qed.

(* what follows a byte position in the C string never starts with a digit *)
Definition stops (tail : bytes) : Prop := match tail with [] => True | c :: _ => is_digit c = false end.

Lemma c_string_digits s tail : forallb is_digit s = true -> c_string (s ++ tail) = s ++ c_string tail.
Proof.
  induction s as [|c s IH]; intros H; cbn [app c_string]; [reflexivity|].
  cbn [forallb] in H. apply andb_prop in H as [Hc Hs].
  assert ((c =? 0)%N = false) as -> by (unfold is_digit in Hc; lia). now rewrite (IH Hs).
Qed.

Lemma stops_c_string tail : stops tail -> stops (c_string tail).
Proof.
  destruct tail as [|c r]; cbn [c_string stops]; [trivial|]. intros H. destruct (c =? 0)%N; [exact I|exact H].
Qed.

(* httpHeaderParseOffset on 1*DIGIT followed by a non-digit *)
Lemma parse_offset_digits s tail : s <> [] -> forallb is_digit s = true -> stops tail ->
  parse_offset (s ++ tail) = if dec_value s >? two63 - 1 then None else Some (dec_value s, lenN s).
Proof.
  intros Hne Hd Ht. unfold parse_offset, strtoll10. rewrite (c_string_digits s tail Hd).
  destruct s as [|c r]; [congruence|].
  pose proof Hd as Hd'. cbn [forallb] in Hd'. apply andb_prop in Hd' as [Hc Hr].
  assert (Hsp : is_c_space c = false) by (unfold is_digit in Hc; unfold is_c_space; lia).
  set (l := (c :: r) ++ c_string tail).
  assert (Hsk : skip_space l 0%N = (l, 0%N)) by (unfold l; cbn [app skip_space]; now rewrite Hsp).
  rewrite Hsk, sign_split. unfold l. cbn [app].
  assert ((c =? 45)%N = false) as -> by (unfold is_digit in Hc; lia).
  assert ((c =? 43)%N = false) as -> by (unfold is_digit in Hc; lia).
  rewrite digit_run_span.
  change (c :: r ++ c_string tail) with ((c :: r) ++ c_string tail).
  rewrite (span_app_stop is_digit (c :: r) (c_string tail) Hd (stops_c_string tail Ht)). cbn [fst].
  change (map dval (c :: r)) with (dval c :: map dval r).
  change (dval c :: map dval r) with (map dval (c :: r)).
  rewrite digits_value_map, lenN_map. fold (dec_value (c :: r)). rewrite N.add_0_l. cbn [map].
  destruct (dec_value (c :: r) >? two63 - 1) eqn:E; [reflexivity|].
  destruct (lenN (c :: r) =? 0)%N eqn:En; [cbn [lenN] in En; lia|reflexivity].
Qed.

(* ParseBytePos *)
Lemma parse_byte_pos_spec s tail : stops tail -> parse_byte_pos s tail = pos_value s.
Proof.
  intros Ht. unfold parse_byte_pos, pos_value. destruct s as [|c r]; [reflexivity|].
  destruct (forallb is_digit (c :: r)) eqn:Hd; [|reflexivity].
  rewrite (parse_offset_digits (c :: r) tail ltac:(discriminate) Hd Ht).
  unfold int64_max. cbn [andb].
  destruct (dec_value (c :: r) >? two63 - 1) eqn:E1; destruct (dec_value (c :: r) <=? two63 - 1) eqn:E2; try lia; [reflexivity|].
  now rewrite N.eqb_refl.
Qed.

Theorem pos_value_meaning ds v :
  pos_value ds = Some v <-> ds <> [] /\ forallb is_digit ds = true /\ v = dec_value ds /\ v <= int64_max.
Proof.
  unfold pos_value. split.
  - destruct ds as [|c r]; [discriminate|]. destruct (forallb is_digit (c :: r)); [|discriminate]. cbn [andb].
    destruct (dec_value (c :: r) <=? int64_max) eqn:E; [|discriminate]. intros [= <-].
    repeat split; try lia; discriminate.
  - intros (Hne & Hd & -> & Hm). destruct ds as [|c r]; [congruence|]. rewrite Hd. cbn [andb].
    destruct (dec_value (c :: r) <=? int64_max) eqn:E; [reflexivity|lia].
Qed.

Lemma pos_value_range ds v : pos_value ds = Some v -> 0 <= v <= int64_max /\ forallb is_digit ds = true /\ ds <> [].
Proof.
  intros H. apply pos_value_meaning in H as (Hne & Hd & -> & Hm). pose proof (dec_value_nonneg _ Hd). repeat split; assumption.
Qed.

Lemma wrap64_small x : - two63 <= x <= int64_max -> wrap64 x = x.
Proof. unfold wrap64, int64_max, two63, two64. intros H. rewrite Z.mod_small by lia. lia. Qed.

Lemma add64_ok a b : - two63 <= a + b <= int64_max -> add64 a b = (a + b, false).
Proof. intros H. unfold add64, fits64. rewrite (wrap64_small _ H). f_equal. unfold int64_max in *. lia. Qed.
Lemma sub64_ok a b : - two63 <= a - b <= int64_max -> sub64 a b = (a - b, false).
Proof. intros H. unfold sub64, fits64. rewrite (wrap64_small _ H). f_equal. unfold int64_max in *. lia. Qed.

Lemma rng_size_i64_gen s e : 0 <= s -> e <= int64_max ->
  rng_size_i64 (s, e) = (if e >? s then e - s else 0, false).
Proof.
  intros Hs He. unfold rng_size_i64, rng_size. cbn [fst snd]. destruct (e >? s) eqn:E; [|reflexivity].
  rewrite sub64_ok by (unfold int64_max, two63 in *; lia). unfold to_u64, u64_to_i64.
  rewrite Z.mod_small by (unfold int64_max, two63, two64 in *; lia).
  rewrite (wrap64_small (e - s)) by (unfold int64_max, two63 in *; lia).
  f_equal. unfold int64_max, two63 in *. lia.
Qed.

Lemma span_nodash_digits a : forallb is_digit a = true -> forallb (fun c => negb (c =? 45)%N) a = true.
Proof.
  apply forallb_impl. intros c H. unfold is_digit in H. lia.
Qed.

(* HttpHdrRangeSpec::parseInit *)
Theorem spec_parse_spec field :
  spec_parse field = (match spec_of_text field with Some s => Some (repr s) | None => None end, false).
Proof.
  unfold spec_parse, spec_of_text.
  destruct field as [|c r]; [reflexivity|].
  destruct (lenN (c :: r) <? 2)%N eqn:Elen.
  { (* one character: neither "-" nor a digit string is a spec *)
    destruct r as [|d r']; [|cbn [lenN] in Elen; lia].
    destruct (c =? 45)%N eqn:E45; [reflexivity|].
    cbn [span]. rewrite E45. reflexivity. }
  destruct (c =? 45)%N eqn:E45.
  - apply N.eqb_eq in E45. subst c.
    rewrite (parse_byte_pos_spec r [] I).
    destruct (pos_value r) as [n|] eqn:En; [|reflexivity].
    apply pos_value_range in En. unfold known_spec, unknown_pos.
    destruct (n >? -1) eqn:E; [reflexivity|lia].
  - destruct (span (fun c0 => negb (c0 =? 45)%N) (c :: r)) as [a rest] eqn:Esp.
    destruct rest as [|d b]; [reflexivity|].
    assert (Hd : d = 45%N).
    { pose proof (span_stop (fun c0 => negb (c0 =? 45)%N) (c :: r)) as Hs. rewrite Esp in Hs. cbn [snd] in Hs. lia. }
    subst d.
    rewrite (parse_byte_pos_spec a (45%N :: b) ltac:(reflexivity)).
    destruct (pos_value a) as [x|] eqn:Ea; [|reflexivity].
    apply pos_value_range in Ea. destruct Ea as (Hx & _ & _). unfold known_spec, unknown_pos.
    destruct (x >? -1) eqn:Ex; [|lia]. cbn [negb].
    destruct b as [|e b']; [reflexivity|].
    rewrite (parse_byte_pos_spec (e :: b') [] I).
    destruct (pos_value (e :: b')) as [y|] eqn:Eb; [|reflexivity].
    apply pos_value_range in Eb. destruct Eb as (Hy & _ & _).
    destruct (y >? -1) eqn:Ey; [|lia]. cbn [negb].
    destruct (y <? x) eqn:Eyx; [reflexivity|].
    unfold repr. destruct (y <? int64_max) eqn:Emax; [|reflexivity].
    rewrite add64_ok by (unfold int64_max, two63 in *; lia). rewrite rng_size_i64_gen by lia.
    destruct (y + 1 >? x) eqn:E; [reflexivity|lia].
Qed.

(* strListGetItem on text without DQUOTE = comma split + trim *)
Definition noq (l : bytes) : bool := forallb (fun c => negb (c =? 34)%N) l.

Lemma delim2_all c : is_delim2 44 c = is_xspace c || (c =? 44)%N.
Proof. unfold is_delim2, is_xspace. lia. Qed.

Lemma scan_noq l acc :
  noq l = true ->
  scan_item 44 false l acc =
  (rev acc ++ fst (span (fun c => negb (c =? 44)%N) l), snd (span (fun c => negb (c =? 44)%N) l)).
Proof.
  revert acc. induction l as [|c r IH]; intros acc Hs; cbn [scan_item span].
  - cbn. now rewrite app_nil_r.
  - cbn [noq forallb] in Hs. apply andb_prop in Hs. destruct Hs as [Hc Hr].
    destruct (c =? 34)%N eqn:E34; [cbn in Hc; discriminate|].
    replace ((c =? 44)%N || (c =? 44)%N) with (c =? 44)%N by (destruct (c =? 44)%N; reflexivity).
    destruct (c =? 44)%N eqn:E44; cbn [negb].
    + cbn. now rewrite app_nil_r.
    + rewrite IH by exact Hr. destruct (span _ r) as [a b]. cbn [fst snd rev].
      now rewrite <- app_assoc.
Qed.

Lemma noq_app a b : noq (a ++ b) = noq a && noq b.
Proof. unfold noq. apply forallb_app. Qed.
Lemma noq_span_fst p l : noq l = true -> noq (fst (span p l)) = true.
Proof. intros H. rewrite <- (span_app p l), noq_app in H. now apply andb_prop in H. Qed.
Lemma noq_span_snd p l : noq l = true -> noq (snd (span p l)) = true.
Proof. intros H. rewrite <- (span_app p l), noq_app in H. now apply andb_prop in H. Qed.
Lemma noq_drop p l : noq l = true -> noq (drop_while p l) = true.
Proof.
  induction l as [|c r IH]; intros H; cbn [drop_while]; [reflexivity|].
  destruct (p c); [|exact H]. apply IH. cbn [noq forallb] in H. now apply andb_prop in H.
Qed.

Lemma elements_drop1 c r : (is_xspace c || (c =? 44)%N) = true -> elements (c :: r) = elements r.
Proof.
  intros H. unfold elements. cbn [split_on].
  destruct (c =? 44)%N eqn:E.
  - cbn [rev map filter]. unfold trim_x at 1. cbn. reflexivity.
  - cbn [orb] in H. rewrite orb_false_r in H.
    rewrite (split_on_acc 44 r [c]). destruct (split_on 44 r []) as [|a t] eqn:Es; [reflexivity|].
    cbn [rev app map]. f_equal. f_equal.
    unfold trim_x. cbn [drop_while]. now rewrite H.
Qed.

Lemma elements_drop l : elements (drop_while (is_delim2 44) l) = elements l.
Proof.
  induction l as [|c r IH]; cbn [drop_while]; [reflexivity|].
  destruct (is_delim2 44 c) eqn:E; [|reflexivity].
  rewrite IH. symmetry. apply elements_drop1. now rewrite <- delim2_all.
Qed.

Lemma trim_first_nonx c a :
  is_xspace c = false -> trim_x (c :: a) = rev (drop_while is_xspace (rev (c :: a))).
Proof. intros H. unfold trim_x. cbn [drop_while]. now rewrite H. Qed.

Lemma rtrim_keeps_head c a : is_xspace c = false -> rev (drop_while is_xspace (rev (c :: a))) <> [].
Proof.
  intros H Hn. assert (E : drop_while is_xspace (rev (c :: a)) = []) by (now rewrite <- (rev_involutive (drop_while _ _)), Hn).
  cbn [rev] in E.
  assert (G : forall l, drop_while is_xspace (l ++ [c]) <> []).
  { induction l as [|x l IH]; cbn [app drop_while]; [now rewrite H|]. destruct (is_xspace x); [exact IH|discriminate]. }
  exact (G _ E).
Qed.

Lemma items_noq n : forall l, (length l <= n)%nat -> noq l = true -> items 44 l = elements l.
Proof.
  induction n as [|n IH]; intros l Hlen Hs; [destruct l; [reflexivity|cbn in Hlen; lia]|].
  rewrite items_eq, <- (elements_drop l).
  pose proof (noq_drop (is_delim2 44) l Hs) as Hs1.
  pose proof (drop_while_length (is_delim2 44) l) as Hl1.
  pose proof (drop_while_stops (is_delim2 44) l) as Hhead.
  destruct (drop_while (is_delim2 44) l) as [|c r]; [reflexivity|].
  rewrite (delim2_all c) in Hhead. apply orb_false_elim in Hhead as [Hcx Hc44].
  rewrite (scan_noq _ [] Hs1). cbn [rev app].
  pose proof (eq_sym (span_app (fun c => negb (c =? 44)%N) (c :: r))) as Hparts.
  pose proof (span_all (fun c => negb (c =? 44)%N) (c :: r)) as Hall.
  pose proof (span_stop (fun c => negb (c =? 44)%N) (c :: r)) as Hstop.
  pose proof (noq_span_snd (fun c => negb (c =? 44)%N) (c :: r) Hs1) as Hsb.
  cbn [span] in *. rewrite Hc44 in *. cbn [negb] in *.
  destruct (span (fun c0 => negb (c0 =? 44)%N) r) as [a b] eqn:Esp. cbn [fst snd] in *.
  unfold rtrim.
  destruct (rev (drop_while is_xspace (rev (c :: a)))) as [|i0 it] eqn:Eit.
  { exfalso. exact (rtrim_keeps_head c a Hcx Eit). }
  assert (Hlenb : (length b <= n)%nat).
  { clear - Hparts Hl1 Hlen. apply (f_equal (@length N)) in Hparts. cbn [length] in Hparts. rewrite app_length in Hparts. cbn [length] in *. lia. }
  rewrite (IH b Hlenb Hsb).
  rewrite Hparts. destruct b as [|k b'].
  + rewrite app_nil_r. unfold elements. rewrite (split_no_comma (c :: a) Hall). cbn [map].
    rewrite (trim_first_nonx c a Hcx), Eit. cbn [filter nonempty]. reflexivity.
  + apply Bool.negb_false_iff, N.eqb_eq in Hstop. subst k.
    rewrite (elements_drop1 44%N b' ltac:(reflexivity)).
    change (elements ((c :: a) ++ 44%N :: b')) with
      (filter nonempty (map trim_x (split_on 44 ((c :: a) ++ 44%N :: b') []))).
    rewrite (split_on_app_comma (c :: a) b' Hall). cbn [map].
    rewrite (trim_first_nonx c a Hcx), Eit. cbn [filter nonempty]. reflexivity.
Qed.

Definition nonul (l : bytes) : bool := forallb (fun c => negb (c =? 0)%N) l.

Lemma c_str_is_nonul l : nonul (c_str l) = true.
Proof. unfold c_str, nonul. apply span_all. Qed.

Lemma nonul_dropN n l : nonul l = true -> nonul (dropN n l) = true.
Proof.
  revert n. induction l as [|c r IH]; intros n H; cbn [dropN]; [reflexivity|].
  destruct (n =? 0)%N; [exact H|]. apply IH. cbn [nonul forallb] in H. now apply andb_prop in H.
Qed.

Theorem list_items_noq l : nonul l = true -> noq l = true -> list_items 44 l = elements l.
Proof.
  intros Hz Hq. rewrite list_items_items, (c_str_id l Hz). now apply (items_noq (length l)).
Qed.

(* text with a DQUOTE: some item / element contains it *)
Lemma drop_while_keeps (p : N -> bool) x m : In x m -> p x = false -> In x (drop_while p m).
Proof.
  induction m as [|y m IH]; intros Hin Hp; [contradiction|]. cbn [drop_while].
  destruct (p y) eqn:E; [|exact Hin]. destruct Hin as [<-|Hin]; [congruence|]. now apply IH.
Qed.

Lemma rtrim_keeps x l : In x l -> is_xspace x = false -> In x (rtrim l).
Proof.
  intros Hin Hp. unfold rtrim. apply (proj1 (in_rev _ x)). apply drop_while_keeps; [|exact Hp].
  apply (proj1 (in_rev _ x)). exact Hin.
Qed.

Lemma trim_x_keeps x l : In x l -> is_xspace x = false -> In x (trim_x l).
Proof.
  intros Hin Hp. unfold trim_x. apply (proj1 (in_rev _ x)). apply drop_while_keeps; [|exact Hp].
  apply (proj1 (in_rev _ x)). now apply drop_while_keeps.
Qed.

Lemma items_quote n : forall l, (length l <= n)%nat -> In 34%N l -> exists it, In it (items 44 l) /\ In 34%N it.
Proof.
  induction n as [|n IH]; intros l Hlen Hin; [destruct l; [contradiction|cbn in Hlen; lia]|].
  rewrite items_eq.
  pose proof (drop_while_keeps (is_delim2 44) 34%N l Hin eq_refl) as Hin1.
  pose proof (drop_while_length (is_delim2 44) l) as Hl1.
  pose proof (drop_while_stops (is_delim2 44) l) as Hhead.
  destruct (drop_while (is_delim2 44) l) as [|c r]; [contradiction|].
  rewrite (delim2_all c) in Hhead. apply orb_false_elim in Hhead as [Hcx Hc44].
  destruct (scan_item 44 false (c :: r) []) as [item rest] eqn:Es.
  (* c is neither comma nor white space: the item starts with it *)
  assert (exists u, r = u ++ rest /\ item = c :: u) as (u & -> & ->).
  { cbn [scan_item] in Es. rewrite Hc44 in Es. cbn [orb] in Es.
    destruct (c =? 34)%N; apply scan_item_split in Es as (u & -> & ->); now exists u. }
  unfold rtrim. destruct (rev (drop_while is_xspace (rev (c :: u)))) as [|i0 it] eqn:Eit.
  { exfalso. exact (rtrim_keeps_head c u Hcx Eit). }
  change (c :: u ++ rest) with ((c :: u) ++ rest) in Hin1. apply in_app_or in Hin1 as [Hi|Hr].
  - exists (i0 :: it). split; [now left|]. rewrite <- Eit. apply (rtrim_keeps 34%N (c :: u) Hi eq_refl).
  - cbn [length] in Hl1. rewrite app_length in Hl1. destruct (IH rest ltac:(lia) Hr) as (x & Hx & Hq).
    exists x. split; [now right|exact Hq].
Qed.

Lemma split_on_in d x : forall l cur, In x (rev cur ++ l) -> x <> d ->
  exists piece, In piece (split_on d l cur) /\ In x piece.
Proof.
  induction l as [|c r IH]; intros cur Hin Hd; cbn [split_on].
  - rewrite app_nil_r in Hin. exists (rev cur). split; [now left|exact Hin].
  - destruct (c =? d)%N eqn:E.
    + apply N.eqb_eq in E. subst c. apply in_app_or in Hin. destruct Hin as [Hc|[Hx|Hr]].
      * exists (rev cur). split; [now left|exact Hc].
      * congruence.
      * destruct (IH [] Hr Hd) as (pc & Hp & Hxp). exists pc. split; [now right|exact Hxp].
    + apply IH; [|exact Hd]. cbn [rev]. rewrite <- app_assoc. exact Hin.
Qed.

Lemma elements_quote l : In 34%N l -> exists el, In el (elements l) /\ In 34%N el.
Proof.
  intros Hin. destruct (split_on_in 44%N 34%N l [] Hin ltac:(discriminate)) as (pc & Hp & Hx).
  exists (trim_x pc). pose proof (trim_x_keeps 34%N pc Hx eq_refl) as Hk. split; [|exact Hk].
  unfold elements. apply filter_In. split; [now apply in_map|].
  destruct (trim_x pc); [contradiction|reflexivity].
Qed.

Lemma pos_value_bad x ds : In x ds -> is_digit x = false -> pos_value ds = None.
Proof.
  intros Hin Hd. unfold pos_value. destruct ds as [|c r]; [reflexivity|].
  assert (forallb is_digit (c :: r) = false) as ->; [|reflexivity].
  destruct (forallb is_digit (c :: r)) eqn:E; [|reflexivity]. rewrite forallb_forall in E. rewrite (E x Hin) in Hd. discriminate.
Qed.

Lemma spec_of_text_quote el : In 34%N el -> spec_of_text el = None.
Proof.
  intros Hin. unfold spec_of_text. destruct el as [|c r]; [reflexivity|].
  destruct (c =? 45)%N eqn:E45.
  - destruct Hin as [Hc|Hr]; [subst c; discriminate|]. now rewrite (pos_value_bad 34%N r Hr eq_refl).
  - pose proof (span_app (fun c0 => negb (c0 =? 45)%N) (c :: r)) as Happ.
    pose proof (span_stop (fun c0 => negb (c0 =? 45)%N) (c :: r)) as Hstop.
    destruct (span (fun c0 => negb (c0 =? 45)%N) (c :: r)) as [a rest]. cbn [fst snd] in *.
    destruct rest as [|d b]; [reflexivity|].
    rewrite <- Happ in Hin. apply in_app_or in Hin. destruct Hin as [Ha|Hb].
    + now rewrite (pos_value_bad 34%N a Ha eq_refl).
    + destruct Hb as [Hd|Hb]; [subst d; discriminate|].
      destruct (pos_value a); [|reflexivity]. destruct b as [|e b']; [contradiction|].
      now rewrite (pos_value_bad 34%N (e :: b') Hb eq_refl).
Qed.

Lemma all_some_none {A B} (f : A -> option B) l x : In x l -> f x = None -> all_some (map f l) = None.
Proof.
  induction l as [|y l IH]; intros Hin Hf; [contradiction|]. cbn [map all_some].
  destruct Hin as [->|Hin]; [now rewrite Hf|]. destruct (f y); [|reflexivity]. now rewrite (IH Hin Hf).
Qed.

Lemma noq_or_quote l : noq l = true \/ In 34%N l.
Proof.
  induction l as [|c r IH]; [now left|]. cbn [noq forallb]. destruct (c =? 34)%N eqn:E.
  - right. left. apply N.eqb_eq in E. now subst.
  - destruct IH as [H|H]; [left; exact H|right; now right].
Qed.

(* whatever the text, Squid's item loop and the comma split agree on validity and on the specs *)
Theorem items_vs_elements l : nonul l = true ->
  all_some (map spec_of_text (list_items 44 l)) = all_some (map spec_of_text (elements l)).
Proof.
  intros Hz. destruct (noq_or_quote l) as [Hq|Hq].
  - now rewrite (list_items_noq l Hz Hq).
  - assert (H1 : all_some (map spec_of_text (list_items 44 l)) = None).
    { rewrite list_items_items, (c_str_id l Hz).
      destruct (items_quote (length l) l (le_n _) Hq) as (it & Hin & H34).
      exact (all_some_none spec_of_text _ it Hin (spec_of_text_quote it H34)). }
    destruct (elements_quote l Hq) as (el & Hin & H34).
    now rewrite H1, (all_some_none spec_of_text _ el Hin (spec_of_text_quote el H34)).
Qed.

(* HttpHdrRange::parseInit *)
Lemma parse_items_spec items : forall acc,
  parse_items items acc false =
  (match all_some (map spec_of_text items) with Some l => rev acc ++ map repr l | None => [] end, false).
Proof.
  induction items as [|it r IH]; intros acc; cbn [parse_items map all_some].
  - now rewrite app_nil_r.
  - rewrite (spec_parse_spec it). destruct (spec_of_text it) as [s|]; [|reflexivity].
    cbn [orb]. rewrite IH. destruct (all_some (map spec_of_text r)) as [l|]; [|reflexivity].
    cbn [rev map]. now rewrite <- app_assoc.
Qed.

Theorem range_parse_spec value :
  range_parse value = (match header_specs value with Some l => Some (map repr l) | None => None end, false).
Proof.
  unfold range_parse, header_specs.
  pose proof (c_str_is_nonul value) as Hz. set (s := c_str value) in *. clearbody s.
  destruct s as [|c0 s']; [reflexivity|].
  destruct (ci_eqb (takeN 6 (c0 :: s')) bytes_eq); [|reflexivity]. cbn [negb].
  rewrite parse_items_spec. cbn [rev app].
  rewrite (items_vs_elements _ (nonul_dropN 6 _ Hz)).
  destruct (all_some (map spec_of_text (elements (dropN 6 (c0 :: s'))))) as [[|x l]|]; reflexivity.
Qed.

(* what spec_of_text means, as a grammar *)
Lemma span_digits_dash d1 rest : forallb is_digit d1 = true ->
  span (fun c => negb (c =? 45)%N) (d1 ++ 45%N :: rest) = (d1, 45%N :: rest).
Proof.
  intros H. apply span_app_stop; [apply span_nodash_digits, H|reflexivity].
Qed.

Lemma spec_of_text_digits_led d1 rest a : pos_value d1 = Some a ->
  spec_of_text (d1 ++ 45%N :: rest) =
  match rest with
  | [] => Some (RFrom a)
  | _ => match pos_value rest with Some y => if y <? a then None else Some (RRange a y) | None => None end
  end.
Proof.
  intros Ha. destruct (pos_value_range d1 a Ha) as (_ & Hd & _).
  destruct d1 as [|c r]; [discriminate|].
  assert (Hc : (c =? 45)%N = false).
  { cbn [forallb] in Hd. apply andb_prop in Hd as [Hc _]. unfold is_digit in Hc. lia. }
  unfold spec_of_text. cbn [app]. rewrite Hc.
  change (c :: r ++ 45%N :: rest) with ((c :: r) ++ 45%N :: rest).
  now rewrite (span_digits_dash (c :: r) rest Hd), Ha.
Qed.

Theorem spec_of_text_meaning el s :
  spec_of_text el = Some s <->
  (exists ds n, el = 45%N :: ds /\ pos_value ds = Some n /\ s = RSuffix n) \/
  (exists d1 a, el = d1 ++ [45%N] /\ pos_value d1 = Some a /\ s = RFrom a) \/
  (exists d1 d2 a b, el = d1 ++ 45%N :: d2 /\ pos_value d1 = Some a /\ pos_value d2 = Some b /\ a <= b /\ s = RRange a b).
Proof.
  split.
  - unfold spec_of_text. destruct el as [|c r]; [discriminate|].
    destruct (c =? 45)%N eqn:E45.
    + apply N.eqb_eq in E45. subst c. destruct (pos_value r) as [n|] eqn:E; [|discriminate]. intros [= <-].
      left. now exists r, n.
    + pose proof (span_app (fun c0 => negb (c0 =? 45)%N) (c :: r)) as Happ.
      pose proof (span_stop (fun c0 => negb (c0 =? 45)%N) (c :: r)) as Hstop.
      destruct (span (fun c0 => negb (c0 =? 45)%N) (c :: r)) as [a rest]. cbn [fst snd] in *.
      destruct rest as [|d b]; [discriminate|]. assert (d = 45%N) by lia. subst d.
      destruct (pos_value a) as [x|] eqn:Ea; [|discriminate].
      destruct b as [|e b'].
      * intros [= <-]. right. left. exists a, x. now rewrite Happ.
      * destruct (pos_value (e :: b')) as [y|] eqn:Eb; [|discriminate].
        destruct (y <? x) eqn:Eyx; [discriminate|]. intros [= <-]. right. right.
        exists a, (e :: b'), x, y. rewrite Happ. repeat split; try assumption; lia.
  - intros [(ds & n & -> & Hn & ->)|[(d1 & a & -> & Ha & ->)|(d1 & d2 & a & b & -> & Ha & Hb & Hab & ->)]].
    + unfold spec_of_text. now rewrite N.eqb_refl, Hn.
    + now rewrite (spec_of_text_digits_led d1 [] a Ha).
    + rewrite (spec_of_text_digits_led d1 d2 a Ha). destruct (pos_value_range d2 b Hb) as (_ & _ & Hne2).
      destruct d2 as [|e d2']; [congruence|]. rewrite Hb. destruct (b <? a) eqn:E; [lia|reflexivity].
Qed.

Definition valid_spec (s : rspec) : Prop :=
  match s with
  | RSuffix n => 0 <= n <= int64_max
  | RFrom a => 0 <= a <= int64_max
  | RRange a b => 0 <= a <= b /\ b <= int64_max
  end.

Lemma spec_of_text_valid el s : spec_of_text el = Some s -> valid_spec s.
Proof.
  intros H.
  apply spec_of_text_meaning in H as [(ds & n & _ & Hn & ->)|[(d1 & a & _ & Ha & ->)|(d1 & d2 & a & b & _ & Ha & Hb & Hab & ->)]];
    cbn [valid_spec].
  - apply pos_value_range in Hn. lia.
  - apply pos_value_range in Ha. lia.
  - apply pos_value_range in Ha, Hb. lia.
Qed.

Definition in_canon (c : Z * Z) (p : Z) : Prop := fst c <= p < fst c + snd c.

Lemma known_nonneg x : 0 <= x -> known_spec x = true.
Proof. unfold known_spec, unknown_pos. lia. Qed.

(* offset and length known: the spec is clipped to the representation *)
Lemma spec_canonize_known clen off len : 0 <= off -> 0 <= len -> off + len <= int64_max -> clen <= int64_max ->
  spec_canonize clen (off, len) =
  let n := Z.max 0 (Z.min clen (off + len) - off) in ((off, n), n >? 0, false).
Proof.
  intros Ho Hl He Hc. unfold spec_canonize. rewrite !known_nonneg by assumption. cbn [negb].
  rewrite !known_nonneg by assumption. cbn [negb orb].
  rewrite add64_ok by (unfold int64_max, two63 in *; lia). unfold rng_intersection. cbn [fst snd].
  rewrite rng_size_i64_gen by lia.
  assert ((if Z.min clen (off + len) >? Z.max 0 off then Z.min clen (off + len) - Z.max 0 off else 0)
          = Z.max 0 (Z.min clen (off + len) - off)) as -> by (destruct (_ >? _) eqn:E; lia).
  reflexivity.
Qed.

(* a suffix, and a range without last-byte-pos, are first given the offset or the length they lack *)
Lemma spec_canonize_suffix clen n : 0 <= n <= int64_max -> -1 <= clen <= int64_max ->
  spec_canonize clen (-1, n) = spec_canonize clen (Z.max 0 (clen - n), n).
Proof.
  intros Hn Hc. unfold spec_canonize. change (known_spec (-1)) with false. cbn [negb].
  rewrite (sub64_ok clen n) by (unfold int64_max, two63 in *; lia). unfold rng_intersection. cbn [fst snd].
  rewrite !known_nonneg by lia. cbn [negb]. rewrite !known_nonneg by lia. reflexivity.
Qed.

Lemma spec_canonize_open clen a : 0 <= a <= int64_max -> -1 <= clen <= int64_max ->
  spec_canonize clen (a, -1) = spec_canonize clen (a, Z.max 0 (clen - a)).
Proof.
  intros Ha Hc. unfold spec_canonize. rewrite (known_nonneg a) by lia. change (known_spec (-1)) with false. cbn [negb].
  unfold rng_intersection. cbn [fst snd]. rewrite rng_size_i64_gen by lia.
  assert ((if Z.min clen clen >? Z.max 0 a then Z.min clen clen - Z.max 0 a else 0) = Z.max 0 (clen - a)) as ->
    by (destruct (_ >? _) eqn:E; lia).
  rewrite !known_nonneg by lia. cbn [negb]. rewrite !known_nonneg by lia. reflexivity.
Qed.

(* one spec: canonize keeps it iff it selects a byte, and then the canonical range is exactly its byte set *)
Theorem spec_canonize_spec clen s : valid_spec s -> -1 <= clen <= int64_max ->
  let '(c, good, ub) := spec_canonize clen (repr s) in
  ub = false /\
  (good = true -> 0 <= fst c /\ 0 < snd c /\ fst c + snd c <= clen /\ forall p, in_canon c p <-> wants clen s p) /\
  (good = false -> forall p, ~ wants clen s p).
Proof.
  intros Hv Hc.
  (* a valid spec asks for the bytes of one interval [off, off + len) that lie in the representation; a
     last-byte-pos of INT64_MAX is kept open-ended, and no byte of the representation lies beyond it *)
  assert (exists off len, spec_canonize clen (repr s) = spec_canonize clen (off, len) /\
            0 <= off /\ 0 <= len /\ off + len <= int64_max /\
            forall p, wants clen s p <-> 0 <= p < clen /\ off <= p < off + len) as (off & len & -> & Ho & Hl & He & Hw).
  { unfold wants. destruct s as [n|a|a b]; cbn [valid_spec] in Hv; cbn [repr].
    - exists (Z.max 0 (clen - n)), n. split; [apply spec_canonize_suffix; lia|]. repeat split; lia.
    - exists a, (Z.max 0 (clen - a)). split; [apply spec_canonize_open; lia|]. repeat split; lia.
    - destruct (b <? int64_max) eqn:Eb.
      + exists a, (b + 1 - a). split; [reflexivity|]. repeat split; lia.
      + exists a, (Z.max 0 (clen - a)). split; [apply spec_canonize_open; lia|]. repeat split; lia. }
  rewrite spec_canonize_known by lia. cbn zeta. unfold in_canon. cbn [fst snd]. split; [reflexivity|]. split.
  - intros G. repeat (split; [lia|]). intros p. rewrite Hw. lia.
  - intros G p Hp. apply Hw in Hp. lia.
Qed.

(* cs is, in order, one exact canonical range per spec that selects at least one byte *)
Inductive canon_of (clen : Z) : list rspec -> list (Z * Z) -> Prop :=
| co_nil : canon_of clen [] []
| co_keep s r c cs :
    0 <= fst c -> 0 < snd c -> fst c + snd c <= clen -> (forall p, in_canon c p <-> wants clen s p) ->
    canon_of clen r cs -> canon_of clen (s :: r) (c :: cs)
| co_drop s r cs : (forall p, ~ wants clen s p) -> canon_of clen r cs -> canon_of clen (s :: r) cs.

Lemma canon_specs_spec clen specs : Forall valid_spec specs -> -1 <= clen <= int64_max ->
  exists cs, canon_specs clen (map repr specs) = (cs, false) /\ canon_of clen specs cs.
Proof.
  intros Hv Hc. induction Hv as [|s r Hs Hr IH]; cbn [map canon_specs].
  - exists []. split; [reflexivity|constructor].
  - destruct IH as (cs & Ecs & Hcs). rewrite Ecs.
    pose proof (spec_canonize_spec clen s Hs Hc) as H.
    destruct (spec_canonize clen (repr s)) as [[c good] ub]. destruct H as (-> & Hg & Hb).
    destruct good.
    + destruct (Hg eq_refl) as (H1 & H2 & H3 & H4). exists (c :: cs). split; [reflexivity|]. now constructor.
    + exists cs. split; [reflexivity|]. apply co_drop; [exact (Hb eq_refl)|exact Hcs].
Qed.

Lemma canon_of_within clen specs cs : canon_of clen specs cs ->
  Forall (fun c => 0 <= fst c /\ 0 < snd c /\ fst c + snd c <= clen) cs.
Proof. induction 1; [constructor|constructor; [repeat split; assumption|assumption]|assumption]. Qed.

Lemma canon_of_union clen specs cs : canon_of clen specs cs ->
  forall p, (exists c, In c cs /\ in_canon c p) <-> (exists s, In s specs /\ wants clen s p).
Proof.
  induction 1 as [|s r c cs H1 H2 H3 H4 Hr IH|s r cs Hn Hr IH]; intros p.
  - split; intros (x & [] & _).
  - split.
    + intros (x & [<-|Hin] & Hp).
      * exists s. split; [now left|now apply H4].
      * destruct (proj1 (IH p) (ex_intro _ x (conj Hin Hp))) as (s' & Hs' & Hw). exists s'. split; [now right|exact Hw].
    + intros (x & [<-|Hin] & Hp).
      * exists c. split; [now left|now apply H4].
      * destruct (proj2 (IH p) (ex_intro _ x (conj Hin Hp))) as (c' & Hc' & Hw). exists c'. split; [now right|exact Hw].
  - split.
    + intros Hx. destruct (proj1 (IH p) Hx) as (s' & Hs' & Hw). exists s'. split; [now right|exact Hw].
    + intros (x & [<-|Hin] & Hp); [exfalso; exact (Hn p Hp)|]. apply IH. now exists x.
Qed.

Lemma all_some_Forall {A B} (f : A -> option B) l xs : all_some (map f l) = Some xs -> Forall2 (fun x y => f x = Some y) l xs.
Proof.
  revert xs. induction l as [|x l IH]; intros xs; cbn [map all_some].
  - intros [= <-]. constructor.
  - destruct (f x) as [y|] eqn:E; [|discriminate]. destruct (all_some (map f l)) as [ys|]; [|discriminate].
    intros [= <-]. constructor; [exact E|now apply IH].
Qed.

Lemma header_specs_valid value specs : header_specs value = Some specs -> Forall valid_spec specs /\ specs <> [].
Proof.
  unfold header_specs. destruct (ci_eqb _ _); [|discriminate].
  destruct (all_some _) as [[|x l]|] eqn:E; try discriminate. intros [= <-]. split; [|discriminate].
  apply all_some_Forall in E. remember (x :: l) as xs. clear Heqxs. induction E as [|el s els ss Hs _ IH]; constructor; [|exact IH].
  exact (spec_of_text_valid el s Hs).
Qed.

Theorem range_run_spec value clen : -1 <= clen <= int64_max ->
  match header_specs value with
  | None => range_run value clen = (None, false)
  | Some specs =>
      exists cs, range_run value clen = (Some (map repr specs, (match cs with [] => false | _ => true end, cs)), false) /\
                 canon_of clen specs cs
  end.
Proof.
  intros Hc. unfold range_run. rewrite range_parse_spec.
  destruct (header_specs value) as [specs|] eqn:Eh; [|reflexivity].
  destruct (header_specs_valid value specs Eh) as [Hv _].
  destruct (canon_specs_spec clen specs Hv Hc) as (cs & Ecs & Hcs).
  exists cs. split; [|exact Hcs]. unfold range_canonize. now rewrite Ecs.
Qed.

(* an invalid element anywhere in the list makes the header ignored *)
Theorem invalid_spec_ignores_header value clen el :
  ci_eqb (takeN 6 (c_str value)) bytes_eq = true ->
  In el (elements (dropN 6 (c_str value))) -> spec_of_text el = None ->
  range_run value clen = (None, false).
Proof.
  intros Hb Hin Hn. unfold range_run. rewrite range_parse_spec. unfold header_specs. rewrite Hb.
  now rewrite (all_some_none spec_of_text _ el Hin Hn).
Qed.

Theorem range_no_overflow value clen : -1 <= clen <= int64_max -> snd (range_run value clen) = false.
Proof.
  intros Hc. pose proof (range_run_spec value clen Hc) as H.
  destruct (header_specs value); [destruct H as (cs & -> & _)|rewrite H]; reflexivity.
Qed.

(* the headline form: within the representation, non-empty, and covering exactly the requested bytes *)
Theorem range_canon_exact value clen specs : -1 <= clen <= int64_max -> header_specs value = Some specs ->
  exists cs, range_run value clen = (Some (map repr specs, (match cs with [] => false | _ => true end, cs)), false) /\
    Forall (fun c => 0 <= fst c /\ 0 < snd c /\ fst c + snd c <= clen) cs /\
    (forall p, (exists c, In c cs /\ in_canon c p) <-> (exists s, In s specs /\ wants clen s p)).
Proof.
  intros Hc Hh. pose proof (range_run_spec value clen Hc) as H. rewrite Hh in H. destruct H as (cs & Hr & Hcs).
  exists cs. split; [exact Hr|]. split; [exact (canon_of_within _ _ _ Hcs)|exact (canon_of_union _ _ _ Hcs)].
Qed.
