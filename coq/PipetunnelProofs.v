(* PipetunnelProofs.v — proofs about PipetunnelModel.v (C05 pipeline sequencing, C06 tunnel relay). *)
Require Import SquidV.Bytes SquidV.PipetunnelModel.
Require Import SquidV.gen.Pipetunnel_gen.
Require Import ZifyBool ZifyN ZifyNat.
Local Open Scope N_scope.

Arguments heads : simpl never.

Lemma heads_app a b : heads (a ++ b) = heads a ++ heads b.
Proof. unfold heads. apply flat_map_app. Qed.

Lemma feed_body_heads need l : heads (snd (feed_body need l)) = heads l.
Proof.
  revert need; induction l as [|it l IH]; intros need; cbn [feed_body]; [reflexivity|].
  destruct it as [r|n]; [reflexivity|].
  destruct (need =? 0); [reflexivity|].
  destruct (n <=? need); [rewrite IH; reflexivity| reflexivity].
Qed.

Lemma feed_body_length need l : (length (snd (feed_body need l)) <= length l)%nat.
Proof.
  revert need; induction l as [|it l IH]; intros need; cbn [feed_body]; [cbn; lia|].
  destruct it as [r|n]; [cbn; lia|].
  destruct (need =? 0); [cbn; lia|].
  destruct (n <=? need); [specialize (IH (need - n)); cbn [length]; lia| cbn; lia].
Qed.

Lemma pick_spec i l b s a : pick i l = Some (b, s, a) -> l = b ++ s :: a /\ rq_id (st_req s) = i.
Proof.
  revert b; induction l as [|x l IH]; intros b H; cbn [pick] in H; [discriminate|].
  destruct (rq_id (st_req x) =? i) eqn:E.
  - inversion H; subst. apply N.eqb_eq in E. split; [reflexivity| exact E].
  - destruct (pick i l) as [[[b' s'] a']|] eqn:P; [|discriminate].
    inversion H; subst. destruct (IH _ eq_refl) as [-> Hid]. split; [reflexivity| exact Hid].
Qed.

Definition si (s : stream) : Prop := rq_resp (st_req s) = st_taken s ++ st_todo s.

(* a stream that is not the front of the pipeline has written nothing; it either still waits for its first
   element or holds exactly that element deferred *)
Definition nf_ok (s : stream) : Prop :=
  st_outsz s = 0 /\
  ((st_taken s = [] /\ st_deferred s = None /\ st_waiting s = true) \/
   (exists ch, st_taken s = [ch] /\ st_deferred s = Some ch /\ st_waiting s = false)).

Definition todo_ok (s : stream) : Prop :=
  st_waiting s = true -> rq_resp (st_req s) <> [] -> st_todo s <> [].

Definition done_bytes (c : conn) : bytes := concat (map resp_bytes (c_done c)).

Definition front_ok (c : conn) : Prop :=
  match c_pipe c with
  | [] => c_writing c = None /\ c_out c = done_bytes c
  | f :: _ =>
      (st_waiting f = true /\ c_writing c = None /\ c_out c = done_bytes c ++ concat (st_taken f)) \/
      (st_waiting f = false /\ exists t' ch, st_taken f = t' ++ [ch] /\ c_writing c = Some ch /\
                                           c_out c = done_bytes c ++ concat t')
  end.

Definition closed_ok (c : conn) : Prop :=
  c_writing c = None /\ c_out c = done_bytes c /\
  exists d r, c_done c = d ++ [r] /\ rq_keep r = false.

Definition Inv (c : conn) : Prop :=
  c_crashed c = false /\
  Forall si (c_pipe c) /\
  Forall nf_ok (tl (c_pipe c)) /\
  Forall todo_ok (c_pipe c) /\
  (c_open c = true -> front_ok c) /\
  (c_open c = false -> closed_ok c) /\
  c_seen c = c_done c ++ map st_req (c_pipe c) ++ heads (c_inbuf c) /\
  Forall (fun r => rq_keep r = true) (removelast (c_done c)) /\
  (c_open c = true -> Forall (fun r => rq_keep r = true) (c_done c)) /\
  c_readmore c = true.

Lemma new_stream_si r : si (new_stream r).
Proof. reflexivity. Qed.
Lemma new_stream_nf r : nf_ok (new_stream r).
Proof. split; [reflexivity|]. left. repeat split. Qed.
Lemma new_stream_todo r : todo_ok (new_stream r).
Proof. intros _ H. exact H. Qed.

Lemma heads_cons_body n l : heads (IBody n :: l) = heads l.
Proof. reflexivity. Qed.

(* what parse_requests does: it moves some request heads from inBuf to the end of the pipeline *)
Definition parse_rel (c c' : conn) (rs : list req) : Prop :=
  c_pipe c' = c_pipe c ++ map new_stream rs /\
  heads (c_inbuf c) = rs ++ heads (c_inbuf c') /\
  c_open c' = c_open c /\ c_writing c' = c_writing c /\ c_out c' = c_out c /\ c_done c' = c_done c /\
  c_seen c' = c_seen c /\ c_crashed c' = c_crashed c /\ c_readmore c' = c_readmore c.

Lemma parse_rel_refl c : parse_rel c c [].
Proof. unfold parse_rel. cbn. rewrite app_nil_r. repeat split. Qed.

Lemma parse_rel_trans c c1 c' rs1 rs : parse_rel c c1 rs1 -> parse_rel c1 c' rs -> parse_rel c c' (rs1 ++ rs).
Proof.
  intros (Hp & Hh & Ho & Hw & Hout & Hd & Hs & Hc & Hr) (Hp' & Hh' & Ho' & Hw' & Hout' & Hd' & Hs' & Hc' & Hr').
  unfold parse_rel. rewrite Hp', Hp, Hh, Hh', Ho', Ho, Hw', Hw, Hout', Hout, Hd', Hd, Hs', Hs, Hc', Hc, Hr', Hr.
  rewrite map_app, <- !app_assoc. repeat split.
Qed.

Lemma parse_spec fuel pf c : exists rs, parse_rel c (parse_requests fuel pf c) rs.
Proof.
  revert c; induction fuel as [|f IH]; intros c; [exists []; apply parse_rel_refl|].
  cbn [parse_requests].
  destruct (c_inbuf c) as [|it rest] eqn:Ein; [exists []; apply parse_rel_refl|].
  destruct (negb (c_bodyneed c =? 0) || negb (c_readmore c)); [exists []; apply parse_rel_refl|].
  destruct (queue_filled pf c); [exists []; apply parse_rel_refl|].
  destruct it as [r|n]; [|exists []; apply parse_rel_refl].
  (* each way on moves the one head r *)
  assert (One : forall rest' need, heads rest' = heads rest ->
            parse_rel c (mkConn rest' (c_pipe c ++ [new_stream r]) (c_nreq c + 1) need (c_readmore c) (c_open c)
                                (c_writing c) (c_out c) (c_done c) (c_seen c) (c_crashed c)) [r]).
  { intros rest' need E. unfold parse_rel. cbn [c_inbuf c_pipe]. rewrite Ein, E. repeat split. }
  destruct (rq_body r =? 0).
  - edestruct IH as [rs H]. exists ([r] ++ rs). eapply parse_rel_trans; [apply One; reflexivity| exact H].
  - pose proof (feed_body_heads (rq_body r) rest) as Hfh.
    destruct (feed_body (rq_body r) rest) as [need rest']. cbn [snd] in Hfh.
    destruct (need =? 0).
    + edestruct IH as [rs H]. exists ([r] ++ rs). eapply parse_rel_trans; [apply One; exact Hfh| exact H].
    + exists [r]. apply One. exact Hfh.
Qed.

Lemma Forall_tl {A} (P : A -> Prop) l : Forall P l -> Forall P (tl l).
Proof. destruct l; cbn; [auto| intros H; inversion H; assumption]. Qed.

Lemma Forall_new (P : stream -> Prop) p rs :
  (forall r, P (new_stream r)) -> Forall P p -> Forall P (p ++ map new_stream rs).
Proof.
  intros Hn Hp. apply Forall_app. split; [assumption|]. apply Forall_map, Forall_forall. intros r _. apply Hn.
Qed.

Lemma Forall_mid {A} (P : A -> Prop) b s s' a : Forall P (b ++ s :: a) -> (P s -> P s') -> Forall P (b ++ s' :: a).
Proof.
  intros H Hs. apply Forall_app in H as [Hb Ha]. inversion Ha; subst.
  apply Forall_app. split; [assumption|]. constructor; auto.
Qed.

(* Inv is the case popped = false. popped = true is the state between Pipeline::popMe and ConnStateData::kick:
   the front stream finished and is gone, no write is pending, everything written so far is the complete
   responses of the finished streams, and every remaining stream is in the not-front state *)
Definition InvP (popped : bool) (c : conn) : Prop :=
  c_crashed c = false /\
  Forall si (c_pipe c) /\
  Forall nf_ok (if popped then c_pipe c else tl (c_pipe c)) /\
  Forall todo_ok (c_pipe c) /\
  (c_open c = true -> if popped then c_writing c = None /\ c_out c = done_bytes c else front_ok c) /\
  (c_open c = false -> closed_ok c) /\
  c_seen c = c_done c ++ map st_req (c_pipe c) ++ heads (c_inbuf c) /\
  Forall (fun r => rq_keep r = true) (removelast (c_done c)) /\
  (c_open c = true -> Forall (fun r => rq_keep r = true) (c_done c)) /\
  c_readmore c = true.

(* appending freshly parsed streams keeps the invariant *)
Lemma inv_extend b c c' rs : InvP b c -> parse_rel c c' rs -> InvP b c'.
Proof.
  intros (Icr & Isi & Itl & Itd & Ifr & Icl & Iseen & Ikl & Iko & Irm) (Hp & Hh & Ho & Hw & Hout & Hd & Hs & Hc & Hr).
  unfold InvP, front_ok, closed_ok, done_bytes in *. rewrite Hp, Ho, Hw, Hout, Hd, Hs, Hc, Hr.
  split; [assumption|]. split; [apply Forall_new; [exact new_stream_si| assumption]|].
  split.
  { destruct b, (c_pipe c) as [|f p]; try (apply Forall_new; [exact new_stream_nf| assumption]).
    apply Forall_tl, (Forall_new nf_ok []); [exact new_stream_nf| constructor]. }
  split; [apply Forall_new; [exact new_stream_todo| assumption]|].
  split.
  { intros Hop. specialize (Ifr Hop). destruct b, (c_pipe c) as [|f p], rs as [|r rs]; try assumption.
    (* the first parsed request becomes the front: it has delivered nothing yet *)
    left. cbn. rewrite app_nil_r. destruct Ifr as [-> ->]. repeat split. }
  split; [assumption|]. split.
  { rewrite Iseen, Hh, map_app, map_map. cbn [st_req new_stream]. rewrite map_id, <- !app_assoc. reflexivity. }
  repeat split; assumption.
Qed.

Lemma parse_inv fuel pf c : Inv c -> Inv (parse_requests fuel pf c).
Proof. intros H. destruct (parse_spec fuel pf c) as [rs X]. exact (inv_extend false _ _ _ H X). Qed.

Lemma inv0 : Inv conn0.
Proof.
  unfold Inv, conn0; cbn. repeat split; try constructor; try discriminate.
Qed.

(* only inBuf / nrequests / bodyPipe bookkeeping changed *)
Lemma inv_congr c c' :
  Inv c -> c_pipe c' = c_pipe c -> c_open c' = c_open c -> c_writing c' = c_writing c -> c_out c' = c_out c ->
  c_done c' = c_done c -> c_crashed c' = c_crashed c -> c_readmore c' = c_readmore c ->
  c_seen c' = c_done c' ++ map st_req (c_pipe c') ++ heads (c_inbuf c') -> Inv c'.
Proof.
  intros (Icr & Isi & Itl & Itd & Ifr & Icl & Iseen & Ikl & Iko & Irm) Hp Ho Hw Hout Hd Hc Hr Hs.
  unfold Inv, front_ok, closed_ok, done_bytes in *. rewrite Hs, Hp, Ho, Hw, Hout, Hd, Hc, Hr.
  repeat (split; [assumption|]). split; [reflexivity|]. repeat (split; [assumption|]). assumption.
Qed.

Lemma on_read_inv pf items c : Inv c -> Inv (on_read pf items c).
Proof.
  intros H. unfold on_read.
  assert (Iseen : c_seen c = c_done c ++ map st_req (c_pipe c) ++ heads (c_inbuf c)) by apply H.
  destruct (negb (c_open c)).
  - eapply inv_congr; [exact H|reflexivity..|].
    cbn [c_seen c_done c_pipe c_inbuf]. rewrite heads_app, Iseen, <- !app_assoc. reflexivity.
  - destruct (if c_bodyneed c =? 0 then (0, c_inbuf c ++ items) else feed_body (c_bodyneed c) (c_inbuf c ++ items))
      as [need inb'] eqn:Ef.
    apply parse_inv.
    assert (Hh : heads inb' = heads (c_inbuf c ++ items)).
    { destruct (c_bodyneed c =? 0).
      - inversion Ef; reflexivity.
      - pose proof (feed_body_heads (c_bodyneed c) (c_inbuf c ++ items)) as X. rewrite Ef in X. exact X. }
    eapply inv_congr; [exact H|reflexivity..|].
    cbn [c_seen c_done c_pipe c_inbuf]. rewrite Hh, heads_app, Iseen, <- !app_assoc. reflexivity.
Qed.

Ltac projs := cbn [c_inbuf c_pipe c_nreq c_bodyneed c_readmore c_open c_writing c_out c_done c_seen c_crashed
                      st_req st_todo st_taken st_deferred st_waiting st_outsz tl set_pipe set_crashed].
Ltac projs_in H := cbn [c_inbuf c_pipe c_nreq c_bodyneed c_readmore c_open c_writing c_out c_done c_seen c_crashed
                      st_req st_todo st_taken st_deferred st_waiting st_outsz tl set_pipe set_crashed] in H.

(* what a step that only moves response data (on_data, the tail of kick, on_wrote short of a pop) leaves alone *)
Definition quiet (c c' : conn) : Prop :=
  c_open c' = c_open c /\ c_done c' = c_done c /\ c_seen c' = c_seen c /\ c_readmore c' = c_readmore c /\
  c_inbuf c' = c_inbuf c /\ c_bodyneed c' = c_bodyneed c /\ map st_req (c_pipe c') = map st_req (c_pipe c).

(* after such a step on an open connection only the streams and the socket have to be looked at *)
Lemma inv_open b c c' :
  InvP b c -> c_open c = true -> quiet c c' -> c_crashed c' = false ->
  Forall si (c_pipe c') -> Forall nf_ok (tl (c_pipe c')) -> Forall todo_ok (c_pipe c') -> front_ok c' -> Inv c'.
Proof.
  intros (_ & _ & _ & _ & _ & _ & Iseen & Ikl & Iko & Irm) Eo (Ho & Hd & Hs & Hr & Hi & _ & Hm) Hc Hsi Hnf Htd Hfr.
  unfold Inv. rewrite Ho, Hd, Hs, Hr, Hi, Hm, Eo.
  repeat (split; [assumption|]). split; [intros _; exact Hfr|]. split; [discriminate|].
  repeat (split; [assumption|]). split; [intros _; exact (Iko Eo)| assumption].
Qed.

Lemma on_data_inv i c : Inv c -> Inv (on_data i c).
Proof.
  intros H. unfold on_data.
  destruct (c_open c) eqn:Eo; cbn [negb]; [|assumption].
  destruct (c_pipe c) as [|f tl0] eqn:Ep; [assumption|].
  pose proof H as (Icr & Isi & Itl & Itd & Ifr & _).
  specialize (Ifr Eo). unfold front_ok in Ifr. rewrite Ep in *. cbn [tl] in Itl.
  destruct (rq_id (st_req f) =? i).
  - (* the front stream delivers *)
    destruct (st_waiting f) eqn:Ew; [|assumption].
    destruct (st_todo f) as [|ch more] eqn:Et; [assumption|].
    destruct Ifr as [(_ & Hwr & Hout) | (Hw & _)]; [|discriminate].
    unfold start_write. projs. rewrite Hwr.
    inversion Isi as [|? ? Hsf Hsr]; subst. inversion Itd as [|? ? Htf Htr]; subst.
    apply (inv_open false c); [exact H|exact Eo|unfold quiet; rewrite Ep; repeat split|exact Icr|..]; projs.
    + constructor; [|assumption]. unfold si in *; projs. rewrite Hsf, Et, <- app_assoc. reflexivity.
    + assumption.
    + constructor; [|assumption]. intros X; projs_in X; discriminate.
    + right. split; [reflexivity|]. exists (st_taken f), ch. repeat split. exact Hout.
  - (* a stream behind the front delivers: deferRecipientForLater *)
    destruct (pick i tl0) as [[[b s] a]|] eqn:Epk; [|assumption].
    destruct (pick_spec _ _ _ _ _ Epk) as [-> _].
    destruct (st_waiting s) eqn:Ew; [|assumption].
    destruct (st_todo s) as [|ch more] eqn:Et; [assumption|].
    destruct (Forall_elt _ _ _ Itl) as [Hsz [(Htk & Hdf & _) | (ch' & _ & _ & Hw')]]; [|congruence].
    rewrite Hdf.
    apply (inv_open false c); [exact H|exact Eo| |exact Icr|..]; projs.
    + unfold quiet; projs. rewrite Ep. cbn [map]. rewrite !map_app. repeat split.
    + apply (Forall_mid si (f :: b) s); [exact Isi|]. unfold si; projs. intros ->. rewrite Et, <- app_assoc. reflexivity.
    + apply (Forall_mid nf_ok b s); [exact Itl|]. intros _. split; [exact Hsz|]. right. exists ch. projs. rewrite Htk. repeat split.
    + apply (Forall_mid todo_ok (f :: b) s); [exact Itd|]. intros _ X; projs_in X; discriminate.
    + exact Ifr.
Qed.

Lemma kick_inv pf c : InvP true c -> Inv (kick pf c).
Proof.
  intros H. unfold kick. destruct (c_open c) eqn:Eo; cbn [negb].
  2:{ destruct H as (Icr & Isi & Inf & Itd & _ & Icl & Iseen & Ikl & _ & Irm). unfold Inv. rewrite Eo.
      split; [assumption|]. split; [assumption|]. split; [apply Forall_tl; assumption|]. split; [assumption|].
      split; [discriminate|]. split; [intros _; exact (Icl Eo)|]. repeat (split; [assumption|]). split; [discriminate| assumption]. }
  destruct (parse_spec (parse_fuel c) pf c) as [rs X].
  assert (Eo1 : c_open (parse_requests (parse_fuel c) pf c) = true) by (rewrite <- Eo; apply X).
  apply (inv_extend true _ _ _ H) in X. clear H Eo.
  set (c1 := parse_requests (parse_fuel c) pf c) in *.
  pose proof X as (Icr & Isi & Inf & Itd & Ifr & _). destruct (Ifr Eo1) as [Hw1 Hout1].
  destruct (c_pipe c1) as [|f p] eqn:Ep1.
  - apply (inv_open true c1); [exact X|exact Eo1|repeat split|exact Icr|rewrite Ep1; constructor..|].
    unfold front_ok. rewrite Ep1. split; assumption.
  - inversion Inf as [|? ? Hnf Hnp]; subst.
    destruct Hnf as [Hsz [(Htk & Hdf & Hwt) | (ch & Htk & Hdf & Hwt)]]; rewrite Hdf.
    + apply (inv_open true c1); [exact X|exact Eo1|repeat split|exact Icr|rewrite Ep1; assumption..|].
      unfold front_ok. rewrite Ep1, Htk. left. cbn [concat]. rewrite app_nil_r. repeat split; assumption.
    + (* the new front had deferred its first element: it is written now *)
      rewrite Hsz. cbn [N.eqb]. unfold start_write. rewrite Hw1.
      apply (inv_open true c1); [exact X|exact Eo1|repeat split|exact Icr|projs; rewrite Ep1; assumption..|].
      unfold front_ok; projs. rewrite Ep1, Htk. right. split; [assumption|]. exists [], ch.
      cbn [app concat]. rewrite app_nil_r. repeat split; assumption.
Qed.

Lemma on_wrote_inv pf c : Inv c -> Inv (on_wrote pf c).
Proof.
  intros H. unfold on_wrote.
  destruct (c_open c) eqn:Eo; cbn [negb]; [|assumption].
  destruct (c_writing c) as [ch|] eqn:Ewr; [|assumption].
  pose proof H as (Icr & Isi & Itl & Itd & Ifr & Icl & Iseen & Ikl & Iko & Irm).
  specialize (Ifr Eo). unfold front_ok in Ifr.
  destruct (c_pipe c) as [|f tl0] eqn:Ep.
  { destruct Ifr as [X _]. congruence. }
  cbn [tl] in Itl.
  destruct Ifr as [(_ & X & _) | (Hw & t' & ch' & Htk & Hwr & Hout)]; [congruence|].
  assert (ch' = ch) by congruence. subst ch'. clear Hwr.
  inversion Isi as [|? ? Hsf Hsr]; subst. inversion Itd as [|? ? Htf Htr]; subst.
  destruct (st_todo f) as [|c2 more] eqn:Et.
  - (* STREAM_COMPLETE *)
    assert (Hout' : c_out c ++ ch = concat (map resp_bytes (c_done c ++ [st_req f]))).
    { rewrite map_app, concat_app. cbn [map concat]. rewrite app_nil_r.
      unfold resp_bytes at 2. unfold si in Hsf. rewrite Hsf, Et, app_nil_r, Htk, concat_app. cbn [concat]. rewrite app_nil_r.
      unfold done_bytes in Hout. rewrite Hout, <- app_assoc. reflexivity. }
    apply kick_inv. unfold InvP, closed_ok, done_bytes; projs.
    repeat (split; [assumption|]). split; [split; [reflexivity| exact Hout']|].
    split; [intros Hk; repeat split; [exact Hout'|]; exists (c_done c), (st_req f); split; [reflexivity| exact Hk]|].
    split; [rewrite Iseen; cbn [map]; rewrite <- !app_assoc; reflexivity|].
    split; [rewrite removelast_last; apply Iko; exact Eo|].
    split; [|assumption].
    intros Hk. apply Forall_app. split; [apply Iko; exact Eo|]. constructor; [exact Hk| constructor].
  - (* STREAM_NONE: pullData *)
    apply (inv_open false c); [exact H|exact Eo|unfold quiet; rewrite Ep, Eo; repeat split|exact Icr|..]; projs.
    + constructor; [|assumption]. unfold si in *; projs. rewrite Hsf, Et. reflexivity.
    + assumption.
    + constructor; [|assumption]. intros _ _; projs. discriminate.
    + unfold front_ok, done_bytes in *; projs. left. repeat split. rewrite Hout, Htk, concat_app. cbn [concat].
      rewrite app_nil_r, <- app_assoc. reflexivity.
Qed.

Lemma pstep_inv pf e c : Inv c -> Inv (pstep pf e c).
Proof.
  destruct e; cbn [pstep]; [apply on_read_inv | apply on_data_inv | apply on_wrote_inv].
Qed.

Lemma prun_inv pf evs c : Inv c -> Inv (prun pf evs c).
Proof.
  revert c; induction evs as [|e evs IH]; intros c H; cbn [prun fold_left]; [assumption|].
  apply IH. apply pstep_inv. assumption.
Qed.

Lemma quiet_refl c : quiet c c.
Proof. repeat split. Qed.

Lemma on_data_quiet i c : quiet c (on_data i c).
Proof.
  unfold on_data. destruct (negb (c_open c)); [apply quiet_refl|].
  destruct (c_pipe c) as [|f tl0] eqn:Ep; [apply quiet_refl|].
  destruct (rq_id (st_req f) =? i).
  - destruct (st_waiting f); [|apply quiet_refl]. destruct (st_todo f); [apply quiet_refl|].
    unfold start_write, quiet; projs. rewrite Ep. destruct (c_writing c); repeat split.
  - destruct (pick i tl0) as [[[b s] a]|] eqn:Epk; [|apply quiet_refl].
    destruct (pick_spec _ _ _ _ _ Epk) as [-> _].
    destruct (st_waiting s); [|apply quiet_refl]. destruct (st_todo s); [apply quiet_refl|].
    destruct (st_deferred s); [repeat split|].
    unfold quiet; projs. rewrite Ep. cbn [map]. rewrite !map_app. repeat split.
Qed.

Lemma kick_closed pf c : c_open c = false -> kick pf c = c.
Proof. intros Eo. unfold kick. rewrite Eo. reflexivity. Qed.

(* on an open connection kick is parse_requests, then possibly the deferred write *)
Lemma kick_quiet pf c : c_open c = true -> quiet (parse_requests (parse_fuel c) pf c) (kick pf c).
Proof.
  intros Eo. unfold kick. rewrite Eo. cbn [negb].
  destruct (c_pipe _) as [|f p]; [apply quiet_refl|].
  destruct (st_deferred f); [|apply quiet_refl].
  unfold start_write. destruct (st_outsz f =? 0); [destruct (c_writing _)|]; repeat split.
Qed.

Lemma kick_seen_done pf c : c_seen (kick pf c) = c_seen c /\ c_done (kick pf c) = c_done c.
Proof.
  destruct (c_open c) eqn:Eo; [|rewrite kick_closed; [split; reflexivity| exact Eo]].
  destruct (kick_quiet pf c Eo) as (_ & -> & -> & _).
  destruct (parse_spec (parse_fuel c) pf c) as [rs X]. split; apply X.
Qed.

Lemma pstep_seen pf e c :
  c_seen (pstep pf e c) = c_seen c ++ match e with ERead items => heads items | _ => [] end.
Proof.
  destruct e as [items|i|]; cbn [pstep]; rewrite ?app_nil_r.
  - unfold on_read. destruct (negb (c_open c)); [reflexivity|].
    destruct (if c_bodyneed c =? 0 then _ else _) as [need inb'].
    match goal with |- context [parse_requests ?fu pf ?c1] => destruct (parse_spec fu pf c1) as [rs X] end.
    destruct X as (_ & _ & _ & _ & _ & _ & Hs & _). rewrite Hs. reflexivity.
  - apply on_data_quiet.
  - unfold on_wrote. destruct (negb (c_open c)); [reflexivity|].
    destruct (c_writing c); [|reflexivity]. destruct (c_pipe c) as [|f tl0]; [reflexivity|].
    destruct (st_todo f); [|reflexivity]. exact (proj1 (kick_seen_done pf _)).
Qed.

Lemma prun_seen pf evs c : c_seen (prun pf evs c) = c_seen c ++ reqs_of evs.
Proof.
  revert c; induction evs as [|e evs IH]; intros c; cbn [prun fold_left reqs_of flat_map].
  - rewrite app_nil_r. reflexivity.
  - fold (prun pf evs (pstep pf e c)). rewrite IH, pstep_seen, <- app_assoc. reflexivity.
Qed.

(* the socket output is: the complete responses of the finished requests, in request order, followed by a
   block-aligned prefix of the next request's own response *)
Definition ordered_output (reqs : list req) (out : bytes) : Prop :=
  exists done more cur,
    reqs = done ++ more /\
    out = concat (map resp_bytes done) ++ concat cur /\
    (cur = [] \/ exists r more' todo, more = r :: more' /\ rq_resp r = cur ++ todo).

Lemma inv_ordered c : Inv c -> ordered_output (c_seen c) (c_out c).
Proof.
  intros (Icr & Isi & Itl & Itd & Ifr & Icl & Iseen & Ikl & Iko & Irm).
  destruct (c_open c) eqn:Eo.
  - specialize (Ifr eq_refl). unfold front_ok in Ifr.
    destruct (c_pipe c) as [|f p] eqn:Ep.
    + destruct Ifr as [_ Hout]. exists (c_done c), (map st_req [] ++ heads (c_inbuf c)), [].
      split; [exact Iseen|]. split; [cbn; rewrite app_nil_r; exact Hout| left; reflexivity].
    + inversion Isi as [|? ? Hsf _]; subst. unfold si in Hsf.
      destruct Ifr as [(_ & _ & Hout) | (_ & t' & ch & Htk & _ & Hout)].
      * exists (c_done c), (map st_req (f :: p) ++ heads (c_inbuf c)), (st_taken f).
        split; [exact Iseen|]. split; [exact Hout|]. right.
        exists (st_req f), (map st_req p ++ heads (c_inbuf c)), (st_todo f). split; [reflexivity| exact Hsf].
      * exists (c_done c), (map st_req (f :: p) ++ heads (c_inbuf c)), t'.
        split; [exact Iseen|]. split; [exact Hout|]. right.
        exists (st_req f), (map st_req p ++ heads (c_inbuf c)), ([ch] ++ st_todo f).
        split; [reflexivity|]. rewrite Hsf, Htk, <- app_assoc. reflexivity.
  - destruct (Icl eq_refl) as (_ & Hout & _).
    exists (c_done c), (map st_req (c_pipe c) ++ heads (c_inbuf c)), [].
    split; [exact Iseen|]. split; [cbn; rewrite app_nil_r; exact Hout| left; reflexivity].
Qed.

Theorem pipeline_order pf evs :
  ordered_output (reqs_of evs) (c_out (prun pf evs conn0)).
Proof.
  pose proof (prun_inv pf evs conn0 inv0) as H. apply inv_ordered in H.
  rewrite prun_seen in H. exact H.
Qed.

Lemma ordered_prefix reqs out :
  ordered_output reqs out -> exists rest, concat (map resp_bytes reqs) = out ++ rest.
Proof.
  intros (done & more & cur & -> & -> & H).
  rewrite map_app, concat_app.
  destruct H as [-> | (r & more' & todo & -> & Hr)].
  - exists (concat (map resp_bytes more)). cbn. rewrite app_nil_r. reflexivity.
  - exists (concat todo ++ concat (map resp_bytes more')). cbn [map concat].
    unfold resp_bytes at 2. rewrite Hr, concat_app, <- !app_assoc. reflexivity.
Qed.

Theorem output_is_prefix pf evs :
  exists rest, concat (map resp_bytes (reqs_of evs)) = c_out (prun pf evs conn0) ++ rest.
Proof. apply ordered_prefix. apply pipeline_order. Qed.

Theorem no_assertion_failure pf evs : c_crashed (prun pf evs conn0) = false.
Proof. pose proof (prun_inv pf evs conn0 inv0) as H. apply H. Qed.

Lemma parse_bound fuel pf c :
  lenN (c_pipe c) <= pf + 1 -> lenN (c_pipe (parse_requests fuel pf c)) <= pf + 1.
Proof.
  revert c; induction fuel as [|f IH]; intros c H; cbn [parse_requests]; [assumption|].
  destruct (c_inbuf c) as [|it rest]; [assumption|].
  destruct (negb (c_bodyneed c =? 0) || negb (c_readmore c)); [assumption|].
  unfold queue_filled. destruct (pf + 1 <=? lenN (c_pipe c)) eqn:Ef; [assumption|].
  apply N.leb_gt in Ef.
  destruct it as [r|n]; [|assumption].
  destruct (rq_body r =? 0).
  - apply IH. projs. rewrite lenN_snoc. lia.
  - destruct (feed_body (rq_body r) rest) as [need rest'].
    destruct (need =? 0); [apply IH|]; projs; rewrite lenN_snoc; lia.
Qed.

Lemma quiet_bound pf c c' : quiet c c' -> lenN (c_pipe c) <= pf + 1 -> lenN (c_pipe c') <= pf + 1.
Proof. intros (_ & _ & _ & _ & _ & _ & Hm). rewrite <- (lenN_map st_req (c_pipe c')), Hm, lenN_map. auto. Qed.

Lemma kick_bound pf c : lenN (c_pipe c) <= pf + 1 -> lenN (c_pipe (kick pf c)) <= pf + 1.
Proof.
  intros H. destruct (c_open c) eqn:Eo; [|rewrite kick_closed; assumption].
  apply (quiet_bound pf _ _ (kick_quiet pf c Eo)), parse_bound, H.
Qed.

Lemma pstep_bound pf e c : lenN (c_pipe c) <= pf + 1 -> lenN (c_pipe (pstep pf e c)) <= pf + 1.
Proof.
  intros H. destruct e as [items|i|]; cbn [pstep].
  - unfold on_read. destruct (negb (c_open c)); [assumption|].
    destruct (if c_bodyneed c =? 0 then _ else _) as [need inb']. apply parse_bound. assumption.
  - apply (quiet_bound pf c), H. apply on_data_quiet.
  - unfold on_wrote. destruct (negb (c_open c)); [assumption|].
    destruct (c_writing c); [|assumption].
    destruct (c_pipe c) as [|f tl0] eqn:Ep; [projs; cbn [lenN]; lia|].
    destruct (st_todo f).
    + apply kick_bound. projs. cbn [lenN] in H. lia.
    + projs. cbn [lenN] in *. assumption.
Qed.

Theorem prefetch_bound pf evs : lenN (c_pipe (prun pf evs conn0)) <= pf + 1.
Proof.
  assert (G : forall c, lenN (c_pipe c) <= pf + 1 -> lenN (c_pipe (prun pf evs c)) <= pf + 1).
  { induction evs as [|e evs IH]; intros c H; cbn [prun fold_left]; [assumption|].
    apply IH. apply pstep_bound. assumption. }
  apply G. cbn. lia.
Qed.

(* no internal event changes the state any more *)
Definition stuck (pf : N) (c : conn) : Prop := on_wrote pf c = c /\ forall i, on_data i c = c.

Lemma progress pf c :
  Inv c -> c_open c = true -> c_pipe c <> [] ->
  (forall s, In s (c_pipe c) -> rq_resp (st_req s) <> []) -> ~ stuck pf c.
Proof.
  intros (Icr & Isi & Itl & Itd & Ifr & Icl & Iseen & Ikl & Iko & Irm) Eo Hne Hresp [Hw Hd].
  specialize (Ifr Eo). unfold front_ok in Ifr.
  destruct (c_pipe c) as [|f tl0] eqn:Ep; [congruence|].
  destruct Ifr as [(Hwt & Hwr & _) | (Hwt & t' & ch & _ & Hwr & _)].
  - (* the front stream is waiting and has something to deliver *)
    inversion Itd as [|? ? Htf _]; subst. specialize (Htf Hwt (Hresp f (or_introl eq_refl))).
    specialize (Hd (rq_id (st_req f))). unfold on_data in Hd. rewrite Eo, Ep, N.eqb_refl, Hwt in Hd. cbn [negb] in Hd.
    destruct (st_todo f) as [|c2 more]; [congruence|].
    apply (f_equal c_writing) in Hd. unfold start_write in Hd. projs_in Hd. rewrite Hwr in Hd. projs_in Hd. congruence.
  - (* a write is pending *)
    unfold on_wrote in Hw. rewrite Eo, Hwr, Ep in Hw. cbn [negb] in Hw.
    destruct (st_todo f).
    + apply (f_equal c_done) in Hw. rewrite (proj2 (kick_seen_done pf _)) in Hw. projs_in Hw.
      apply (f_equal (@length req)) in Hw. rewrite app_length in Hw. cbn [length] in Hw. lia.
    + apply (f_equal c_writing) in Hw. projs_in Hw. congruence.
Qed.

(* saturation: with an empty pipeline and no request body outstanding, parseRequests never leaves a request head
   at the start of inBuf *)
Definition sat (c : conn) : Prop :=
  c_open c = true -> c_pipe c = [] -> c_bodyneed c = 0 ->
  match c_inbuf c with IHead _ :: _ => False | _ => True end.

Lemma parse_sat fuel pf c :
  c_readmore c = true -> sat (parse_requests (S fuel) pf c).
Proof.
  intros Hrm Eo Epipe Ebn.
  (* the pipeline of the result is empty: nothing was moved *)
  assert (Hne : forall fu c2, c_pipe (parse_requests fu pf c2) = [] -> c_pipe c2 = []).
  { intros fu c2 E. destruct (parse_spec fu pf c2) as [rs2 (Hp2 & _)]. rewrite Hp2 in E. apply app_eq_nil in E. apply E. }
  pose proof (Hne _ _ Epipe) as Ep0. revert Epipe Ebn. cbn [parse_requests].
  destruct (c_inbuf c) as [|it rest] eqn:Ein; [intros; rewrite Ein; exact I|].
  destruct (c_bodyneed c =? 0) eqn:Eb; cbn [negb orb].
  2:{ intros _ Ebn. apply N.eqb_neq in Eb. congruence. }
  rewrite Hrm. unfold queue_filled. rewrite Ep0. cbn [negb lenN].
  destruct (pf + 1 <=? 0) eqn:Ef; [apply N.leb_le in Ef; lia|].
  destruct it as [r|n]; [|intros; rewrite Ein; exact I].
  intros Epipe _. exfalso.
  assert (E : [new_stream r] = []); [|discriminate].
  destruct (rq_body r =? 0); [exact (Hne _ _ Epipe)|].
  destruct (feed_body (rq_body r) rest) as [need rest'].
  destruct (need =? 0); [exact (Hne _ _ Epipe)| exact Epipe].
Qed.

Lemma quiet_sat c c' : quiet c c' -> sat c -> sat c'.
Proof.
  intros (Ho & _ & _ & _ & Hi & Hb & Hm) Hs. unfold sat. rewrite Ho, Hi, Hb. intros E1 E2. apply Hs; [assumption|].
  rewrite E2 in Hm. symmetry in Hm. apply map_eq_nil in Hm. exact Hm.
Qed.

Lemma kick_sat pf c : c_readmore c = true -> sat (kick pf c).
Proof.
  intros Hrm. destruct (c_open c) eqn:Eo; [|rewrite kick_closed; [intros E; congruence| exact Eo]].
  apply (quiet_sat _ _ (kick_quiet pf c Eo)), parse_sat, Hrm.
Qed.

Lemma pstep_sat pf e c : Inv c -> sat c -> sat (pstep pf e c).
Proof.
  intros HI Hs. assert (Hrm : c_readmore c = true) by apply HI.
  destruct e as [items|i|]; cbn [pstep].
  - unfold on_read. destruct (c_open c) eqn:Eo; cbn [negb].
    + destruct (if c_bodyneed c =? 0 then _ else _) as [need inb']. apply parse_sat. exact Hrm.
    + intros E. projs_in E. congruence.
  - apply (quiet_sat c), Hs. apply on_data_quiet.
  - unfold on_wrote. destruct (negb (c_open c)); [assumption|].
    destruct (c_writing c); [|assumption].
    destruct (c_pipe c) as [|f tl0] eqn:Ep.
    + unfold sat in *. projs. rewrite Ep in Hs. exact Hs.
    + destruct (st_todo f).
      * apply kick_sat. projs. exact Hrm.
      * intros _ E. projs_in E. discriminate.
Qed.

Lemma prun_sat pf evs c : Inv c -> sat c -> sat (prun pf evs c).
Proof.
  revert c; induction evs as [|e evs IH]; intros c HI Hs; cbn [prun fold_left]; [assumption|].
  apply IH; [apply pstep_inv; assumption| apply pstep_sat; assumption].
Qed.

Lemma sat0 : sat conn0.
Proof. intros _ _ _. exact I. Qed.

(* when nothing is enabled any more, every request has received exactly its one complete response *)
Theorem complete_when_quiescent pf evs :
  let c := prun pf evs conn0 in
  c_open c = true ->
  (forall r, In r (reqs_of evs) -> rq_resp r <> []) ->
  stuck pf c ->
  c_bodyneed c = 0 -> (forall n rest, c_inbuf c <> IBody n :: rest) ->
  c_out c = concat (map resp_bytes (reqs_of evs)) /\ c_pipe c = [] /\ c_done c = reqs_of evs.
Proof.
  intros c Eo Hresp Hstuck Hbn Hnb.
  pose proof (prun_inv pf evs conn0 inv0) as HI. fold c in HI.
  pose proof (prun_sat pf evs conn0 inv0 sat0) as Hs. fold c in Hs.
  pose proof (prun_seen pf evs conn0) as Hseen. fold c in Hseen. cbn [c_seen conn0 app] in Hseen.
  assert (Iseen : c_seen c = c_done c ++ map st_req (c_pipe c) ++ heads (c_inbuf c)) by apply HI.
  assert (Hp : c_pipe c = []).
  { destruct (c_pipe c) as [|f p] eqn:Ep; [reflexivity|]. exfalso.
    apply (progress pf c HI Eo); [rewrite Ep; discriminate| |exact Hstuck].
    intros s Hin. apply Hresp. rewrite <- Hseen, Iseen. apply in_or_app. right. apply in_or_app. left.
    apply in_map. rewrite <- Ep. exact Hin. }
  specialize (Hs Eo Hp Hbn).
  assert (Hin : c_inbuf c = []).
  { destruct (c_inbuf c) as [|[r|n] rest] eqn:Ein; [reflexivity| contradiction| exfalso; eapply Hnb; reflexivity]. }
  destruct HI as (_ & _ & _ & _ & Ifr & _).
  specialize (Ifr Eo). unfold front_ok in Ifr. rewrite Hp in Ifr. destruct Ifr as [_ Hout].
  rewrite Hp, Hin in Iseen. cbn [map heads app] in Iseen. unfold heads in Iseen. cbn [flat_map] in Iseen.
  rewrite !app_nil_r in Iseen.
  split; [rewrite Hout; unfold done_bytes; congruence|]. split; [exact Hp| congruence].
Qed.

(* a closed connection: everything up to and including the first request that did not keep the connection alive
   was answered completely, nothing else was written *)
Theorem close_stops_after_response pf evs :
  let c := prun pf evs conn0 in
  c_open c = false ->
  exists d r more,
    reqs_of evs = d ++ r :: more /\
    Forall (fun x => rq_keep x = true) d /\ rq_keep r = false /\
    c_out c = concat (map resp_bytes (d ++ [r])).
Proof.
  intros c Eo.
  pose proof (prun_inv pf evs conn0 inv0) as HI. fold c in HI.
  pose proof (prun_seen pf evs conn0) as Hseen. fold c in Hseen. cbn [c_seen conn0 app] in Hseen.
  destruct HI as (_ & _ & _ & _ & _ & Icl & Iseen & Ikl & _).
  destruct (Icl Eo) as (_ & Hout & d & r & Hd & Hk).
  exists d, r, (map st_req (c_pipe c) ++ heads (c_inbuf c)).
  rewrite Hd, removelast_last in Ikl.
  split; [rewrite <- Hseen, Iseen, Hd, <- app_assoc; reflexivity|].
  split; [assumption|]. split; [assumption|]. rewrite Hout. unfold done_bytes. rewrite Hd. reflexivity.
Qed.

(* non-vacuity: a pipeline that completes out of order upstream *)
Definition ex_r1 := mkReq 1 0 true [[1;1];[1]].
Definition ex_r2 := mkReq 2 0 true [[2]].
Definition ex_evs := [ERead [IHead ex_r1; IHead ex_r2]; EData 2; EData 1; EWrote; EData 1; EWrote; EWrote].

Definition is_prefix (a b : bytes) : Prop := exists r, b = a ++ r.

(* direction A -> B: A is the side Squid reads from, B the side it writes to. What the direction is about: of A
   what was received, is on the wire and was sent, buf, the pre-read bytes, the reading and the open flag; of B
   what was delivered, the open and the writer flag *)
Definition dir (recvd wire sentby buf pre : bytes) (reading openA : bool) (deliv : bytes) (openB writer : bool) :=
  recvd ++ wire = sentby /\
  is_prefix deliv recvd /\
  (openB = true -> deliv ++ buf ++ pre = recvd) /\
  (reading = true -> buf = [] /\ pre = [] /\ writer = false /\ openA = true) /\
  (writer = true -> openB = true /\ buf <> [] /\ reading = false).

Definition dir_ok (A B : side) : Prop :=
  dir (s_recvd A) (s_wire A) (s_sentby A) (s_buf A) (s_pre A) (s_reading A) (s_open A)
      (s_deliv B) (s_open B) (s_writer B).

Definition dok (x : sd) (t : tun) : Prop := dir_ok (gs x t) (gs (other x) t).
Definition TI (t : tun) : Prop := dok Cl t /\ dok Sv t /\ t_crashed t = false.

Lemma is_prefix_refl a : is_prefix a a.
Proof. exists []. rewrite app_nil_r. reflexivity. Qed.
Lemma is_prefix_app_r a b d : is_prefix a b -> is_prefix a (b ++ d).
Proof. intros [r ->]. exists (r ++ d). rewrite app_assoc. reflexivity. Qed.
Lemma is_prefix_of_eq a b c r : a ++ b ++ c = r -> is_prefix (a ++ b) r.
Proof. intros <-. exists c. rewrite app_assoc. reflexivity. Qed.
Lemma is_prefix_take a b c r k : a ++ b ++ c = r -> is_prefix (a ++ takeN k b) r.
Proof.
  intros <-. exists (dropN k b ++ c). rewrite <- (takeN_dropN k b) at 1. rewrite <- !app_assoc. reflexivity.
Qed.
Lemma takeN_nonempty {A} n (l : list A) : n <> 0 -> l <> [] -> takeN n l <> [].
Proof.
  intros Hn Hl. destruct l; [congruence|]. cbn [takeN].
  destruct (n =? 0) eqn:E; [apply N.eqb_eq in E; congruence| discriminate].
Qed.
Lemma lenN_nonempty {A} (l : list A) : l <> [] -> lenN l <> 0.
Proof. destruct l; [congruence|]. intros _. cbn [lenN]. lia. Qed.

Section Moves.
Variables (r w s b p : bytes) (rd oa : bool) (d : bytes) (ob wr : bool).

(* A stops reading and/or is closed *)
Lemma L_stopA oa' : dir r w s b p rd oa d ob wr -> dir r w s b p false oa' d ob wr.
Proof.
  intros (D1 & D2 & D3 & D4 & D5).
  split; [assumption|]. split; [assumption|]. split; [assumption|]. split; [discriminate|].
  intros Hw. destruct (D5 Hw) as (X1 & X2 & _). repeat split; assumption.
Qed.

(* B is closed (its pending write is cancelled) *)
Lemma L_closeB : dir r w s b p rd oa d ob wr -> dir r w s b p rd oa d false false.
Proof.
  intros (D1 & D2 & D3 & D4 & D5).
  split; [assumption|]. split; [assumption|]. split; [discriminate|]. split; [|discriminate].
  intros Hr. destruct (D4 Hr) as (X1 & X2 & _ & X4). repeat split; assumption.
Qed.

(* A's pending read delivered the first m bytes on the wire *)
Lemma L_readA m :
  dir r w s b p true oa d ob wr -> dir (r ++ takeN m w) (dropN m w) s (takeN m w) p false oa d ob wr.
Proof.
  intros (D1 & D2 & D3 & D4 & D5). destruct (D4 eq_refl) as (-> & -> & Hw & _).
  split; [rewrite <- app_assoc, takeN_dropN; assumption|].
  split; [apply is_prefix_app_r; assumption|].
  split; [intros Hob; rewrite <- (D3 Hob), !app_nil_r; reflexivity|].
  split; [discriminate|]. intros X. congruence.
Qed.

(* copy(): a write of A's buffer to B is started *)
Lemma L_copy : dir r w s b p false oa d true wr -> b <> [] -> dir r w s b p false oa d true true.
Proof.
  intros (D1 & D2 & D3 & D4 & D5) Hb.
  split; [assumption|]. split; [assumption|]. split; [assumption|]. split; [discriminate|].
  intros _. repeat split; assumption.
Qed.

(* the write to B completed: A's buffer was delivered and is free again *)
Lemma L_wroteB : dir r w s b p rd oa d ob true -> dir r w s [] p rd oa (d ++ b) ob false.
Proof.
  intros (D1 & D2 & D3 & D4 & D5). destruct (D5 eq_refl) as (Ho & Hb & Hr). specialize (D3 Ho).
  split; [assumption|]. split; [eapply is_prefix_of_eq; exact D3|].
  split; [intros _; cbn [app]; rewrite <- app_assoc; exact D3|].
  split; [intros X; congruence| discriminate].
Qed.

(* the write to B failed after k bytes; B is closed *)
Lemma L_writeerrB k : dir r w s b p rd oa d ob true -> dir r w s b p rd oa (d ++ takeN k b) false false.
Proof.
  intros (D1 & D2 & D3 & D4 & D5). destruct (D5 eq_refl) as (Ho & Hb & Hr). specialize (D3 Ho).
  split; [assumption|]. split; [eapply is_prefix_take; exact D3|]. split; [discriminate|].
  split; [intros X; congruence| discriminate].
Qed.

(* copyClientBytes/copyServerBytes: the next block of the pre-read bytes is put into the free buffer *)
Lemma L_preA n : dir r w s [] p false oa d ob wr -> dir r w s (takeN n p) (dropN n p) false oa d ob wr.
Proof.
  intros (D1 & D2 & D3 & D4 & D5).
  split; [assumption|]. split; [assumption|].
  split; [intros Ho; rewrite takeN_dropN; exact (D3 Ho)|].
  split; [discriminate|].
  intros Hw. destruct (D5 Hw) as (_ & X & _). congruence.
Qed.

(* copyRead: a read on A is started *)
Lemma L_startreadA : dir r w s [] [] false true d ob false -> dir r w s [] [] true true d ob false.
Proof.
  intros (D1 & D2 & D3 & D4 & D5).
  split; [assumption|]. split; [assumption|]. split; [assumption|].
  split; [intros _; repeat split|discriminate].
Qed.

(* the peer of A sends x *)
Lemma L_sendA x : dir r w s b p rd oa d ob wr -> dir r (w ++ x) (s ++ x) b p rd oa d ob wr.
Proof.
  intros (D1 & D2 & D3 & D4 & D5).
  split; [rewrite app_assoc, D1; reflexivity|]. repeat (split; [assumption|]). assumption.
Qed.
End Moves.

Lemma gs_ss_same x s t : gs x (ss x s t) = s.
Proof. destruct x; reflexivity. Qed.
Lemma gs_ss_other x s t : gs (other x) (ss x s t) = gs (other x) t.
Proof. destruct x; reflexivity. Qed.
Lemma other_other x : other (other x) = x.
Proof. destruct x; reflexivity. Qed.
Lemma crashed_ss x s t : t_crashed (ss x s t) = t_crashed t.
Proof. destruct x; reflexivity. Qed.
Lemma deleted_ss x s t : t_deleted (ss x s t) = t_deleted t.
Proof. destruct x; reflexivity. Qed.

Lemma TI_dok x t : TI t -> dok x t /\ dok (other x) t /\ t_crashed t = false.
Proof. intros (H1 & H2 & H3). destruct x; cbn [other]; (split; [assumption|split; assumption]). Qed.

Lemma TI_upd x t s' :
  dir_ok s' (gs (other x) t) -> dir_ok (gs (other x) t) s' -> t_crashed t = false -> TI (ss x s' t).
Proof.
  intros H1 H2 H3. unfold TI, dok. destruct x; cbn [gs ss other t_cl t_sv t_crashed] in *; (split; [assumption|split; assumption]).
Qed.

(* side x becomes s': each of the two directions is kept from what it was. A direction that s' does not differ
   in from x is kept by conversion *)
Lemma TI_ss x t s' :
  TI t -> (dir_ok (gs x t) (gs (other x) t) -> dir_ok s' (gs (other x) t)) ->
  (dir_ok (gs (other x) t) (gs x t) -> dir_ok (gs (other x) t) s') -> TI (ss x s' t).
Proof.
  intros H F G. destruct (TI_dok x t H) as (Hx & Hox & Hc). unfold dok in *. rewrite other_other in Hox.
  apply TI_upd; auto.
Qed.

(* the test every completion callback starts with, passed *)
Lemma pending_open d a b : d || negb (a && b) = false -> a = true /\ b = true.
Proof. destruct d, a, b; cbn; intros H; try discriminate H; split; reflexivity. Qed.

Ltac sproj := cbn [s_open s_noted s_buf s_pre s_writer s_reading s_wire s_fin s_sentby s_recvd s_deliv].

Lemma close_conn_TI x t : TI t -> TI (close_conn x t).
Proof.
  intros H. unfold close_conn. destruct (s_open (gs x t)) eqn:Eo; [|assumption].
  apply TI_ss; [exact H| |]; intros D; unfold dir_ok in *; sproj.
  - eapply L_stopA; exact D.
  - eapply L_closeB; exact D.
Qed.

Lemma close_conn_open_other x t : s_open (gs (other x) (close_conn x t)) = s_open (gs (other x) t).
Proof. unfold close_conn. destruct (s_open (gs x t)); [rewrite gs_ss_other|]; reflexivity. Qed.

Lemma copy_to_TI to t :
  TI t -> s_open (gs to t) = true -> s_buf (gs (other to) t) <> [] -> s_reading (gs (other to) t) = false ->
  TI (copy_to to t).
Proof.
  intros H Ho Hb Hr. unfold copy_to. apply TI_ss; [exact H|intros D; exact D|].
  intros D. unfold dir_ok in *; sproj. rewrite Hr, Ho in D |- *. eapply L_copy; [exact D| exact Hb].
Qed.

Lemma keep_going_TI len err from t :
  TI t ->
  TI (snd (keep_going len err from t)) /\
  (fst (keep_going len err from t) = true ->
   snd (keep_going len err from t) = t /\ s_open (gs (other from) t) = true).
Proof.
  intros H. unfold keep_going.
  destruct err; cbn [fst snd]; [split; [apply close_conn_TI; assumption| discriminate]|].
  destruct (len =? 0); cbn [fst snd].
  { split; [|discriminate].
    destruct (_ && _); [apply close_conn_TI|]; apply close_conn_TI; assumption. }
  destruct (s_open (gs (other from) t)) eqn:Eo; cbn [negb fst snd].
  - split; [assumption|]. intros _. split; reflexivity.
  - split; [apply close_conn_TI; assumption| discriminate].
Qed.

(* the common tail of copy_bytes and on_tread: n bytes are in from's buffer; keepGoingAfterRead, then copy *)
Definition relay (n : N) (from : sd) (t : tun) : tun :=
  let '(k, t2) := keep_going n false from t in if k then copy_to (other from) t2 else t2.

Lemma relay_TI n from t :
  TI t -> s_buf (gs from t) <> [] -> s_reading (gs from t) = false -> TI (relay n from t).
Proof.
  intros H Hb Hr. unfold relay. destruct (keep_going_TI n false from t H) as [Hk1 Hk2].
  destruct (keep_going n false from t) as [k t2]. cbn [fst snd] in *.
  destruct k; [|assumption]. destruct (Hk2 eq_refl) as [-> Hoo].
  apply copy_to_TI; rewrite ?other_other; assumption.
Qed.

Lemma bufsz_pos : gen_tunnel_bufsz <> 0.
Proof. vm_compute. discriminate. Qed.

Lemma copy_bytes_TI from t :
  TI t -> s_buf (gs from t) = [] -> s_reading (gs from t) = false -> s_writer (gs (other from) t) = false ->
  s_open (gs from t) = true -> TI (copy_bytes from t).
Proof.
  intros H Hb Hr Hw Ho. unfold copy_bytes. rewrite Hb.
  destruct (s_pre (gs from t)) as [|p0 pre'] eqn:Ep.
  - (* copyRead *)
    apply TI_ss; [exact H| |intros D; exact D]. intros D. unfold dir_ok in *; sproj.
    rewrite Hb, Ep, Hr, Ho, Hw in D. rewrite Ho, Hw. eapply L_startreadA; exact D.
  - apply relay_TI; rewrite ?gs_ss_same; sproj; [| |exact Hr].
    + apply TI_ss; [exact H| |intros D; exact D]. intros D. unfold dir_ok in *; sproj.
      rewrite Hb, Ep, Hr in D. rewrite Hr. eapply L_preA; exact D.
    + apply takeN_nonempty; [pose proof bufsz_pos; cbn [lenN]; lia| discriminate].
Qed.

Lemma on_tsend_TI x d t : TI t -> TI (on_tsend x d t).
Proof.
  intros H. unfold on_tsend. destruct (s_fin (gs x t)); [assumption|].
  apply TI_ss; [exact H| |intros D; exact D]. intros D. unfold dir_ok in *; sproj. eapply L_sendA; exact D.
Qed.

Lemma on_tfin_TI x t : TI t -> TI (on_tfin x t).
Proof. intros H. unfold on_tfin. apply TI_ss; [exact H| |]; intros D; exact D. Qed.

Lemma stop_reading_TI x t s' :
  TI t -> s' = (let s := gs x t in mkSide (s_open s) (s_noted s) (s_buf s) (s_pre s) (s_writer s) false (s_wire s)
                                        (s_fin s) (s_sentby s) (s_recvd s) (s_deliv s)) ->
  TI (ss x s' t).
Proof.
  intros H ->. apply TI_ss; [exact H| |intros D; exact D]. intros D. unfold dir_ok in *; cbn zeta; sproj.
  eapply L_stopA; exact D.
Qed.

Lemma on_tread_TI x n t : TI t -> TI (on_tread x n t).
Proof.
  intros H. unfold on_tread.
  destruct (t_deleted t || negb (s_reading (gs x t) && s_open (gs x t))) eqn:Eg; [assumption|].
  apply pending_open in Eg as [Hr Ho].
  destruct (s_wire (gs x t)) as [|w0 wire'] eqn:Ew.
  - destruct (s_fin (gs x t)) eqn:Ef; [|assumption].
    apply keep_going_TI. eapply stop_reading_TI; [exact H|]. cbn zeta. rewrite Ew, Ef. reflexivity.
  - apply relay_TI; rewrite ?gs_ss_same; sproj; [| |reflexivity].
    + apply TI_ss; [exact H| |intros D; exact D]. intros D. unfold dir_ok in *; sproj.
      rewrite Hr, Ew in D. eapply L_readA; exact D.
    + apply takeN_nonempty; [pose proof bufsz_pos; cbn [lenN]; lia| discriminate].
Qed.

Lemma on_treaderr_TI x t : TI t -> TI (on_treaderr x t).
Proof.
  intros H. unfold on_treaderr.
  destruct (t_deleted t || negb (s_reading (gs x t) && s_open (gs x t))); [assumption|].
  apply keep_going_TI. eapply stop_reading_TI; [exact H|]. reflexivity.
Qed.

Lemma on_twrote_TI x t : TI t -> TI (on_twrote x t).
Proof.
  intros H. unfold on_twrote.
  destruct (t_deleted t || negb (s_writer (gs x t) && s_open (gs x t))) eqn:Eg; [assumption|].
  apply pending_open in Eg as [Hw Ho].
  destruct (TI_dok (other x) t H) as (Hf & Hfx & Hc). unfold dok in *. rewrite other_other in *.
  (* direction (other x) -> x *)
  pose proof Hf as (_ & _ & _ & _ & D5). destruct (D5 Hw) as (_ & Hbuf & Hrd).
  destruct (lenN (s_buf (gs (other x) t)) =? 0) eqn:El.
  { apply N.eqb_eq in El. exfalso. apply (lenN_nonempty _ Hbuf). exact El. }
  match goal with |- context [copy_bytes (other x) ?tt] => set (t2 := tt) end.
  assert (H2 : TI t2).
  { unfold t2. rewrite gs_ss_other. rewrite <- (other_other x) at 1.
    apply TI_upd; rewrite ?other_other, ?gs_ss_same; [|exact Hfx|rewrite crashed_ss; assumption].
    unfold dir_ok in *; sproj. rewrite Hw in Hf. eapply L_wroteB; exact Hf. }
  assert (Hopen2 : s_open (gs (other x) t2) = s_open (gs (other x) t)).
  { unfold t2. destruct x; reflexivity. }
  rewrite Hopen2.
  destruct (s_open (gs (other x) t)) eqn:Eof; cbn [negb].
  - apply copy_bytes_TI; [assumption|..].
    + unfold t2. destruct x; reflexivity.
    + unfold t2. destruct x; cbn [other gs ss t_cl t_sv s_reading] in *; exact Hrd.
    + unfold t2. destruct x; reflexivity.
    + exact Hopen2.
  - apply close_conn_TI. assumption.
Qed.

Lemma on_twriteerr_TI x k t : TI t -> TI (on_twriteerr x k t).
Proof.
  intros H. unfold on_twriteerr.
  destruct (t_deleted t || negb (s_writer (gs x t) && s_open (gs x t))) eqn:Eg; [assumption|].
  apply pending_open in Eg as [Hw Ho].
  unfold close_conn. rewrite gs_ss_same. sproj. rewrite Ho.
  assert (E : forall s1 s2 t0, ss x s2 (ss x s1 t0) = ss x s2 t0) by (intros; destruct x; reflexivity).
  rewrite E.
  apply TI_ss; [exact H| |]; intros D; unfold dir_ok in *; sproj.
  - eapply L_stopA; exact D.
  - rewrite Hw in D. eapply L_writeerrB; exact D.
Qed.

Lemma on_tclosed_TI x t : TI t -> TI (on_tclosed x t).
Proof.
  intros H. unfold on_tclosed.
  destruct (t_deleted t || s_open (gs x t) || s_noted (gs x t)) eqn:Eg; [assumption|].
  apply orb_false_iff in Eg. destruct Eg as [Eg _]. apply orb_false_iff in Eg. destruct Eg as [_ Ho].
  match goal with |- context [tdelete ?tt] => set (t1 := tt) end.
  assert (H1 : TI t1).
  { apply TI_ss; [exact H|intros D; exact D|]. intros D. unfold dir_ok in *; sproj. rewrite Ho.
    eapply L_closeB; exact D. }
  destruct (negb (s_open (gs Cl t1)) && negb (s_open (gs Sv t1))); [exact H1|].
  destruct (s_writer (gs (other x) t1)); [assumption| apply close_conn_TI; assumption].
Qed.

Lemma on_ttimeout_TI t : TI t -> TI (on_ttimeout t).
Proof.
  intros H. unfold on_ttimeout. destruct (t_deleted t); [assumption|].
  apply close_conn_TI. apply close_conn_TI. assumption.
Qed.

Lemma tstep_TI e t : TI t -> TI (tstep e t).
Proof.
  destruct e; cbn [tstep];
    [apply on_tsend_TI|apply on_tfin_TI|apply on_tread_TI|apply on_treaderr_TI|apply on_twrote_TI|
     apply on_twriteerr_TI|apply on_tclosed_TI|apply on_ttimeout_TI].
Qed.

Lemma trun_TI evs t : TI t -> TI (trun evs t).
Proof.
  revert t; induction evs as [|e evs IH]; intros t H; cbn [trun fold_left]; [assumption|].
  apply IH. apply tstep_TI. assumption.
Qed.

Lemma side0_dir pre : dir_ok (side0 pre) (side0 []) /\ dir_ok (side0 []) (side0 pre).
Proof.
  unfold dir_ok, dir, side0; sproj. split.
  - split; [apply app_nil_r|]. split; [exists pre; reflexivity|]. split; [reflexivity|].
    split; discriminate.
  - split; [reflexivity|]. split; [exists []; reflexivity|]. split; [intros _; apply app_nil_r|].
    split; discriminate.
Qed.

Lemma tun_start_TI early : TI (tun_start early).
Proof.
  unfold tun_start.
  assert (H0 : TI (mkTun (side0 early) (side0 []) false false)).
  { destruct (side0_dir early) as [A B]. unfold TI, dok; cbn [gs other t_cl t_sv t_crashed]. split; [assumption|split; [assumption|reflexivity]]. }
  assert (H1 : TI (copy_bytes Sv (mkTun (side0 early) (side0 []) false false))).
  { apply copy_bytes_TI; [assumption|reflexivity..]. }
  apply copy_bytes_TI; [assumption|..].
  - reflexivity.
  - reflexivity.
  - reflexivity.
  - reflexivity.
Qed.

Theorem tunnel_accounting early evs x :
  let t := trun evs (tun_start early) in
  let A := gs x t in let B := gs (other x) t in
  s_recvd A ++ s_wire A = s_sentby A /\
  is_prefix (s_deliv B) (s_recvd A) /\
  (s_open B = true -> s_deliv B ++ s_buf A ++ s_pre A ++ s_wire A = s_sentby A).
Proof.
  cbn zeta. pose proof (trun_TI evs _ (tun_start_TI early)) as H.
  destruct (TI_dok x _ H) as ((D1 & D2 & D3 & _) & _ & _).
  split; [assumption|]. split; [assumption|].
  intros Ho. specialize (D3 Ho). rewrite <- D1, <- D3, <- !app_assoc. reflexivity.
Qed.

Theorem tunnel_prefix_invariant early evs x :
  let t := trun evs (tun_start early) in
  is_prefix (s_deliv (gs (other x) t)) (s_sentby (gs x t)).
Proof.
  cbn zeta. destruct (tunnel_accounting early evs x) as (D1 & [r D2] & _).
  exists (r ++ s_wire (gs x (trun evs (tun_start early)))). rewrite <- D1, D2, <- app_assoc. reflexivity.
Qed.

Theorem tunnel_no_assertion_failure early evs : t_crashed (trun evs (tun_start early)) = false.
Proof. pose proof (trun_TI evs _ (tun_start_TI early)) as H. apply H. Qed.

(* frame facts that hold for every step: nothing reopens a connection, nothing is delivered to a closed
   connection, a peer that sent FIN sends nothing more *)
Definition frame0 (t t' : tun) : Prop :=
  forall y, (s_open (gs y t') = true -> s_open (gs y t) = true) /\
            s_deliv (gs y t') = s_deliv (gs y t) /\ s_sentby (gs y t') = s_sentby (gs y t) /\
            s_fin (gs y t') = s_fin (gs y t).

Lemma frame0_refl t : frame0 t t.
Proof. intros y. repeat split; auto. Qed.
Lemma frame0_trans t1 t2 t3 : frame0 t1 t2 -> frame0 t2 t3 -> frame0 t1 t3.
Proof.
  intros H1 H2 y. destruct (H1 y) as (A1 & A2 & A3 & A4). destruct (H2 y) as (B1 & B2 & B3 & B4).
  repeat split; [auto|congruence..].
Qed.

Lemma close_conn_frame0 x t : frame0 t (close_conn x t).
Proof.
  unfold close_conn. destruct (s_open (gs x t)) eqn:Eo; [|apply frame0_refl].
  intros y. destruct x, y; cbn [gs ss t_cl t_sv s_open s_deliv s_sentby s_fin]; repeat split; auto; discriminate.
Qed.

Lemma copy_to_frame0 x t : frame0 t (copy_to x t).
Proof.
  unfold copy_to. intros y. destruct x, y; cbn [gs ss t_cl t_sv s_open s_deliv s_sentby s_fin]; repeat split; auto.
Qed.

Lemma keep_going_frame0 len err from t : frame0 t (snd (keep_going len err from t)).
Proof.
  unfold keep_going. destruct err; cbn [snd]; [apply close_conn_frame0|].
  destruct (len =? 0); cbn [snd].
  { destruct (_ && _); [eapply frame0_trans; [apply close_conn_frame0|apply close_conn_frame0]| apply close_conn_frame0]. }
  destruct (negb _); cbn [snd]; [apply close_conn_frame0| apply frame0_refl].
Qed.

Lemma relay_frame0 n from t : frame0 t (relay n from t).
Proof.
  unfold relay. pose proof (keep_going_frame0 n false from t) as Hk.
  destruct (keep_going n false from t) as [k t2]. cbn [snd] in Hk.
  destruct k; [eapply frame0_trans; [exact Hk|apply copy_to_frame0]| exact Hk].
Qed.

Lemma copy_bytes_frame0 from t : frame0 t (copy_bytes from t).
Proof.
  unfold copy_bytes. destruct (s_buf (gs from t)); [|intros y; destruct y; repeat split; auto].
  destruct (s_pre (gs from t)) eqn:Ep; [|eapply frame0_trans; [|apply relay_frame0]];
    intros y; destruct from, y; cbn [gs ss t_cl t_sv s_open s_deliv s_sentby s_fin]; repeat split; auto.
Qed.

(* fin y: the step is the FIN of y's peer *)
Definition frame (fin : sd -> bool) (t t' : tun) : Prop :=
  forall y, (s_open (gs y t') = true -> s_open (gs y t) = true) /\
            (s_open (gs y t) = false -> s_deliv (gs y t') = s_deliv (gs y t)) /\
            (s_fin (gs y t) = true -> s_sentby (gs y t') = s_sentby (gs y t) /\ s_fin (gs y t') = true) /\
            (fin y = false -> s_fin (gs y t') = s_fin (gs y t)).

Lemma frame0_frame fin t t' : frame0 t t' -> frame fin t t'.
Proof. intros H y. destruct (H y) as (A1 & A2 & A3 & A4). repeat split; auto; congruence. Qed.
Lemma frame_refl fin t : frame fin t t.
Proof. apply frame0_frame, frame0_refl. Qed.

Lemma frame_trans_0 fin t1 t2 t3 : frame fin t1 t2 -> frame0 t2 t3 -> frame fin t1 t3.
Proof.
  intros H1 H2 y. destruct (H1 y) as (A1 & A2 & A3 & A4). destruct (H2 y) as (B1 & B2 & B3 & B4).
  split; [auto|]. split; [intros X; rewrite B2; auto|]. split; [|intros X; rewrite B4; auto].
  intros X. destruct (A3 X) as [C1 C2]. split; congruence.
Qed.

Ltac side_frame := cbn [gs ss t_cl t_sv s_open s_deliv s_sentby s_fin].

Lemma tstep_frame e t : frame (fun y => is_fin_of y e) t (tstep e t).
Proof.
  destruct e as [x d|x|x n|x|x|x k|x|]; cbn [tstep is_fin_of].
  - unfold on_tsend. destruct (s_fin (gs x t)) eqn:Ef; [apply frame_refl|].
    intros y. destruct x, y; side_frame; cbn [gs t_cl t_sv] in Ef; repeat split; auto; congruence.
  - unfold on_tfin. intros y. destruct x, y; side_frame; repeat split; auto; discriminate.
  - unfold on_tread. destruct (_ || _); [apply frame_refl|].
    destruct (s_wire (gs x t)).
    + destruct (s_fin (gs x t)) eqn:Ef; [|apply frame_refl].
      eapply frame_trans_0; [|apply keep_going_frame0].
      intros y. destruct x, y; side_frame; cbn [gs t_cl t_sv] in Ef; repeat split; auto; congruence.
    + eapply frame_trans_0; [|apply relay_frame0]. intros y. destruct x, y; side_frame; repeat split; auto.
  - unfold on_treaderr. destruct (_ || _); [apply frame_refl|].
    eapply frame_trans_0; [|apply keep_going_frame0].
    intros y. destruct x, y; side_frame; repeat split; auto.
  - unfold on_twrote. destruct (_ || _) eqn:Eg; [apply frame_refl|].
    apply pending_open in Eg as [_ Ho].
    match goal with |- context [close_conn x ?tt] => set (t1 := tt) end.
    assert (H1 : frame (fun _ => false) t t1).
    { unfold t1. intros y. destruct x, y; side_frame; cbn [gs t_cl t_sv] in Ho; repeat split; auto; congruence. }
    destruct (lenN _ =? 0); [eapply frame_trans_0; [exact H1|apply close_conn_frame0]|].
    match goal with |- context [copy_bytes (other x) ?tt] => set (t2 := tt) end.
    assert (H2 : frame (fun _ => false) t t2).
    { eapply frame_trans_0; [exact H1|]. unfold t2. intros y. destruct x, y; cbn [other]; side_frame; repeat split; auto. }
    destruct (negb _); [eapply frame_trans_0; [exact H2|apply close_conn_frame0]|
                        eapply frame_trans_0; [exact H2|apply copy_bytes_frame0]].
  - unfold on_twriteerr. destruct (_ || _) eqn:Eg; [apply frame_refl|].
    apply pending_open in Eg as [_ Ho].
    eapply frame_trans_0; [|apply close_conn_frame0].
    intros y. destruct x, y; cbn [other]; side_frame; cbn [gs t_cl t_sv] in Ho; repeat split; auto; congruence.
  - unfold on_tclosed. destruct (_ || _); [apply frame_refl|].
    match goal with |- context [tdelete ?tt] => set (t1 := tt) end.
    assert (H1 : frame (fun _ => false) t t1).
    { unfold t1. intros y. destruct x, y; side_frame; repeat split; auto. }
    destruct (_ && _); [exact H1|].
    destruct (s_writer _); [exact H1| eapply frame_trans_0; [exact H1|apply close_conn_frame0]].
  - unfold on_ttimeout. destruct (t_deleted t); [apply frame_refl|].
    apply frame0_frame. eapply frame0_trans; apply close_conn_frame0.
Qed.

Lemma tstep_fin_same e y t : is_fin_of y e = false -> s_fin (gs y t) = false -> s_fin (gs y (tstep e t)) = false.
Proof. intros Hf H0. destruct (tstep_frame e t y) as (_ & _ & _ & E). now rewrite (E Hf). Qed.

Definition opens (t : tun) : bool * bool := (s_open (t_cl t), s_open (t_sv t)).

Lemma opens_gs t : opens t = (true, true) -> forall y, s_open (gs y t) = true.
Proof. unfold opens. intros H y. injection H as H1 H2. destruct y; cbn [gs]; assumption. Qed.

Lemma copy_to_opens x t : opens (copy_to x t) = opens t.
Proof. unfold copy_to, opens. destruct x; reflexivity. Qed.

Lemma relay_opens n from t : n <> 0 -> s_open (gs (other from) t) = true -> opens (relay n from t) = opens t.
Proof.
  intros Hn Ho. unfold relay, keep_going. apply N.eqb_neq in Hn. rewrite Hn, Ho. apply copy_to_opens.
Qed.

Lemma copy_bytes_opens from t :
  s_open (gs (other from) t) = true -> opens (copy_bytes from t) = opens t.
Proof.
  intros Ho. unfold copy_bytes. destruct (s_buf (gs from t)); [|reflexivity].
  destruct (s_pre (gs from t)) as [|p0 pre'] eqn:Ep.
  - unfold opens. destruct from; reflexivity.
  - etransitivity; [apply relay_opens|].
    + pose proof bufsz_pos. cbn [lenN]. lia.
    + destruct from; exact Ho.
    + unfold opens. destruct from; reflexivity.
Qed.

Lemma eof_closes a t :
  s_open (gs a t) = true -> s_open (gs (other a) t) = true -> s_buf (gs a t) = [] ->
  let s := gs a t in
  let t1 := ss a (mkSide (s_open s) (s_noted s) (s_buf s) (s_pre s) (s_writer s) false (s_wire s) (s_fin s)
                         (s_sentby s) (s_recvd s) (s_deliv s)) t in
  let t' := snd (keep_going 0 false a t1) in
  opens t' = (false, false) /\ s_fin (gs a t') = s_fin (gs a t) /\
  s_deliv (gs (other a) t') = s_deliv (gs (other a) t) /\ s_sentby (gs a t') = s_sentby (gs a t).
Proof.
  intros Ho1 Ho2 Hb. unfold keep_going, close_conn, opens.
  destruct a; cbn [other gs ss t_cl t_sv] in *; sproj.
  (* a is open, so it is closed *)
  all: rewrite Ho1; cbn [gs ss t_cl t_sv]; sproj.
  (* its buffer is empty and the other side is open, so that one is closed too *)
  all: rewrite Hb, Ho2; cbn [lenN N.eqb andb snd gs ss t_cl t_sv]; sproj.
  all: repeat split; reflexivity.
Qed.

(* one step from a state in which both connections are open, without I/O errors and without a FIN from B's peer:
   either both stay open, or A's EOF was read and both are closed with everything A sent delivered to B *)
Lemma step_both_open a e t :
  TI t -> opens t = (true, true) -> s_fin (gs (other a) t) = false ->
  is_err e = false -> is_fin_of (other a) e = false ->
  opens (tstep e t) = (true, true) \/
  (opens (tstep e t) = (false, false) /\ s_fin (gs a (tstep e t)) = true /\
   s_deliv (gs (other a) (tstep e t)) = s_sentby (gs a (tstep e t))).
Proof.
  intros HT Hop HfB Herr Hfin.
  pose proof (opens_gs t Hop) as Hopen.
  destruct e as [x d|x|x n|x|x|x k|x|]; cbn [tstep is_err] in *; try discriminate.
  - left. unfold on_tsend. destruct (s_fin (gs x t)); [assumption|]. rewrite <- Hop. unfold opens. destruct x; reflexivity.
  - left. unfold on_tfin. rewrite <- Hop. unfold opens. destruct x; reflexivity.
  - unfold on_tread.
    destruct (t_deleted t || negb (s_reading (gs x t) && s_open (gs x t))) eqn:Eg; [left; assumption|].
    apply pending_open in Eg as [Hr _].
    destruct (s_wire (gs x t)) as [|w0 wire'] eqn:Ew.
    + destruct (s_fin (gs x t)) eqn:Ef; [|left; assumption].
      (* EOF on x: x must be a *)
      assert (x = a) by (destruct x, a; cbn [other] in *; congruence). subst x.
      right.
      destruct (TI_dok a t HT) as ((D1 & _ & D3 & D4 & _) & _ & _).
      destruct (D4 Hr) as (Hb & Hp & _ & _).
      specialize (D3 (Hopen (other a))). rewrite Hb, Hp, app_nil_r in D3. cbn [app] in D3.
      rewrite Ew, app_nil_r in D1.
      destruct (eof_closes a t (Hopen a) (Hopen (other a)) Hb) as (E1 & E2 & E3 & E4).
      cbn zeta in E1, E2, E3, E4. rewrite Ew, Ef in *.
      split; [exact E1|]. split; [rewrite E2; reflexivity|]. rewrite E3, E4. congruence.
    + left.
      etransitivity; [apply relay_opens|].
      * pose proof bufsz_pos. cbn [lenN]. lia.
      * specialize (Hopen (other x)). destruct x; exact Hopen.
      * rewrite <- Hop. unfold opens. destruct x; reflexivity.
  - left. unfold on_twrote.
    destruct (t_deleted t || negb (s_writer (gs x t) && s_open (gs x t))) eqn:Eg; [assumption|].
    apply pending_open in Eg as [Hw _].
    destruct (TI_dok (other x) t HT) as ((_ & _ & _ & _ & D5) & _ & _). rewrite other_other in D5.
    destruct (D5 Hw) as (_ & Hbuf & _).
    destruct (lenN (s_buf (gs (other x) t)) =? 0) eqn:El.
    { apply N.eqb_eq in El. exfalso. apply (lenN_nonempty _ Hbuf). exact El. }
    match goal with |- context [copy_bytes (other x) ?tt] => set (t2 := tt) end.
    assert (Ho2 : opens t2 = (true, true)).
    { rewrite <- Hop. unfold t2, opens. destruct x; reflexivity. }
    pose proof (opens_gs t2 Ho2) as Hopen2. rewrite (Hopen2 (other x)). cbn [negb].
    rewrite copy_bytes_opens; [assumption|]. rewrite other_other. apply Hopen2.
  - left. unfold on_tclosed. rewrite (Hopen x). rewrite orb_true_r. cbn [orb]. assumption.
Qed.

Definition drain_inv (a : sd) (t : tun) : Prop :=
  s_fin (gs (other a) t) = false /\
  (opens t = (true, true) \/
   (opens t = (false, false) /\ s_fin (gs a t) = true /\ s_deliv (gs (other a) t) = s_sentby (gs a t))).

Lemma opens_closed_gs t : opens t = (false, false) -> forall y, s_open (gs y t) = false.
Proof. unfold opens. intros H y. injection H as H1 H2. destruct y; cbn [gs]; assumption. Qed.

Lemma drain_step a e t :
  TI t -> drain_inv a t -> is_err e = false -> is_fin_of (other a) e = false -> drain_inv a (tstep e t).
Proof.
  intros HT (HfB & Hcase) Herr Hfin. split; [apply tstep_fin_same; assumption|].
  destruct Hcase as [Hop | (Hcl & HfA & Hd)].
  - apply (step_both_open a e t HT Hop HfB Herr Hfin).
  - right. pose proof (tstep_frame e t) as F. pose proof (opens_closed_gs t Hcl) as Hc.
    destruct (F a) as (_ & _ & Fa & _). destruct (Fa HfA) as [Fs Ff].
    destruct (F (other a)) as (_ & Fd & _). specialize (Fd (Hc (other a))).
    split; [|split; [assumption| congruence]].
    unfold opens.
    destruct (s_open (t_cl (tstep e t))) eqn:E1.
    { destruct (F Cl) as (M & _). specialize (M E1). rewrite (Hc Cl) in M. discriminate. }
    destruct (s_open (t_sv (tstep e t))) eqn:E2.
    { destruct (F Sv) as (M & _). specialize (M E2). rewrite (Hc Sv) in M. discriminate. }
    reflexivity.
Qed.

Lemma tun_start_opens early : opens (tun_start early) = (true, true).
Proof.
  unfold tun_start.
  rewrite copy_bytes_opens; [rewrite copy_bytes_opens; reflexivity|].
  cbn [other]. assert (E : opens (copy_bytes Sv (mkTun (side0 early) (side0 []) false false)) = (true, true))
    by (rewrite copy_bytes_opens; reflexivity).
  apply (opens_gs _ E Sv).
Qed.

Lemma tun_start_fin early y : s_fin (gs y (tun_start early)) = false.
Proof.
  unfold tun_start.
  destruct (copy_bytes_frame0 Cl (copy_bytes Sv (mkTun (side0 early) (side0 []) false false)) y) as (_ & _ & _ & E1).
  destruct (copy_bytes_frame0 Sv (mkTun (side0 early) (side0 []) false false) y) as (_ & _ & _ & E2).
  rewrite E1, E2. destruct y; reflexivity.
Qed.

(* When no I/O error or timeout occurs and B's peer does not close, Squid closes B only after it has read A's
   FIN, and then every byte A ever sent has been delivered to B. *)
Theorem tunnel_drain_on_close early evs a :
  (forall e, In e evs -> is_err e = false /\ is_fin_of (other a) e = false) ->
  let t := trun evs (tun_start early) in
  s_open (gs (other a) t) = false ->
  s_fin (gs a t) = true /\ s_deliv (gs (other a) t) = s_sentby (gs a t) /\ s_open (gs a t) = false.
Proof.
  intros Hev.
  assert (G : forall t0, TI t0 -> drain_inv a t0 -> drain_inv a (trun evs t0)).
  { induction evs as [|e evs IH]; intros t0 HT HD; cbn [trun fold_left]; [assumption|].
    destruct (Hev e (or_introl eq_refl)) as [E1 E2].
    apply IH; [intros e' Hin; apply Hev; right; exact Hin| apply tstep_TI; assumption| apply drain_step; assumption]. }
  cbn zeta. intros Hclosed.
  destruct (G (tun_start early) (tun_start_TI early)) as (_ & [Hop | (Hcl & HfA & Hd)]).
  - split; [apply tun_start_fin|]. left. apply tun_start_opens.
  - rewrite (opens_gs _ Hop (other a)) in Hclosed. discriminate.
  - split; [assumption|]. split; [assumption|]. apply (opens_closed_gs _ Hcl a).
Qed.

(* non-vacuity: a client sends early bytes and more, half-closes; everything arrives before the server is closed *)
Definition ex_tevs : list tev :=
  [TWrote Sv; TSend Cl [7;8]; TSend Sv [5]; TRead Sv 9; TRead Cl 1; TWrote Cl; TWrote Sv; TRead Cl 5; TFin Cl; TWrote Sv; TRead Cl 1].
