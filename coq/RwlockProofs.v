(* RwlockProofs.v — proofs about RwlockModel.v (C54).

   Method: every program counter carries nine 0/1 weights; the invariant says
   that each atomic field equals the sum of one weight over all processes, that
   at most one process is "first writer", and a Dekker-style clause relating the
   exclusive-committed writer to the processes counted in readLevel. One step of
   one process changes the sums by (weight after - weight before), so
   preservation is linear arithmetic per program counter. *)
Require Import SquidV.Bytes SquidV.RwlockModel.
Require Import ZifyBool ZifyN ZifyNat.
Local Open Scope Z_scope.

Definition b2z (b : bool) : Z := if b then 1 else 0.

Record W := mkW {
  rl : Z;   (* has incremented readLevel and not yet decremented it *)
  rd : Z;   (* has incremented readers and not yet decremented it *)
  wl : Z;   (* has incremented writeLevel and not yet decremented it *)
  fw : Z;   (* its writeLevel++ returned 0 ("first writer") and it has not yet decremented *)
  wr : Z;   (* has stored writing = true and not yet writing = false *)
  ap : Z;   (* has stored appending = true and not yet appending = false *)
  up : Z;   (* has set `updating` (test_and_set returned false) and not yet cleared it *)
  xc : Z;   (* committed to exclusivity: saw readLevel == 0, not appending, still claims exclusive access *)
  rc : Z    (* counted in readLevel and NOT in the undecided/failing part of lockShared (LS2, LS3, LS5) *)
}.

Definition wmode (m : mode) : W :=
  match m with           (* rl rd wl fw wr ap up xc rc *)
  | MIdle    => mkW 0 0 0 0 0 0 0 0 0
  | MShared  => mkW 1 1 0 0 0 0 0 0 1
  | MHeaders => mkW 1 1 0 0 0 0 1 0 1
  | MExcl    => mkW 0 0 1 1 1 0 0 1 0
  | MAppend  => mkW 0 0 1 1 1 1 0 0 0
  | MBusy    => mkW 0 0 1 1 1 0 0 0 0
  end.

Definition us_wl (k : usk) : Z := match k with UsSxWin | UsSxLose => 1 | _ => 0 end.
Definition us_fw (k : usk) : Z := match k with UsSxWin => 1 | _ => 0 end.
Definition ux_r (k : uxk) : Z := match k with UxSw => 1 | UxPlain => 0 end.

Definition wt (p : pc) : W :=
  match p with                 (* rl rd wl fw wr ap up xc rc *)
  | Ready m | Done m => wmode m
  | Crashed     => mkW 0 0 0 0 0 0 0 0 0
  | LS1 _       => mkW 0 0 0 0 0 0 0 0 0
  | LS2 _       => mkW 1 0 0 0 0 0 0 0 0
  | LS3 _       => mkW 1 0 0 0 0 0 0 0 0
  | LS4 _       => mkW 1 0 0 0 0 0 0 0 1
  | LS5 _       => mkW 1 0 0 0 0 0 0 0 0
  | LH1         => mkW 1 1 0 0 0 0 0 0 1
  | US1 k       => mkW 1 1 (us_wl k) (us_fw k) 0 0 0 0 1
  | US2 k       => mkW 1 1 (us_wl k) (us_fw k) 0 0 0 0 1
  | US3 k       => mkW 1 0 (us_wl k) (us_fw k) 0 0 0 0 1
  | LX1         => mkW 0 0 0 0 0 0 0 0 0
  | LX2         => mkW 0 0 1 0 0 0 0 0 0
  | FX1 _       => mkW 0 0 1 1 0 0 0 0 0
  | FX2 _       => mkW 0 0 1 1 0 0 0 0 0
  | FX3 _       => mkW 0 0 1 1 0 0 0 0 0
  | FX4 _       => mkW 0 0 1 1 0 0 0 1 0
  | FX5 _       => mkW 0 0 1 1 0 0 0 0 0
  | UX1 k a     => mkW (ux_r k) (ux_r k) 1 1 1 (b2z a) 0 0 (ux_r k)
  | UX2 k a     => mkW (ux_r k) (ux_r k) 1 1 1 (b2z a) 0 0 (ux_r k)
  | UX3 k       => mkW (ux_r k) (ux_r k) 1 1 1 0 0 0 (ux_r k)
  | UX4 k       => mkW (ux_r k) (ux_r k) 1 1 0 0 0 0 (ux_r k)
  | UH1         => mkW 1 1 0 0 0 0 1 0 1
  | UH2         => mkW 1 1 0 0 0 0 1 0 1
  | SW1 a       => mkW 0 0 1 1 1 (b2z a) 0 0 0
  | SW2 a       => mkW 0 0 1 1 1 (b2z a) 0 0 0
  | SW3 a       => mkW 1 0 1 1 1 (b2z a) 0 0 1
  | SX1         => mkW 1 1 0 0 0 0 0 0 1
  | SX2         => mkW 1 1 0 0 0 0 0 0 1
  | SX3         => mkW 0 0 1 0 0 0 0 0 0
  | SA1         => mkW 0 0 1 1 1 0 0 0 0
  | SA2         => mkW 0 0 1 1 1 0 0 0 0
  | SP1         => mkW 0 0 1 1 1 1 0 0 0
  | SP2         => mkW 0 0 1 1 1 1 0 0 0
  | SP3         => mkW 0 0 1 1 1 1 0 0 0
  | SP4         => mkW 0 0 1 1 1 0 0 0 0
  end.

Definition cr (p : pc) : Z := match p with Crashed => 1 | _ => 0 end.

Definition sumf (f : pc -> Z) (l : list thread) : Z :=
  fold_right (fun th a => f (fst th) + a) 0 l.

Definition Srl := sumf (fun p => rl (wt p)).
Definition Srd := sumf (fun p => rd (wt p)).
Definition Swl := sumf (fun p => wl (wt p)).
Definition Sfw := sumf (fun p => fw (wt p)).
Definition Swr := sumf (fun p => wr (wt p)).
Definition Sap := sumf (fun p => ap (wt p)).
Definition Sup := sumf (fun p => up (wt p)).
Definition Sxc := sumf (fun p => xc (wt p)).
Definition Src := sumf (fun p => rc (wt p)).
Definition Scr := sumf cr.

Record Inv (st : state) : Prop := mkInv {
  inv_rl : readLevel (sh st) = Srl (ths st);            (* "number of users reading (or trying to)" *)
  inv_wl : writeLevel (sh st) = Swl (ths st);           (* "number of users writing (or trying to write)" *)
  inv_rd : readers (sh st) = Srd (ths st);              (* "number of reading users" *)
  inv_wr : b2z (writing (sh st)) = Swr (ths st);        (* "there is a writing user (there can be at most 1)" *)
  inv_ap : b2z (appending (sh st)) = Sap (ths st);      (* "the writer has promised to only append" *)
  inv_up : b2z (updating (sh st)) = Sup (ths st);       (* "a reader is updating metadata/headers" *)
  inv_fw : Sfw (ths st) <= 1;                           (* at most one first writer *)
  inv_dk : Sxc (ths st) = 0 \/ Src (ths st) = 0;        (* exclusive-committed writer => nobody decided to read *)
  inv_cr : Scr (ths st) = 0                             (* no assertion has failed *)
}.

Lemma updN_split : forall (A : Type) (l : list A) (n : N) (x : A),
  nthN n l = Some x -> exists l1 l2, l = l1 ++ x :: l2 /\ forall y, updN n y l = l1 ++ y :: l2.
Proof.
  induction l as [|a l IH]; intros n x H; simpl in H; [discriminate|].
  destruct (N.eqb_spec n 0%N) as [E|E].
  - inversion H; subst. exists [], l. split; reflexivity.
  - destruct (IH _ _ H) as (l1 & l2 & E1 & E2).
    exists (a :: l1), l2. split; [simpl; rewrite E1; reflexivity|].
    intro y. simpl. destruct (N.eqb_spec n 0%N); [contradiction|]. rewrite E2. reflexivity.
Qed.

Lemma nthN_app_mid : forall (A : Type) (l1 l2 : list A) (x : A), nthN (lenN l1) (l1 ++ x :: l2) = Some x.
Proof. intros. apply nthN_app_len. Qed.

Lemma sumf_app : forall f l1 l2, sumf f (l1 ++ l2) = sumf f l1 + sumf f l2.
Proof. induction l1 as [|a l1 IH]; intros; simpl; [lia | rewrite IH; lia]. Qed.

Lemma sumf_cons : forall f p scr l, sumf f ((p, scr) :: l) = f p + sumf f l.
Proof. reflexivity. Qed.

Lemma sumf_mid : forall f l1 p scr l2, sumf f (l1 ++ (p, scr) :: l2) = f p + sumf f (l1 ++ l2).
Proof. intros. rewrite !sumf_app, sumf_cons. lia. Qed.

(* every sum over the processes splits into one member (two different members) and the sum over the others *)
Lemma sumf_focus : forall l i p s, nthN i l = Some (p, s) -> exists l', forall f, sumf f l = f p + sumf f l'.
Proof.
  intros l i p s N. destruct (updN_split _ _ _ _ N) as (l1 & l2 & -> & _).
  exists (l1 ++ l2). intro f. apply sumf_mid.
Qed.

Lemma sumf_focus2 : forall l i j p s q r,
  i <> j -> nthN i l = Some (p, s) -> nthN j l = Some (q, r) -> exists l', forall f, sumf f l = f p + f q + sumf f l'.
Proof.
  induction l as [|[a sa] l IH]; intros i j p s q r D Ni Nj; simpl in Ni, Nj; [discriminate|].
  destruct (N.eqb_spec i 0%N) as [Ei|Ei]; destruct (N.eqb_spec j 0%N) as [Ej|Ej].
  - congruence.
  - inversion Ni; subst. destruct (sumf_focus _ _ _ _ Nj) as [l' S]. exists l'. intro f. rewrite sumf_cons, S. lia.
  - inversion Nj; subst. destruct (sumf_focus _ _ _ _ Ni) as [l' S]. exists l'. intro f. rewrite sumf_cons, S. lia.
  - destruct (IH (N.pred i) (N.pred j) p s q r) as [l' S]; [lia | assumption | assumption |].
    exists ((a, sa) :: l'). intro f. rewrite !sumf_cons, S. lia.
Qed.

Ltac unfold_sums :=
  unfold Srl, Srd, Swl, Sfw, Swr, Sap, Sup, Sxc, Src, Scr in *.

Definition sums (l : list thread) : W := mkW (Srl l) (Srd l) (Swl l) (Sfw l) (Swr l) (Sap l) (Sup l) (Sxc l) (Src l).

(* the invariant seen from one process: its own weights w, the sums r and c over the others *)
Definition inv_at (s : shared) (w r : W) (c : Z) : Prop :=
  readLevel s = rl w + rl r /\ writeLevel s = wl w + wl r /\ readers s = rd w + rd r /\
  b2z (writing s) = wr w + wr r /\ b2z (appending s) = ap w + ap r /\ b2z (updating s) = up w + up r /\
  fw w + fw r <= 1 /\ (xc w + xc r = 0 \/ rc w + rc r = 0) /\ c = 0.

Lemma inv_focus : forall s l1 p scr l2,
  Inv (mkState s (l1 ++ (p, scr) :: l2)) <-> inv_at s (wt p) (sums (l1 ++ l2)) (cr p + Scr (l1 ++ l2)).
Proof.
  intros. unfold inv_at, sums. cbn [rl rd wl fw wr ap up xc rc]. split.
  - intros [H1 H2 H3 H4 H5 H6 H7 H8 H9]. cbn [sh ths] in *. unfold_sums. rewrite !sumf_mid in *. auto 10.
  - intros (H1 & H2 & H3 & H4 & H5 & H6 & H7 & H8 & H9). constructor; cbn [sh ths]; unfold_sums; rewrite !sumf_mid; assumption.
Qed.

(* so it only depends on the weights *)
Lemma inv_swap : forall s l1 l2 p q sp sq,
  wt p = wt q -> cr p = cr q ->
  Inv (mkState s (l1 ++ (p, sp) :: l2)) -> Inv (mkState s (l1 ++ (q, sq) :: l2)).
Proof. intros s l1 l2 p q sp sq Hw Hc H. apply inv_focus in H. apply inv_focus. rewrite <- Hw, <- Hc. exact H. Qed.

(* what every weight vector satisfies, pointwise and summed up *)
Definition wok (w : W) (c : Z) : Prop :=
  0 <= rl w /\ 0 <= rd w /\ 0 <= wl w /\ 0 <= fw w /\ 0 <= wr w /\ 0 <= ap w /\ 0 <= up w /\ 0 <= xc w /\ 0 <= rc w /\
  0 <= c /\ xc w + ap w <= fw w /\ fw w <= wl w /\ wr w <= fw w /\ rc w <= rl w /\ rd w <= rc w /\ up w <= rd w.

Lemma wt_ok : forall p, wok (wt p) (cr p).
Proof.
  intro p. unfold wok.
  destruct p as [m|m| |k|k|k|k|k| |k|k|k| | |k|k|k|k|k|k a|k a|k|k| | |a|a|a| | | | | | | | | ];
    try destruct m; try destruct k; try destruct a;
    cbn [wt wmode rl rd wl fw wr ap up xc rc cr us_wl us_fw ux_r b2z]; lia.
Qed.

Lemma sums_ok : forall l, wok (sums l) (Scr l).
Proof.
  induction l as [|[p scr] l IH]; [unfold wok; simpl; lia|].
  pose proof (wt_ok p) as P. unfold wok, sums in *. unfold_sums. rewrite !sumf_cons.
  cbn [rl rd wl fw wr ap up xc rc] in *. lia.
Qed.

Lemma fetch_legal : forall m scr o r,
  fetch m scr = Some (o, r) -> legal m o = true /\ (length r < length scr)%nat.
Proof.
  induction scr as [|a scr IH]; simpl; intros o r H; [discriminate|].
  destruct (legal m a) eqn:E.
  - inversion H; subst. split; [assumption | lia].
  - destruct (IH _ _ H). split; [assumption | lia].
Qed.

Lemma b2z_range : forall b, 0 <= b2z b <= 1.
Proof. destruct b; simpl; lia. Qed.

Ltac split_ifs E :=
  repeat match type of E with
         | context [if ?c then _ else _] => destruct c eqn:?
         end.

(* whatever the others are doing (r, c): the step changes each field by (weight after - weight before), and what the
   guards read excludes, through the general properties of r, the cases where a clause would break *)
Lemma pstep_at : forall s p scr s' p' scr' evs r c,
  wok r c -> inv_at s (wt p) r (cr p + c) -> pstep s p scr = (s', p', scr', evs) -> inv_at s' (wt p') r (cr p' + c).
Proof.
  intros [R Wr Ap Up RL WL] p scr s' p' scr' evs [r1 r2 r3 r4 r5 r6 r7 r8 r9] c K HI E.
  unfold wok, inv_at in *. cbn [rl rd wl fw wr ap up xc rc readers writing appending updating readLevel writeLevel] in K, HI.
  destruct HI as (H1 & H2 & H3 & H4 & H5 & H6 & H7 & H8 & H9).
  destruct K as (? & ? & ? & ? & ? & ? & ? & ? & ? & ? & ? & ? & ? & ? & ? & ?).
  pose proof (b2z_range Wr). pose proof (b2z_range Ap). pose proof (b2z_range Up).
  destruct p as [m|m| |k|k|k|k|k| |k|k|k| | |k|k|k|k|k|k a|k a|k|k| | |a|a|a| | | | | | | | | ].
  1: cbn [pstep] in E; destruct (fetch m scr) as [[o r]|] eqn:F;
       [destruct (fetch_legal _ _ _ _ F) as [L _]; destruct m, o; try discriminate L; cbn [entry is_append] in E |].
  all: try destruct k; try destruct a;
    cbn [pstep set_readers set_writing set_appending set_updating set_readLevel set_writeLevel
         readers writing appending updating readLevel writeLevel ls_op fx_op] in E;
    cbn [wt wmode rl rd wl fw wr ap up xc rc cr us_wl us_fw ux_r b2z] in H1, H2, H3, H4, H5, H6, H7, H8, H9;
    split_ifs E; cbn [b2z] in *; injection E as <- <- <- <-;
    cbn [wt wmode rl rd wl fw wr ap up xc rc cr us_wl us_fw ux_r b2z
         set_readers set_writing set_appending set_updating set_readLevel set_writeLevel
         readers writing appending updating readLevel writeLevel];
    repeat apply conj; first [assumption | lia].
Qed.

Lemma pstep_inv : forall s l1 l2 p scr s' p' scr' evs,
  Inv (mkState s (l1 ++ (p, scr) :: l2)) ->
  pstep s p scr = (s', p', scr', evs) ->
  Inv (mkState s' (l1 ++ (p', scr') :: l2)).
Proof.
  intros s l1 l2 p scr s' p' scr' evs HI E. apply inv_focus in HI. apply inv_focus.
  exact (pstep_at _ _ _ _ _ _ _ _ _ (sums_ok _) HI E).
Qed.

Lemma step_inv : forall st t st' evs b, Inv st -> step st t = (st', evs, b) -> Inv st'.
Proof.
  intros [s l] t st' evs b HI E. unfold step in E. cbn [sh ths] in E.
  destruct (nthN t l) as [[p scr]|] eqn:N; [|inversion E; subst; assumption].
  destruct (terminal p); [inversion E; subst; assumption|].
  destruct (pstep s p scr) as [[[s1 p1] scr1] evs1] eqn:P.
  inversion E; subst; clear E.
  destruct (updN_split _ _ _ _ N) as (l1 & l2 & E1 & E2).
  rewrite E2. subst l. eapply pstep_inv; eassumption.
Qed.

Lemma exec_inv : forall sched st st' evs n, Inv st -> exec st sched = (st', evs, n) -> Inv st'.
Proof.
  induction sched as [|t r IH]; intros st st' evs n HI E; simpl in E.
  - inversion E; subst; assumption.
  - destruct (step st t) as [[st1 e1] b] eqn:S1.
    destruct (exec st1 r) as [[st2 e2] n2] eqn:S2.
    inversion E; subst; clear E.
    eapply IH; [|eassumption]. eapply step_inv; eassumption.
Qed.

Lemma sumf_zero_idle : forall f scripts,
  f (Ready MIdle) = 0 -> sumf f (map (fun scr : list op => (Ready MIdle, scr)) scripts) = 0.
Proof. intros f scripts H. induction scripts as [|a l IH]; simpl; [reflexivity|]. rewrite H, IH. reflexivity. Qed.

Lemma init_inv : forall scripts, Inv (init scripts).
Proof.
  intro scripts. unfold init. constructor; cbn [sh ths idle_shared readers writing appending updating readLevel writeLevel];
    unfold_sums; rewrite ?sumf_zero_idle; try reflexivity; try lia.
Qed.

Lemma run_rr_inv : forall fuel st st' evs n, Inv st -> run_rr fuel st = Some (st', evs, n) -> Inv st'.
Proof.
  induction fuel as [|f IH]; intros st st' evs n HI E; simpl in E.
  - destruct (all_terminal st); [inversion E; subst; assumption | discriminate].
  - destruct (all_terminal st); [inversion E; subst; assumption|].
    destruct (exec st (tids st)) as [[st1 e1] n1] eqn:X.
    destruct (run_rr f st1) as [[[st2 e2] n2]|] eqn:R; [|discriminate].
    inversion E; subst; clear E.
    eapply IH; [|eassumption]. eapply exec_inv; eassumption.
Qed.

(* every state reachable from the initial one by any schedule *)
Definition reach (scripts : list (list op)) (sched : list N) : state := fst (fst (exec (init scripts) sched)).

Theorem reach_inv : forall scripts sched, Inv (reach scripts sched).
Proof.
  intros. unfold reach. destruct (exec (init scripts) sched) as [[st e] n] eqn:E. simpl.
  eapply exec_inv; [apply init_inv | eassumption].
Qed.

Theorem run_case_inv : forall scripts sched st evs n, run_case scripts sched = Some (st, evs, n) -> Inv st.
Proof.
  intros scripts sched st evs n E. unfold run_case in E.
  destruct (exec (init scripts) sched) as [[st1 e1] n1] eqn:X.
  destruct (run_rr (S (work st1)) st1) as [[[st2 e2] n2]|] eqn:R; [|discriminate].
  inversion E; subst; clear E.
  eapply run_rr_inv; [|eassumption]. eapply exec_inv; [apply init_inv | eassumption].
Qed.

Section Consequences.
  Variable st : state.
  Hypothesis HI : Inv st.

  Lemma holder_weights : forall p m, holds p = Some m -> wt p = wmode m.
  Proof. intros p m H. destruct p; simpl in H; try discriminate; inversion H; subst; reflexivity. Qed.

  Theorem holders_compatible : forall i j pi si pj sj a b,
    i <> j -> nthN i (ths st) = Some (pi, si) -> nthN j (ths st) = Some (pj, sj) ->
    holds pi = Some a -> holds pj = Some b -> compat a b = true.
  Proof.
    intros i j pi si pj sj a b D Ni Nj Ha Hb.
    destruct (sumf_focus2 _ _ _ _ _ _ _ D Ni Nj) as [l' S].
    destruct HI as [_ _ _ _ _ H6 H7 H8 _].
    pose proof (b2z_range (updating (sh st))) as BU.
    pose proof (sums_ok l') as F. unfold wok, sums in F. unfold_sums. cbn [rl rd wl fw wr ap up xc rc] in F.
    rewrite !S in *. cbn beta in *.
    rewrite (holder_weights _ _ Ha), (holder_weights _ _ Hb) in *.
    destruct a, b; cbn [wmode rl rd wl fw wr ap up xc rc compat] in *; try reflexivity; exfalso; lia.
  Qed.

  Theorem no_crash : forall i p s, nthN i (ths st) = Some (p, s) -> p <> Crashed.
  Proof.
    intros i p s Ni ->. destruct (sumf_focus _ _ _ _ Ni) as [l' S].
    destruct HI as [_ _ _ _ _ _ _ _ H9]. destruct (sums_ok l') as (_ & _ & _ & _ & _ & _ & _ & _ & _ & F & _).
    unfold Scr in *. rewrite S in H9. cbn [cr] in H9. lia.
  Qed.

  Lemma sumf_all_idle : forall f l,
    f (Ready MIdle) = 0 -> f (Done MIdle) = 0 ->
    (forall th, In th l -> holds (fst th) = Some MIdle) -> sumf f l = 0.
  Proof.
    intros f l H1 H2. induction l as [|[p s] l IH]; intro A; simpl; [reflexivity|].
    rewrite IH by (intros; apply A; right; assumption).
    specialize (A (p, s) (or_introl eq_refl)). simpl in A.
    destruct p; simpl in A; try discriminate; inversion A; subst; lia.
  Qed.

  Theorem idle_when_all_released :
    (forall th, In th (ths st) -> holds (fst th) = Some MIdle) -> sh st = idle_shared.
  Proof.
    intro A. destruct HI as [H1 H2 H3 H4 H5 H6 _ _ _]. unfold_sums.
    rewrite sumf_all_idle in H1, H2, H3, H4, H5, H6 by (reflexivity || exact A).
    destruct (sh st) as [R Wr Ap Up RL WL]. cbn [readers writing appending updating readLevel writeLevel] in *.
    subst. destruct Wr, Ap, Up; simpl in *; try discriminate; reflexivity.
  Qed.
End Consequences.

Lemma probe_idle : probe idle_shared = Some [EvRet OpLX true; EvRet OpLS true; EvRet OpLH true].
Proof. vm_compute. reflexivity. Qed.

(* the round-robin completion terminates (no lock operation can loop or block) *)
Lemma work_mid : forall s s' l1 th l2, work (mkState s (l1 ++ th :: l2)) = (twork th + work (mkState s' (l1 ++ l2)))%nat.
Proof. intros. unfold work. cbn [ths]. induction l1 as [|a l1 IH]; simpl; [reflexivity | rewrite IH; lia]. Qed.

Lemma rank_entry : forall m o, (rank (entry m o) <= 14)%nat.
Proof. intros m o. destruct m, o; simpl; lia. Qed.

Lemma pstep_work : forall s p scr s' p' scr' evs,
  terminal p = false -> pstep s p scr = (s', p', scr', evs) -> (twork (p', scr') < twork (p, scr))%nat.
Proof.
  intros s p scr s' p' scr' evs T E. unfold twork. cbn [fst snd].
  destruct p as [m|m| |k|k|k|k|k| |k|k|k| | |k|k|k|k|k|k a|k a|k|k| | |a|a|a| | | | | | | | | ];
    try discriminate T.
  1: { cbn [pstep] in E. destruct (fetch m scr) as [[o r]|] eqn:F.
       - apply fetch_legal in F. destruct F as [_ F]. inversion E; subst; clear E.
         pose proof (rank_entry m o). cbn [rank]. lia.
       - inversion E; subst; clear E. simpl. lia. }
  all: try destruct k; cbn [pstep] in E; split_ifs E; injection E as _ <- <- _; apply Nat.add_lt_mono_r; cbn [rank]; lia.
Qed.

Lemma step_work : forall st t st' evs b,
  step st t = (st', evs, b) ->
  if b then (work st' < work st)%nat else st' = st.
Proof.
  intros [s l] t st' evs b E. unfold step in E. cbn [sh ths] in E.
  destruct (nthN t l) as [[p scr]|] eqn:N; [|inversion E; subst; reflexivity].
  destruct (terminal p) eqn:T; [inversion E; subst; reflexivity|].
  destruct (pstep s p scr) as [[[s1 p1] scr1] evs1] eqn:P.
  inversion E; subst; clear E.
  destruct (updN_split _ _ _ _ N) as (l1 & l2 & E1 & E2).
  rewrite E2. subst l. rewrite !(work_mid _ s).
  pose proof (pstep_work _ _ _ _ _ _ _ T P). lia.
Qed.

Lemma step_flag : forall st t p scr,
  nthN t (ths st) = Some (p, scr) -> terminal p = false -> snd (step st t) = true.
Proof.
  intros st t p scr N T. unfold step. rewrite N, T.
  destruct (pstep (sh st) p scr) as [[[s1 p1] scr1] evs1]. reflexivity.
Qed.

Lemma exec_work_le : forall sched st st' evs n, exec st sched = (st', evs, n) -> (work st' <= work st)%nat.
Proof.
  induction sched as [|t r IH]; intros st st' evs n E; simpl in E.
  - inversion E; subst. lia.
  - destruct (step st t) as [[st1 e1] b] eqn:S1. destruct (exec st1 r) as [[st2 e2] n2] eqn:S2.
    inversion E; subst; clear E.
    pose proof (step_work _ _ _ _ _ S1) as W. pose proof (IH _ _ _ _ S2).
    destruct b; [lia | subst; lia].
Qed.

Lemma exec_work_lt : forall sched st st' evs n t p scr,
  In t sched -> nthN t (ths st) = Some (p, scr) -> terminal p = false ->
  exec st sched = (st', evs, n) -> (work st' < work st)%nat.
Proof.
  induction sched as [|t0 r IH]; intros st st' evs n t p scr I N T E; [contradiction|].
  simpl in E. destruct (step st t0) as [[st1 e1] b] eqn:S1. destruct (exec st1 r) as [[st2 e2] n2] eqn:S2.
  inversion E; subst; clear E.
  pose proof (step_work _ _ _ _ _ S1) as W. pose proof (exec_work_le _ _ _ _ _ S2) as L.
  destruct b; [lia|]. subst st1.
  destruct I as [I|I].
  - subst t0. pose proof (step_flag _ _ _ _ N T) as Fl. rewrite S1 in Fl. discriminate Fl.
  - eapply IH; eassumption.
Qed.

Lemma not_all_terminal_witness : forall l k,
  forallb (fun th : thread => terminal (fst th)) l = false ->
  exists t p scr, nthN t l = Some (p, scr) /\ terminal p = false /\ In (k + t)%N (tids_from k l).
Proof.
  induction l as [|[p scr] l IH]; intros k H; simpl in H; [discriminate|].
  destruct (terminal p) eqn:T; simpl in H.
  - destruct (IH (N.succ k) H) as (t & q & s & N & Tq & I).
    exists (N.succ t), q, s. split; [|split; [assumption|]].
    + simpl. destruct (N.eqb_spec (N.succ t) 0%N); [lia|]. rewrite N.pred_succ. assumption.
    + simpl. right. replace (k + N.succ t)%N with (N.succ k + t)%N by lia. assumption.
  - exists 0%N, p, scr. split; [reflexivity|]. split; [assumption|]. simpl. left. lia.
Qed.

Lemma run_rr_completes : forall fuel st, (work st < fuel)%nat -> exists r, run_rr fuel st = Some r.
Proof.
  induction fuel as [|f IH]; intros st W; [lia|].
  simpl. destruct (all_terminal st) eqn:A; [eexists; reflexivity|].
  destruct (exec st (tids st)) as [[st1 e1] n1] eqn:X.
  destruct (not_all_terminal_witness _ 0%N A) as (t & p & scr & N & T & I).
  rewrite N.add_0_l in I.
  pose proof (exec_work_lt _ _ _ _ _ _ _ _ I N T X) as L.
  destruct (IH st1) as [[[st2 e2] n2] R]; [lia|]. rewrite R. eexists; reflexivity.
Qed.

Lemma run_rr_all_terminal : forall fuel st st' evs n, run_rr fuel st = Some (st', evs, n) -> all_terminal st' = true.
Proof.
  induction fuel as [|f IH]; intros st st' evs n E; simpl in E.
  - destruct (all_terminal st) eqn:A; [inversion E; subst; assumption | discriminate].
  - destruct (all_terminal st) eqn:A; [inversion E; subst; assumption|].
    destruct (exec st (tids st)) as [[st1 e1] n1]. destruct (run_rr f st1) as [[[st2 e2] n2]|] eqn:R; [|discriminate].
    inversion E; subst. eapply IH; eassumption.
Qed.

Theorem run_case_completes : forall scripts sched,
  exists st evs n, run_case scripts sched = Some (st, evs, n) /\ all_terminal st = true.
Proof.
  intros scripts sched. unfold run_case.
  destruct (exec (init scripts) sched) as [[st1 e1] n1].
  destruct (run_rr_completes (S (work st1)) st1) as [[[st2 e2] n2] R]; [lia|].
  rewrite R. do 3 eexists. split; [reflexivity|]. eapply run_rr_all_terminal; eassumption.
Qed.

(* at a quiescent point (every process is between two calls) the six fields say exactly who holds what *)
Definition is_headers (m : mode) : bool := match m with MHeaders => true | _ => false end.
Definition holders (f : mode -> bool) (l : list thread) : Z :=
  sumf (fun p => match holds p with Some m => b2z (f m) | None => 0 end) l.

Lemma sums_of_holders : forall l,
  (forall th, In th l -> holds (fst th) <> None) ->
  Srl l = holders is_sharer l /\ Srd l = holders is_sharer l /\ Swl l = holders is_writer l /\
  Swr l = holders is_writer l /\ Sap l = holders is_append l /\ Sup l = holders is_headers l.
Proof.
  unfold holders. unfold_sums.
  induction l as [|[p s] l IH]; intro A; [simpl; repeat split; reflexivity|].
  rewrite !sumf_cons.
  destruct IH as (I1 & I2 & I3 & I4 & I5 & I6); [intros; apply A; right; assumption|].
  specialize (A (p, s) (or_introl eq_refl)). cbn [fst] in A.
  rewrite I1, I2, I3, I4, I5, I6.
  destruct p; try (exfalso; apply A; reflexivity); destruct m; cbn; repeat split; reflexivity.
Qed.

Theorem quiescent_fields : forall st,
  Inv st -> (forall th, In th (ths st) -> holds (fst th) <> None) ->
  readers (sh st) = holders is_sharer (ths st) /\
  readLevel (sh st) = holders is_sharer (ths st) /\
  writeLevel (sh st) = holders is_writer (ths st) /\
  b2z (writing (sh st)) = holders is_writer (ths st) /\
  b2z (appending (sh st)) = holders is_append (ths st) /\
  b2z (updating (sh st)) = holders is_headers (ths st).
Proof.
  intros st [H1 H2 H3 H4 H5 H6 _ _ _] A.
  destruct (sums_of_holders _ A) as (I1 & I2 & I3 & I4 & I5 & I6).
  rewrite H1, H2, H3, H4, H5, H6. repeat split; assumption.
Qed.
