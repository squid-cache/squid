(* ChunkedProofs.v — proofs about ChunkedModel.v (TeChunkedParser and the callers' loop).  Every parsing step,
   once it has decided, gives the same answer on more input, and what it retains is a restart point.  From
   this: exact decoding of every RFC 9112 chunked body (written as an encoder) over any (segment, capacity)
   schedule, the rejections, and segmentation independence for all inputs (instance of Incremental.v). *)
Require Import SquidV.Bytes SquidV.TokModel SquidV.TokProofs SquidV.Int64Proofs SquidV.Incremental SquidV.ChunkedModel.
Require Import SquidV.gen.CharSets_gen.
Require Import ZifyBool ZifyN ZifyNat.
Local Open Scope N_scope.

Lemma lenN_nil_iff {A} (l : list A) : lenN l = 0 <-> l = [].
Proof. exact (Bytes.lenN_nil_iff l). Qed.

Lemma is_nil_app {A} (a b : list A) : is_nil a = false -> is_nil (a ++ b) = false.
Proof. destruct a; [discriminate| reflexivity]. Qed.

Lemma length_lenN {A} (a b : list A) : (length a <= length b)%nat <-> lenN a <= lenN b.
Proof. rewrite !lenN_length. lia. Qed.

Lemma span_takeN {A} (p : A -> bool) l : forall n, fst (span p (takeN n l)) = takeN n (fst (span p l)).
Proof.
  induction l as [|x l IH]; intros n; [reflexivity|]. cbn [takeN span].
  destruct (n =? 0) eqn:En; [now rewrite (proj1 (N.eqb_eq _ _) En), takeN_0|]. cbn [span].
  destruct (p x); [|reflexivity]. specialize (IH (N.pred n)).
  destruct (span p (takeN (N.pred n) l)), (span p l). cbn [fst takeN] in *. now rewrite En, IH.
Qed.

(* a result whose remaining buffer has grown by x *)
Definition ext1 (x : bytes) (r : res bytes) : res bytes :=
  match r with Ok b => Ok (b ++ x) | Insuf => Insuf | Bad e => Bad e end.
Definition ext2 (x : bytes) (r : res (bytes * bytes)) : res (bytes * bytes) :=
  match r with Ok (t, b) => Ok (t, b ++ x) | Insuf => Insuf | Bad e => Bad e end.

Lemma prefix_shorter set lim b t r : tok_prefix set lim b = Some (t, r) -> (length r < length b)%nat.
Proof.
  intros H. apply tok_prefix_sound in H as (<- & Hne & _). rewrite app_length.
  destruct t; [congruence|]. cbn [length]. lia.
Qed.

Lemma prefix_req_stable e set b x :
  tok_prefix_req e set b <> Insuf -> tok_prefix_req e set (b ++ x) = ext2 x (tok_prefix_req e set b).
Proof.
  unfold tok_prefix_req. destruct b as [|c b]; cbn [is_nil]; [congruence|]. cbn [app is_nil].
  change (c :: b ++ x) with ((c :: b) ++ x).
  destruct (tok_prefix set npos (c :: b)) as [[t [|y r]]|] eqn:E; cbn [is_nil]; [congruence| |]; intros _.
  - now rewrite (tok_prefix_ext_some _ _ _ x _ _ E) by discriminate.
  - now rewrite (tok_prefix_ext_none set npos (c :: b) x) by first [discriminate | exact E].
Qed.

Lemma prefix_req_shorter e set b t r : tok_prefix_req e set b = Ok (t, r) -> (length r < length b)%nat.
Proof.
  unfold tok_prefix_req. destruct (is_nil b); [discriminate|].
  destruct (tok_prefix set npos b) as [[t' r']|] eqn:E; [destruct (is_nil r')|]; try discriminate.
  intros H. injection H as <- <-. eapply prefix_shorter; eassumption.
Qed.

Lemma skipChar_shorter c b : (length (snd (tok_skipChar c b)) <= length b)%nat.
Proof. destruct b as [|y b]; cbn [tok_skipChar snd length]; [lia|]. destruct (y =? c); cbn [snd length]; lia. Qed.

Lemma skipChar_true_shorter c b : fst (tok_skipChar c b) = true -> (length (snd (tok_skipChar c b)) < length b)%nat.
Proof. destruct b as [|y b]; cbn [tok_skipChar fst snd length]; [discriminate|]. destruct (y =? c); cbn [fst snd length]; [lia|discriminate]. Qed.

Lemma parse_bws_eq set b : parse_bws_ set b = match snd (span set b) with [] => Insuf | r => Ok r end.
Proof. unfold parse_bws_. rewrite tok_skipAll_spec. now destruct (snd (span set b)). Qed.

Lemma bws_stable set b x : parse_bws_ set b <> Insuf -> parse_bws_ set (b ++ x) = ext1 x (parse_bws_ set b).
Proof.
  rewrite !parse_bws_eq. destruct (span set b) as [a [|y r]] eqn:E; cbn [snd]; [congruence|].
  intros _. now rewrite (span_stable set b x a y r E).
Qed.

Lemma bws_ok_inv set b r : parse_bws_ set b = Ok r -> r <> [] /\ (length r <= length b)%nat.
Proof.
  rewrite parse_bws_eq. pose proof (span_app set b) as Ha.
  destruct (snd (span set b)) as [|y r'] eqn:E; [discriminate|].
  intros H. injection H as <-. split; [discriminate|]. rewrite <- Ha, app_length. lia.
Qed.

Lemma bws_not_bad set b e : parse_bws_ set b <> Bad e.
Proof. rewrite parse_bws_eq. destruct (snd (span set b)); discriminate. Qed.

Lemma bws_run set w y r : forallb set w = true -> set y = false -> parse_bws_ set (w ++ y :: r) = Ok (y :: r).
Proof. intros Hw Hy. now rewrite parse_bws_eq, (span_app_stop set w (y :: r) Hw Hy). Qed.

Lemma bws_stop set y r : set y = false -> parse_bws_ set (y :: r) = Ok (y :: r).
Proof. exact (bws_run set [] y r eq_refl). Qed.

Lemma bws_all set w : forallb set w = true -> parse_bws_ set w = Insuf.
Proof. intros Hw. now rewrite parse_bws_eq, (span_forall set w Hw). Qed.

Lemma skipRequired_crlf_cases e b :
  tok_skipRequired e crlf b =
  match b with
  | [] => Insuf
  | c0 :: b' => if c0 =? 13 then match b' with
                                 | [] => Insuf
                                 | c1 :: r => if c1 =? 10 then Ok r else Bad e
                                 end
                else Bad e
  end.
Proof.
  unfold tok_skipRequired, tok_skip, crlf.
  destruct b as [|c0 b]; [reflexivity|].
  cbn [starts_with lenN]. rewrite (N.eqb_sym 13 c0).
  destruct (c0 =? 13); cbn [andb]; [|reflexivity].
  destruct b as [|c1 b]; [reflexivity|]. cbn [starts_with]. rewrite (N.eqb_sym 10 c1).
  destruct (c1 =? 10); cbn [andb]; [|reflexivity]. now destruct b.
Qed.

Lemma skipRequired_stable e b x :
  tok_skipRequired e crlf b <> Insuf -> tok_skipRequired e crlf (b ++ x) = ext1 x (tok_skipRequired e crlf b).
Proof.
  rewrite !skipRequired_crlf_cases.
  destruct b as [|c0 b]; [congruence|]. cbn [app].
  destruct (c0 =? 13); [|reflexivity].
  destruct b as [|c1 b]; [congruence|]. cbn [app].
  destruct (c1 =? 10); reflexivity.
Qed.

Lemma skipRequired_ok_len e b t : tok_skipRequired e crlf b = Ok t -> (length t < length b)%nat.
Proof.
  rewrite skipRequired_crlf_cases. destruct b as [|c0 [|c1 b']]; try discriminate; destruct (c0 =? 13); try discriminate.
  destruct (c1 =? 10); [|discriminate]. intros H; injection H as <-. cbn [length]; lia.
Qed.

Lemma prefix1 set c r : tok_prefix set 1 (c :: r) = if set c then Some ([c], r) else None.
Proof.
  destruct (set c) eqn:E; [|now apply tok_prefix_none_head].
  apply (tok_prefix_complete set 1 [c] r); [discriminate| cbn [forallb]; now rewrite E | cbn [lenN]; lia | now left].
Qed.

(* the qdtext run at the head of the buffer, appended to what was collected so far *)
Definition qs_pre (acc b : bytes) : bytes * bytes :=
  match tok_prefix qdtext11 npos b with Some (t, r) => (acc ++ t, r) | None => (acc, b) end.

Lemma qs_pre_shorter acc b : (length (snd (qs_pre acc b)) <= length b)%nat.
Proof.
  unfold qs_pre. destruct (tok_prefix qdtext11 npos b) as [[t r]|] eqn:E; cbn [snd]; [|lia].
  apply prefix_shorter in E. lia.
Qed.

Lemma qs_pre_stable acc b x : snd (qs_pre acc b) <> [] ->
  qs_pre acc (b ++ x) = (fst (qs_pre acc b), snd (qs_pre acc b) ++ x).
Proof.
  unfold qs_pre. destruct (tok_prefix qdtext11 npos b) as [[t [|y r]]|] eqn:E; cbn [fst snd]; [congruence| |]; intros Hb.
  - now rewrite (tok_prefix_ext_some _ _ _ x _ _ E) by discriminate.
  - now rewrite (tok_prefix_ext_none _ _ _ x E Hb).
Qed.

Lemma qs_step_eq k acc b :
  qs_loop (S k) acc b =
  if is_nil b then Some Insuf
  else
    let acc1 := fst (qs_pre acc b) in let b1 := snd (qs_pre acc b) in
    if fst (tok_skipChar 92 b1) then
      match snd (tok_skipChar 92 b1) with
      | [] => Some Insuf
      | c :: r2 => if qpair_chars c then qs_loop k (acc1 ++ [c]) r2 else Some (Bad EQPair)
      end
    else if fst (tok_skipChar 34 b1) then Some (Ok (acc1, snd (tok_skipChar 34 b1)))
    else match b1 with [] => Some Insuf | _ => Some (Bad EQdtext) end.
Proof.
  cbn [qs_loop]. destruct b as [|c0 b0]; [reflexivity|]. unfold qs_pre.
  destruct (tok_prefix qdtext11 npos (c0 :: b0)) as [[t r]|]; cbn [fst snd];
  (destruct (tok_skipChar 92 _) as [bs b2]; cbn [fst snd]; destruct bs;
   [ destruct b2 as [|c r2]; [reflexivity|]; rewrite prefix1; destruct (qpair_chars c); reflexivity
   | destruct (tok_skipChar 34 _) as [dq b3]; cbn [fst snd]; reflexivity ]).
Qed.

Lemma qs_mono k : forall acc b v, qs_loop k acc b = Some v -> qs_loop (S k) acc b = Some v.
Proof.
  induction k as [|k IH]; intros acc b v H; [discriminate|].
  rewrite qs_step_eq in H. rewrite qs_step_eq.
  destruct b as [|c0 b0]; [exact H|]. cbn [is_nil] in *. cbv zeta in *.
  destruct (fst (tok_skipChar 92 _)); [|exact H].
  destruct (snd (tok_skipChar 92 _)) as [|c r2]; [exact H|].
  destruct (qpair_chars c); [|exact H]. apply IH. exact H.
Qed.

Lemma qs_mono_le k k' acc b v : (k <= k')%nat -> qs_loop k acc b = Some v -> qs_loop k' acc b = Some v.
Proof. induction 1 as [|m Hle IHle]; [tauto|]. intros Hx. apply qs_mono. tauto. Qed.

(* with fuel beyond the buffer's length the loop ends, and what it leaves is shorter *)
Lemma qs_ok k : forall acc b, (length b < k)%nat ->
  match qs_loop k acc b with None => False | Some (Ok (_, r)) => (length r < length b)%nat | _ => True end.
Proof.
  induction k as [|k IH]; intros acc b Hl; [lia|].
  rewrite qs_step_eq. destruct b as [|c0 b0]; cbn [is_nil]; [exact I|]. cbv zeta.
  pose proof (qs_pre_shorter acc (c0 :: b0)) as Hb1. set (p := qs_pre acc (c0 :: b0)) in *.
  destruct (fst (tok_skipChar 92 (snd p))) eqn:Ebs.
  - apply skipChar_true_shorter in Ebs.
    destruct (snd (tok_skipChar 92 (snd p))) as [|c r2]; [exact I|].
    destruct (qpair_chars c); [|exact I]. cbn [length] in *. specialize (IH (fst p ++ [c]) r2 ltac:(lia)).
    destruct (qs_loop k (fst p ++ [c]) r2) as [[[v r]| |e]|]; try exact IH. lia.
  - destruct (fst (tok_skipChar 34 (snd p))) eqn:Edq; [apply skipChar_true_shorter in Edq; lia|]. now destruct (snd p).
Qed.

Lemma qs_stable k : forall acc b x v, qs_loop k acc b = Some v -> v <> Insuf ->
  qs_loop k acc (b ++ x) = Some (ext2 x v).
Proof.
  induction k as [|k IH]; intros acc b x v H Hv; [discriminate|].
  rewrite qs_step_eq in H. rewrite qs_step_eq.
  destruct b as [|c0 b0]; cbn [app is_nil] in *; [congruence|]. change (c0 :: b0 ++ x) with ((c0 :: b0) ++ x). cbv zeta in *.
  set (p := qs_pre acc (c0 :: b0)) in *.
  destruct (snd p) as [|y1 b1] eqn:Eb1; [cbn [tok_skipChar fst snd] in H; congruence|].
  rewrite (qs_pre_stable acc (c0 :: b0) x) by (fold p; rewrite Eb1; discriminate).
  fold p. rewrite Eb1. cbn [fst snd].
  rewrite !(tok_skipChar_ext _ (y1 :: b1) x) by discriminate. cbn [fst snd].
  destruct (fst (tok_skipChar 92 (y1 :: b1))).
  - destruct (snd (tok_skipChar 92 (y1 :: b1))) as [|c r2]; [congruence|]. cbn [app].
    destruct (qpair_chars c); [now apply IH|]. now injection H as <-.
  - destruct (fst (tok_skipChar 34 (y1 :: b1))); now injection H as <-.
Qed.

Lemma toq_ok b : match token_or_qs b with None => False | Some (Ok (_, r)) => (length r < length b)%nat | _ => True end.
Proof.
  unfold token_or_qs. pose proof (skipChar_shorter 34 b) as Hs. destruct (tok_skipChar 34 b) as [dq b1]. cbn [snd] in Hs. destruct dq.
  - unfold quoted_suffix. pose proof (qs_ok (S (length b1)) [] b1 ltac:(lia)) as H.
    destruct (qs_loop (S (length b1)) [] b1) as [[[v r]| |e]|]; try exact H. lia.
  - destruct (is_nil b); [exact I|]. destruct (tok_prefix cs_TCHAR npos b) as [[t r]|] eqn:Ep; [|exact I].
    destruct (is_nil r); [exact I|]. eapply prefix_shorter; eassumption.
Qed.

Lemma toq_stable b x v : token_or_qs b = Some v -> v <> Insuf -> token_or_qs (b ++ x) = Some (ext2 x v).
Proof.
  unfold token_or_qs. intros H Hv.
  destruct b as [|c0 b0].
  { cbn in H. congruence. }
  assert (Hne : c0 :: b0 <> []) by discriminate.
  rewrite (tok_skipChar_ext 34 _ x Hne).
  destruct (tok_skipChar 34 (c0 :: b0)) as [dq b1] eqn:E. cbn [fst snd].
  destruct dq.
  - unfold quoted_suffix in *. eapply qs_mono_le; [|exact (qs_stable _ _ _ x _ H Hv)]. rewrite app_length. lia.
  - change (is_nil ((c0 :: b0) ++ x)) with false. cbn [is_nil] in H. cbv iota in *.
    destruct (tok_prefix cs_TCHAR npos (c0 :: b0)) as [[t r]|] eqn:Ep.
    + destruct r as [|y r]; cbn [is_nil] in H; [congruence|].
      rewrite (tok_prefix_ext_some _ _ _ x _ _ Ep) by discriminate. cbn [app is_nil]. injection H as <-. reflexivity.
    + rewrite (tok_prefix_ext_none _ _ _ x Ep Hne). injection H as <-. reflexivity.
Qed.

Lemma one_ext_ok relaxed b :
  match one_ext relaxed b with None => False | Some (Ok b3) => (length b3 < length b)%nat | _ => True end.
Proof.
  unfold one_ext, parse_bws.
  destruct (parse_bws_ (ws_chars relaxed) b) as [b1| |e] eqn:E1; try exact I.
  destruct (bws_ok_inv _ _ _ E1) as [_ L1].
  destruct (tok_prefix_req EExtName cs_TCHAR b1) as [[t b2]| |e] eqn:E2; try exact I.
  apply prefix_req_shorter in E2.
  destruct (parse_bws_ (ws_chars relaxed) b2) as [b3| |e] eqn:E3; try exact I.
  destruct (bws_ok_inv _ _ _ E3) as [_ L3].
  pose proof (skipChar_shorter 61 b3) as L4.
  destruct (tok_skipChar 61 b3) as [eq b4]. cbn [snd] in L4. destruct eq; cbn [negb]; [|lia].
  destruct (parse_bws_ (ws_chars relaxed) b4) as [b5| |e] eqn:E5; try exact I.
  destruct (bws_ok_inv _ _ _ E5) as [_ L5].
  pose proof (toq_ok b5) as L6. destruct (token_or_qs b5) as [[[vv b6]| |e]|]; try exact L6. lia.
Qed.

Lemma one_ext_stable relaxed b x v : one_ext relaxed b = Some v -> v <> Insuf ->
  one_ext relaxed (b ++ x) = Some (ext1 x v).
Proof.
  unfold one_ext, parse_bws. intros H Hv.
  destruct (parse_bws_ (ws_chars relaxed) b) as [b1| |e] eqn:E1; [| congruence | exfalso; eapply bws_not_bad; eassumption].
  rewrite bws_stable by congruence. rewrite E1. cbn [ext1].
  destruct (tok_prefix_req EExtName cs_TCHAR b1) as [[t b2]| |e] eqn:E2; [| congruence |].
  all: rewrite prefix_req_stable by congruence; rewrite E2; cbn [ext2].
  2:{ injection H as <-. reflexivity. }
  destruct (parse_bws_ (ws_chars relaxed) b2) as [b3| |e] eqn:E3; [| congruence | exfalso; eapply bws_not_bad; eassumption].
  rewrite bws_stable by congruence. rewrite E3. cbn [ext1].
  destruct (bws_ok_inv _ _ _ E3) as [Hb3 _].
  rewrite (tok_skipChar_ext 61 b3 x Hb3).
  destruct (tok_skipChar 61 b3) as [eq b4] eqn:E4. cbn [fst snd]. destruct eq; cbn [negb] in *.
  2:{ injection H as <-. reflexivity. }
  destruct (parse_bws_ (ws_chars relaxed) b4) as [b5| |e] eqn:E5; [| congruence | exfalso; eapply bws_not_bad; eassumption].
  rewrite bws_stable by congruence. rewrite E5. cbn [ext1].
  destruct (token_or_qs b5) as [[[vv b6]| |e]|] eqn:E6; try congruence.
  all: rewrite (toq_stable _ x _ E6) by congruence; cbn [ext2]; injection H as <-; reflexivity.
Qed.

Lemma exts_step_eq k relaxed ctok ck :
  exts_loop (S k) relaxed ctok ck =
  match parse_bws relaxed ctok with
  | Insuf => Some (Insuf, ck) | Bad e => Some (Bad e, ck)
  | Ok b1 =>
    if negb (fst (tok_skipChar 59 b1)) then Some (Ok ctok, ck)
    else match one_ext relaxed (snd (tok_skipChar 59 b1)) with
         | None => None
         | Some Insuf => Some (Insuf, ck)
         | Some (Bad e) => Some (Bad e, ck)
         | Some (Ok b3) => exts_loop k relaxed b3 b3
         end
  end.
Proof. cbn [exts_loop]. destruct (parse_bws relaxed ctok); try reflexivity. destruct (tok_skipChar 59 a); reflexivity. Qed.

Lemma exts_mono k : forall relaxed ctok ck v, exts_loop k relaxed ctok ck = Some v -> exts_loop (S k) relaxed ctok ck = Some v.
Proof.
  induction k as [|k IH]; intros relaxed ctok ck v H; [discriminate|].
  rewrite exts_step_eq in H. rewrite exts_step_eq.
  destruct (parse_bws relaxed ctok); try exact H.
  destruct (negb (fst (tok_skipChar 59 a))); [exact H|].
  destruct (one_ext relaxed (snd (tok_skipChar 59 a))) as [[b3| |e]|]; try exact H.
  apply IH. exact H.
Qed.

Lemma exts_mono_le k k' relaxed ctok ck v : (k <= k')%nat ->
  exts_loop k relaxed ctok ck = Some v -> exts_loop k' relaxed ctok ck = Some v.
Proof. induction 1 as [|m Hle IHle]; [tauto|]. intros Hx. apply exts_mono. tauto. Qed.

Lemma exts_enough k : forall relaxed ctok ck, (length ctok < k)%nat -> exts_loop k relaxed ctok ck <> None.
Proof.
  induction k as [|k IH]; intros relaxed ctok ck Hl; [lia|].
  rewrite exts_step_eq. unfold parse_bws.
  destruct (parse_bws_ (ws_chars relaxed) ctok) as [b1| |e] eqn:E1; try discriminate.
  destruct (bws_ok_inv _ _ _ E1) as [_ L1].
  destruct (negb (fst (tok_skipChar 59 b1))) eqn:En; [discriminate|].
  pose proof (skipChar_shorter 59 b1) as L2.
  pose proof (one_ext_ok relaxed (snd (tok_skipChar 59 b1))) as L3.
  destruct (one_ext relaxed (snd (tok_skipChar 59 b1))) as [[b3| |e]|]; try discriminate; [|destruct L3].
  apply IH. lia.
Qed.

(* fuel-free form *)
Definition exts (relaxed : bool) (ctok ck : bytes) : res bytes * bytes :=
  match exts_loop (S (length ctok)) relaxed ctok ck with Some v => v | None => (Insuf, ck) end.

Lemma exts_loop_exts k relaxed ctok ck : (length ctok < k)%nat -> exts_loop k relaxed ctok ck = Some (exts relaxed ctok ck).
Proof.
  intros Hl. unfold exts.
  pose proof (exts_enough (S (length ctok)) relaxed ctok ck ltac:(lia)) as Hs.
  destruct (exts_loop (S (length ctok)) relaxed ctok ck) as [v|] eqn:E; [|congruence].
  eapply exts_mono_le; [|exact E]. lia.
Qed.

Lemma exts_unfold relaxed ctok ck :
  exts relaxed ctok ck =
  match parse_bws relaxed ctok with
  | Insuf => (Insuf, ck) | Bad e => (Bad e, ck)
  | Ok b1 =>
    if negb (fst (tok_skipChar 59 b1)) then (Ok ctok, ck)
    else match one_ext relaxed (snd (tok_skipChar 59 b1)) with
         | None => (Insuf, ck)
         | Some Insuf => (Insuf, ck)
         | Some (Bad e) => (Bad e, ck)
         | Some (Ok b3) => exts relaxed b3 b3
         end
  end.
Proof.
  unfold exts at 1. rewrite exts_step_eq. unfold parse_bws.
  destruct (parse_bws_ (ws_chars relaxed) ctok) as [b1| |e] eqn:E1; try reflexivity.
  destruct (bws_ok_inv _ _ _ E1) as [_ L1].
  destruct (negb (fst (tok_skipChar 59 b1))); [reflexivity|].
  pose proof (skipChar_shorter 59 b1) as L2.
  pose proof (one_ext_ok relaxed (snd (tok_skipChar 59 b1))) as L3.
  destruct (one_ext relaxed (snd (tok_skipChar 59 b1))) as [[b3| |e]|]; try reflexivity.
  rewrite exts_loop_exts by lia. reflexivity.
Qed.

(* decided outcomes are stable under extension *)
Lemma exts_stable relaxed : forall n ctok, (length ctok <= n)%nat -> forall ck x,
  fst (exts relaxed ctok ck) <> Insuf ->
  exts relaxed (ctok ++ x) (ck ++ x) = (ext1 x (fst (exts relaxed ctok ck)),
                                        snd (exts relaxed ctok ck) ++ x).
Proof.
  induction n as [|n IH]; intros ctok Hl ck x.
  - destruct ctok; [|cbn in Hl; lia]. rewrite exts_unfold. cbn. congruence.
  - rewrite (exts_unfold relaxed ctok ck). rewrite (exts_unfold relaxed (ctok ++ x)). unfold parse_bws.
    destruct (parse_bws_ (ws_chars relaxed) ctok) as [b1| |e] eqn:E1; cbn [fst snd]; [| congruence | exfalso; eapply bws_not_bad; eassumption].
    rewrite bws_stable by congruence. rewrite E1. cbn [ext1].
    destruct (bws_ok_inv _ _ _ E1) as [Hb1 L1].
    rewrite (tok_skipChar_ext 59 b1 x Hb1). cbn [fst snd].
    destruct (negb (fst (tok_skipChar 59 b1))) eqn:En; cbn [fst snd]; [reflexivity|].
    pose proof (skipChar_shorter 59 b1) as L2.
    pose proof (one_ext_ok relaxed (snd (tok_skipChar 59 b1))) as L3.
    destruct (one_ext relaxed (snd (tok_skipChar 59 b1))) as [[b3| |e]|] eqn:E3; cbn [fst snd]; try congruence; try contradiction.
    + rewrite (one_ext_stable _ _ x _ E3) by congruence. cbn [ext1].
      apply IH. lia.
    + rewrite (one_ext_stable _ _ x _ E3) by congruence. cbn [ext1]. reflexivity.
Qed.

(* what the loop leaves behind is no longer than what it was given, and a moved checkpoint is a restart point *)
Lemma exts_ck relaxed : forall n ctok, (length ctok <= n)%nat -> forall ck,
  (forall t2, fst (exts relaxed ctok ck) = Ok t2 -> (length t2 <= length ctok)%nat) /\
  (snd (exts relaxed ctok ck) = ck \/
   ((length (snd (exts relaxed ctok ck)) <= length ctok)%nat /\
    forall x c0, exts relaxed (ctok ++ x) c0 = exts relaxed (snd (exts relaxed ctok ck) ++ x) (snd (exts relaxed ctok ck) ++ x))).
Proof.
  induction n as [|n IH]; intros ctok Hl ck.
  - destruct ctok; [|cbn in Hl; lia]. rewrite exts_unfold. cbn. split; [discriminate| now left].
  - rewrite (exts_unfold relaxed ctok ck). unfold parse_bws.
    destruct (parse_bws_ (ws_chars relaxed) ctok) as [b1| |e] eqn:E1; cbn [fst snd]; try (split; [discriminate| now left]).
    destruct (bws_ok_inv _ _ _ E1) as [Hb1 L1].
    destruct (negb (fst (tok_skipChar 59 b1))) eqn:En; cbn [fst snd]; [split; [intros t2 H; injection H as <-; lia| now left]|].
    pose proof (skipChar_shorter 59 b1) as L2. pose proof (one_ext_ok relaxed (snd (tok_skipChar 59 b1))) as L3.
    destruct (one_ext relaxed (snd (tok_skipChar 59 b1))) as [[b3| |e]|] eqn:E3; cbn [fst snd]; try (split; [discriminate| now left]).
    assert (Hfirst : forall x c0, exts relaxed (ctok ++ x) c0 = exts relaxed (b3 ++ x) (b3 ++ x)).
    { intros x c0. rewrite (exts_unfold relaxed (ctok ++ x)). unfold parse_bws.
      rewrite bws_stable by congruence. rewrite E1. cbn [ext1].
      rewrite (tok_skipChar_ext 59 b1 x Hb1). cbn [fst snd]. rewrite En.
      rewrite (one_ext_stable _ _ x _ E3) by congruence. reflexivity. }
    destruct (IH b3 ltac:(lia) b3) as [H1 H2]. split; [intros t2 H; apply H1 in H; lia|]. right.
    destruct H2 as [->|[Hlen Hr]]; [split; [lia| exact Hfirst]|]. split; [lia|]. intros x c0. rewrite Hfirst. apply Hr.
Qed.

Lemma span_sub {A} (p q : A -> bool) l : (forall c, p c = true -> q c = true) ->
  snd (span q (snd (span p l))) = snd (span q l).
Proof.
  intros Hpq. induction l as [|c l IH]; [reflexivity|]. cbn [span].
  destruct (p c) eqn:Ep.
  - rewrite (Hpq c Ep). destruct (span p l) as [a b]. destruct (span q l) as [a' b']. cbn [snd] in *. exact IH.
  - cbn [snd]. reflexivity.
Qed.

Definition ext_state (st : pstate) : pstate :=
  {| p_stage := if p_size st =? 0 then StMime else StChunk; p_size := p_size st; p_left := p_left st |}.

Lemma meta_eq relaxed st tok bufc :
  meta_suffix relaxed st tok bufc =
  match fst (exts relaxed tok bufc) with
  | Insuf => SRet st (snd (exts relaxed tok bufc)) []
  | Bad e => SThrow e []
  | Ok t2 =>
    match tok_skipRequired EExtCrlf crlf t2 with
    | Insuf => SRet st (snd (exts relaxed tok bufc)) []
    | Bad e => SThrow e []
    | Ok t3 => SGo (ext_state st) t3 t3 []
    end
  end.
Proof.
  unfold meta_suffix. rewrite exts_loop_exts by lia. destruct (exts relaxed tok bufc) as [[t2| |e] ck]; reflexivity.
Qed.

(* decided outcomes of the chunk-ext stage never change when more input arrives *)
Lemma meta_stable relaxed st b x :
  match meta_suffix relaxed st b b with
  | SGo s t _ o => meta_suffix relaxed st (b ++ x) (b ++ x) = SGo s (t ++ x) (t ++ x) o
  | SThrow e o => meta_suffix relaxed st (b ++ x) (b ++ x) = SThrow e o
  | _ => True
  end.
Proof.
  rewrite !meta_eq. destruct (fst (exts relaxed b b)) as [t2| |e] eqn:E2; [|exact I|];
    rewrite (exts_stable relaxed (length b) b (le_n _) b x) by congruence; cbn [fst]; rewrite E2; cbn [ext1]; [|reflexivity].
  destruct (tok_skipRequired EExtCrlf crlf t2) as [t3| |e] eqn:E3; [|exact I|];
    rewrite skipRequired_stable by congruence; rewrite E3; reflexivity.
Qed.

Lemma meta_stable_go relaxed st b x st' t3 o :
  meta_suffix relaxed st b b = SGo st' t3 t3 o ->
  meta_suffix relaxed st (b ++ x) (b ++ x) = SGo st' (t3 ++ x) (t3 ++ x) o.
Proof. intros H. pose proof (meta_stable relaxed st b x) as S. now rewrite H in S. Qed.

Lemma meta_stable_throw relaxed st b x e o :
  meta_suffix relaxed st b b = SThrow e o ->
  meta_suffix relaxed st (b ++ x) (b ++ x) = SThrow e o.
Proof. intros H. pose proof (meta_stable relaxed st b x) as S. now rewrite H in S. Qed.

Lemma meta_ret relaxed st b ck st' o : meta_suffix relaxed st b b = SRet st' ck o ->
  st' = st /\ o = [] /\ ck = snd (exts relaxed b b).
Proof.
  rewrite meta_eq.
  destruct (fst (exts relaxed b b)) as [t2| |e]; [destruct (tok_skipRequired EExtCrlf crlf t2)| |]; try discriminate;
    intros H; injection H as <- <- <-; tauto.
Qed.

Lemma meta_not_fuel relaxed st b : meta_suffix relaxed st b b <> SFuel.
Proof.
  rewrite meta_eq.
  destruct (fst (exts relaxed b b)) as [t2| |e]; try discriminate.
  destruct (tok_skipRequired EExtCrlf crlf t2); discriminate.
Qed.

Lemma wsp_cr : cs_WSP 13 = false. Proof. vm_compute. reflexivity. Qed.

(* since 1aa8f1c the checkpoint of the chunk-ext stage commutes with more input, unconditionally *)
Lemma meta_commute relaxed st b ck o st1 x :
  meta_suffix relaxed st b b = SRet st1 ck o ->
  meta_suffix relaxed st (b ++ x) (b ++ x) = meta_suffix relaxed st (ck ++ x) (ck ++ x).
Proof.
  intros Hret. apply meta_ret in Hret as (_ & _ & ->).
  destruct (exts_ck relaxed (length b) b (le_n _) b) as [_ [->|[_ Hrs]]]; [reflexivity|].
  rewrite !meta_eq. now rewrite (Hrs x (b ++ x)).
Qed.

Definition rng (lo hi c : N) : bool := (lo <=? c) && (c <=? hi).
Definition rfc_tchar (c : N) : bool :=
  (c =? 33) || rng 35 39 c || (c =? 42) || (c =? 43) || (c =? 45) || (c =? 46) ||
  rng 48 57 c || rng 65 90 c || rng 94 122 c || (c =? 124) || (c =? 126).
Definition rfc_bws (c : N) : bool := (c =? 32) || (c =? 9).
Definition rfc_qdtext (c : N) : bool :=
  (c =? 9) || (c =? 32) || (c =? 33) || rng 35 91 c || rng 93 126 c || rng 128 255 c.
Definition rfc_qpair (c : N) : bool := (c =? 9) || (c =? 32) || rng 33 126 c || rng 128 255 c.

Lemma sweep (f g : N -> bool) :
  forallb (fun c => Bool.eqb (f c) (g c)) all_bytes = true ->
  (forall c, 256 <= c -> f c = g c) -> forall c, f c = g c.
Proof.
  intros Hs Hb c. destruct (N.lt_ge_cases c 256) as [Hc|Hc]; [|apply Hb; exact Hc].
  apply Bool.eqb_prop. apply (forallb_bytes (fun c => Bool.eqb (f c) (g c))); assumption.
Qed.

Lemma mem_beyond t c : lenN t = 256 -> 256 <= c -> mem_tbl t c = false.
Proof. intros Hl Hc. apply tbl_get_default. lia. Qed.

Lemma tchar_eq c : cs_TCHAR c = rfc_tchar c.
Proof.
  revert c. apply sweep; [vm_compute; reflexivity|]. intros c Hc.
  unfold cs_TCHAR. rewrite mem_beyond by (try reflexivity; exact Hc). unfold rfc_tchar, rng. lia.
Qed.
Lemma qdtext_eq c : qdtext11 c = rfc_qdtext c.
Proof.
  revert c. apply sweep; [vm_compute; reflexivity|]. intros c Hc.
  unfold qdtext11, cs_HTAB, cs_SP, cs_OBSTEXT. rewrite !mem_beyond by (try reflexivity; exact Hc).
  unfold rfc_qdtext, rng. lia.
Qed.
Lemma qpair_eq c : qpair_chars c = rfc_qpair c.
Proof.
  revert c. apply sweep; [vm_compute; reflexivity|]. intros c Hc.
  unfold qpair_chars, cs_HTAB, cs_SP, cs_VCHAR, cs_OBSTEXT. rewrite !mem_beyond by (try reflexivity; exact Hc).
  unfold rfc_qpair, rng. lia.
Qed.
(* WSP is SP / HTAB; the relaxed parser's white space adds VT, FF and CR *)
Lemma wsp_eq c : cs_WSP c = rfc_bws c.
Proof.
  revert c. apply sweep; [vm_compute; reflexivity|]. intros c Hc.
  unfold cs_WSP. rewrite mem_beyond by (try reflexivity; exact Hc). unfold rfc_bws. lia.
Qed.
Lemma ws_chars_eq relaxed c : ws_chars relaxed c = rfc_bws c || relaxed && rng 11 13 c.
Proof.
  revert c. apply sweep; [destruct relaxed; vm_compute; reflexivity|]. intros c Hc.
  destruct relaxed; unfold ws_chars, cs_relaxed_Whitespace, cs_strict_Whitespace;
    rewrite mem_beyond by (try reflexivity; exact Hc); unfold rfc_bws, rng; lia.
Qed.

Lemma wsp_sub relaxed c : cs_WSP c = true -> ws_chars relaxed c = true.
Proof. rewrite wsp_eq, ws_chars_eq. now intros ->. Qed.
Lemma ws_bws relaxed c : rfc_bws c = true -> ws_chars relaxed c = true /\ cs_WSP c = true.
Proof. rewrite wsp_eq, ws_chars_eq. now intros ->. Qed.
Lemma ws_tchar relaxed c : rfc_tchar c = true -> ws_chars relaxed c = false /\ cs_WSP c = false.
Proof. rewrite wsp_eq, ws_chars_eq. unfold rfc_tchar, rfc_bws, rng. lia. Qed.
Lemma ws_facts relaxed : ws_chars relaxed 59 = false /\ ws_chars relaxed 61 = false /\ ws_chars relaxed 34 = false /\
  ws_chars relaxed 10 = false /\ ws_chars relaxed 13 = relaxed.
Proof. rewrite !ws_chars_eq. now destruct relaxed. Qed.
Lemma tchar_not_crlf c : rfc_tchar c = true -> negb (c =? 13) && negb (c =? 10) = true.
Proof. unfold rfc_tchar, rng. lia. Qed.
Lemma tchar_nothex_special : rfc_tchar 59 = false /\ rfc_tchar 61 = false /\ rfc_tchar 13 = false /\ rfc_tchar 32 = false /\ rfc_tchar 9 = false /\ rfc_tchar 34 = false.
Proof. repeat split; reflexivity. Qed.

(* independent reading of a hexadecimal numeral *)
Definition hexval (c : N) : option N :=
  if (48 <=? c) && (c <=? 57) then Some (c - 48)
  else if (97 <=? c) && (c <=? 102) then Some (c - 87)
  else if (65 <=? c) && (c <=? 70) then Some (c - 55)
  else None.
Definition is_hex (c : N) : bool := match hexval c with Some _ => true | None => false end.
Fixpoint hex_value (acc : N) (ds : bytes) : N :=
  match ds with [] => acc | c :: r => hex_value (acc * 16 + match hexval c with Some d => d | None => 0 end) r end.

Definition hexmap (D : bytes) : list Z := map (fun c => match hexval c with Some d => Z.of_N d | None => 0%Z end) D.

Lemma digit_of_hex c : digit_of 16 c = option_map Z.of_N (hexval c).
Proof.
  unfold digit_of, digit_raw, hexval, is_digit, is_upper, is_lower.
  destruct ((48 <=? c) && (c <=? 57)) eqn:E1.
  { replace (Z.of_N c - 48 >=? 16)%Z with false by lia. cbn. f_equal. lia. }
  destruct ((65 <=? c) && (c <=? 90)) eqn:E2.
  { destruct ((97 <=? c) && (c <=? 102)) eqn:E3; [lia|].
    destruct ((65 <=? c) && (c <=? 70)) eqn:E4.
    - replace (Z.of_N c - 55 >=? 16)%Z with false by lia. cbn. f_equal. lia.
    - replace (Z.of_N c - 55 >=? 16)%Z with true by lia. reflexivity. }
  destruct ((97 <=? c) && (c <=? 122)) eqn:E3.
  { destruct ((97 <=? c) && (c <=? 102)) eqn:E4.
    - replace (Z.of_N c - 87 >=? 16)%Z with false by lia. cbn. f_equal. lia.
    - destruct ((65 <=? c) && (c <=? 70)) eqn:E5; [lia|].
      replace (Z.of_N c - 87 >=? 16)%Z with true by lia. reflexivity. }
  destruct ((97 <=? c) && (c <=? 102)) eqn:E4; [lia|].
  destruct ((65 <=? c) && (c <=? 70)) eqn:E5; [lia|]. reflexivity.
Qed.

Lemma digit_run_hex l : digit_run 16 l = hexmap (fst (span is_hex l)).
Proof.
  induction l as [|c l IH]; [reflexivity|]. cbn [digit_run span]. rewrite digit_of_hex, IH.
  change (is_hex c) with (match hexval c with Some _ => true | None => false end).
  destruct (hexval c) eqn:E; [|reflexivity]. destruct (span is_hex l). cbn [fst hexmap map option_map]. now rewrite E.
Qed.

Lemma digits_value_hex ds : forall acc, digits_value 16 (hexmap ds) (Z.of_N acc) = Z.of_N (hex_value acc ds).
Proof.
  unfold digits_value, hexmap. induction ds as [|c ds IH]; intros acc; cbn [map fold_left hex_value]; [reflexivity|].
  rewrite <- IH. f_equal. destruct (hexval c); lia.
Qed.

Lemma hex_value_app a b acc : hex_value acc (a ++ b) = hex_value (hex_value acc a) b.
Proof. revert acc; induction a as [|c a IH]; intros acc; cbn [app hex_value]; [reflexivity|]. apply IH. Qed.

Lemma hex_value_mono b : forall acc acc', acc <= acc' -> hex_value acc b <= hex_value acc' b.
Proof. induction b as [|c b IH]; intros acc acc' H; cbn [hex_value]; [exact H|]. apply IH. lia. Qed.

Lemma hex_value_ge b : forall acc, acc <= hex_value acc b.
Proof. induction b as [|c b IH]; intros acc; cbn [hex_value]; [lia|]. etransitivity; [|apply IH]. lia. Qed.

Lemma is_hex_x : is_hex 120 = false /\ is_hex 88 = false. Proof. split; reflexivity. Qed.

Definition size_state (v : N) : pstate := {| p_stage := StExt; p_size := v; p_left := v |}.
Definition two63N : N := 9223372036854775808.

(* what tok.int64(size, 16, false) reads from a run of hex digits *)
Lemma ref_core_hex l :
  ref_core 16 false l 0 =
  match fst (span is_hex l) with
  | [] => None
  | D => if two63N <=? hex_value 0 D then None else Some (Z.of_N (hex_value 0 D), lenN D)
  end.
Proof.
  unfold ref_core. rewrite digit_run_hex. destruct (fst (span is_hex l)) as [|d0 D]; [reflexivity|].
  destruct (hexmap (d0 :: D)) as [|z zs] eqn:Eh; [discriminate Eh|]. cbv beta iota zeta. rewrite <- Eh.
  pose proof (digits_value_hex (d0 :: D) 0) as Hv. change (Z.of_N 0) with 0%Z in Hv. rewrite Hv.
  unfold hexmap. rewrite lenN_map.
  destruct (two63N <=? hex_value 0 (d0 :: D)) eqn:Ev;
    [replace (_ >? _)%Z with true | replace (_ >? _)%Z with false]; try reflexivity; unfold two63, two63N in *; lia.
Qed.

(* the tokenizer's own test for a 0x prefix, which the parser has excluded before *)
Definition pre0x (b : bytes) : bool :=
  match b with z :: x :: _ => (z =? 48) && tolower_is_x x | _ => false end.

Lemma skip0x_pre b : fst (tok_skip [48; 120] b) || fst (tok_skip [48; 88] b) = pre0x b.
Proof.
  destruct b as [|z [|y b']]; unfold tok_skip; cbn [starts_with pre0x].
  - reflexivity.
  - rewrite !andb_false_r. reflexivity.
  - assert (Hsw : starts_with b' [] = true) by (destruct b'; reflexivity). rewrite Hsw, !andb_true_r.
    unfold tolower_is_x. destruct (z =? 48); cbn [andb]; [|reflexivity].
    destruct (y =? 120); cbn; [reflexivity|]. destruct (y =? 88); reflexivity.
Qed.

Lemma int64_hex buf : pre0x buf = false -> tok_int64 16 false npos buf = ref_core 16 false (takeN npos buf) 0.
Proof.
  intros H0x. rewrite tok_int64_exact by (right; lia). unfold ref_int64, int64_front.
  destruct buf as [|b0 buf']; [reflexivity|].
  change (npos =? 0) with false. cbv iota.
  set (range := takeN npos (b0 :: buf')).
  assert (Hr : pre0x range = false).
  { unfold range. cbn [takeN]. change (npos =? 0) with false. cbv iota.
    destruct buf' as [|b1 buf'']; [reflexivity|]. cbn [takeN]. change (N.pred npos =? 0) with false. cbv iota. exact H0x. }
  cbv beta iota zeta.
  destruct range as [|z [|x r]]; try reflexivity. cbn [pre0x] in Hr.
  replace ((z =? 48) && ((16 =? 0)%Z || (16 =? 16)%Z) && tolower_is_x x) with false; [reflexivity|].
  cbn [Z.eqb orb]. now rewrite andb_true_r.
Qed.

Lemma not_x y : y <> 120 -> y <> 88 -> tolower_is_x y = false.
Proof. unfold tolower_is_x. lia. Qed.
Lemma hex_not_x y : is_hex y = true -> tolower_is_x y = false.
Proof. intros H. apply not_x; intros ->; discriminate H. Qed.
Lemma pre0x_second z y r : tolower_is_x y = false -> pre0x (z :: y :: r) = false.
Proof. cbn [pre0x]. intros ->. apply andb_false_r. Qed.
Lemma pre0x_hex p : forallb is_hex p = true -> pre0x p = false.
Proof.
  destruct p as [|d0 [|d1 p]]; try reflexivity. cbn [forallb]. intros H. apply pre0x_second, hex_not_x.
  apply andb_prop in H as [_ H]. now apply andb_prop in H.
Qed.
Lemma pre0x_ext b x : (2 <= length b)%nat -> pre0x (b ++ x) = pre0x b.
Proof. destruct b as [|z [|y b']]; cbn [length]; try lia. reflexivity. Qed.
Lemma pre0x_digits ds c r : ds <> [] -> forallb is_hex ds = true -> c <> 120 -> c <> 88 -> pre0x (ds ++ c :: r) = false.
Proof.
  intros Hne Hd H1 H2. destruct ds as [|d0 [|d1 ds]]; [congruence| now apply pre0x_second, not_x |].
  rewrite (pre0x_ext (d0 :: d1 :: ds)) by (cbn [length]; lia). now apply pre0x_hex.
Qed.

(* the digits parseChunkSize reads: the leading hex digits, at most npos of them *)
Definition hexrun (b : bytes) : bytes := takeN npos (fst (span is_hex b)).

Lemma chunk_size_eq st b :
  chunk_size st b =
  if pre0x b then Bad E0x
  else match hexrun b with
       | [] => if is_nil b then Ok None else Bad ESize
       | _ => if two63N <=? hex_value 0 (hexrun b) then Bad ESize
              else match dropN (lenN (hexrun b)) b with
                   | [] => Ok None
                   | r => match parse_strict_bws r with
                          | Insuf => Ok None | Bad e => Bad e
                          | Ok r' => Ok (Some (size_state (hex_value 0 (hexrun b)), r'))
                          end
                   end
       end.
Proof.
  unfold chunk_size. rewrite skip0x_pre. destruct (pre0x b) eqn:H0; [reflexivity|].
  rewrite (int64_hex b H0), ref_core_hex, span_takeN. fold (hexrun b).
  destruct (hexrun b) as [|d0 D] eqn:ED; [reflexivity|]. cbv zeta.
  destruct (two63N <=? hex_value 0 (d0 :: D)).
  - destruct b; [discriminate ED| reflexivity].
  - destruct (dropN (lenN (d0 :: D)) b) as [|c r]; cbn [is_nil negb]; [reflexivity|].
    replace (_ <? 0)%Z with false by lia. now rewrite N2Z.id.
Qed.

Lemma hexrun_app ds x : forallb is_hex ds = true -> lenN ds <= npos ->
  hexrun (ds ++ x) = ds ++ takeN (npos - lenN ds) (fst (span is_hex x)).
Proof. intros Hd Hl. unfold hexrun. rewrite span_app_forall by exact Hd. cbn [fst]. now rewrite takeN_app_ge. Qed.

(* the input presented as digits followed by a non-digit or nothing *)
Lemma chunk_size_norm st D r :
  forallb is_hex D = true -> lenN D <= npos -> match r with [] => True | c :: _ => is_hex c = false end ->
  chunk_size st (D ++ r) =
  if pre0x (D ++ r) then Bad E0x
  else match D with
       | [] => if is_nil r then Ok None else Bad ESize
       | _ => if two63N <=? hex_value 0 D then Bad ESize
              else match r with
                   | [] => Ok None
                   | _ => match parse_strict_bws r with
                          | Insuf => Ok None | Bad e => Bad e
                          | Ok r' => Ok (Some (size_state (hex_value 0 D), r'))
                          end
                   end
       end.
Proof.
  intros HD Hl Hr. rewrite chunk_size_eq, (hexrun_app D r HD Hl).
  replace (fst (span is_hex r)) with (@nil N) by (destruct r as [|c r]; cbn [span]; [|rewrite Hr]; reflexivity).
  replace (takeN (npos - lenN D) []) with (@nil N) by reflexivity.
  rewrite app_nil_r, dropN_app_exact. now destruct D, r.
Qed.

Lemma size_full st ds c t0 :
  ds <> [] -> forallb is_hex ds = true -> hex_value 0 ds < two63N -> lenN ds < npos ->
  is_hex c = false -> c <> 120 -> c <> 88 ->
  chunk_size st (ds ++ c :: t0) =
  match parse_strict_bws (c :: t0) with
  | Insuf => Ok None | Bad e => Bad e
  | Ok r' => Ok (Some (size_state (hex_value 0 ds), r'))
  end.
Proof.
  intros Hne Hhex Hv Hlen Hc Hx1 Hx2.
  rewrite (chunk_size_norm st ds (c :: t0) Hhex (N.lt_le_incl _ _ Hlen) Hc), pre0x_digits by assumption.
  destruct ds; [congruence|]. now rewrite (proj2 (N.leb_gt _ _) Hv).
Qed.

Lemma size_prefix st p q :
  forallb is_hex (p ++ q) = true -> hex_value 0 (p ++ q) < two63N -> lenN (p ++ q) < npos ->
  chunk_size st p = Ok None.
Proof.
  intros Hhex Hv Hlen.
  rewrite forallb_app in Hhex. apply andb_prop in Hhex as [Hp _].
  rewrite lenN_app in Hlen. rewrite hex_value_app in Hv. pose proof (hex_value_ge q (hex_value 0 p)) as Hge.
  rewrite <- (app_nil_r p). rewrite (chunk_size_norm st p [] Hp ltac:(lia) I), app_nil_r, (pre0x_hex p Hp).
  destruct p; [reflexivity|]. now rewrite (proj2 (N.leb_gt _ _)) by lia.
Qed.

Lemma chunk_size_nonhex st c x : is_hex c = false -> chunk_size st (c :: x) = Bad ESize.
Proof.
  intros Hc. rewrite (chunk_size_norm _ [] (c :: x) eq_refl (N.le_0_l _) Hc). cbn [app is_nil].
  replace (pre0x (c :: x)) with false; [reflexivity|]. destruct x; [reflexivity|]. cbn [pre0x].
  destruct (N.eqb_spec c 48) as [->|_]; [discriminate Hc| reflexivity].
Qed.

Lemma hex_value_small d : hex_value 0 [d] < 16.
Proof.
  cbn [hex_value]. unfold hexval. destruct ((48 <=? d) && (d <=? 57)) eqn:E1; [lia|].
  destruct ((97 <=? d) && (d <=? 102)) eqn:E2; [lia|]. destruct ((65 <=? d) && (d <=? 70)) eqn:E3; lia.
Qed.

(* a chunk-size that does not fit in 63 bits, whatever follows: more digits only make it larger *)
Lemma chunk_size_overflow st ds x :
  forallb is_hex ds = true -> two63N <= hex_value 0 ds -> lenN ds <= npos -> chunk_size st (ds ++ x) = Bad ESize.
Proof.
  intros Hhex Hv Hlen.
  assert (H2 : (2 <= length ds)%nat).
  { destruct ds as [|d0 [|d1 ds']]; [cbn [hex_value] in Hv; unfold two63N in Hv; lia | | cbn [length]; lia].
    pose proof (hex_value_small d0). unfold two63N in Hv. lia. }
  rewrite chunk_size_eq, (pre0x_ext ds x H2), (pre0x_hex ds Hhex), (hexrun_app ds x Hhex Hlen).
  set (k := takeN _ _). pose proof (hex_value_ge k (hex_value 0 ds)) as Hge. rewrite <- hex_value_app in Hge.
  destruct (ds ++ k) eqn:E; [destruct ds; [cbn [length] in H2; lia| discriminate E]|]. cbv beta iota. rewrite <- E in Hge |- *.
  now rewrite (proj2 (N.leb_le _ _)) by lia.
Qed.

(* headersEnd and more input: an end that was found stays, one that was not can only lie further on *)
Lemma he_found x : forall b s e n, headers_end_loop b s e = n -> n <> 0 ->
  headers_end_loop (b ++ x) s e = n /\ n <= e + lenN b.
Proof.
  induction b as [|c b IH]; intros s e n H Hn; cbn [headers_end_loop app lenN] in *; [congruence|].
  set (s' := if s =? 0 then _ else _) in *.
  destruct (s' =? 3); [split; [exact H| lia]|].
  destruct (IH s' (N.succ e) n H Hn) as [H1 H2]. split; [exact H1| lia].
Qed.

Lemma he_later x : forall b s e, headers_end_loop b s e = 0 ->
  headers_end_loop (b ++ x) s e = 0 \/ e + lenN b < headers_end_loop (b ++ x) s e.
Proof.
  induction b as [|c b IH]; intros s e H; cbn [app lenN].
  - rewrite N.add_0_r. clear H. revert s e. induction x as [|c x IHx]; intros s e; cbn [headers_end_loop]; [left; reflexivity|].
    set (s' := if s =? 0 then _ else _). destruct (s' =? 3); [right; lia|].
    destruct (IHx s' (N.succ e)) as [H|H]; [left; exact H| right; lia].
  - cbn [headers_end_loop] in *.
    set (s' := if s =? 0 then _ else _) in *.
    destruct (s' =? 3); [lia|]. destruct (IH s' (N.succ e) H) as [G|G]; [left; exact G| right; lia].
Qed.

Definition not_lf (c : N) : bool := negb (c =? 10).
Definition not_crlf (c : N) : bool := negb (c =? 13) && negb (c =? 10).

Lemma he_scan0 w : forall rest e, forallb not_lf w = true ->
  headers_end_loop (w ++ rest) 0 e = headers_end_loop rest 0 (e + lenN w).
Proof.
  induction w as [|c w IH]; intros rest e H; cbn [app lenN forallb] in *.
  - now rewrite N.add_0_r.
  - apply andb_prop in H as [Hc Hw]. unfold not_lf in Hc. apply negb_true_iff in Hc.
    cbn [headers_end_loop]. change (0 =? 0) with true. cbv iota. rewrite Hc. change (0 =? 3) with false. cbv iota.
    rewrite IH by exact Hw. f_equal. lia.
Qed.

(* a line: first byte neither CR nor LF, no LF inside, LF at the end *)
Lemma he_line c0 w rest e : not_crlf c0 = true -> forallb not_lf w = true ->
  headers_end_loop ((c0 :: w ++ [10]) ++ rest) 1 e = headers_end_loop rest 1 (e + lenN (c0 :: w ++ [10])).
Proof.
  intros Hc Hw. unfold not_crlf in Hc. apply andb_prop in Hc as [H13 H10]. apply negb_true_iff in H13, H10.
  cbn [app headers_end_loop]. change (1 =? 0) with false. change (1 =? 1) with true. cbv iota.
  rewrite H13, H10. change (0 =? 3) with false. cbv iota.
  rewrite <- app_assoc. rewrite he_scan0 by exact Hw.
  cbn [app headers_end_loop]. change (0 =? 0) with true. change (10 =? 10) with true. cbv iota.
  change (1 =? 3) with false. cbv iota. f_equal. cbn [lenN]. rewrite lenN_app. cbn [lenN]. lia.
Qed.

Definition field := (bytes * bytes)%type.
Definition enc_field (f : field) : bytes := fst f ++ [58] ++ snd f ++ crlf.
Definition enc_fields (fs : list field) : bytes := concat (map enc_field fs).

Section TrailerSpec.
Variable tchar : N -> bool.
Hypothesis tchar_not_crlf : forall c, tchar c = true -> not_crlf c = true.

Definition field_ok (f : field) : Prop :=
  fst f <> [] /\ forallb tchar (fst f) = true /\ forallb not_crlf (snd f) = true.

Lemma field_line f : field_ok f -> exists c0 w, enc_field f = c0 :: w ++ [10] /\ not_crlf c0 = true /\ forallb not_lf w = true.
Proof.
  intros (Hne & Hn & Hv). destruct f as [n v]. cbn [fst snd] in *. destruct n as [|c0 n']; [congruence|].
  exists c0, (n' ++ [58] ++ v ++ [13]). split; [|split].
  - unfold enc_field, crlf. cbn [fst snd app]. rewrite <- !app_assoc. cbn [app]. rewrite <- !app_assoc. reflexivity.
  - cbn [forallb] in Hn. apply andb_prop in Hn as [H0 _]. apply tchar_not_crlf. exact H0.
  - cbn [forallb] in Hn. apply andb_prop in Hn as [_ Hn].
    assert (Hsub : forall l, forallb not_crlf l = true -> forallb not_lf l = true).
    { intros l. apply forallb_impl. intros x Hx. now apply andb_prop in Hx as [_ Hx]. }
    rewrite !forallb_app, (Hsub _ (forallb_impl _ _ _ tchar_not_crlf Hn)), (Hsub _ Hv). reflexivity.
Qed.

Lemma he_fields fs : Forall field_ok fs -> forall rest e,
  headers_end_loop (enc_fields fs ++ rest) 1 e = headers_end_loop rest 1 (e + lenN (enc_fields fs)).
Proof.
  induction 1 as [|f fs Hf Hfs IH]; intros rest e; unfold enc_fields in *; cbn [map concat app lenN].
  - now rewrite N.add_0_r.
  - destruct (field_line f Hf) as (c0 & w & Heq & Hc & Hw). rewrite Heq. rewrite <- app_assoc.
    rewrite he_line by assumption. rewrite IH. f_equal. rewrite lenN_app. lia.
Qed.

Lemma he_trailer_full fs t0 : Forall field_ok fs ->
  headers_end ((enc_fields fs ++ crlf) ++ t0) = lenN (enc_fields fs ++ crlf).
Proof.
  intros H. unfold headers_end. rewrite <- app_assoc. rewrite he_fields by exact H.
  cbn [crlf app headers_end_loop]. rewrite lenN_app. cbn. lia.
Qed.

End TrailerSpec.

(* what the invariant of a parse() call needs of a chunk header: digits ds of value v, white space w,
   and chunk-ext text xc up to and including the CRLF *)
Definition wsp_ok (w : bytes) : Prop := forallb cs_WSP w = true.
Definition head_ok (xc : bytes) : Prop :=
  match xc with c :: _ => cs_WSP c = false /\ is_hex c = false /\ c <> 120 /\ c <> 88 | [] => False end.
Definition ext_sem (relaxed : bool) (st : pstate) (xc : bytes) : Prop :=
  forall R0, meta_suffix relaxed st (xc ++ R0) (xc ++ R0) = SGo (ext_state st) R0 R0 [].
Definition digits_ok (ds : bytes) (v : N) : Prop :=
  ds <> [] /\ forallb is_hex ds = true /\ hex_value 0 ds = v /\ v < two63N /\ lenN ds < npos.

Lemma wsp_nothex c : cs_WSP c = true -> is_hex c = false /\ c <> 120 /\ c <> 88.
Proof.
  rewrite wsp_eq. unfold rfc_bws. intros H. assert (Hc : c = 32 \/ c = 9) by lia. clear H.
  destruct Hc as [->| ->]; repeat split; discriminate.
Qed.

Lemma size_step st ds v w Y tok fut :
  digits_ok ds v -> wsp_ok w -> head_ok Y -> tok ++ fut = ds ++ w ++ Y ->
  (chunk_size st tok = Ok None /\ exists l, ds ++ w = tok ++ l) \/
  (exists l, l <> [] /\ tok = ds ++ w ++ l /\ l ++ fut = Y /\ chunk_size st tok = Ok (Some (size_state v, l))).
Proof.
  intros (Hne & Hhex & Hv & Hlt & Hlen) Hw HY Heq. subst v.
  destruct (app_eq_app _ _ _ _ Heq) as [l [[H1 H2]|[H1 H2]]].
  - destruct l as [|c t0].
    + left. rewrite app_nil_r in H1. subst tok. split; [|exists w; reflexivity].
      apply (size_prefix st ds []); rewrite app_nil_r; assumption.
    + (* tok = ds ++ c :: t0 and c :: t0 ++ fut = w ++ Y *)
      assert (Hc : is_hex c = false /\ c <> 120 /\ c <> 88).
      { destruct w as [|w0 w']; cbn [app] in H2.
        - destruct Y as [|y Y']; [destruct HY|]. injection H2 as <- _. cbn [head_ok] in HY. tauto.
        - injection H2 as <- _. unfold wsp_ok in Hw. cbn [forallb] in Hw. apply andb_prop in Hw as [Hw0 _]. apply wsp_nothex. exact Hw0. }
      destruct Hc as (Hc & Hx1 & Hx2).
      subst tok. rewrite (size_full st ds c t0 Hne Hhex Hlt Hlen Hc Hx1 Hx2). unfold parse_strict_bws.
      destruct (app_eq_app _ _ _ _ H2) as [l2 [[G1 G2]|[G1 G2]]].
      * (* w = (c :: t0) ++ l2 : everything after the digits is still BWS *)
        left. rewrite G1 in Hw. unfold wsp_ok in Hw. rewrite forallb_app in Hw. apply andb_prop in Hw as [Hw1 _].
        rewrite (bws_all _ _ Hw1). split; [reflexivity|]. exists l2. rewrite G1. now rewrite app_assoc.
      * (* c :: t0 = w ++ l2, Y = l2 ++ fut *)
        destruct l2 as [|y l2'].
        { left. rewrite app_nil_r in G1. rewrite G1. rewrite (bws_all _ _ Hw). split; [reflexivity|]. exists []. now rewrite app_nil_r. }
        right. exists (y :: l2'). rewrite G1. rewrite G2 in HY. cbn [app head_ok] in HY.
        rewrite (bws_run cs_WSP w y l2' Hw (proj1 HY)).
        split; [discriminate|]. split; [reflexivity|]. split; [symmetry; exact G2| reflexivity].
  - left. split; [|exists (l ++ w); rewrite app_assoc, <- H1; reflexivity]. subst ds. apply (size_prefix st tok l); assumption.
Qed.

Lemma crlf_step e b fut M :
  b ++ fut = crlf ++ M ->
  (tok_skipRequired e crlf b = Insuf /\ (length b < 2)%nat) \/
  (exists t, b = crlf ++ t /\ t ++ fut = M /\ tok_skipRequired e crlf b = Ok t).
Proof.
  intros Heq. rewrite skipRequired_crlf_cases. unfold crlf in *.
  destruct b as [|c0 b]; [left; split; [reflexivity|cbn; lia]|].
  cbn [app] in Heq. injection Heq as -> Heq. change (13 =? 13) with true. cbv iota.
  destruct b as [|c1 b]; [left; split; [reflexivity|cbn; lia]|].
  cbn [app] in Heq. injection Heq as -> Heq. change (10 =? 10) with true. cbv iota.
  right. exists b. split; [reflexivity|]. split; [exact Heq|reflexivity].
Qed.

Lemma ext_step relaxed st xc tok fut R :
  ext_sem relaxed st xc -> tok ++ fut = xc ++ R ->
  (exists l, tok = xc ++ l /\ l ++ fut = R /\ meta_suffix relaxed st tok tok = SGo (ext_state st) l l []) \/
  (exists ck xc' l, l <> [] /\ xc = tok ++ l /\ meta_suffix relaxed st tok tok = SRet st ck [] /\
                    ext_sem relaxed st xc' /\ ck ++ fut = xc' ++ R).
Proof.
  intros Hsem Heq.
  destruct (app_eq_app _ _ _ _ Heq) as [l [[H1 H2]|[H1 H2]]].
  - left. exists l. subst tok R. split; [reflexivity|]. split; [reflexivity|]. apply Hsem.
  - destruct l as [|c l'].
    { left. exists []. rewrite app_nil_r in H1. subst xc. cbn [app] in H2. subst fut.
      split; [now rewrite app_nil_r|]. split; [reflexivity|].
      pose proof (Hsem []) as H. rewrite app_nil_r in H. exact H. }
    right. set (l := c :: l') in *.
    pose proof (Hsem []) as Hfull. rewrite app_nil_r, H1 in Hfull.
    (* a decided outcome on the proper prefix tok would persist on xc *)
    pose proof (meta_stable relaxed st tok l) as HS. rewrite Hfull in HS.
    destruct (meta_suffix relaxed st tok tok) as [st1 t3 b3 o|st1 ck o|e o|] eqn:Em.
    + exfalso. injection HS as _ Ht _. destruct t3; discriminate.
    + destruct (meta_ret _ _ _ _ _ _ Em) as (-> & -> & _).
      exists ck, (ck ++ l), l. split; [discriminate|]. split; [exact H1|]. split; [reflexivity|]. split.
      * intros R0. rewrite <- app_assoc.
        rewrite <- (meta_commute _ _ _ _ _ _ (l ++ R0) Em). rewrite app_assoc, <- H1. apply Hsem.
      * rewrite H2. now rewrite app_assoc.
    + discriminate HS.
    + exfalso. eapply meta_not_fuel; eassumption.
Qed.

Definition is_done (st : pstate) : bool := match p_stage st with StDone => true | _ => false end.

Definition fin (cap : N) (out2 : bytes) (s : pstate) (b : bytes) : parse_res :=
  let more := match p_stage s with StDone => false | _ => true end in
  let space := match p_stage s with StChunk => (cap - lenN out2 =? 0) | _ => false end in
  PRet (negb more && negb space) s b out2.
Lemma fin_eq cap out s b : fin cap out s b = PRet (is_done s) s b out.
Proof. unfold fin, is_done. destruct (p_stage s); reflexivity. Qed.

(* one do-while iteration of parse_loop with the recursive call abstracted *)
Section BodyK.
Variable K : pstate -> bytes -> bytes -> parse_res.
Variable relaxed : bool.
Variable cap : N.
Definition szK st3 tok3 buf3 out2 : parse_res :=
  match p_stage st3 with
  | StSz =>
    match chunk_size st3 tok3 with
    | Bad e => PThrow e out2
    | Insuf => PThrow ESize out2
    | Ok None => fin cap out2 st3 buf3
    | Ok (Some (st4, t4)) => K st4 t4 out2
    end
  | _ => fin cap out2 st3 buf3
  end.
Definition mimeK st2 tok2 buf2 out2 : parse_res :=
  match (match p_stage st2 with StMime => grab_mime st2 buf2 | _ => SGo st2 tok2 buf2 [] end) with
  | SFuel => PFuel | SThrow e o => PThrow e out2 | SRet s b o => PRet false s b out2
  | SGo st3 tok3 buf3 _ => szK st3 tok3 buf3 out2
  end.
Definition chunkK st1 tok1 buf1 out o1 : parse_res :=
  match (match p_stage st1 with StChunk => chunk_body (cap - lenN (out ++ o1)) st1 tok1 buf1 | _ => SGo st1 tok1 buf1 [] end) with
  | SFuel => PFuel | SThrow e o => PThrow e (out ++ o1 ++ o) | SRet s b o => PRet false s b (out ++ o1 ++ o)
  | SGo st2 tok2 buf2 o2 => mimeK st2 tok2 buf2 (out ++ o1 ++ o2)
  end.
Definition bodyK st tok bufc out : parse_res :=
  match (match p_stage st with StExt => meta_suffix relaxed st tok bufc | _ => SGo st tok bufc [] end) with
  | SFuel => PFuel | SThrow e o => PThrow e (out ++ o) | SRet s b o => PRet false s b (out ++ o)
  | SGo st1 tok1 buf1 o1 => chunkK st1 tok1 buf1 out o1
  end.
End BodyK.

(* a stage that is not the state's own passes the state on *)
Lemma bodyK_chunk K relaxed cap st t b out : p_stage st <> StExt -> bodyK K relaxed cap st t b out = chunkK K cap st t b out [].
Proof. unfold bodyK. destruct (p_stage st); congruence || reflexivity. Qed.
Lemma chunkK_mime K cap st t b out : p_stage st <> StChunk -> chunkK K cap st t b out [] = mimeK K cap st t b out.
Proof. unfold chunkK. destruct (p_stage st); try congruence; cbn [app]; now rewrite app_nil_r. Qed.
Lemma mimeK_sz K cap st t b out : p_stage st <> StMime -> mimeK K cap st t b out = szK K cap st t b out.
Proof. unfold mimeK. destruct (p_stage st); congruence || reflexivity. Qed.

Definition loopK k relaxed cap : pstate -> bytes -> bytes -> parse_res :=
  fun s t o => parse_loop k relaxed cap s t t o.
Lemma parse_loop_eq k relaxed cap st tok bufc out :
  parse_loop (S k) relaxed cap st tok bufc out = bodyK (loopK k relaxed cap) relaxed cap st tok bufc out.
Proof. reflexivity. Qed.

Lemma head_ok_app xc Y : head_ok xc -> head_ok (xc ++ Y).
Proof. destruct xc; cbn [head_ok app]; tauto. Qed.
Lemma digits_len ds v : digits_ok ds v -> (1 <= length ds)%nat.
Proof. intros (H & _). destruct ds; [congruence| cbn; lia]. Qed.

Definition norm_state (st : pstate) : pstate :=
  match p_stage st with StNone => {| p_stage := StSz; p_size := p_size st; p_left := p_left st |} | _ => st end.

Lemma ext_state_stage st : p_stage (ext_state st) = if p_size st =? 0 then StMime else StChunk.
Proof. reflexivity. Qed.

Section Core.
Variable relaxed : bool.
Variables Tr tail : bytes.
Hypothesis HTfull : forall t0, headers_end (Tr ++ t0) = lenN Tr.
Hypothesis HTlen : 0 < lenN Tr < trailer_limit.

Lemma HTpre p l : Tr = p ++ l -> l <> [] -> headers_end p = 0.
Proof.
  intros E Hl. destruct (N.eq_dec (headers_end p) 0) as [H0|Hn]; [exact H0|]. exfalso.
  destruct (he_found l p 1 0 _ eq_refl Hn) as [H1 H2]. fold (headers_end p) in H1, H2. fold (headers_end (p ++ l)) in H1.
  rewrite <- E, <- (app_nil_r Tr), HTfull, E, lenN_app in H1. destruct l; [congruence|]. cbn [lenN] in H1. lia.
Qed.

Lemma Tr_len : (1 <= length Tr)%nat.
Proof. destruct HTlen as [Hp _]. destruct Tr; [cbn in Hp; lia| cbn [length]; lia]. Qed.

(* the state stands at the start of suf, which continues a chunked body with data B still to come, and then tail:
   a chunk header (digits ds of value v, white space w, chunk-ext text xc up to and including the CRLF),
   the chunk-ext text alone, chunk data d and its CRLF, the trailer section Tr, or nothing *)
Inductive Inv : pstate -> bytes -> bytes -> Prop :=
| I_sz st ds v w xc R B : p_stage st = StSz -> digits_ok ds v -> wsp_ok w -> head_ok xc ->
    Inv (size_state v) (xc ++ R) B -> Inv st (ds ++ w ++ xc ++ R) B
| I_ext st xc R B : p_stage st = StExt -> ext_sem relaxed st xc -> Inv (ext_state st) R B -> Inv st (xc ++ R) B
| I_chunk st d R B : p_stage st = StChunk -> p_left st = lenN d ->
    (forall st', p_stage st' = StSz -> Inv st' R B) -> Inv st (d ++ crlf ++ R) (d ++ B)
| I_mime st : p_stage st = StMime -> Inv st (Tr ++ tail) []
| I_done st : p_stage st = StDone -> Inv st tail [].

Lemma Inv_stage st suf B : Inv st suf B -> p_stage st <> StNone.
Proof. destruct 1; congruence. Qed.

Lemma Inv_done st suf B : Inv st suf B -> p_stage st = StDone -> B = [] /\ suf = tail.
Proof. destruct 1; intros Hd; try congruence. tauto. Qed.

Lemma Inv_len st suf B : Inv st suf B -> p_stage st <> StDone -> (length tail < length suf)%nat.
Proof.
  pose proof Tr_len.
  induction 1 as [st ds v w xc R B _ _ _ _ _ IH| st xc R B _ _ _ IH| st d R B _ _ _ IH| st _| st Hs]; intros Hd; rewrite ?app_length in *.
  - specialize (IH ltac:(discriminate)). lia.
  - assert (Hs : p_stage (ext_state st) <> StDone) by (rewrite ext_state_stage; now destruct (p_size st =? 0)). specialize (IH Hs). lia.
  - specialize (IH (norm_state init_state) eq_refl ltac:(discriminate)). lia.
  - lia.
  - congruence.
Qed.

Lemma Inv_sz_len R B : (forall st', p_stage st' = StSz -> Inv st' R B) -> (length tail < length R)%nat.
Proof. intros H. apply (Inv_len (norm_state init_state) R B); [now apply H| discriminate]. Qed.

Section Call.
Variable fut : bytes.
Variable cap : N.
Definition complete : Prop := (length fut <= length tail)%nat.

Definition Post (out B : bytes) (r : parse_res) : Prop :=
  exists ret st' rem o B', r = PRet ret st' rem (out ++ o) /\ B = o ++ B' /\ Inv st' (rem ++ fut) B' /\
     ret = is_done st' /\ lenN (out ++ o) <= cap /\
     (complete -> ret = true \/ (B' <> [] /\ lenN (out ++ o) = cap)).

Definition PK (k : nat) : Prop :=
  forall st tok out B, Inv st (tok ++ fut) B -> p_stage st <> StNone -> (length tok < k)%nat -> lenN out <= cap ->
  Post out B (parse_loop k relaxed cap st tok tok out).

Ltac lens H := apply (f_equal (@length N)) in H; repeat rewrite app_length in H; cbn [length] in H; change (length crlf) with 2%nat in H.

Lemma post_ret out B ret s b : ret = is_done s -> Inv s (b ++ fut) B -> lenN out <= cap ->
  (complete -> ret = true \/ (B <> [] /\ lenN out = cap)) -> Post out B (PRet ret s b out).
Proof. intros Hr HI Hout Hc. exists ret, s, b, [], B. rewrite app_nil_r. repeat split; assumption. Qed.

Lemma post_fin out B s b : Inv s (b ++ fut) B -> p_stage s <> StDone -> lenN out <= cap ->
  (complete -> B <> [] /\ lenN out = cap) ->
  Post out B (fin cap out s b).
Proof. intros HI Hs Hout Hc. rewrite fin_eq. apply post_ret; auto. Qed.

(* parseChunkSize on a chunk header ds w xc: either it asks for more, or the state moves behind ds w *)
Lemma sz_lemma k : PK k -> forall st tok out B, Inv st (tok ++ fut) B -> p_stage st = StSz ->
  (length tok <= k)%nat -> lenN out <= cap -> Post out B (szK (loopK k relaxed cap) cap st tok tok out).
Proof.
  intros IH st tok out B HI Hst Hlen Hout. pose proof HI as HI0. unfold szK. rewrite Hst.
  remember (tok ++ fut) as suf eqn:Heq.
  destruct HI as [st ds v w xc R B _ Hd Hw Hxc HI'| st xc R B Hs| st d R B Hs| st Hs| st Hs]; try congruence.
  rewrite Heq in HI0. symmetry in Heq. pose proof (Inv_len _ _ _ HI' ltac:(discriminate)) as Hlt.
  destruct (size_step st ds v w (xc ++ R) tok fut Hd Hw (head_ok_app _ _ Hxc) Heq) as [[-> [l Hl]]|(l & Hne & -> & Hl & ->)].
  - apply post_fin; [exact HI0| congruence| exact Hout|].
    intros C. exfalso. unfold complete in C. rewrite (app_assoc ds), Hl, <- app_assoc in Heq. apply app_inv_head in Heq.
    rewrite Heq, app_length in C. lia.
  - apply IH; [rewrite Hl; exact HI'| discriminate | | exact Hout].
    rewrite !app_length in Hlen. pose proof (digits_len _ _ Hd). lia.
Qed.

Lemma post_shift out o1 B r : Post (out ++ o1) B r -> Post out (o1 ++ B) r.
Proof.
  intros (ret & st' & rem & o & B' & Hr & HB & HI & Hret & Hle & Hc).
  exists ret, st', rem, (o1 ++ o), B'. rewrite !app_assoc. rewrite <- app_assoc in Hr.
  rewrite <- !app_assoc. rewrite <- app_assoc in Hle. rewrite <- app_assoc in Hc.
  split; [exact Hr|]. split; [now rewrite HB|]. repeat split; assumption.
Qed.

Lemma mime_lemma k : PK k -> forall st tok out B, Inv st (tok ++ fut) B ->
  p_stage st <> StNone -> p_stage st <> StExt -> p_stage st <> StChunk ->
  (length tok <= k)%nat -> lenN out <= cap -> Post out B (mimeK (loopK k relaxed cap) cap st tok tok out).
Proof.
  intros IH st tok out B HI Hn He Hc Hlen Hout. unfold mimeK.
  destruct (p_stage st) eqn:Hst; try congruence.
  - apply sz_lemma; assumption.
  - remember (tok ++ fut) as suf eqn:E1.
    destruct HI as [st ds v w xc R B Hs| st xc R B Hs| st d R B Hs| st Hs| st Hs]; try congruence.
    unfold grab_mime.
    assert (Hcase : (exists l, tok = Tr ++ l /\ tail = l ++ fut) \/ (exists l, l <> [] /\ Tr = tok ++ l /\ fut = l ++ tail)).
    { symmetry in E1. destruct (app_eq_app _ _ _ _ E1) as [l [[H1 H2]|[H1 H2]]].
      - left. exists l. tauto.
      - destruct l as [|c l]; [left; exists []; rewrite app_nil_r in H1; cbn [app] in *; split; [now rewrite H1, app_nil_r| now rewrite H2]|].
        right. exists (c :: l). split; [discriminate|]. tauto. }
    destruct Hcase as [(l & Htok & Htail)|(l & Hne & HTr & Hfut)].
    + subst tok. rewrite HTfull. destruct HTlen as [Hpos Hlim].
      replace (lenN Tr =? 0) with false by lia. cbn [negb]. replace (trailer_limit <=? lenN Tr) with false by lia.
      rewrite dropN_app_exact. unfold szK. cbn [p_stage].
      rewrite fin_eq. apply post_ret; [reflexivity| rewrite <- Htail; now apply I_done | exact Hout | now left].
    + rewrite (HTpre tok l HTr Hne). change (0 =? 0) with true. cbn [negb].
      assert (Hl : lenN tok < lenN Tr).
      { rewrite HTr, lenN_app. destruct l; [congruence|]. cbn [lenN]. lia. }
      replace (trailer_limit <=? lenN tok) with false by lia.
      apply post_ret; [unfold is_done; now rewrite Hst| rewrite <- E1; now apply I_mime | exact Hout|].
      intros C. exfalso. unfold complete in C. rewrite Hfut in C. rewrite app_length in C. destruct l; [congruence|]. cbn [length] in C. lia.
  - unfold szK. rewrite Hst, fin_eq. apply post_ret; [reflexivity| exact HI| exact Hout|].
    intros _. left. unfold is_done. now rewrite Hst.
Qed.

(* parseChunkEnd inside one iteration *)
Lemma end_lemma k : PK k -> forall st b out o R B,
  p_stage st = StChunk -> p_left st = 0 -> (forall st', p_stage st' = StSz -> Inv st' R B) ->
  b ++ fut = crlf ++ R -> (length b <= k)%nat -> lenN (out ++ o) <= cap ->
  Post out (o ++ B)
    (match chunk_end st b b o with
     | SFuel => PFuel | SThrow e o' => PThrow e (out ++ [] ++ o') | SRet s b' o' => PRet false s b' (out ++ [] ++ o')
     | SGo st2 tok2 buf2 o2 => mimeK (loopK k relaxed cap) cap st2 tok2 buf2 (out ++ [] ++ o2)
     end).
Proof.
  intros IH st b out o R B Hst Hleft HR Heq Hlen Hout. unfold chunk_end. cbn [app]. pose proof (Inv_sz_len R B HR) as Hlt.
  destruct (crlf_step EDataCrlf b fut _ Heq) as [[Hi Hb]|(t & Hb & Ht & Hok)].
  - rewrite Hi. apply post_shift, post_ret; [unfold is_done; now rewrite Hst| | exact Hout|].
    { rewrite Heq. apply (I_chunk st [] R B); [exact Hst| exact Hleft| exact HR]. }
    intros C. exfalso. unfold complete in C. lens Heq. lia.
  - rewrite Hok. apply post_shift. apply mime_lemma; [exact IH| rewrite Ht; now apply HR | discriminate.. | | exact Hout].
    subst b. rewrite app_length in Hlen. lia.
Qed.

Lemma chunk_lemma k : PK k -> forall st tok out B, Inv st (tok ++ fut) B -> p_stage st <> StNone -> p_stage st <> StExt ->
  (length tok <= k)%nat -> lenN out <= cap -> Post out B (chunkK (loopK k relaxed cap) cap st tok tok out []).
Proof.
  intros IH st tok out B HI Hn He Hlen Hout.
  destruct (p_stage st) eqn:Hst; try congruence;
    try (rewrite chunkK_mime by congruence; apply mime_lemma; (assumption || congruence)).
  unfold chunkK. rewrite Hst.
  - remember (tok ++ fut) as suf eqn:E1.
    destruct HI as [st ds v w xc R B Hs| st xc R B Hs| st d R B Hs Hleft HR| st Hs| st Hs]; try congruence.
    rewrite app_nil_r. unfold chunk_body. rewrite Hleft.
    destruct (0 <? lenN d) eqn:Epos.
    + set (n := N.min (N.min (lenN d) (lenN tok)) (cap - lenN out)).
      assert (Hn1 : n <= lenN d) by lia. assert (Hn2 : n <= lenN tok) by lia.
      assert (Htake : takeN n tok = takeN n d).
      { rewrite <- (takeN_app_le n tok fut Hn2). rewrite <- E1. apply takeN_app_le. exact Hn1. }
      assert (Hdrop : dropN n tok ++ fut = dropN n d ++ crlf ++ R).
      { rewrite <- (dropN_app_le n tok fut Hn2). rewrite <- E1. apply dropN_app_le. exact Hn1. }
      pose proof (takeN_dropN n d) as Hsplit. pose proof (lenN_takeN n d) as Hlt. pose proof (lenN_dropN n d) as Hld.
      cbn [p_left p_stage p_size]. rewrite Htake.
      assert (Hlenb : (length (dropN n tok) <= k)%nat).
      { pose proof (takeN_dropN n tok) as Ht. apply (f_equal (@length N)) in Ht. rewrite app_length in Ht. lia. }
      assert (Houtn : lenN (out ++ takeN n d) <= cap) by (rewrite lenN_app; lia).
      destruct (lenN d - n =? 0) eqn:Ez.
      * assert (Hd0 : dropN n d = []) by (apply lenN_nil_iff; lia). rewrite Hd0 in *. rewrite app_nil_r in Hsplit. cbn [app] in Hdrop.
        rewrite Hsplit in *.
        apply (end_lemma k IH {| p_stage := p_stage st; p_size := p_size st; p_left := lenN d - n |} (dropN n tok) out d R B);
          [exact Hst | cbn [p_left]; lia | exact HR | exact Hdrop | exact Hlenb | exact Houtn].
      * unfold mimeK. cbn [p_stage]. rewrite Hst. unfold szK. cbn [p_stage]. try rewrite Hst.
        cbn [app].
        replace (d ++ B) with (takeN n d ++ dropN n d ++ B) by (now rewrite app_assoc, Hsplit).
        apply post_shift. apply post_fin.
        { rewrite Hdrop. apply I_chunk; [reflexivity| cbn [p_left]; lia | exact HR]. }
        { cbn [p_stage]. congruence. }
        { exact Houtn. }
        intros C. unfold complete in C.
        assert (Htl : lenN d <= lenN tok).
        { pose proof (Inv_sz_len R B HR). lens E1. apply length_lenN. lia. }
        split.
        { intros Hnil. destruct (dropN n d) eqn:Edd; [cbn [lenN] in Hld; lia| discriminate]. }
        rewrite lenN_app, Hlt. lia.
    + assert (Hd0 : d = []) by (apply lenN_nil_iff; lia). subst d. cbn [app] in *.
      apply (end_lemma k IH st tok out [] R B); [exact Hs | rewrite Hleft; reflexivity | exact HR | symmetry; exact E1 | exact Hlen | now rewrite app_nil_r].
Qed.

(* parseChunkMetadataSuffix on chunk-ext text xc: either it completes, or it retains a restart point *)
Lemma ext_lemma k : PK k -> forall st tok out B, Inv st (tok ++ fut) B -> p_stage st = StExt ->
  (length tok <= k)%nat -> lenN out <= cap -> Post out B (bodyK (loopK k relaxed cap) relaxed cap st tok tok out).
Proof.
  intros IH st tok out B HI Hst Hlen Hout. unfold bodyK. rewrite Hst.
  remember (tok ++ fut) as suf eqn:Heq.
  destruct HI as [st ds v w xc R B Hs| st xc R B _ Hsem HI'| st d R B Hs| st Hs| st Hs]; try congruence. symmetry in Heq.
  assert (Hs1 : p_stage (ext_state st) <> StNone /\ p_stage (ext_state st) <> StExt /\ p_stage (ext_state st) <> StDone)
    by (rewrite ext_state_stage; destruct (p_size st =? 0); repeat split; discriminate).
  pose proof (Inv_len _ _ _ HI' (proj2 (proj2 Hs1))) as Hlt.
  destruct (ext_step relaxed st xc tok fut _ Hsem Heq) as [(l & -> & Hl & ->)|(ck & xc' & l & Hne & Hxc & -> & Hsem' & Hck)].
  - apply chunk_lemma; [exact IH| rewrite Hl; exact HI' | apply Hs1 | apply Hs1 | | exact Hout].
    rewrite app_length in Hlen. lia.
  - rewrite app_nil_r. apply post_ret; [unfold is_done; now rewrite Hst| rewrite Hck; now apply I_ext | exact Hout|].
    intros C. exfalso. unfold complete in C. rewrite Hxc, <- app_assoc in Heq. apply app_inv_head in Heq.
    rewrite Heq, app_length in C. destruct l; [congruence|]. cbn [length] in C. lia.
Qed.

Lemma PK_all : forall k, PK k.
Proof.
  induction k as [|k IH]; intros st tok out B HI Hn Hlen Hout; [lia|].
  rewrite parse_loop_eq.
  destruct (p_stage st) eqn:Hst; try congruence;
    try (rewrite bodyK_chunk by congruence; apply chunk_lemma; [exact IH| exact HI| congruence | congruence | lia | exact Hout]).
  apply ext_lemma; [exact IH| exact HI| exact Hst| lia| exact Hout].
Qed.

(* one call of TeChunkedParser::parse *)
Lemma norm_inv st suf B : Inv st suf B -> norm_state st = st.
Proof. intros H. apply Inv_stage in H. unfold norm_state. destruct (p_stage st); congruence. Qed.

Lemma norm_done st : p_stage st <> StDone -> p_stage (norm_state st) <> StDone.
Proof. unfold norm_state. destruct (p_stage st) eqn:E; cbn; congruence. Qed.

Lemma parse_call st inp B :
  Inv (norm_state st) (inp ++ fut) B -> p_stage st <> StDone ->
  exists ret st' rem o B', parse relaxed cap st inp = PRet ret st' rem o /\ B = o ++ B' /\
     Inv (norm_state st') (rem ++ fut) B' /\ ret = is_done st' /\ lenN o <= cap /\
     (complete -> ret = true \/ (B' <> [] /\ lenN o = cap)).
Proof.
  intros HI Hnd. unfold parse. destruct inp as [|c inp'].
  - pose proof (Inv_len _ _ _ HI (norm_done _ Hnd)) as Hl.
    exists false, st, [], [], B. split; [reflexivity|]. split; [reflexivity|]. split; [exact HI|].
    split. { unfold is_done. destruct (p_stage st); try reflexivity. congruence. }
    split; [cbn; lia|]. intros C. exfalso. unfold complete in C. cbn [app] in Hl. lia.
  - change (match p_stage st with
            | StNone => {| p_stage := StSz; p_size := p_size st; p_left := p_left st |}
            | _ => st end) with (norm_state st).
    destruct (PK_all (S (length (c :: inp'))) (norm_state st) (c :: inp') [] B HI (Inv_stage _ _ _ HI) ltac:(lia) ltac:(cbn; lia))
      as (ret & st' & rem & o & B' & Hr & HB & HI' & Hret & Hle & Hc).
    cbn [app] in Hr, Hle, Hc.
    exists ret, st', rem, o, B'. rewrite (norm_inv _ _ _ HI'). repeat split; assumption.
Qed.
End Call.

Definition segs (sched : list (bytes * N)) : bytes := concat (map fst sched).
Fixpoint sumcaps (sched : list (bytes * N)) : N := match sched with [] => 0 | (_, c) :: m => c + sumcaps m end.

(* the first step of a schedule: one parse() call on what was retained and what was read *)
Lemma run_cons st inBuf out trace seg cp more B rest :
  p_stage st <> StDone -> Inv (norm_state st) (inBuf ++ segs ((seg, cp) :: more) ++ rest) B ->
  exists (ret : bool) st' rem o B' tr,
    run relaxed st inBuf out trace ((seg, cp) :: more) =
      (if ret then {| r_status := RDone; r_state := st'; r_rest := rem; r_out := out ++ o; r_trace := tr |}
       else run relaxed st' rem (out ++ o) tr more) /\
    B = o ++ B' /\ Inv (norm_state st') (rem ++ segs more ++ rest) B' /\
    (if ret then p_stage st' = StDone else p_stage st' <> StDone) /\ lenN o <= cp /\
    (complete (segs more ++ rest) -> ret = true \/ (B' <> [] /\ lenN o = cp)).
Proof.
  intros Hnd HI. unfold segs in HI. cbn [map concat fst] in HI. fold (segs more) in HI. rewrite <- app_assoc, app_assoc in HI.
  destruct (parse_call _ cp st (inBuf ++ seg) B HI Hnd) as (ret & st' & rem & o & B' & Hp & HB & HIn & -> & Hle & Hprog).
  exists (is_done st'), st', rem, o, B', (trace ++ [(is_done st', st', needs_space st' cp o, lenN rem, lenN o)]).
  repeat split; try assumption; cbn [run]; try rewrite Hp; unfold is_done; destruct (p_stage st'); (reflexivity || congruence).
Qed.

Lemma run_safe : forall sched st inBuf out trace B rest,
  p_stage st <> StDone -> Inv (norm_state st) (inBuf ++ segs sched ++ rest) B ->
  let r := run relaxed st inBuf out trace sched in
  (r_status r = RDone /\ r_out r = out ++ B /\ exists used later, segs sched = used ++ later /\ r_rest r ++ later ++ rest = tail)
  \/ (r_status r = RMore /\ p_stage (r_state r) <> StDone /\
      exists o B', r_out r = out ++ o /\ B = o ++ B' /\ Inv (norm_state (r_state r)) (r_rest r ++ rest) B').
Proof.
  induction sched as [|[seg cp] more IH]; intros st inBuf out trace B rest Hnd HI; cbv zeta.
  - right. cbn [run r_status r_state r_out r_rest]. split; [reflexivity|]. split; [exact Hnd|].
    exists [], B. rewrite app_nil_r. cbn [segs map concat app] in HI. tauto.
  - destruct (run_cons st inBuf out trace seg cp more B rest Hnd HI) as (ret & st' & rem & o & B' & tr & -> & HB & HIn & Hd & _).
    destruct ret.
    + left. cbn [r_status r_out r_rest]. split; [reflexivity|].
      assert (Hn : norm_state st' = st') by (unfold norm_state; now rewrite Hd).
      rewrite Hn in HIn. destruct (Inv_done _ _ _ HIn Hd) as [-> Ht]. rewrite app_nil_r in HB. subst o.
      split; [reflexivity|]. exists seg, (segs more). split; [reflexivity|]. exact Ht.
    + specialize (IH st' rem (out ++ o) tr B' rest Hd HIn). cbv zeta in IH. destruct IH as [(Hs & Ho & used & later & Hsg & Hrest)|(Hs & Hnd2 & o2 & B2 & Ho & HB2 & HI2)].
      * left. split; [exact Hs|]. split; [rewrite Ho, HB, app_assoc; reflexivity|].
        exists (seg ++ used), later. unfold segs at 1. cbn [map concat fst]. fold (segs more). rewrite Hsg, app_assoc. tauto.
      * right. split; [exact Hs|]. split; [exact Hnd2|]. exists (o ++ o2), B2.
        rewrite Ho, HB, HB2, !app_assoc. tauto.
Qed.

Lemma run_complete : forall sched st inBuf out trace B rest,
  p_stage st <> StDone -> Inv (norm_state st) (inBuf ++ segs sched ++ rest) B ->
  sched <> [] -> (length (segs (tl sched) ++ rest) <= length tail)%nat -> lenN B <= sumcaps sched ->
  r_status (run relaxed st inBuf out trace sched) = RDone.
Proof.
  induction sched as [|[seg cp] more IH]; intros st inBuf out trace B rest Hnd HI Hne Hc Hcap; [congruence|].
  cbn [tl] in Hc.
  destruct (run_cons st inBuf out trace seg cp more B rest Hnd HI) as (ret & st' & rem & o & B' & tr & -> & HB & HIn & Hnd' & Hle & Hprog).
  destruct ret; [reflexivity|]. destruct (Hprog Hc) as [Hx|[HBne Hfull]]; [discriminate|].
  cbn [sumcaps] in Hcap. rewrite HB, lenN_app in Hcap.
  assert (HB' : 1 <= lenN B') by (destruct B'; [congruence| cbn [lenN]; lia]).
  apply (IH st' rem _ _ B' rest Hnd' HIn).
  - intros ->. cbn in Hcap. lia.
  - destruct more as [|[s2 c2] more2]; [cbn in Hcap; lia|]. cbn [tl].
    unfold segs in Hc. cbn [map concat fst] in Hc. fold (segs more2) in Hc. rewrite <- app_assoc, app_length in Hc. lia.
  - lia.
Qed.

Fixpoint live (rest : bytes) (sched : list (bytes * N)) (need : N) : Prop :=
  match sched with
  | [] => False
  | (seg, cp) :: more => ((length (segs more ++ rest) <= length tail)%nat /\ need <= sumcaps sched) \/ live rest more need
  end.

Lemma live_mono rest sched : forall n n', n' <= n -> live rest sched n -> live rest sched n'.
Proof.
  induction sched as [|[seg cp] more IH]; intros n n' Hle; cbn [live]; [tauto|].
  intros [[H1 H2]|H]; [left; split; [exact H1|lia]| right; eapply IH; eassumption].
Qed.

Lemma run_live : forall sched st inBuf out trace B rest,
  p_stage st <> StDone -> Inv (norm_state st) (inBuf ++ segs sched ++ rest) B ->
  live rest sched (lenN B) -> r_status (run relaxed st inBuf out trace sched) = RDone.
Proof.
  induction sched as [|[seg cp] more IH]; intros st inBuf out trace B rest Hnd HI Hl; [destruct Hl|].
  cbn [live] in Hl. destruct Hl as [[Hc Hcap]|Hl].
  - eapply run_complete; try eassumption; discriminate.
  - destruct (run_cons st inBuf out trace seg cp more B rest Hnd HI) as (ret & st' & rem & o & B' & tr & -> & HB & HIn & Hnd' & _).
    destruct ret; [reflexivity|]. apply (IH st' rem _ _ B' rest Hnd' HIn). eapply live_mono; [|exact Hl]. rewrite HB, lenN_app. lia.
Qed.
End Core.

(* quoted-string = DQUOTE *( qdtext / quoted-pair ) DQUOTE, written as
   *( *qdtext quoted-pair ) *qdtext : a list of (qdtext run, escaped octet) and a final run *)
Definition qseg := (bytes * N)%type.
Definition enc_qseg (s : qseg) : bytes := fst s ++ [92; snd s].
Definition enc_qs (qsegs : list qseg) (last : bytes) : bytes := concat (map enc_qseg qsegs) ++ last.
Definition qseg_ok (s : qseg) : Prop := forallb rfc_qdtext (fst s) = true /\ rfc_qpair (snd s) = true.

Inductive extval :=
| VNone
| VTok (w1 w2 t : bytes)                         (* BWS "=" BWS token *)
| VQuoted (w1 w2 : bytes) (qsegs : list qseg) (last : bytes).   (* BWS "=" BWS quoted-string *)
Record ext := { x_w1 : bytes; x_w2 : bytes; x_name : bytes; x_val : extval }.

Definition enc_val (v : extval) : bytes :=
  match v with
  | VNone => []
  | VTok w1 w2 t => w1 ++ [61] ++ w2 ++ t
  | VQuoted w1 w2 qsegs last => w1 ++ [61] ++ w2 ++ [34] ++ enc_qs qsegs last ++ [34]
  end.
(* BWS ";" BWS chunk-ext-name [ BWS "=" BWS chunk-ext-val ] *)
Definition enc_ext (e : ext) : bytes := x_w1 e ++ [59] ++ x_w2 e ++ x_name e ++ enc_val (x_val e).
Definition enc_exts (es : list ext) : bytes := concat (map enc_ext es).

Definition bws_ok (w : bytes) : Prop := forallb rfc_bws w = true.
Definition token_ok (t : bytes) : Prop := t <> [] /\ forallb rfc_tchar t = true.
Definition val_ok (v : extval) : Prop :=
  match v with
  | VNone => True
  | VTok w1 w2 t => bws_ok w1 /\ bws_ok w2 /\ token_ok t
  | VQuoted w1 w2 qsegs last => bws_ok w1 /\ bws_ok w2 /\ Forall qseg_ok qsegs /\ forallb rfc_qdtext last = true
  end.
Definition ext_ok (e : ext) : Prop :=
  bws_ok (x_w1 e) /\ bws_ok (x_w2 e) /\ token_ok (x_name e) /\ val_ok (x_val e) /\ lenN (enc_ext e) < npos.

Lemma lenN_app_lt {A} (a b : list A) n : lenN (a ++ b) < n -> lenN a < n /\ lenN b < n.
Proof. rewrite lenN_app. lia. Qed.

Lemma is_nil_mid {A} (a : list A) y r : is_nil (a ++ y :: r) = false.
Proof. now destruct a. Qed.

Lemma bws_ws relaxed w : bws_ok w -> forallb (ws_chars relaxed) w = true.
Proof. apply forallb_impl. intros c H. apply (ws_bws relaxed c H). Qed.
Lemma bws_wsp w : bws_ok w -> forallb cs_WSP w = true.
Proof. apply forallb_impl. intros c H. apply (ws_bws false c H). Qed.

Lemma bws_then relaxed w y r : bws_ok w -> ws_chars relaxed y = false -> parse_bws relaxed (w ++ y :: r) = Ok (y :: r).
Proof. intros Hw Hy. apply bws_run; [apply bws_ws, Hw| exact Hy]. Qed.

Lemma bws_then_token relaxed w t R : bws_ok w -> token_ok t -> parse_bws relaxed (w ++ t ++ R) = Ok (t ++ R).
Proof.
  intros Hw [Hne Hall]. destruct t as [|t0 t]; [congruence|]. cbn [forallb] in Hall. apply andb_prop in Hall as [H0 _].
  apply (bws_then relaxed w t0 (t ++ R) Hw), (proj1 (ws_tchar relaxed t0 H0)).
Qed.

(* BWS in front of CRLF: the relaxed parser takes the CR as white space too *)
Lemma bws_crlf relaxed w x : bws_ok w ->
  exists z rz, parse_bws relaxed (w ++ 13 :: 10 :: x) = Ok (z :: rz) /\ z <> 59 /\ z <> 61.
Proof.
  intros Hw. destruct (ws_facts relaxed) as (_ & _ & _ & F10 & F13). destruct relaxed.
  - exists 10, x. change (w ++ 13 :: 10 :: x) with (w ++ [13] ++ 10 :: x). rewrite app_assoc.
    split; [|split; discriminate]. apply bws_run; [|exact F10].
    rewrite forallb_app, (bws_ws true w Hw). cbn [forallb]. now rewrite F13.
  - exists 13, (10 :: x). split; [now apply bws_then| split; discriminate].
Qed.

Lemma bws_head w y r : bws_ok w -> rfc_tchar y = false -> exists h r', w ++ y :: r = h :: r' /\ rfc_tchar h = false.
Proof.
  intros Hw Hy. destruct w as [|c w]; [now exists y, r|]. exists c, (w ++ y :: r). split; [reflexivity|].
  unfold bws_ok in Hw. cbn [forallb] in Hw. apply andb_prop in Hw as [Hc _]. clear -Hc.
  unfold rfc_bws in Hc. unfold rfc_tchar, rng. lia.
Qed.

Lemma token_then t h r : token_ok t -> lenN t < npos -> rfc_tchar h = false ->
  tok_prefix cs_TCHAR npos (t ++ h :: r) = Some (t, h :: r).
Proof.
  intros [Hne Hall] Hl Hh. apply tok_prefix_complete; [exact Hne| | lia | right; now rewrite tchar_eq].
  eapply forallb_impl; [|exact Hall]. intros x Hx. now rewrite tchar_eq.
Qed.

(* what may follow an extension: the next one, or CRLF *)
Definition nxt (Z : bytes) : Prop :=
  exists w y r, Z = w ++ y :: r /\ bws_ok w /\ (y = 59 \/ (y = 13 /\ exists r', r = 10 :: r')).

Lemma nxt_bws relaxed Z : nxt Z -> exists z r, parse_bws relaxed Z = Ok (z :: r) /\ z <> 61.
Proof.
  intros (w & y & r & -> & Hw & [->|[-> [r' ->]]]).
  - exists 59, r. split; [|discriminate]. apply bws_then; [exact Hw| apply ws_facts].
  - destruct (bws_crlf relaxed w r' Hw) as (z & rz & H & _ & Hz). now exists z, rz.
Qed.

Lemma nxt_head Z : nxt Z -> exists y r, Z = y :: r /\ rfc_tchar y = false.
Proof. intros (w & y & r & -> & Hw & Hy). apply bws_head; [exact Hw|]. now destruct Hy as [->|[-> _]]. Qed.

Lemma qs_pre_run acc run y r : forallb rfc_qdtext run = true -> lenN run < npos -> qdtext11 y = false ->
  qs_pre acc (run ++ y :: r) = (acc ++ run, y :: r).
Proof.
  intros Hrun Hl Hy. unfold qs_pre. destruct run as [|l0 run']; [cbn [app]; now rewrite (tok_prefix_none_head _ _ _ _ Hy), app_nil_r|].
  rewrite tok_prefix_complete; [reflexivity| discriminate | | lia | now right].
  eapply forallb_impl; [|exact Hrun]. intros x Hx. now rewrite qdtext_eq.
Qed.

Lemma enc_qs_cons run c qsegs last T : enc_qs ((run, c) :: qsegs) last ++ T = run ++ 92 :: c :: enc_qs qsegs last ++ T.
Proof. unfold enc_qs, enc_qseg. cbn [map concat fst snd]. now rewrite <- !app_assoc. Qed.

Lemma qs_valid Z : forall qsegs last acc k, Forall qseg_ok qsegs -> forallb rfc_qdtext last = true ->
  lenN (enc_qs qsegs last) < npos -> (length (enc_qs qsegs last ++ 34%N :: Z) < k)%nat ->
  exists v, qs_loop k acc (enc_qs qsegs last ++ 34 :: Z) = Some (Ok (v, Z)).
Proof.
  induction qsegs as [|[run c] qsegs IH]; intros last acc k Hsegs Hlast Hlen Hk; (destruct k as [|k]; [lia|]).
  - unfold enc_qs in *. cbn [map concat app] in *. rewrite qs_step_eq, is_nil_mid. cbv zeta.
    rewrite (qs_pre_run acc last 34 Z Hlast Hlen eq_refl). cbn [fst snd tok_skipChar].
    change (34 =? 92) with false. change (34 =? 34) with true. cbn [fst snd]. eauto.
  - inversion Hsegs as [|? ? [Hrun Hc] Hsegs']; subst. cbn [fst snd] in *.
    rewrite <- (app_nil_r (enc_qs _ last)), enc_qs_cons, app_nil_r, lenN_app in Hlen. cbn [lenN] in Hlen.
    rewrite enc_qs_cons, app_length in Hk. cbn [length] in Hk.
    rewrite enc_qs_cons, qs_step_eq, is_nil_mid. cbv zeta.
    rewrite (qs_pre_run acc run 92 _ Hrun ltac:(lia) eq_refl). cbn [fst snd tok_skipChar].
    change (92 =? 92) with true. cbn [fst snd]. rewrite qpair_eq, Hc.
    apply IH; [exact Hsegs'| exact Hlast| lia | lia].
Qed.

Lemma toq_token t h r : token_ok t -> lenN t < npos -> rfc_tchar h = false ->
  token_or_qs (t ++ h :: r) = Some (Ok (t, h :: r)).
Proof.
  intros Ht Hl Hh. unfold token_or_qs. rewrite is_nil_mid, (token_then t h r Ht Hl Hh).
  destruct Ht as [Hne Hall]. destruct t as [|t0 t]; [congruence|]. cbn [app tok_skipChar forallb] in *.
  apply andb_prop in Hall as [H0 _]. replace (t0 =? 34) with false; [reflexivity|].
  clear -H0. unfold rfc_tchar, rng in H0. lia.
Qed.

Lemma toq_quoted qsegs last Z : Forall qseg_ok qsegs -> forallb rfc_qdtext last = true ->
  lenN (enc_qs qsegs last) < npos ->
  exists v, token_or_qs (34 :: enc_qs qsegs last ++ 34 :: Z) = Some (Ok (v, Z)).
Proof.
  intros Hs Hl Hlen. unfold token_or_qs, quoted_suffix. cbn [tok_skipChar]. change (34 =? 34) with true. cbv iota.
  apply qs_valid; [assumption..| lia].
Qed.

(* parseOneChunkExtension on a grammatical extension followed by the next one or CRLF *)
Lemma one_ext_valid relaxed e Z : ext_ok e -> nxt Z ->
  one_ext relaxed (x_w2 e ++ x_name e ++ enc_val (x_val e) ++ Z) = Some (Ok Z).
Proof.
  intros (_ & Hw2 & Hname & Hval & Hlen) HZ.
  assert (Hl : lenN (x_name e) < npos /\ lenN (enc_val (x_val e)) < npos)
    by (unfold enc_ext in Hlen; rewrite !lenN_app in Hlen; lia).
  clear Hlen. destruct Hl as [Hln Hlv].
  destruct (nxt_head Z HZ) as (y & rz & EZ & Hy).
  (* the name ends at a byte that is not a tchar *)
  assert (Hafter : exists h r, enc_val (x_val e) ++ Z = h :: r /\ rfc_tchar h = false).
  { destruct (x_val e) as [|w1 w2 t|w1 w2 qsegs last]; cbn [enc_val val_ok] in *;
      [eauto | | ]; rewrite <- app_assoc; (apply bws_head; [apply Hval| reflexivity]). }
  destruct Hafter as (h & r & Hyr & Hh).
  unfold one_ext. rewrite (bws_then_token relaxed _ _ _ Hw2 Hname).
  unfold tok_prefix_req. rewrite Hyr, is_nil_mid, (token_then _ h r Hname Hln Hh). cbn [is_nil].
  rewrite <- Hyr. clear Hyr Hh h r. destruct (ws_facts relaxed) as (_ & F61 & F34 & _).
  destruct (x_val e) as [|w1 w2 t|w1 w2 qsegs last]; cbn [enc_val val_ok] in *.
  - cbn [app]. destruct (nxt_bws relaxed Z HZ) as (z & rz' & -> & Hz). cbn [tok_skipChar].
    now rewrite (proj2 (N.eqb_neq z 61) Hz).
  - destruct Hval as (Hv1 & Hv2 & Ht). rewrite <- !app_assoc. cbn [app].
    rewrite (bws_then relaxed w1 61 _ Hv1 F61). cbn [tok_skipChar]. change (61 =? 61) with true. cbn [negb].
    rewrite (bws_then_token relaxed _ _ _ Hv2 Ht), EZ, (toq_token t y rz Ht); [reflexivity| | exact Hy].
    clear -Hlv. rewrite !lenN_app in Hlv. lia.
  - destruct Hval as (Hv1 & Hv2 & Hsegs & Hlast). rewrite <- !app_assoc. cbn [app].
    rewrite (bws_then relaxed w1 61 _ Hv1 F61). cbn [tok_skipChar]. change (61 =? 61) with true. cbn [negb].
    rewrite (bws_then relaxed w2 34 _ Hv2 F34).
    assert (Hlq : lenN (enc_qs qsegs last) < npos) by (clear -Hlv; rewrite !lenN_app in Hlv; lia).
    now destruct (toq_quoted qsegs last Z Hsegs Hlast Hlq) as [v ->].
Qed.

Lemma enc_exts_cons e es T : enc_exts (e :: es) ++ T =
  x_w1 e ++ 59 :: (x_w2 e ++ x_name e ++ enc_val (x_val e) ++ enc_exts es ++ T).
Proof. unfold enc_exts. cbn [map concat]. unfold enc_ext. rewrite <- !app_assoc. reflexivity. Qed.

Lemma nxt_exts es w x : Forall ext_ok es -> bws_ok w -> nxt (enc_exts es ++ w ++ 13 :: 10 :: x).
Proof.
  intros H Hw. destruct H as [|e es He Hes].
  - exists w, 13, (10 :: x). split; [reflexivity|]. split; [exact Hw|]. right. eauto.
  - rewrite enc_exts_cons. eexists (x_w1 e), 59, _. split; [reflexivity|]. split; [apply He|]. now left.
Qed.

(* one turn of the loop: ";" and one extension *)
Lemma exts_semi relaxed ctok ck e T :
  parse_bws relaxed ctok = Ok (59 :: (x_w2 e ++ x_name e ++ enc_val (x_val e) ++ T)) -> ext_ok e -> nxt T ->
  exts relaxed ctok ck = exts relaxed T T.
Proof.
  intros Hb He HT. rewrite exts_unfold, Hb. cbn [tok_skipChar]. change (59 =? 59) with true. cbn [negb fst snd].
  now rewrite one_ext_valid.
Qed.

Lemma exts_valid relaxed w x : bws_ok w -> forall es ck, Forall ext_ok es ->
  fst (exts relaxed (enc_exts es ++ w ++ 13 :: 10 :: x) ck) = Ok (w ++ 13 :: 10 :: x).
Proof.
  intros Hw. induction es as [|e es IH]; intros ck Hes.
  - cbn [enc_exts map concat app]. rewrite exts_unfold.
    destruct (bws_crlf relaxed w x Hw) as (z & rz & -> & Hz & _). cbn [tok_skipChar].
    now rewrite (proj2 (N.eqb_neq z 59) Hz).
  - inversion Hes as [|? ? He Hes']; subst. rewrite enc_exts_cons.
    rewrite (exts_semi relaxed _ ck e _ (bws_then relaxed _ 59 _ (proj1 He) (proj1 (ws_facts relaxed))) He (nxt_exts es w x Hes' Hw)).
    apply IH, Hes'.
Qed.

(* since 1aa8f1c the BWS in front of the first extension is consumed with the chunk-size *)
Definition ext_w (es : list ext) : bytes := match es with [] => [] | e :: _ => x_w1 e end.
Definition ext_xc (es : list ext) : bytes :=
  match es with
  | [] => crlf
  | e :: es' => 59 :: (x_w2 e ++ x_name e ++ enc_val (x_val e) ++ enc_exts es' ++ crlf)
  end.
Lemma ext_split es : enc_exts es ++ crlf = ext_w es ++ ext_xc es.
Proof. destruct es as [|e es']; [reflexivity|]. rewrite enc_exts_cons. reflexivity. Qed.

(* the chunk-ext text of a header line satisfies what the invariant needs *)
Lemma grammar_ext_sem relaxed st es : Forall ext_ok es -> ext_sem relaxed st (ext_xc es).
Proof.
  intros Hes R0. rewrite meta_eq.
  assert (Hx : fst (exts relaxed (ext_xc es ++ R0) (ext_xc es ++ R0)) = Ok (crlf ++ R0)).
  { destruct Hes as [|e es He Hes]; [exact (exts_valid relaxed [] R0 eq_refl [] _ (Forall_nil _))|].
    cbn [ext_xc app]. rewrite <- !app_assoc.
    rewrite (exts_semi relaxed _ _ e _ (bws_then relaxed [] 59 _ eq_refl (proj1 (ws_facts relaxed))) He (nxt_exts es [] R0 Hes eq_refl)).
    exact (exts_valid relaxed [] R0 eq_refl es _ Hes). }
  rewrite Hx. cbv beta iota. now rewrite skipRequired_crlf_cases.
Qed.

Lemma head_ok_intro c r : rfc_bws c = false -> is_hex c = false -> c <> 120 -> c <> 88 -> head_ok (c :: r).
Proof. cbn [head_ok]. rewrite wsp_eq. tauto. Qed.

Lemma grammar_head_ok es : head_ok (ext_xc es).
Proof. destruct es; apply head_ok_intro; (reflexivity || discriminate). Qed.

Lemma grammar_wsp es : Forall ext_ok es -> wsp_ok (ext_w es).
Proof. intros H. destruct H as [|e es' He _]; [reflexivity|]. cbn [ext_w]. apply bws_wsp. apply He. Qed.

Record chunk := { k_digits : bytes; k_exts : list ext; k_data : bytes }.
Record message := { m_chunks : list chunk; m_zeros : bytes; m_last_exts : list ext; m_trailer : list field }.

(* chunk = chunk-size [ chunk-ext ] CRLF chunk-data CRLF *)
Definition enc_chunk (k : chunk) : bytes := k_digits k ++ enc_exts (k_exts k) ++ crlf ++ k_data k ++ crlf.
(* chunked-body = *chunk last-chunk trailer-section CRLF ; last-chunk = 1*"0" [ chunk-ext ] CRLF *)
Definition encode (m : message) : bytes :=
  concat (map enc_chunk (m_chunks m)) ++ m_zeros m ++ enc_exts (m_last_exts m) ++ crlf ++
  enc_fields (m_trailer m) ++ crlf.
Definition body (m : message) : bytes := concat (map k_data (m_chunks m)).

(* chunk-size = 1*HEXDIG denoting the data length, which must fit in 63 bits *)
Definition chunk_ok (k : chunk) : Prop :=
  digits_ok (k_digits k) (lenN (k_data k)) /\ k_data k <> [] /\ Forall ext_ok (k_exts k).
Definition message_ok (m : message) : Prop :=
  Forall chunk_ok (m_chunks m) /\ digits_ok (m_zeros m) 0 /\ Forall ext_ok (m_last_exts m) /\
  Forall (field_ok rfc_tchar) (m_trailer m) /\ lenN (enc_fields (m_trailer m) ++ crlf) < trailer_limit.

Section Final.
Variable relaxed : bool.
Variable m : message.
Hypothesis Hm : message_ok m.
Variable tail : bytes.

Let Tr := enc_fields (m_trailer m) ++ crlf.

Lemma F_Tfull : forall t0, headers_end (Tr ++ t0) = lenN Tr.
Proof. intros t0. apply (he_trailer_full rfc_tchar tchar_not_crlf). apply Hm. Qed.
Lemma F_Tlen : 0 < lenN Tr < trailer_limit.
Proof. split; [unfold Tr; rewrite lenN_app; cbn; lia| apply Hm]. Qed.

(* a grammatical header line in front of what the state behind it expects *)
Lemma F_header st ds v es R B : p_stage st = StSz -> digits_ok ds v -> Forall ext_ok es ->
  Inv relaxed Tr tail (ext_state (size_state v)) R B -> Inv relaxed Tr tail st (ds ++ enc_exts es ++ crlf ++ R) B.
Proof.
  intros Hs Hd He HI. rewrite (app_assoc (enc_exts es)), ext_split, <- !app_assoc.
  apply (I_sz _ _ _ st ds v); [exact Hs| exact Hd| now apply grammar_wsp| apply grammar_head_ok|].
  apply I_ext; [reflexivity| now apply grammar_ext_sem| exact HI].
Qed.

Lemma F_init : Inv relaxed Tr tail (norm_state init_state) (encode m ++ tail) (body m).
Proof.
  destruct Hm as (Hc & Hz & Hle & _).
  replace (encode m ++ tail) with (concat (map enc_chunk (m_chunks m)) ++ m_zeros m ++ enc_exts (m_last_exts m) ++ crlf ++ Tr ++ tail)
    by (unfold encode, Tr; now rewrite <- !app_assoc).
  unfold body. generalize (norm_state init_state) (eq_refl : p_stage (norm_state init_state) = StSz).
  induction Hc as [|k ks (Hd & Hne & He) _ IH]; intros st Hs; cbn [map concat app].
  - apply (F_header st _ 0 _ _ _ Hs Hz Hle), I_mime. reflexivity.
  - unfold enc_chunk at 1. rewrite <- !app_assoc. apply (F_header st _ _ _ _ _ Hs Hd He), I_chunk; [|reflexivity| exact IH].
    rewrite ext_state_stage. cbn [size_state p_size].
    destruct (N.eqb_spec (lenN (k_data k)) 0) as [E|_]; [|reflexivity]. now apply lenN_nil_iff in E.
Qed.

(* safety: any segmentation, any capacities, any amount of the stream delivered *)
Theorem dechunk_safe sched rest :
  segs sched ++ rest = encode m ++ tail ->
  let r := run_chunked relaxed sched in
  (r_status r = RDone /\ r_out r = body m /\
   exists used later, segs sched = used ++ later /\ used = encode m ++ r_rest r)
  \/ (r_status r = RMore /\ exists B', body m = r_out r ++ B').
Proof.
  intros Heq. cbv zeta. unfold run_chunked.
  pose proof (run_safe relaxed Tr tail F_Tfull F_Tlen sched init_state [] [] [] (body m) rest
                ltac:(discriminate)) as H.
  cbn [app] in H. rewrite Heq in H. specialize (H F_init). cbv zeta in H.
  destruct H as [(Hs & Ho & used & later & Hsg & Hr)|(Hs & _ & o & B' & Ho & HB & _)].
  - left. split; [exact Hs|]. split; [exact Ho|]. exists used, later. split; [exact Hsg|].
    rewrite Hsg in Heq. rewrite <- Hr in Heq. rewrite <- !app_assoc in Heq.
    rewrite (app_assoc (encode m)) in Heq. rewrite (app_assoc used) in Heq. rewrite (app_assoc (encode m ++ _)) in Heq.
    apply app_inv_tail in Heq. apply app_inv_tail in Heq. exact Heq.
  - right. split; [exact Hs|]. exists B'. cbn [app] in Ho. rewrite Ho. exact HB.
Qed.

(* completion: from some step on everything has been delivered and the capacities cover the body *)
Theorem dechunk_complete sched rest :
  segs sched ++ rest = encode m ++ tail ->
  live tail rest sched (lenN (body m)) ->
  r_status (run_chunked relaxed sched) = RDone.
Proof.
  intros Heq Hl. unfold run_chunked.
  apply (run_live relaxed Tr tail F_Tfull F_Tlen sched init_state [] [] [] (body m) rest);
    [discriminate| cbn [app]; rewrite Heq; apply F_init | exact Hl].
Qed.
End Final.

Theorem dechunk_exact relaxed m tail sched rest :
  message_ok m -> segs sched ++ rest = encode m ++ tail -> live tail rest sched (lenN (body m)) ->
  let r := run_chunked relaxed sched in
  r_status r = RDone /\ r_out r = body m /\
  exists used later, segs sched = used ++ later /\ used = encode m ++ r_rest r.
Proof.
  intros Hm Heq Hl. cbv zeta.
  pose proof (dechunk_complete relaxed m Hm tail sched rest Heq Hl) as Hd.
  destruct (dechunk_safe relaxed m Hm tail sched rest Heq) as [H|[Hs _]]; [exact H| congruence].
Qed.

Theorem truncated_asks_for_more relaxed m sched rest :
  message_ok m -> segs sched ++ rest = encode m -> rest <> [] ->
  let r := run_chunked relaxed sched in
  r_status r = RMore /\ exists B', body m = r_out r ++ B'.
Proof.
  intros Hm Heq Hne. cbv zeta.
  assert (Heq' : segs sched ++ rest = encode m ++ []) by (now rewrite app_nil_r).
  destruct (dechunk_safe relaxed m Hm [] sched rest Heq') as [(Hs & Ho & used & later & Hsg & Hu)|H]; [|exact H].
  exfalso. rewrite Hsg, Hu in Heq. apply (f_equal (@length N)) in Heq. repeat rewrite app_length in Heq.
  destruct rest; [congruence|]. cbn [length] in Heq. lia.
Qed.

Definition at_size (st : pstate) : Prop := p_stage st = StNone \/ p_stage st = StSz.

Lemma parse_at_size relaxed cap st b : at_size st -> b <> [] ->
  parse relaxed cap st b =
  match chunk_size (norm_state st) b with
  | Bad e => PThrow e []
  | Insuf => PThrow ESize []
  | Ok None => PRet false (norm_state st) b []
  | Ok (Some (st4, t4)) => parse_loop (length b) relaxed cap st4 t4 t4 []
  end.
Proof.
  intros Hs Hb. destruct b as [|c x]; [congruence|]. unfold parse. fold (norm_state st).
  assert (Hn : p_stage (norm_state st) = StSz) by (unfold norm_state; destruct Hs as [H|H]; rewrite H; [reflexivity|exact H]).
  rewrite parse_loop_eq, bodyK_chunk, chunkK_mime, mimeK_sz by congruence. unfold szK. rewrite Hn.
  destruct (chunk_size (norm_state st) (c :: x)) as [[[st4 t4]|]| |e]; try reflexivity.
  unfold fin. now rewrite Hn.
Qed.

Theorem reject_0x relaxed cap st c x : at_size st -> c = 120 \/ c = 88 ->
  parse relaxed cap st (48 :: c :: x) = PThrow E0x [].
Proof.
  intros Hs Hc. rewrite parse_at_size, chunk_size_eq by (exact Hs || discriminate). now destruct Hc as [->| ->].
Qed.

Theorem reject_nonhex relaxed cap st c x : at_size st -> is_hex c = false ->
  parse relaxed cap st (c :: x) = PThrow ESize [].
Proof. intros Hs Hc. now rewrite parse_at_size, chunk_size_nonhex by (assumption || discriminate). Qed.

(* chunk-size followed by something that is neither BWS, ";" nor CR: missing CRLF *)
Theorem reject_missing_crlf_after_size relaxed cap st ds v c x :
  at_size st -> digits_ok ds v -> is_hex c = false -> c <> 120 -> c <> 88 ->
  ws_chars relaxed c = false -> c <> 59 -> c <> 13 ->
  parse relaxed cap st (ds ++ c :: x) = PThrow EExtCrlf [].
Proof.
  intros Hs (Hne & Hhex & Hv & Hlt & Hlen) Hc Hx1 Hx2 Hws H59 H13. subst v.
  rewrite parse_at_size by (exact Hs || now destruct ds).
  rewrite (size_full _ ds c x Hne Hhex Hlt Hlen Hc Hx1 Hx2).
  assert (Hwsp : cs_WSP c = false).
  { destruct (cs_WSP c) eqn:E; [|reflexivity]. rewrite (wsp_sub relaxed c E) in Hws. discriminate. }
  unfold parse_strict_bws. rewrite (bws_stop cs_WSP c x Hwsp).
  rewrite app_length. cbn [length]. rewrite Nat.add_succ_r, parse_loop_eq. unfold bodyK. cbn [p_stage size_state].
  rewrite meta_eq, exts_unfold. unfold parse_bws. rewrite (bws_stop _ c x Hws).
  cbn [tok_skipChar]. rewrite (proj2 (N.eqb_neq c 59) H59). cbn [negb fst snd].
  rewrite skipRequired_crlf_cases. now rewrite (proj2 (N.eqb_neq c 13) H13).
Qed.

(* chunk data not followed by CRLF *)
Theorem reject_missing_crlf_after_data relaxed cap st d c0 c1 x :
  p_stage st = StChunk -> p_left st = lenN d -> d <> [] -> lenN d <= cap -> ~ (c0 = 13 /\ c1 = 10) ->
  parse relaxed cap st (d ++ c0 :: c1 :: x) = PThrow EDataCrlf d.
Proof.
  intros Hs Hl Hd Hcap Hc. unfold parse.
  destruct (d ++ c0 :: c1 :: x) as [|b0 b'] eqn:Eb; [destruct d; discriminate|]. rewrite <- Eb. rewrite Hs.
  rewrite parse_loop_eq. unfold bodyK. rewrite Hs. unfold chunkK. rewrite Hs. cbn [app lenN]. rewrite N.sub_0_r.
  unfold chunk_body. rewrite Hl.
  assert (Hpos : (0 <? lenN d) = true) by (destruct d; [congruence| cbn [lenN]; lia]). rewrite Hpos.
  assert (Hmin : N.min (N.min (lenN d) (lenN (d ++ c0 :: c1 :: x))) cap = lenN d) by (rewrite lenN_app; lia).
  rewrite Hmin. cbn [p_left]. rewrite N.sub_diag. change (0 =? 0) with true. cbv iota.
  rewrite takeN_app_exact, dropN_app_exact. unfold chunk_end. rewrite skipRequired_crlf_cases.
  destruct (c0 =? 13) eqn:E0; [|reflexivity]. destruct (c1 =? 10) eqn:E1; [|reflexivity].
  exfalso. apply Hc. split; [apply N.eqb_eq; exact E0| apply N.eqb_eq; exact E1].
Qed.

Theorem reject_size_overflow relaxed cap st ds x :
  at_size st -> forallb is_hex ds = true -> two63N <= hex_value 0 ds -> lenN ds <= npos ->
  parse relaxed cap st (ds ++ x) = PThrow ESize [].
Proof.
  intros Hs Hhex Hv Hlen. rewrite parse_at_size, chunk_size_overflow; try assumption; [reflexivity|].
  destruct ds; [cbn [hex_value] in Hv; unfold two63N in Hv; lia| discriminate].
Qed.

Definition fits (b : bytes) : Prop := lenN b <= npos.      (* what an SBuf can hold *)

Lemma span_hex b : exists D r, b = D ++ r /\ forallb is_hex D = true /\ match r with [] => True | c :: _ => is_hex c = false end.
Proof.
  exists (fst (span is_hex b)), (snd (span is_hex b)). split; [symmetry; apply span_app|]. split; [apply span_all|].
  pose proof (span_stop is_hex b) as H. destruct (snd (span is_hex b)); [exact I| exact H].
Qed.

Definition cs_ext (x : bytes) (R : res (option (pstate * bytes))) : res (option (pstate * bytes)) :=
  match R with Ok (Some (s, t)) => Ok (Some (s, t ++ x)) | _ => R end.

Lemma chunk_size_stable st b x : fits (b ++ x) -> chunk_size st b <> Ok None ->
  chunk_size st (b ++ x) = cs_ext x (chunk_size st b) /\
  (forall s t, chunk_size st b = Ok (Some (s, t)) -> (length t < length b)%nat).
Proof.
  intros Hfit Hnn. unfold fits in Hfit.
  destruct (span_hex b) as (D & r & -> & HD & Hr).
  assert (HlD : lenN D <= npos) by (rewrite !lenN_app in Hfit; lia).
  rewrite (chunk_size_norm st D r HD HlD Hr) in *.
  destruct (pre0x (D ++ r)) eqn:Hp.
  { (* a 0x prefix takes two bytes *)
    assert (2 <= length (D ++ r))%nat by (destruct (D ++ r) as [|z [|y b']]; cbn in *; try discriminate; lia).
    rewrite chunk_size_eq, pre0x_ext, Hp by assumption. split; [reflexivity|]. intros; discriminate. }
  destruct D as [|d0 D'].
  - (* no digit *)
    destruct r as [|c r']; cbn [is_nil app] in *; [congruence|].
    rewrite chunk_size_nonhex by exact Hr. split; [reflexivity| intros; discriminate].
  - destruct (two63N <=? hex_value 0 (d0 :: D')) eqn:Ev.
    + apply N.leb_le in Ev. rewrite <- app_assoc, chunk_size_overflow by assumption.
      split; [reflexivity| intros; discriminate].
    + destruct r as [|c r']; [congruence|].
      assert (Hlen2 : (2 <= length ((d0 :: D') ++ c :: r'))%nat) by (rewrite app_length; cbn [length]; lia).
      rewrite <- app_assoc. rewrite (chunk_size_norm st (d0 :: D') ((c :: r') ++ x) HD HlD Hr).
      rewrite app_assoc, pre0x_ext, Hp, Ev by assumption. cbn [app].
      unfold parse_strict_bws in *.
      destruct (parse_bws_ cs_WSP (c :: r')) as [r1| |e] eqn:Eb; [| congruence | exfalso; eapply bws_not_bad; eassumption].
      change (c :: r' ++ x) with ((c :: r') ++ x). rewrite bws_stable by congruence. rewrite Eb. cbn [ext1 cs_ext].
      split; [reflexivity|]. intros s t H. injection H as _ <-. destruct (bws_ok_inv _ _ _ Eb) as [_ Hl].
      cbn [length app] in *. rewrite app_length. cbn [length]. lia.
Qed.

Lemma meta_go_len relaxed st b s t3 b3 o : meta_suffix relaxed st b b = SGo s t3 b3 o ->
  t3 = b3 /\ o = [] /\ s = ext_state st /\ (length t3 < length b)%nat.
Proof.
  rewrite meta_eq. destruct (fst (exts relaxed b b)) as [t2| |e] eqn:E2; try discriminate.
  destruct (tok_skipRequired EExtCrlf crlf t2) as [t| |e] eqn:E3; try discriminate.
  intros H. inversion H. subst. repeat split; try reflexivity.
  apply skipRequired_ok_len in E3. destruct (exts_ck relaxed (length b) b (le_n _) b) as [H1 _]. apply H1 in E2. lia.
Qed.

Lemma meta_ret_len relaxed st b s ck o : meta_suffix relaxed st b b = SRet s ck o -> (length ck <= length b)%nat.
Proof.
  intros H. apply meta_ret in H as (_ & _ & ->).
  destruct (exts_ck relaxed (length b) b (le_n _) b) as [_ [->|[H2 _]]]; lia.
Qed.

(* stage results keep tok = buf_ and never grow the buffer *)
Lemma end_go_len st b o s t b' o' : chunk_end st b b o = SGo s t b' o' -> t = b' /\ o' = o /\ (length t < length b)%nat.
Proof.
  unfold chunk_end. destruct (tok_skipRequired EDataCrlf crlf b) as [t1| |e] eqn:E; try discriminate.
  intros H. inversion H. subst. apply skipRequired_ok_len in E. tauto.
Qed.
Lemma dropN_len {A} n (l : list A) : (length (dropN n l) <= length l)%nat.
Proof. apply length_lenN. rewrite lenN_dropN. lia. Qed.

Lemma body_go_len c st tok s t b o : chunk_body c st tok tok = SGo s t b o -> t = b /\ lenN o + lenN t <= lenN tok.
Proof.
  unfold chunk_body. destruct (0 <? p_left st).
  - set (n := N.min (N.min (p_left st) (lenN tok)) c). cbn [p_left].
    pose proof (takeN_dropN n tok) as Hsp. pose proof (lenN_takeN n tok) as Ht. pose proof (lenN_dropN n tok) as Hd.
    destruct (p_left st - n =? 0).
    + intros H. apply end_go_len in H as (H1 & -> & H2). rewrite !lenN_length in *. split; [exact H1| lia].
    + intros H. inversion H. subst. split; [reflexivity| lia].
  - intros H. apply end_go_len in H as (H1 & -> & H2). cbn [lenN]. rewrite !lenN_length. split; [exact H1| lia].
Qed.
Lemma mime_go_len st b s t b' o : grab_mime st b = SGo s t b' o -> t = b' /\ (length t <= length b)%nat /\ p_stage s = StDone.
Proof.
  unfold grab_mime. destruct (negb (headers_end b =? 0)).
  - destruct (trailer_limit <=? headers_end b); [discriminate|]. intros H. inversion H. subst.
    split; [reflexivity|]. split; [apply dropN_len| reflexivity].
  - destruct (trailer_limit <=? lenN b); discriminate.
Qed.

Definition prepend (p : bytes) (r : parse_res) : parse_res :=
  match r with PRet b s rem o => PRet b s rem (p ++ o) | PThrow e o => PThrow e (p ++ o) | PFuel => PFuel end.

Lemma fits_shorter a b : fits b -> (length a <= length b)%nat -> fits a.
Proof. unfold fits. rewrite !lenN_length. lia. Qed.

(* the iteration only ever recurses on a strictly shorter buffer, with no more output than input consumed;
   output present at its start is handed through *)
Lemma bodyK_prepend K K' relaxed cap p st tok out : fits tok ->
  (forall s t o, (length t < length tok)%nat -> lenN o + lenN t <= lenN out + lenN tok ->
     K s t (p ++ o) = prepend p (K' s t o)) ->
  (forall st1 t1, (length t1 <= length tok)%nat ->
     chunk_body (cap - lenN (p ++ out)) st1 t1 t1 = chunk_body (cap - lenN out) st1 t1 t1) ->
  bodyK K relaxed cap st tok tok (p ++ out) = prepend p (bodyK K' relaxed cap st tok tok out).
Proof.
  intros Hfit HK Hcb. unfold bodyK.
  assert (Hsz : forall st3 t3 out2, (length t3 <= length tok)%nat -> lenN out2 + lenN t3 <= lenN out + lenN tok ->
            szK K cap st3 t3 t3 (p ++ out2) = prepend p (szK K' cap st3 t3 t3 out2)).
  { intros st3 t3 out2 Hl Hb. unfold szK. rewrite !fin_eq. destruct (p_stage st3); try reflexivity.
    destruct (chunk_size st3 t3) as [[[s4 t4]|]| |e] eqn:Ec; try reflexivity.
    assert (Hf3 : fits (t3 ++ [])) by (rewrite app_nil_r; eapply fits_shorter; [exact Hfit| exact Hl]).
    destruct (chunk_size_stable st3 t3 [] Hf3 ltac:(congruence)) as [_ Hlt]. specialize (Hlt _ _ Ec).
    apply HK; [lia|]. assert (lenN t4 <= lenN t3) by (rewrite !lenN_length; lia). lia. }
  assert (Hm : forall st2 t2 out2, (length t2 <= length tok)%nat -> lenN out2 + lenN t2 <= lenN out + lenN tok ->
            mimeK K cap st2 t2 t2 (p ++ out2) = prepend p (mimeK K' cap st2 t2 t2 out2)).
  { intros st2 t2 out2 Hl Hb. unfold mimeK. destruct (p_stage st2); try (apply Hsz; assumption).
    destruct (grab_mime st2 t2) as [s3 t3 b3 o3| | |] eqn:Eg; try reflexivity.
    apply mime_go_len in Eg as (-> & Hl3 & _). apply Hsz; [lia|]. assert (lenN b3 <= lenN t2) by (rewrite !lenN_length; lia). lia. }
  assert (Hc : forall st1 t1, (length t1 <= length tok)%nat ->
            chunkK K cap st1 t1 t1 (p ++ out) [] = prepend p (chunkK K' cap st1 t1 t1 out [])).
  { intros st1 t1 Hl1. assert (Hb : lenN out + lenN t1 <= lenN out + lenN tok) by (rewrite !lenN_length; lia).
    unfold chunkK. destruct (p_stage st1) eqn:Hs1; try (cbn [app]; rewrite !app_nil_r; apply Hm; assumption).
    rewrite !app_nil_r, (Hcb st1 t1 Hl1).
    destruct (chunk_body (cap - lenN out) st1 t1 t1) as [s2 t2 b2 o2| | |] eqn:Eb; cbn [app prepend]; try (rewrite <- ?app_assoc; reflexivity).
    apply body_go_len in Eb as (-> & Ho). rewrite <- app_assoc. apply Hm; [rewrite !lenN_length in Ho; lia|]. rewrite lenN_app. lia. }
  destruct (p_stage st); try (apply Hc; lia).
  destruct (meta_suffix relaxed st tok tok) as [s1 t1 b1 o1|s ck o|e o|] eqn:Em; cbn [prepend]; try (rewrite <- ?app_assoc; reflexivity).
  destruct (meta_go_len _ _ _ _ _ _ _ Em) as (<- & -> & _ & Hlt). apply Hc. lia.
Qed.

Lemma bodyK_ext K K' relaxed cap st tok out : fits tok ->
  (forall s t o, (length t < length tok)%nat -> K s t o = K' s t o) ->
  bodyK K relaxed cap st tok tok out = bodyK K' relaxed cap st tok tok out.
Proof.
  intros Hf HK. assert (Hnil : forall r, prepend [] r = r) by (now intros []).
  rewrite <- (Hnil (bodyK K' relaxed cap st tok tok out)).
  apply (bodyK_prepend K K' relaxed cap [] st tok out Hf); [|reflexivity]. intros s t o Hl _. rewrite Hnil. now apply HK.
Qed.

Lemma PL_fuel relaxed cap : forall k k' st tok out, fits tok -> (length tok < k)%nat -> (length tok < k')%nat ->
  parse_loop k relaxed cap st tok tok out = parse_loop k' relaxed cap st tok tok out.
Proof.
  induction k as [|j IH]; intros [|j'] st tok out Hf Hl Hl'; try lia.
  rewrite !parse_loop_eq. apply bodyK_ext; [exact Hf|].
  intros s t o Hlt. apply IH; [eapply fits_shorter; [exact Hf| lia] | lia | lia].
Qed.

Definition PLf (relaxed : bool) (st : pstate) (tok out : bytes) : parse_res :=
  parse_loop (S (length tok)) relaxed ample st tok tok out.

Lemma PL_PLf relaxed st tok out k : fits tok -> (length tok < k)%nat ->
  parse_loop k relaxed ample st tok tok out = PLf relaxed st tok out.
Proof. intros Hf Hl. apply PL_fuel; [exact Hf| lia | lia]. Qed.

Lemma PLf_unfold relaxed st tok out : fits tok ->
  PLf relaxed st tok out = bodyK (PLf relaxed) relaxed ample st tok tok out.
Proof.
  intros Hf. unfold PLf at 1. rewrite parse_loop_eq. apply bodyK_ext; [exact Hf|].
  intros s t o Hlt. apply PL_PLf; [eapply fits_shorter; [exact Hf| lia]| exact Hlt].
Qed.

(* how the call on b ++ x relates to the call on b *)
Section Ext.
Variable relaxed : bool.
Notation K := (PLf relaxed).
Notation szf := (szK K ample).
Notation mimef := (mimeK K ample).
Notation chunkf := (chunkK K ample).

Lemma PLf_chunk st t out : fits t -> p_stage st = StChunk -> PLf relaxed st t out = chunkf st t t out [].
Proof. intros Hf Hs. now rewrite PLf_unfold, bodyK_chunk by (exact Hf || congruence). Qed.
Lemma PLf_mime st t out : fits t -> p_stage st = StMime -> PLf relaxed st t out = mimef st t t out.
Proof. intros Hf Hs. now rewrite PLf_unfold, bodyK_chunk, chunkK_mime by (exact Hf || congruence). Qed.
Lemma PLf_sz st t out : fits t -> p_stage st = StSz -> PLf relaxed st t out = szf st t t out.
Proof. intros Hf Hs. now rewrite PLf_unfold, bodyK_chunk, chunkK_mime, mimeK_sz by (exact Hf || congruence). Qed.
Lemma PLf_done st t out : fits t -> p_stage st = StDone -> PLf relaxed st t out = PRet true st t out.
Proof.
  intros Hf Hs. rewrite PLf_unfold, bodyK_chunk, chunkK_mime, mimeK_sz by (exact Hf || congruence).
  unfold szK. now rewrite Hs, fin_eq; unfold is_done; rewrite Hs.
Qed.

Definition Rel (x : bytes) (r r' : parse_res) : Prop :=
  match r with
  | PFuel => False
  | PThrow e o => r' = PThrow e o
  | PRet true s rem o => r' = PRet true s (rem ++ x) o
  | PRet false s rem o =>
      if is_done s then exists s' rem', r' = PRet false s' rem' o /\ is_done s' = true
      else p_stage s <> StNone /\ lenN o + lenN (rem ++ x) <= ample /\ r' = PLf relaxed s (rem ++ x) o
  end.

Definition Main (n : nat) : Prop :=
  forall tok, (length tok < n)%nat -> forall st out x, p_stage st <> StNone -> lenN out + lenN (tok ++ x) <= ample ->
  Rel x (PLf relaxed st tok out) (PLf relaxed st (tok ++ x) out).

Lemma ample_fits (out t : bytes) : lenN out + lenN t <= ample -> fits t.
Proof. unfold fits, ample. lia. Qed.

Lemma chunk_size_some_stage st b s t : chunk_size st b = Ok (Some (s, t)) -> p_stage s = StExt.
Proof.
  unfold chunk_size. destruct (_ || _); [discriminate|]. destruct (tok_int64 16 false npos b) as [[v k]|]; [|destruct (is_nil b); discriminate].
  destruct (negb _); [|discriminate]. destruct (v <? 0)%Z; [discriminate|]. destruct (parse_strict_bws _); try discriminate.
  intros H. injection H as <- _. reflexivity.
Qed.

Lemma sz_rel n : Main n -> forall st3 t3 out2 x, (length t3 <= n)%nat ->
  p_stage st3 = StSz \/ p_stage st3 = StDone -> lenN out2 + lenN (t3 ++ x) <= ample ->
  Rel x (szf st3 t3 t3 out2) (szf st3 (t3 ++ x) (t3 ++ x) out2).
Proof.
  intros IH st3 t3 out2 x Hl Hst Hcap. pose proof (ample_fits _ _ Hcap) as Hfx.
  destruct Hst as [Hst|Hst]; unfold szK; rewrite Hst.
  2:{ unfold fin. rewrite Hst. cbn [negb andb Rel]. reflexivity. }
  destruct (chunk_size st3 t3) as [[[s4 t4]|]| |e] eqn:Ec.
  - destruct (chunk_size_stable st3 t3 x Hfx ltac:(congruence)) as [Hs Hlt]. rewrite Ec in Hs. cbn [cs_ext] in Hs. rewrite Hs.
    specialize (Hlt _ _ Ec). apply IH; [lia| rewrite (chunk_size_some_stage _ _ _ _ Ec); discriminate|].
    rewrite lenN_app in *. assert (lenN t4 <= lenN t3) by (rewrite !lenN_length; lia). lia.
  - (* need more data: the call on the longer buffer is the re-entered call *)
    unfold fin at 1. rewrite Hst. cbn [negb andb Rel]. unfold is_done. rewrite Hst.
    split; [congruence|]. split; [exact Hcap|]. symmetry. rewrite PLf_sz by assumption. unfold szK. rewrite Hst. reflexivity.
  - now rewrite (proj1 (chunk_size_stable st3 t3 x Hfx ltac:(congruence))), Ec.
  - now rewrite (proj1 (chunk_size_stable st3 t3 x Hfx ltac:(congruence))), Ec.
Qed.

Lemma mime_rel n : Main n -> forall st2 t2 out2 x, (length t2 <= n)%nat ->
  p_stage st2 = StMime -> lenN out2 + lenN (t2 ++ x) <= ample ->
  Rel x (mimef st2 t2 t2 out2) (mimef st2 (t2 ++ x) (t2 ++ x) out2).
Proof.
  intros IH st2 t2 out2 x Hl Hst Hcap. pose proof (ample_fits _ _ Hcap) as Hfx.
  unfold mimeK. rewrite Hst. unfold grab_mime.
  set (done := {| p_stage := StDone; p_size := p_size st2; p_left := p_left st2 |}).
  destruct (headers_end t2 =? 0) eqn:En; cbn [negb].
  - apply N.eqb_eq in En.
    destruct (trailer_limit <=? lenN t2) eqn:El.
    + (* over the limit without an end: terminal *)
      cbn [Rel is_done p_stage done]. unfold is_done at 1. cbn [p_stage done].
      unfold headers_end in *. destruct (he_later x t2 1 0 En) as [H0|Hgt].
      * rewrite H0. cbn [N.eqb negb]. replace (trailer_limit <=? lenN (t2 ++ x)) with true by (rewrite lenN_app; lia).
        eexists _, _. split; reflexivity.
      * destruct (headers_end_loop (t2 ++ x) 1 0 =? 0) eqn:E0; [apply N.eqb_eq in E0; lia|]. cbn [negb].
        replace (trailer_limit <=? headers_end_loop (t2 ++ x) 1 0) with true by lia.
        eexists _, _. split; reflexivity.
    + (* waiting for the end of the trailer: the longer call is the re-entered call *)
      cbn [Rel]. unfold is_done. rewrite Hst. split; [congruence|]. split; [exact Hcap|].
      symmetry. rewrite PLf_mime by assumption. unfold mimeK. rewrite Hst. reflexivity.
  - apply N.eqb_neq in En. unfold headers_end in *.
    destruct (he_found x t2 1 0 _ eq_refl En) as [Hsame Hle]. rewrite Hsame.
    destruct (headers_end_loop t2 1 0 =? 0) eqn:E0; [apply N.eqb_eq in E0; congruence|]. cbn [negb].
    destruct (trailer_limit <=? headers_end_loop t2 1 0).
    + cbn [Rel]. unfold is_done at 1. cbn [p_stage done]. eexists _, _. split; reflexivity.
    + unfold szK. cbn [p_stage done]. unfold fin. cbn [p_stage done negb andb Rel].
      rewrite dropN_app_le by lia. reflexivity.
Qed.

Definition shift (p : bytes) (r : step_res) : step_res :=
  match r with SGo s t b o => SGo s t b (p ++ o) | SRet s b o => SRet s b (p ++ o) | SThrow e o => SThrow e (p ++ o) | SFuel => SFuel end.
Lemma end_shift st b b' p o : chunk_end st b b' (p ++ o) = shift p (chunk_end st b b' o).
Proof. unfold chunk_end. destruct (tok_skipRequired EDataCrlf crlf b); reflexivity. Qed.

Definition contK (out : bytes) (r : step_res) : parse_res :=
  match r with
  | SFuel => PFuel | SThrow e o => PThrow e (out ++ [] ++ o) | SRet s b o => PRet false s b (out ++ [] ++ o)
  | SGo s t b o2 => mimef s t b (out ++ [] ++ o2)
  end.
Lemma contK_shift out p r : contK out (shift p r) = contK (out ++ p) r.
Proof. destruct r; cbn [shift contK app]; rewrite ?app_assoc; reflexivity. Qed.

Lemma chunkf_cont st t out : p_stage st = StChunk ->
  chunkf st t t out [] = contK out (chunk_body (ample - lenN (out ++ [])) st t t).
Proof. intros Hs. unfold chunkK. rewrite Hs. reflexivity. Qed.

Lemma body_norm c st t : lenN t <= c -> chunk_body c st t t =
  if 0 <? p_left st then
    let n := N.min (p_left st) (lenN t) in
    let st' := {| p_stage := p_stage st; p_size := p_size st; p_left := p_left st - n |} in
    if p_left st - n =? 0 then chunk_end st' (dropN n t) (dropN n t) (takeN n t)
    else SGo st' (dropN n t) (dropN n t) (takeN n t)
  else chunk_end st t t [].
Proof.
  intros Hc. unfold chunk_body. destruct (0 <? p_left st); [|reflexivity].
  replace (N.min (N.min (p_left st) (lenN t)) c) with (N.min (p_left st) (lenN t)) by lia. reflexivity.
Qed.

(* parseChunkEnd on b and on b ++ x, from a state that re-enters at parseChunkEnd *)
Lemma end_rel n : Main n -> forall st' b out o x, (length b <= n)%nat ->
  p_stage st' = StChunk -> p_left st' = 0 -> lenN (out ++ o) + lenN (b ++ x) <= ample ->
  Rel x (contK out (chunk_end st' b b o)) (contK out (chunk_end st' (b ++ x) (b ++ x) o)).
Proof.
  intros IH st' b out o x Hl Hst Hleft Hcap. pose proof (ample_fits _ _ Hcap) as Hfx.
  unfold chunk_end at 1.
  destruct (tok_skipRequired EDataCrlf crlf b) as [t| |e] eqn:Es.
  - unfold chunk_end. rewrite skipRequired_stable by congruence. rewrite Es. cbn [ext1 contK app].
    rewrite !mimeK_sz by discriminate. pose proof (skipRequired_ok_len _ _ _ Es) as Hlt.
    apply (sz_rel n IH); [lia| left; reflexivity|].
    rewrite !lenN_app in *. assert (lenN t <= lenN b) by (rewrite !lenN_length; lia). lia.
  - cbn [contK app Rel]. unfold is_done. rewrite Hst. split; [congruence|]. split; [exact Hcap|].
    rewrite PLf_chunk by assumption. rewrite chunkf_cont by exact Hst.
    rewrite body_norm by (cbn [app]; rewrite app_nil_r; lia).
    rewrite Hleft. change (0 <? 0) with false. cbv iota.
    rewrite <- (app_nil_r o) at 1. rewrite end_shift, contK_shift. reflexivity.
  - unfold chunk_end. rewrite skipRequired_stable by congruence. rewrite Es. reflexivity.
Qed.

Lemma takeN_app_plus {A} (a b : list A) n : takeN (lenN a + n) (a ++ b) = a ++ takeN n b.
Proof. rewrite takeN_app_ge by lia. f_equal. f_equal. lia. Qed.
Lemma dropN_app_plus {A} (a b : list A) n : dropN (lenN a + n) (a ++ b) = dropN n b.
Proof. rewrite dropN_app_ge by lia. f_equal. lia. Qed.

Lemma chunk_rel n : Main n -> forall st1 t1 out x, (length t1 <= n)%nat ->
  p_stage st1 = StChunk -> lenN out + lenN (t1 ++ x) <= ample ->
  Rel x (chunkf st1 t1 t1 out []) (chunkf st1 (t1 ++ x) (t1 ++ x) out []).
Proof.
  intros IH st1 t1 out x Hl Hst Hcap. pose proof (ample_fits _ _ Hcap) as Hfx.
  assert (Hc1 : lenN t1 <= ample - lenN (out ++ [])) by (rewrite app_nil_r; rewrite lenN_app in Hcap; lia).
  assert (Hc2 : lenN (t1 ++ x) <= ample - lenN (out ++ [])) by (rewrite app_nil_r; lia).
  rewrite !chunkf_cont by exact Hst. rewrite (body_norm _ st1 t1 Hc1), (body_norm _ st1 (t1 ++ x) Hc2).
  set (L := p_left st1) in *.
  destruct (0 <? L) eqn:Epos.
  2:{ apply (end_rel n IH); [exact Hl| exact Hst| fold L; lia | rewrite app_nil_r; exact Hcap]. }
  cbv zeta.
  destruct (N.le_gt_cases L (lenN t1)) as [Hle|Hgt].
  - (* all chunk data is in the shorter buffer already *)
    replace (N.min L (lenN t1)) with L by lia. replace (N.min L (lenN (t1 ++ x))) with L by (rewrite lenN_app; lia).
    rewrite N.sub_diag. change (0 =? 0) with true. cbv iota.
    rewrite (takeN_app_le L t1 x Hle), (dropN_app_le L t1 x Hle).
    apply (end_rel n IH); [pose proof (dropN_len L t1); lia | exact Hst | reflexivity |].
    pose proof (takeN_dropN L t1) as Hsp. rewrite !lenN_app in *.
    assert (lenN t1 = lenN (takeN L t1) + lenN (dropN L t1)) by (rewrite <- lenN_app, Hsp; reflexivity). lia.
  - (* data continues beyond the shorter buffer *)
    replace (N.min L (lenN t1)) with (lenN t1) by lia.
    destruct (L - lenN t1 =? 0) eqn:Ez; [apply N.eqb_eq in Ez; lia|].
    rewrite takeN_all by lia. rewrite dropN_all by lia.
    set (st' := {| p_stage := p_stage st1; p_size := p_size st1; p_left := L - lenN t1 |}).
    assert (Hst' : p_stage st' = StChunk) by exact Hst.
    cbn [contK app]. unfold mimeK. rewrite Hst'. unfold szK. rewrite Hst'. unfold fin. rewrite Hst'. cbn [negb andb Rel].
    unfold is_done. rewrite Hst'. split; [congruence|]. split; [rewrite !lenN_app in *; cbn [lenN]; lia|].
    cbn [app]. assert (Hfxx : fits x) by (eapply fits_shorter; [exact Hfx| rewrite app_length; lia]).
    rewrite PLf_chunk by assumption.
    rewrite chunkf_cont by exact Hst'.
    rewrite body_norm by (rewrite app_nil_r; rewrite !lenN_app in *; lia).
    cbn [p_left st' p_stage p_size]. replace (0 <? L - lenN t1) with true by lia. cbv zeta.
    set (n' := N.min (L - lenN t1) (lenN x)).
    replace (N.min L (lenN (t1 ++ x))) with (lenN t1 + n') by (unfold n'; rewrite lenN_app; lia).
    rewrite takeN_app_plus, dropN_app_plus. replace (L - (lenN t1 + n')) with (L - lenN t1 - n') by lia.
    rewrite <- contK_shift. f_equal.
    destruct (L - lenN t1 - n' =? 0); [|reflexivity]. rewrite <- end_shift. reflexivity.
Qed.

Lemma top_rel n : Main n -> forall tok, (length tok <= n)%nat -> forall st out x,
  p_stage st <> StNone -> lenN out + lenN (tok ++ x) <= ample ->
  Rel x (PLf relaxed st tok out) (PLf relaxed st (tok ++ x) out).
Proof.
  intros IH tok Hl st out x Hn Hcap. pose proof (ample_fits _ _ Hcap) as Hfx.
  assert (Hf : fits tok) by (eapply fits_shorter; [exact Hfx| rewrite app_length; lia]).
  destruct (p_stage st) eqn:Hst; try congruence.
  - rewrite !PLf_sz by assumption. apply (sz_rel n IH); [exact Hl| left; exact Hst| exact Hcap].
  - (* StExt *)
    rewrite (PLf_unfold relaxed st tok out Hf), (PLf_unfold relaxed st (tok ++ x) out Hfx). unfold bodyK. rewrite Hst.
    destruct (meta_suffix relaxed st tok tok) as [s1 t1 b1 o1|s ck o|e o|] eqn:Em.
    + destruct (meta_go_len _ _ _ _ _ _ _ Em) as (<- & -> & -> & Hlt).
      rewrite (meta_stable_go _ _ _ x _ _ _ Em).
      assert (Hcap1 : lenN out + lenN (t1 ++ x) <= ample).
      { rewrite !lenN_app in *. assert (lenN t1 <= lenN tok) by (rewrite !lenN_length; lia). lia. }
      destruct (p_size st =? 0) eqn:Ez.
      * assert (Hs1 : p_stage (ext_state st) = StMime) by (cbn [ext_state p_stage]; now rewrite Ez).
        rewrite !chunkK_mime by (rewrite Hs1; discriminate). apply (mime_rel n IH); [lia| exact Hs1| exact Hcap1].
      * assert (Hs1 : p_stage (ext_state st) = StChunk) by (cbn [ext_state p_stage]; now rewrite Ez).
        apply (chunk_rel n IH); [lia| exact Hs1| exact Hcap1].
    + destruct (meta_ret _ _ _ _ _ _ Em) as (-> & -> & _). pose proof (meta_ret_len _ _ _ _ _ _ Em) as Hlc.
      rewrite app_nil_r. cbn [Rel]. unfold is_done. rewrite Hst. split; [congruence|]. split.
      { rewrite !lenN_app in *. assert (lenN ck <= lenN tok) by (rewrite !lenN_length; lia). lia. }
      rewrite (meta_commute _ _ _ _ _ _ x Em).
      assert (Hfc : fits (ck ++ x)).
      { unfold fits in *. rewrite !lenN_app in *. assert (lenN ck <= lenN tok) by (rewrite !lenN_length; lia). lia. }
      rewrite (PLf_unfold relaxed st (ck ++ x) out Hfc). unfold bodyK. rewrite Hst. reflexivity.
    + rewrite (meta_stable_throw _ _ _ x _ _ Em). reflexivity.
    + exfalso. eapply meta_not_fuel; eassumption.
  - rewrite !PLf_chunk by assumption. apply (chunk_rel n IH); [exact Hl| exact Hst| exact Hcap].
  - rewrite !PLf_mime by assumption. apply (mime_rel n IH); [exact Hl| exact Hst| exact Hcap].
  - rewrite !PLf_done by assumption. reflexivity.
Qed.

Theorem Main_all : forall n, Main n.
Proof.
  induction n as [|n IH]; intros tok Hl; [lia|]. apply (top_rel n IH). lia.
Qed.
End Ext.

(* output already produced in this call is only ever extended *)
Theorem pref_all relaxed : forall n t, (length t < n)%nat -> forall st p out, lenN (p ++ out) + lenN t <= ample ->
  PLf relaxed st t (p ++ out) = prepend p (PLf relaxed st t out).
Proof.
  induction n as [|n IH]; intros t Hl st p out Hcap; [lia|]. pose proof (ample_fits _ _ Hcap) as Hf.
  rewrite (PLf_unfold relaxed st t (p ++ out) Hf), (PLf_unfold relaxed st t out Hf).
  apply bodyK_prepend; [exact Hf| |].
  - intros s t' o Hlt Hb. apply IH; [lia|]. rewrite lenN_app in *. lia.
  - intros st1 t1 Hl1. apply length_lenN in Hl1. rewrite lenN_app in Hcap.
    rewrite (body_norm (ample - lenN (p ++ out)) st1 t1), (body_norm (ample - lenN out) st1 t1) by (rewrite ?lenN_app; lia).
    reflexivity.
Qed.

(* one parse() call as the caller sees it (ChunkedModel.step) *)
Definition cls (acc : bytes) (r : parse_res) : dres :=
  match r with
  | PRet true _ rem o => Incremental.Done (acc ++ o) rem
  | PRet false st' rem o =>
      if is_done st' then Incremental.Bad (BTooBig (acc ++ o))
      else Incremental.More {| d_p := st'; d_out := acc ++ o |} rem
  | PThrow e o => Incremental.Bad (BThrow e (acc ++ o))
  | PFuel => Incremental.Bad BFuel
  end.
Lemma step_cls relaxed s b : step relaxed s b = cls (d_out s) (parse relaxed ample (d_p s) b).
Proof.
  unfold step, cls, is_done. destruct (parse relaxed ample (d_p s) b) as [[|] st' rem o|e o|]; try reflexivity.
  now destruct (p_stage st').
Qed.
Lemma cls_prepend acc p r : cls acc (prepend p r) = cls (acc ++ p) r.
Proof. destruct r as [[|] s rem o|e o|]; cbn [prepend cls]; rewrite ?app_assoc; reflexivity. Qed.

Lemma parse_PLf relaxed st c b : parse relaxed ample st (c :: b) = PLf relaxed (norm_state st) (c :: b) [].
Proof. reflexivity. Qed.

Definition dinv (s : dstate) : Prop := p_stage (d_p s) <> StDone.

Lemma norm_not_none st : p_stage (norm_state st) <> StNone.
Proof. unfold norm_state. destruct (p_stage st) eqn:E; cbn [p_stage]; congruence. Qed.

(* the call on b ++ x, by what the caller saw of the call on b *)
Lemma step_app relaxed s b x : dinv s -> fits (b ++ x) ->
  match step relaxed s b with
  | Incremental.Done r rest => step relaxed s (b ++ x) = Incremental.Done r (rest ++ x)
  | Incremental.Bad e => step relaxed s (b ++ x) = Incremental.Bad e
  | Incremental.More s' keep => step relaxed s (b ++ x) = step relaxed s' (keep ++ x) /\ dinv s' /\ fits (keep ++ x)
  end.
Proof.
  intros Hi Hg. rewrite !step_cls. destruct b as [|c b].
  { (* nothing to parse: same state, nothing retained *)
    cbn [parse cls app]. replace (is_done (d_p s)) with false by (unfold dinv, is_done in *; destruct (p_stage (d_p s)); congruence).
    rewrite step_cls, app_nil_r. destruct s. repeat split; assumption. }
  cbn [app]. rewrite !parse_PLf.
  assert (HR : Rel relaxed x (PLf relaxed (norm_state (d_p s)) (c :: b) []) (PLf relaxed (norm_state (d_p s)) (c :: b ++ x) [])).
  { apply (Main_all relaxed (S (length (c :: b)))); [lia| apply norm_not_none|]. cbn [lenN]. unfold fits, ample in *. lia. }
  destruct (PLf relaxed (norm_state (d_p s)) (c :: b) []) as [[|] st' rem o|e o|] eqn:EP; cbn [cls Rel] in *;
    [now rewrite HR | | now rewrite HR | destruct HR].
  destruct (is_done st') eqn:Ed.
  { destruct HR as (s' & rem' & -> & Hd). cbn [cls]. now rewrite Hd. }
  destruct HR as (Hnn & Hcap & Heq). rewrite Heq, step_cls. cbn [d_p d_out].
  split; [|split; [unfold dinv, is_done in *; cbn [d_p]; destruct (p_stage st'); congruence| unfold fits, ample in *; lia]].
  destruct (rem ++ x) as [|c2 r2] eqn:Erx.
  - (* nothing retained and nothing new: the call on the empty buffer is the call just made *)
    apply app_eq_nil in Erx as [-> ->]. rewrite app_nil_r in Heq. rewrite <- Heq, EP.
    cbn [parse cls]. now rewrite Ed, app_nil_r.
  - rewrite parse_PLf. replace (norm_state st') with st' by (unfold norm_state; destruct (p_stage st'); congruence).
    rewrite <- (app_nil_r o) at 1.
    rewrite (pref_all relaxed (S (length (c2 :: r2))) (c2 :: r2) ltac:(lia) st' o []) by (rewrite app_nil_r; exact Hcap).
    now rewrite cls_prepend.
Qed.

Theorem step_stable_done relaxed : stable_done dstate bytes dbad (step relaxed) dinv fits.
Proof. intros s b r rest x Hi Hg H. pose proof (step_app relaxed s b x Hi Hg) as A. now rewrite H in A. Qed.

Theorem step_stable_bad relaxed : stable_bad dstate bytes dbad (step relaxed) dinv fits.
Proof. intros s b e x Hi Hg H. pose proof (step_app relaxed s b x Hi Hg) as A. now rewrite H in A. Qed.

Theorem step_checkpoint relaxed : checkpoint_commutes dstate bytes dbad (step relaxed) dinv fits.
Proof. intros s b s' keep x Hi Hg H. pose proof (step_app relaxed s b x Hi Hg) as A. now rewrite H in A. Qed.

Lemma dinv0 : dinv dstate0. Proof. unfold dinv, dstate0, init_state. cbn. discriminate. Qed.

Theorem decode_from_checkpoint relaxed s keep segments :
  segments <> [] -> dinv s -> fits (keep ++ concat segments) ->
  Incremental.drive dstate bytes dbad (step relaxed) s keep segments = step relaxed s (keep ++ concat segments).
Proof.
  intros Hne Hi Hf.
  apply (drive_oneshot dstate bytes dbad (step relaxed) dinv fits
           (step_stable_done relaxed) (step_stable_bad relaxed) (step_checkpoint relaxed)); assumption.
Qed.

Theorem decode_segmentation_independent relaxed segments :
  segments <> [] -> lenN (concat segments) <= npos ->
  decode_segments relaxed segments = decode_whole relaxed (concat segments).
Proof. intros Hne Hf. apply (decode_from_checkpoint relaxed dstate0 [] segments Hne dinv0). exact Hf. Qed.

Theorem decode_two_segmentations relaxed segs1 segs2 :
  segs1 <> [] -> segs2 <> [] -> concat segs1 = concat segs2 -> lenN (concat segs1) <= npos ->
  decode_segments relaxed segs1 = decode_segments relaxed segs2.
Proof.
  intros H1 H2 Hc Hf. rewrite !decode_segmentation_independent by (try assumption; rewrite <- Hc; assumption). now rewrite Hc.
Qed.

Theorem reject_ext_trailing_bws relaxed cap ds v e es w x :
  digits_ok ds v -> Forall ext_ok (e :: es) -> w <> [] -> bws_ok w ->
  parse relaxed cap init_state (ds ++ enc_exts (e :: es) ++ w ++ crlf ++ x) = PThrow EExtCrlf [].
Proof.
  intros Hd Hes Hwne Hw. inversion Hes as [|? ? He Hes']; subst.
  change (w ++ crlf ++ x) with (w ++ 13 :: 10 :: x). rewrite enc_exts_cons.
  set (Y := 59 :: _).
  assert (HY : head_ok Y) by (apply head_ok_intro; (reflexivity || discriminate)).
  destruct (size_step (norm_state init_state) ds v (x_w1 e) Y (ds ++ x_w1 e ++ Y) [] Hd (bws_wsp _ (proj1 He)) HY (app_nil_r _))
    as [[_ [l Hl]]|(l & Hlne & Htok & Hl & Hsz)].
  { exfalso. apply (f_equal (@length N)) in Hl. repeat rewrite app_length in Hl. unfold Y in Hl. cbn [length] in Hl. lia. }
  rewrite app_nil_r in Hl. subst l.
  rewrite parse_at_size by first [now left | destruct Hd as [Hne _]; now destruct ds].
  rewrite Hsz, !app_length. unfold Y at 1. cbn [length]. rewrite !Nat.add_succ_r, parse_loop_eq. unfold bodyK.
  cbn [p_stage size_state]. rewrite meta_eq. unfold Y.
  rewrite (exts_semi relaxed _ _ e _ (bws_then relaxed [] 59 _ eq_refl (proj1 (ws_facts relaxed))) He (nxt_exts es w x Hes' Hw)).
  rewrite (exts_valid relaxed w x Hw es _ Hes').
  rewrite skipRequired_crlf_cases. destruct w as [|c w']; [congruence|]. cbn [app].
  unfold bws_ok in Hw. cbn [forallb] in Hw. apply andb_prop in Hw as [Hc _].
  replace (c =? 13) with false; [reflexivity|]. clear -Hc. unfold rfc_bws in Hc. lia.
Qed.

Theorem reject_ext_trailing_bws_every_segmentation relaxed ds v e es w x segments :
  digits_ok ds v -> Forall ext_ok (e :: es) -> w <> [] -> bws_ok w ->
  segments <> [] -> concat segments = ds ++ enc_exts (e :: es) ++ w ++ crlf ++ x -> lenN (concat segments) <= npos ->
  decode_segments relaxed segments = Incremental.Bad (BThrow EExtCrlf []).
Proof.
  intros Hd Hes Hwne Hw Hne Hc Hf. rewrite decode_segmentation_independent by assumption.
  unfold decode_whole. rewrite step_cls. cbn [d_p d_out dstate0]. rewrite Hc.
  rewrite (reject_ext_trailing_bws relaxed ample ds v e es w x Hd Hes Hwne Hw). reflexivity.
Qed.
