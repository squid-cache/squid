(* SmpProtoProofs.v — proofs about the collapsing protocol step function of SmpModel.v (C18). *)
Require Import SquidV.Bytes SquidV.RwlockModel SquidV.SmpModel SquidV.SmpProofs.
Require Import ZifyBool ZifyN ZifyNat Lia.
Local Open Scope N_scope.

Ltac brk :=
  repeat match goal with
  | |- context [match ?x with _ => _ end] =>
      lazymatch x with
      | context [match _ with _ => _ end] => fail
      | _ => destruct x eqn:?
      end
  end.

Lemma nf_setX : forall g x, nf (setX g x) = nf g. Proof. reflexivity. Qed.
Lemma nf_setM : forall g x, nf (setM g x) = nf g. Proof. reflexivity. Qed.
Lemma nf_setE : forall g i s, nf (setE g i s) = nf g. Proof. reflexivity. Qed.
Lemma nf_setC : forall g i s, nf (setC g i s) = nf g. Proof. reflexivity. Qed.
Lemma nf_addE : forall g s, nf (fst (addE g s)) = nf g. Proof. reflexivity. Qed.

Lemma nf_disconnect : forall g s, nf (disconnect g s) = nf g.
Proof. intros. unfold disconnect. brk; reflexivity. Qed.
Lemma nf_evict : forall g s, nf (evict g s) = nf g.
Proof. intros. unfold evict. brk; reflexivity. Qed.
Lemma nf_make_private : forall c g i s b, nf (make_private c g i s b) = nf g.
Proof. intros. unfold make_private. brk; cbn [nf setE]; try apply nf_evict; reflexivity. Qed.
Lemma nf_copy_from_M : forall g s, nf (fst (fst (copy_from_M g s))) = nf g.
Proof. intros. unfold copy_from_M. brk; reflexivity. Qed.
Lemma nf_anchor : forall g s, nf (fst (fst (anchorToCache g s))) = nf g.
Proof.
  intros. unfold anchorToCache. destruct (s_m s); try reflexivity;
  destruct (openForReading (M g)) as [m' ok]; destruct ok; try (brk; reflexivity);
  match goal with |- context [copy_from_M ?a ?b] => pose proof (nf_copy_from_M a b) as H; destruct (copy_from_M a b) as [[g2 s2] sy] end;
  cbn [fst] in H; destruct sy; cbn [fst]; exact H.
Qed.

Lemma nf_find : forall c g w, nf (fst (find c g w)) = nf g.
Proof.
  intros. unfold find, addE.
  destruct (smp c && markedForDeletion (X g)); [reflexivity|].
  destruct (find_pub (es g) w 0); [reflexivity|].
  destruct (negb (smp c)); [reflexivity|].
  destruct (openForReading (X g)) as [x' okx]. destruct okx.
  - match goal with |- context [anchorToCache ?a ?b] => pose proof (nf_anchor a b) as H; destruct (anchorToCache a b) as [[g2 s2] a2] end.
    cbn [fst] in H. destruct a2 as [[]|]; brk; cbn [fst nf]; try rewrite nf_disconnect; exact H.
  - destruct (openForReading (M g)) as [m' okm]. destruct okm; [|reflexivity].
    match goal with |- context [copy_from_M ?a ?b] => pose proof (nf_copy_from_M a b) as H; destruct (copy_from_M a b) as [[g2 s2] sy] end.
    cbn [fst] in H. destruct sy.
    + destruct (openOrCreateForReading (X g2)) as [x2 ok2]. destruct ok2; cbn [fst nf setX]; try rewrite nf_disconnect; exact H.
    + cbn [fst setM nf]. exact H.
Qed.

Lemma nf_do_find : forall c g ci w b, nf (do_find c g ci w b) = nf g.
Proof.
  intros. unfold do_find. destruct (nthN ci (cs g)); [|reflexivity]. destruct (c_st c0); try reflexivity.
  pose proof (nf_find c g w) as H. destruct (find c g w) as [g1 r]. cbn [fst] in H.
  destruct r; brk; cbn [setC nf]; exact H.
Qed.

Lemma nf_mem_write : forall c g i s k t, nf (fst (mem_write c g i s k t)) = nf g.
Proof. intros. unfold mem_write. brk; reflexivity. Qed.
Lemma nf_checkpoint : forall g s, nf (fst (writing_checkpoint g s)) = nf g.
Proof. intros. unfold writing_checkpoint. brk; reflexivity. Qed.

Lemma nf_do_data : forall c g v n, nf (do_data c g v n) = nf g.
Proof.
  intros. unfold do_data. destruct (find_src (es g) v 0); [|reflexivity]. destruct (nthN n0 (es g)); [|reflexivity].
  match goal with |- context [if ?b then _ else _] => destruct b end; [reflexivity|].
  match goal with |- context [mem_write ?a ?b ?c ?d ?e ?f] => pose proof (nf_mem_write a b c d e f) as H; destruct (mem_write a b c d e f) end.
  exact H.
Qed.

Ltac use_eqs :=
  repeat match goal with
  | H : mem_write ?a ?b ?c ?d ?e ?f = (_, _) |- _ =>
      let N := fresh "N" in pose proof (nf_mem_write a b c d e f) as N; rewrite H in N; cbn [fst] in N; clear H
  | H : writing_checkpoint ?a ?b = (_, _) |- _ =>
      let N := fresh "N" in pose proof (nf_checkpoint a b) as N; rewrite H in N; cbn [fst] in N; clear H
  | H : copy_from_M ?a ?b = (_, _, _) |- _ =>
      let N := fresh "N" in pose proof (nf_copy_from_M a b) as N; rewrite H in N; cbn [fst] in N; clear H
  | H : anchorToCache ?a ?b = (_, _, _) |- _ =>
      let N := fresh "N" in pose proof (nf_anchor a b) as N; rewrite H in N; cbn [fst] in N; clear H
  end;
  cbn [nf setE setM setX setC] in *; rewrite ?nf_make_private, ?nf_evict, ?nf_disconnect in *; try congruence; try reflexivity.

Lemma nf_do_hdr : forall c g v n, nf (do_hdr c g v n) = nf g.
Proof. intros. unfold do_hdr. brk; use_eqs. Qed.
Lemma nf_do_end : forall c g v b, nf (do_end c g v b) = nf g.
Proof. intros. unfold do_end. brk; use_eqs. Qed.
Lemma nf_do_purge : forall c g w, nf (do_purge c g w) = nf g.
Proof. intros. unfold do_purge. brk; use_eqs. Qed.
Lemma nf_do_fin : forall g ci, nf (do_fin g ci) = nf g.
Proof. intros. unfold do_fin. brk; use_eqs. Qed.
Lemma nf_sync_entry : forall c g i s, nf (sync_entry c g i s) = nf g.
Proof.
  intros. unfold sync_entry. destruct (s_x s), (s_st s); try reflexivity. destruct (s_src s); [reflexivity|].
  set (g0 := if wtbf (X g) && negb (s_rel s) then make_private c g i s true else g).
  assert (H0 : nf g0 = nf g) by (subst g0; destruct (wtbf (X g) && negb (s_rel s)); [apply nf_make_private | reflexivity]).
  rewrite <- H0. clearbody g0. clear H0. brk; use_eqs.
Qed.
Lemma nf_sync_all : forall c l g w i, nf (sync_all c g w l i) = nf g.
Proof.
  induction l as [|x r IH]; intros g w i; cbn [sync_all]; [reflexivity|].
  rewrite IH. brk; try reflexivity. apply nf_sync_entry.
Qed.
Lemma nf_settle : forall g, nf (settle g) = nf g. Proof. reflexivity. Qed.
Lemma nf_gc : forall c l g i, nf (gc c g l i) = nf g.
Proof.
  induction l as [|x r IH]; intros g i; cbn [gc]; [reflexivity|].
  rewrite IH. brk; try reflexivity; cbn [nf setE]; rewrite ?nf_disconnect, ?nf_evict; reflexivity.
Qed.

Definition starts_fetch (g : gst) (e : ev) : bool :=
  match e with
  | EStart ci => match nthN ci (cs g) with Some cl => match c_st cl with CMiss => true | _ => false end | None => false end
  | _ => false
  end.

Lemma nf_do_start : forall c g ci, nf (do_start c g ci) = nf g + (if starts_fetch g (EStart ci) then 1 else 0).
Proof.
  intros. unfold do_start, starts_fetch. destruct (nthN ci (cs g)) as [cl|]; [|lia].
  destruct (c_st cl); try lia. unfold addE. brk; cbn [nf]; lia.
Qed.

Theorem nf_step : forall c g e, nf (step c g e) = nf g + (if starts_fetch g e then 1 else 0).
Proof.
  intros. unfold step. rewrite nf_gc, nf_settle.
  destruct e; cbn [starts_fetch]; rewrite ?nf_do_find, ?nf_do_hdr, ?nf_do_data, ?nf_do_end, ?nf_sync_all, ?nf_do_fin, ?nf_do_purge; try lia.
  apply nf_do_start.
Qed.

(* counting over a whole run *)
Fixpoint fetches_started (c : cfg) (g : gst) (l : list ev) : N :=
  match l with
  | [] => 0
  | e :: r => (if starts_fetch g e then 1 else 0) + fetches_started c (step c g e) r
  end.

Definition cfg_of (smpb known : bool) (k : cls) (total : N) : cfg :=
  mkCfg smpb 98304 (fun _ => mkPar k known total).

Definition all_full1 (c : cfg) (g : gst) (n : nat) : bool :=
  forallb (fun cl => match outcome_of c cl with OFull 1 => true | _ => false end) (firstn n (cs g)).
Definition none_full1 (c : cfg) (g : gst) : bool :=
  forallb (fun cl => match outcome_of c cl with OFull 1 => false | OPending | ONone => false | _ => true end) (cs g).

(* complete cacheable fetch: one origin request while it is in progress and in total; every client of the burst gets
   the complete first response *)
Definition check_complete (smpb known : bool) (lw : N) (A B : list N) : bool :=
  let c := cfg_of smpb known Pos 40000 in
  let '(g, n1) := run_scen c (mkScen 3 lw A B [1; 3] 9000 None) in
  (n1 =? 1) && (nf g =? 1) && all_full1 c g (1 + length A + length B + 2).
(* cut fetch: nobody is shown the first response as complete, everybody gets something definite *)
Definition check_cut (smpb known : bool) (lw : N) (A B : list N) : bool :=
  let c := cfg_of smpb known Pos 40000 in
  let '(g, n1) := run_scen c (mkScen 3 lw A B [] 9000 (Some 20000)) in
  (n1 =? 1) && none_full1 c g.

(* The sweeps below enumerate the bursts as a tree: run_scen cut at the two places where joiners arrive, so that the
   state reached after a common prefix of arrivals is computed once for all bursts that continue it. *)
Definition scen_mid (c : cfg) (nw first : N) (tot : nat) (g : gst) : gst :=
  let sy := all_workers c nw in
  refetch c nw tot (run c (refetch c nw tot g) (EHdr 1 first :: sy ++ sy)).

Definition scen_end (c : cfg) (nw : N) (nA nB : nat) (C : list N) (first : N) (cutat : option N) (tot : nat)
    (g : gst) : gst * N :=
  let sy := all_workers c nw in
  let g := refetch c nw tot g in
  let n1 := nf g in
  let total := p_total (par c 1) in
  let g := match cutat with
           | None => run c g (EData 1 total :: EEnd 1 :: sy ++ sy)
           | Some k => run c g (EData 1 (k - first) :: ECut 1 :: sy ++ sy)
           end in
  let g := run c g (fins 0 (1 + nA + nB)) in
  let g := refetch c nw tot g in
  let g := run c g (fins 0 (1 + nA + nB)) in
  let fix phaseC (g : gst) (base : N) (ws : list N) : gst :=
    match ws with
    | [] => g
    | w :: r => let g1 := run c g [EFind base w] in
                let g2 := refetch c nw tot g1 in
                phaseC (run c g2 [EFin base]) (base + 1) r
    end in
  (phaseC g (1 + N.of_nat nA + N.of_nat nB) C, n1).

Lemma run_scen_phases c nw lw A B C first cutat :
  let tot := (1 + length A + length B + length C)%nat in
  run_scen c (mkScen nw lw A B C first cutat) =
  scen_end c nw (length A) (length B) C first cutat tot
    (run c (scen_mid c nw first tot (run c (run c (add_clients g0 tot) [EFind 0 lw; EStart 0]) (finds 1 A)))
       (finds (1 + N.of_nat (length A)) B)).
Proof. reflexivity. Qed.

Definition worker123 (w : N) : Prop := w = 1 \/ w = 2 \/ w = 3.

(* k holds after every sequence of n arrivals at workers 1..3 *)
Fixpoint explore (c : cfg) (n : nat) (base : N) (g : gst) (k : gst -> bool) : bool :=
  match n with
  | O => k g
  | S m => forallb (fun w => explore c m (base + 1) (step c g (EFind base w)) k) [1; 2; 3]
  end.

Lemma explore_sound c k ws : Forall worker123 ws -> forall base g,
  explore c (length ws) base g k = true -> k (run c g (finds base ws)) = true.
Proof.
  induction 1 as [|w r Hw _ IH]; intros base g H; [exact H|].
  cbn [length explore forallb] in H. rewrite !andb_true_iff in H. destruct H as (H1 & H2 & H3 & _).
  cbn [finds run]. apply IH. destruct Hw as [->|[->| ->]]; assumption.
Qed.

Definition tree_check (C : list N) (cutat : option N) (verdict : cfg -> nat -> nat -> gst * N -> bool)
    (known : bool) (lw : N) (nA nB : nat) : bool :=
  let c := cfg_of true known Pos 40000 in
  let tot := (1 + nA + nB + length C)%nat in
  explore c nA 1 (run c (add_clients g0 tot) [EFind 0 lw; EStart 0]) (fun g =>
  explore c nB (1 + N.of_nat nA) (scen_mid c 3 9000 tot g) (fun g =>
  verdict c nA nB (scen_end c 3 nA nB C 9000 cutat tot g))).

Definition sweep C cutat verdict : bool :=
  forallb (fun known => forallb (fun lw => forallb (fun nA => forallb (fun nB =>
     tree_check C cutat verdict known lw nA nB) [0; 1; 2]%nat) [0; 1; 2; 3]%nat) [1; 2; 3]) [true; false].

Lemma sweep_lift C cutat verdict : sweep C cutat verdict = true -> forall known lw A B,
  worker123 lw -> (length A <= 3)%nat -> Forall worker123 A -> (length B <= 2)%nat -> Forall worker123 B ->
  verdict (cfg_of true known Pos 40000) (length A) (length B)
          (run_scen (cfg_of true known Pos 40000) (mkScen 3 lw A B C 9000 cutat)) = true.
Proof.
  intros H known lw A B Hlw HA FA HB FB. unfold sweep in H.
  rewrite forallb_forall in H. specialize (H known ltac:(destruct known; cbn; auto)).
  rewrite forallb_forall in H. specialize (H lw ltac:(cbn; destruct Hlw as [->|[->| ->]]; auto)).
  rewrite forallb_forall in H. specialize (H (length A) ltac:(cbn; lia)).
  rewrite forallb_forall in H. specialize (H (length B) ltac:(cbn; lia)).
  rewrite run_scen_phases. apply (explore_sound _ _ _ FA), (explore_sound _ _ _ FB) in H. exact H.
Qed.

Definition complete_verdict (c : cfg) (nA nB : nat) (r : gst * N) : bool :=
  let '(g, n1) := r in (n1 =? 1) && (nf g =? 1) && all_full1 c g (1 + nA + nB + 2).
Definition cut_verdict (c : cfg) (nA nB : nat) (r : gst * N) : bool :=
  let '(g, n1) := r in (n1 =? 1) && none_full1 c g.

Lemma sweep_complete : sweep [1; 3] None complete_verdict = true.
Proof. vm_compute. reflexivity. Qed.
Lemma sweep_cut : sweep [] (Some 20000) cut_verdict = true.
Proof. vm_compute. reflexivity. Qed.

(* configuration of the scenario in which two requests both look up before either registers: both fetch (outside the
   property's premise) *)
Definition race_cfg : cfg := cfg_of true true Pos 1000.
