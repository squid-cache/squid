(* ReqparseGrammar.v — C22: request-line acceptance of ReqparseModel.v versus the HTTP grammar. *)
Require Import SquidV.Bytes SquidV.TokModel SquidV.TokProofs SquidV.Incremental SquidV.ReqparseModel SquidV.ReqparseProofs.
Require Import SquidV.gen.CharSets_gen SquidV.gen.ReqTabs_gen.
Require Import ZifyBool ZifyN ZifyNat.
Local Open Scope N_scope.

Definition method_ok (m : bytes) : Prop := m <> [] /\ forallb cs_TCHAR m = true /\ lenN m <= req_max_method.
Definition delims_ok (relaxed : bool) (ds : bytes) : Prop :=
  ds <> [] /\ forallb (delim relaxed) ds = true /\ (relaxed = false -> lenN ds = 1).
Definition crs_ok (relaxed : bool) (crs : bytes) : Prop :=
  forallb cs_CR crs = true /\ (relaxed = false -> lenN crs = 1).
Definition target_ok (relaxed : bool) (t : bytes) : Prop :=
  t <> [] /\ forallb (target_chars relaxed) t = true /\ lenN t <= req_max_uri.

Lemma skip_delimiter_ok relaxed ds : forallb (delim relaxed) ds = true ->
  skip_delimiter relaxed (lenN ds) = true -> delims_ok relaxed ds.
Proof.
  unfold skip_delimiter. intros Hall SD. destruct (lenN ds =? 0) eqn:E0; [discriminate|].
  split; [intros ->; discriminate|]. split; [exact Hall|].
  intros ->. destruct (1 <? lenN ds) eqn:E1; [discriminate|]. lia.
Qed.

Lemma parse_method_sound relaxed s line s1 t1 :
  parse_method relaxed s line = (s1, Some t1) ->
  exists m ds1, line = m ++ ds1 ++ t1 /\ method_ok m /\ delims_ok relaxed ds1 /\
                s1 = set_method s (method_of relaxed m) /\
                match t1 with [] => True | y :: _ => delim relaxed y = false end.
Proof.
  unfold parse_method.
  destruct (tok_prefix cs_TCHAR req_max_method line) as [[m x1]|] eqn:P; [|discriminate].
  rewrite tok_skipAll_spec.
  pose proof (span_app (delim relaxed) x1) as Happ. pose proof (span_all (delim relaxed) x1) as Hall.
  pose proof (span_stop (delim relaxed) x1) as Hstop.
  destruct (span (delim relaxed) x1) as [ds rest]. cbn [fst snd] in *.
  destruct (skip_delimiter relaxed (lenN ds)) eqn:SD; intros [= <- <-].
  apply tok_prefix_sound in P as (Hb & Hne & Hm & Hlen & _).
  exists m, ds. split; [now rewrite Happ|].
  split; [now repeat split|]. split; [now apply skip_delimiter_ok|]. now split.
Qed.

Lemma skip_trailing_crs_sound relaxed s t s2 t2 :
  skip_trailing_crs relaxed s t = (s2, Some t2) -> s2 = s /\ exists crs, t = t2 ++ crs /\ crs_ok relaxed crs.
Proof.
  unfold skip_trailing_crs. destruct relaxed.
  - rewrite tok_skipAllTrailing_spec. cbn [snd]. intros [= <- <-]. split; [reflexivity|].
    exists (tail_run cs_CR t). split; [symmetry; apply tail_split|]. split; [apply tail_run_all|discriminate].
  - destruct (tok_skipOneTrailing cs_CR t) as [[] t1] eqn:E; intros [= <- <-].
    split; [reflexivity|]. apply tok_skipOneTrailing_sound in E as (c & Ht & Hc).
    exists [c]. split; [exact Ht|]. split; [cbn [forallb]; now rewrite Hc|reflexivity].
Qed.

Lemma version_suffix_sound t majorD minorD td :
  version_suffix t = Some (majorD, minorD, td) ->
  t = td ++ http_slash ++ majorD ++ [46] ++ minorD /\
  majorD <> [] /\ minorD <> [] /\ forallb cs_DIGIT majorD = true /\ forallb cs_DIGIT minorD = true.
Proof.
  unfold version_suffix.
  destruct (tok_suffix cs_DIGIT npos t) as [[mi ta]|] eqn:S1; [|discriminate].
  destruct (tok_skipOneTrailing period ta) as [[] tb] eqn:S2; [|discriminate].
  destruct (tok_suffix cs_DIGIT npos tb) as [[ma tc]|] eqn:S3; [|discriminate].
  destruct (tok_skipSuffix http_slash tc) as [[] td'] eqn:S4; [|discriminate].
  intros [= <- <- <-].
  apply tok_suffix_sound in S1 as (H1 & N1 & D1 & _).
  apply tok_skipOneTrailing_sound in S2 as (c & H2 & Hc).
  apply tok_suffix_sound in S3 as (H3 & N3 & D3 & _).
  apply tok_skipSuffix_sound in S4.
  apply N.eqb_eq in Hc. subst c.
  split; [|auto]. rewrite <- H1, H2, <- H3, S4, <- !app_assoc. reflexivity.
Qed.

Lemma digit_49 : cs_DIGIT 49 = true /\ cs_DIGIT 48 = true.
Proof. split; vm_compute; reflexivity. Qed.

Lemma parse_version_sound s t s3 t3 :
  parse_version s t = (s3, Some t3) -> r_major s3 <> 0 ->
  exists d1 d2, t = t3 ++ http_slash ++ [d1; 46; d2] /\ cs_DIGIT d1 = true /\ cs_DIGIT d2 = true /\
                s3 = set_proto s (d1 - 48) (d2 - 48).
Proof.
  unfold parse_version. destruct digit_49 as [D1 D0].
  destruct (tok_skipSuffix http1p1 t) as [[] t11] eqn:S11.
  { intros [= <- <-] _. apply tok_skipSuffix_sound in S11. now exists 49, 49. }
  destruct (tok_skipSuffix http1p0 t) as [[] t10] eqn:S10.
  { intros [= <- <-] _. apply tok_skipSuffix_sound in S10. now exists 49, 48. }
  destruct (version_suffix t) as [[[majorD minorD] td]|] eqn:VS.
  - intros [= <- <-] Hmaj. cbn [r_major set_proto] in Hmaj.
    apply version_suffix_sound in VS as (Ht & Nma & Nmi & Dma & Dmi).
    destruct ((1 <? lenN majorD) || (1 <? lenN minorD)) eqn:Multi; [congruence|].
    apply Bool.orb_false_elim in Multi as [M1 M2]. apply N.ltb_ge in M1, M2.
    destruct (one_elem majorD Nma M1) as [d1 ->]. destruct (one_elem minorD Nmi M2) as [d2 ->].
    cbn [forallb] in Dma, Dmi. rewrite Bool.andb_true_r in Dma, Dmi. now exists d1, d2.
  - destruct (r_mid s =? req_m_get); intros [= <- <-] Hmaj. now cbn [r_major set_proto] in Hmaj.
Qed.

Lemma trailing_delims_sound relaxed t3 cnt t4 :
  tok_skipAllTrailing (delim relaxed) t3 = (cnt, t4) -> skip_delimiter relaxed cnt = true ->
  exists ds2, t3 = t4 ++ ds2 /\ delims_ok relaxed ds2.
Proof.
  rewrite tok_skipAllTrailing_spec. intros [= <- <-] SD.
  exists (tail_run (delim relaxed) t3). split; [symmetry; apply tail_split|].
  apply skip_delimiter_ok; [apply tail_run_all|exact SD].
Qed.

Lemma parse_uri_sound relaxed s t s5 :
  parse_uri relaxed s t = (s5, Some []) -> target_ok relaxed t /\ s5 = set_uri s t.
Proof.
  unfold parse_uri. destruct (tok_prefix (target_chars relaxed) npos t) as [[u t1]|] eqn:P; [|discriminate].
  destruct (req_max_uri <? lenN u) eqn:L; intros [= <- ->].
  apply tok_prefix_sound in P as (Hb & Hne & Hall & _). rewrite app_nil_r in Hb. subst u.
  split; [|reflexivity]. repeat split; try assumption. lia.
Qed.

Lemma parse_uri_complete relaxed s t : target_ok relaxed t -> parse_uri relaxed s t = (set_uri s t, Some []).
Proof.
  intros (Hne & Hall & Hlen). unfold parse_uri. rewrite <- (app_nil_r t) at 1.
  rewrite tok_prefix_complete; [|exact Hne|exact Hall| |right; exact I].
  - now replace (req_max_uri <? lenN t) with false by lia.
  - unfold req_max_uri, npos in *. lia.
Qed.

(* what an accepted HTTP/1+ request line looks like, both modes:
   line = method delims target delims "HTTP/" DIGIT "." DIGIT CRs  (line = the bytes before the LF) *)
Definition request_line_shape (relaxed : bool) (line m t : bytes) (d1 d2 : N) : Prop :=
  exists ds1 ds2 crs,
    line = m ++ ds1 ++ t ++ ds2 ++ http_slash ++ [d1; 46; d2] ++ crs /\
    method_ok m /\ delims_ok relaxed ds1 /\ target_ok relaxed t /\ delims_ok relaxed ds2 /\
    cs_DIGIT d1 = true /\ cs_DIGIT d2 = true /\ crs_ok relaxed crs.

Theorem parse_line_sound_1x relaxed s line s' :
  parse_line relaxed s line = (s', true) -> r_major s' <> 0 ->
  exists m t d1 d2,
    request_line_shape relaxed line m t d1 d2 /\
    (r_mid s', r_mimg s') = method_of relaxed m /\ r_uri s' = t /\
    r_http s' = true /\ r_major s' = d1 - 48 /\ r_minor s' = d2 - 48.
Proof.
  unfold parse_line.
  destruct (parse_method relaxed s line) as [s1 [t1|]] eqn:PM; [|discriminate].
  destruct (skip_trailing_crs relaxed s1 t1) as [s2 [t2|]] eqn:TC; [|discriminate].
  destruct (parse_version s2 t2) as [s3 [t3|]] eqn:PV; [|discriminate].
  destruct (r_major s3 =? 0) eqn:M0.
  - (* HTTP/0.x: excluded by the hypothesis *)
    destruct (parse_uri relaxed s3 t3) as [s5 [[|]|]] eqn:PU; try discriminate.
    intros [= <-] Hmaj. apply parse_uri_sound in PU as [_ ->]. cbn [r_major set_uri set_code] in Hmaj. lia.
  - destruct (tok_skipAllTrailing (delim relaxed) t3) as [cnt t4] eqn:TD.
    destruct (skip_delimiter relaxed cnt) eqn:SD; [|discriminate].
    destruct (parse_uri relaxed s3 t4) as [s5 [[|]|]] eqn:PU; try discriminate.
    intros [= <-] _.
    apply parse_method_sound in PM as (m & ds1 & Hline & Hm & Hds1 & Hs1 & _).
    apply skip_trailing_crs_sound in TC as (-> & crs & Ht1 & Hcrs).
    apply parse_version_sound in PV as (d1 & d2 & Ht2 & Hd1 & Hd2 & Hs3); [|lia].
    destruct (trailing_delims_sound relaxed t3 cnt t4 TD SD) as (ds2 & Ht3 & Hds2).
    apply parse_uri_sound in PU as (Ht4 & ->).
    exists m, t4, d1, d2. split.
    + exists ds1, ds2, crs. split; [|tauto].
      rewrite Hline, Ht1, Ht2, Ht3, <- !app_assoc. reflexivity.
    + subst s3 s1. cbn. now destruct (method_of relaxed m).
Qed.

Lemma tok_suffix_app set z r : r <> [] -> forallb set r = true -> ends_outside set z -> fits (z ++ r) ->
  tok_suffix set npos (z ++ r) = Some (r, z).
Proof.
  intros Hne Hr Hz Hf. rewrite tok_suffix_spec_nolimit by exact Hf.
  destruct (tail_run_app set z r Hr Hz) as [-> ->]. destruct r; [congruence|reflexivity].
Qed.

Lemma strict_target_not_delim c : cs_strict_RequestTarget c = true -> cs_strict_Delimiter c = false.
Proof.
  intros H. apply (mem_tbl_sweep _ (fun c => negb (cs_strict_Delimiter c))) in H; [|now vm_compute..].
  now destruct (cs_strict_Delimiter c).
Qed.

Lemma digit_range c : cs_DIGIT c = true -> 48 <= c <= 57.
Proof.
  intros H. apply (mem_tbl_sweep _ (fun c => (48 <=? c) && (c <=? 57))) in H; [lia|now vm_compute..].
Qed.

Lemma strict_facts :
  cs_DIGIT 46 = false /\ cs_DIGIT 47 = false /\ cs_strict_Delimiter 32 = true /\ cs_CR 13 = true.
Proof. vm_compute. repeat split; reflexivity. Qed.

(* RFC 9112 section 3: request-line = method SP request-target SP HTTP-version; [line] = that followed by the CR
   of the terminating CRLF. method = 1*tchar (at most maxMethodLength), request-target = 1*(URI characters)
   (at most the URI length limit), HTTP-version = "HTTP/" DIGIT "." DIGIT *)
Definition rfc_request_line (line m t : bytes) (d1 d2 : N) : Prop :=
  line = m ++ [32] ++ t ++ [32] ++ http_slash ++ [d1; 46; d2] ++ [13] /\
  method_ok m /\ target_ok false t /\ cs_DIGIT d1 = true /\ cs_DIGIT d2 = true.

Lemma version_suffix_complete z d1 d2 : cs_DIGIT d1 = true -> cs_DIGIT d2 = true ->
  fits (z ++ http_slash ++ [d1; 46; d2]) ->
  version_suffix (z ++ http_slash ++ [d1; 46; d2]) = Some ([d1], [d2], z).
Proof.
  intros Hd1 Hd2 Hf. destruct strict_facts as (F46 & F47 & _ & _).
  (* read from the end, as the parser does *)
  replace (z ++ http_slash ++ [d1; 46; d2]) with ((((z ++ [72;84;84;80] ++ [47]) ++ [d1]) ++ [46]) ++ [d2]) in *
    by (rewrite <- !app_assoc; reflexivity).
  unfold version_suffix.
  rewrite tok_suffix_app;
    [|discriminate|cbn [forallb]; now rewrite Hd2|apply ends_outside_app, F46|exact Hf].
  rewrite tok_skipOneTrailing_app by reflexivity.
  rewrite tok_suffix_app;
    [|discriminate|cbn [forallb]; now rewrite Hd1|rewrite app_assoc; apply ends_outside_app, F47
     |exact (fits_app_l _ _ (fits_app_l _ _ Hf))].
  change ([72;84;84;80] ++ [47]) with http_slash. now rewrite tok_skipSuffix_app by discriminate.
Qed.

Lemma parse_version_complete s z d1 d2 : cs_DIGIT d1 = true -> cs_DIGIT d2 = true ->
  fits (z ++ http_slash ++ [d1; 46; d2]) ->
  parse_version s (z ++ http_slash ++ [d1; 46; d2]) = (set_proto s (d1 - 48) (d2 - 48), Some z).
Proof.
  intros Hd1 Hd2 Hf. unfold parse_version.
  (* the two fast paths give the answer of the generic one *)
  destruct (tok_skipSuffix http1p1 (z ++ http_slash ++ [d1; 46; d2])) as [[] t11] eqn:S11.
  { apply tok_skipSuffix_sound, app_same_len_inj in S11 as [-> [= -> ->]]; reflexivity. }
  destruct (tok_skipSuffix http1p0 (z ++ http_slash ++ [d1; 46; d2])) as [[] t10] eqn:S10.
  { apply tok_skipSuffix_sound, app_same_len_inj in S10 as [-> [= -> ->]]; reflexivity. }
  now rewrite version_suffix_complete.
Qed.

Theorem rfc_request_line_accepted s line m t d1 d2 : fits line ->
  rfc_request_line line m t d1 d2 -> d1 <> 48 ->
  exists s', parse_line false s line = (s', true) /\
    r_mimg s' = snd (method_of false m) /\ r_mid s' = fst (method_of false m) /\ r_uri s' = t /\
    r_http s' = true /\ r_major s' = d1 - 48 /\ r_minor s' = d2 - 48.
Proof.
  intros Hf (Hline & (Hmne & Hmall & Hmlen) & Ht & Hd1 & Hd2) Hnz.
  destruct strict_facts as (_ & _ & Fsp & Fcr).
  pose proof (digit_range d1 Hd1) as R1.
  assert (Hfv : fits ((t ++ [32]) ++ http_slash ++ [d1; 46; d2])).
  { rewrite Hline in Hf. apply fits_app_r in Hf.
    replace ([32] ++ t ++ [32] ++ http_slash ++ [d1; 46; d2] ++ [13])
      with ([32] ++ ((t ++ [32]) ++ http_slash ++ [d1; 46; d2]) ++ [13]) in Hf by (rewrite <- !app_assoc; reflexivity).
    exact (fits_app_l _ _ (fits_app_r _ _ Hf)). }
  unfold parse_line.
  assert (PM : parse_method false s line =
               (set_method s (method_of false m), Some (t ++ [32] ++ http_slash ++ [d1; 46; d2] ++ [13]))).
  { destruct Ht as (Htne & Htall & _). destruct t as [|t0 tt]; [congruence|].
    rewrite Hline. apply parse_method_sp; try assumption.
    apply strict_target_not_delim. cbn [forallb] in Htall. apply andb_prop in Htall. apply Htall. }
  rewrite PM. unfold skip_trailing_crs.
  replace (t ++ [32] ++ http_slash ++ [d1; 46; d2] ++ [13])
    with (((t ++ [32]) ++ http_slash ++ [d1; 46; d2]) ++ [13]) by (rewrite <- !app_assoc; reflexivity).
  rewrite tok_skipOneTrailing_app by exact Fcr.
  rewrite parse_version_complete by assumption.
  cbn [r_major set_proto]. replace (d1 - 48 =? 0) with false by (clear - R1 Hnz; lia).
  (* the delimiter before the version *)
  rewrite tok_skipAllTrailing_app;
    [|cbn [forallb delim]; now rewrite Fsp
     |apply (ends_outside_forall _ cs_strict_RequestTarget); [exact strict_target_not_delim|apply Ht]].
  cbn [lenN]. rewrite skip_delimiter_1, parse_uri_complete by exact Ht.
  eexists. split; [reflexivity|].
  cbn [r_mimg r_mid r_uri r_http r_major r_minor set_code set_uri set_proto set_method]. now repeat split.
Qed.

Lemma strict_delim_is_sp c : cs_strict_Delimiter c = true -> c = 32.
Proof.
  intros H. apply (mem_tbl_sweep _ (fun c => c =? 32)) in H; [lia|now vm_compute..].
Qed.

Lemma cr_is_13 c : cs_CR c = true -> c = 13.
Proof.
  intros H. apply (mem_tbl_sweep _ (fun c => c =? 13)) in H; [lia|now vm_compute..].
Qed.

Lemma method_find_strict s tbl i img : method_find false s tbl = Some (i, img) -> img = s.
Proof.
  induction tbl as [|[j im] r IH]; cbn [method_find]; [discriminate|].
  destruct (ci_eqb im s); [|exact IH].
  destruct (list_eqb im s) eqn:E; [|exact IH]. intros [= _ <-]. now apply list_eqb_eq.
Qed.

Lemma method_of_strict_image m : m <> [] -> snd (method_of false m) = m.
Proof.
  intros Hne. unfold method_of. destruct m as [|a r]; [congruence|].
  destruct (method_find false (a :: r) req_methods) as [[i img]|] eqn:F; [|reflexivity].
  cbn [snd]. eapply method_find_strict; exact F.
Qed.

Theorem strict_accepted_1x_is_rfc_line s line s' :
  parse_line false s line = (s', true) -> r_major s' <> 0 ->
  exists m t d1 d2, rfc_request_line line m t d1 d2 /\
    r_mimg s' = m /\ r_uri s' = t /\ r_major s' = d1 - 48 /\ r_minor s' = d2 - 48.
Proof.
  intros H Hmaj.
  destruct (parse_line_sound_1x false s line s' H Hmaj)
    as (m & t & d1 & d2 & (ds1 & ds2 & crs & Hline & Hm & Hds1 & Ht & Hds2 & Hd1 & Hd2 & Hcrs) & Hmeth & Huri & _ & Hma & Hmi).
  (* strict mode: each delimiter run is one SP, the CR run one CR *)
  destruct Hds1 as (N1 & Hall1 & Hlen1), Hds2 as (N2 & Hall2 & Hlen2), Hcrs as (Hallc & Hlenc).
  specialize (Hlen1 eq_refl). specialize (Hlen2 eq_refl). specialize (Hlenc eq_refl).
  destruct (one_elem ds1 N1 (N.eq_le_incl _ _ Hlen1)) as [c1 ->].
  destruct (one_elem ds2 N2 (N.eq_le_incl _ _ Hlen2)) as [c2 ->].
  destruct (one_elem crs) as [c3 ->]; [now intros ->|exact (N.eq_le_incl _ _ Hlenc)|].
  cbn [forallb delim] in Hall1, Hall2, Hallc. rewrite Bool.andb_true_r in Hall1, Hall2, Hallc.
  apply strict_delim_is_sp in Hall1, Hall2. apply cr_is_13 in Hallc. subst c1 c2 c3.
  exists m, t, d1, d2. split; [split; [exact Hline|tauto]|].
  split; [|tauto]. rewrite <- (method_of_strict_image m (proj1 Hm)), <- Hmeth. reflexivity.
Qed.

(* --- the full statement "strict accepts exactly the RFC 9112 request lines" is refuted: with an
       HTTP/0.x (or multi-digit) version token the delimiter in front of it is not required --- *)
Lemma rfc_line_two_sp line m t d1 d2 : rfc_request_line line m t d1 d2 -> (2 <= count_occ N.eq_dec line 32%N)%nat.
Proof.
  intros (Hline & _). subst line. rewrite !count_occ_app. cbn [count_occ].
  destruct (N.eq_dec 32 32); [|congruence]. lia.
Qed.

(* "POST /xHTTP/0.9" CR : accepted as POST, target "/x", version 0.9 *)
Definition quirk_line : bytes := [80;79;83;84;32;47;120;72;84;84;80;47;48;46;57;13].

Theorem strict_accept_iff_grammar_refuted :
  exists line s', parse_line false rst0 line = (s', true) /\
    r_uri s' = [47;120] /\ r_major s' = 0 /\ r_minor s' = 9 /\
    (forall m t d1 d2, ~ rfc_request_line line m t d1 d2) /\
    (forall t, line <> [71;69;84;32] ++ t ++ [13]).
Proof.
  exists quirk_line. eexists. split; [vm_compute; reflexivity|].
  split; [reflexivity|]. split; [reflexivity|]. split; [reflexivity|]. split.
  - intros m t d1 d2 H. apply rfc_line_two_sp in H. vm_compute in H. lia.
  - intros t H. vm_compute in H. inversion H.
Qed.

(* --- the documented tolerances of the relaxed parser, as table facts --- *)
Definition relaxed_tables_check (c : N) : bool :=
  Bool.eqb (cs_relaxed_Delimiter c) ((c =? 32) || (c =? 9) || (c =? 11) || (c =? 12) || (c =? 13)) &&
  Bool.eqb (cs_strict_Delimiter c) (c =? 32) &&
  (negb (cs_strict_RequestTarget c) || cs_relaxed_RequestTarget c) &&
  (negb (cs_relaxed_Delimiter c) || cs_relaxed_RequestTarget c) &&
  (negb (cs_strict_RequestTarget c) || ((33 <=? c) && (c <=? 126))) &&
  (negb (cs_relaxed_RequestTarget c) || negb ((c =? 10) || (c =? 0) || (c =? 127))).

Theorem relaxed_tables : forall c, c < 256 ->
  cs_relaxed_Delimiter c = ((c =? 32) || (c =? 9) || (c =? 11) || (c =? 12) || (c =? 13)) /\
  cs_strict_Delimiter c = (c =? 32) /\
  (cs_strict_RequestTarget c = true -> cs_relaxed_RequestTarget c = true) /\
  (cs_relaxed_Delimiter c = true -> cs_relaxed_RequestTarget c = true) /\
  (cs_strict_RequestTarget c = true -> 33 <= c <= 126) /\
  (cs_relaxed_RequestTarget c = true -> c <> 10 /\ c <> 0 /\ c <> 127).
Proof.
  intros c Hc.
  pose proof (forallb_bytes relaxed_tables_check ltac:(vm_compute; reflexivity) c Hc) as H.
  unfold relaxed_tables_check in H. rewrite !andb_true_iff, !Bool.eqb_true_iff in H. lia.
Qed.
