(* Properties_C53.v — C53: the shared page allocator (src/ipc/mem/PageStack.cc: PageStack over the lock-free
   tree-of-counters IdSet) never double-allocates or loses pages. Statements, closed by `exact` or by the few lines that assemble them; proofs live in PagestackProofs.v.

   Vocabulary (PagestackModel.v / PagestackProofs.v):
     cfg c                 capacity `cap c` and number of inner levels `ilc c` of the tree (ANY height 1..26, any capacity that fits)
     state                 shared words (size_, all tree nodes) + any number of processes = (program counter, held page numbers, script)
     exec / reach c st0 s  each schedule entry lets the named process perform ONE atomic operation (load, CAS, fetch_add, fetch_or,
                           ++/--size_) or its between-calls step; reach = the state after schedule s (any interleaving)
     Start c total inU st0 st0 is a legal start: the parameters fit (WF c), `inU` = the page indexes of the pool, `total` = their number,
                           and the invariant holds in st0 (shown below for "created full" and "created empty, pages dealt to clients")
     wH x th               1 iff page index x is in the hands of process th: in its held list (as number x+1), or carried by its pop()
                           between the leaf CAS and return, or by its push() before the leaf fetch_or
     quiescent l           every process is between two calls (or ended)
     Inv                   the inductive invariant: per-node counting equations, per-page ownership equation, size_ equations *)
Require Import SquidV.Bytes SquidV.PagestackModel SquidV.PagestackProofs.
Local Open Scope N_scope.

(* --- start states --- *)
(* created full: any word array that passes the (executable) consistency check, all processes between calls holding nothing *)
Theorem C53_start_created_full : forall c m l, WF c -> init_okb c m = true ->
  all_ready l -> (forall th, In th l -> theld th = []) ->
  Start c (cap c) (all_in_pool (cap c)) (mkState (mkShared (cap c) m) l).
Proof. exact start_full. Qed.
Print Assumptions C53_start_created_full.

(* created empty (zero-filled tree, size_ = 0): the pages of the pool are in the hands of the processes, each exactly once *)
Theorem C53_start_created_empty : forall c inU l, WF c ->
  all_ready l -> (forall th, In th l -> Forall (fun n => 1 <= n <= cap c) (theld th)) ->
  (forall x, tsum (fun th => countN (x + 1) (theld th)) l = b2n (inU x)) ->
  (forall x, inU x = true -> x < cap c) ->
  tsum (fun th => lenN (theld th)) l <= cap c ->
  Start c (tsum (fun th => lenN (theld th)) l) inU (mkState (mkShared 0 (zeros (N.to_nat (node_count c)))) l).
Proof. exact start_empty. Qed.
Print Assumptions C53_start_created_empty.

(* the constructor as it is written (IdSetMeasurements, fillAllNodes, truncateExtras incl. the last leaf it leaves set on the
   right) produces a start state. PARTIAL: checked by computation for every capacity
   0..1100 (tree heights 2..6), not proved for all capacities *)
Theorem C53_constructor_gives_start_state_upto_1100_partial : forall capacity l, capacity <= 1100 ->
  all_ready l -> (forall th, In th l -> theld th = []) ->
  exists s0, construct (measure capacity) true = Some s0 /\
             Start (measure capacity) capacity (all_in_pool capacity) (mkState s0 l).
Proof. exact ctor_start_upto. Qed.
Print Assumptions C53_constructor_gives_start_state_upto_1100_partial.

(* --- the inductive invariant holds after every schedule --- *)
Theorem C53_invariant_all_interleavings : forall c total inU st0, Start c total inU st0 ->
  forall sched, Inv c total inU (reach c st0 sched).
Proof. intros c total inU st0 S sched. apply (reach_start _ _ _ _ S sched). Qed.
Print Assumptions C53_invariant_all_interleavings.

(* none of the assert()s of PageStack.cc can fail for protocol-following clients: no empty inner node or leaf is ever found
   below a non-empty counter, no counter overflows, size_ never wraps, every id popped is a page of the pool *)
Theorem C53_no_assertion_fires : forall c total inU st0, Start c total inU st0 ->
  forall sched i th, nthN i (ths (reach c st0 sched)) = Some th -> tpc th <> Crashed.
Proof. intros c total inU st0 S sched. exact (no_crash _ _ _ _ (reach_start _ _ _ _ S sched)). Qed.
Print Assumptions C53_no_assertion_fires.

(* every allocated page is a valid page of the pool *)
Theorem C53_allocated_pages_are_pool_pages : forall c total inU st0, Start c total inU st0 ->
  forall sched i th n, nthN i (ths (reach c st0 sched)) = Some th -> In n (theld th) -> 1 <= n <= cap c.
Proof. intros c total inU st0 S sched. exact (held_pages_valid _ _ _ _ (reach_start _ _ _ _ S sched)). Qed.
Print Assumptions C53_allocated_pages_are_pool_pages.

(* no page is held by two processes at the same time *)
Theorem C53_no_page_with_two_holders : forall c total inU st0, Start c total inU st0 ->
  forall sched n i j a b, i <> j ->
  nthN i (ths (reach c st0 sched)) = Some a -> nthN j (ths (reach c st0 sched)) = Some b ->
  In n (theld a) -> In n (theld b) -> False.
Proof. intros c total inU st0 S sched. exact (no_page_held_twice _ _ _ _ (reach_start _ _ _ _ S sched)). Qed.
Print Assumptions C53_no_page_with_two_holders.

(* ... nor handed twice to the same process without a push in between *)
Theorem C53_no_page_twice_in_one_hand : forall c total inU st0, Start c total inU st0 ->
  forall sched n i a, nthN i (ths (reach c st0 sched)) = Some a -> countN n (theld a) <= 1.
Proof. intros c total inU st0 S sched. exact (held_once _ _ _ _ (reach_start _ _ _ _ S sched)). Qed.
Print Assumptions C53_no_page_twice_in_one_hand.

(* the same including calls in progress: a page index popped from its leaf but not yet returned, or given to push() but not
   yet inserted, is in nobody else's hands *)
Theorem C53_no_double_allocation_in_flight : forall c total inU st0, Start c total inU st0 ->
  forall sched x i j a b, x < cap c -> i <> j ->
  nthN i (ths (reach c st0 sched)) = Some a -> nthN j (ths (reach c st0 sched)) = Some b ->
  1 <= wH x a -> 1 <= wH x b -> False.
Proof. intros c total inU st0 S sched. exact (no_double_holder _ _ _ _ (reach_start _ _ _ _ S sched)). Qed.
Print Assumptions C53_no_double_allocation_in_flight.

(* no page is lost: a page of the pool that is in nobody's hands is a set bit of its leaf *)
Theorem C53_unheld_page_is_in_the_stack : forall c total inU st0, Start c total inU st0 ->
  forall sched x, inU x = true -> tsum (wH x) (ths (reach c st0 sched)) = 0 ->
  N.testbit (word (nodes (sh (reach c st0 sched))) (leafpos c x)) (x mod 64) = true.
Proof. intros c total inU st0 S sched. exact (free_page_in_leaf _ _ _ _ (reach_start _ _ _ _ S sched)). Qed.
Print Assumptions C53_unheld_page_is_in_the_stack.

(* capacity accounting, at every moment: size_ + pages held + push() calls that have not yet incremented size_ = pool size *)
Theorem C53_size_accounting : forall c total inU st0, Start c total inU st0 ->
  forall sched, sz (sh (reach c st0 sched)) + tsum wHeld (ths (reach c st0 sched)) = total.
Proof. intros c total inU st0 S sched. exact (size_accounting _ _ _ _ (reach_start _ _ _ _ S sched)). Qed.
Print Assumptions C53_size_accounting.

(* every page of the pool is accounted for at every moment, under any interleaving: what the root counters offer + the pages
   in the hands of processes = pool size, where a process has in its hands (wBusy): the pages it holds, one page per push() in
   progress (wherever it is between ++size_ and the root), and one page per pop() in progress that has committed at the root
   (wherever it is between the root CAS and its return) *)
Theorem C53_pool_accounting_all_interleavings : forall c total inU st0, Start c total inU st0 ->
  forall sched,
  (if 0 <? cap c then unpack_left (word (nodes (sh (reach c st0 sched))) root) +
                      unpack_right (word (nodes (sh (reach c st0 sched))) root) else 0)
  + tsum wBusy (ths (reach c st0 sched)) = total.
Proof. intros c total inU st0 S sched. exact (pool_accounting _ _ _ _ (reach_start _ _ _ _ S sched)). Qed.
Print Assumptions C53_pool_accounting_all_interleavings.

(* an allocation fails only if, at some point during it, no page was free: the step in which pop() answers false (process t, any
   reachable state, any concurrent activity) is a read of the root that finds both counters zero and changes nothing, and in the
   state it reads every one of the `total` pages of the pool is in the hands of some process: held, being pushed, or reserved
   by a pop() that has already committed. (For capacity 0 pop() fails without touching anything: there is no page.) *)
Theorem C53_pop_fails_only_when_no_page_free : forall c total inU st0, Start c total inU st0 ->
  forall sched t st' evs b,
  step c (reach c st0 sched) t = (st', evs, b) -> In (t, EvRetPop None) evs -> cap c <> 0 ->
  sh st' = sh (reach c st0 sched) /\
  unpack_left (word (nodes (sh (reach c st0 sched))) root) = 0 /\
  unpack_right (word (nodes (sh (reach c st0 sched))) root) = 0 /\
  tsum wBusy (ths (reach c st0 sched)) = total.
Proof. intros c total inU st0 S sched. exact (pop_fails_only_when_no_page_free _ _ _ _ (reach_start _ _ _ _ S sched)). Qed.
Print Assumptions C53_pop_fails_only_when_no_page_free.

(* once activity stops: size_ = pool size - pages held, and the root counters add up to exactly that number *)
Theorem C53_quiescent_counts_exact : forall c total inU st0, Start c total inU st0 ->
  forall sched, quiescent (ths (reach c st0 sched)) ->
  sz (sh (reach c st0 sched)) + tsum (fun th => lenN (theld th)) (ths (reach c st0 sched)) = total /\
  sz (sh (reach c st0 sched)) =
    (if 0 <? cap c then unpack_left (word (nodes (sh (reach c st0 sched))) root) +
                        unpack_right (word (nodes (sh (reach c st0 sched))) root) else 0).
Proof. intros c total inU st0 S sched. exact (quiescent_free_count _ _ _ _ (reach_start _ _ _ _ S sched)). Qed.
Print Assumptions C53_quiescent_counts_exact.

(* ... and every counter of the tree is exact: each inner counter equals what the subtree below offers, so the descent of a
   pop() from a non-zero root counter reaches a set bit (every released page can be allocated again).
   PARTIAL: the run of that pop() to completion is not a theorem (the check drains the real stack instead) *)
Theorem C53_quiescent_tree_exact_partial : forall c total inU st0, Start c total inU st0 ->
  forall sched, quiescent (ths (reach c st0 sched)) ->
  forall p, valid c p -> 1 <= level p -> live c (ascend p) = true ->
  cnt_to (nodes (sh (reach c st0 sched))) p = gav c (nodes (sh (reach c st0 sched))) p.
Proof. intros c total inU st0 S sched. exact (quiescent_tree_exact _ _ _ _ (reach_start _ _ _ _ S sched)). Qed.
Print Assumptions C53_quiescent_tree_exact_partial.

(* --- the hypotheses are satisfiable, non-trivially --- *)
(* a three-level tree (capacity 130: 4 leaves, the last page in the third leaf) is a start state *)
Example C53_ex_start_130 : exists s0, construct (measure 130) true = Some s0 /\
  Start (measure 130) 130 (all_in_pool 130) (mkState s0 [mkT Ready [] [OpPop; OpPushFirst]; mkT Ready [] [OpPop]]).
Proof.
  apply C53_constructor_gives_start_state_upto_1100_partial; [lia | |].
  - intros th [E|[E|[]]]; subst; reflexivity.
  - intros th [E|[E|[]]]; subst; reflexivity.
Qed.

(* two processes contend for the only page: one gets it, the other is refused, nobody crashes *)
Example C53_ex_contention :
  match run_case 1 true [[OpPop]; [OpPop]] [0; 1; 0; 1; 0; 1; 0; 1; 0; 1] with
  | OutRun st evs _ _ =>
      map (fun th => theld th) (ths st) = [[1]; []] /\
      In (1, EvRetPop None) evs /\ In (0, EvRetPop (Some 1)) evs /\ sz (sh st) = 0
  | _ => False
  end.
Proof. vm_compute. repeat split; auto 20. Qed.

(* the hypotheses of C53_pop_fails_only_when_no_page_free occur: with one page and two clients, the step in which client 1 is refused *)
Example C53_ex_refusal_step :
  exists s0, construct (measure 1) true = Some s0 /\
  let st := reach (measure 1) (mkState s0 [mkT Ready [] [OpPop]; mkT Ready [] [OpPop]]) [0; 0; 0; 1] in
  In (1, EvRetPop None) (snd (fst (step (measure 1) st 1))).
Proof. eexists. split; [vm_compute; reflexivity|]. vm_compute. auto. Qed.

(* created empty: two clients hold pages 1,3 and 2; after pushing and popping, quiescent, counts exact *)
Example C53_ex_empty_start :
  match run_case 3 false [[OpPushFirst; OpPop]; [OpPushFirst]] [0; 1; 0; 1; 0; 1; 0; 1] with
  | OutRun st evs _ d =>
      forallb (fun th => match tpc th with Done => true | _ => false end) (ths st) = true /\
      sz (sh st) + lenN (concat (map (fun th => theld th) (ths st))) = 3
  | _ => False
  end.
Proof. vm_compute. split; reflexivity. Qed.
