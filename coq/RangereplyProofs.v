(* RangereplyProofs.v — proofs for C15 (Range replies carry exactly the requested bytes). *)
Require Import SquidV.Bytes SquidV.TokModel SquidV.HopModel SquidV.HopProofs SquidV.RangeModel SquidV.RangeProofs.
Require Import SquidV.RangereplyModel.
Require Import SquidV.gen.Rangereply_gen.
Require Import ZifyBool ZifyN ZifyNat.
Local Open Scope Z_scope.

Lemma dropN_all {A} n (l : list A) : (lenN l <= n)%N -> dropN n l = [].
Proof. apply SquidV.Bytes.dropN_all. Qed.

Lemma zlen_nonneg l : 0 <= zlen l.
Proof. unfold zlen. lia. Qed.

Lemma zlen_app a b : zlen (a ++ b) = zlen a + zlen b.
Proof. unfold zlen. rewrite lenN_app. lia. Qed.

Lemma zlen_nil : zlen [] = 0.
Proof. reflexivity. Qed.

Lemma zlen_zero l : zlen l = 0 -> l = [].
Proof. unfold zlen. destruct l as [|x l]; [reflexivity|]. cbn [lenN]. lia. Qed.

Lemma zlen_take n l : 0 <= n -> zlen (rr_take n l) = Z.min n (zlen l).
Proof. intros H. unfold zlen, rr_take. rewrite lenN_takeN. lia. Qed.

Lemma zlen_drop n l : 0 <= n -> zlen (rr_drop n l) = Z.max 0 (zlen l - n).
Proof. intros H. unfold zlen, rr_drop. rewrite lenN_dropN. lia. Qed.

Lemma zlen_slice obj off len : 0 <= off -> 0 <= len -> off + len <= zlen obj -> zlen (rr_slice obj off len) = len.
Proof. intros H1 H2 H3. unfold rr_slice. rewrite zlen_take by lia. rewrite zlen_drop by lia. lia. Qed.

Lemma take_slice obj off len c : 0 <= c <= len -> rr_take c (rr_slice obj off len) = rr_slice obj off c.
Proof. intros H. unfold rr_slice, rr_take. rewrite takeN_takeN. f_equal. lia. Qed.

Lemma drop_slice obj off len c : 0 <= off -> 0 <= c <= len ->
  rr_drop c (rr_slice obj off len) = rr_slice obj (off + c) (len - c).
Proof.
  intros H0 H. unfold rr_slice, rr_take, rr_drop.
  rewrite dropN_takeN, dropN_dropN. f_equal; [lia|]. f_equal. lia.
Qed.

Lemma slice_split obj off a b : 0 <= off -> 0 <= a -> 0 <= b ->
  rr_slice obj off (a + b) = rr_slice obj off a ++ rr_slice obj (off + a) b.
Proof.
  intros H0 Ha Hb. unfold rr_slice, rr_take, rr_drop.
  replace (Z.to_N (a + b)) with (Z.to_N a + Z.to_N b)%N by lia.
  rewrite takeN_add. f_equal. rewrite dropN_dropN. f_equal. f_equal. lia.
Qed.

Lemma slice_zero obj off : rr_slice obj off 0 = [].
Proof. unfold rr_slice, rr_take. apply takeN_0. Qed.

Lemma slice_whole obj : rr_slice obj 0 (zlen obj) = obj.
Proof. unfold rr_slice, rr_take, rr_drop. cbn [Z.to_N]. rewrite dropN_0. apply takeN_all. unfold zlen. lia. Qed.

Lemma take_zero l : rr_take 0 l = [].
Proof. apply takeN_0. Qed.

(* the iterator primitives on concrete states *)
Lemma cpm_busy r d o : d <> 0 -> r <> [] -> can_pack_more (mkIt r d o false) = (mkIt r d o false, true).
Proof.
  intros Hd Hr. unfold can_pack_more. cbn [it_debt it_rest it_out it_bad].
  destruct (d =? 0) eqn:E; [lia|]. destruct r as [|c r]; [contradiction|].
  cbn [at_end it_rest rflag it_debt it_out it_bad]. rewrite E. reflexivity.
Qed.

Lemma cpm_next c n r o : snd n <> 0 ->
  can_pack_more (mkIt (c :: n :: r) 0 o false) = (mkIt (n :: r) (snd n) o false, true).
Proof.
  intros Hn. unfold can_pack_more, update_spec.
  cbn [it_debt it_rest it_out it_bad set_rest rflag set_debt at_end Z.eqb negb orb].
  destruct (snd n =? 0) eqn:E; [lia|]. reflexivity.
Qed.

Lemma cpm_last c o : can_pack_more (mkIt [c] 0 o false) = (mkIt [] 0 o false, false).
Proof. reflexivity. Qed.

Lemma cpm_ended o : can_pack_more (mkIt [] 0 o false) = (mkIt [] 0 o false, false).
Proof. reflexivity. Qed.

Lemma gnro_busy co cl r d o : d <> 0 -> o <= co + cl - d ->
  get_next_range_offset (mkIt ((co, cl) :: r) d o false) = (mkIt ((co, cl) :: r) d o false, co + cl - d).
Proof.
  intros Hd Ho. unfold get_next_range_offset. rewrite cpm_busy by (try discriminate; assumption).
  cbn [negb rflag it_rest it_debt it_out it_bad orb current_spec].
  destruct (co + cl - d <? o) eqn:E; [lia|]. rewrite andb_false_r. reflexivity.
Qed.

Lemma lts_busy co cl r d o astart asize : 0 < d ->
  length_to_send (mkIt ((co, cl) :: r) d o false) astart asize =
  (mkIt ((co, cl) :: r) d o false, if astart <? co then 0 else Z.min d asize).
Proof.
  intros Hd. unfold length_to_send. rewrite cpm_busy by (try discriminate; lia).
  cbn [negb rflag it_rest it_debt it_out it_bad orb current_spec].
  destruct (d =? -1) eqn:E1; [lia|]. destruct (0 <? d) eqn:E2; [|lia].
  cbn [negb orb]. destruct (astart <? co); reflexivity.
Qed.

Lemma note_sent_ok r d o n : 0 < d -> 0 <= n <= d ->
  note_sent (mkIt r d o false) n = mkIt r (d - n) (o + n) false.
Proof.
  intros Hd Hn. unfold note_sent. cbn [set_out it_rest it_debt it_out it_bad].
  destruct (d =? -1) eqn:E1; [lia|]. cbn [set_debt rflag it_rest it_debt it_out it_bad orb].
  destruct (d - n <? 0) eqn:E2; [lia|]. destruct (d - n <? -1) eqn:E3; [lia|]. reflexivity.
Qed.

(* ascending, disjoint, non-empty, inside the body: the canonical non-complex lists *)
Fixpoint chain (clen lo : Z) (l : list rspec2) : Prop :=
  match l with
  | [] => True
  | c :: r => lo <= fst c /\ 0 < snd c /\ fst c + snd c <= clen /\ chain clen (fst c + snd c) r
  end.

Definition hdr_mp (e : renv) (c : rspec2) : bytes := if e_multipart e then pack_range_hdr e c else [].
Definition term_mp (e : renv) : bytes := if e_multipart e then pack_term_bound e else [].

(* the parts, in order: (part header) ++ object[offset, offset+length) *)
Fixpoint parts_body (e : renv) (obj : bytes) (cs : list rspec2) : bytes :=
  match cs with
  | [] => []
  | c :: r => hdr_mp e c ++ rr_slice obj (fst c) (snd c) ++ parts_body e obj r
  end.
Definition expected_body (e : renv) (obj : bytes) (cs : list rspec2) : bytes := parts_body e obj cs ++ term_mp e.

(* what is still to be written when d bytes of the current spec c are owed *)
Definition hdr_if (e : renv) (c : rspec2) (d : Z) : bytes :=
  if e_multipart e && (d =? snd c) then pack_range_hdr e c else [].
Definition remaining (e : renv) (obj : bytes) (c : rspec2) (r : list rspec2) (d : Z) : bytes :=
  hdr_if e c d ++ rr_slice obj (fst c + snd c - d) d ++ parts_body e obj r ++ term_mp e.

Fixpoint sum_len (l : list rspec2) : Z := match l with [] => 0 | c :: r => snd c + sum_len r end.

Lemma remaining_start e obj c r : remaining e obj c r (snd c) = expected_body e obj (c :: r).
Proof.
  unfold remaining, expected_body, hdr_if, hdr_mp. cbn [parts_body]. rewrite Z.eqb_refl, andb_true_r.
  replace (fst c + snd c - snd c) with (fst c) by lia. unfold hdr_mp. now rewrite <- !app_assoc.
Qed.

Lemma chain_sum_nonneg clen lo l : chain clen lo l -> 0 <= sum_len l.
Proof. revert lo; induction l as [|c r IH]; intros lo H; cbn [sum_len]; [lia|]. destruct H as (_ & H2 & _ & H4). specialize (IH _ H4). lia. Qed.

(* packRange on a buffer that starts at the next wanted byte *)
Definition ready_after (e : renv) (obj : bytes) (c : rspec2) (r : list rspec2) (d : Z) (s' : riter) (out : bytes) : Prop :=
  (s' = mkIt [] 0 (it_out s') false /\ out = remaining e obj c r d) \/
  (exists co' cl' r' d',
      s' = mkIt ((co', cl') :: r') d' (co' + cl' - d') false /\
      0 <= co' /\ 0 < cl' /\ co' + cl' <= zlen obj /\ chain (zlen obj) (co' + cl') r' /\ 0 < d' <= cl' /\
      out ++ remaining e obj (co', cl') r' d' = remaining e obj c r d /\
      d' + sum_len r' < d + sum_len r).

Lemma rflag_f r d o : rflag (mkIt r d o false) false = mkIt r d o false.
Proof. reflexivity. Qed.
Lemma set_out_mk r d o b x : set_out (mkIt r d o b) x = mkIt r d x b.
Proof. reflexivity. Qed.

Ltac simp_it := cbn [it_rest it_out it_debt it_bad orb negb andb current_spec at_end]; rewrite ?rflag_f, ?set_out_mk; cbn [it_rest it_out it_debt it_bad].

Lemma pack_range_ready e obj : e_multipart e = true ->
  forall r co cl d k fuel,
    0 <= co -> 0 < cl -> co + cl <= zlen obj -> chain (zlen obj) (co + cl) r ->
    0 < d <= cl -> 1 <= k -> co + cl - d + k <= zlen obj -> (length r < fuel)%nat ->
    exists s' out,
      pack_range fuel e (mkIt ((co, cl) :: r) d (co + cl - d) false) (co + cl - d) (rr_slice obj (co + cl - d) k) = (s', out) /\
      ready_after e obj (co, cl) r d s' out.
Proof.
  (* induction on the fuel, so that one pass of the loop is unfolded once, whatever follows the current spec *)
  intros Hmp r co cl d k fuel. revert r co cl d k.
  induction fuel as [|f IH]; intros r co cl d k Hco Hcl Hend Hch Hd Hk Hfit Hfuel; [lia|].
  set (o := co + cl - d) in *.
  assert (Hz : zlen (rr_slice obj o k) = k) by (apply zlen_slice; lia).
  cbn [pack_range]. cbn [at_end it_rest orb]. rewrite Hz. destruct (k =? 0) eqn:Ek; [lia|].
  rewrite lts_busy by lia. destruct (o <? co) eqn:Eo; [lia|].
  destruct (0 <? Z.min d k) eqn:Ec; [|lia].
  cbn [current_spec it_rest it_out it_debt it_bad]. rewrite Hmp.
  destruct (o <? co + cl) eqn:E1; [|lia]. destruct (o + k >? co) eqn:E2; [|lia].
  simp_it. rewrite note_sent_ok by lia.
  destruct (Z.le_gt_cases d k) as [Hdk|Hkd].
  - (* the spec is completed by this buffer *)
    replace (Z.min d k) with d by lia. replace (d - d) with 0 by lia.
    destruct r as [|[no nl] r'].
    + rewrite cpm_last. cbn [negb it_debt Z.eqb].
      eexists _, _. split; [reflexivity|]. left. split; [reflexivity|].
      unfold remaining, hdr_if, term_mp. cbn [fst snd parts_body app]. rewrite Hmp. cbn [andb].
      rewrite take_slice by lia. fold o. now rewrite <- !app_assoc.
    + cbn [chain fst snd] in Hch. destruct Hch as (Hno & Hnl & Hnend & Hch').
      rewrite cpm_next by (cbn [snd]; lia). cbn [negb snd].
      rewrite gnro_busy by lia. replace (no + nl - nl) with no by lia.
      simp_it.
      replace (o + d) with (co + cl) by (unfold o; lia).
      destruct (no <? co + cl) eqn:E3; [lia|]. simp_it.
      rewrite drop_slice by lia. replace (o + d) with (co + cl) by (unfold o; lia).
      rewrite zlen_slice by lia.
      assert (Hrem : (hdr_if e (co, cl) d ++ rr_take d (rr_slice obj o k)) ++ remaining e obj (no, nl) r' nl
                     = remaining e obj (co, cl) ((no, nl) :: r') d).
      { rewrite remaining_start. unfold remaining, expected_body. cbn [fst snd]. fold o.
        rewrite take_slice by lia. now rewrite <- !app_assoc. }
      unfold hdr_if in Hrem. cbn [snd] in Hrem. rewrite Hmp in Hrem. cbn [andb] in Hrem.
      destruct (k - d <=? no - (co + cl)) eqn:E4.
      * (* the buffer ends before the next spec begins *)
        eexists _, _. split; [reflexivity|]. right. exists no, nl, r', nl.
        split; [f_equal; lia|]. repeat split; try lia; try assumption; cbn [sum_len snd]; lia.
      * (* it reaches into the next spec: the loop goes round *)
        destruct (d =? 0) eqn:E5; [lia|].
        rewrite drop_slice by lia.
        replace (co + cl + (no - (co + cl))) with no by lia.
        specialize (IH r' no nl nl (k - d - (no - (co + cl)))).
        replace (no + nl - nl) with no in IH by lia.
        destruct IH as (s' & out' & Hrun & Hafter); try lia; try assumption.
        { cbn [length] in Hfuel. lia. }
        rewrite Hrun. eexists _, _. split; [reflexivity|].
        destruct Hafter as [(Hs' & Hout)|(co' & cl' & r'' & d' & Hs' & H1 & H2 & H3 & H4 & H5 & H6 & H7)].
        -- left. split; [exact Hs'|]. rewrite Hout. exact Hrem.
        -- right. exists co', cl', r'', d'. split; [exact Hs'|].
           repeat split; try lia; try assumption; [|cbn [sum_len snd]; lia].
           rewrite <- app_assoc, H6. exact Hrem.
  - (* the buffer ends inside the spec *)
    replace (Z.min d k) with k by lia.
    rewrite cpm_busy by (try discriminate; lia). cbn [negb].
    rewrite gnro_busy by lia.
    simp_it.
    replace (co + cl - (d - k)) with (o + k) by (unfold o; lia).
    destruct (o + k <? o + k) eqn:E3; [lia|]. simp_it.
    rewrite drop_slice by lia. replace (k - k) with 0 by lia. rewrite slice_zero.
    cbn [zlen lenN Z.of_N]. replace (o + k - (o + k)) with 0 by lia. cbn [Z.leb Z.compare].
    eexists _, _. split; [reflexivity|]. right. exists co, cl, r, (d - k).
    split; [f_equal; unfold o; lia|]. repeat split; try lia; try assumption.
    unfold remaining, hdr_if. cbn [fst snd]. rewrite Hmp. cbn [andb].
    destruct (d - k =? cl) eqn:E4; [lia|]. cbn [app].
    rewrite take_slice by lia. rewrite <- !app_assoc. f_equal. rewrite app_assoc. f_equal.
    fold o. replace (co + cl - (d - k)) with (o + k) by (unfold o; lia).
    rewrite <- slice_split by lia. f_equal. lia.
Qed.

(* one store buffer at the wanted offset: sendBody + socketState *)
Definition single_ok (e : renv) (r : list rspec2) : Prop := e_multipart e = false -> r = [].

Lemma step_ready e obj : e_clen e = zlen obj ->
  forall r co cl d k,
    single_ok e r ->
    0 <= co -> 0 < cl -> co + cl <= zlen obj -> chain (zlen obj) (co + cl) r ->
    0 < d <= cl -> 1 <= k -> co + cl - d + k <= zlen obj ->
    exists s2 out s3 fin,
      send_buffer e (mkIt ((co, cl) :: r) d (co + cl - d) false) (co + cl - d) (rr_slice obj (co + cl - d) k) = (s2, out) /\
      socket_state e s2 = (s3, fin) /\ it_bad s3 = false /\
      (if fin then out = remaining e obj (co, cl) r d
       else exists co' cl' r' d',
           s3 = mkIt ((co', cl') :: r') d' (co' + cl' - d') false /\ single_ok e r' /\
           0 <= co' /\ 0 < cl' /\ co' + cl' <= zlen obj /\ chain (zlen obj) (co' + cl') r' /\ 0 < d' <= cl' /\
           out ++ remaining e obj (co', cl') r' d' = remaining e obj (co, cl) r d /\
           d' + sum_len r' < d + sum_len r).
Proof.
  intros Hclen r co cl d k Hsingle Hco Hcl Hend Hch Hd Hk Hfit.
  set (o := co + cl - d) in *.
  destruct (e_multipart e) eqn:Hmp.
  - (* multipart: packRange *)
    destruct (pack_range_ready e obj Hmp r co cl d k (S (length ((co, cl) :: r))) Hco Hcl Hend Hch Hd Hk Hfit)
      as (s2 & out & Hrun & Hafter).
    { cbn [length]. apply Nat.lt_succ_r. apply Nat.le_succ_diag_r. }
    assert (Hsb : send_buffer e (mkIt ((co, cl) :: r) d o false) o (rr_slice obj o k) = (s2, out)).
    { unfold send_buffer. rewrite Hmp. cbn [it_rest]. exact Hrun. }
    exists s2, out.
    destruct Hafter as [(Hs2 & Hout)|(co' & cl' & r' & d' & Hs2 & H1 & H2 & H3 & H4 & H5 & H6 & H7)].
    + (* finished *)
      assert (Hss : exists s3, socket_state e s2 = (s3, true) /\ it_bad s3 = false).
      { rewrite Hs2. unfold socket_state. cbn [it_out].
        destruct (e_clen e <=? it_out s2) eqn:E; [eexists; split; reflexivity|].
        rewrite cpm_ended. eexists; split; reflexivity. }
      destruct Hss as (s3 & Hss & Hb). exists s3, true. repeat split; assumption.
    + assert (Hss : socket_state e s2 = (s2, false)).
      { rewrite Hs2. unfold socket_state. cbn [it_out]. rewrite Hclen.
        destruct (zlen obj <=? co' + cl' - d') eqn:E; [lia|].
        rewrite cpm_busy by (try discriminate; lia). reflexivity. }
      exists s2, false. repeat split; try assumption; [rewrite Hs2; reflexivity|].
      exists co', cl', r', d'. repeat split; try lia; try assumption. intros Hm. rewrite Hmp in Hm. discriminate.
  - (* single part *)
    rewrite (Hsingle Hmp) in *. clear Hsingle.
    assert (Hz : zlen (rr_slice obj o k) = k) by (apply zlen_slice; lia).
    assert (Hsb : send_buffer e (mkIt [(co, cl)] d o false) o (rr_slice obj o k) =
                  (mkIt [(co, cl)] (d - Z.min d k) (o + Z.min d k) false, rr_take (Z.min d k) (rr_slice obj o k))).
    { unfold send_buffer. rewrite Hmp. rewrite lts_busy by lia. rewrite Hz.
      destruct (o <? co) eqn:Eo; [lia|]. rewrite note_sent_ok by lia. reflexivity. }
    destruct (Z.le_gt_cases d k) as [Hdk|Hkd].
    + replace (Z.min d k) with d in Hsb by lia. replace (d - d) with 0 in Hsb by lia.
      assert (Hout : rr_take d (rr_slice obj o k) = remaining e obj (co, cl) [] d).
      { unfold remaining, hdr_if, term_mp. rewrite Hmp. cbn [andb app parts_body fst snd]. fold o.
        rewrite take_slice by lia. now rewrite !app_nil_r. }
      assert (Hss : exists s3, socket_state e (mkIt [(co, cl)] 0 (o + d) false) = (s3, true) /\ it_bad s3 = false).
      { unfold socket_state. cbn [it_out].
        destruct (e_clen e <=? o + d) eqn:E; [eexists; split; reflexivity|].
        rewrite cpm_last. eexists; split; reflexivity. }
      destruct Hss as (s3 & Hss & Hb). eexists _, _, s3, true. split; [exact Hsb|]. repeat split; assumption.
    + replace (Z.min d k) with k in Hsb by lia.
      assert (Hss : socket_state e (mkIt [(co, cl)] (d - k) (o + k) false) = (mkIt [(co, cl)] (d - k) (o + k) false, false)).
      { unfold socket_state. cbn [it_out]. rewrite Hclen.
        destruct (zlen obj <=? o + k) eqn:E; [lia|].
        rewrite cpm_busy by (try discriminate; lia). reflexivity. }
      eexists _, _, _, false. split; [exact Hsb|]. split; [exact Hss|]. split; [reflexivity|].
      exists co, cl, [], (d - k). split; [f_equal; unfold o; lia|].
      repeat split; try lia; try exact I; try (cbn [sum_len]; lia).
      unfold remaining, hdr_if, term_mp. rewrite Hmp. cbn [andb app parts_body fst snd]. fold o.
      rewrite take_slice by lia. rewrite !app_nil_r.
      replace (co + cl - (d - k)) with (o + k) by (unfold o; lia).
      rewrite <- slice_split by lia. f_equal. lia.
Qed.

Fixpoint n_chunks (l : list N) : Z := match l with [] => 0 | _ :: r => 1 + n_chunks r end.

Lemma clip_chunk_bounds k avail : 1 <= avail -> 1 <= clip_chunk k avail <= avail.
Proof. intros H. unfold clip_chunk. lia. Qed.

Lemma pull_loop_exact e obj : e_clen e = zlen obj ->
  forall chunks r co cl d acc,
    single_ok e r ->
    0 <= co -> 0 < cl -> co + cl <= zlen obj -> chain (zlen obj) (co + cl) r -> 0 < d <= cl ->
    d + sum_len r <= n_chunks chunks ->
    pull_loop e obj chunks (mkIt ((co, cl) :: r) d (co + cl - d) false) acc
    = RDone (acc ++ remaining e obj (co, cl) r d) false.
Proof.
  intros Hclen. induction chunks as [|k ks IH]; intros r co cl d acc Hsingle Hco Hcl Hend Hch Hd Hn.
  - cbn [n_chunks] in Hn. pose proof (chain_sum_nonneg _ _ _ Hch). lia.
  - cbn [n_chunks] in Hn. cbn [pull_loop]. rewrite gnro_busy by lia. rewrite Hclen.
    destruct (zlen obj <=? co + cl - d) eqn:E; [lia|].
    pose proof (clip_chunk_bounds k (zlen obj - (co + cl - d)) ltac:(lia)) as Hk.
    destruct (step_ready e obj Hclen r co cl d (clip_chunk k (zlen obj - (co + cl - d))) Hsingle Hco Hcl Hend Hch Hd
                ltac:(lia) ltac:(lia)) as (s2 & out & s3 & fin & Hsb & Hss & Hbad & Hres).
    rewrite Hsb, Hss. destruct fin.
    + rewrite Hbad, Hres. reflexivity.
    + destruct Hres as (co' & cl' & r' & d' & Hs3 & Hsing' & H1 & H2 & H3 & H4 & H5 & H6 & H7).
      rewrite Hs3. rewrite IH by (try assumption; lia). rewrite <- app_assoc, H6. reflexivity.
Qed.

(* the buffer that arrives with the headers *)
Lemma first_dropped e r co cl data : 0 < co -> 0 < cl -> zlen data <> 0 ->
  send_buffer e (mkIt ((co, cl) :: r) cl co false) 0 data = (mkIt ((co, cl) :: r) cl co false, []).
Proof.
  intros Hco Hcl Hz. unfold send_buffer. destruct (e_multipart e) eqn:Hmp.
  - cbn [it_rest length pack_range at_end orb]. destruct (zlen data =? 0) eqn:E; [lia|].
    rewrite lts_busy by lia. destruct (0 <? co) eqn:E1; [|lia]. cbn [Z.ltb Z.compare].
    rewrite cpm_busy by (try discriminate; lia). cbn [negb]. rewrite gnro_busy by lia.
    simp_it. replace (co + cl - cl) with co by lia. destruct (co <? co) eqn:E2; [lia|]. simp_it.
    replace (co - co) with 0 by lia. destruct (zlen data <=? 0) eqn:E3; [pose proof (zlen_nonneg data); lia|].
    cbn [Z.eqb]. reflexivity.
  - rewrite lts_busy by lia. destruct (0 <? co) eqn:E1; [|lia]. rewrite note_sent_ok by lia.
    rewrite take_zero. f_equal. f_equal; lia.
Qed.

Definition first_ok (obj : bytes) (co : Z) (data0 : bytes) : Prop :=
  zlen data0 = 0 \/ 0 < co \/ (exists k, 1 <= k <= zlen obj /\ data0 = rr_slice obj 0 k).

Definition mp_consistent (e : renv) (cs : list rspec2) : Prop := e_multipart e = false -> exists c, cs = [c].

Lemma parts_len e obj : forall cs lo a, 0 <= lo -> chain (zlen obj) lo cs ->
  mrange_clen_loop e cs a = a + zlen (parts_body (mkEnv true (e_clen e) (e_ctype e) (e_boundary e)) obj cs).
Proof.
  induction cs as [|[co cl] r IH]; intros lo a Hlo Hch; cbn [mrange_clen_loop parts_body]; [cbn [zlen lenN Z.of_N]; lia|].
  cbn [chain fst snd] in Hch. destruct Hch as (H1 & H2 & H3 & H4).
  rewrite (IH (co + cl)) by (try assumption; lia). rewrite !zlen_app. cbn [fst snd].
  rewrite zlen_slice by lia. unfold hdr_mp. cbn [e_multipart]. unfold pack_range_hdr. cbn [e_boundary e_ctype e_clen]. lia.
Qed.

Lemma env_eta e : e_multipart e = true -> mkEnv true (e_clen e) (e_ctype e) (e_boundary e) = e.
Proof. destruct e as [m c t b]. cbn. intros ->. reflexivity. Qed.

Lemma declared_length e obj co cl r : e_multipart e = (match r with [] => false | _ => true end) ->
  0 <= co -> chain (zlen obj) 0 ((co, cl) :: r) ->
  snd (prep_partial e ((co, cl) :: r)) = zlen (expected_body e obj ((co, cl) :: r)).
Proof.
  intros Hmp Hco Hch. unfold prep_partial. cbn [snd fst].
  destruct (e_multipart e) eqn:Em.
  - unfold mrange_clen. rewrite (parts_len e obj _ 0 0) by (try assumption; lia). rewrite (env_eta e Em).
    unfold expected_body, term_mp. rewrite Em. rewrite zlen_app. lia.
  - destruct r; [|discriminate]. unfold expected_body, term_mp, hdr_mp. cbn [parts_body]. unfold hdr_mp. rewrite Em.
    cbn [app fst snd]. rewrite !app_nil_r. cbn [chain fst snd] in Hch. rewrite zlen_slice by lia. reflexivity.
Qed.

Lemma prep_partial_cons e co cl r :
  prep_partial e ((co, cl) :: r) = (mkIt ((co, cl) :: r) cl co false, if e_multipart e then mrange_clen e ((co, cl) :: r) else cl).
Proof. reflexivity. Qed.

Theorem run_partial_exact e obj co cl r data0 chunks :
  e_clen e = zlen obj -> single_ok e r -> chain (zlen obj) 0 ((co, cl) :: r) -> first_ok obj co data0 ->
  cl + sum_len r <= n_chunks chunks ->
  snd (run_partial e obj ((co, cl) :: r) data0 chunks) = RDone (expected_body e obj ((co, cl) :: r)) false.
Proof.
  intros Hclen Hsingle Hch Hfirst Hn.
  cbn [chain fst snd] in Hch. destruct Hch as (Hco & Hcl & Hend & Hch).
  unfold run_partial. rewrite prep_partial_cons.
  assert (Hss : socket_state e (mkIt ((co, cl) :: r) cl co false) = (mkIt ((co, cl) :: r) cl co false, false)).
  { unfold socket_state. cbn [it_out]. rewrite Hclen. destruct (zlen obj <=? co) eqn:E; [lia|].
    rewrite cpm_busy by (try discriminate; lia). reflexivity. }
  assert (Hpull : pull_loop e obj chunks (mkIt ((co, cl) :: r) cl co false) [] = RDone (expected_body e obj ((co, cl) :: r)) false).
  { replace co with (co + cl - cl) at 2 by lia. rewrite (pull_loop_exact e obj Hclen) by (try assumption; lia).
    cbn [app]. f_equal. apply (remaining_start e obj (co, cl) r). }
  destruct (zlen data0 =? 0) eqn:Ez.
  - rewrite Hss. cbn [snd]. exact Hpull.
  - destruct (Z.lt_ge_cases 0 co) as [Hpos|Hzero].
    + rewrite first_dropped by lia. rewrite Hss. cbn [snd]. exact Hpull.
    + assert (co = 0) by lia. subst co.
      destruct Hfirst as [Hf|[Hf|(k & Hk & Hdata)]]; [lia|lia|]. subst data0.
      destruct (step_ready e obj Hclen r 0 cl cl k Hsingle ltac:(lia) Hcl Hend Hch ltac:(lia) ltac:(lia) ltac:(lia))
        as (s2 & out & s3 & fin & Hsb & Hss' & Hbad & Hres).
      replace (0 + cl - cl) with 0 in Hsb by lia. rewrite Hsb, Hss'. cbn [snd]. destruct fin.
      * rewrite Hbad, Hres. f_equal. apply (remaining_start e obj (0, cl) r).
      * destruct Hres as (co' & cl' & r' & d' & Hs3 & Hsing' & H1 & H2 & H3 & H4 & H5 & H6 & H7).
        rewrite Hs3. rewrite (pull_loop_exact e obj Hclen) by (try assumption; lia).
        rewrite H6. f_equal. apply (remaining_start e obj (0, cl) r).
Qed.

Definition within (clen : Z) (c : rspec2) : Prop := 0 <= fst c /\ 0 < snd c /\ fst c + snd c <= clen.

Lemma chain_of_canon clen : forall cs lo,
  Forall (within clen) cs -> is_complex_from lo cs = false -> chain clen lo cs.
Proof.
  induction cs as [|[o l] r IH]; intros lo Hw Hc; cbn [chain]; [exact I|].
  inversion Hw as [|x y Hx Hy]; subst. destruct Hx as (H1 & H2 & H3). cbn [fst snd] in *.
  cbn [is_complex_from] in Hc. destruct (o <? lo) eqn:E; [discriminate|].
  repeat split; try lia. apply IH; assumption.
Qed.

Lemma canon_of_chain clen : forall cs lo, chain clen lo cs -> 0 <= lo ->
  Forall (within clen) cs /\ is_complex_from lo cs = false.
Proof.
  induction cs as [|[o l] r IH]; intros lo Hch Hlo; [split; [constructor|reflexivity]|].
  cbn [chain fst snd] in Hch. destruct Hch as (H1 & H2 & H3 & H4).
  destruct (IH _ H4 ltac:(lia)) as (Hw & Hc). split.
  - constructor; [unfold within; cbn [fst snd]; lia|exact Hw].
  - cbn [is_complex_from]. destruct (o <? lo) eqn:E; [lia|exact Hc].
Qed.

Lemma chain_sum_le clen : forall l lo, chain clen lo l -> lo + sum_len l <= clen \/ l = [].
Proof.
  induction l as [|[o n] r IH]; intros lo H; [now right|left].
  cbn [chain fst snd] in H. destruct H as (H1 & H2 & H3 & H4). cbn [sum_len snd].
  destruct (IH _ H4) as [Hs| ->]; [lia|cbn [sum_len]; lia].
Qed.

Lemma plain_loop_exact obj : forall chunks out acc, 0 <= out <= zlen obj -> zlen obj - out <= n_chunks chunks ->
  plain_loop (zlen obj) obj chunks out acc = RDone (acc ++ rr_slice obj out (zlen obj - out)) false.
Proof.
  induction chunks as [|k ks IH]; intros out acc Ho Hn.
  - cbn [plain_loop n_chunks] in *. destruct (zlen obj <=? out) eqn:E; [|lia].
    replace (zlen obj - out) with 0 by lia. rewrite slice_zero, app_nil_r. reflexivity.
  - cbn [plain_loop]. destruct (zlen obj <=? out) eqn:E.
    + replace (zlen obj - out) with 0 by lia. rewrite slice_zero, app_nil_r. reflexivity.
    + cbn [n_chunks] in Hn.
      pose proof (clip_chunk_bounds k (zlen obj - out) ltac:(lia)) as Hk.
      set (kk := clip_chunk k (zlen obj - out)) in *.
      rewrite zlen_slice by lia. rewrite IH by lia. rewrite <- app_assoc. f_equal. f_equal.
      replace (zlen obj - out) with (kk + (zlen obj - (out + kk))) by lia. rewrite slice_split by lia. reflexivity.
Qed.

Theorem run_plain_shape obj data0 chunks : zlen data0 <= zlen obj -> zlen obj <= n_chunks chunks ->
  run_plain obj data0 chunks = RDone (data0 ++ rr_slice obj (zlen data0) (zlen obj - zlen data0)) false.
Proof. intros H Hn. unfold run_plain. pose proof (zlen_nonneg data0). apply plain_loop_exact; lia. Qed.

Lemma run_plain_prefix obj b chunks : 0 <= b <= zlen obj -> zlen obj <= n_chunks chunks ->
  run_plain obj (rr_slice obj 0 b) chunks = RDone obj false.
Proof.
  intros Hb Hn. rewrite run_plain_shape by (try rewrite zlen_slice; lia). rewrite zlen_slice by lia.
  f_equal. replace b with (0 + b) at 2 by lia. rewrite <- slice_split by lia.
  replace (b + (zlen obj - b)) with (zlen obj) by lia. apply slice_whole.
Qed.

Lemma first_read_size_bounds k0 clen : 0 <= clen -> 0 <= first_read_size k0 clen <= clen.
Proof. intros H. unfold first_read_size. lia. Qed.

(* a reply sent without range processing is the whole representation *)
Theorem plain_output_full i :
  zlen (i_obj i) <= n_chunks (i_chunks i) ->
  plain_output i = mkOut 200 (zlen (i_obj i)) None (i_ctype i) (RDone (i_obj i) false).
Proof.
  intros Hn. unfold plain_output, first_buffer. f_equal.
  pose proof (first_read_size_bounds (i_k0 i) (zlen (i_obj i)) (zlen_nonneg _)) as Hb.
  apply run_plain_prefix; lia.
Qed.

(* the first buffer squid hands over satisfies what run_partial_exact asks of it *)
Lemma first_buffer_ok obj co k0 : first_ok obj co (first_buffer obj (first_read_size k0 (zlen obj))).
Proof.
  pose proof (first_read_size_bounds k0 (zlen obj) (zlen_nonneg _)) as Hb.
  set (bs := first_read_size k0 (zlen obj)) in *. unfold first_ok, first_buffer.
  destruct (Z.eq_dec bs 0) as [Hz|Hnz].
  - left. rewrite Hz, slice_zero. reflexivity.
  - right. right. exists bs. split; [lia|reflexivity].
Qed.

(* buildRangeHeader: when is it a 206 *)
Theorem build_range_header_partial b raw cs :
  build_range_header b raw = VPartial cs <->
  ( b_have_rep b = true /\ b_status b = 200 /\ b_has_content_range b = false /\
    0 <= b_content_length b /\ b_content_length b = b_base_content_length b /\
    (b_is_hit b = true -> b_if_range b <> Some false) /\
    fst (range_canonize (b_content_length b) raw) = (true, cs) /\
    is_complex cs = false /\
    (b_is_hit b = false -> offset_limit_exceeded cs (b_limit b) = false) ).
Proof.
  unfold build_range_header.
  destruct (b_have_rep b) eqn:E1; cbn [negb]; [|split; [discriminate|intros (H & _); discriminate]].
  destruct (b_status b =? 200) eqn:E2; cbn [negb andb].
  2: { destruct (b_status b =? 206) eqn:E3; cbn [negb]; (split; [discriminate|intros (_ & H & _); lia]). }
  destruct (b_status b =? 206) eqn:E3; [lia|].
  destruct (b_has_content_range b) eqn:E4; [split; [discriminate|intros (_ & _ & H & _); discriminate]|].
  destruct (b_content_length b <? 0) eqn:E5; [split; [discriminate|intros (_ & _ & _ & H & _); lia]|].
  destruct (b_content_length b =? b_base_content_length b) eqn:E6; cbn [negb];
    [|split; [discriminate|intros (_ & _ & _ & _ & H & _); lia]].
  destruct (b_is_hit b && match b_if_range b with Some m => negb m | None => false end) eqn:E7.
  { split; [discriminate|]. intros (_ & _ & _ & _ & _ & H & _). apply andb_prop in E7 as [Eh Ei].
    destruct (b_if_range b) as [[|]|]; try discriminate. exfalso. now apply (H Eh). }
  destruct (range_canonize (b_content_length b) raw) as [[ok cs'] ub] eqn:Ec. cbn [fst].
  destruct ok; cbn [negb]; [|split; [discriminate|intros (_ & _ & _ & _ & _ & _ & H & _); discriminate]].
  destruct (is_complex cs') eqn:E8.
  { split; [discriminate|]. intros (_ & _ & _ & _ & _ & _ & H7 & H8 & _). inversion H7; subst. congruence. }
  destruct (negb (b_is_hit b) && offset_limit_exceeded cs' (b_limit b)) eqn:E9.
  { split; [discriminate|]. intros (_ & _ & _ & _ & _ & _ & H7 & _ & H9). inversion H7; subst.
    apply andb_prop in E9 as [A B]. destruct (b_is_hit b); [discriminate|]. rewrite (H9 eq_refl) in B. discriminate. }
  split.
  - intros [= <-]. apply Z.eqb_eq in E2, E6. apply Z.ltb_ge in E5. repeat split; trivial.
    + intros Hh Hi. rewrite Hh, Hi in E7. discriminate.
    + intros Hh. now rewrite Hh in E9.
  - intros (_ & _ & _ & _ & _ & _ & H7 & _). inversion H7; subst. reflexivity.
Qed.

Lemma fst_run_partial e obj cs data0 chunks : fst (run_partial e obj cs data0 chunks) = snd (prep_partial e cs).
Proof.
  unfold run_partial. destruct (prep_partial e cs) as [s0 acl].
  destruct (if zlen data0 =? 0 then (s0, []) else send_buffer e s0 0 data0) as [s1 out0].
  destruct (socket_state e s1) as [s2 fin]. reflexivity.
Qed.

Definition reply_env (i : rinput) (cs : list rspec2) : renv :=
  mkEnv (1 <? Z.of_nat (length cs)) (zlen (i_obj i)) (i_ctype i) (boundary_str (i_key i)).

Theorem reply_run_spec i value specs :
  i_range i = Some value -> header_specs value = Some specs ->
  zlen (i_obj i) <= int64_max -> zlen (i_obj i) <= n_chunks (i_chunks i) ->
  (exists cs, canon_of (zlen (i_obj i)) specs cs /\ cs <> [] /\ chain (zlen (i_obj i)) 0 cs /\
      reply_run i = mkOut 206 (zlen (expected_body (reply_env i cs) (i_obj i) cs))
                          (match cs with [c] => Some (cont_range_value c (zlen (i_obj i))) | _ => None end)
                          (match cs with [c] => i_ctype i | _ => Some (multipart_ctype (boundary_str (i_key i))) end)
                          (RDone (expected_body (reply_env i cs) (i_obj i) cs) false))
  \/ reply_run i = plain_output i.
Proof.
  intros Hrange Hspecs Hmax Hn. set (clen := zlen (i_obj i)) in *.
  assert (Hclen : -1 <= clen <= int64_max) by (pose proof (zlen_nonneg (i_obj i)); unfold clen; lia).
  unfold reply_run. rewrite Hrange. rewrite range_parse_spec, Hspecs. cbn [fst]. set (raw := map repr specs).
  destruct (negb (i_hit i) && negb (negb (offset_limit_exceeded raw (i_limit i))) && (1 <? Z.of_nat (length raw))).
  { right. reflexivity. }
  match goal with |- context [build_range_header ?b raw] => set (bb := b) end.
  destruct (build_range_header bb raw) as [cs|why ub] eqn:Eb.
  2: { right. reflexivity. }
  left. apply build_range_header_partial in Eb.
  destruct Eb as (_ & _ & _ & _ & _ & _ & Hcanon & Hcomplex & _). cbn [b_content_length bb] in Hcanon.
  destruct (header_specs_valid value specs Hspecs) as (Hvalid & _).
  destruct (canon_specs_spec clen specs Hvalid Hclen) as (cs0 & Hcs0 & Hcanon_of).
  fold clen raw in Hcanon. unfold range_canonize in Hcanon. fold raw in Hcs0. rewrite Hcs0 in Hcanon. cbn [fst] in Hcanon.
  assert (cs0 = cs) by (inversion Hcanon; reflexivity). subst cs0.
  assert (Hne : cs <> []) by (destruct cs; [inversion Hcanon|discriminate]).
  assert (Hchain : chain clen 0 cs).
  { apply chain_of_canon; [|exact Hcomplex]. exact (canon_of_within clen specs cs Hcanon_of). }
  exists cs. split; [exact Hcanon_of|]. split; [exact Hne|]. split; [exact Hchain|].
  destruct cs as [|[co cl] r]; [contradiction|].
  fold (reply_env i ((co, cl) :: r)). set (e := reply_env i ((co, cl) :: r)).
  assert (Hmp : e_multipart e = match r with [] => false | _ => true end).
  { unfold e, reply_env. cbn [e_multipart length]. destruct r as [|c2 r2]; [reflexivity|].
    cbn [length]. rewrite !Nat2Z.inj_succ. pose proof (Nat2Z.is_nonneg (length r2)). lia. }
  assert (Hsingle : single_ok e r).
  { intros Hm. rewrite Hmp in Hm. destruct r; [reflexivity|discriminate]. }
  assert (Hco : 0 <= co) by (cbn [chain fst] in Hchain; lia).
  set (data0 := first_buffer (i_obj i) (first_read_size (i_k0 i) clen)).
  assert (Hfirst : first_ok (i_obj i) co data0).
  { unfold data0, clen. apply first_buffer_ok. }
  assert (Hsum : cl + sum_len r <= n_chunks (i_chunks i)).
  { destruct (chain_sum_le clen _ 0 Hchain) as [Hs|Hs]; [cbn [sum_len snd] in Hs; lia|discriminate]. }
  pose proof (run_partial_exact e (i_obj i) co cl r data0 (i_chunks i) eq_refl Hsingle Hchain Hfirst Hsum) as Hbody.
  pose proof (fst_run_partial e (i_obj i) ((co, cl) :: r) data0 (i_chunks i)) as Hacl.
  rewrite (declared_length e (i_obj i) co cl r Hmp Hco Hchain) in Hacl.
  assert (Hrun : run_partial e (i_obj i) ((co, cl) :: r) data0 (i_chunks i)
                 = (zlen (expected_body e (i_obj i) ((co, cl) :: r)), RDone (expected_body e (i_obj i) ((co, cl) :: r)) false)).
  { rewrite (surjective_pairing (run_partial e (i_obj i) ((co, cl) :: r) data0 (i_chunks i))). rewrite Hacl, Hbody. reflexivity. }
  change (mkEnv (1 <? Z.of_nat (length ((co, cl) :: r))) (zlen (i_obj i)) (i_ctype i) (boundary_str (i_key i))) with e.
  change (first_buffer (i_obj i) (first_read_size (i_k0 i) (zlen (i_obj i)))) with data0.
  unfold rspec2 in *. rewrite Hrun.
  change (1 <? Z.of_nat (length ((co, cl) :: r))) with (e_multipart e). rewrite Hmp.
  destruct r; reflexivity.
Qed.

Lemma reply_status i : o_status (reply_run i) = 200 \/ o_status (reply_run i) = 206.
Proof.
  unfold reply_run. destruct (i_range i) as [value|]; [|left; reflexivity].
  destruct (fst (range_parse value)) as [raw|]; [|left; reflexivity].
  destruct (negb (i_hit i) && negb (negb (offset_limit_exceeded raw (i_limit i))) && (1 <? Z.of_nat (length raw)));
    [left; reflexivity|].
  match goal with |- context [build_range_header ?b raw] => destruct (build_range_header b raw) end; [right|left; reflexivity].
  match goal with |- context [run_partial ?a ?b ?c ?d ?e] => destruct (run_partial a b c d e) end. reflexivity.
Qed.

Lemma reply_no_range i : i_range i = None -> reply_run i = plain_output i.
Proof. intros H. unfold reply_run. rewrite H. reflexivity. Qed.

Lemma reply_invalid_range i value : i_range i = Some value -> header_specs value = None -> reply_run i = plain_output i.
Proof. intros H Hs. unfold reply_run. rewrite H, range_parse_spec, Hs. reflexivity. Qed.

(* no Range, or a Range that has to be ignored: the whole representation, always *)
Theorem reply_without_usable_range i :
  (i_range i = None \/ exists value, i_range i = Some value /\ header_specs value = None) ->
  zlen (i_obj i) <= n_chunks (i_chunks i) ->
  reply_run i = mkOut 200 (zlen (i_obj i)) None (i_ctype i) (RDone (i_obj i) false).
Proof.
  intros [H|(value & H & Hs)] Hn; [rewrite (reply_no_range i H)|rewrite (reply_invalid_range i value H Hs)];
    apply plain_output_full; assumption.
Qed.

(* "otherwise the complete representation with 200": every 200 answer to a valid Range header *)
Theorem reply_200_full i value specs :
  i_range i = Some value -> header_specs value = Some specs ->
  zlen (i_obj i) <= int64_max -> zlen (i_obj i) <= n_chunks (i_chunks i) ->
  o_status (reply_run i) = 200 ->
  reply_run i = mkOut 200 (zlen (i_obj i)) None (i_ctype i) (RDone (i_obj i) false).
Proof.
  intros Hr Hs Hmax Hn Hst.
  destruct (reply_run_spec i value specs Hr Hs Hmax Hn) as [(cs & _ & _ & _ & Heq)|Heq].
  - rewrite Heq in Hst. discriminate.
  - rewrite Heq. apply plain_output_full. exact Hn.
Qed.

(* ... and every 200 answer at all *)
Theorem every_200_is_full i :
  zlen (i_obj i) <= int64_max -> zlen (i_obj i) <= n_chunks (i_chunks i) ->
  o_status (reply_run i) = 200 ->
  reply_run i = mkOut 200 (zlen (i_obj i)) None (i_ctype i) (RDone (i_obj i) false).
Proof.
  intros Hmax Hn Hst. destruct (i_range i) as [value|] eqn:Hr.
  - destruct (header_specs value) as [specs|] eqn:Hs.
    + exact (reply_200_full i value specs Hr Hs Hmax Hn Hst).
    + apply reply_without_usable_range; [right; exists value; split; assumption|exact Hn].
  - apply reply_without_usable_range; [now left|exact Hn].
Qed.

(* 416 is never sent; when no requested range is satisfiable the answer is 200 *)
Theorem reply_unsatisfiable_is_200 i value specs :
  i_range i = Some value -> header_specs value = Some specs ->
  zlen (i_obj i) <= int64_max -> zlen (i_obj i) <= n_chunks (i_chunks i) ->
  (forall s p, In s specs -> ~ wants (zlen (i_obj i)) s p) ->
  o_status (reply_run i) = 200.
Proof.
  intros Hr Hs Hmax Hn Hnone.
  destruct (reply_run_spec i value specs Hr Hs Hmax Hn) as [(cs & Hco & Hne & Hch & Heq)|Heq].
  - exfalso. destruct cs as [|c r]; [contradiction|].
    cbn [chain] in Hch. destruct Hch as (H1 & H2 & H3 & _).
    destruct (proj1 (canon_of_union _ _ _ Hco (fst c))) as (s & Hin & Hw).
    { exists c. split; [now left|unfold in_canon; lia]. }
    exact (Hnone s (fst c) Hin Hw).
  - rewrite Heq. reflexivity.
Qed.

(* a disk hit whose Range is ignored late *)
(* a 10-byte representation 0..9 read from disk (the first read returns all of it), Range: bytes=5-6,2-3:
   before /repo 414e85a the 200 body was 2..9 8 9 *)
Definition late_ignore_input : rinput :=
  mkIn (Some [98;121;116;101;115;61;53;45;54;44;50;45;51]%N) [0;1;2;3;4;5;6;7;8;9]%N None [75]%N true 0 None None 4096
       [4096;4096;4096;4096;4096;4096;4096;4096;4096;4096]%N.

Lemma late_ignore_input_facts :
  header_specs [98;121;116;101;115;61;53;45;54;44;50;45;51]%N = Some [RRange 5 6; RRange 2 3] /\
  zlen (i_obj late_ignore_input) <= n_chunks (i_chunks late_ignore_input) /\
  reply_run late_ignore_input = mkOut 200 10 None None (RDone [0;1;2;3;4;5;6;7;8;9]%N false).
Proof. vm_compute. repeat split; intros H; discriminate H. Qed.

(* the Content-Range text announces the slice it accompanies *)
Lemma dec_value_snoc ds d : dec_value (ds ++ [d]) = dec_value ds * 10 + (Z.of_N d - 48).
Proof. unfold dec_value. rewrite fold_left_app. reflexivity. Qed.

Lemma dec_digits_rr_S k n :
  dec_digits_rr (S k) n = if (n <? 10)%N then [48 + n]%N else dec_digits_rr k (n / 10)%N ++ [48 + n mod 10]%N.
Proof. reflexivity. Qed.

Lemma dec_digits_rr_spec : forall fuel n, (n < 10 ^ N.of_nat (S fuel))%N ->
  dec_value (dec_digits_rr (S fuel) n) = Z.of_N n /\ forallb is_digit (dec_digits_rr (S fuel) n) = true /\
  dec_digits_rr (S fuel) n <> [].
Proof.
  induction fuel as [|k IH]; intros n Hn; rewrite dec_digits_rr_S; destruct (n <? 10)%N eqn:E.
  - repeat split; [unfold dec_value; cbn [fold_left]; lia|cbn [forallb]; unfold is_digit; lia|discriminate].
  - change (10 ^ N.of_nat 1)%N with 10%N in Hn. lia.
  - repeat split; [unfold dec_value; cbn [fold_left]; lia|cbn [forallb]; unfold is_digit; lia|discriminate].
  - assert (Hk : (n / 10 < 10 ^ N.of_nat (S k))%N).
    { rewrite (Nat2N.inj_succ (S k)), N.pow_succ_r' in Hn. apply N.div_lt_upper_bound; lia. }
    destruct (IH _ Hk) as (Hv & Hd & Hne). repeat split.
    + rewrite dec_value_snoc, Hv. pose proof (N.div_mod n 10). lia.
    + rewrite forallb_app, Hd. cbn [forallb]. unfold is_digit. pose proof (N.mod_lt n 10). lia.
    + intros H. apply app_eq_nil in H as [_ H]. discriminate.
Qed.

Lemma dec_print_pos v : 0 <= v <= int64_max -> pos_value (dec_print v) = Some v.
Proof.
  intros Hv. unfold dec_print. destruct (v <? 0) eqn:E; [lia|].
  assert (Hn : (Z.to_N v < 10 ^ N.of_nat 20)%N).
  { unfold int64_max, two63 in Hv. change (10 ^ N.of_nat 20)%N with 100000000000000000000%N. lia. }
  destruct (dec_digits_rr_spec 19 _ Hn) as (Hval & Hd & Hne).
  unfold pos_value. destruct (dec_digits_rr 20 (Z.to_N v)) as [|c r] eqn:Ed; [contradiction|].
  rewrite Hd, Hval. rewrite Z2N.id by lia. destruct (v <=? int64_max) eqn:E2; [reflexivity|lia].
Qed.

Definition bytes_sp : bytes := [98; 121; 116; 101; 115; 32]%N.

Theorem cont_range_value_announces c clen : 0 <= fst c -> 0 < snd c -> fst c + snd c <= clen -> clen <= int64_max ->
  exists a b l, cont_range_value c clen = bytes_sp ++ a ++ [45]%N ++ b ++ [47]%N ++ l /\
    pos_value a = Some (fst c) /\ pos_value b = Some (fst c + snd c - 1) /\ pos_value l = Some clen.
Proof.
  intros H1 H2 H3 H4. unfold cont_range_value.
  destruct (fst c =? -1) eqn:E1; [lia|]. destruct (snd c =? -1) eqn:E2; [lia|]. destruct (clen =? -1) eqn:E3; [lia|].
  cbn [orb]. exists (dec_print (fst c)), (dec_print (fst c + snd c - 1)), (dec_print clen).
  split; [unfold bytes_sp; now rewrite <- !app_assoc|].
  repeat split; apply dec_print_pos; lia.
Qed.
