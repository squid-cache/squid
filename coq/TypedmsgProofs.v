(* TypedmsgProofs.v — proofs about TypedmsgModel.v (C58). *)
Require Import SquidV.Bytes SquidV.TypedmsgModel.
Require Import SquidV.gen.Typedmsg_gen.
From Coq Require Import ZifyBool ZifyN ZifyNat.
Local Open Scope N_scope.

Lemma takeN_all {A} (l : list A) n : lenN l <= n -> takeN n l = l.
Proof. apply Bytes.takeN_all. Qed.

Definition wf (m : tmsg) : Prop := lenN (t_raw m) = tm_raw_size.
Definition readable (m : tmsg) (n : N) : Prop :=
  t_size m <= tm_raw_size /\ t_off m <= t_size m /\ n <= t_size m - t_off m.
Definition writable (m : tmsg) (n : N) : Prop :=
  t_size m <= tm_raw_size /\ n <= tm_raw_size - t_size m.
Definition advance (m : tmsg) (n : N) : tmsg := mkTm (t_iov m) (t_type m) (t_size m) (t_raw m) (t_off m + n).
Definition segment (m : tmsg) (n : N) : list N := takeN n (dropN (t_off m) (t_raw m)).
Definition payload (m : tmsg) : list N := takeN (t_size m) (t_raw m).

Lemma fresh_wf : wf tm_fresh.
Proof. unfold wf, tm_fresh, zero_raw; cbn [t_raw]. rewrite lenN_repeat. lia. Qed.

Lemma raw_size_small : tm_raw_size <= tm_offset_max /\ tm_raw_size <= tm_size_t_max.
Proof. unfold tm_raw_size, tm_offset_max, tm_size_t_max. lia. Qed.

Lemma get_raw_zero m : tm_get_raw m 0 = (TOk [], m).
Proof. reflexivity. Qed.

Lemma advance_0 m : advance m 0 = m.
Proof. unfold advance. rewrite N.add_0_r. destruct m; reflexivity. Qed.

Lemma get_raw_ok m n : wf m -> readable m n -> tm_get_raw m n = (TOk (segment m n), advance m n).
Proof.
  intros Hwf (H1 & H2 & H3).
  destruct (N.eq_dec n 0) as [->|Hn]; [unfold segment; rewrite takeN_0, advance_0; reflexivity|].
  unfold tm_get_raw, mem_read, segment, advance, wrap_off.
  pose proof raw_size_small as (Ho & _). unfold wf in Hwf.
  replace (n =? 0) with false by lia.
  replace (t_size m <=? tm_raw_size) with true by lia.
  replace (t_off m <=? t_size m) with true by lia.
  replace (n <=? t_size m - t_off m) with true by lia. cbn [negb].
  replace (t_off m + n <=? lenN (t_raw m)) with true by lia.
  rewrite N.mod_small by lia. reflexivity.
Qed.

Lemma get_raw_throw m n : n <> 0 -> ~ readable m n -> tm_get_raw m n = (TThrow, m).
Proof.
  intros Hn Hr. unfold tm_get_raw, readable in *.
  replace (n =? 0) with false by lia.
  destruct (t_size m <=? tm_raw_size) eqn:E1, (t_off m <=? t_size m) eqn:E2, (n <=? t_size m - t_off m) eqn:E3;
    try reflexivity.
  exfalso. apply Hr. lia.
Qed.

Lemma readable_dec m n : {readable m n} + {~ readable m n}.
Proof.
  unfold readable.
  destruct (t_size m <=? tm_raw_size) eqn:E1; [|right; lia].
  destruct (t_off m <=? t_size m) eqn:E2; [|right; lia].
  destruct (n <=? t_size m - t_off m) eqn:E3; [left; lia | right; lia].
Qed.

Lemma segment_len m n : wf m -> readable m n -> lenN (segment m n) = n.
Proof.
  intros Hwf (H1 & H2 & H3). unfold segment, wf in *. rewrite lenN_takeN, lenN_dropN. lia.
Qed.

Lemma get_raw_safe m n : wf m -> fst (tm_get_raw m n) <> TUndef /\ wf (snd (tm_get_raw m n)).
Proof.
  intros Hwf. destruct (N.eq_dec n 0) as [->|Hn]; [split; [discriminate | assumption]|].
  destruct (readable_dec m n) as [Hr|Hr]; [rewrite get_raw_ok by assumption | rewrite get_raw_throw by assumption];
    split; (discriminate || assumption).
Qed.

Definition appended (m : tmsg) (b : list N) : tmsg :=
  mkTm (t_iov m) (t_type m) (t_size m + lenN b)
       (takeN (t_size m) (t_raw m) ++ b ++ dropN (t_size m + lenN b) (t_raw m)) (t_off m).

Lemma put_raw_empty m b : lenN b = 0 -> tm_put_raw m b = (TOk tt, m).
Proof. intros H. unfold tm_put_raw. rewrite H. reflexivity. Qed.

Lemma put_raw_ok m b : wf m -> writable m (lenN b) -> tm_put_raw m b = (TOk tt, appended m b).
Proof.
  intros Hwf (H1 & H2). destruct (N.eq_dec (lenN b) 0) as [H0|Hn].
  { rewrite put_raw_empty by exact H0. apply lenN_nil_iff in H0. subst b. unfold appended. cbn [lenN app].
    rewrite N.add_0_r, takeN_dropN. destruct m; reflexivity. }
  unfold tm_put_raw, mem_write, appended, wrap_size.
  pose proof raw_size_small as (_ & Hs). unfold wf in Hwf.
  replace (lenN b =? 0) with false by lia.
  replace (t_size m <=? tm_raw_size) with true by lia.
  replace (lenN b <=? tm_raw_size - t_size m) with true by lia. cbn [negb].
  replace (t_size m + lenN b <=? lenN (t_raw m)) with true by lia.
  rewrite N.mod_small by lia. reflexivity.
Qed.

Lemma put_raw_throw m b : lenN b <> 0 -> ~ writable m (lenN b) -> tm_put_raw m b = (TThrow, m).
Proof.
  intros Hn Hw. unfold tm_put_raw, writable in *.
  replace (lenN b =? 0) with false by lia.
  destruct (t_size m <=? tm_raw_size) eqn:E1, (lenN b <=? tm_raw_size - t_size m) eqn:E2; try reflexivity.
  exfalso. apply Hw. lia.
Qed.

Lemma writable_dec m n : {writable m n} + {~ writable m n}.
Proof.
  unfold writable.
  destruct (t_size m <=? tm_raw_size) eqn:E1; [|right; lia].
  destruct (n <=? tm_raw_size - t_size m) eqn:E2; [left; lia | right; lia].
Qed.

Lemma appended_wf m b : wf m -> writable m (lenN b) -> wf (appended m b).
Proof.
  intros Hwf (H1 & H2). unfold wf, appended in *; cbn [t_raw].
  rewrite !lenN_app, lenN_takeN, lenN_dropN. lia.
Qed.

Lemma appended_payload m b : wf m -> writable m (lenN b) -> payload (appended m b) = payload m ++ b.
Proof.
  intros Hwf (H1 & H2). unfold payload, appended, wf in *; cbn [t_raw t_size].
  assert (Hl : lenN (takeN (t_size m) (t_raw m)) = t_size m) by (rewrite lenN_takeN; lia).
  rewrite takeN_app_ge, Hl by lia. replace (t_size m + lenN b - t_size m) with (lenN b) by lia.
  rewrite takeN_app_exact. reflexivity.
Qed.

Lemma put_raw_safe m b : wf m -> fst (tm_put_raw m b) <> TUndef /\ wf (snd (tm_put_raw m b)).
Proof.
  intros Hwf. destruct (N.eq_dec (lenN b) 0) as [H0|Hn]; [rewrite put_raw_empty by assumption; split; [discriminate | assumption]|].
  destruct (writable_dec m (lenN b)) as [Hw|Hw]; [rewrite put_raw_ok by assumption | rewrite put_raw_throw by assumption];
    (split; [discriminate|]); [apply appended_wf|]; assumption.
Qed.

Lemma int_bytes_len z : lenN (int_bytes z) = 4.
Proof. reflexivity. Qed.

Lemma le32_digits u : u < 4294967296 ->
  u mod 256 + 256 * ((u / 256) mod 256) + 65536 * ((u / 65536) mod 256) + 16777216 * ((u / 16777216) mod 256) = u.
Proof.
  intros Hu. change 65536 with (256 * 256). change 16777216 with (256 * 256 * 256).
  rewrite <- !N.div_div by discriminate.
  rewrite (N.mod_small (u / 256 / 256 / 256)) by (rewrite !N.div_div by discriminate; apply N.div_lt_upper_bound; [discriminate | exact Hu]).
  pose proof (N.div_mod u 256). pose proof (N.div_mod (u / 256) 256). pose proof (N.div_mod (u / 256 / 256) 256). lia.
Qed.

(* z mod 2^32 is z for z >= 0 and z + 2^32 below, so the sign test on bit 31 undoes it *)
Lemma int_roundtrip z : (tm_int_min <= z <= tm_int_max)%Z -> bytes_int (int_bytes z) = z.
Proof.
  unfold tm_int_min, tm_int_max, int_bytes, bytes_int. intros H.
  assert (Hu : Z.of_N (Z.to_N (z mod 4294967296)) = if (z <? 0)%Z then (z + 4294967296)%Z else z).
  { rewrite Z2N.id by (apply Z.mod_pos_bound; reflexivity).
    destruct (z <? 0)%Z eqn:E; [rewrite <- (Z.mod_add z 1) by discriminate|]; apply Z.mod_small; lia. }
  set (u := Z.to_N (z mod 4294967296)) in *.
  rewrite !N.mod_mod, le32_digits by (discriminate || destruct (z <? 0)%Z; lia).
  destruct (z <? 0)%Z, (u <? 2147483648) eqn:E; lia.
Qed.

Lemma get_int_ok m : wf m -> readable m 4 -> tm_get_int m = (TOk (bytes_int (segment m 4)), advance m 4).
Proof. intros Hwf Hr. unfold tm_get_int. change tm_int_size with 4. rewrite get_raw_ok by assumption. reflexivity. Qed.

Lemma get_int_throw m : ~ readable m 4 -> tm_get_int m = (TThrow, m).
Proof. intros Hr. unfold tm_get_int. change tm_int_size with 4. rewrite get_raw_throw by (assumption || lia). reflexivity. Qed.

Lemma advance_wf m n : wf m -> wf (advance m n).
Proof. exact (fun H => H). Qed.

Lemma payload_advance m n : payload (advance m n) = payload m.
Proof. reflexivity. Qed.

(* getString, stated with the availability predicate instead of the Must() chain *)
Lemma get_string_spec m : wf m ->
  tm_get_string m =
  match readable_dec m 4 with
  | right _ => (TThrow, m)                                   (* no room for the length *)
  | left _ =>
    let len := bytes_int (segment m 4) in
    let m1 := advance m 4 in
    if (len <? 0)%Z then (TThrow, m1)                          (* negative length *)
    else if (len =? 0)%Z then (TOk [], m1)
    else if (Z.of_N tm_max_size <? len)%Z then (TThrow, m1)    (* longer than any message *)
    else match readable_dec m1 (Z.to_N len) with
         | left _ => (TOk (segment m1 (Z.to_N len)), advance m1 (Z.to_N len))
         | right _ => (TThrow, m1)                             (* truncated *)
         end
  end.
Proof.
  intros Hwf. unfold tm_get_string.
  destruct (readable_dec m 4) as [Hr|Hr]; [rewrite get_int_ok by assumption | rewrite get_int_throw by assumption; reflexivity].
  cbv zeta. destruct (bytes_int (segment m 4) <? 0)%Z eqn:E1; [reflexivity|].
  destruct (bytes_int (segment m 4) =? 0)%Z eqn:E2; [reflexivity|].
  replace (Z.of_N tm_max_size <? bytes_int (segment m 4))%Z with (negb (bytes_int (segment m 4) <=? Z.of_N tm_max_size)%Z) by lia.
  destruct (negb (bytes_int (segment m 4) <=? Z.of_N tm_max_size)%Z) eqn:E3; [reflexivity|].
  destruct (readable_dec (advance m 4) (Z.to_N (bytes_int (segment m 4)))) as [Hr2|Hr2].
  - apply get_raw_ok; [apply advance_wf|]; assumption.
  - apply get_raw_throw; [lia | assumption].
Qed.

Lemma get_int_safe m : wf m -> fst (tm_get_int m) <> TUndef /\ wf (snd (tm_get_int m)).
Proof.
  intros Hwf. unfold tm_get_int. pose proof (get_raw_safe m tm_int_size Hwf) as [Hd Hw].
  destruct (tm_get_raw m tm_int_size) as [[b| |] m1]; cbn [fst snd] in *;
    [split; [discriminate | exact Hw] .. | contradiction].
Qed.

Lemma get_string_safe m : wf m -> fst (tm_get_string m) <> TUndef /\ wf (snd (tm_get_string m)).
Proof.
  intros Hwf. unfold tm_get_string. pose proof (get_int_safe m Hwf) as [Hd Hw].
  destruct (tm_get_int m) as [[len| |] m1]; cbn [fst snd] in *; [|split; [discriminate | assumption] | contradiction].
  destruct (len <? 0)%Z, (len =? 0)%Z, (negb (len <=? Z.of_N tm_max_size)%Z); try (split; [discriminate | assumption]).
  apply get_raw_safe, Hw.
Qed.

Lemma put_string_safe m s : wf m -> fst (tm_put_string m s) <> TUndef /\ wf (snd (tm_put_string m s)).
Proof.
  intros Hwf. unfold tm_put_string, tm_put_int.
  destruct (negb (lenN s <=? tm_max_size)); [split; [discriminate | assumption]|].
  pose proof (put_raw_safe m (int_bytes (Z.of_N (lenN s))) Hwf) as [Hd Hw].
  destruct (tm_put_raw m (int_bytes (Z.of_N (lenN s)))) as [[u| |] m1]; cbn [fst snd] in *;
    [apply put_raw_safe, Hw | split; [discriminate | assumption] | contradiction].
Qed.

Lemma check_type_spec m t :
  tm_check_type m t = (if (tm_raw_type m =? t)%Z then TOk tt else TThrow, m).
Proof. unfold tm_check_type. destruct (tm_raw_type m =? t)%Z; reflexivity. Qed.

Lemma out_safe {A} (out : tres A -> tout) (r : tres A * tmsg) :
  (forall a, out (TOk a) <> OUndef) -> out TThrow <> OUndef -> fst r <> TUndef /\ wf (snd r) ->
  snd (let '(x, m') := r in (m', out x)) <> OUndef /\ wf (fst (let '(x, m') := r in (m', out x))).
Proof. destruct r as [[a| |] m']; cbn [fst snd]; intros Hok Hthrow [Hdef Hwf]; [auto | auto | contradiction]. Qed.

Definition reset_ok (o : top) : Prop := forall ty sz raw, o = TReset ty sz raw -> lenN raw = tm_raw_size.

Lemma step_safe m o : wf m -> reset_ok o -> snd (tm_step m o) <> OUndef /\ wf (fst (tm_step m o)).
Proof.
  intros Hwf Hreset.
  destruct o; cbn [tm_step]; try (split; [discriminate | assumption]);
    try (apply out_safe; [intros a; discriminate | discriminate |]).
  - unfold tm_set_type. destruct (negb (t_type m =? 0)%Z); [destruct (t_type m =? t)%Z|destruct (t_iov m)];
      split; (discriminate || assumption).
  - apply put_raw_safe, Hwf.
  - apply put_raw_safe, Hwf.
  - apply put_string_safe, Hwf.
  - split; [discriminate|]. exact (Hreset _ _ _ eq_refl).
  - rewrite check_type_spec. split; [destruct (tm_raw_type m =? t)%Z; discriminate | exact Hwf].
  - apply get_int_safe, Hwf.
  - apply get_raw_safe, Hwf.
  - apply get_string_safe, Hwf.
Qed.

Lemma run_cons m o r : tm_run m (o :: r) =
  ((snd (tm_step m o), t_size (fst (tm_step m o)), t_off (fst (tm_step m o))) :: fst (tm_run (fst (tm_step m o)) r),
   snd (tm_run (fst (tm_step m o)) r)).
Proof. cbn [tm_run]. destruct (tm_step m o) as [m1 out]. cbn [fst snd]. destruct (tm_run m1 r); reflexivity. Qed.

(* every operation, every history: no access outside data.raw *)
Theorem run_safe ops : forall m, wf m -> Forall reset_ok ops ->
  Forall (fun x => fst (fst x) <> OUndef) (fst (tm_run m ops)) /\ wf (snd (tm_run m ops)).
Proof.
  induction ops as [|o r IH]; intros m Hwf Hops; [split; [constructor|assumption]|].
  inversion Hops as [|? ? Ho Hr]; subst.
  destruct (step_safe m o Hwf Ho) as (H1 & H2).
  rewrite run_cons. cbn [fst snd]. destruct (IH _ H2 Hr) as (H3 & H4).
  split; [constructor; [exact H1 | exact H3] | exact H4].
Qed.

(* the size check is what keeps getRaw inside the array: without the first two Must()s a received size
   larger than the array leads straight to an out-of-bounds read *)
Definition tm_get_raw_unchecked (m : tmsg) (n : N) : tres (list N) * tmsg :=
  if n =? 0 then (TOk [], m)
  else if negb (n <=? t_size m - t_off m) then (TThrow, m)
  else match mem_read (t_raw m) (t_off m) n with
       | Some b => (TOk b, mkTm (t_iov m) (t_type m) (t_size m) (t_raw m) (wrap_off (t_off m + n)))
       | None => (TUndef, m)
       end.

Inductive field := FInt (z : Z) | FBytes (b : list N) | FString (s : list N).

Definition enc (f : field) : list N :=
  match f with
  | FInt z => int_bytes z
  | FBytes b => b
  | FString s => int_bytes (Z.of_N (lenN s)) ++ s
  end.
Definition field_ok (f : field) : Prop :=
  match f with
  | FInt z => (tm_int_min <= z <= tm_int_max)%Z
  | FBytes _ => True
  | FString s => lenN s <= tm_max_size
  end.
Definition put_op (f : field) : top :=
  match f with FInt z => TPutInt z | FBytes b => TPutFixed b | FString s => TPutString s end.
Definition get_op (f : field) : top :=
  match f with FInt _ => TGetInt | FBytes b => TGetFixed (lenN b) | FString _ => TGetString end.
Definition val_out (f : field) : tout :=
  match f with FInt z => OInt z | FBytes b => OBytes b | FString s => OBytes s end.
Definition enc_all (fs : list field) : list N := concat (map enc fs).
Definition outs (r : list (tout * N * N)) : list tout := map (fun x => fst (fst x)) r.

(* m' is m with b appended to the payload *)
Definition extends (m : tmsg) (b : list N) (m' : tmsg) : Prop :=
  wf m' /\ payload m' = payload m ++ b /\ t_size m' = t_size m + lenN b /\ t_iov m' = t_iov m /\ t_type m' = t_type m.

Lemma extends_nil m : wf m -> extends m [] m.
Proof. intros Hwf. unfold extends. rewrite app_nil_r, N.add_0_r. auto. Qed.

Lemma extends_app m a m1 b m2 : extends m a m1 -> extends m1 b m2 -> extends m (a ++ b) m2.
Proof.
  intros (_ & Hp1 & Hs1 & Hi1 & Ht1) (Hwf & Hp2 & Hs2 & Hi2 & Ht2). unfold extends.
  rewrite Hp2, Hp1, Hs2, Hs1, Hi2, Hi1, Ht2, Ht1, lenN_app, <- app_assoc, N.add_assoc. auto.
Qed.

Lemma put_bytes_step m b : wf m -> t_size m + lenN b <= tm_raw_size ->
  exists m', tm_put_raw m b = (TOk tt, m') /\ extends m b m'.
Proof.
  intros Hwf Hfit. assert (Hw : writable m (lenN b)) by (unfold writable; lia).
  exists (appended m b). rewrite put_raw_ok by assumption.
  repeat split; auto using appended_wf, appended_payload.
Qed.

Lemma put_field_step m f : wf m -> field_ok f -> t_size m + lenN (enc f) <= tm_raw_size ->
  exists m', tm_step m (put_op f) = (m', OOk) /\ extends m (enc f) m'.
Proof.
  intros Hwf Hok Hfit. destruct f as [z|b|s]; cbn [put_op enc tm_step] in *.
  - unfold tm_put_int. destruct (put_bytes_step m (int_bytes z) Hwf Hfit) as (m' & -> & H). exists m'. auto.
  - destruct (put_bytes_step m b Hwf Hfit) as (m' & -> & H). exists m'. auto.
  - rewrite lenN_app in Hfit. unfold tm_put_string, tm_put_int. cbn [field_ok] in Hok.
    replace (lenN s <=? tm_max_size) with true by lia. cbn [negb].
    destruct (put_bytes_step m (int_bytes (Z.of_N (lenN s))) Hwf ltac:(lia)) as (m1 & -> & H1).
    destruct (put_bytes_step m1 s) as (m2 & -> & H2); [apply H1 | destruct H1 as (_ & _ & -> & _); lia |].
    exists m2. eauto using extends_app.
Qed.

Lemma put_fields fs : forall m, wf m -> Forall field_ok fs -> t_size m + lenN (enc_all fs) <= tm_raw_size ->
  outs (fst (tm_run m (map put_op fs))) = repeat OOk (length fs) /\
  extends m (enc_all fs) (snd (tm_run m (map put_op fs))).
Proof.
  induction fs as [|f fs IH]; intros m Hwf Hok Hfit; cbn [map enc_all concat] in *.
  - split; [reflexivity | apply extends_nil, Hwf].
  - inversion Hok as [|? ? Hf Hfs]; subst. fold (enc_all fs) in *. rewrite lenN_app in Hfit.
    destruct (put_field_step m f Hwf Hf ltac:(lia)) as (m1 & Hstep & H1).
    destruct (IH m1) as (Houts & H2); [apply H1 | assumption | destruct H1 as (_ & _ & -> & _); lia |].
    rewrite run_cons, Hstep. cbn [fst snd outs map length repeat]. unfold outs in Houts. rewrite Houts.
    eauto using extends_app.
Qed.

(* the cursor of m stands behind pre, and rest is still to be read *)
Definition at_cursor (m : tmsg) (pre rest : list N) : Prop :=
  wf m /\ t_size m <= tm_raw_size /\ payload m = pre ++ rest /\ t_off m = lenN pre.

Lemma at_cursor_advance m pre b rest :
  at_cursor m pre (b ++ rest) -> at_cursor (advance m (lenN b)) (pre ++ b) rest.
Proof.
  intros (Hwf & Hsz & Hp & Hoff). unfold at_cursor. rewrite payload_advance, Hp, lenN_app, <- app_assoc.
  cbn [advance t_off]. rewrite Hoff. auto.
Qed.

Lemma advance_add m a b : advance (advance m a) b = advance m (a + b).
Proof. unfold advance; cbn [t_iov t_type t_size t_raw t_off]. rewrite N.add_assoc. reflexivity. Qed.

Lemma get_bytes_step m pre b post :
  at_cursor m pre (b ++ post) -> tm_get_raw m (lenN b) = (TOk b, advance m (lenN b)).
Proof.
  intros (Hwf & Hsz & Hp & Hoff).
  assert (Hlen : lenN (payload m) = t_size m) by (unfold payload, wf in *; rewrite lenN_takeN; lia).
  rewrite Hp, !lenN_app in Hlen.
  assert (Hr : readable m (lenN b)) by (unfold readable; lia).
  rewrite get_raw_ok by assumption. f_equal. unfold segment.
  rewrite <- (takeN_dropN (t_size m) (t_raw m)). fold (payload m). rewrite Hp, Hoff, <- !app_assoc.
  rewrite dropN_app_exact, takeN_app_exact. reflexivity.
Qed.

Lemma get_field_step m pre f post : at_cursor m pre (enc f ++ post) -> field_ok f ->
  tm_step m (get_op f) = (advance m (lenN (enc f)), val_out f).
Proof.
  intros Hat Hok. destruct f as [z|b|s]; cbn [get_op enc tm_step val_out field_ok] in *.
  - unfold tm_get_int. change tm_int_size with (lenN (int_bytes z)).
    rewrite (get_bytes_step m pre _ post Hat). cbn [out_int]. rewrite int_roundtrip by assumption. reflexivity.
  - rewrite (get_bytes_step m pre b post Hat). reflexivity.
  - rewrite <- app_assoc in Hat. unfold tm_get_string, tm_get_int.
    change tm_int_size with (lenN (int_bytes (Z.of_N (lenN s)))).
    rewrite (get_bytes_step m pre _ (s ++ post) Hat).
    rewrite int_roundtrip by (unfold tm_int_min, tm_int_max, tm_max_size in *; lia).
    replace (Z.of_N (lenN s) <? 0)%Z with false by lia.
    destruct (Z.of_N (lenN s) =? 0)%Z eqn:E0.
    + assert (s = []) by (apply lenN_nil_iff; lia). subst s.
      cbn [out_bytes lenN app]. rewrite app_nil_r. reflexivity.
    + replace (Z.of_N (lenN s) <=? Z.of_N tm_max_size)%Z with true by lia. cbn [negb]. rewrite N2Z.id.
      rewrite (get_bytes_step _ _ s post (at_cursor_advance _ _ _ _ Hat)), advance_add, lenN_app. reflexivity.
Qed.

Lemma get_fields fs : forall m pre post, at_cursor m pre (enc_all fs ++ post) -> Forall field_ok fs ->
  outs (fst (tm_run m (map get_op fs))) = map val_out fs /\
  snd (tm_run m (map get_op fs)) = advance m (lenN (enc_all fs)).
Proof.
  induction fs as [|f fs IH]; intros m pre post Hat Hok; cbn [map enc_all concat] in *.
  - cbn. rewrite advance_0. split; reflexivity.
  - inversion Hok as [|? ? Hf Hfs]; subst. fold (enc_all fs) in *. rewrite <- app_assoc in Hat.
    rewrite run_cons, (get_field_step m pre f _ Hat Hf). cbn [fst snd outs map].
    destruct (IH _ _ post (at_cursor_advance _ _ _ _ Hat) Hfs) as (H1 & H2).
    unfold outs in H1. rewrite H1, H2, advance_add, lenN_app. split; reflexivity.
Qed.

Lemma run_app m a b : tm_run m (a ++ b) =
  (fst (tm_run m a) ++ fst (tm_run (snd (tm_run m a)) b), snd (tm_run (snd (tm_run m a)) b)).
Proof.
  revert m; induction a as [|o a IH]; intros m; cbn [app].
  - cbn. destruct (tm_run m b); reflexivity.
  - rewrite !run_cons, IH. cbn [fst snd app]. reflexivity.
Qed.

Lemma outs_run_app m a b :
  outs (fst (tm_run m (a ++ b))) = outs (fst (tm_run m a)) ++ outs (fst (tm_run (snd (tm_run m a)) b)).
Proof. rewrite run_app. apply map_app. Qed.

Lemma fresh_payload : payload tm_fresh = [].
Proof. unfold payload, tm_fresh; cbn [t_size t_raw]. apply takeN_0. Qed.

Lemma transfer_check m t transfer : transfer = TRecv \/ transfer = TCopy -> t_iov m = true -> t_type m = t ->
  tm_run m [transfer; TCheckType t] =
  ([(OOk, t_size m, 0); (OOk, t_size m, 0)], mkTm true t (t_size m) (t_raw m) 0).
Proof.
  intros Htr Hi Ht. destruct m as [iov ty sz raw off]. cbn [t_iov t_type t_size t_raw] in *. subst iov ty.
  destruct Htr as [-> | ->]; cbn; unfold tm_check_type, tm_raw_type; cbn [t_iov t_type]; rewrite Z.eqb_refl; reflexivity.
Qed.

(* the whole exchange: sender stores, the buffer travels (received byte for byte, or copied), receiver checks
   the type and loads *)
Theorem roundtrip (transfer : top) t fs :
  transfer = TRecv \/ transfer = TCopy -> t <> 0%Z -> Forall field_ok fs -> lenN (enc_all fs) <= tm_raw_size ->
  outs (fst (tm_run tm_fresh ([TSetType t] ++ map put_op fs ++ [transfer; TCheckType t] ++ map get_op fs ++ [THasMore])))
  = [OOk] ++ repeat OOk (length fs) ++ [OOk; OOk] ++ map val_out fs ++ [OBool false].
Proof.
  intros Htr _ Hok Hfit. rewrite outs_run_app. f_equal.
  set (m0 := snd (tm_run tm_fresh [TSetType t])).
  assert (Hm0 : m0 = mkTm true t 0 zero_raw 0) by reflexivity.
  destruct (put_fields fs m0) as (Houts & Hwf1 & Hp1 & Hs1 & Hi1 & Ht1);
    [rewrite Hm0; apply fresh_wf | assumption | rewrite Hm0; exact Hfit |].
  rewrite outs_run_app, Houts. f_equal.
  set (m1 := snd (tm_run m0 (map put_op fs))) in *.
  rewrite Hm0 in Hp1, Hs1, Hi1, Ht1. change (payload _) with (payload tm_fresh) in Hp1 at 2.
  rewrite fresh_payload in Hp1. cbn [app t_size t_iov t_type] in Hp1, Hs1, Hi1, Ht1.
  rewrite outs_run_app, (transfer_check m1 t transfer Htr Hi1 Ht1). cbn [fst snd]. f_equal.
  set (m2 := mkTm true t (t_size m1) (t_raw m1) 0).
  assert (Hat : at_cursor m2 [] (enc_all fs ++ [])).
  { unfold at_cursor. rewrite app_nil_r. repeat split; [exact Hwf1 | cbn [m2 t_size]; lia | exact Hp1]. }
  destruct (get_fields fs m2 [] [] Hat Hok) as (Hg1 & Hg2).
  rewrite outs_run_app, Hg1, Hg2. f_equal.
  cbn [tm_run tm_step outs map fst snd]. unfold tm_has_more, advance, m2; cbn [t_off t_size].
  replace (0 + lenN (enc_all fs) <? t_size m1) with false by lia. reflexivity.
Qed.
