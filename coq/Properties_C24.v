(* Properties_C24.v — C24: chunked decoding is exact and rejects malformed framing.
   Statements, closed by `exact` or by the few lines that assemble them; proofs live in ChunkedProofs.v.  Model: ChunkedModel.v (TeChunkedParser::parse,
   the callers' loop `run` over a schedule of (newly read bytes, output space) steps).
   Spec side: `encode` / `body` of a `message` (RFC 9112 7.1 written as an encoder), `message_ok`. *)
Require Import SquidV.Bytes SquidV.TokModel SquidV.Incremental SquidV.ChunkedModel SquidV.ChunkedProofs.
Require Import SquidV.gen.CharSets_gen.
Local Open Scope N_scope.

(* --- the grammar's character classes are the sets the code uses (regenerated tables) --- *)
Theorem C24_token_chars_are_rfc_tchar : forall c, cs_TCHAR c = rfc_tchar c.
Proof. exact tchar_eq. Qed.
Print Assumptions C24_token_chars_are_rfc_tchar.

Theorem C24_qdtext_is_rfc_qdtext : forall c, qdtext11 c = rfc_qdtext c.
Proof. exact qdtext_eq. Qed.
Print Assumptions C24_qdtext_is_rfc_qdtext.

Theorem C24_quoted_pair_is_rfc_quoted_pair : forall c, qpair_chars c = rfc_qpair c.
Proof. exact qpair_eq. Qed.
Print Assumptions C24_quoted_pair_is_rfc_quoted_pair.

(* --- exactness: any body, any chunking, any segmentation, any output-space schedule ---
   `segs sched ++ rest = encode m ++ tail`: the reads deliver a prefix of (encoding, then arbitrary bytes);
   `live tail rest sched n`: from some step on the whole encoding has been delivered and the output
   space of the steps from there on sums to at least n. *)
Theorem C24_dechunk_exact : forall relaxed m tail sched rest,
  message_ok m -> segs sched ++ rest = encode m ++ tail -> live tail rest sched (lenN (body m)) ->
  let r := run_chunked relaxed sched in
  r_status r = RDone /\ r_out r = body m /\
  exists used later, segs sched = used ++ later /\ used = encode m ++ r_rest r.
Proof. exact dechunk_exact. Qed.
Print Assumptions C24_dechunk_exact.

(* without any assumption on how much was delivered or how much space there was: never an
   exception, never stuck, never early completion, output always a prefix of the body *)
Theorem C24_dechunk_safe_for_every_schedule : forall relaxed m, message_ok m -> forall tail sched rest,
  segs sched ++ rest = encode m ++ tail ->
  let r := run_chunked relaxed sched in
  (r_status r = RDone /\ r_out r = body m /\
   exists used later, segs sched = used ++ later /\ used = encode m ++ r_rest r)
  \/ (r_status r = RMore /\ exists B', body m = r_out r ++ B').
Proof. exact dechunk_safe. Qed.
Print Assumptions C24_dechunk_safe_for_every_schedule.

Theorem C24_truncated_only_asks_for_more : forall relaxed m sched rest,
  message_ok m -> segs sched ++ rest = encode m -> rest <> [] ->
  let r := run_chunked relaxed sched in
  r_status r = RMore /\ exists B', body m = r_out r ++ B'.
Proof. exact truncated_asks_for_more. Qed.
Print Assumptions C24_truncated_only_asks_for_more.

(* --- malformed framing is rejected, for every continuation x, every capacity, both modes --- *)
Theorem C24_rejects_0x_prefix : forall relaxed cap st c x, at_size st -> c = 120 \/ c = 88 ->
  parse relaxed cap st (48 :: c :: x) = PThrow E0x [].
Proof. exact reject_0x. Qed.
Print Assumptions C24_rejects_0x_prefix.

Theorem C24_rejects_nonhex_size : forall relaxed cap st c x, at_size st -> is_hex c = false ->
  parse relaxed cap st (c :: x) = PThrow ESize [].
Proof. exact reject_nonhex. Qed.
Print Assumptions C24_rejects_nonhex_size.

Theorem C24_rejects_size_beyond_63_bits : forall relaxed cap st ds x,
  at_size st -> forallb is_hex ds = true -> two63N <= hex_value 0 ds -> lenN ds <= npos ->
  parse relaxed cap st (ds ++ x) = PThrow ESize [].
Proof. exact reject_size_overflow. Qed.
Print Assumptions C24_rejects_size_beyond_63_bits.

Theorem C24_rejects_missing_crlf_after_size : forall relaxed cap st ds v c x,
  at_size st -> digits_ok ds v -> is_hex c = false -> c <> 120 -> c <> 88 ->
  ws_chars relaxed c = false -> c <> 59 -> c <> 13 ->
  parse relaxed cap st (ds ++ c :: x) = PThrow EExtCrlf [].
Proof. exact reject_missing_crlf_after_size. Qed.
Print Assumptions C24_rejects_missing_crlf_after_size.

Theorem C24_rejects_missing_crlf_after_data : forall relaxed cap st d c0 c1 x,
  p_stage st = StChunk -> p_left st = lenN d -> d <> [] -> lenN d <= cap -> ~ (c0 = 13 /\ c1 = 10) ->
  parse relaxed cap st (d ++ c0 :: c1 :: x) = PThrow EDataCrlf d.
Proof. exact reject_missing_crlf_after_data. Qed.
Print Assumptions C24_rejects_missing_crlf_after_data.

(* decided outcomes of the chunk-ext stage never change when more input arrives *)
Theorem C24_ext_stage_rejection_is_final : forall relaxed st b x e o,
  meta_suffix relaxed st b b = SThrow e o -> meta_suffix relaxed st (b ++ x) (b ++ x) = SThrow e o.
Proof. exact meta_stable_throw. Qed.
Print Assumptions C24_ext_stage_rejection_is_final.

Theorem C24_ext_stage_acceptance_is_final : forall relaxed st b x st' t3 o,
  meta_suffix relaxed st b b = SGo st' t3 t3 o ->
  meta_suffix relaxed st (b ++ x) (b ++ x) = SGo st' (t3 ++ x) (t3 ++ x) o.
Proof. exact meta_stable_go. Qed.
Print Assumptions C24_ext_stage_acceptance_is_final.

(* --- segmentation independence for ALL inputs (valid or not), both modes ---
   [step relaxed s b] = one parse(b) call in state s with output space that never fills (as in http.cc),
   classified as the caller sees it: Done body rest | Bad (exception kind / trailer too big, output so far) |
   More s' keep (keep = remaining()).  [decode_segments] = the read loop Incremental.drive over a list of
   segments, [decode_whole] = a single call on the whole input.  Since the repair 1aa8f1c the chunk-ext
   checkpoint commutes unconditionally, so the generic theorem of Incremental.v applies. *)
Theorem C24_definitive_outcomes_stable : forall relaxed,
  stable_done dstate bytes dbad (step relaxed) dinv fits /\
  stable_bad dstate bytes dbad (step relaxed) dinv fits.
Proof. exact (fun relaxed => conj (step_stable_done relaxed) (step_stable_bad relaxed)). Qed.
Print Assumptions C24_definitive_outcomes_stable.

Theorem C24_checkpoints_commute : forall relaxed,
  checkpoint_commutes dstate bytes dbad (step relaxed) dinv fits.
Proof. exact step_checkpoint. Qed.
Print Assumptions C24_checkpoints_commute.

Theorem C24_segmentation_independent : forall relaxed segments,
  segments <> [] -> lenN (concat segments) <= npos ->
  decode_segments relaxed segments = decode_whole relaxed (concat segments).
Proof. exact decode_segmentation_independent. Qed.
Print Assumptions C24_segmentation_independent.

Theorem C24_any_two_segmentations_agree : forall relaxed segs1 segs2,
  segs1 <> [] -> segs2 <> [] -> concat segs1 = concat segs2 -> lenN (concat segs1) <= npos ->
  decode_segments relaxed segs1 = decode_segments relaxed segs2.
Proof. exact decode_two_segmentations. Qed.
Print Assumptions C24_any_two_segmentations_agree.

Theorem C24_segmentation_independent_from_checkpoint : forall relaxed s keep segments,
  segments <> [] -> dinv s -> fits (keep ++ concat segments) ->
  Incremental.drive dstate bytes dbad (step relaxed) s keep segments = step relaxed s (keep ++ concat segments).
Proof. exact decode_from_checkpoint. Qed.
Print Assumptions C24_segmentation_independent_from_checkpoint.

(* --- the repaired finding: BWS between a chunk extension and CRLF is rejected, however the bytes arrive --- *)
Theorem C24_rejects_ext_trailing_bws : forall relaxed cap ds v e es w x,
  digits_ok ds v -> Forall ext_ok (e :: es) -> w <> [] -> bws_ok w ->
  parse relaxed cap init_state (ds ++ enc_exts (e :: es) ++ w ++ crlf ++ x) = PThrow EExtCrlf [].
Proof. exact reject_ext_trailing_bws. Qed.
Print Assumptions C24_rejects_ext_trailing_bws.

Theorem C24_rejects_ext_trailing_bws_for_every_segmentation : forall relaxed ds v e es w x segments,
  digits_ok ds v -> Forall ext_ok (e :: es) -> w <> [] -> bws_ok w ->
  segments <> [] -> concat segments = ds ++ enc_exts (e :: es) ++ w ++ crlf ++ x -> lenN (concat segments) <= npos ->
  decode_segments relaxed segments = Incremental.Bad (BThrow EExtCrlf []).
Proof. exact reject_ext_trailing_bws_every_segmentation. Qed.
Print Assumptions C24_rejects_ext_trailing_bws_for_every_segmentation.

(* --- the hypotheses are satisfiable: a concrete message, its encoding, a starved schedule --- *)
Definition ex_msg : message :=
  {| m_chunks := [ {| k_digits := [48; 53];                                  (* "05" *)
                      k_exts := [ {| x_w1 := [32]; x_w2 := [9]; x_name := [97];
                                     x_val := VQuoted [] [32] [([120], 34)] [121] |} ];   (* SP ; HT a = SP DQUOTE x BACKSLASH DQUOTE y DQUOTE *)
                      k_data := [104; 101; 108; 108; 111] |} ];              (* hello *)
     m_zeros := [48];
     m_last_exts := [ {| x_w1 := []; x_w2 := []; x_name := [113]; x_val := VTok [] [] [49] |} ];   (* ;q=1 *)
     m_trailer := [ ([84], [32; 118]) ] |}.                                  (* T: v *)

Example C24_ex_message_ok : message_ok ex_msg.
Proof.
  unfold message_ok, ex_msg. cbn [m_chunks m_zeros m_last_exts m_trailer].
  repeat split; repeat constructor; try discriminate; try (vm_compute; reflexivity).
Qed.

(* three reads, 2 bytes of output space per call, then empty reads until the output has drained *)
Definition ex_stream : bytes := encode ex_msg ++ [78; 69; 88; 84].
Definition ex_sched : list (bytes * N) :=
  [(takeN 10 ex_stream, 2); (takeN 20 (dropN 10 ex_stream), 2); (dropN 30 ex_stream, 2); ([], 0); ([], 2); ([], 1)].

Example C24_ex_live : segs ex_sched ++ [] = encode ex_msg ++ [78; 69; 88; 84] /\
  live [78; 69; 88; 84] [] ex_sched (lenN (body ex_msg)).
Proof. split; [vm_compute; reflexivity|]. vm_compute. repeat first [ solve [left; split; [lia | intro Hc; discriminate Hc]] | right ]. Qed.

Example C24_ex_run :
  r_status (run_chunked true ex_sched) = RDone /\ r_out (run_chunked true ex_sched) = body ex_msg /\
  r_rest (run_chunked true ex_sched) = [78; 69; 88; 84].
Proof. vm_compute. repeat split; reflexivity. Qed.

Example C24_ex_reject_hyps : at_size init_state /\ is_hex 103 = false /\
  digits_ok [49; 70] 31 /\ ws_chars true 120 = false /\ ws_chars false 11 = false.
Proof. repeat split; try (left; reflexivity); try discriminate; vm_compute; reflexivity. Qed.

(* "5;a=b \r\nhello\r\n0\r\n\r\n" (the input of the repaired finding): same rejection whole and split after the BWS *)
Example C24_ex_former_finding :
  let enc := [53; 59; 97; 61; 98; 32; 13; 10; 104; 101; 108; 108; 111; 13; 10; 48; 13; 10; 13; 10] in
  decode_segments false [takeN 6 enc; dropN 6 enc] = Incremental.Bad (BThrow EExtCrlf []) /\
  decode_segments true [takeN 7 enc; dropN 7 enc] = Incremental.Bad (BThrow EExtCrlf []) /\
  decode_whole false enc = Incremental.Bad (BThrow EExtCrlf []).
Proof. vm_compute. repeat split; reflexivity. Qed.
