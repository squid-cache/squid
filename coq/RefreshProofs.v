(* RefreshProofs.v — proofs about the freshness-decision model (C12). *)
Require Import SquidV.Bytes SquidV.RefreshModel.
Require Import SquidV.gen.RefreshConst_gen.
Require Import ZifyBool.
Local Open Scope Z_scope.

Lemma to_int32_small z : 0 <= z < 2147483648 -> to_int32 z = z.
Proof. intros H. unfold to_int32. rewrite Z.mod_small by lia. lia. Qed.

Ltac break_if :=
  match goal with
  | |- context [if ?b then _ else _] => destruct b eqn:?
  | |- context [match ?x with Some _ => _ | None => _ end] => destruct x eqn:?
  | H : context [if ?b then _ else _] |- _ => destruct b eqn:?
  end.

Definition is_some {A} (o : option A) : bool := match o with Some _ => true | None => false end.

Definition rq_has_max_stale (oq : option (request * (bool * bool))) : bool :=
  match oq with
  | Some (q, _) => negb (q_ignore_cc q) && is_some (q_cc_opt q q_max_stale)
  | None => false
  end.
(* a code below 200 is only returned when: the entry is not marked revalidate-always, it is not both stale and
   marked revalidate-when-stale, and either refreshStaleness said "fresh" (-1), or the request carries max-stale
   (and the entry is stale), or an override-expire / override-lastmod rule applies *)
Definition fresh_allowed (cfg : config) (e : entry) (oq : option (request * (bool * bool))) (st : Z) (sf : sflags) : bool :=
  negb (e_reval_always e || (-1 <? st) && e_reval_stale e) &&
  ((st =? -1)
   || (rq_has_max_stale oq && (-1 <? st))
   || (sf_expires sf && r_override_expire (c_rule cfg))
   || (sf_lmfactor sf && r_override_lastmod (c_rule cfg))).

(* refreshCheck ends in the same request-independent cascade on five paths, and in the same max-age / max-stale
   cascade on two: each is named, characterised once, and then treated as opaque *)
Lemma refresh_check_fresh cfg lmf e oq now delta :
  (fst (refresh_check cfg lmf e oq now delta) <? 200) = true ->
  fresh_allowed cfg e oq
    (fst (refresh_staleness lmf e (rc_check_time oq now delta) (rc_age e oq now delta) (c_rule cfg)))
    (snd (refresh_staleness lmf e (rc_check_time oq now delta) (rc_age e oq now delta) (c_rule cfg))) = true.
Proof.
  unfold refresh_check, fresh_allowed.
  destruct (refresh_staleness lmf e _ _ (c_rule cfg)) as [st sf]. cbn [fst snd].
  destruct (e_reval_always e || _); [intros [=]|]. cbn [negb andb].
  set (tail := if st =? -1 then _ else _).
  assert (Htail : (fst tail <? 200) = true ->
            (st =? -1) || sf_expires sf && r_override_expire (c_rule cfg)
            || sf_lmfactor sf && r_override_lastmod (c_rule cfg) = true).
  { subst tail. destruct (st =? -1); [reflexivity|].
    destruct (_ && (_ <? st)); [intros [=]|].
    destruct (sf_expires sf).
    - destruct (r_override_expire _); [reflexivity|]. rewrite Bool.andb_false_r. intros [=].
    - destruct (sf_max sf); [intros [=]|].
      destruct (sf_lmfactor sf); [|intros [=]].
      destruct (r_override_lastmod _); [reflexivity|]. rewrite Bool.andb_false_r. intros [=]. }
  clearbody tail.
  destruct oq as [[q [nc hack]]|]; [|lia].
  cbn [rq_live rq_has_max_stale].
  set (after_hack := if match q_cc_opt q q_max_age with Some _ => _ | None => false end then _ else _).
  assert (Hah : (fst after_hack <? 200) = true ->
            (fst tail <? 200) = true \/ is_some (q_cc_opt q q_max_stale) && (-1 <? st) = true).
  { subst after_hack.
    destruct (match q_cc_opt q q_max_age with Some _ => _ | None => false end); [intros [=]|].
    destruct (q_cc_opt q q_max_stale); [|auto]. destruct (-1 <? st); auto. }
  clearbody after_hack.
  destruct (q_ignore_cc q); cbn [negb andb]; [lia|].
  destruct (_ && (_ || c_refresh_all_ims cfg)); [intros [=]|].
  destruct (use_http_violations && hack); [|lia].
  destruct (r_ignore_reload _); [lia|].
  destruct (_ || c_reload_into_ims cfg); intros [=].
Qed.

(* reload requests: the nocache hack flag, or max-age=0 against a response that is not immutable *)
Lemma refresh_check_reload cfg lmf e q now nc hack :
  r_ignore_reload (c_rule cfg) = false ->
  q_ignore_cc q = false -> q_has_cc q = true ->
  (hack = true \/ (q_max_age q = Some 0 /\ cc_flag (e_reply e) rp_immutable = false)) ->
  200 <= fst (refresh_check cfg lmf e (Some (q, (nc, hack))) now 0).
Proof.
  intros Hir Hicc Hcc Hwhy. apply Z.ltb_ge.
  unfold refresh_check, rq_live. rewrite Hicc, Hir. cbn [negb].
  destruct (refresh_staleness lmf e _ _ (c_rule cfg)) as [st sf].
  destruct (e_reval_always e || _); [reflexivity|].
  destruct (_ && (_ || c_refresh_all_ims cfg)); [reflexivity|].
  destruct Hwhy as [-> | [Hma Himm]].
  - change (use_http_violations && true) with true. cbn iota.
    destruct (_ || c_reload_into_ims cfg); reflexivity.
  - unfold q_cc_opt. rewrite Hcc, Hma, Himm, Bool.andb_false_r. cbn [Z.eqb orb]. rewrite Bool.orb_true_r.
    destruct (use_http_violations && hack); [destruct (_ || c_reload_into_ims cfg)|]; reflexivity.
Qed.

(* "That lifetime comes from s-maxage, max-age or Expires relative to Date" *)
Definition explicit_lifetime (rp : reply) (recv : Z) : option Z :=
  if rp_has_cc rp && is_some (rp_s_maxage rp) then rp_s_maxage rp
  else if rp_has_cc rp && is_some (rp_max_age rp) then rp_max_age rp
  else if rp_has_expires rp then
    if rp_expires_hdr rp <? 0 then Some 0
    else Some (rp_expires_hdr rp - (if 0 <=? rp_date rp then rp_date rp else recv))
  else None.

(* representation invariant of a parsed Cache-Control (HttpHdrCc::parse clears a negative max-age / s-maxage) *)
Definition cc_values_nonneg (rp : reply) : Prop :=
  (forall v, rp_s_maxage rp = Some v -> 0 <= v) /\ (forall v, rp_max_age rp = Some v -> 0 <= v).

Lemma served_date_le rp now rt : 0 <= rt -> served_date rp now rt <= now.
Proof. intros. unfold served_date. repeat break_if; lia. Qed.

Lemma entry_expires_bound rp recv rt L :
  0 <= recv -> 0 <= rt ->
  explicit_lifetime rp recv = Some L ->
  e_expires (new_entry rp recv rt) <= Z.max recv (recv + L).
Proof.
  intros Hr Hrt HL.
  pose proof (served_date_le rp recv rt Hrt) as Hsd.
  unfold new_entry; cbn [e_expires].
  unfold explicit_lifetime in HL.
  unfold entry_expires, hdr_expiration_time, reply_max_age.
  destruct (rp_has_cc rp); destruct (rp_s_maxage rp); destruct (rp_max_age rp); cbn [andb orb negb is_some] in *;
    try (injection HL as <-);
    repeat break_if; try lia.
  all: try (injection HL as <-; try lia).
  all: try discriminate.
Qed.

(* a reply with an explicit lifetime never gets a negative stored expiry *)
Lemma entry_expires_nonneg rp recv rt L :
  0 <= recv -> cc_values_nonneg rp ->
  explicit_lifetime rp recv = Some L ->
  0 <= e_expires (new_entry rp recv rt).
Proof.
  intros Hr [Hs Hm] HL.
  unfold new_entry; cbn [e_expires].
  unfold explicit_lifetime in HL.
  unfold entry_expires, hdr_expiration_time, reply_max_age.
  destruct (rp_has_cc rp); destruct (rp_s_maxage rp) as [sv|] eqn:Es; destruct (rp_max_age rp) as [mv|] eqn:Em;
    cbn [andb orb negb is_some] in *;
    try (pose proof (Hs _ eq_refl)); try (pose proof (Hm _ eq_refl));
    repeat break_if; try lia; try discriminate.
Qed.

Definition honours_expiry (cfg : config) : Prop :=
  r_override_expire (c_rule cfg) = false /\ c_offline cfg = false.
Definition honours_reload (cfg : config) : Prop :=
  r_ignore_reload (c_rule cfg) = false /\ c_offline cfg = false.

Lemma default_honours_expiry : honours_expiry default_config.
Proof. split; reflexivity. Qed.
Lemma default_honours_reload : honours_reload default_config.
Proof. split; reflexivity. Qed.

(* min-fresh in effect (0 when none) and "no max-stale in effect" *)
Definition req_min_fresh (q : request) : Z :=
  if q_ignore_cc q then 0 else match q_cc_opt q q_min_fresh with Some m => m | None => 0 end.
Definition req_no_max_stale (q : request) : Prop :=
  q_ignore_cc q = true \/ q_cc_opt q q_max_stale = None.

Lemma rc_check_time_req q fl now : rc_check_time (Some (q, fl)) now 0 = now + req_min_fresh q.
Proof.
  unfold rc_check_time, rq_min_fresh, req_min_fresh.
  destruct (q_ignore_cc q); cbn [negb]; [lia|]. destruct (q_cc_opt q q_min_fresh); lia.
Qed.

Lemma staleness_expired lmf e ct age R :
  0 <= e_expires e -> e_expires e <= ct -> ct - e_expires e < 2147483648 ->
  refresh_staleness lmf e ct age R = (ct - e_expires e, mkSf true false false false).
Proof.
  intros H0 H1 H2. unfold refresh_staleness.
  destruct (-1 <? e_expires e) eqn:A; [|lia].
  destruct (ct <? e_expires e) eqn:B; [lia|].
  rewrite to_int32_small by lia. reflexivity.
Qed.

(* an expired entry is fresh only by max-stale or override-expire, and never when marked for revalidation *)
Lemma refresh_check_expired_fresh cfg lmf e q fl now :
  0 <= e_expires e -> 0 <= req_min_fresh q ->
  e_expires e <= now -> now + req_min_fresh q < 2147483648 ->
  fst (refresh_check cfg lmf e (Some (q, fl)) now 0) < 200 ->
  e_reval_always e || e_reval_stale e = false /\
  rq_has_max_stale (Some (q, fl)) || r_override_expire (c_rule cfg) = true.
Proof.
  intros He Hmf Hexp Hrng E%Z.ltb_lt%refresh_check_fresh.
  rewrite rc_check_time_req, staleness_expired in E by lia.
  unfold fresh_allowed in E. cbn [fst snd sf_expires sf_lmfactor] in E.
  set (st := now + req_min_fresh q - e_expires e) in E.
  assert ((-1 <? st) = true /\ (st =? -1) = false) as [H1 H2] by lia.
  rewrite H1, H2 in E. clearbody st. lia.
Qed.

Lemma stale_decision cfg lmf e q now :
  c_offline cfg = false ->
  200 <= fst (refresh_check cfg lmf e (Some (q, interp_no_cache cfg q)) now 0) ->
  decide cfg lmf (Some e) q now <> AHit.
Proof.
  intros Hoff H%Z.ltb_ge. unfold decide, refresh_check_http. rewrite Hoff.
  destruct (refresh_check _ _ _ _ _ _) as [reason nc]. cbn [fst] in H. rewrite H. cbn [orb negb].
  destruct (fst _), (last_modified e <? 0), nc, (q_cc q q_only_if_cached); discriminate.
Qed.

Lemma decide_expired cfg lmf e q now :
  honours_expiry cfg ->
  0 <= e_expires e -> e_expires e <= now ->
  req_no_max_stale q -> 0 <= req_min_fresh q -> now + req_min_fresh q < 2147483648 ->
  decide cfg lmf (Some e) q now <> AHit.
Proof.
  intros [Hov Hoff] He Hexp Hms Hmf Hrng.
  apply stale_decision; [exact Hoff|]. apply Z.nlt_ge. intros E.
  apply refresh_check_expired_fresh in E as [_ E]; try assumption.
  rewrite Hov in E. cbn [rq_has_max_stale] in E.
  destruct Hms as [Hms | Hms]; rewrite Hms in E; [|rewrite Bool.andb_false_r in E]; discriminate E.
Qed.

Lemma explicit_lifetime_respected cfg lmf rp recv rt q now L :
  honours_expiry cfg ->
  0 <= recv <= now -> 0 <= rt -> cc_values_nonneg rp ->
  explicit_lifetime rp recv = Some L ->
  req_no_max_stale q -> 0 <= req_min_fresh q -> now + req_min_fresh q < 2147483648 ->
  recv + L <= now ->
  decide cfg lmf (Some (set_flags (new_entry rp recv rt))) q now <> AHit.
Proof.
  intros Hcfg Hr Hrt Hwf HL Hms Hmf Hrng Hnow.
  pose proof (entry_expires_bound rp recv rt L ltac:(lia) Hrt HL) as Hb.
  pose proof (entry_expires_nonneg rp recv rt L ltac:(lia) Hwf HL) as Hn.
  apply decide_expired; auto; cbn [set_flags e_expires]; lia.
Qed.

Fixpoint ordered (t : Z) (steps : list step) : Prop :=
  match steps with
  | [] => True
  | s :: r => t <= s_now s /\ 0 <= s_rt s /\ ordered (s_now s) r
  end.

Definition from_reply (e : entry) : Prop :=
  0 <= e_recv e /\ exists rt, 0 <= rt /\ e = set_flags (new_entry (e_reply e) (e_recv e) rt).

Definition st_ok (st : option entry) (t : Z) : Prop :=
  forall e, st = Some e -> from_reply e /\ e_recv e <= t.

Lemma st_ok_mono st t t' : st_ok st t -> t <= t' -> st_ok st t'.
Proof. intros H Hl e He. destruct (H e He). split; auto; lia. Qed.

Lemma store_reply_cases cfg lmf old rp now rt :
  store_reply cfg lmf old rp now rt = old \/
  store_reply cfg lmf old rp now rt = None \/
  store_reply cfg lmf old rp now rt = Some (set_flags (new_entry rp now rt)).
Proof. unfold store_reply. repeat break_if; auto. Qed.

Lemma store_reply_ok cfg lmf old rp now rt :
  0 <= now -> 0 <= rt -> st_ok old now -> st_ok (store_reply cfg lmf old rp now rt) now.
Proof.
  intros Hn Hrt Hold. destruct (store_reply_cases cfg lmf old rp now rt) as [-> | [-> | ->]].
  - exact Hold.
  - intros e [=].
  - intros e [= <-]. split; [|cbn; lia]. split; [cbn; lia|]. exists rt. split; [lia|reflexivity].
Qed.

Lemma do_step_ok cfg lmf st s :
  0 <= s_now s -> 0 <= s_rt s -> st_ok st (s_now s) -> st_ok (snd (do_step cfg lmf st s)) (s_now s).
Proof.
  intros Hn Hrt Hst. unfold do_step.
  destruct (decide cfg lmf st (s_req s) (s_now s)); cbn [snd]; auto using store_reply_ok.
Qed.

Lemma trace_inv cfg lmf : forall steps t st,
  0 <= t -> ordered t steps -> st_ok st t ->
  forall pre s o, In (pre, s, o) (run_trace cfg lmf st steps) ->
  st_ok pre (s_now s) /\ 0 <= s_now s /\ o = fst (do_step cfg lmf pre s).
Proof.
  induction steps as [|s0 rest IH]; intros t st Ht Hord Hst pre s o Hin; [destruct Hin|].
  cbn [run_trace] in Hin. destruct Hord as (Hts & Hrt & Hrest).
  destruct (do_step cfg lmf st s0) as [o0 st'] eqn:E.
  destruct Hin as [Heq|Hin].
  - injection Heq as <- <- <-. split; [eapply st_ok_mono; eauto|]. split; [lia|]. rewrite E; reflexivity.
  - apply (IH (s_now s0) st'); auto; try lia.
    replace st' with (snd (do_step cfg lmf st s0)) by (rewrite E; reflexivity).
    apply do_step_ok; auto; try lia. eapply st_ok_mono; eauto.
Qed.

Lemma hit_means_decide_hit cfg lmf e s a :
  fst (do_step cfg lmf (Some e) s) = OHit a -> decide cfg lmf (Some e) (s_req s) (s_now s) = AHit.
Proof.
  unfold do_step. destruct (decide cfg lmf (Some e) (s_req s) (s_now s)); cbn [fst]; try discriminate; auto.
Qed.

Lemma history_explicit_lifetime cfg lmf steps pre s o e L :
  honours_expiry cfg -> ordered 0 steps ->
  In (pre, s, o) (run_trace cfg lmf None steps) -> pre = Some e ->
  cc_values_nonneg (e_reply e) ->
  explicit_lifetime (e_reply e) (e_recv e) = Some L ->
  req_no_max_stale (s_req s) -> 0 <= req_min_fresh (s_req s) ->
  s_now s + req_min_fresh (s_req s) < 2147483648 ->
  e_recv e + L <= s_now s ->
  forall a, o <> OHit a.
Proof.
  intros Hcfg Hord Hin Hpre Hwf HL Hms Hmf Hrng Hnow a Ho.
  destruct (trace_inv cfg lmf steps 0 None ltac:(lia) Hord ltac:(intros x Hx; discriminate) pre s o Hin)
    as (Hst & Hn & Hobs).
  subst pre. destruct (Hst e eq_refl) as [[Hr0 (rt & Hrt & Hform)] Hrecv].
  rewrite Hobs in Ho. apply hit_means_decide_hit in Ho.
  rewrite Hform in Ho. revert Ho.
  apply explicit_lifetime_respected with (L := L); auto; try lia.
Qed.

Definition asks_reload (q : request) : Prop :=
  q_ignore_cc q = false /\ q_has_cc q = true /\ (q_no_cache q = true \/ q_max_age q = Some 0).

Lemma reload_contacts cfg lmf st q now :
  honours_reload cfg -> asks_reload q ->
  (q_no_cache q = false -> forall e, st = Some e -> cc_flag (e_reply e) rp_immutable = false) ->
  decide cfg lmf st q now <> AHit.
Proof.
  intros [Hir Hoff] (Hicc & Hcc & Hwhy) Himm.
  destruct st as [e|].
  - destruct (interp_no_cache cfg q) as [nc hack] eqn:Hfl.
    destruct nc.
    + unfold decide. rewrite Hfl. cbn [fst]. destruct (q_cc q q_only_if_cached); discriminate.
    + apply stale_decision; [exact Hoff|]. rewrite Hfl.
      apply refresh_check_reload; auto.
      unfold interp_no_cache in Hfl. rewrite Hicc, Hcc in Hfl. cbn [negb andb] in Hfl.
      destruct (q_no_cache q) eqn:Hnc.
      * left. cbn [orb] in Hfl. destruct (use_http_violations && (c_reload_into_ims cfg || c_nocache_hack cfg));
          [injection Hfl as <-; reflexivity | discriminate Hfl].
      * right. destruct Hwhy as [Hw|Hw]; [discriminate|]. split; [exact Hw|]. apply Himm; auto.
  - unfold decide. destruct (fst (interp_no_cache cfg q)); destruct (q_cc q q_only_if_cached); discriminate.
Qed.

Definition marked_must_revalidate (rp : reply) : Prop :=
  rp_has_cc rp = true /\ (rp_must_revalidate rp = true \/ rp_proxy_revalidate rp = true).

Lemma set_flags_must_revalidate e :
  marked_must_revalidate (e_reply e) ->
  e_reval_always (set_flags e) || e_reval_stale (set_flags e) = true.
Proof.
  intros [Hcc Hm]. unfold set_flags. cbn [e_reval_always e_reval_stale]. rewrite Hcc.
  destruct (rp_no_cache (e_reply e) || rp_private (e_reply e)); cbn; auto.
  destruct Hm as [-> | ->]; cbn; auto. destruct (rp_proxy_revalidate (e_reply e)); reflexivity.
Qed.

Lemma must_revalidate_stale_contacts cfg lmf rp recv rt q now L :
  c_offline cfg = false ->
  marked_must_revalidate rp ->
  0 <= recv <= now -> 0 <= rt -> cc_values_nonneg rp ->
  explicit_lifetime rp recv = Some L ->
  0 <= req_min_fresh q -> now + req_min_fresh q < 2147483648 ->
  recv + L <= now ->
  decide cfg lmf (Some (set_flags (new_entry rp recv rt))) q now <> AHit.
Proof.
  intros Hoff Hm Hr Hrt Hwf HL Hmf Hrng Hnow.
  pose proof (entry_expires_bound rp recv rt L ltac:(lia) Hrt HL) as Hb.
  pose proof (entry_expires_nonneg rp recv rt L ltac:(lia) Hwf HL) as Hn.
  apply stale_decision; [exact Hoff|]. apply Z.nlt_ge. intros E.
  apply refresh_check_expired_fresh in E as [E _]; try assumption; [|cbn [set_flags e_expires]; lia ..].
  rewrite (set_flags_must_revalidate (new_entry rp recv rt) Hm) in E. discriminate E.
Qed.

Definition plain_request (q : request) : Prop :=
  q_has_cc q = false /\ q_pragma_no_cache q = false /\ q_method_other q = false /\ q_ims q <= 0.

Lemma interp_no_cache_plain cfg q : plain_request q -> interp_no_cache cfg q = (false, false).
Proof.
  intros (Hcc & Hp & Hmo & _). unfold interp_no_cache. rewrite Hcc, Hp, Hmo, Bool.andb_false_r. reflexivity.
Qed.

Lemma staleness_fresh lmf e ct age R :
  0 <= e_expires e -> ct < e_expires e ->
  refresh_staleness lmf e ct age R = (-1, mkSf true false false false).
Proof.
  intros H0 H1. unfold refresh_staleness.
  replace (-1 <? e_expires e) with true by lia. replace (ct <? e_expires e) with true by lia. reflexivity.
Qed.

Lemma refresh_check_plain_fresh cfg lmf e q now :
  plain_request q -> e_reval_always e = false ->
  0 <= e_expires e -> now < e_expires e ->
  fst (refresh_check cfg lmf e (Some (q, (false, false))) now 0) = FRESH_EXPIRES.
Proof.
  intros (Hcc & _ & _ & Hims) Hra He Hnow.
  assert (Hi : (0 <? q_ims q) = false) by lia.
  assert (Hmf : rq_min_fresh (Some (q, (false, false))) = None).
  { unfold rq_min_fresh, q_cc_opt. rewrite Hcc. destruct (negb (q_ignore_cc q)); reflexivity. }
  unfold refresh_check, rc_check_time. rewrite Hmf, staleness_fresh by lia.
  unfold q_cc_opt. rewrite Hra, Hi, Hcc, Bool.andb_false_r.
  destruct (negb _); reflexivity.
Qed.

Lemma fresh_is_served cfg lmf e q now :
  plain_request q -> e_reval_always e = false ->
  0 <= e_expires e -> now < e_expires e ->
  decide cfg lmf (Some e) q now = AHit.
Proof.
  intros Hq Hra He Hnow.
  pose proof (refresh_check_plain_fresh cfg lmf e q now Hq Hra He Hnow) as Hc.
  unfold decide, refresh_check_http. rewrite (interp_no_cache_plain cfg q Hq). cbn [fst].
  destruct (refresh_check _ _ _ _ _ _) as [reason nc]. cbn [fst] in Hc. subst reason.
  destruct (c_offline cfg); reflexivity.
Qed.

Lemma lm_default_matches_code :
  forallb (fun p => lm_default (fst p) =? snd p) default_lmfactor_samples = true.
Proof. vm_compute. reflexivity. Qed.

(* witnesses: each one is replayed against the running proxy by checks/c12.py *)
Definition t_recv : Z := 1790000000.
Definition plain_q : request := mkReq false false false None None None false false (-1) false false.
Definition q_with (ma ms : option Z) : request := mkReq false true false ma ms None false false (-1) false false.

(* W1 (former finding, repaired in /repo 5b272cc): Date 5 s ahead of the proxy's clock, Expires: Thu, 01 Jan 1970
   00:00:01 GMT, Last-Modified 1000000 s ago: served_date + (1 - Date) = -4 is now clamped to 0 *)
Definition w1_reply : reply :=
  mkReply (t_recv + 5) false None None true 1 (-1) (t_recv - 1000000)
          false false false false false false false false false 4.

(* W2 (former finding, repaired in /repo ba6a5eb): unparsable Expires ("0") with a Date more than 24 h old and
   must-revalidate: the reply now expires at its own Date, i.e. with a zero lifetime *)
Definition w2_reply : reply :=
  mkReply (t_recv - 86401) true None None true (-1) (-1) (-1)
          true false false false false false false false false 4.

(* W3: Cache-Control: max-age=3600, immutable; the request carries Cache-Control: max-age=0 *)
Definition w3_reply : reply :=
  mkReply t_recv true None (Some 3600) false (-1) (-1) (-1)
          false false false false false false true false false 4.

(* an ordinary response: Cache-Control: max-age=100, Date = time of receipt *)
Definition ok_reply : reply :=
  mkReply t_recv true None (Some 100) false (-1) (-1) (-1)
          false false false false false false false false false 4.
Definition ok_reply_mr : reply :=
  mkReply t_recv true None (Some 100) false (-1) (-1) (-1)
          true false false false false false false false false 4.

Definition stored (rp : reply) : option entry := Some (set_flags (new_entry rp t_recv 0)).

Lemma asks_reload_max_age_0 : asks_reload (q_with (Some 0) None).
Proof. repeat split. right. reflexivity. Qed.

Lemma ok_reply_wf : cc_values_nonneg ok_reply.
Proof. split; intros v Hv; vm_compute in Hv; try discriminate; injection Hv as <-; lia. Qed.

Definition override_config : config :=
  mkConfig (mkRule 3600 259200 (-1) false false true false false false false false) 604800 60 false false false false.

Lemma ex_history :
  run_default
    [ mkStep t_recv plain_q ok_reply 0;
      mkStep (t_recv + 99) plain_q (mkReply (t_recv + 99) true None (Some 100) false (-1) (-1) (-1) false false false false false false false false false 4) 0;
      mkStep (t_recv + 100) plain_q (mkReply (t_recv + 100) true None (Some 100) false (-1) (-1) (-1) false false false false false false false false false 4) 0;
      mkStep (t_recv + 150) plain_q (mkReply (t_recv + 150) true None (Some 100) false (-1) (-1) (-1) false false false false false false false false false 4) 0 ]
  = [OMiss; OHit (Some 99); OReval t_recv false; OHit (Some 50)].
Proof. vm_compute. reflexivity. Qed.
