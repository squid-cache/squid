(* Properties_C09.v -- C09: adversarial HTTP peers cannot cause memory errors or crashes.
   Statements, closed by `exact` or by the few lines that assemble them; proofs live in AdversarialHttpProofs.v (compositions) and in the proof files of the imported
   parser models: ReqparseProofs.v (C21/C22/C62), RespparseProofs.v (C23), ChunkedProofs.v (C24).

   The models are total functions over byte lists: their only way to look at the input is list pattern matching, so
   "no access outside the received bytes" is a property of their RESULTS -- what they consume, keep and hand on is
   always a piece of what they were given.  That is what is stated here, for ALL byte streams; that the C++ parsers
   compute the same results without touching other memory rests on the sanitizer-backed correspondence
   (checks/c09.py) -- hence "partial". *)
Require Import SquidV.Bytes SquidV.TokModel SquidV.Incremental SquidV.ReqparseModel SquidV.ReqparseProofs.
Require Import SquidV.gen.CharSets_gen SquidV.gen.ReqTabs_gen.
Require Import SquidV.AdversarialHttpProofs.
Require SquidV.RespparseModel SquidV.RespparseProofs SquidV.ChunkedModel SquidV.ChunkedProofs.
Module RS := SquidV.RespparseModel.
Module RP := SquidV.RespparseProofs.
Module CM := SquidV.ChunkedModel.
Module CP := SquidV.ChunkedProofs.
Local Open Scope N_scope.

(* --- client side: every request byte stream, in every segmentation, ends in exactly one of
       accept (a split of the received bytes) / reject with 400, 414 or 431 (an HTTP response) / wait below the limit ---
   [request_outcome_ok limit input o]:
     Done f rest : exists lead line block, input = lead ++ line ++ [10] ++ block ++ rest /\ |line| < limit /\ ...
     Bad (c, _)  : c = 400 \/ c = 414 \/ c = 431
     More _ keep : |keep| < limit *)
Theorem C09_request_stream_accept_reject_or_wait_partial : forall relaxed limit, req_max_method + 2 <= limit ->
  forall segs, segs <> [] -> lenN (concat segs) <= npos ->
  request_outcome_ok limit (concat segs) (parse_segments relaxed limit segs).
Proof. exact request_stream_trichotomy. Qed.
Print Assumptions C09_request_stream_accept_reject_or_wait_partial.

(* --- server side: the decision on a reply head (HttpStateData::processReplyHeader -> grabMimeBlock) for EVERY buffer:
       relay n bytes with n inside the buffer and the limit / too big (502) / wait below the limit --- *)
Theorem C09_reply_head_relay_toobig_or_wait_partial : forall limit fls buf,
  match resp_head_decision limit fls buf with
  | RHrelay n => fls + n < limit /\ 0 < n /\ n <= lenN buf
  | RHtoobig => True
  | RHmore => lenN buf + fls < limit
  end.
Proof. exact reply_head_trichotomy. Qed.
Print Assumptions C09_reply_head_relay_toobig_or_wait_partial.

(* --- an accepted reply head is HTTP/0.9 gatewaying of the untouched buffer or a split of the received bytes --- *)
Theorem C09_accepted_reply_head_is_a_split_of_the_input_partial : forall relaxed limit b f rest, lenN b < npos ->
  RS.step relaxed limit RS.pst0 b = RS.Done f rest ->
  (RP.no_magic_relation b /\ f = RP.gateway_fields /\ rest = b) \/
  (exists line proto major minor status reason block,
     b = line ++ block ++ rest /\ RP.status_line relaxed line proto major minor status reason /\
     RP.ends_with_empty_line block /\
     RS.f_proto f = proto /\ RS.f_major f = major /\ RS.f_minor f = minor /\ RS.f_status f = status /\
     RS.f_reason f = reason).
Proof. exact RP.accepted_reply_shape. Qed.
Print Assumptions C09_accepted_reply_head_is_a_split_of_the_input_partial.

(* --- chunked bodies (from either peer): for every well-formed encoding followed by arbitrary bytes, under every
       read / output-space schedule, the decoder never produces more than the body and never uses more than it was given --- *)
Theorem C09_chunked_decoder_never_overruns_partial : forall relaxed m, CP.message_ok m -> forall tail sched rest,
  CP.segs sched ++ rest = CP.encode m ++ tail ->
  let r := CM.run_chunked relaxed sched in
  (CM.r_status r = CM.RDone /\ CM.r_out r = CP.body m /\
   exists used later, CP.segs sched = used ++ later /\ used = CP.encode m ++ CM.r_rest r)
  \/ (CM.r_status r = CM.RMore /\ exists B', CP.body m = CM.r_out r ++ B').
Proof. exact CP.dechunk_safe. Qed.
Print Assumptions C09_chunked_decoder_never_overruns_partial.

(* --- the hypotheses are satisfiable --- *)
Example C09_request_example_accepted_in_two_segments : exists f,
  parse_segments true 64 [[71;69;84;32;47;97;32;72;84;84]; [80;47;49;46;49;13;10;72;58;32;118;13;10;13;10]] = Done f [].
Proof. eexists. vm_compute. reflexivity. Qed.

Example C09_request_example_rejected_431 : exists f,
  parse_segments true 64 [[71;69;84;32;47;97;32;72;84;84;80;47;49;46;49;13;10;72;58;32]; repeat 118 44 ++ [13;10;13;10]]
  = Bad (rq_sc_fields_too_large, f).
Proof. eexists. vm_compute. reflexivity. Qed.
