(* PurgeProofs.v — proofs about PurgeModel.v (C20). *)
Require Import SquidV.Bytes SquidV.PurgeModel.
Require Import SquidV.gen.PurgeMethods_gen SquidV.gen.PurgeUri_gen.
Local Open Scope N_scope.

Lemma key_eqb_refl (k : key) : key_eqb k k = true.
Proof. unfold key_eqb. now rewrite N.eqb_refl, list_eqb_refl. Qed.

Lemma key_eqb_eq (a b : key) : key_eqb a b = true <-> a = b.
Proof.
  destruct a as [i u], b as [j v]; unfold key_eqb; cbn [fst snd].
  rewrite andb_true_iff, N.eqb_eq, list_eqb_iff. split; [intros [-> ->]; reflexivity| intros H; now inversion H].
Qed.

(* what a lookup finds after evictions: what it found before, unless the key is among the evicted *)
Lemma store_has_evict (k k' : key) (s : store) :
  store_has (evict_if_found k' s) k = store_has s k && negb (key_eqb k k').
Proof.
  unfold store_has, evict_if_found. induction s as [|e s IH]; cbn [filter existsb]; [reflexivity|].
  destruct (key_eqb e k') eqn:E; cbn [negb existsb]; rewrite IH.
  - apply key_eqb_eq in E; subst e. destruct (key_eqb k k'); cbn [orb negb]; [now rewrite andb_false_r| reflexivity].
  - destruct (key_eqb k e) eqn:Ek; cbn [orb]; [|reflexivity]. apply key_eqb_eq in Ek; subst e. now rewrite E.
Qed.

Lemma store_has_evict_all (ks : list key) : forall s k,
  store_has (evict_all ks s) k = store_has s k && forallb (fun k' => negb (key_eqb k k')) ks.
Proof.
  unfold evict_all. induction ks as [|k' ks IH]; intros s k; cbn [fold_left forallb]; [now rewrite andb_true_r|].
  now rewrite IH, store_has_evict, andb_assoc.
Qed.

Lemma evicted_not_in_store (ks : list key) : forall s k, In k ks -> store_has (evict_all ks s) k = false.
Proof.
  intros s k Hin. rewrite store_has_evict_all. apply andb_false_iff; right. apply not_true_is_false.
  rewrite forallb_forall. intros H. specialize (H k Hin). now rewrite key_eqb_refl in H.
Qed.

Lemma not_evicted_stays (ks : list key) : forall s k,
  (forall k', In k' ks -> key_eqb k k' = false) -> store_has (evict_all ks s) k = store_has s k.
Proof.
  intros s k H. rewrite store_has_evict_all, (proj2 (forallb_forall _ _)); [apply andb_true_r|].
  intros k' Hk. now rewrite H.
Qed.

Lemma attrs_of_prop (P : attrs -> bool) (tbl : list (N * bytes * attrs)) :
  forallb (fun e => P (snd e)) tbl = true -> P (false, false, false) = true -> forall id, P (attrs_of tbl id) = true.
Proof.
  intros Ht Hd id. induction tbl as [|[[i img] a] r IH]; cbn [attrs_of]; [exact Hd|].
  cbn [forallb snd] in Ht. apply andb_true_iff in Ht as [Ha Hr].
  destruct (i =? id); [exact Ha| now apply IH].
Qed.

Lemma should_invalidate_purges (id : N) : should_invalidate id = true -> purges_others id = true.
Proof.
  unfold should_invalidate, purges_others.
  pose proof (attrs_of_prop (fun a => implb (fst (fst a)) (snd (fst a))) pg_methods) as H.
  specialize (H ltac:(vm_compute; reflexivity) ltac:(reflexivity) id). cbn beta in H.
  destruct (fst (fst (attrs_of pg_methods id))); cbn [implb] in H; [intros _; exact H| discriminate].
Qed.

Lemma safe_methods_do_not_purge :
  purges_others pg_METHOD_GET = false /\ purges_others pg_METHOD_HEAD = false /\ purges_others pg_METHOD_CONNECT = false /\
  purges_others pg_METHOD_NONE = false.
Proof. vm_compute. repeat split. Qed.

Lemma cacheable_are_get_head : cacheable_ids pg_methods = [pg_METHOD_GET; pg_METHOD_HEAD].
Proof. vm_compute. reflexivity. Qed.

Lemma cacheable_ids_spec (tbl : list (N * bytes * attrs)) (m : N) :
  In m (cacheable_ids tbl) <-> exists img si po, In (m, img, (si, po, true)) tbl.
Proof.
  induction tbl as [|[[i img] [[si po] c]] r IH]; cbn [cacheable_ids].
  - split; [intros []| intros (? & ? & ? & [])].
  - destruct c; cbn [In]; rewrite IH; split.
    + intros [->|(img' & si' & po' & H)]; [exists img, si, po; now left| exists img', si', po'; now right].
    + intros (img' & si' & po' & [H|H]); [inversion H; now left| right; now exists img', si', po'].
    + intros (img' & si' & po' & H); exists img', si', po'; now right.
    + intros (img' & si' & po' & [H|H]); [inversion H| now exists img', si', po'].
Qed.

(* a method token that matches no table image (under caseCmp) is METHOD_OTHER, relaxed parser or not *)
Lemma method_search_other (relaxed : bool) (tbl : list (N * bytes * attrs)) (s : bytes) :
  forallb (fun e => negb (case_eqb (snd (fst e)) s)) tbl = true -> method_search relaxed tbl s = pg_METHOD_OTHER.
Proof.
  induction tbl as [|[[i img] a] r IH]; cbn [method_search forallb fst snd]; [reflexivity|].
  intros H. apply andb_true_iff in H as [H1 H2]. apply negb_true_iff in H1. rewrite H1.
  destruct (i =? pg_METHOD_NONE); now apply IH.
Qed.

Definition uri_abs_text (u : uri) : bytes := u_front u ++ uri_encode pg_AbsPathChars (uri_path u).
Definition caches_ok (u : uri) : Prop :=
  (u_abspath_cache u = [] \/ u_abspath_cache u = uri_encode pg_AbsPathChars (uri_path u)) /\
  (u_abs_cache u = [] \/ u_abs_cache u = uri_abs_text u).

Lemma nonempty_false (l : bytes) : nonempty l = false -> l = [].
Proof. destruct l; [reflexivity| discriminate]. Qed.

Lemma cache_hit (c v : bytes) : c = [] \/ c = v -> nonempty c = true -> c = v.
Proof. intros [->|H] E; [discriminate E| exact H]. Qed.

(* absolute() touches nothing but the two caches, and leaves the text it returns in absolute_ *)
Lemma uri_absolute_keeps (u : uri) :
  u_front (snd (uri_absolute u)) = u_front u /\ u_urn (snd (uri_absolute u)) = u_urn u /\
  u_path (snd (uri_absolute u)) = u_path u /\ u_abs_cache (snd (uri_absolute u)) = fst (uri_absolute u).
Proof.
  destruct u as [fr hx urn p ca cp]. unfold uri_absolute, uri_absolute_path; cbn [u_abs_cache u_abspath_cache].
  destruct (nonempty ca); [|destruct (nonempty cp)]; cbn [fst snd u_front u_urn u_path u_abs_cache]; repeat split.
Qed.

Lemma uri_absolute_text (u : uri) : caches_ok u -> fst (uri_absolute u) = uri_abs_text u.
Proof.
  intros [Hp Ha]. unfold uri_absolute. destruct (nonempty (u_abs_cache u)) eqn:Ea; [exact (cache_hit _ _ Ha Ea)|].
  unfold uri_absolute_path, uri_abs_text. destruct (nonempty (u_abspath_cache u)) eqn:Ep; cbn [fst snd u_front]; [|reflexivity].
  f_equal. exact (cache_hit _ _ Hp Ep).
Qed.

Lemma uri_absolute_caches_ok (u : uri) : caches_ok u -> caches_ok (snd (uri_absolute u)).
Proof.
  destruct u as [fr hx urn p ca cp]. unfold caches_ok, uri_abs_text, uri_path, uri_absolute, uri_absolute_path.
  cbn [u_abs_cache u_abspath_cache u_front u_path u_httpx]. intros [Hp Ha].
  destruct (nonempty ca); [now split|].
  destruct (nonempty cp) eqn:Ep; cbn [fst snd u_abs_cache u_abspath_cache u_front u_path u_httpx].
  - split; [exact Hp| right]. f_equal. exact (cache_hit _ _ Hp Ep).
  - split; right; reflexivity.
Qed.

Lemma uri_path_nonempty (u : uri) : nonempty (u_path u) = true -> uri_path u = u_path u.
Proof. unfold uri_path. now intros ->. Qed.

(* asking again changes nothing (whatever the caches held) *)
Lemma uri_absolute_idem (u : uri) : uri_absolute (snd (uri_absolute u)) = uri_absolute u.
Proof.
  destruct u as [fr hx urn p ca cp]. unfold uri_absolute; cbn [u_abs_cache].
  destruct (nonempty ca) eqn:Ea; cbn [fst snd u_abs_cache]; [now rewrite Ea|].
  unfold uri_absolute_path; cbn [u_abspath_cache u_front u_httpx u_urn u_path u_abs_cache].
  destruct (nonempty cp) eqn:Ep; cbn [fst snd u_front u_abs_cache u_abspath_cache u_httpx u_urn u_path].
  - destruct (nonempty (fr ++ cp)) eqn:Ev; cbn [fst snd]; [reflexivity|].
    cbn [u_abspath_cache]. rewrite Ep. cbn [fst snd u_front u_httpx u_urn u_path u_abspath_cache].
    apply nonempty_false in Ev. now rewrite Ev.
  - set (v := uri_encode pg_AbsPathChars (uri_path (mkUri fr hx urn p ca cp))).
    destruct (nonempty (fr ++ v)) eqn:Ev; cbn [fst snd]; [reflexivity|].
    cbn [u_abspath_cache]. apply nonempty_false in Ev.
    destruct (nonempty v) eqn:Ev2; cbn [fst snd u_front u_httpx u_urn u_path u_abspath_cache].
    + now rewrite Ev.
    + assert (Hv : uri_encode pg_AbsPathChars (if negb (nonempty p) && hx then pg_SlashPath else p) = v) by reflexivity.
      unfold uri_path; cbn [u_path u_httpx]. rewrite Hv.
      apply nonempty_false in Ev2. rewrite Ev2 in *. now rewrite Ev.
Qed.

(* effectiveRequestUri() of a request that is neither CONNECT nor in authority form *)
Lemma eru_forward (rq : request) :
  (rq_method rq =? pg_METHOD_CONNECT) = false -> rq_authority_form rq = false ->
  fst (effective_request_uri rq) = fst (uri_absolute (rq_url rq)) /\
  rq_url (snd (effective_request_uri rq)) = snd (uri_absolute (rq_url rq)).
Proof. intros Hm Ha. unfold effective_request_uri. rewrite Hm, Ha. now destruct (uri_absolute (rq_url rq)). Qed.

Lemma eru_idem (rq : request) : effective_request_uri (snd (effective_request_uri rq)) = effective_request_uri rq.
Proof.
  unfold effective_request_uri.
  destruct ((rq_method rq =? pg_METHOD_CONNECT) || rq_authority_form rq) eqn:E; cbn [fst snd]; [now rewrite E|].
  destruct (uri_absolute (rq_url rq)) as [a u'] eqn:Eu; cbn [fst snd rq_method rq_authority_form rq_url rq_authority_port].
  rewrite E. pose proof (uri_absolute_idem (rq_url rq)) as H. rewrite Eu in H; cbn [fst snd] in H. now rewrite H.
Qed.

Lemma eru_method (rq : request) : rq_method (snd (effective_request_uri rq)) = rq_method rq.
Proof.
  unfold effective_request_uri. destruct ((rq_method rq =? pg_METHOD_CONNECT) || rq_authority_form rq); [reflexivity|].
  now destruct (uri_absolute (rq_url rq)).
Qed.

Lemma eru_path (rq : request) : u_path (rq_url (snd (effective_request_uri rq))) = u_path (rq_url rq).
Proof.
  unfold effective_request_uri. destruct ((rq_method rq =? pg_METHOD_CONNECT) || rq_authority_form rq); [reflexivity|].
  destruct (uri_absolute_keeps (rq_url rq)) as (_ & _ & H & _). now destruct (uri_absolute (rq_url rq)).
Qed.

Lemma in_purge_by_url (m : N) (url : bytes) : In (m, url) (purge_entries_by_url url) <-> In m (cacheable_ids pg_methods).
Proof.
  unfold purge_entries_by_url. rewrite in_map_iff. split.
  - intros (x & Hx & Hin). inversion Hx; now subst.
  - intros H. now exists m.
Qed.

Lemma purge_by_url_snd (url : bytes) (k : key) : In k (purge_entries_by_url url) -> snd k = url.
Proof. unfold purge_entries_by_url. rewrite in_map_iff. intros (m & <- & _). reflexivity. Qed.

Definition request_uri (rq : request) : bytes := cstr (fst (effective_request_uri rq)).

(* maybePurgeOthers() runs on the request as effectiveRequestUri() left it in processMiss: same method, same text *)
Lemma evicted_keys_eq (rq : request) (rp : reply) :
  evicted_keys rq rp =
  (if rq_method rq =? pg_METHOD_OTHER then purge_entries_by_url (request_uri rq) else []) ++
  if negb (purges_others (rq_method rq)) then [] else if STATUS_LIMIT <=? rp_status rp then [] else
  purge_entries_by_url (request_uri rq)
  ++ purge_entries_by_header (snd (effective_request_uri rq)) (request_uri rq) (rp_location rp)
  ++ purge_entries_by_header (snd (effective_request_uri rq)) (request_uri rq) (rp_content_location rp).
Proof.
  unfold evicted_keys, process_miss_purge, maybe_purge_others, request_uri. rewrite eru_method, eru_idem.
  now destruct (effective_request_uri rq).
Qed.

Lemma target_evicted (rq : request) (rp : reply) (m : N) :
  purges_others (rq_method rq) = true -> rp_status rp < STATUS_LIMIT -> In m (cacheable_ids pg_methods) ->
  In (m, request_uri rq) (evicted_keys rq rp).
Proof.
  intros Hp Hs Hm. rewrite evicted_keys_eq, Hp, (proj2 (N.leb_gt _ _) Hs); cbn [negb].
  rewrite !in_app_iff. right; left. now apply in_purge_by_url.
Qed.

Lemma evicted_by_header (rq : request) (rp : reply) (h : bytes) (k : key) :
  purges_others (rq_method rq) = true -> rp_status rp < STATUS_LIMIT ->
  rp_location rp = Some h \/ rp_content_location rp = Some h ->
  In k (purge_entries_by_header (snd (effective_request_uri rq)) (request_uri rq) (Some h)) ->
  In k (evicted_keys rq rp).
Proof.
  intros Hp Hs Hh Hin. rewrite evicted_keys_eq, Hp, (proj2 (N.leb_gt _ _) Hs); cbn [negb].
  rewrite !in_app_iff. destruct Hh as [Hl|Hl]; rewrite <- Hl in Hin; tauto.
Qed.

Lemma evicted_keys_cases (rq : request) (rp : reply) (k : key) :
  In k (evicted_keys rq rp) ->
  snd k = request_uri rq \/
  In k (purge_entries_by_header (snd (effective_request_uri rq)) (request_uri rq) (rp_location rp)) \/
  In k (purge_entries_by_header (snd (effective_request_uri rq)) (request_uri rq) (rp_content_location rp)).
Proof.
  rewrite evicted_keys_eq.
  destruct (rq_method rq =? pg_METHOD_OTHER), (negb (purges_others (rq_method rq))), (STATUS_LIMIT <=? rp_status rp);
    rewrite ?in_app_iff; cbn [In]; intuition auto using purge_by_url_snd.
Qed.

Definition no_byte (c : N) (l : bytes) : bool := forallb (fun x => negb (x =? c)) l.
Definition SEP : bytes := [COLON; SLASH; SLASH].      (* "://" *)

Lemma no_byte_cons (c x : N) (l : bytes) : no_byte c (x :: l) = true <-> (x =? c) = false /\ no_byte c l = true.
Proof. unfold no_byte; cbn [forallb]. now rewrite andb_true_iff, negb_true_iff. Qed.

Lemma no_byte_app (c : N) (a b : bytes) : no_byte c (a ++ b) = no_byte c a && no_byte c b.
Proof. apply forallb_app. Qed.

Lemma from_colon_skip (s r : bytes) : no_byte COLON s = true -> from_colon (s ++ COLON :: r) = Some (COLON :: r).
Proof.
  induction s as [|c s IH]; cbn [app from_colon]; [now rewrite N.eqb_refl|].
  intros [-> H]%no_byte_cons. now apply IH.
Qed.

Lemma host_walk_spec (a1 a2 p1 p2 : bytes) :
  no_byte SLASH a1 = true -> no_byte SLASH a2 = true ->
  host_walk (a1 ++ SLASH :: p1) (a2 ++ SLASH :: p2) = list_eqb a1 a2.
Proof.
  revert a2; induction a1 as [|x a1 IH]; intros a2 H1 H2; cbn [app host_walk].
  - rewrite N.eqb_refl. destruct a2 as [|y a2]; cbn [app hd0 list_eqb]; [now rewrite N.eqb_refl|].
    now apply no_byte_cons in H2 as [-> _].
  - apply no_byte_cons in H1 as [Hx H1]. rewrite Hx.
    destruct a2 as [|y a2]; cbn [app list_eqb]; [now rewrite Hx|].
    apply no_byte_cons in H2 as [_ H2]. destruct (x =? y); cbn [andb]; [now apply IH| reflexivity].
Qed.

(* for scheme://authority/path URLs (no ':' in the schemes, no '/' in the authorities, first authority non-empty)
   sameUrlHosts is byte equality of the authorities: schemes and paths are not looked at *)
Lemma same_url_hosts_spec (s1 s2 a1 a2 p1 p2 : bytes) :
  no_byte COLON s1 = true -> no_byte COLON s2 = true -> no_byte SLASH a1 = true -> no_byte SLASH a2 = true -> a1 <> [] ->
  same_url_hosts (s1 ++ SEP ++ a1 ++ SLASH :: p1) (s2 ++ SEP ++ a2 ++ SLASH :: p2) = list_eqb a1 a2.
Proof.
  intros Hs1 Hs2 Ha1 Ha2 Hne. unfold same_url_hosts, SEP. cbn [app].
  rewrite (from_colon_skip s1 _ Hs1), (from_colon_skip s2 _ Hs2).
  cbn [skip_scheme_slashes]. rewrite !N.eqb_refl; cbn [andb].
  destruct a1 as [|x a1]; [congruence|]. pose proof Ha1 as [Hx _]%no_byte_cons.
  (* the slash-skipping loop stops at once: the first authority does not start with '/' *)
  assert (Hskip : skip_scheme_slashes ((x :: a1) ++ SLASH :: p1) (a2 ++ SLASH :: p2) = ((x :: a1) ++ SLASH :: p1, a2 ++ SLASH :: p2)).
  { cbn [app skip_scheme_slashes]. destruct (a2 ++ SLASH :: p2); [reflexivity|]. now rewrite Hx. }
  rewrite Hskip. cbn [app]. now apply (host_walk_spec (x :: a1)).
Qed.

(* bytes allowed in a scheme for the statements below: anything but ':' '/' '?' '#' *)
Definition scheme_byte (c : N) : bool := negb ((c =? COLON) || (c =? SLASH) || (c =? 63) || (c =? 35)).

Lemma scheme_byte_spec (c : N) :
  scheme_byte c = true -> (c =? COLON) = false /\ (c =? SLASH) = false /\ (c =? 63) = false /\ (c =? 35) = false.
Proof. unfold scheme_byte. rewrite negb_true_iff, !orb_false_iff. tauto. Qed.

Lemma first_segment_colon (s r : bytes) : forallb scheme_byte s = true -> first_segment_has_no_colon (s ++ COLON :: r) = false.
Proof.
  induction s as [|c s IH]; cbn [app first_segment_has_no_colon forallb]; [reflexivity|].
  intros [(-> & -> & -> & ->)%scheme_byte_spec H]%andb_true_iff. now apply IH.
Qed.

Lemma absolute_url_not_relative (s r : bytes) : forallb scheme_byte s = true -> url_is_relative (s ++ COLON :: r) = false.
Proof.
  intros H. unfold url_is_relative. destruct s as [|c s]; [reflexivity|]. cbn [app].
  pose proof H as [(_ & -> & _)%scheme_byte_spec _]%andb_true_iff. exact (first_segment_colon (c :: s) r H).
Qed.

Lemma scheme_byte_no_colon (s : bytes) : forallb scheme_byte s = true -> no_byte COLON s = true.
Proof. apply forallb_impl. intros c (-> & _)%scheme_byte_spec. reflexivity. Qed.

Definition no_nul (l : bytes) : bool := no_byte 0 l.
Lemma cstr_id (l : bytes) : no_nul l = true -> cstr l = l.
Proof.
  unfold no_nul. induction l as [|c l IH]; cbn [cstr]; [reflexivity|].
  intros [-> H]%no_byte_cons. now rewrite IH.
Qed.

(* the header names an absolute URL scheme://authority/path, the request URL being of the same form *)
Lemma header_absolute (rq : request) (s1 s2 a1 a2 p1 p2 : bytes) :
  forallb scheme_byte s1 = true -> forallb scheme_byte s2 = true -> no_byte SLASH a1 = true -> no_byte SLASH a2 = true ->
  a1 <> [] -> no_nul (s2 ++ SEP ++ a2 ++ SLASH :: p2) = true ->
  purge_entries_by_header rq (s1 ++ SEP ++ a1 ++ SLASH :: p1) (Some (s2 ++ SEP ++ a2 ++ SLASH :: p2)) =
  if list_eqb a1 a2 then purge_entries_by_url (s2 ++ SEP ++ a2 ++ SLASH :: p2) else [].
Proof.
  intros Hs1 Hs2 Ha1 Ha2 Hne Hnul. unfold purge_entries_by_header. rewrite (cstr_id _ Hnul).
  rewrite (absolute_url_not_relative s2 _ Hs2 : url_is_relative (s2 ++ SEP ++ _) = false).
  rewrite same_url_hosts_spec by auto using scheme_byte_no_colon. now destruct (list_eqb a1 a2).
Qed.

Lemma header_absent (rq : request) (reqUrl : bytes) : purge_entries_by_header rq reqUrl None = [].
Proof. reflexivity. Qed.

Lemma uri_encode_id (ignore : cset) (l : bytes) : forallb ignore l = true -> uri_encode ignore l = l.
Proof.
  induction l as [|c l IH]; cbn [uri_encode forallb]; [reflexivity|].
  intros [-> H]%andb_true_iff. now rewrite IH.
Qed.

Lemma encoded_no_nul (c : N) : no_nul (tbl_get [] pg_encoded_tbl c) = true.
Proof.
  destruct (N.ltb_spec c 256) as [Hc|Hc].
  - revert c Hc. apply forallb_bytes. vm_compute. reflexivity.
  - now rewrite tbl_get_default.
Qed.

Lemma pathchars_not_nul (c : N) : pg_AbsPathChars c = true -> (c =? 0) = false.
Proof. destruct (N.eqb_spec c 0) as [->|]; [discriminate| reflexivity]. Qed.

Lemma pathchars_no_nul (l : bytes) : forallb pg_AbsPathChars l = true -> no_nul l = true.
Proof. apply forallb_impl. intros c ->%pathchars_not_nul. reflexivity. Qed.

Lemma uri_encode_no_nul (l : bytes) : no_nul (uri_encode pg_AbsPathChars l) = true.
Proof.
  unfold no_nul. induction l as [|c l IH]; cbn [uri_encode]; [reflexivity|].
  destruct (pg_AbsPathChars c) eqn:E.
  - apply no_byte_cons. auto using pathchars_not_nul.
  - rewrite no_byte_app, IH. apply andb_true_iff. split; [apply encoded_no_nul| reflexivity].
Qed.

Lemma uri_encode_head_slash (l : bytes) : hd0 l = SLASH -> exists p, uri_encode pg_AbsPathChars l = SLASH :: p.
Proof. destruct l as [|c l]; cbn [hd0]; [discriminate|]. intros ->. now eexists. Qed.

Record wf_request (rq : request) (s a : bytes) : Prop := {
  wf_noform : rq_authority_form rq = false;
  wf_nourn : u_urn (rq_url rq) = false;
  wf_front : u_front (rq_url rq) = s ++ SEP ++ a;            (* absolute() starts scheme "://" authority *)
  wf_scheme : forallb scheme_byte s = true;
  wf_auth : no_byte SLASH a = true;
  wf_auth_ne : a <> [];
  wf_nul : no_nul (s ++ SEP ++ a) = true;
  wf_path : hd0 (uri_path (rq_url rq)) = SLASH;              (* path() starts with "/" *)
  wf_caches : caches_ok (rq_url rq)
}.

Lemma front_app (s x a r : bytes) : s ++ x ++ a ++ r = (s ++ x ++ a) ++ r.
Proof. now rewrite <- !app_assoc. Qed.

Lemma purging_method_not_connect (m : N) : purges_others m = true -> (m =? pg_METHOD_CONNECT) = false.
Proof.
  intros H. destruct (N.eqb_spec m pg_METHOD_CONNECT) as [->|]; [|reflexivity].
  destruct safe_methods_do_not_purge as (_ & _ & Hc & _). congruence.
Qed.

(* the request URL as maybePurgeOthers() sees it, and the Uri it resolves relative references against *)
Lemma wf_effective_uri (rq : request) (s a : bytes) :
  wf_request rq s a -> (rq_method rq =? pg_METHOD_CONNECT) = false ->
  (exists p, request_uri rq = s ++ SEP ++ a ++ SLASH :: p) /\
  u_urn (rq_url (snd (effective_request_uri rq))) = false /\
  u_front (rq_url (snd (effective_request_uri rq))) = s ++ SEP ++ a.
Proof.
  intros W Hm. destruct (eru_forward rq Hm (wf_noform _ _ _ W)) as [Ef Eu].
  destruct (uri_absolute_keeps (rq_url rq)) as (Kf & Ku & _). rewrite Eu, Kf, Ku.
  split; [|exact (conj (wf_nourn _ _ _ W) (wf_front _ _ _ W))].
  destruct (uri_encode_head_slash _ (wf_path _ _ _ W)) as [p Hp]. exists p.
  unfold request_uri. rewrite Ef, (uri_absolute_text _ (wf_caches _ _ _ W)). unfold uri_abs_text. rewrite (wf_front _ _ _ W).
  rewrite cstr_id; [now rewrite Hp, <- front_app|].
  unfold no_nul. rewrite no_byte_app. apply andb_true_iff. split; [exact (wf_nul _ _ _ W)| apply uri_encode_no_nul].
Qed.

Lemma location_same_authority_evicted (rq : request) (rp : reply) (s a s2 p2 : bytes) (m : N) :
  wf_request rq s a -> purges_others (rq_method rq) = true -> rp_status rp < STATUS_LIMIT ->
  forallb scheme_byte s2 = true -> no_nul (s2 ++ SEP ++ a ++ SLASH :: p2) = true ->
  rp_location rp = Some (s2 ++ SEP ++ a ++ SLASH :: p2) \/ rp_content_location rp = Some (s2 ++ SEP ++ a ++ SLASH :: p2) ->
  In m (cacheable_ids pg_methods) ->
  In (m, s2 ++ SEP ++ a ++ SLASH :: p2) (evicted_keys rq rp).
Proof.
  intros W Hp Hs Hs2 Hnul Hhdr Hm.
  destruct (wf_effective_uri rq s a W (purging_method_not_connect _ Hp)) as ([p Hreq] & _).
  apply (evicted_by_header rq rp _ _ Hp Hs Hhdr).
  rewrite Hreq, header_absolute, list_eqb_refl by auto using (wf_scheme _ _ _ W), (wf_auth _ _ _ W), (wf_auth_ne _ _ _ W).
  now apply in_purge_by_url.
Qed.

Lemma header_absolute_path (rq : request) (reqUrl p : bytes) (m : N) :
  (rq_method rq =? pg_METHOD_CONNECT) = false -> u_urn (rq_url rq) = false -> no_nul (SLASH :: p) = true ->
  In m (cacheable_ids pg_methods) ->
  In (m, u_front (rq_url rq) ++ uri_encode pg_AbsPathChars (SLASH :: p)) (purge_entries_by_header rq reqUrl (Some (SLASH :: p))).
Proof.
  intros Hm Hu Hnul Hin. unfold purge_entries_by_header. rewrite (cstr_id _ Hnul).
  cbn [url_is_relative hd0]. rewrite N.eqb_refl, Hm, Hu.
  rewrite uri_absolute_text by (split; now left). now apply in_purge_by_url.
Qed.

Lemma location_absolute_path_evicted (rq : request) (rp : reply) (s a p : bytes) (m : N) :
  wf_request rq s a -> purges_others (rq_method rq) = true -> rp_status rp < STATUS_LIMIT ->
  no_nul (SLASH :: p) = true ->
  rp_location rp = Some (SLASH :: p) \/ rp_content_location rp = Some (SLASH :: p) ->
  In m (cacheable_ids pg_methods) ->
  In (m, s ++ SEP ++ a ++ uri_encode pg_AbsPathChars (SLASH :: p)) (evicted_keys rq rp).
Proof.
  intros W Hp Hs Hnul Hhdr Hm.
  pose proof (purging_method_not_connect _ Hp) as Hnc.
  destruct (wf_effective_uri rq s a W Hnc) as (_ & Hurn & Hfront).
  apply (evicted_by_header rq rp _ _ Hp Hs Hhdr). rewrite front_app, <- Hfront.
  apply header_absolute_path; try assumption. now rewrite eru_method.
Qed.

(* RFC 3986 5.2.3 merge, as addRelativePath computes it *)
Lemma upto_last_slash_none (seg : bytes) : no_byte SLASH seg = true -> upto_last_slash seg = None.
Proof.
  induction seg as [|c seg IH]; cbn [upto_last_slash]; [reflexivity|].
  intros [-> H]%no_byte_cons. now rewrite IH.
Qed.

Lemma upto_last_slash_spec (d seg : bytes) : no_byte SLASH seg = true -> upto_last_slash (d ++ SLASH :: seg) = Some (d ++ [SLASH]).
Proof.
  intros Hseg. induction d as [|c d IH]; cbn [app upto_last_slash].
  - now rewrite upto_last_slash_none, N.eqb_refl.
  - now rewrite IH.
Qed.

Lemma add_relative_path_eq (u : uri) (d seg rel : bytes) :
  u_urn u = false -> u_path u = d ++ SLASH :: seg -> no_byte SLASH seg = true ->
  uri_add_relative_path rel u = mkUri (u_front u) (u_httpx u) false (d ++ SLASH :: rel) [] [].
Proof.
  intros Hu Hp Hseg. unfold uri_add_relative_path. rewrite Hu, Hp, (upto_last_slash_spec d seg Hseg).
  now rewrite <- app_assoc.
Qed.

Lemma header_relative_path (rq : request) (reqUrl d seg h : bytes) (m : N) :
  (rq_method rq =? pg_METHOD_CONNECT) = false -> u_urn (rq_url rq) = false -> no_nul h = true ->
  url_is_relative h = true -> (hd0 h =? SLASH) = false ->
  u_path (rq_url rq) = d ++ SLASH :: seg -> no_byte SLASH seg = true ->
  In m (cacheable_ids pg_methods) ->
  In (m, u_front (rq_url rq) ++ uri_encode pg_AbsPathChars (d ++ SLASH :: h)) (purge_entries_by_header rq reqUrl (Some h)).
Proof.
  intros Hm Hu Hnul Hrel Hsl Hp Hseg Hin. unfold purge_entries_by_header. rewrite (cstr_id _ Hnul), Hrel, Hm, Hu, Hsl.
  rewrite (add_relative_path_eq _ d seg h Hu Hp Hseg), uri_absolute_text by (split; now left).
  unfold uri_abs_text. rewrite uri_path_nonempty by (destruct d; reflexivity). now apply in_purge_by_url.
Qed.

Lemma location_relative_path_evicted (rq : request) (rp : reply) (s a d seg h : bytes) (m : N) :
  wf_request rq s a -> purges_others (rq_method rq) = true -> rp_status rp < STATUS_LIMIT ->
  no_nul h = true -> url_is_relative h = true -> (hd0 h =? SLASH) = false ->
  u_path (rq_url rq) = d ++ SLASH :: seg -> no_byte SLASH seg = true ->
  rp_location rp = Some h \/ rp_content_location rp = Some h ->
  In m (cacheable_ids pg_methods) ->
  In (m, s ++ SEP ++ a ++ uri_encode pg_AbsPathChars (d ++ SLASH :: h)) (evicted_keys rq rp).
Proof.
  intros W Hp Hs Hnul Hrel Hsl Hpath Hseg Hhdr Hm.
  pose proof (purging_method_not_connect _ Hp) as Hnc.
  destruct (wf_effective_uri rq s a W Hnc) as (_ & Hurn & Hfront).
  apply (evicted_by_header rq rp _ _ Hp Hs Hhdr). rewrite front_app, <- Hfront.
  apply (header_relative_path _ _ d seg); try assumption; [now rewrite eru_method| now rewrite eru_path].
Qed.

Lemma other_authority_untouched (rq : request) (rp : reply) (s a s2 a2 p2 t : bytes) (m : N) (st : store) :
  wf_request rq s a -> purges_others (rq_method rq) = true ->
  forallb scheme_byte s2 = true -> no_byte SLASH a2 = true -> a <> a2 -> no_nul (s2 ++ SEP ++ a2 ++ SLASH :: p2) = true ->
  (forall h, rp_location rp = Some h \/ rp_content_location rp = Some h -> h = s2 ++ SEP ++ a2 ++ SLASH :: p2) ->
  t <> request_uri rq ->
  store_has (evict_all (evicted_keys rq rp) st) (m, t) = store_has st (m, t).
Proof.
  intros W Hp Hs2 Ha2 Hdiff Hnul Hh Hne. apply not_evicted_stays. intros k' Hk'.
  destruct (wf_effective_uri rq s a W (purging_method_not_connect _ Hp)) as ([p0 Hreq] & _).
  assert (Hnone : forall h, rp_location rp = Some h \/ rp_content_location rp = Some h ->
            purge_entries_by_header (snd (effective_request_uri rq)) (request_uri rq) (Some h) = []).
  { intros h Hhh.
    rewrite (Hh h Hhh), Hreq, header_absolute by auto using (wf_scheme _ _ _ W), (wf_auth _ _ _ W), (wf_auth_ne _ _ _ W).
    destruct (list_eqb a a2) eqn:E; [apply list_eqb_eq in E; congruence| reflexivity]. }
  assert (Hs : snd k' = request_uri rq).
  { apply evicted_keys_cases in Hk' as [Hk|[Hk|Hk]]; [exact Hk| |].
    - destruct (rp_location rp) as [h|] eqn:El; [|destruct Hk]. rewrite (Hnone h (or_introl eq_refl)) in Hk. destruct Hk.
    - destruct (rp_content_location rp) as [h|] eqn:El; [|destruct Hk]. rewrite (Hnone h (or_intror eq_refl)) in Hk. destruct Hk. }
  destruct (key_eqb (m, t) k') eqn:E; [|reflexivity]. apply key_eqb_eq in E. subst k'. cbn [snd] in Hs. congruence.
Qed.

Lemma request_of_wf (relaxed : bool) (meth s a path : bytes) :
  forallb scheme_byte s = true -> no_byte SLASH a = true -> a <> [] -> no_nul (s ++ SEP ++ a) = true -> hd0 path = SLASH ->
  wf_request (request_of relaxed meth s a path) s a.
Proof.
  intros Hs Ha Hne Hnul Hp. destruct path as [|c path]; [discriminate|].
  constructor; cbn; try assumption; try reflexivity.
  split; now left.
Qed.

(* SPEC: RFC 3986 section 5.2 reference resolution (written independently of the model; URLs without query component) *)
Definition lower (c : N) : N := if (65 <=? c) && (c <=? 90) then c + 32 else c.

Fixpoint split_on (c : N) (l : bytes) : list bytes :=
  match l with
  | [] => [[]]
  | x :: r => if x =? c then [] :: split_on c r
              else match split_on c r with seg :: segs => (x :: seg) :: segs | [] => [[x]] end
  end.
Definition is_dot (s : bytes) : bool := list_eqb s [46].
Definition is_dotdot (s : bytes) : bool := list_eqb s [46; 46].
(* 5.2.4 remove_dot_segments on the segments of an absolute path; `out` is the output stack, last segment first *)
Fixpoint rds (segs : list bytes) (out : list bytes) : list bytes :=
  match segs with
  | [] => rev out
  | s :: r =>
      match r with
      | [] => if is_dot s then rev ([] :: out) else if is_dotdot s then rev ([] :: tl out) else rev (s :: out)
      | _ => if is_dot s then rds r out else if is_dotdot s then rds r (tl out) else rds r (s :: out)
      end
  end.
Definition join_path (segs : list bytes) : bytes := flat_map (fun s => SLASH :: s) segs.
Definition remove_dot_segments (p : bytes) : bytes :=
  match split_on SLASH p with _ :: segs => join_path (rds segs []) | [] => p end.

Definition strip_fragment (l : bytes) : bytes := fst (span (fun c => negb (c =? 35)) l).
Fixpoint scheme_split (l acc : bytes) : option (bytes * bytes) :=
  match l with
  | [] => None
  | c :: r => if c =? COLON then Some (rev acc, r)
              else if (c =? SLASH) || (c =? 63) || (c =? 35) then None else scheme_split r (c :: acc)
  end.
Definition split_authority (l : bytes) : bytes * bytes :=
  let '(a, p) := span (fun c => negb (c =? SLASH)) l in (a, match p with [] => [SLASH] | _ => p end).
(* 5.2.3 merge: the base path up to and including its last "/" *)
Definition dir_of (p : bytes) : bytes := rev (snd (span (fun c => negb (c =? SLASH)) (rev p))).
Definition merge_paths (bp r : bytes) : bytes := match dir_of bp with [] => SLASH :: r | d => d ++ r end.

(* target (scheme, authority, path) of reference `ref` against the base scheme://authority path; scheme and host in
   lower case (6.2.2.1), dot segments removed (6.2.2.3), fragment dropped *)
(* "//" rest *)
Definition starts2 (r : bytes) : option bytes :=
  match r with
  | c1 :: c2 :: r2 => if (c1 =? SLASH) && (c2 =? SLASH) then Some r2 else None
  | _ => None
  end.
Definition rfc_resolve (bs ba bp ref : bytes) : option (bytes * bytes * bytes) :=
  let r := strip_fragment ref in
  match scheme_split r [] with
  | Some (sc, rest) =>                                   (* a URI with a scheme: never merged with the base *)
      match sc, starts2 rest with
      | _ :: _, Some r2 => let '(a, p) := split_authority r2 in Some (map lower sc, map lower a, remove_dot_segments p)
      | _, _ => None
      end
  | None =>
      match starts2 r with
      | Some r2 => let '(a, p) := split_authority r2 in Some (bs, map lower a, remove_dot_segments p)   (* network-path *)
      | None =>
          match r with
          | [] => Some (bs, ba, bp)                                                (* same document *)
          | c :: _ => if c =? SLASH then Some (bs, ba, remove_dot_segments r)      (* absolute-path *)
                      else Some (bs, ba, remove_dot_segments (merge_paths bp r))   (* relative-path *)
          end
      end
  end.

(* `ref`, found in a response to a request for bs://ba bp, names the same-authority URL t *)
Definition names_same_authority (bs ba bp ref t : bytes) : Prop :=
  exists tp, rfc_resolve bs ba bp ref = Some (bs, ba, tp) /\ t = bs ++ SEP ++ ba ++ tp.

(* the second sentence of the property at full strength *)
Definition named_url_always_evicted : Prop :=
  forall rq rp s a ref t m,
    wf_request rq s a -> purges_others (rq_method rq) = true -> rp_status rp < 400 ->
    rp_location rp = Some ref \/ rp_content_location rp = Some ref ->
    names_same_authority s a (uri_path (rq_url rq)) ref t -> In m (cacheable_ids pg_methods) ->
    In (m, t) (evicted_keys rq rp).

(* witnesses: POST http://h:8/d/u answered 200 with Location: <ref>, while http://h:8/d/v is cached *)
Definition B (l : bytes) : bytes := l.
Definition w_http : bytes := B [104;116;116;112].
Definition w_auth : bytes := B [104;58;56].                                      (* h:8 *)
Definition w_u : bytes := B [47;100;47;117].                                    (* /d/u *)
Definition w_target : bytes := w_http ++ SEP ++ w_auth ++ B [47;100;47;118].   (* http://h:8/d/v *)
Definition w_rq : request := request_of true (B [80;79;83;84]) w_http w_auth w_u.
Definition w_rp (ref : bytes) : reply := mkRep 200 (Some ref) None.
Definition stays_cached (ref : bytes) : Prop :=
  names_same_authority w_http w_auth w_u ref w_target /\
  store_has (evict_all (evicted_keys w_rq (w_rp ref)) [(pg_METHOD_GET, w_target)]) (pg_METHOD_GET, w_target) = true.

Lemma w_rq_wf : wf_request w_rq w_http w_auth.
Proof. apply request_of_wf; try reflexivity. discriminate. Qed.
Lemma w_rq_purges : purges_others (rq_method w_rq) = true.
Proof. vm_compute. reflexivity. Qed.

(* each claim is closed by evaluation, the resolved path being read off the computation *)
Ltac witness := repeat split; try (eexists; split; vm_compute; reflexivity); vm_compute; reflexivity.

Lemma stays_cached_refutes (ref : bytes) : stays_cached ref -> ~ named_url_always_evicted.
Proof.
  intros [Hn Hs] H.
  specialize (H w_rq (w_rp ref) w_http w_auth ref w_target pg_METHOD_GET w_rq_wf w_rq_purges
                ltac:(vm_compute; reflexivity) (or_introl eq_refl) Hn ltac:(vm_compute; auto)).
  pose proof (evicted_not_in_store _ [(pg_METHOD_GET, w_target)] _ H) as Hc. rewrite Hs in Hc. discriminate.
Qed.

(* the spec agrees with the code on references in normal form (nothing for remove_dot_segments / fragment stripping /
   case folding to do) *)
Lemma absolute_path_reference_in_normal_form (rq : request) (rp : reply) (s a p : bytes) (m : N) :
  wf_request rq s a -> purges_others (rq_method rq) = true -> rp_status rp < 400 ->
  (hd0 p =? SLASH) = false -> strip_fragment (SLASH :: p) = SLASH :: p -> remove_dot_segments (SLASH :: p) = SLASH :: p ->
  forallb pg_AbsPathChars (SLASH :: p) = true ->
  rp_location rp = Some (SLASH :: p) \/ rp_content_location rp = Some (SLASH :: p) ->
  In m (cacheable_ids pg_methods) ->
  names_same_authority s a (uri_path (rq_url rq)) (SLASH :: p) (s ++ SEP ++ a ++ SLASH :: p) /\
  In (m, s ++ SEP ++ a ++ SLASH :: p) (evicted_keys rq rp).
Proof.
  intros W Hp Hs Hp2 Hfrag Hdots Hchars Hhdr Hm. split.
  - exists (SLASH :: p). split; [|reflexivity]. unfold rfc_resolve. rewrite Hfrag.
    cbn [scheme_split]. replace (SLASH =? COLON) with false by reflexivity. rewrite N.eqb_refl. cbn [orb].
    assert (H2 : starts2 (SLASH :: p) = None).
    { destruct p as [|c p']; cbn [starts2]; [reflexivity|]. cbn [hd0] in Hp2. now rewrite Hp2, andb_false_r. }
    rewrite H2, Hdots. reflexivity.
  - rewrite <- (uri_encode_id pg_AbsPathChars (SLASH :: p) Hchars).
    apply location_absolute_path_evicted; try assumption. now apply pathchars_no_nul.
Qed.

Lemma scheme_split_app (s r : bytes) : forall acc, forallb scheme_byte s = true -> scheme_split (s ++ COLON :: r) acc = Some (rev acc ++ s, r).
Proof.
  induction s as [|c s IH]; intros acc H; cbn [app scheme_split].
  - now rewrite N.eqb_refl, app_nil_r.
  - apply andb_true_iff in H as [(-> & -> & -> & ->)%scheme_byte_spec H]. cbn [orb].
    rewrite (IH (c :: acc) H). cbn [rev]. now rewrite <- app_assoc.
Qed.

Lemma span_until_slash (a p : bytes) : no_byte SLASH a = true ->
  span (fun c => negb (c =? SLASH)) (a ++ SLASH :: p) = (a, SLASH :: p).
Proof. intros H. now apply span_app_stop. Qed.

Lemma absolute_url_in_normal_form (rq : request) (rp : reply) (s a p2 : bytes) (m : N) :
  wf_request rq s a -> purges_others (rq_method rq) = true -> rp_status rp < 400 ->
  s <> [] -> map lower s = s -> map lower a = a ->
  strip_fragment (s ++ SEP ++ a ++ SLASH :: p2) = s ++ SEP ++ a ++ SLASH :: p2 ->
  remove_dot_segments (SLASH :: p2) = SLASH :: p2 -> no_nul (s ++ SEP ++ a ++ SLASH :: p2) = true ->
  rp_location rp = Some (s ++ SEP ++ a ++ SLASH :: p2) \/ rp_content_location rp = Some (s ++ SEP ++ a ++ SLASH :: p2) ->
  In m (cacheable_ids pg_methods) ->
  names_same_authority s a (uri_path (rq_url rq)) (s ++ SEP ++ a ++ SLASH :: p2) (s ++ SEP ++ a ++ SLASH :: p2) /\
  In (m, s ++ SEP ++ a ++ SLASH :: p2) (evicted_keys rq rp).
Proof.
  intros W Hp Hs Hne Hls Hla Hfrag Hdots Hnul Hhdr Hm. split.
  - exists (SLASH :: p2). split; [|reflexivity]. unfold rfc_resolve. rewrite Hfrag.
    change (s ++ SEP ++ a ++ SLASH :: p2) with (s ++ COLON :: (SLASH :: SLASH :: a ++ SLASH :: p2)).
    rewrite (scheme_split_app s _ [] (wf_scheme _ _ _ W)). cbn [rev app].
    destruct s as [|c s']; [congruence|]. cbn [starts2]. rewrite N.eqb_refl. cbn [andb].
    unfold split_authority. rewrite (span_until_slash a p2 (wf_auth _ _ _ W)). now rewrite Hls, Hla, Hdots.
  - apply (location_same_authority_evicted rq rp s a s p2 m); try assumption. exact (wf_scheme _ _ _ W).
Qed.

Lemma dir_of_spec (d seg : bytes) : no_byte SLASH seg = true -> dir_of (d ++ SLASH :: seg) = d ++ [SLASH].
Proof.
  intros Hseg. unfold dir_of. rewrite rev_app_distr. cbn [rev]. rewrite <- app_assoc. cbn [app].
  rewrite span_until_slash by (unfold no_byte; now rewrite forallb_rev). cbn [snd rev]. now rewrite rev_involutive.
Qed.

Lemma relative_ref_has_no_scheme (h : bytes) : forall acc, first_segment_has_no_colon h = true -> scheme_split h acc = None.
Proof.
  induction h as [|c h IH]; intros acc H; cbn [scheme_split first_segment_has_no_colon] in *; [reflexivity|].
  destruct ((c =? SLASH) || (c =? 63) || (c =? 35)) eqn:E.
  - destruct (c =? COLON) eqn:Ec; [|reflexivity].
    apply N.eqb_eq in Ec; subst c. vm_compute in E. discriminate.
  - destruct (c =? COLON); [discriminate| now apply IH].
Qed.

(* a relative-path reference (RFC 3986 5.2.3 merge) in normal form names exactly the URL evicted *)
Lemma relative_path_reference_in_normal_form (rq : request) (rp : reply) (s a d seg h : bytes) (m : N) :
  wf_request rq s a -> purges_others (rq_method rq) = true -> rp_status rp < 400 ->
  u_path (rq_url rq) = d ++ SLASH :: seg -> no_byte SLASH seg = true ->
  h <> [] -> (hd0 h =? SLASH) = false -> url_is_relative h = true ->
  strip_fragment h = h -> remove_dot_segments (d ++ SLASH :: h) = d ++ SLASH :: h ->
  forallb pg_AbsPathChars (d ++ SLASH :: h) = true ->
  rp_location rp = Some h \/ rp_content_location rp = Some h ->
  In m (cacheable_ids pg_methods) ->
  names_same_authority s a (uri_path (rq_url rq)) h (s ++ SEP ++ a ++ d ++ SLASH :: h) /\
  In (m, s ++ SEP ++ a ++ d ++ SLASH :: h) (evicted_keys rq rp).
Proof.
  intros W Hp Hs Hpath Hseg Hne Hsl Hrel Hfrag Hdots Hchars Hhdr Hm.
  assert (Hnulh : no_nul h = true).
  { apply pathchars_no_nul in Hchars. unfold no_nul in *. rewrite no_byte_app in Hchars.
    apply andb_true_iff in Hchars as [_ H2]. unfold no_byte in *. cbn [forallb] in H2. now apply andb_true_iff in H2 as [_ H2]. }
  split.
  - exists (d ++ SLASH :: h). split; [|reflexivity]. unfold rfc_resolve. rewrite Hfrag.
    destruct h as [|x h']; [congruence|]. cbn [hd0] in Hsl.
    assert (Hfs : first_segment_has_no_colon (x :: h') = true).
    { unfold url_is_relative in Hrel. now rewrite Hsl in Hrel. }
    rewrite (relative_ref_has_no_scheme _ [] Hfs).
    assert (H2 : starts2 (x :: h') = None).
    { destruct h' as [|y h'']; cbn [starts2]; [reflexivity|]. now rewrite Hsl. }
    rewrite H2, Hsl. unfold merge_paths, uri_path. rewrite Hpath.
    replace (nonempty (d ++ SLASH :: seg)) with true by (destruct d; reflexivity). cbn [negb andb].
    rewrite (dir_of_spec d seg Hseg).
    destruct (d ++ [SLASH]) eqn:Ed; [destruct d; discriminate|]. rewrite <- Ed.
    replace ((d ++ [SLASH]) ++ x :: h') with (d ++ SLASH :: x :: h') by (now rewrite <- app_assoc).
    now rewrite Hdots.
  - rewrite <- (uri_encode_id pg_AbsPathChars (d ++ SLASH :: h) Hchars).
    apply (location_relative_path_evicted rq rp s a d seg); assumption.
Qed.

(* the set absolutePath() leaves verbatim is PathChars plus the query delimiter '?' (path_ holds path and query) *)
Lemma abs_path_chars_spec (c : N) : c < 256 -> pg_AbsPathChars c = pg_PathChars c || (c =? 63).
Proof. intros Hc. apply Bool.eqb_prop. revert c Hc. apply forallb_bytes. vm_compute. reflexivity. Qed.
