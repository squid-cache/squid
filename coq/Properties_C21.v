(* Properties_C21.v — C21: HTTP request parsing does not depend on how input is segmented.
   Statements, closed by `exact` or by the few lines that assemble them; proofs live in Incremental.v / ReqparseProofs.v.

   Vocabulary (ReqparseModel.v): [step relaxed limit s b] is one RequestParser::parse(b) call in
   parser state s, classified as the caller (ConnStateData::parseHttpRequest) sees it:
     More s' keep  = needsMoreData(), keep = remaining() is what the caller retains,
     Done f rest   = accepted: f = method id+image, target, version, header block; rest = unconsumed bytes,
     Bad (c, f)    = rejected with parseStatusCode c (f = the fields the error path reads).
   [parse_whole] parses the whole input once with a fresh parser; [parse_segments] is the caller's read
   loop over a list of segments (Incremental.drive): retained bytes ++ next segment, parse again while More;
   segments after a definitive outcome are left unconsumed behind the rest.
   [relaxed] = relaxed_header_parser, [limit] = request_header_max_size. *)
Require Import SquidV.Bytes SquidV.TokModel SquidV.Incremental SquidV.ReqparseModel SquidV.ReqparseProofs.
Require Import SquidV.gen.CharSets_gen SquidV.gen.ReqTabs_gen.
Local Open Scope N_scope.

(* --- the generic theorem: stability under extension + commuting checkpoints => segmentation independence --- *)
Theorem C21_incremental_generic :
  forall (St R E : Type) (P : St -> bytes -> res St R E) (Inv : St -> Prop) (Good : bytes -> Prop),
  stable_done St R E P Inv Good -> stable_bad St R E P Inv Good -> checkpoint_commutes St R E P Inv Good ->
  forall segs s keep, segs <> [] -> Inv s -> Good (keep ++ concat segs) ->
  Incremental.drive St R E P s keep segs = P s (keep ++ concat segs).
Proof. exact drive_oneshot. Qed.

(* --- the two facts about ONE parse() call, for every parser state, buffer and extension --- *)
(* the blame rule for an over-long line reads maxMethodLength + 2 bytes, hence the bound on the limit;
   [fits] = the buffer is one an SBuf can hold (length <= SBuf::npos) *)
Theorem C21_definitive_outcomes_stable : forall relaxed limit, req_max_method + 2 <= limit ->
  (forall s b f rest x, inv s -> fits (b ++ x) ->
     step relaxed limit s b = Done f rest -> step relaxed limit s (b ++ x) = Done f (rest ++ x)) /\
  (forall s b e x, inv s -> fits (b ++ x) ->
     step relaxed limit s b = Bad e -> step relaxed limit s (b ++ x) = Bad e).
Proof. intros relaxed limit H. exact (conj (step_stable_done relaxed limit H) (step_stable_bad relaxed limit H)). Qed.

Theorem C21_checkpoints_commute : forall relaxed limit, req_max_method + 2 <= limit ->
  forall s b s' keep x, inv s -> fits (b ++ x) ->
    step relaxed limit s b = More s' keep ->
    step relaxed limit s (b ++ x) = step relaxed limit s' (keep ++ x) /\ inv s' /\ fits (keep ++ x).
Proof. exact step_checkpoint_commutes. Qed.

(* --- C21 itself --- *)
(* for every input, every way of delivering it (>= 1 segment, empty segments allowed), both modes, every
   limit >= maxMethodLength + 2: the read loop ends in the outcome of the one-shot parse — same kind,
   same status, same method/target/version/header block, same unconsumed rest (hence consumed length) *)
Theorem C21_segmentation_independent : forall relaxed limit, req_max_method + 2 <= limit ->
  forall segs, segs <> [] -> lenN (concat segs) <= npos ->
  parse_segments relaxed limit segs = parse_whole relaxed limit (concat segs).
Proof. exact req_parse_segmentation_independent. Qed.

Theorem C21_any_two_segmentations_agree : forall relaxed limit segs1 segs2,
  req_max_method + 2 <= limit -> segs1 <> [] -> segs2 <> [] -> concat segs1 = concat segs2 ->
  lenN (concat segs1) <= npos ->
  parse_segments relaxed limit segs1 = parse_segments relaxed limit segs2.
Proof. intros relaxed limit segs1 segs2 H. exact (req_parse_two_segmentations relaxed limit H segs1 segs2). Qed.

(* the same from any checkpoint reached earlier on the connection *)
Theorem C21_segmentation_independent_from_checkpoint : forall relaxed limit, req_max_method + 2 <= limit ->
  forall segs s keep, segs <> [] -> inv s -> lenN (keep ++ concat segs) <= npos ->
  drive relaxed limit s keep segs = step relaxed limit s (keep ++ concat segs).
Proof. exact req_parse_segmentation_independent_from. Qed.

(* the parser state invariant used above holds initially (and is re-established by every More, see
   C21_checkpoints_commute): parseStatusCode is never the internal scHeaderTooLarge between calls *)
Theorem C21_invariant_initially : inv rst0.
Proof. exact inv_rst0. Qed.

(* --- the bound on the limit is needed: with request_header_max_size below maxMethodLength + 2 the
       blame rule sees a different window when the line arrives in pieces --- *)
Theorem C21_small_limit_refuted : exists relaxed limit segs,
  limit < req_max_method + 2 /\ segs <> [] /\
  parse_segments relaxed limit segs <> parse_whole relaxed limit (concat segs).
Proof. exact req_parse_small_limit_refuted. Qed.

(* non-vacuity: the hypotheses hold for the default configuration and concrete segmentations *)
Example C21_default_limit_ok : req_max_method + 2 <= 65536.
Proof. vm_compute. discriminate. Qed.
(* "\r" | "\nGET / HTTP/1.1\r\n\r\n", relaxed: accepted both ways (F2, repaired in 9e13bb5) *)
Example C21_example_lone_cr :
  parse_segments true 65536 [[13]; [10;71;69;84;32;47;32;72;84;84;80;47;49;46;49;13;10;13;10]] =
  parse_whole true 65536 [13;10;71;69;84;32;47;32;72;84;84;80;47;49;46;49;13;10;13;10] /\
  exists f, parse_whole true 65536 [13;10;71;69;84;32;47;32;72;84;84;80;47;49;46;49;13;10;13;10] = Done f [].
Proof. split; [vm_compute; reflexivity| eexists; vm_compute; reflexivity]. Qed.
(* a need-more checkpoint in stage MIME, then completion: "GET / HTTP/1.1\r\nA" | ": b\r\n\r\nX" *)
Example C21_example_checkpoint :
  exists s keep f,
    step true 65536 rst0 [71;69;84;32;47;32;72;84;84;80;47;49;46;49;13;10;65] = More s keep /\ keep = [65] /\
    step true 65536 s (keep ++ [58;32;98;13;10;13;10;88]) = Done f [88].
Proof. do 3 eexists. split; [vm_compute; reflexivity|]. split; [reflexivity|vm_compute; reflexivity]. Qed.

Print Assumptions C21_incremental_generic.
Print Assumptions C21_definitive_outcomes_stable.
Print Assumptions C21_checkpoints_commute.
Print Assumptions C21_segmentation_independent.
Print Assumptions C21_any_two_segmentations_agree.
Print Assumptions C21_segmentation_independent_from_checkpoint.
Print Assumptions C21_invariant_initially.
Print Assumptions C21_small_limit_refuted.
