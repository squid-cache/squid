(* Properties_C40.v — C40: FTP address replies and listings are parsed safely and strictly.
   Statements, closed by `exact` or by the few lines that assemble them; proofs live in FtpProofs.v. `ipf` is the external numeric-host lookup
   (getaddrinfo with AI_NUMERICHOST behind Ip::Address::operator=(const char * )): every statement holds for every ipf. *)
Require Import SquidV.Bytes SquidV.TokModel SquidV.FtpModel SquidV.FtpProofs.
Require Import SquidV.gen.Ftp_gen SquidV.gen.FtpSrc_gen.
Local Open Scope N_scope.

(* --- what "%d" and strtol(,,10) convert: blanks, an optional sign, a non-empty digit string; the value handed
       to the checks below is the mathematical value of the digits, whatever their number --- *)
Theorem C40_number_syntax : forall s v r,
  scan_int s = Some (v, r) ->
  exists ws sg ds,
    s = ws ++ sg ++ ds ++ r /\ forallb is_c_space ws = true /\
    (sg = [] \/ sg = [45] \/ sg = [43]) /\ ds <> [] /\ forallb is_digit ds = true /\
    v = (if list_eqb sg [45] then (- dec_value ds)%Z else dec_value ds) /\
    match r with c :: _ => is_digit c = false | [] => True end.
Proof. exact scan_int_shape. Qed.
Print Assumptions C40_number_syntax.

(* --- PORT / PASV: Ftp::ParseIpPort, with or without forceIp --- *)
(* accepted => six numbers were converted and every WRITTEN number (mathematical value of its digits, of any length)
   is an octet; the port is p1*256+p2 in 1..65535 (>= 1024 under ftp_sanitycheck); without forceIp the address is
   exactly h1.h2.h3.h4 and not 0.0.0.0; with forceIp (PASV replies under ftp_sanitycheck) the host numbers are
   validated all the same and the address is the forced one *)
Theorem C40_port_accepted_components_in_range : forall ipf sanity force buf a port,
  parse_ip_port ipf sanity force buf = Some (a, port) ->
  exists v1 v2 v3 v4 v5 v6,
    scan_commas 6 buf = [v1; v2; v3; v4; v5; v6] /\
    zoctet v1 /\ zoctet v2 /\ zoctet v3 /\ zoctet v4 /\ zoctet v5 /\ zoctet v6 /\
    port = (v5 * 256 + v6)%Z /\ (1 <= port <= 65535)%Z /\ (sanity = true -> 1024 <= port)%Z /\
    match force with
    | None => a = v4mapped v1 v2 v3 v4 /\ ~ (v1 = 0 /\ v2 = 0 /\ v3 = 0 /\ v4 = 0)%Z
    | Some t => a = assign ipf t
    end.
Proof. exact parse_ip_port_sound. Qed.
Print Assumptions C40_port_accepted_components_in_range.

(* "and otherwise are rejected": any written number outside 0..255 -- negative, huge, or beyond the long range, which
   "%ld" stores clamped to LONG_MIN / LONG_MAX (sat64 in the model) -- makes the parser refuse *)
Theorem C40_port_rejects_out_of_range_components : forall ipf sanity force buf,
  ~ Forall zoctet (scan_commas 6 buf) -> parse_ip_port ipf sanity force buf = None.
Proof. exact parse_ip_port_rejects_non_octets. Qed.
Print Assumptions C40_port_rejects_out_of_range_components.

(* --- EPRT: Ftp::ParseProtoIpPort --- *)
(* accepted => the string is <d> net-prt <d> text <d> port '|'...; the WRITTEN net-prt is 1 or 2 and agrees with the
   family of the address; the address is the lookup of exactly the delimited text (shorter than MAX_IPSTRLEN), not a
   wildcard; the MATHEMATICAL value of the port digits is in 1..65535 (>= 1024 under ftp_sanitycheck) and is the
   port returned: nothing is truncated or clamped into the valid range *)
Theorem C40_eprt_accepted_in_range : forall ipf sanity buf a port,
  parse_proto_ip_port ipf sanity buf = EOk a port ->
  exists d s pv s2 ip s3 e3,
    buf = d :: s /\
    scan_int s = Some (pv, d :: s2) /\ (pv = 1 \/ pv = 2)%Z /\
    s2 = ip ++ d :: s3 /\ forallb (fun c => negb (c =? d)) ip = true /\ lenN ip < max_ipstrlen /\
    ipf ip = Some a /\ is_any a = false /\ ((pv = 2)%Z <-> is_v4 a = false) /\
    scan_int s3 = Some (port, e3) /\ head0 e3 = 124 /\
    (1 <= port <= 65535)%Z /\ (sanity = true -> 1024 <= port)%Z.
Proof. exact parse_proto_sound. Qed.
Print Assumptions C40_eprt_accepted_in_range.

(* the parser's only precondition is a non-empty string (it reads buf[1] unconditionally) *)
Theorem C40_eprt_total_on_nonempty : forall ipf sanity buf,
  buf <> [] -> parse_proto_ip_port ipf sanity buf <> EPrecondition.
Proof. exact parse_proto_nonempty. Qed.
Print Assumptions C40_eprt_total_on_nonempty.

(* ... which the callers in src/servers/FtpServer.cc establish (re-read from the program text on every run), as they
   establish the fresh Ip::Address and the 501 answer on refusal; tbuf[] is only written by size-bounded snprintf;
   the token loop guard does not exceed the declared array size *)
Theorem C40_server_handlers_guarded :
  port_handler_guarded = true /\ eprt_handler_guarded = true /\
  tbuf_writes_are_sized_snprintf = true /\ 0 < tbuf_size /\ max_tokens <= tokens_capacity.
Proof. exact handlers_guarded. Qed.
Print Assumptions C40_server_handlers_guarded.

(* --- Ftp::UnescapeDoubleQuoted inverts FTP path quoting --- *)
Theorem C40_unescape_roundtrip : forall s rest,
  match rest with c :: _ => (c =? 34) = false | [] => True end ->
  unescape_dq (34 :: dq_escape s ++ 34 :: rest) = s.
Proof. exact unescape_roundtrip. Qed.
Print Assumptions C40_unescape_roundtrip.

(* --- listing lines: ftpListParseParts --- *)
(* every token is a non-empty blank-free piece of the line lying at its recorded offset between blanks / line ends *)
Theorem C40_listing_tokens_located : forall buf t,
  In t (all_tokens buf) ->
  t_tok t <> [] /\ forallb nonwsp (t_tok t) = true /\
  exists pre post, buf = pre ++ t_tok t ++ post /\ lenN pre = t_pos t /\ ends_blank pre /\ starts_blank post.
Proof. exact all_tokens_ok. Qed.
Print Assumptions C40_listing_tokens_located.

(* the store loop keeps exactly the first MAX_TOKENS tokens and never stores past tokens[] *)
Theorem C40_listing_token_limit : forall buf,
  store_loop max_tokens tokens_capacity (all_tokens buf) [] = Val (takeN max_tokens (all_tokens buf)).
Proof. exact stored_tokens. Qed.
Print Assumptions C40_listing_token_limit.

(* for every line and both flags: no read outside the line and its terminator, no tokens[] access outside
   [0, n_tokens), no write past tbuf[] *)
Theorem C40_listing_in_bounds : forall nlst skipws buf, list_parse nlst skipws buf <> OOB.
Proof. exact list_parse_in_bounds. Qed.
Print Assumptions C40_listing_in_bounds.

(* Unix format: the name, and for links " -> " and the target, are the tail of the line (nothing is invented) *)
Theorem C40_listing_unix_name_is_line_tail : forall skipws buf arr i p,
  unix_body skipws buf arr i = Val (Found p) ->
  exists pre, buf = pre ++ p_name p ++ match p_link p with Some l => arrow ++ l | None => [] end.
Proof. exact unix_name_is_line_tail. Qed.
Print Assumptions C40_listing_unix_name_is_line_tail.

(* --- hypotheses are satisfiable / the functions do accept --- *)
(* "1,2,3,4,5,6" *)
Example C40_ex_port : parse_ip_port (fun _ => None) true None [49;44;50;44;51;44;52;44;53;44;54]
                      = Some (v4mapped 1 2 3 4, 1286%Z).
Proof. vm_compute. reflexivity. Qed.
(* forceIp: "1,2,3,4,5,6" yields the forced address *)
Example C40_ex_portf : parse_ip_port w_ipf true (Some w_ip1234) [49;44;50;44;51;44;52;44;53;44;54]
                       = Some (v4mapped 1 2 3 4, 1286%Z).
Proof. vm_compute. reflexivity. Qed.
(* "|1|1.2.3.4|8080|" *)
Example C40_ex_eprt : parse_proto_ip_port w_ipf true ([124;49;124] ++ w_ip1234 ++ [124;56;48;56;48;124])
                      = EOk (v4mapped 1 2 3 4) 8080%Z.
Proof. vm_compute. reflexivity. Qed.
(* the reproducers of the repaired findings are refused: "1,2,3,4,4294967300,0", "4294967297,2,3,4,5,6",
   "999,2,3,4,5,6" with forceIp, "1,2,3,4,5,<10^30>" (clamped to LONG_MAX), "|4294967297|1.2.3.4|8080|" *)
Example C40_ex_port_wrap_p1 : parse_ip_port (fun _ => None) true None w_port_wrap_p1 = None.
Proof. vm_compute. reflexivity. Qed.
Example C40_ex_port_wrap_h1 : parse_ip_port (fun _ => None) false None w_port_wrap = None.
Proof. vm_compute. reflexivity. Qed.
Example C40_ex_forced_host : forall ipf t, parse_ip_port ipf true (Some t) w_forced = None.
Proof. intros. vm_compute. reflexivity. Qed.
Example C40_ex_port_clamped : parse_ip_port (fun _ => None) false None
  ([49;44;50;44;51;44;52;44;53;44;49] ++ repeat 48 30) = None.
Proof. vm_compute. reflexivity. Qed.
Example C40_ex_eprt_proto_wrap : parse_proto_ip_port w_ipf true w_eprt_wrap = EFail.
Proof. vm_compute. reflexivity. Qed.
(* "|1|1.2.3.4|65616|" (the old F7 reproducer) is refused *)
Example C40_ex_eprt_f7 : parse_proto_ip_port w_ipf false ([124;49;124] ++ w_ip1234 ++ [124;54;53;54;49;54;124]) = EFail.
Proof. vm_compute. reflexivity. Qed.
(* "-rw 1 a b 5 Jan  1  2000 x" *)
Example C40_ex_list :
  list_parse false false [45;114;119;32;49;32;97;32;98;32;53;32;74;97;110;32;32;49;32;32;50;48;48;48;32;120]
  = Val (LParts {| p_type := 45; p_size := 5%Z; p_date := Some [74;97;110;32;32;49;32;32;50;48;48;48];
                   p_name := [120]; p_link := None |}).
Proof. vm_compute. reflexivity. Qed.
Example C40_ex_unq : unescape_dq [34;97;34;34;98;34;32;120] = [97;34;98].
Proof. vm_compute. reflexivity. Qed.
(* the checked primitives do report accesses outside their objects: a guard above the capacity, an offset past the
   terminator, an index at n_tokens, an snprintf size above the array *)
Example C40_ex_oob_store : store_loop 3 2 [{| t_tok := [97]; t_pos := 0 |}; {| t_tok := [98]; t_pos := 2 |}; {| t_tok := [99]; t_pos := 4 |}] [] = OOB.
Proof. vm_compute. reflexivity. Qed.
Example C40_ex_oob_read : cstr_at [97; 98] 3 = OOB /\ cstr_at [97; 98] 2 = Val [].
Proof. vm_compute. split; reflexivity. Qed.
Example C40_ex_oob_index : tok_get [{| t_tok := [97]; t_pos := 0 |}] 1%Z = OOB /\ tok_get [{| t_tok := [97]; t_pos := 0 |}] (-1)%Z = OOB.
Proof. vm_compute. split; reflexivity. Qed.
Example C40_ex_oob_snprintf : snprintf_chk 128 129 [97] = OOB.
Proof. vm_compute. reflexivity. Qed.
