(* Properties_C05.v — C05: pipelined responses are delivered in request order, one per request.
   Statements, closed by `exact` or by the few lines that assemble them; the model is PipetunnelModel.v (part 1), proofs live in PipetunnelProofs.v.
   prun pf evs conn0 = state of one client connection after the events evs (client bytes arriving, per-request
   data callbacks, socket-write completions, in ANY order) with pipeline_prefetch = pf;
   reqs_of evs = the request heads the client sent, in order; resp_bytes r = the response of request r. *)
Require Import SquidV.Bytes SquidV.PipetunnelModel SquidV.PipetunnelProofs.
Local Open Scope N_scope.

(* the socket output is always: the complete responses of the first k requests, in request order, followed by a
   block-aligned prefix of the (k+1)-th request's own response — for every prefetch limit and every event order *)
Theorem C05_pipeline_order : forall pf evs,
  exists done more cur,
    reqs_of evs = done ++ more /\
    c_out (prun pf evs conn0) = concat (map resp_bytes done) ++ concat cur /\
    (cur = [] \/ exists r more' todo, more = r :: more' /\ rq_resp r = cur ++ todo).
Proof. exact pipeline_order. Qed.
Print Assumptions C05_pipeline_order.

(* hence never anything but a prefix of "one complete response per request, in request order" *)
Theorem C05_output_is_prefix_in_request_order : forall pf evs,
  exists rest, concat (map resp_bytes (reqs_of evs)) = c_out (prun pf evs conn0) ++ rest.
Proof. exact output_is_prefix. Qed.
Print Assumptions C05_output_is_prefix_in_request_order.

(* when no internal event is enabled any more (and the client sent complete requests), every request has
   received exactly its one complete response *)
Theorem C05_complete_when_quiescent : forall pf evs,
  let c := prun pf evs conn0 in
  c_open c = true ->
  (forall r, In r (reqs_of evs) -> rq_resp r <> []) ->
  stuck pf c ->
  c_bodyneed c = 0 -> (forall n rest, c_inbuf c <> IBody n :: rest) ->
  c_out c = concat (map resp_bytes (reqs_of evs)) /\ c_pipe c = [] /\ c_done c = reqs_of evs.
Proof. exact complete_when_quiescent. Qed.
Print Assumptions C05_complete_when_quiescent.

(* while a response is outstanding some event is enabled: the sequencer cannot deadlock *)
Theorem C05_progress : forall pf c,
  Inv c -> c_open c = true -> c_pipe c <> [] ->
  (forall s, In s (c_pipe c) -> rq_resp (st_req s) <> []) -> ~ stuck pf c.
Proof. exact progress. Qed.
Print Assumptions C05_progress.

Theorem C05_invariant_reachable : forall pf evs, Inv (prun pf evs conn0).
Proof. intros pf evs. exact (prun_inv pf evs conn0 inv0). Qed.
Print Assumptions C05_invariant_reachable.

(* a connection that Squid closed: every request up to and including the first one that did not keep the
   connection alive was answered completely; nothing else was written *)
Theorem C05_close_stops_after_response : forall pf evs,
  let c := prun pf evs conn0 in
  c_open c = false ->
  exists d r more,
    reqs_of evs = d ++ r :: more /\
    Forall (fun x => rq_keep x = true) d /\ rq_keep r = false /\
    c_out c = concat (map resp_bytes (d ++ [r])).
Proof. exact close_stops_after_response. Qed.
Print Assumptions C05_close_stops_after_response.

(* none of the assertions on this path (Pipeline::popMe FIFO, deferRecipientForLater's flags.deferred == 0,
   PushDeferredIfNeeded's out.size == 0, one Comm::Write at a time) can fail *)
Theorem C05_no_assertion_failure : forall pf evs, c_crashed (prun pf evs conn0) = false.
Proof. exact no_assertion_failure. Qed.
Print Assumptions C05_no_assertion_failure.

(* concurrentRequestQueueFilled: at most pipeline_prefetch + 1 requests are in the pipeline *)
Theorem C05_prefetch_bound : forall pf evs, lenN (c_pipe (prun pf evs conn0)) <= pf + 1.
Proof. exact prefetch_bound. Qed.
Print Assumptions C05_prefetch_bound.

(* the hypotheses are satisfiable: two pipelined requests whose data arrives in reverse order *)
Example C05_example_out_of_order_completion :
  c_out (prun 1 ex_evs conn0) = [1;1;1;2] /\ c_pipe (prun 1 ex_evs conn0) = [] /\ stuck 1 (prun 1 ex_evs conn0) /\
  reqs_of ex_evs = [ex_r1; ex_r2].
Proof.
  assert (E : prun 1 ex_evs conn0 = mkConn [] [] 2 0 true true None [1;1;1;2] [ex_r1; ex_r2] [ex_r1; ex_r2] false)
    by (vm_compute; reflexivity).
  rewrite E. split; [reflexivity|]. split; [reflexivity|]. split; [|reflexivity].
  split; [vm_compute; reflexivity| intros i; reflexivity].
Qed.
