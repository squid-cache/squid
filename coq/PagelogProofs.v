(* PagelogProofs.v — lemmas and proofs for C33 (error-page macro expansion) and C34 (access-log quoting). *)
Require Import SquidV.Bytes SquidV.QuoteModel SquidV.PagelogModel.
Require Import SquidV.gen.ByteMaps_gen SquidV.gen.ErrMacros_gen SquidV.gen.LogQuote_gen.
Local Open Scope N_scope.

(* C strings, per-byte table maps and the items of HTML-quoted text.  bytes_ok, html_item and is_quote_meta are the
   C32 notions of QuoteProofs.v; they are stated here again so that this development depends only on the
   definitions of QuoteModel.v and on the regenerated tables, not on the proofs of other properties. *)
Definition bytes_ok (s : bytes) : Prop := Forall (fun c => c < 256) s.
Definition nul_free (s : bytes) : Prop := Forall (fun c => c <> 0) s.

Lemma cstr_is_nul_free s : nul_free (cstr s).
Proof.
  induction s as [|c s IH]; cbn [cstr]; [constructor|].
  destruct (c =? 0) eqn:E; [constructor|]. constructor; [apply N.eqb_neq in E; exact E|exact IH].
Qed.

Lemma cstr_bytes_ok s : bytes_ok s -> bytes_ok (cstr s).
Proof.
  induction 1 as [|c s Hc Hs IH]; cbn [cstr]; [constructor|].
  destruct (c =? 0); constructor; assumption.
Qed.

Lemma cstr_forallb p s : forallb p s = true -> forallb p (cstr s) = true.
Proof.
  induction s as [|c s IH]; cbn [cstr forallb]; [reflexivity|]. intros H. apply andb_prop in H. destruct H as [Hc Hs].
  destruct (c =? 0); [reflexivity|]. cbn [forallb]. rewrite Hc, (IH Hs). reflexivity.
Qed.

Lemma nonzero_case c b : c <> 0 -> (c =? 0) || b = true -> b = true.
Proof. intros H. apply N.eqb_neq in H. rewrite H. auto. Qed.

Definition ref_char (c : N) : bool := negb (is_html_meta c) && negb (c =? 59).

Definition html_item (it : bytes) : Prop :=
  (exists c, it = [c] /\ is_html_meta c = false) \/
  (exists name v, it = 38 :: name ++ [59] /\ ref_value name = Some v /\ forallb ref_char name = true).

Definition html_item_b (it : bytes) : bool :=
  match it with
  | [] => false
  | c :: rest =>
    match rest with
    | [] => negb (is_html_meta c)
    | _ => (c =? 38) &&
           match rev rest with
           | [] => false
           | z :: rname => (z =? 59) && forallb ref_char (rev rname) &&
                           match ref_value (rev rname) with Some _ => true | None => false end
           end
    end
  end.

Lemma html_item_b_sound it : html_item_b it = true -> html_item it.
Proof.
  unfold html_item_b. destruct it as [|c rest]; [discriminate|].
  destruct rest as [|d rest'].
  - intros H. left. exists c. split; [reflexivity|]. now destruct (is_html_meta c).
  - intros H. apply andb_prop in H. destruct H as [Hc H]. apply N.eqb_eq in Hc. subst c.
    destruct (rev (d :: rest')) as [|z rname] eqn:E; [discriminate|].
    apply andb_prop in H. destruct H as [H Hv]. apply andb_prop in H. destruct H as [Hz Hn].
    apply N.eqb_eq in Hz. subst z.
    destruct (ref_value (rev rname)) as [v|] eqn:Ev; [|discriminate].
    right. exists (rev rname), v. repeat split; try assumption.
    f_equal. rewrite <- (rev_involutive (d :: rest')), E. reflexivity.
Qed.

Definition is_quote_meta (c : N) : bool := (c =? 60) || (c =? 62) || (c =? 34) || (c =? 39).

(* Per-byte table maps of arbitrary lists of N: an element from 256 on has the empty entry, so a check of the 256
   entries of a full table speaks for the whole image. *)
Lemma tbl_entry_high t c : lenN t = 256 -> 256 <= c -> tbl_entry t c = [].
Proof. intros Ht Hc. apply tbl_get_default. rewrite Ht. exact Hc. Qed.

Lemma forallb_map_bytes (p : N -> bool) t s : lenN t = 256 ->
  forallb (fun c => forallb p (tbl_entry t c)) all_bytes = true -> forallb p (map_bytes t s) = true.
Proof.
  intros Ht H. apply forallb_concat_map. intros c _. destruct (N.lt_ge_cases c 256) as [Hc|Hc].
  - exact (forallb_bytes _ H c Hc).
  - rewrite (tbl_entry_high t c Ht Hc). reflexivity.
Qed.

Lemma map_bytes_items (P : bytes -> Prop) t s : lenN t = 256 ->
  (forall c, c < 256 -> c <> 0 -> P (tbl_entry t c)) -> nul_free s ->
  exists items, map_bytes t s = concat items /\ Forall P items.
Proof.
  intros Ht H. induction 1 as [|c s Hc _ [items [E Hi]]]; [exists []; split; [reflexivity|constructor]|].
  change (map_bytes t (c :: s)) with (tbl_entry t c ++ map_bytes t s). rewrite E.
  destruct (N.lt_ge_cases c 256) as [Hlt|Hge].
  - exists (tbl_entry t c :: items). split; [reflexivity|]. constructor; [exact (H c Hlt Hc)|exact Hi].
  - exists items. rewrite (tbl_entry_high t c Ht Hge). split; [reflexivity|exact Hi].
Qed.

Lemma forallb_concat {A} (p : A -> bool) ls : Forall (fun l => forallb p l = true) ls -> forallb p (concat ls) = true.
Proof. induction 1 as [|l ls Hl Hs IH]; [reflexivity|]. cbn [concat]. rewrite forallb_app, Hl, IH. reflexivity. Qed.

Definition no_qmeta (b : bytes) : Prop := forallb (fun c => negb (is_quote_meta c)) b = true.
(* no less-than, greater-than, double or single quote, and every & starts a well-formed entity reference *)
Definition markup_free (b : bytes) : Prop :=
  no_qmeta b /\ exists items, b = concat items /\ Forall html_item items.

Lemma html_q_markup_free p : markup_free (html_q p).
Proof.
  split.
  - apply forallb_map_bytes; vm_compute; reflexivity.
  - apply map_bytes_items; [vm_compute; reflexivity| |apply cstr_is_nul_free].
    intros c Hc H0. apply html_item_b_sound, (nonzero_case c _ H0). clear H0.
    revert c Hc. apply forallb_bytes. vm_compute. reflexivity.
Qed.

(* rfc1738_escape_part leaves no markup metacharacter at all *)
Definition plain (c : N) : bool := negb (is_html_meta c).
Lemma escape_part_plain p : forallb plain (escape_part p) = true.
Proof. apply forallb_map_bytes; vm_compute; reflexivity. Qed.

Lemma plain_markup_free b : forallb plain b = true -> markup_free b.
Proof.
  intros H. split.
  - revert H. apply forallb_impl. intros c. unfold plain, is_html_meta, is_quote_meta.
    destruct (c =? 60), (c =? 62), (c =? 34), (c =? 39); auto.
  - induction b as [|c b IH]; [exists []; split; [reflexivity|constructor]|].
    cbn [forallb] in H. apply andb_prop in H. destruct H as [Hc Hb]. destruct (IH Hb) as [items [-> Hi]].
    exists ([c] :: items). split; [reflexivity|]. constructor; [|exact Hi].
    left. exists c. split; [reflexivity|apply Bool.negb_true_iff, Hc].
Qed.

Lemma markup_free_nil : markup_free [].
Proof. apply plain_markup_free. reflexivity. Qed.

(* Dump(): only unreserved characters, percent triplets and the two literal separators *)
Lemma unreserved_no_qmeta s : no_qmeta (uri_encode_unreserved s).
Proof. apply forallb_map_bytes; vm_compute; reflexivity. Qed.

Lemma dump_no_qmeta st : no_qmeta (dump st).
Proof.
  unfold no_qmeta, dump. rewrite !forallb_app.
  rewrite (unreserved_no_qmeta s_cache_error_info), (unreserved_no_qmeta (e_page_name st)),
          (unreserved_no_qmeta (e_dump_body st)). reflexivity.
Qed.

Definition dq_kind (l : N) : N :=
  match assocN l em_cases with Some ((dq, _), _) => dq | None => fst em_default end.
Definition nue_kind (l : N) : N :=
  match assocN l em_cases with Some ((_, nue), _) => nue | None => snd em_default end.

Definition letters_of_class (f : srcclass -> bool) : list N :=
  map fst (filter (fun e => f (snd e)) class_table).
Definition is_Client (c : srcclass) : bool := match c with Client => true | _ => false end.
Definition client_letters : list N := letters_of_class is_Client.

Lemma assocN_in {A} (l : list (N * A)) k v : assocN k l = Some v -> In (k, v) l.
Proof.
  induction l as [|[k' v'] r IH]; cbn [assocN]; [discriminate|].
  destruct (k =? k') eqn:E; intros H.
  - apply N.eqb_eq in E. subst k'. injection H as <-. left. reflexivity.
  - right. apply IH, H.
Qed.

Lemma is_client_in l : is_client l = true -> In l client_letters.
Proof.
  unfold is_client, src_class. destruct (assocN l class_table) as [c|] eqn:E; [|discriminate].
  intros H. apply assocN_in in E. unfold client_letters, letters_of_class.
  apply in_map_iff. exists (l, c). split; [reflexivity|]. apply filter_In. split; [exact E|].
  cbn [snd]. destruct c; try discriminate. reflexivity.
Qed.

(* no case of a client-controlled letter assigns do_quote *)
Lemma client_letters_dq : forallb (fun l => dq_kind l =? 0) client_letters = true.
Proof. vm_compute. reflexivity. Qed.

Lemma client_dq l : is_client l = true -> dq_kind l = 0.
Proof. intros H. apply N.eqb_eq, (proj1 (forallb_forall _ _) client_letters_dq), is_client_in, H. Qed.

(* every letter the hand-written classes call client-controlled has a case of its own in the switch *)
Lemma client_letters_have_cases : forallb (fun l => match assocN l em_cases with Some _ => true | None => false end)
                                          client_letters = true.
Proof. vm_compute. reflexivity. Qed.

Definition piece_ok (st : estate) (p : piece) : Prop :=
  match p with
  | PMac l out =>
    (is_client l = true -> markup_free out) /\
    (l = 87 -> no_qmeta out) /\
    (l = 103 -> e_ftp_listing st = None -> markup_free out)
  | _ => True
  end.

Lemma markup_free_piece_ok st l out : markup_free out -> piece_ok st (PMac l out).
Proof. intros H. cbn [piece_ok]. repeat split; intros; try exact H; apply H. Qed.

(* what the epilogue appends for the value v: q = html_quote runs, u = rfc1738_escape_part runs *)
Definition mac_out (q u : bool) (v : bytes) : bytes :=
  let p := cstr v in let p := if q then html_q p else p in if u then escape_part p else p.

Lemma mac_out_quoted u v : markup_free (mac_out true u v).
Proof. destruct u; [apply plain_markup_free, escape_part_plain|apply html_q_markup_free]. Qed.

(* a case that does not clear do_quote appends one quoted piece *)
Lemma epilogue_do_quote deny l nuek r : exists out, epilogue deny l 0 nuek r = [PMac l out] /\ markup_free out.
Proof.
  exists (mac_out true (deny && negb (flag_ran nuek (sw_cond r))) (sw_val r)).
  split; [unfold epilogue; destruct (sw_nested r); reflexivity|apply mac_out_quoted].
Qed.

Lemma epilogue_quoted deny l nuek r :
  Forall (fun p => match p with PMac _ out => markup_free out | _ => True end) (epilogue deny l 0 nuek r).
Proof. destruct (epilogue_do_quote deny l nuek r) as [out [-> H]]. constructor; [exact H|constructor]. Qed.

Lemma epilogue_quoted_ok st deny l nuek r : Forall (piece_ok st) (epilogue deny l 0 nuek r).
Proof.
  destruct (epilogue_do_quote deny l nuek r) as [out [-> H]]. constructor; [apply markup_free_piece_ok, H|constructor].
Qed.

Lemma deny_break_piece_ok st l : Forall (piece_ok st) (epilogue true l 0 0 (sv [])).
Proof. apply epilogue_quoted_ok. Qed.

(* in general: the recursively compiled pieces as they are, or one piece *)
Lemma epilogue_pieces (P : piece -> Prop) deny l dqk nuek r :
  (forall inner, sw_nested r = Some inner -> Forall P inner) ->
  P (PMac l (mac_out (negb (flag_ran dqk (sw_cond r))) (deny && negb (flag_ran nuek (sw_cond r))) (sw_val r))) ->
  Forall P (epilogue deny l dqk nuek r).
Proof.
  intros Hn Hp. unfold epilogue. cbv zeta. destruct (sw_nested r) as [inner|].
  - match goal with |- Forall P (if ?b then _ else _) => destruct b end;
      [apply Hn; reflexivity|constructor; [exact Hp|constructor]].
  - constructor; [exact Hp|constructor].
Qed.

Lemma legacy_switch_nested rec st deny allowRec insig l two r :
  legacy_switch rec st deny allowRec insig l two = Some r ->
  forall inner, sw_nested r = Some inner -> exists a i t, rec a i t = Some inner.
Proof.
  unfold legacy_switch. destruct (l =? 68).
  { destruct (negb allowRec); [intros H; injection H as <-; discriminate|].
    destruct (e_detail_verbose st) as [raw|]; [|intros H; injection H as <-; discriminate].
    destruct (rec false insig raw) as [inner0|] eqn:E; [|discriminate].
    destruct (is_empty (flatten inner0)); intros H; injection H as <-; cbn [sw_nested svc]; intros inner Hi;
      [discriminate|]. injection Hi as <-. eauto. }
  destruct (l =? 83).
  { destruct deny; [intros H; injection H as <-; discriminate|].
    destruct (negb insig); [|intros H; injection H as <-; discriminate].
    destruct (rec true true (e_sig_template st)) as [inner0|] eqn:E; [|discriminate].
    intros H; injection H as <-. cbn [sw_nested]. intros inner Hi. injection Hi as <-. eauto. }
  destruct (plain_switch st deny l two) as [v c]. intros H; injection H as <-. discriminate.
Qed.

(* what the switch leaves for %W and %g *)
Lemma legacy_switch_W rec st deny allowRec insig two r :
  legacy_switch rec st deny allowRec insig 87 two = Some r -> no_qmeta (sw_val r).
Proof.
  cbv [legacy_switch plain_switch]. change (87 =? 68) with false. change (87 =? 83) with false. cbv iota.
  intros H. injection H as <-. cbn [sw_val].
  destruct (e_admin_email st); [|reflexivity]. destruct (e_email_err_data st); [apply dump_no_qmeta|reflexivity].
Qed.

Lemma legacy_switch_g rec st deny allowRec insig two r :
  e_ftp_listing st = None -> legacy_switch rec st deny allowRec insig 103 two = Some r -> sw_cond r = false.
Proof.
  intros Hl. cbv [legacy_switch plain_switch]. change (103 =? 68) with false. change (103 =? 83) with false. cbv iota.
  rewrite Hl. intros H. injection H as <-. reflexivity.
Qed.

(* compileLegacyCode either breaks early (deny_info) or runs the epilogue with the flags of the letter's case
   on what the switch left *)
Lemma legacy_code_inv rec st deny allowRec insig l two ps :
  legacy_code rec st deny allowRec insig l two = Some ps ->
  ps = epilogue deny l 0 0 (sv []) \/
  exists r, ps = epilogue deny l (dq_kind l) (nue_kind l) r /\
            (legacy_switch rec st deny allowRec insig l two = Some r \/ assocN l em_cases = None /\ r = sv two).
Proof.
  unfold legacy_code, dq_kind, nue_kind. destruct (assocN l em_cases) as [[[dqk nuek] [db ft]]|].
  - destruct (deny && db); [intros H; injection H as <-; left; reflexivity|].
    destruct (legacy_switch rec st deny allowRec insig l two) as [r|]; [|discriminate].
    intros H; injection H as <-. right. exists r. split; [reflexivity|left; reflexivity].
  - intros H; injection H as <-. right. exists (sv two). split; [reflexivity|right; split; reflexivity].
Qed.

Lemma client_macro_quoted rec st deny allowRec insig l two ps :
  is_client l = true -> legacy_code rec st deny allowRec insig l two = Some ps ->
  exists out, ps = [PMac l out] /\ markup_free out.
Proof.
  intros Hc H. apply legacy_code_inv in H. rewrite (client_dq l Hc) in H.
  destruct H as [->|[r [-> _]]]; apply epilogue_do_quote.
Qed.

Lemma legacy_code_ok rec st deny allowRec insig l two ps :
  (forall a i t ps', rec a i t = Some ps' -> Forall (piece_ok st) ps') ->
  legacy_code rec st deny allowRec insig l two = Some ps -> Forall (piece_ok st) ps.
Proof.
  intros Hrec H. apply legacy_code_inv in H. destruct H as [->|[r [-> Hr]]]; [apply epilogue_quoted_ok|].
  apply epilogue_pieces.
  { (* recursively compiled text keeps its pieces *)
    destruct Hr as [Hr|[_ ->]]; [|discriminate]. intros inner Hi.
    destruct (legacy_switch_nested _ _ _ _ _ _ _ _ Hr inner Hi) as [a [i [t Ht]]]. exact (Hrec _ _ _ _ Ht). }
  cbn [piece_ok]. split; [|split].
  - (* client-controlled letter: its case never clears do_quote *)
    intros Hc. rewrite (client_dq l Hc). apply mac_out_quoted.
  - (* %W clears do_quote and sets no_urlescape: the value goes out as Dump left it *)
    intros ->. destruct Hr as [Hr|[E _]]; [|discriminate E]. apply legacy_switch_W in Hr.
    change (no_qmeta (mac_out false (deny && false) (sw_val r))). rewrite Bool.andb_false_r. apply cstr_forallb, Hr.
  - (* %g clears do_quote only when it has the listing *)
    intros -> Hl. destruct Hr as [Hr|[E _]]; [|discriminate E]. apply (legacy_switch_g _ _ _ _ _ _ _ Hl) in Hr.
    change (flag_ran (dq_kind 103) (sw_cond r)) with (sw_cond r). rewrite Hr. apply mac_out_quoted.
Qed.

Lemma scan_ok rec st deny allowRec insig :
  (forall a i t ps', rec a i t = Some ps' -> Forall (piece_ok st) ps') ->
  forall inp skip ps, scan rec st deny allowRec insig skip inp = Some ps -> Forall (piece_ok st) ps.
Proof.
  intros Hrec. induction inp as [|c r IH]; intros skip ps; cbn [scan].
  - intros H; injection H as <-. constructor.
  - destruct (c =? 0); [intros H; injection H as <-; constructor|].
    destruct skip as [|k]; [|apply IH].
    destruct (c =? 37).
    { destruct (legacy_code rec st deny allowRec insig _ _) as [ps1|] eqn:El; [|discriminate].
      destruct (scan rec st deny allowRec insig _ r) as [rest|] eqn:Es; [|discriminate].
      intros H; injection H as <-. apply Forall_app. split.
      - eapply legacy_code_ok; [exact Hrec|exact El].
      - eapply IH. exact Es. }
    destruct ((c =? 64) && starts_with (c :: r) s_magic).
    { destruct (logformat_code st (c :: r)) as [[out k]|].
      - destruct (scan rec st deny allowRec insig k r) as [rest|] eqn:Es; [|discriminate].
        intros H; injection H as <-. constructor; [exact I|]. eapply IH. exact Es.
      - intros H; injection H as <-. constructor; [exact I|constructor]. }
    destruct (scan rec st deny allowRec insig 0 r) as [rest|] eqn:Es; [|discriminate].
    intros H; injection H as <-. constructor; [exact I|]. eapply IH. exact Es.
Qed.

Theorem compile_ok : forall fuel st deny allowRec insig tpl ps,
  compile fuel st deny allowRec insig tpl = Some ps -> Forall (piece_ok st) ps.
Proof.
  induction fuel as [|f IH]; intros st deny allowRec insig tpl ps; cbn [compile]; [discriminate|].
  apply scan_ok. intros a i t ps' H. eapply IH. exact H.
Qed.

(* ---------- the recursion is bounded: %D needs allowRecursion and clears it, %S needs page_id <> SIGNATURE
   and sets it ---------- *)
Definition depth (allowRec insig : bool) : nat := ((if insig then 0 else 2) + (if allowRec then 1 else 0))%nat.

Lemma legacy_code_total rec st deny allowRec insig l two :
  (forall a i t, (depth a i < depth allowRec insig)%nat -> rec a i t <> None) ->
  legacy_code rec st deny allowRec insig l two <> None.
Proof.
  intros Hrec. unfold legacy_code.
  destruct (assocN l em_cases) as [[[dqk nuek] [db ft]]|]; [|discriminate].
  destruct (deny && db); [discriminate|].
  assert (Hs : legacy_switch rec st deny allowRec insig l two <> None).
  { unfold legacy_switch. destruct (l =? 68).
    { destruct allowRec; cbn [negb]; [|discriminate].
      destruct (e_detail_verbose st) as [raw|]; [|discriminate].
      destruct (rec false insig raw) eqn:E.
      - destruct (is_empty _); discriminate.
      - exfalso. apply (Hrec false insig raw); [destruct insig; cbn; lia|exact E]. }
    destruct (l =? 83).
    { destruct deny; [discriminate|]. destruct insig; cbn [negb]; [discriminate|].
      destruct (rec true true (e_sig_template st)) eqn:E; [discriminate|].
      exfalso. apply (Hrec true true (e_sig_template st)); [destruct allowRec; cbn; lia|exact E]. }
    destruct (plain_switch st deny l two). discriminate. }
  destruct (legacy_switch rec st deny allowRec insig l two); [discriminate|contradiction].
Qed.

Lemma scan_total rec st deny allowRec insig :
  (forall a i t, (depth a i < depth allowRec insig)%nat -> rec a i t <> None) ->
  forall inp skip, scan rec st deny allowRec insig skip inp <> None.
Proof.
  intros Hrec. induction inp as [|c r IH]; intros skip; cbn [scan]; [discriminate|].
  destruct (c =? 0); [discriminate|]. destruct skip as [|k]; [|apply IH].
  destruct (c =? 37).
  { pose proof (legacy_code_total rec st deny allowRec insig (match r with [] => 0 | l :: _ => l end)
                                  [c; match r with [] => 0 | l :: _ => l end] Hrec) as Hl.
    destruct (legacy_code rec st deny allowRec insig _ _); [|contradiction].
    match goal with |- context [scan rec st deny allowRec insig ?k r] => pose proof (IH k) as Hs;
      destruct (scan rec st deny allowRec insig k r) end; [discriminate|contradiction]. }
  destruct ((c =? 64) && starts_with (c :: r) s_magic).
  { destruct (logformat_code st (c :: r)) as [[out k]|]; [|discriminate].
    pose proof (IH k) as Hs. destruct (scan rec st deny allowRec insig k r); [discriminate|contradiction]. }
  pose proof (IH 0%nat) as Hs. destruct (scan rec st deny allowRec insig 0 r); [discriminate|contradiction].
Qed.

Theorem compile_total : forall fuel st deny allowRec insig tpl,
  (depth allowRec insig < fuel)%nat -> compile fuel st deny allowRec insig tpl <> None.
Proof.
  induction fuel as [|f IH]; intros st deny allowRec insig tpl Hd; [lia|]. cbn [compile].
  apply scan_total. intros a i t Hlt. apply IH. lia.
Qed.

(* the two entry points: the body of an error page and the Location of a deny_info redirect *)
Lemma compile_top st deny template :
  exists pieces, compile compile_fuel st deny true false template = Some pieces /\ Forall (piece_ok st) pieces.
Proof.
  destruct (compile compile_fuel st deny true false template) as [ps|] eqn:E.
  - exists ps. split; [reflexivity|exact (compile_ok _ _ _ _ _ _ _ E)].
  - exfalso. apply (compile_total compile_fuel st deny true false template); [unfold depth, compile_fuel; lia|exact E].
Qed.

Theorem build_body_total st tpl : build_body st tpl <> None.
Proof. unfold build_body. destruct (compile_top st false tpl) as [ps [-> _]]. discriminate. Qed.
Theorem build_deny_info_url_total st tpl : build_deny_info_url st tpl <> None.
Proof. unfold build_deny_info_url. destruct (compile_top st true tpl) as [ps [-> _]]. discriminate. Qed.

Definition no_crlf (c : N) : bool := negb (c =? 10) && negb (c =? 13).
Definition no_sp (c : N) : bool := negb (c =? 32).

(* ---------- the hand-written entries are what the code computes (regenerated tables) ---------- *)
Lemma entry_table (e : N -> bytes) t :
  forallb (fun c => (c =? 0) || list_eqb (e c) (tbl_entry t c)) all_bytes = true ->
  forall c, c < 256 -> c <> 0 -> e c = tbl_entry t c.
Proof. intros H c Hc H0. apply list_eqb_eq, (nonzero_case c _ H0), (forallb_bytes _ H c Hc). Qed.

Lemma lqs_entry_table c : c < 256 -> c <> 0 -> lqs_entry c = tbl_entry bm_log_quoted_string c.
Proof. revert c. apply entry_table. vm_compute. reflexivity. Qed.
Lemma mime_entry_table c : c < 256 -> c <> 0 -> mime_entry c = tbl_entry bm_mimeblob c.
Proof. revert c. apply entry_table. vm_compute. reflexivity. Qed.
Lemma user_entry_table c : c < 256 -> c <> 0 -> user_entry c = tbl_entry bm_username_quote c.
Proof. revert c. apply entry_table. vm_compute. reflexivity. Qed.

(* ---------- no raw line break in any quoted form ---------- *)
Lemma lqs_no_crlf s : forallb no_crlf (log_quoted_string s) = true.
Proof.
  apply forallb_concat_map. intros c _. unfold lqs_entry, no_crlf.
  destruct (c =? 13) eqn:E13; [reflexivity|]. destruct (c =? 10) eqn:E10; [reflexivity|].
  destruct (c =? 9); [reflexivity|]. destruct ((c =? 34) || (c =? 92)); cbn [forallb]; rewrite E13, E10; reflexivity.
Qed.

Lemma hex_lower_neq d x : x < 48 -> (hex_lower d =? x) = false.
Proof. intros H. apply N.eqb_neq. unfold hex_lower. destruct (d <? 10); lia. Qed.

Lemma mime_no_crlf s : forallb no_crlf (mime_blob s) = true.
Proof.
  apply forallb_concat_map. intros c _. unfold mime_entry, no_crlf.
  destruct (c =? 13) eqn:E13; [reflexivity|]. destruct (c =? 10) eqn:E10; [reflexivity|].
  destruct ((c <=? 31) || (127 <=? c) || (c =? 37) || (c =? 91) || (c =? 93)).
  - cbn [forallb]. rewrite !hex_lower_neq by reflexivity. reflexivity.
  - destruct (c =? 92); [reflexivity|]. cbn [forallb]. rewrite E13, E10. reflexivity.
Qed.

Lemma shell_body_no_crlf s : forallb no_crlf (concat (map shell_entry s)) = true.
Proof.
  apply forallb_concat_map. intros c _. unfold shell_entry, no_crlf.
  destruct (c =? 10) eqn:E10; [reflexivity|]. destruct (c =? 13) eqn:E13; [reflexivity|].
  destruct ((c =? 34) || (c =? 92)); cbn [forallb]; rewrite E13, E10; reflexivity.
Qed.
Lemma shell_no_crlf s : forallb no_crlf (shell_quote s) = true.
Proof.
  unfold shell_quote. destruct (has_space (cstr s)); [|apply shell_body_no_crlf].
  rewrite !forallb_app, shell_body_no_crlf. reflexivity.
Qed.

Lemma url_no_crlf_sp s : forallb (fun c => no_crlf c && no_sp c) (url_quote s) = true.
Proof. apply forallb_map_bytes; vm_compute; reflexivity. Qed.
Lemma default_no_crlf_sp s : forallb (fun c => no_crlf c && no_sp c) (default_quote s) = true.
Proof. apply forallb_map_bytes; vm_compute; reflexivity. Qed.

(* ---------- quoted-string style: delimited by the next unescaped double quote, and reversible ---------- *)
Lemma unbackslash_quote c : (c =? 34) || (c =? 92) = true -> unbackslash c = c /\ unbackslash_sh c = c.
Proof.
  intros H. apply Bool.orb_true_iff in H. destruct H as [H|H]; apply N.eqb_eq in H; subst c; split; reflexivity.
Qed.

Lemma read_quoted_lqs_entry c r : c <> 0 ->
  read_quoted unbackslash (lqs_entry c ++ r) =
  match read_quoted unbackslash r with Some (f, rest) => Some (c :: f, rest) | None => None end.
Proof.
  intros _. unfold lqs_entry.
  destruct (N.eqb_spec c 13) as [->|_]; [reflexivity|]. destruct (N.eqb_spec c 10) as [->|_]; [reflexivity|].
  destruct (N.eqb_spec c 9) as [->|_]; [reflexivity|].
  destruct ((c =? 34) || (c =? 92)) eqn:Eq.
  - cbn [app read_quoted]. change (92 =? 34) with false. change (92 =? 92) with true. cbv iota.
    rewrite (proj1 (unbackslash_quote c Eq)). reflexivity.
  - apply Bool.orb_false_iff in Eq. destruct Eq as [E34 E92]. cbn [app read_quoted]. rewrite E34, E92. reflexivity.
Qed.

Theorem quoted_string_delimited s rest :
  read_quoted unbackslash (log_quoted_string s ++ 34 :: rest) = Some (cstr s, rest).
Proof.
  unfold log_quoted_string. induction (cstr_is_nul_free s) as [|c l Hc _ IH]; [reflexivity|].
  cbn [map concat]. rewrite <- app_assoc, read_quoted_lqs_entry by exact Hc. rewrite IH. reflexivity.
Qed.

(* ---------- URL and default styles: no space, so delimited by the next space ---------- *)
Lemma read_until_app stop a rest :
  forallb (fun c => negb (c =? stop)) a = true -> read_until stop (a ++ stop :: rest) = Some (a, rest).
Proof.
  induction a as [|c a IH]; cbn [app read_until forallb].
  - rewrite N.eqb_refl. reflexivity.
  - intros H. apply andb_prop in H. destruct H as [Hc Ha]. apply Bool.negb_true_iff in Hc. rewrite Hc, (IH Ha). reflexivity.
Qed.

Lemma read_until_space a rest :
  forallb (fun c => no_crlf c && no_sp c) a = true -> read_until 32 (a ++ 32 :: rest) = Some (a, rest).
Proof. intros H. apply read_until_app. revert H. apply forallb_impl. intros x H. apply andb_prop in H. apply H. Qed.

Theorem url_delimited s rest : read_until 32 (url_quote s ++ 32 :: rest) = Some (url_quote s, rest).
Proof. apply read_until_space, url_no_crlf_sp. Qed.
Theorem default_delimited s rest : read_until 32 (default_quote s ++ 32 :: rest) = Some (default_quote s, rest).
Proof. apply read_until_space, default_no_crlf_sp. Qed.

(* a decoder that undoes each item undoes the quoted string *)
Lemma decode_concat_map {A B} (dec : list B -> option (list A)) (e : A -> list B) l : dec [] = Some [] ->
  Forall (fun c => forall r, dec (e c ++ r) = option_map (cons c) (dec r)) l -> dec (concat (map e l)) = Some l.
Proof. intros H0. induction 1 as [|c l Hc _ IH]; [exact H0|]. cbn [map concat]. rewrite Hc, IH. reflexivity. Qed.

(* for a per-byte rule e: it is enough that every entry except that of NUL passes a test ok that makes the decoder
   give the byte back *)
Lemma decode_entries (dec : bytes -> option bytes) (ok : N -> bytes -> bool) (e : N -> bytes) s :
  dec [] = Some [] -> (forall c x r, ok c x = true -> dec (x ++ r) = option_map (cons c) (dec r)) ->
  forallb (fun c => (c =? 0) || ok c (e c)) all_bytes = true ->
  bytes_ok s -> dec (concat (map e (cstr s))) = Some (cstr s).
Proof.
  intros H0 Hok Hall Hb. apply decode_concat_map; [exact H0|].
  pose proof (cstr_bytes_ok s Hb) as Hb'. pose proof (cstr_is_nul_free s) as Hn.
  induction Hn as [|c l Hc _ IH]; constructor; inversion Hb'; subst; [|auto].
  intros r. apply Hok, (nonzero_case c _ Hc), (forallb_bytes _ Hall). assumption.
Qed.

(* URL style is reversible: percent-decoding (QuoteModel.pct_decode, the structural RFC 3986 decoder) gives the
   value back, because flag set 3 escapes the percent sign itself.  (That Squid's own rfc1738_unescape computes
   this decoding on escaped strings is C31's theorem.) *)
Definition pct_item_ok (c : N) (e : bytes) : bool :=
  match e with
  | [x] => (x =? c) && negb (x =? 37)
  | [p; h1; h2] => (p =? 37) && match hexval h1, hexval h2 with Some a, Some b => 16 * a + b =? c | _, _ => false end
  | _ => false
  end.
Lemma pct_decode_item_ok c e r : pct_item_ok c e = true -> pct_decode (e ++ r) = option_map (cons c) (pct_decode r).
Proof.
  unfold pct_item_ok. destruct e as [|x [|y [|z [|w e]]]]; try discriminate.
  - intros H. apply andb_prop in H. destruct H as [Hx H37]. apply N.eqb_eq in Hx. subst x.
    apply Bool.negb_true_iff in H37. cbn [app pct_decode]. rewrite H37. reflexivity.
  - intros H. apply andb_prop in H. destruct H as [Hp H]. apply N.eqb_eq in Hp. subst x.
    cbn [app pct_decode]. change (37 =? 37) with true. cbv iota.
    destruct (hexval y) as [a|]; [|discriminate]. destruct (hexval z) as [b|]; [|discriminate].
    apply N.eqb_eq in H. subst c. reflexivity.
Qed.

Theorem url_reversible s : bytes_ok s -> pct_decode (url_quote s) = Some (cstr s).
Proof. apply (decode_entries pct_decode pct_item_ok); [reflexivity|exact pct_decode_item_ok|vm_compute; reflexivity]. Qed.

Definition mime_item_rt (c : N) (e : bytes) : bool :=
  match e with
  | [x] => (x =? c) && negb (x =? 37) && negb (x =? 92)
  | [p; h1; h2] =>
    (p =? 37) && match hexval h1, hexval h2 with Some a, Some b => 16 * a + b =? c | _, _ => false end
  | [b; e'] => (b =? 92) && (((e' =? 114) && (c =? 13)) || ((e' =? 110) && (c =? 10)) || ((e' =? 92) && (c =? 92)))
  | _ => false
  end.

Lemma mime_decode_item c e r : mime_item_rt c e = true ->
  mime_decode (e ++ r) = option_map (cons c) (mime_decode r).
Proof.
  unfold mime_item_rt. destruct e as [|x [|y [|z [|w e]]]]; try discriminate.
  - intros H. apply andb_prop in H. destruct H as [H H92]. apply andb_prop in H. destruct H as [Hx H37].
    apply N.eqb_eq in Hx. subst x. apply Bool.negb_true_iff in H37. apply Bool.negb_true_iff in H92.
    cbn [app mime_decode]. rewrite H37, H92. reflexivity.
  - intros H. apply andb_prop in H. destruct H as [Hb H]. apply N.eqb_eq in Hb. subst x.
    cbn [app mime_decode]. change (92 =? 37) with false. change (92 =? 92) with true. cbv iota.
    apply Bool.orb_true_iff in H. destruct H as [H|H]; [apply Bool.orb_true_iff in H; destruct H as [H|H]|];
      apply andb_prop in H; destruct H as [He Hc]; apply N.eqb_eq in He; apply N.eqb_eq in Hc; subst; reflexivity.
  - intros H. apply andb_prop in H. destruct H as [Hp H]. apply N.eqb_eq in Hp. subst x.
    cbn [app mime_decode]. change (37 =? 37) with true. cbv iota.
    destruct (hexval y) as [a|]; [|discriminate]. destruct (hexval z) as [b|]; [|discriminate].
    apply N.eqb_eq in H. subst c. reflexivity.
Qed.

Theorem mime_reversible s : bytes_ok s -> mime_decode (mime_blob s) = Some (cstr s).
Proof. apply (decode_entries mime_decode mime_item_rt); [reflexivity|exact mime_decode_item|vm_compute; reflexivity]. Qed.

(* the form is printable ASCII without brackets: inside [ ] it is delimited by the closing bracket *)
Definition mime_out_ok (c : N) : bool := (32 <=? c) && (c <? 127) && negb (c =? 91) && negb (c =? 93).

Lemma mime_alphabet s : bytes_ok s -> forallb mime_out_ok (mime_blob s) = true.
Proof.
  intros Hb. apply forallb_concat_map. intros c Hc.
  apply (forallb_bytes (fun c => forallb mime_out_ok (mime_entry c))); [vm_compute; reflexivity|].
  exact (proj1 (Forall_forall _ _) (cstr_bytes_ok _ Hb) c Hc).
Qed.

Theorem mime_bracket_delimited s rest : bytes_ok s ->
  read_bracketed (mime_blob s ++ 93 :: rest) = Some (cstr s, rest).
Proof.
  intros Hb. unfold read_bracketed. rewrite read_until_app.
  - rewrite (mime_reversible s Hb). reflexivity.
  - eapply forallb_impl; [|apply (mime_alphabet s Hb)]. intros x H. unfold mime_out_ok in H.
    apply andb_prop in H. apply H.
Qed.

(* the two-pass definition is the per-byte rule user_entry *)
Lemma encode_spaces_mime_entry c : encode_spaces (mime_entry c) = user_entry c.
Proof.
  unfold user_entry. destruct (N.eqb_spec c 32) as [->|E]; [reflexivity|]. apply N.eqb_neq in E.
  unfold mime_entry.
  destruct (c =? 13); [reflexivity|]. destruct (c =? 10); [reflexivity|].
  destruct ((c <=? 31) || (127 <=? c) || (c =? 37) || (c =? 91) || (c =? 93)).
  - cbv [encode_spaces space_entry map concat app]. rewrite !hex_lower_neq by reflexivity. reflexivity.
  - destruct (c =? 92); [reflexivity|]. cbv [encode_spaces space_entry map concat app]. rewrite E. reflexivity.
Qed.

Lemma encode_spaces_mime_blob s : encode_spaces (mime_blob s) = concat (map user_entry (cstr s)).
Proof.
  unfold mime_blob. induction (cstr s) as [|c l IH]; [reflexivity|]. cbn [map concat].
  rewrite <- IH, <- encode_spaces_mime_entry. unfold encode_spaces. rewrite map_app, concat_app. reflexivity.
Qed.

Definition user_out_ok (c : N) : bool := no_crlf c && no_sp c.
Lemma user_alphabet s : forallb user_out_ok (concat (map user_entry (cstr s))) = true.
Proof.
  apply forallb_concat_map. intros c _. unfold user_entry, mime_entry, user_out_ok, no_crlf, no_sp.
  destruct (c =? 32) eqn:E32; [reflexivity|].
  destruct (c =? 13) eqn:E13; [reflexivity|]. destruct (c =? 10) eqn:E10; [reflexivity|].
  destruct ((c <=? 31) || (127 <=? c) || (c =? 37) || (c =? 91) || (c =? 93)).
  - cbn [forallb]. rewrite !hex_lower_neq by reflexivity. reflexivity.
  - destruct (c =? 92); [reflexivity|]. cbn [forallb]. rewrite E32, E13, E10. reflexivity.
Qed.

Lemma user_decodes s : bytes_ok s -> mime_decode (concat (map user_entry (cstr s))) = Some (cstr s).
Proof. apply (decode_entries mime_decode mime_item_rt); [reflexivity|exact mime_decode_item|vm_compute; reflexivity]. Qed.

(* the user-name field of the built-in format: for EVERY user name, the logged form has no space and no line break,
   is therefore delimited by the next space whatever follows, and decodes back to the name *)
Theorem username_field_delimited name q rest : bytes_ok name -> username_quote (Some name) = Some q ->
  forallb user_out_ok q = true /\
  read_until 32 (q ++ 32 :: rest) = Some (q, rest) /\
  mime_decode q = Some (cstr name).
Proof.
  intros Hb. unfold username_quote. destruct (is_empty (cstr name)); [discriminate|].
  intros H. injection H as <-. rewrite encode_spaces_mime_blob.
  split; [apply user_alphabet|]. split; [apply read_until_space, user_alphabet|apply user_decodes, Hb].
Qed.

Lemma read_quoted_shell_entry c r : c <> 0 ->
  read_quoted unbackslash_sh (shell_entry c ++ r) =
  match read_quoted unbackslash_sh r with Some (f, rest) => Some (c :: f, rest) | None => None end.
Proof.
  intros _. unfold shell_entry.
  destruct (N.eqb_spec c 10) as [->|_]; [reflexivity|]. destruct (N.eqb_spec c 13) as [->|_]; [reflexivity|].
  destruct ((c =? 34) || (c =? 92)) eqn:Eq.
  - cbn [app read_quoted]. change (92 =? 34) with false. change (92 =? 92) with true. cbv iota.
    rewrite (proj2 (unbackslash_quote c Eq)). reflexivity.
  - apply Bool.orb_false_iff in Eq. destruct Eq as [E34 E92]. cbn [app read_quoted]. rewrite E34, E92. reflexivity.
Qed.

Lemma read_quoted_shell_body l rest : nul_free l ->
  read_quoted unbackslash_sh (concat (map shell_entry l) ++ 34 :: rest) = Some (l, rest).
Proof.
  induction 1 as [|c l Hc Hl IH]; [reflexivity|].
  cbn [map concat]. rewrite <- app_assoc, read_quoted_shell_entry by exact Hc. rewrite IH. reflexivity.
Qed.

Lemma sh_unescape_entry c r : sh_unescape (shell_entry c ++ r) = option_map (cons c) (sh_unescape r).
Proof.
  unfold shell_entry.
  destruct (N.eqb_spec c 10) as [->|_]; [reflexivity|]. destruct (N.eqb_spec c 13) as [->|_]; [reflexivity|].
  destruct ((c =? 34) || (c =? 92)) eqn:Eq.
  - cbn [app sh_unescape]. change (92 =? 92) with true. cbv iota. rewrite (proj2 (unbackslash_quote c Eq)). reflexivity.
  - apply Bool.orb_false_iff in Eq. destruct Eq as [E34 E92]. cbn [app sh_unescape]. rewrite E92. reflexivity.
Qed.

Lemma sh_unescape_body l : sh_unescape (concat (map shell_entry l)) = Some l.
Proof. apply decode_concat_map; [reflexivity|]. apply Forall_forall. intros c _ r. apply sh_unescape_entry. Qed.

Lemma shell_body_no_sp l : has_space l = false -> forallb (fun c => negb (c =? 32)) (concat (map shell_entry l)) = true.
Proof.
  induction l as [|c l IH]; [reflexivity|]. unfold has_space. cbn [existsb]. intros H.
  apply Bool.orb_false_iff in H. destruct H as [Hc Hl]. cbn [map concat]. rewrite forallb_app, (IH Hl), Bool.andb_true_r.
  rewrite N.eqb_sym in Hc. unfold shell_entry.
  destruct (c =? 10); [reflexivity|]. destruct (c =? 13); [reflexivity|].
  destruct ((c =? 34) || (c =? 92)); cbn [forallb]; rewrite Hc; reflexivity.
Qed.

Lemma shell_body_head c l x : exists h t, concat (map shell_entry (c :: l)) ++ x = h :: t /\ (h =? 34) = false.
Proof.
  cbn [map concat]. unfold shell_entry.
  destruct (c =? 10); [do 2 eexists; split; reflexivity|]. destruct (c =? 13); [do 2 eexists; split; reflexivity|].
  destruct ((c =? 34) || (c =? 92)) eqn:Eq; [do 2 eexists; split; reflexivity|].
  apply Bool.orb_false_iff in Eq. do 2 eexists. split; [reflexivity|apply Eq].
Qed.

(* a shell-style field followed by the separating space is read back exactly (reference reader) *)
Theorem shell_delimited s rest : cstr s <> [] ->
  read_shell_word (shell_quote s ++ 32 :: rest) = Some (cstr s, rest).
Proof.
  intros Hne. unfold shell_quote. destruct (has_space (cstr s)) eqn:Hs.
  - cbn [app read_shell_word]. change (34 =? 34) with true. cbv iota.
    rewrite <- app_assoc. cbn [app]. rewrite (read_quoted_shell_body _ _ (cstr_is_nul_free s)). reflexivity.
  - destruct (cstr s) as [|c l]; [contradiction|].
    destruct (shell_body_head c l (32 :: rest)) as [h [t [Heq Hh]]].
    unfold read_shell_word. rewrite Heq, Hh, <- Heq.
    rewrite (read_until_app 32 _ rest (shell_body_no_sp _ Hs)), sh_unescape_body. reflexivity.
Qed.

Definition no_lf (c : N) : bool := negb (c =? 10).

Lemma no_crlf_no_lf l : forallb no_crlf l = true -> forallb no_lf l = true.
Proof. apply forallb_impl. intros x H. unfold no_crlf in H. apply andb_prop in H. apply H. Qed.

Lemma no_crlf_sp_no_lf l : forallb (fun c => no_crlf c && no_sp c) l = true -> forallb no_lf l = true.
Proof. intros H. apply no_crlf_no_lf. revert H. apply forallb_impl. intros x H. apply andb_prop in H. apply H. Qed.

(* a %code is protected when its style is one of the five quoting styles and the quoting switch is entered:
   an explicit or inherited style other than NONE, or a %code that asks for the default URL-style quoting *)
Definition protected_code (q : N) (kind : N) : bool :=
  existsb (N.eqb q) [lq_enum_NONE; lq_enum_QUOTES; lq_enum_MIMEBLOB; lq_enum_URL; lq_enum_SHELL] &&
  (code_sets_quote kind || negb (q =? lq_enum_NONE)).

Fixpoint protected_fmt (ctx : N) (fmt : list fitem) : Prop :=
  match fmt with
  | [] => True
  | FLit t :: r => forallb no_lf (cstr t) = true /\ protected_fmt (ctx_after ctx (cstr t)) r
  | FCode m kind v sp :: r => protected_code (style_of m ctx) kind = true /\ protected_fmt ctx r
  end.

Lemma apply_quote_fn_no_lf fid o : In fid [1; 2; 3; 4; 5] -> forallb no_lf (apply_quote_fn fid o) = true.
Proof.
  intros H. cbn [In] in H.
  destruct H as [<-|[<-|[<-|[<-|[<-|[]]]]]]; cbn [apply_quote_fn].
  - apply no_crlf_sp_no_lf, default_no_crlf_sp.
  - apply no_crlf_no_lf, lqs_no_crlf.
  - apply no_crlf_no_lf, mime_no_crlf.
  - apply no_crlf_sp_no_lf, url_no_crlf_sp.
  - apply no_crlf_no_lf, shell_no_crlf.
Qed.

Lemma protected_fn q : existsb (N.eqb q) [lq_enum_NONE; lq_enum_QUOTES; lq_enum_MIMEBLOB; lq_enum_URL; lq_enum_SHELL] = true ->
  In (quote_fn_of q) [1; 2; 3; 4; 5].
Proof.
  cbn [existsb]. rewrite Bool.orb_false_r. intros H.
  repeat (apply Bool.orb_true_iff in H; destruct H as [H|H]); apply N.eqb_eq in H; subst q; vm_compute; tauto.
Qed.

Lemma quote_field_no_lf q kind v : protected_code q kind = true ->
  forallb no_lf (quote_field q (code_sets_quote kind) v) = true.
Proof.
  unfold protected_code. intros H. apply andb_prop in H. destruct H as [Hq Hg].
  unfold quote_field. change lq_dash_ok with true. change lq_guard_ok with true. cbn [negb orb].
  destruct v as [o|]; [|reflexivity]. destruct (is_empty (cstr o)); [reflexivity|].
  rewrite Hg. apply apply_quote_fn_no_lf, protected_fn, Hq.
Qed.

Lemma assemble_no_lf : forall fmt ctx, protected_fmt ctx fmt -> forallb no_lf (assemble ctx fmt) = true.
Proof.
  induction fmt as [|it r IH]; intros ctx H; [reflexivity|]. destruct it as [t|m kind v sp]; cbn [assemble protected_fmt] in *.
  - destruct H as [Ht Hr]. rewrite forallb_app, Ht, (IH _ Hr). reflexivity.
  - destruct H as [Hc Hr]. rewrite !forallb_app, (quote_field_no_lf _ _ v Hc), (IH _ Hr).
    destruct sp; reflexivity.
Qed.

Lemma count_lf_none l : forallb no_lf l = true -> count_lf l = 0.
Proof.
  unfold count_lf. induction l as [|c l IH]; [reflexivity|]. cbn [forallb filter]. intros H.
  apply andb_prop in H. destruct H as [Hc Hl]. unfold no_lf in Hc. apply Bool.negb_true_iff in Hc.
  rewrite N.eqb_sym in Hc. rewrite Hc. apply IH, Hl.
Qed.

Theorem record_is_one_line fmt : protected_fmt lq_enum_NONE fmt ->
  count_lf (log_record fmt) = 1 /\ exists body, log_record fmt = body ++ [10] /\ forallb no_lf body = true.
Proof.
  intros H. unfold log_record. pose proof (cstr_forallb _ _ (assemble_no_lf fmt _ H)) as Hc. split.
  - unfold count_lf. rewrite filter_app, lenN_app. fold (count_lf (cstr (assemble lq_enum_NONE fmt))).
    rewrite (count_lf_none _ Hc). reflexivity.
  - eexists. split; [reflexivity|exact Hc].
Qed.

(* a concrete ErrorState for the examples: a request for http://h/<x>'& with method M&, a user name a-doublequote-b,
   the detail template %M! and the signature template: by %h %S *)
Definition sample_state : estate :=
  mkE true (Some [97; 34; 98]) (Some [49]) [56; 48] [] [69; 82; 82] (Some [37; 77; 33]) (Some [88]) [48] false []
      None None None None [104] [] [104] [49] None [] None None [77; 38] None (Some [56; 48]) [104; 116; 116; 112]
      [47; 60; 120; 62; 39; 38] [77; 38; 32; 47; 60; 120; 62; 39; 38; 13; 10]
      [104; 116; 116; 112; 58; 47; 47; 104; 47; 60; 120; 62; 39; 38] None [115; 113] [98; 121; 32; 37; 104; 32; 37; 83]
      [116] [84] [104; 116; 116; 112; 58; 47; 47; 104; 47; 60; 120; 62; 39; 38] (Some [119]) true [60; 62] None None None
      (fun _ => None).
