(* AcltreeProofs.v — C44: the ACLChecklist state machine of AcltreeModel.v answers the recursive
   first-match evaluation, for all trees, leaf scripts and suspend/resume schedules.

   Plan of the proof
   1. a scripted leaf invocation either answers its reference value or suspends on a Real lookup
      without changing that value (leaf_loop_ok, leaf_ok);
   2. [evalp v pi n]: the value of the interrupted recursion of node n when it is resumed along the
      breadcrumb path pi (pi = [] is a fresh evaluation, evalp v [] n = eval v n);
   3. matchChild/doMatch/node_run started in a quiet state whose matchPath encodes pi either
      complete with evalp, or suspend leaving a matchPath that encodes a path pi' with the SAME
      evalp (node_ok, by structural induction on the tree): resuming from breadcrumbs equals
      continuing the interrupted recursion; SD: a leaf object shared by several places of the
      tree must have no lookups left (its value is then unaffected by evaluating it);
   4. the same for the root Acl::Tree, which also yields lastMatch_ (matchAndFinish_fresh, matchAndFinish_resume);
   5. nonBlockingCheck/resumeNonBlockingCheck preserve "suspended with the same first match" and
      the number of outstanding lookups decreases (nb_loop_ok, fuel induction); fastCheck never suspends. *)
Require Import SquidV.Bytes SquidV.AcltreeModel.
Local Open Scope N_scope.

(* reduces projections of field updates, and nothing else *)
Ltac stg := cbn [asyncCaller finished ans stg matchLoc asyncLoc depth path banned lastName lastMatch cbk err lrem pending trace starts susp set_asyncCaller set_finished set_ans set_stg set_matchLoc set_asyncLoc set_depth set_path set_banned set_lastName set_lastMatch set_cbk set_err set_lrem set_pending set_trace set_starts set_susp].

Lemma dropN_0 {A} (l : list A) : dropN 0 l = l.
Proof. apply Bytes.dropN_0. Qed.

Lemma node_ind2 (P : node -> Prop) :
  (forall i, P (Leaf i)) -> (forall i k cs, Forall P cs -> P (Inner i k cs)) -> forall n, P n.
Proof.
  intros HL HI. fix IH 1. intros [i|i k cs]; [apply HL|]. apply HI.
  induction cs as [|x cs IHcs]; constructor; [apply IH | exact IHcs].
Qed.

(* evaluation depends only on the leaves of the expression *)
Lemma bools_ext {A} (f g : A -> bool) l :
  Forall (fun x => f x = g x) l -> forallb f l = forallb g l /\ existsb f l = existsb g l.
Proof. induction 1 as [|x l E _ [IH1 IH2]]; cbn [forallb existsb]; [auto| rewrite E, IH1, IH2; auto]. Qed.

Lemma kids_ext v w l :
  Forall (fun x => (forall j, In j (leaf_ids x) -> v j = w j) -> eval v x = eval w x) l ->
  (forall j, In j (flat_map leaf_ids l) -> v j = w j) -> Forall (fun x => eval v x = eval w x) l.
Proof.
  induction 1 as [|x l Hx _ IH]; intros H; constructor; [apply Hx| apply IH];
    intros j Hj; apply H; cbn [flat_map]; apply in_or_app; [left|right]; exact Hj.
Qed.

Lemma eval_ext v w n : (forall j, In j (leaf_ids n) -> v j = w j) -> eval v n = eval w n.
Proof.
  induction n as [i|i k cs IH] using node_ind2; intros H; cbn [eval]; [apply H; left; reflexivity|].
  pose proof (kids_ext v w cs IH H) as HH. destruct (bools_ext _ _ _ HH) as [Hf He].
  destruct k; try assumption; destruct HH; congruence.
Qed.

Lemma evals_ext v w l :
  (forall j, In j (flat_map leaf_ids l) -> v j = w j) -> Forall (fun x => eval v x = eval w x) l.
Proof. apply kids_ext, Forall_forall. intros x _. apply eval_ext. Qed.

Lemma bools_eval_ext v w l :
  (forall j, In j (flat_map leaf_ids l) -> v j = w j) ->
  forallb (eval v) l = forallb (eval w) l /\ existsb (eval v) l = existsb (eval w) l.
Proof. intros H. apply bools_ext, evals_ext, H. Qed.

Lemma first_from_ext v w isb idx l :
  (forall j, In j (flat_map leaf_ids l) -> v j = w j) -> first_from v isb idx l = first_from w isb idx l.
Proof.
  intros H. apply evals_ext in H. revert idx.
  induction H as [|x l E _ IH]; intros idx; cbn [first_from]; [reflexivity| rewrite E, IH; reflexivity].
Qed.

Lemma existsb_first_from v idx l :
  existsb (eval v) l = match first_from v (fun _ => false) idx l with Some _ => true | None => false end.
Proof.
  revert idx; induction l as [|x l IH]; intros idx; cbn [existsb first_from]; [reflexivity|].
  cbn [negb andb]. destruct (eval v x); cbn [orb]; [reflexivity| apply IH].
Qed.

(* the reference evaluation picks the least matching, non-banned rule *)
Lemma nthN_succ {A} p (x : A) l : nthN (N.succ p) (x :: l) = nthN p l.
Proof.
  cbn [nthN]. rewrite N.pred_succ. destruct (N.eqb_spec (N.succ p) 0) as [E|_]; [destruct (N.neq_succ_0 _ E)| reflexivity].
Qed.

Lemma first_from_spec v isb : forall l idx,
  match first_from v isb idx l with
  | Some q => exists p x, q = idx + p /\ nthN p l = Some x /\ isb q = false /\ eval v x = true /\
               forall p' y, p' < p -> nthN p' l = Some y -> isb (idx + p') = true \/ eval v y = false
  | None => forall p y, nthN p l = Some y -> isb (idx + p) = true \/ eval v y = false
  end.
Proof.
  induction l as [|x l IH]; intros idx; cbn [first_from]; [intros p y H; discriminate H|].
  destruct (negb (isb idx) && eval v x) eqn:E.
  - apply andb_prop in E. destruct E as [E1 E2]. apply negb_true_iff in E1.
    exists 0, x. rewrite N.add_0_r. repeat split; auto. intros p' y Hp. destruct (N.nlt_0_r _ Hp).
  - assert (H0 : isb (idx + 0) = true \/ eval v x = false).
    { rewrite N.add_0_r. apply andb_false_iff in E. destruct E as [E|E]; [left; apply negb_false_iff, E| right; exact E]. }
    assert (SH : forall p, idx + N.succ p = idx + 1 + p) by (intros; lia).
    clear E. specialize (IH (idx + 1)). destruct (first_from v isb (idx + 1) l) as [q|].
    + destruct IH as (p & y & -> & Hn & Hb & He & Hl). exists (N.succ p), y.
      rewrite nthN_succ, SH. repeat split; auto.
      intros p' z Hp Hz. induction p' as [|p' _] using N.peano_ind; [inversion Hz; subst; exact H0|].
      rewrite nthN_succ in Hz. rewrite SH. apply (Hl p' z); [apply N.succ_lt_mono, Hp| exact Hz].
    + intros p y Hy. induction p as [|p _] using N.peano_ind; [inversion Hy; subst; exact H0|].
      rewrite nthN_succ in Hy. rewrite SH. exact (IH p y Hy).
Qed.

Lemma first_from_bound v isb l idx q : first_from v isb idx l = Some q -> idx <= q /\ q < idx + lenN l.
Proof.
  intros H. pose proof (first_from_spec v isb l idx) as S. rewrite H in S.
  destruct S as (p & x & -> & Hn & _). apply nthN_lt in Hn. lia.
Qed.

(* a path is the list of child positions from a node down to the parent of the suspended leaf *)
Fixpoint crumbs (pi : list N) (n : node) {struct pi} : list crumb :=
  match pi with
  | [] => []
  | p :: pi' =>
      match n with
      | Leaf _ => []
      | Inner i _ cs => (i, p) :: match nthN p cs with Some x => crumbs pi' x | None => [] end
      end
  end.

Fixpoint vpath (pi : list N) (n : node) {struct pi} : Prop :=
  match pi with
  | [] => True
  | p :: pi' =>
      match n with
      | Leaf _ => False
      | Inner _ k cs =>
          match nthN p cs with
          | None => False
          | Some x => (match k with KNot | KAllOf => p = 0 | _ => True end) /\ vpath pi' x
          end
      end
  end.

(* value of the recursion of n interrupted at (resumed along) pi *)
Fixpoint evalp (v : N -> bool) (pi : list N) (n : node) {struct pi} : bool :=
  match pi with
  | [] => eval v n
  | p :: pi' =>
      match n with
      | Leaf _ => false
      | Inner _ k cs =>
          match nthN p cs with
          | None => false
          | Some x =>
              let b := evalp v pi' x in
              match k with
              | KNot => negb b
              | KAllOf => b
              | KAnd => b && forallb (eval v) (dropN (p + 1) cs)
              | KOr | KAnyOf => b || existsb (eval v) (dropN (p + 1) cs)
              end
          end
      end
  end.

Lemma evalp_ext v w pi : forall n, (forall j, In j (leaf_ids n) -> v j = w j) -> evalp v pi n = evalp w pi n.
Proof.
  induction pi as [|p pi IH]; intros n H; cbn [evalp]; [apply eval_ext; exact H|].
  destruct n as [i|i k cs]; [reflexivity|].
  destruct (nthN p cs) as [x|] eqn:E; [|reflexivity].
  destruct (nthN_split _ _ _ E) as [Es _].
  assert (Hxr : forall j, In j (leaf_ids x) \/ In j (flat_map leaf_ids (dropN (p + 1) cs)) -> v j = w j).
  { intros j Hj. apply H. cbn [leaf_ids]. rewrite Es, flat_map_app. apply in_or_app. right. apply in_or_app, Hj. }
  destruct (bools_eval_ext v w (dropN (p + 1) cs) (fun j Hj => Hxr j (or_intror Hj))) as [-> ->].
  rewrite (IH x (fun j Hj => Hxr j (or_introl Hj))). reflexivity.
Qed.

(* outstanding lookups *)
Definition total (l : list N) (c : st) : nat := fold_right (fun i acc => (length (lrem c i) + acc)%nat) O l.

Lemma total_le l c c' : (forall j, (length (lrem c' j) <= length (lrem c j))%nat) -> (total l c' <= total l c)%nat.
Proof. intros H. induction l as [|i l IH]; cbn [total fold_right]; [lia|]. specialize (H i). fold (total l c') (total l c). lia. Qed.

Lemma total_lt l c c' j :
  (forall j, (length (lrem c' j) <= length (lrem c j))%nat) -> In j l ->
  (length (lrem c' j) < length (lrem c j))%nat -> (total l c' < total l c)%nat.
Proof.
  intros H IN LT. induction l as [|i l IH]; [destruct IN|]. cbn [total fold_right]. fold (total l c') (total l c).
  pose proof (total_le l c c' H). destruct IN as [->|IN]; [lia|]. specialize (IH IN). specialize (H i). lia.
Qed.

(* SD c l: a leaf id that occurs in two different segments of l has no lookups left in state c
   (a shared ACL object is tolerated when it is synchronous) *)
Definition SD (c : st) (l : list N) : Prop :=
  forall l1 l2 j, l = l1 ++ l2 -> In j l1 -> In j l2 -> lrem c j = [].

Lemma SD_app_l c a b : SD c (a ++ b) -> SD c a.
Proof. intros H l1 l2 j E H1 H2. apply (H l1 (l2 ++ b) j); [rewrite E, app_assoc; reflexivity| exact H1| apply in_or_app; left; exact H2]. Qed.
Lemma SD_app_r c a b : SD c (a ++ b) -> SD c b.
Proof. intros H l1 l2 j E H1 H2. apply (H (a ++ l1) l2 j); [rewrite E, app_assoc; reflexivity| apply in_or_app; right; exact H1| exact H2]. Qed.
Lemma SD_mono c c' l : SD c l -> (forall j, (length (lrem c' j) <= length (lrem c j))%nat) -> SD c' l.
Proof.
  intros H LE l1 l2 j E H1 H2. specialize (H l1 l2 j E H1 H2). specialize (LE j). rewrite H in LE.
  destruct (lrem c' j); [reflexivity| cbn in LE; lia].
Qed.
Lemma NoDup_SD c l : NoDup l -> SD c l.
Proof.
  intros ND l1 l2 j E H1 H2. exfalso. subst l. revert H2. clear -ND H1.
  induction l1 as [|x l1 IH]; [destruct H1|]. cbn [app] in ND. inversion ND as [|x' l' NI ND']; subst. intros HJ.
  destruct H1 as [->|H1]; [apply NI, in_or_app; right; exact HJ| exact (IH ND' H1 HJ)].
Qed.

Section Proofs.
Variable scr : N -> lscript.

(* the current worth of leaf i: reference value of what is left of its script *)
Definition lv (c : st) (i : N) : bool :=
  lval_k (asyncCaller c) (retry (scr i)) (truth (scr i)) 0 (lrem c i).

Definition quiet (c : st) : Prop := stg c = SNone /\ finished c = false /\ err c = false.

(* what every piece of matching preserves; ids = the leaves it may touch. inv (like lv) reads of c only
   asyncCaller, banned, cbk and lrem, and of c' only these, err and finished: in the statements below, states
   that differ in other fields (set_lastName, set_matchLoc, ...) are interchangeable by conversion *)
Definition inv (ids : list N) (c c' : st) : Prop :=
  err c' = false /\ finished c' = false /\ asyncCaller c' = asyncCaller c /\ banned c' = banned c /\
  cbk c' = cbk c /\
  (forall j, ~ In j ids -> lrem c' j = lrem c j) /\
  (forall j, (length (lrem c' j) <= length (lrem c j))%nat).

Definition pend (ids : list N) (c' : st) : Prop :=
  exists j rest, pending c' = Some j /\ In j ids /\ lrem c' j = Real :: rest.

Lemma inv_refl ids c : err c = false -> finished c = false -> inv ids c c.
Proof. intros; unfold inv; repeat split; auto. Qed.

Lemma inv_trans ids1 ids2 ids c1 c2 c3 :
  inv ids1 c1 c2 -> inv ids2 c2 c3 -> incl ids1 ids -> incl ids2 ids -> inv ids c1 c3.
Proof.
  intros (A1 & A2 & A3 & A4 & A5 & A6 & A7) (B1 & B2 & B3 & B4 & B5 & B6 & B7) I1 I2.
  unfold inv; repeat split; try congruence.
  - intros j Hj. rewrite B6, A6; auto.
  - intros j. exact (Nat.le_trans _ _ _ (B7 j) (A7 j)).
Qed.

Lemma inv_weaken ids ids' c c' : inv ids c c' -> incl ids ids' -> inv ids' c c'.
Proof.
  intros (A1 & A2 & A3 & A4 & A5 & A6 & A7) I. unfold inv; repeat split; auto.
Qed.

Lemma lv_same c c' j : asyncCaller c' = asyncCaller c -> lrem c' j = lrem c j -> lv c' j = lv c j.
Proof. intros A B. unfold lv. now rewrite A, B. Qed.

Lemma crumb_eqb_refl l : crumb_eqb (Some l) (Some l) = true.
Proof. destruct l as [p i]. cbn. now rewrite !N.eqb_refl. Qed.

Lemma upd_same {A} (f : N -> A) i v : upd f i v i = v.
Proof. unfold upd. now rewrite N.eqb_refl. Qed.
Lemma upd_other {A} (f : N -> A) i v j : j <> i -> upd f i v j = f j.
Proof. intros H. unfold upd. apply N.eqb_neq in H. now rewrite H. Qed.

(* 1. one invocation of a scripted leaf *)
(* the checklist after goAsync() on a Real / Fake lookup *)
Definition c_real (i : N) (c : st) : st :=
  set_stg SRunning (set_pending (Some i) (set_starts (starts c + 1)
    (set_stg SStarting (set_depth (depth c + 1) (set_asyncLoc (matchLoc c) c))))).
Definition c_fake (i : N) (c : st) : st :=
  set_stg SNone (set_stg SFailed (set_lrem (upd (lrem c) i (tl (lrem c i))) (set_starts (starts c + 1)
    (set_stg SStarting (set_depth (depth c + 1) (set_asyncLoc (matchLoc c) c)))))).

(* the k+1st goAsync() of one match() call: refused for a fast check and, by the async-loop guard, when k = 6 *)
Lemma goAsync_at i a c loc k :
  stg c = SNone -> matchLoc c = Some loc -> depth c = N.of_nat k -> (k <= 6)%nat ->
  ((0 < k)%nat -> asyncLoc c = Some loc) ->
  goAsync i a c = if asyncCaller c && negb (6 <=? k)%nat
                  then match a with Real => (true, c_real i c) | Fake => (false, c_fake i c) end
                  else (false, c).
Proof.
  intros Q ML DK K6 AL.
  assert (T : crumb_eqb (matchLoc c) (asyncLoc c) && (5 <? depth c) = (6 <=? k)%nat).
  { rewrite ML, DK. clear -K6 AL. destruct (Nat.leb_spec 6 k) as [H|H].
    - rewrite (AL ltac:(lia)), crumb_eqb_refl. apply N.ltb_lt. lia.
    - apply andb_false_iff. right. apply N.ltb_ge. lia. }
  assert (NN : is_none (matchLoc c) = false) by now rewrite ML.
  unfold goAsync, asyncInProgress. rewrite Q, NN, T. cbn [stage_eqb negb orb].
  destruct (asyncCaller c); [|reflexivity]. destruct (6 <=? k)%nat; [reflexivity|]. cbn [negb andb].
  unfold c_real, c_fake.
  set (c1 := set_stg SStarting (set_depth (depth c + 1) (set_asyncLoc (matchLoc c) c))).
  assert (S1 : stg c1 = SStarting) by reflexivity.
  change (starts c) with (starts c1). change (lrem c) with (lrem c1). clearbody c1. cbv zeta.
  destruct a; unfold starter, resume_early; cbn [stg lrem set_pending set_starts set_lrem]; rewrite S1; reflexivity.
Qed.

Lemma lval_k_cons ac rt tr k a rest :
  lval_k ac rt tr k (a :: rest) =
  if ac && negb (6 <=? k)%nat
  then match a with Real => lval_k ac rt tr 0 rest | Fake => if rt then lval_k ac rt tr (S k) rest else false end
  else false.
Proof. cbn [lval_k]. destruct ac, (6 <=? k)%nat; reflexivity. Qed.

Lemma upd_tl_le (f : N -> list att) i j : (length (upd f i (tl (f i)) j) <= length (f j))%nat.
Proof. unfold upd. destruct (N.eqb_spec j i) as [->|_]; [destruct (f i); cbn [tl length]; lia| lia]. Qed.

Lemma inv_c_fake i c : err c = false -> finished c = false -> inv [i] c (c_fake i c).
Proof.
  intros E F. unfold inv. repeat split; auto.
  - intros j Hj. apply upd_other. intros ->. apply Hj. left. reflexivity.
  - intros j. apply upd_tl_le.
Qed.

(* outcome of a leaf whose remaining script is worth V: it answers V, or it suspends on a Real lookup
   after which the rest of the script is still worth V *)
Definition lpost (i : N) (V : bool) (c : st) (r : Z) (c' : st) : Prop :=
  inv [i] c c' /\ path c' = path c /\
  ((stg c' = SNone /\ (r =? 1)%Z = V)
   \/ (stg c' = SRunning /\ (r =? 1)%Z = false /\ asyncCaller c' = true /\
       exists rest, pending c' = Some i /\ lrem c' i = Real :: rest /\
         lval_k true (retry (scr i)) (truth (scr i)) 0 rest = V)).

Lemma leaf_loop_ok i : forall atts c k loc r c',
  quiet c -> matchLoc c = Some loc -> lrem c i = atts -> depth c = N.of_nat k -> (k <= 6)%nat ->
  ((0 < k)%nat -> asyncLoc c = Some loc) ->
  leaf_loop i (scr i) atts c = (r, c') ->
  lpost i (lval_k (asyncCaller c) (retry (scr i)) (truth (scr i)) k atts) c r c'.
Proof.
  induction atts as [|a rest IH]; intros c k loc r c' (Q1 & Q2 & Q3) ML LR DK K6 AL E; cbn [leaf_loop] in E.
  - inversion E; subst r c'.
    split; [apply inv_refl; assumption|]. split; [reflexivity|]. left. split; [assumption|].
    cbn [lval_k]. destruct (truth (scr i)); reflexivity.
  - rewrite (goAsync_at i a c loc k Q1 ML DK K6 AL) in E. rewrite lval_k_cons.
    destruct (asyncCaller c && negb (6 <=? k)%nat) eqn:GO.
    2:{ (* refused: the leaf gives up at once *)
        rewrite N.eqb_refl in E.
        assert (r = 0%Z /\ c' = c) as [-> ->] by (destruct (retry (scr i)); inversion E; auto).
        split; [apply inv_refl; assumption|]. split; [reflexivity|]. left. auto. }
    apply andb_prop in GO. destruct GO as [AC K5]. apply negb_true_iff, Nat.leb_gt in K5.
    destruct a.
    + (* Real: the lookup goes asynchronous *)
      inversion E; subst r c'. split; [unfold inv; repeat split; auto|]. split; [reflexivity|]. right.
      split; [reflexivity|]. split; [reflexivity|]. split; [exact AC|]. exists rest. rewrite AC. auto.
    + (* Fake: the lookup completes inside the starter; goAsync() reports failure *)
      pose proof (inv_c_fake i c Q3 Q2) as I1.
      assert (LR1 : lrem (c_fake i c) i = rest).
      { change (upd (lrem c) i (tl (lrem c i)) i = rest). rewrite upd_same, LR. reflexivity. }
      destruct (retry (scr i)); cbn [negb] in E.
      2:{ inversion E; subst r c'. split; [exact I1|]. split; [reflexivity|]. left. split; reflexivity. }
      rewrite LR1, LR in E. cbn [lenN] in E.
      rewrite (proj2 (N.eqb_neq _ _) (N.neq_succ_diag_r (lenN rest))) in E.
      destruct (IH (c_fake i c) (S k) loc r c') as (I2 & P2 & H2); try assumption.
      { repeat split; assumption. }
      { change (depth c + 1 = N.of_nat (S k)). rewrite DK, N.add_1_r. symmetry. apply Nat2N.inj_succ. }
      { intros _. exact ML. }
      split; [exact (inv_trans _ _ _ _ _ _ I1 I2 (incl_refl _) (incl_refl _))|]. split; [exact P2|]. exact H2.
Qed.

(* 2./3. nodes: pre- and postconditions *)
Definition startof (pi : list N) : option N := match pi with [] => None | p :: _ => Some p end.
Definition tailcrumbs (pi : list N) (n : node) : list crumb :=
  match pi with
  | [] => []
  | p :: pi' =>
      match n with
      | Inner _ _ cs => match nthN p cs with Some x => crumbs pi' x | None => [] end
      | Leaf _ => []
      end
  end.

(* how a piece of matching over the leaves ids ends: it completed, in a quiet state with an empty
   matchPath (then D holds), or it suspended on a lookup of one of those leaves (then S holds) *)
Definition outcome (ids : list N) (c c' : st) (D S : Prop) : Prop :=
  inv ids c c' /\
  ((stg c' = SNone /\ path c' = [] /\ D)
   \/ (stg c' = SRunning /\ asyncCaller c' = true /\ pend ids c' /\ S)).

(* matching (a part of) node n whose expected value is V: r = V, or a matchPath that encodes a valid path
   of n whose value is V *)
Definition gpost (ids : list N) (n : node) (V : bool) (c : st) (r : bool) (c' : st) : Prop :=
  outcome ids c c' (r = V)
    (r = false /\ exists pi', vpath pi' n /\ path c' = crumbs pi' n /\ evalp (lv c') pi' n = V).

Definition npre (x : node) (pi : list N) (c : st) : Prop :=
  quiet c /\ depth c = 0 /\ (exists loc, matchLoc c = Some loc) /\ vpath pi x /\ path c = tailcrumbs pi x.

Definition run_ok (x : node) : Prop :=
  forall pi c r c', SD c (leaf_ids x) -> npre x pi c ->
  node_run scr x (startof pi) c = (r, c') -> gpost (leaf_ids x) x (evalp (lv c) pi x) c r c'.

Definition mcpre (x : node) (pi : list N) (c : st) : Prop :=
  quiet c /\ vpath pi x /\ path c = crumbs pi x.

Definition mcpost (cur idx : N) (x : node) (V : bool) (c : st) (r : bool) (c' : st) : Prop :=
  outcome (leaf_ids x) c c' (r = V)
    (r = false /\ exists pi', vpath pi' x /\ path c' = (cur, idx) :: crumbs pi' x /\ evalp (lv c') pi' x = V).

Lemma outcome_weaken ids ids' c c' D S : outcome ids c c' D S -> incl ids ids' -> outcome ids' c c' D S.
Proof.
  intros (IV & G) IN. split; [exact (inv_weaken _ _ _ _ IV IN)|].
  destruct G as [G|(T1 & T2 & (j & rest & P1 & P2 & P3) & T4)]; [left; exact G|].
  right. split; [exact T1|]. split; [exact T2|]. split; [exists j, rest; auto| exact T4].
Qed.

(* matching goes on from c1, which was reached from c *)
Lemma outcome_after ids c c1 c' D S : inv ids c c1 -> outcome ids c1 c' D S -> outcome ids c c' D S.
Proof. intros IV (IV2 & G). split; [exact (inv_trans _ _ _ _ _ _ IV IV2 (incl_refl _) (incl_refl _))| exact G]. Qed.

(* a leaf *)
Lemma leaf_ok i : run_ok (Leaf i).
Proof.
  intros pi c r c' _ ((Q1 & Q2 & Q3) & D0 & (loc & ML) & VP & PT) E.
  destruct pi as [|p pi]; [|destruct VP].
  cbn [startof node_run] in E. unfold leaf_matches in E.
  set (c0 := set_trace (i :: trace c) (set_lastName (Some i) c)) in *.
  destruct (leaf_loop i (scr i) (lrem c0 i) c0) as [z c1] eqn:EL.
  inversion E; subst r c'. clear E.
  destruct (leaf_loop_ok i (lrem c0 i) c0 0%nat loc z c1) as (IV & P & H); try assumption; try reflexivity.
  { repeat split; assumption. }
  { apply Nat.le_0_l. }
  { intros H. inversion H. }
  cbn [leaf_ids tailcrumbs] in *. split; [exact IV|].
  destruct H as [(S1 & S2)|(S1 & S2 & S3 & rest & S4 & S5 & S6)].
  - left. split; [exact S1|]. split; [rewrite P; exact PT|]. rewrite S2. reflexivity.
  - right. split; [exact S1|]. split; [exact S3|]. split.
    { exists i, rest. split; [exact S4|]. split; [left; reflexivity| exact S5]. }
    split; [exact S2|]. exists []. split; [exact I|]. split; [rewrite P; exact PT|].
    cbn [evalp eval]. unfold lv at 1. rewrite S3, S5. cbn [lval_k negb Nat.leb]. exact S6.
Qed.

(* ACLChecklist::matchChild over a child that behaves *)
Lemma matchChild_ok cur idx x pi c r c' :
  run_ok x -> SD c (leaf_ids x) -> mcpre x pi c ->
  matchChild cur idx (node_id x) (node_run scr x) c = (r, c') ->
  mcpost cur idx x (evalp (lv c) pi x) c r c'.
Proof.
  intros OK ND ((Q1 & Q2 & Q3) & VP & PT) E.
  unfold matchChild in E.
  set (c1 := set_depth 0 (set_matchLoc (Some (cur, idx)) c)) in *.
  assert (RUN : exists r2 c2, (r, c') = (r2, set_matchLoc None
                   (if asyncInProgress c2 then set_path ((cur, idx) :: path c2) c2 else set_asyncLoc None c2))
                 /\ gpost (leaf_ids x) x (evalp (lv c) pi x) c r2 c2).
  { change (path c1) with (path c) in E. rewrite PT in E. destruct pi as [|q pit].
    - (* the child starts afresh *)
      cbn [crumbs] in E. destruct (node_run scr x None c1) as [r2 c2] eqn:ER. exists r2, c2. split; [congruence|].
      apply (OK [] c1 r2 c2 ND); [|exact ER].
      repeat split; try assumption. eexists; reflexivity.
    - (* the child is resumed at the position its breadcrumb names *)
      destruct x as [i|i k cs]; [destruct VP|]. cbn [vpath crumbs] in VP, E.
      destruct (nthN q cs) as [y|] eqn:EN; [|destruct VP].
      cbn [fst snd node_id] in E. rewrite N.eqb_refl in E.
      destruct (node_run scr (Inner i k cs) (Some q) (set_path (crumbs pit y) c1)) as [r2 c2] eqn:ER.
      exists r2, c2. split; [congruence|].
      apply (OK (q :: pit) (set_path (crumbs pit y) c1) r2 c2 ND); [|exact ER].
      repeat split; try assumption; [eexists; reflexivity| cbn [vpath]; rewrite EN; exact VP| cbn [tailcrumbs]; rewrite EN; reflexivity]. }
  destruct RUN as (r2 & c2 & ER & IV & G). inversion ER; subst r c'. clear ER E.
  unfold asyncInProgress.
  destruct G as [(S1 & S2 & S3)|(S1 & S2 & S3 & S4 & pi' & S5 & S6 & S7)]; rewrite S1; cbn [stage_eqb negb];
    (split; [exact IV|]).
  - left. auto.
  - right. split; [exact S1|]. split; [exact S2|]. split; [exact S3|]. split; [exact S4|].
    exists pi'. split; [exact S5|]. split; [cbn [path set_matchLoc set_path]; rewrite S6; reflexivity| exact S7].
Qed.

Lemma NoDup_app_l {A} (a b : list A) : NoDup (a ++ b) -> NoDup a.
Proof. intros H. apply (NoDup_app_inv _ _ H). Qed.
Lemma NoDup_app_r {A} (a b : list A) : NoDup (a ++ b) -> NoDup b.
Proof. intros H. apply (NoDup_app_inv _ _ H). Qed.
Lemma NoDup_app_disj {A} (a b : list A) : NoDup (a ++ b) -> forall j, In j a -> ~ In j b.
Proof. intros H. apply (NoDup_app_inv _ _ H). Qed.

Definition kmap (l : list node) : kids := map (fun x => (node_id x, node_run scr x)) l.

Lemma kmap_at p x cs : nthN p cs = Some x ->
  kmap cs = kmap (takeN p cs) ++ kmap (x :: dropN (p + 1) cs) /\ lenN (kmap (takeN p cs)) = p.
Proof.
  intros EN. destruct (nthN_split _ _ _ EN) as (CS & LP). unfold kmap. rewrite <- map_app, <- CS, lenN_map. auto.
Qed.

Lemma quiet_keep c : stg c = SNone -> finished c = false -> keepMatching c = true.
Proof. intros A B. unfold keepMatching, asyncInProgress. rewrite A, B. reflexivity. Qed.
Lemma running_stop c : stg c = SRunning -> keepMatching c = false.
Proof. intros A. unfold keepMatching, asyncInProgress. rewrite A. cbn. apply andb_false_r. Qed.

(* values of later siblings are not disturbed by matching x *)
Lemma frame_lv x l c c1 :
  SD c (leaf_ids x ++ flat_map leaf_ids l) -> inv (leaf_ids x) c c1 ->
  forall j, In j (flat_map leaf_ids l) -> lv c1 j = lv c j.
Proof.
  intros ND (_ & _ & A3 & _ & _ & A6 & A7) j Hj. apply lv_same; [exact A3|].
  destruct (in_dec N.eq_dec j (leaf_ids x)) as [C|C]; [|exact (A6 j C)].
  (* a shared leaf: it has no lookups left, so matching x did not change it *)
  specialize (A7 j). rewrite (ND _ _ j eq_refl C Hj) in A7 |- *. destruct (lrem c1 j); [reflexivity| cbn in A7; lia].
Qed.

Lemma SD_after x l c c1 : SD c (leaf_ids x ++ flat_map leaf_ids l) -> inv (leaf_ids x) c c1 -> SD c1 (flat_map leaf_ids l).
Proof. intros ND IV. eapply SD_mono; [eapply SD_app_r; exact ND| apply IV]. Qed.

(* Acl::AndNode::doMatch *)
Lemma and_loop_cons cur start idx cid run l c :
  and_loop cur start idx ((cid, run) :: l) c =
  if idx <? start then and_loop cur start (idx + 1) l c
  else let '(b, c1) := matchChild cur idx cid run c in
       if negb b then ((if keepMatching c1 then 0 else -1)%Z, c1)
       else and_loop cur start (idx + 1) l c1.
Proof. reflexivity. Qed.

Lemma and_loop_skip cur start c : forall l1 l2 idx,
  idx + lenN l1 <= start -> and_loop cur start idx (l1 ++ l2) c = and_loop cur start (idx + lenN l1) l2 c.
Proof.
  induction l1 as [|[cid run] l1 IH]; intros l2 idx H; cbn [app lenN].
  - now rewrite N.add_0_r.
  - cbn [lenN] in H. rewrite and_loop_cons.
    replace (idx <? start) with true by (symmetry; apply N.ltb_lt; lia).
    rewrite IH by lia. f_equal. lia.
Qed.

Section AndNode.
Variables (cur : N) (cs : list node).
Let n := Inner cur KAnd cs.

(* the loop from child idx on, with the children suf still to be matched *)
Definition and_tail (start idx : N) (suf : list node) : Prop :=
  forall c r c', quiet c -> path c = [] -> SD c (flat_map leaf_ids suf) ->
    and_loop cur start idx (kmap suf) c = (r, c') ->
    gpost (flat_map leaf_ids suf) n (forallb (eval (lv c)) suf) c (r =? 1)%Z c'.

Lemma and_step pre x suf pit start c r c' :
  cs = pre ++ x :: suf -> run_ok x -> SD c (flat_map leaf_ids (x :: suf)) -> start <= lenN pre ->
  mcpre x pit c -> and_tail start (lenN pre + 1) suf ->
  and_loop cur start (lenN pre) (kmap (x :: suf)) c = (r, c') ->
  gpost (flat_map leaf_ids (x :: suf)) n (evalp (lv c) pit x && forallb (eval (lv c)) suf) c (r =? 1)%Z c'.
Proof.
  intros CS OK ND ST PRE K E. cbn [flat_map] in *.
  cbn [kmap map] in E. rewrite and_loop_cons, (proj2 (N.ltb_ge _ _) ST) in E.
  destruct (matchChild cur (lenN pre) (node_id x) (node_run scr x) c) as [b c1] eqn:EM.
  pose proof (matchChild_ok _ _ _ _ _ _ _ OK (SD_app_l _ _ _ ND) PRE EM) as M. pose proof M as (IV & _).
  pose proof (frame_lv _ _ _ _ ND IV) as FR. pose proof (SD_after _ _ _ _ ND IV) as SD1.
  destruct (outcome_weaken _ (leaf_ids x ++ flat_map leaf_ids suf) _ _ _ _ M (incl_appl _ (incl_refl _))) as (IVw & G).
  rewrite <- (proj1 (bools_eval_ext _ _ _ FR)).
  destruct G as [(S1 & S2 & S3)|(S1 & S2 & S3 & S4 & pi' & S5 & S6 & S7)].
  - (* the child completed *)
    pose proof IV as (A1 & A2 & _). rewrite <- S3. destruct b; cbn [negb andb] in *.
    + apply (outcome_after _ _ c1 _ _ _ IVw), (outcome_weaken (flat_map leaf_ids suf)); [|apply incl_appr, incl_refl].
      apply K; try assumption. repeat split; assumption.
    + rewrite (quiet_keep c1 S1 A2) in E. inversion E; subst r c'. split; [exact IVw|]. left. auto.
  - (* the child suspended *)
    subst b. cbn [negb] in E. rewrite (running_stop c1 S1) in E. inversion E; subst r c'.
    split; [exact IVw|].
    right. split; [exact S1|]. split; [exact S2|]. split; [exact S3|]. split; [reflexivity|].
    exists (lenN pre :: pi'). unfold n. cbn [vpath crumbs evalp]. rewrite CS, nthN_app_len, dropN_app_len.
    split; [split; [exact Logic.I| exact S5]|]. split; [exact S6|]. rewrite S7. reflexivity.
Qed.

Lemma and_fresh start : forall suf pre,
  cs = pre ++ suf -> Forall run_ok suf -> start <= lenN pre -> and_tail start (lenN pre) suf.
Proof.
  induction suf as [|x suf IH]; intros pre CS OK ST c r c' Q PT ND E.
  - cbn in E. inversion E; subst r c'. destruct Q as (Q1 & Q2 & Q3).
    split; [apply inv_refl; assumption|]. left. auto.
  - apply (and_step pre x suf [] start c r c' CS (Forall_inv OK) ND ST); [exact (conj Q (conj Logic.I PT))| | exact E].
    rewrite <- (lenN_snoc pre x). apply IH;
      [rewrite <- app_assoc; exact CS| exact (Forall_inv_tail OK)| rewrite lenN_snoc; apply (N.le_trans _ _ _ ST), N.le_add_r].
Qed.

Lemma and_node_ok : Forall run_ok cs -> run_ok n.
Proof.
  intros OK pi c r c' ND (Q & _ & _ & VP & PT) E. unfold n in *. cbn [leaf_ids] in *.
  destruct pi as [|p pit]; cbn [startof node_run doMatch] in E; fold (kmap cs) in E.
  - (* fresh: Acl::Node::matches *)
    destruct (and_loop cur 0 0 (kmap cs) (set_lastName (Some cur) c)) as [z c1] eqn:EL.
    inversion E; subst r c'. cbn [evalp eval].
    apply (and_fresh 0 cs [] eq_refl OK (N.le_0_l _) (set_lastName (Some cur) c) z c1); assumption.
  - (* resumeMatchingAt(p): the children before p are skipped *)
    cbn [vpath tailcrumbs] in VP, PT. destruct (nthN p cs) as [x|] eqn:EN; [|destruct VP].
    destruct VP as (_ & VP).
    destruct (nthN_split _ _ _ EN) as (CS & LP).
    destruct (and_loop cur p 0 (kmap cs) c) as [z c1] eqn:EL.
    inversion E; subst r c'.
    destruct (kmap_at _ _ _ EN) as (KS & KL).
    rewrite KS, and_loop_skip, KL in EL by (rewrite KL; apply N.le_refl). cbn [N.add] in EL.
    rewrite CS, flat_map_app in ND. apply SD_app_r in ND.
    rewrite CS in OK. apply Forall_app in OK. destruct OK as [_ OK'].
    pose proof (and_step (takeN p cs) x (dropN (p + 1) cs) pit p c z c1 CS (Forall_inv OK') ND) as G.
    rewrite LP in G. cbn [evalp]. rewrite EN.
    apply (outcome_weaken (flat_map leaf_ids (x :: dropN (p + 1) cs)));
      [|rewrite CS at 2; rewrite flat_map_app; apply incl_appr, incl_refl].
    apply G; [apply N.le_refl| split; [exact Q|]; split; assumption| | exact EL].
    pose proof (and_fresh p (dropN (p + 1) cs) (takeN p cs ++ [x])) as G2.
    rewrite lenN_snoc, LP in G2. apply G2; [rewrite <- app_assoc; exact CS| exact (Forall_inv_tail OK')| apply N.le_add_r].
Qed.
End AndNode.

(* Acl::OrNode::doMatch (inner any-of nodes and the root Acl::Tree) *)
Definition is_some {A} (o : option A) : bool := match o with Some _ => true | None => false end.

Lemma or_loop_cons isbanned record cur start idx cid run l c :
  or_loop isbanned record cur start idx ((cid, run) :: l) c =
  if idx <? start then or_loop isbanned record cur start (idx + 1) l c
  else if isbanned c idx then or_loop isbanned record cur start (idx + 1) l c
  else let '(b, c1) := matchChild cur idx cid run c in
       if b then (1%Z, if record then set_lastMatch (Some idx) c1 else c1)
       else if negb (keepMatching c1) then ((-1)%Z, c1)
       else or_loop isbanned record cur start (idx + 1) l c1.
Proof. reflexivity. Qed.

Lemma or_loop_skip isbanned record cur start c : forall l1 l2 idx,
  idx + lenN l1 <= start ->
  or_loop isbanned record cur start idx (l1 ++ l2) c = or_loop isbanned record cur start (idx + lenN l1) l2 c.
Proof.
  induction l1 as [|[cid run] l1 IH]; intros l2 idx H; cbn [app lenN].
  - now rewrite N.add_0_r.
  - cbn [lenN] in H. rewrite or_loop_cons.
    replace (idx <? start) with true by (symmetry; apply N.ltb_lt; lia).
    rewrite IH by lia. f_equal. lia.
Qed.

Section OrLoop.
Variables (cur : N) (cs : list node) (isbanned : st -> N -> bool) (record : bool) (isb : N -> bool)
          (bans : list answer).
Hypothesis HB : forall c q, banned c = bans -> isbanned c q = isb q.

Definition opost (ids : list N) (V : option N) (c : st) (r : Z) (c' : st) : Prop :=
  outcome ids c c'
    ((r =? 1)%Z = is_some V /\ (record = true -> forall q, V = Some q -> lastMatch c' = Some q))
    ((r =? 1)%Z = false /\
     exists q x pi', nthN q cs = Some x /\ isb q = false /\ vpath pi' x /\
       path c' = (cur, q) :: crumbs pi' x /\
       (if evalp (lv c') pi' x then Some q else first_from (lv c') isb (q + 1) (dropN (q + 1) cs)) = V).

(* the loop from child idx on, with the children suf still to be matched *)
Definition or_tail (start idx : N) (suf : list node) : Prop :=
  forall c r c', quiet c -> path c = [] -> banned c = bans -> SD c (flat_map leaf_ids suf) ->
    or_loop isbanned record cur start idx (kmap suf) c = (r, c') ->
    opost (flat_map leaf_ids suf) (first_from (lv c) isb idx suf) c r c'.

Lemma or_step pre x suf pit start c r c' :
  cs = pre ++ x :: suf -> run_ok x -> SD c (flat_map leaf_ids (x :: suf)) -> start <= lenN pre ->
  banned c = bans -> isb (lenN pre) = false -> mcpre x pit c -> or_tail start (lenN pre + 1) suf ->
  or_loop isbanned record cur start (lenN pre) (kmap (x :: suf)) c = (r, c') ->
  opost (flat_map leaf_ids (x :: suf))
        (if evalp (lv c) pit x then Some (lenN pre) else first_from (lv c) isb (lenN pre + 1) suf) c r c'.
Proof.
  intros CS OK ND ST BN NB PRE K E. cbn [flat_map] in *.
  cbn [kmap map] in E. rewrite or_loop_cons, (proj2 (N.ltb_ge _ _) ST), (HB c _ BN), NB in E.
  destruct (matchChild cur (lenN pre) (node_id x) (node_run scr x) c) as [b c1] eqn:EM.
  pose proof (matchChild_ok _ _ _ _ _ _ _ OK (SD_app_l _ _ _ ND) PRE EM) as M. pose proof M as (IV & _).
  pose proof (frame_lv _ _ _ _ ND IV) as FR. pose proof (SD_after _ _ _ _ ND IV) as SD1.
  destruct (outcome_weaken _ (leaf_ids x ++ flat_map leaf_ids suf) _ _ _ _ M (incl_appl _ (incl_refl _))) as (IVw & G).
  rewrite <- (first_from_ext _ _ _ _ _ FR).
  destruct G as [(S1 & S2 & S3)|(S1 & S2 & S3 & S4 & pi' & S5 & S6 & S7)].
  - (* the child completed *)
    pose proof IV as (A1 & A2 & _ & A4 & _). rewrite <- S3. destruct b.
    + inversion E; subst r c'. split.
      { destruct record; exact IVw. }
      left. destruct record; (split; [exact S1|]); (split; [exact S2|]); (split; [reflexivity|]).
      * intros _ q Hq. inversion Hq; reflexivity.
      * intros C; discriminate.
    + rewrite (quiet_keep c1 S1 A2) in E. cbn [negb] in E.
      apply (outcome_after _ _ c1 _ _ _ IVw), (outcome_weaken (flat_map leaf_ids suf)); [|apply incl_appr, incl_refl].
      apply K; try assumption; [repeat split; assumption| congruence].
  - (* the child suspended *)
    subst b. rewrite (running_stop c1 S1) in E. cbn [negb] in E. inversion E; subst r c'.
    split; [exact IVw|].
    right. split; [exact S1|]. split; [exact S2|]. split; [exact S3|]. split; [reflexivity|].
    exists (lenN pre), x, pi'. rewrite CS, nthN_app_len, dropN_app_len.
    split; [reflexivity|]. split; [exact NB|]. split; [exact S5|]. split; [exact S6|]. rewrite S7. reflexivity.
Qed.

Lemma or_fresh start : forall suf pre,
  cs = pre ++ suf -> Forall run_ok suf -> start <= lenN pre -> or_tail start (lenN pre) suf.
Proof.
  induction suf as [|x suf IH]; intros pre CS OK ST c r c' Q PT BN ND E.
  - cbn in E. inversion E; subst r c'. destruct Q as (Q1 & Q2 & Q3).
    split; [apply inv_refl; assumption|]. left. cbn [first_from is_some].
    split; [exact Q1|]. split; [exact PT|]. split; [reflexivity|]. intros _ q C; discriminate.
  - assert (REC : or_tail start (lenN pre + 1) suf).
    { rewrite <- (lenN_snoc pre x). apply IH;
        [rewrite <- app_assoc; exact CS| exact (Forall_inv_tail OK)| rewrite lenN_snoc; apply (N.le_trans _ _ _ ST), N.le_add_r]. }
    cbn [first_from]. destruct (isb (lenN pre)) eqn:NB; cbn [negb andb].
    + (* a banned rule is skipped *)
      cbn [kmap map] in E. rewrite or_loop_cons, (proj2 (N.ltb_ge _ _) ST), (HB c _ BN), NB in E. fold (kmap suf) in E.
      cbn [flat_map] in ND |- *. apply (outcome_weaken (flat_map leaf_ids suf)); [|apply incl_appr, incl_refl].
      exact (REC c r c' Q PT BN (SD_app_r _ _ _ ND) E).
    + apply (or_step pre x suf [] start c r c' CS (Forall_inv OK) ND ST BN NB);
        [exact (conj Q (conj Logic.I PT))| exact REC| exact E].
Qed.

(* matching from position p along the path pit of child p *)
Lemma or_resume p x pit c r c' :
  nthN p cs = Some x -> Forall run_ok cs -> SD c (flat_map leaf_ids cs) ->
  banned c = bans -> isb p = false -> mcpre x pit c ->
  or_loop isbanned record cur p 0 (kmap cs) c = (r, c') ->
  opost (flat_map leaf_ids cs)
        (if evalp (lv c) pit x then Some p else first_from (lv c) isb (p + 1) (dropN (p + 1) cs)) c r c'.
Proof.
  intros EN OK ND BN NB PRE EL.
  destruct (nthN_split _ _ _ EN) as (CS & LP).
  destruct (kmap_at _ _ _ EN) as (KS & KL).
  rewrite KS, or_loop_skip, KL in EL by (rewrite KL; apply N.le_refl). cbn [N.add] in EL.
  apply (outcome_weaken (flat_map leaf_ids (x :: dropN (p + 1) cs)));
    [|rewrite CS at 2; rewrite flat_map_app; apply incl_appr, incl_refl].
  rewrite CS, flat_map_app in ND. apply SD_app_r in ND.
  rewrite CS in OK. apply Forall_app in OK. destruct OK as [_ OK'].
  pose proof (or_step (takeN p cs) x (dropN (p + 1) cs) pit p c r c' CS (Forall_inv OK') ND) as G.
  rewrite LP in G. apply G; try assumption; [apply N.le_refl|].
  pose proof (or_fresh p (dropN (p + 1) cs) (takeN p cs ++ [x])) as G2.
  rewrite lenN_snoc, LP in G2. apply G2; [rewrite <- app_assoc; exact CS| exact (Forall_inv_tail OK')| apply N.le_add_r].
Qed.
End OrLoop.

(* inner OrNode / Acl::AnyOf *)
Lemma or_node_ok cur k cs : k = KOr \/ k = KAnyOf -> Forall run_ok cs -> run_ok (Inner cur k cs).
Proof.
  intros HK OK pi c r c' ND (Q & _ & _ & VP & PT) E. cbn [leaf_ids] in *.
  set (isbanned := fun (_ : st) (_ : N) => false) in *.
  assert (HB : forall (c0 : st) (q : N), banned c0 = banned c -> isbanned c0 q = (fun _ : N => false) q) by reflexivity.
  assert (DM : forall s l c0, doMatch k cur s l c0 = or_loop isbanned false cur s 0 l c0)
    by (intros; destruct HK; subst k; reflexivity).
  assert (CONV : forall z c1 V, 
            opost cur cs false (fun _ => false) (flat_map leaf_ids cs) V c z c1 ->
            gpost (flat_map leaf_ids cs) (Inner cur k cs) (is_some V) c (z =? 1)%Z c1).
  { intros z c1 V (IV & G). split; [exact IV|].
    destruct G as [(S1 & S2 & S3 & _)|(S1 & S2 & S3 & S4 & q & x & pi' & T1 & T2 & T3 & T4 & T5)]; [left; auto|].
    right. split; [exact S1|]. split; [exact S2|]. split; [exact S3|]. split; [exact S4|].
    exists (q :: pi'). cbn [vpath crumbs evalp]. rewrite T1.
    split; [split; [destruct HK; subst k; exact Logic.I| exact T3]|]. split; [exact T4|].
    rewrite <- T5. rewrite (existsb_first_from _ (q + 1)).
    destruct HK; subst k; destruct (evalp (lv c1) pi' x); reflexivity. }
  destruct pi as [|p pit].
  - cbn [startof node_run] in E. fold (kmap cs) in E. rewrite DM in E.
    destruct (or_loop isbanned false cur 0 0 (kmap cs) (set_lastName (Some cur) c)) as [z c1] eqn:EL.
    inversion E; subst r c'. cbn [evalp eval].
    replace (match k with KNot => _ | KAnd => _ | KOr | KAnyOf => existsb (eval (lv c)) cs | KAllOf => _ end)
      with (existsb (eval (lv c)) cs) by (destruct HK; subst k; reflexivity).
    rewrite (existsb_first_from _ 0). apply CONV.
    apply (or_fresh cur cs isbanned false (fun _ => false) (banned c) HB 0 cs [] eq_refl OK (N.le_0_l _)
             (set_lastName (Some cur) c) z c1); (assumption || reflexivity).
  - cbn [startof node_run] in E. fold (kmap cs) in E. rewrite DM in E.
    cbn [vpath tailcrumbs] in VP, PT. destruct (nthN p cs) as [x|] eqn:EN; [|destruct VP].
    destruct VP as (_ & VP).
    destruct (or_loop isbanned false cur p 0 (kmap cs) c) as [z c1] eqn:EL.
    inversion E; subst r c'.
    assert (G := or_resume cur cs isbanned false (fun _ => false) (banned c) HB p x pit c z c1 EN OK ND
                   eq_refl eq_refl (conj Q (conj VP PT)) EL).
    apply CONV in G. cbn [evalp]. rewrite EN. rewrite (existsb_first_from _ (p + 1)).
    destruct HK; subst k; destruct (evalp (lv c) pit x); exact G.
Qed.

(* Acl::NotNode::doMatch and Acl::AllOf::doMatch: one child at nodes.begin() *)
Lemma single_step cur k x rest pit c z c' :
  k = KNot \/ k = KAllOf -> run_ok x -> SD c (leaf_ids x) -> mcpre x pit c ->
  doMatch k cur 0 (kmap (x :: rest)) c = (z, c') ->
  gpost (leaf_ids x) (Inner cur k (x :: rest))
        (match k with KNot => negb (evalp (lv c) pit x) | _ => evalp (lv c) pit x end) c (z =? 1)%Z c'.
Proof.
  intros HK OK ND PRE E.
  assert (E' : (let '(b, c1) := matchChild cur 0 (node_id x) (node_run scr x) c in
                match k with
                | KNot => if b then (0%Z, c1) else if negb (keepMatching c1) then ((-1)%Z, c1) else (1%Z, c1)
                | _ => if b then (1%Z, c1) else ((if keepMatching c1 then 0 else -1)%Z, c1)
                end) = (z, c')).
  { destruct HK; subst k; exact E. }
  clear E. destruct (matchChild cur 0 (node_id x) (node_run scr x) c) as [b c1] eqn:EM.
  destruct (matchChild_ok _ _ _ _ _ _ _ OK ND PRE EM) as (IV & G).
  destruct G as [(S1 & S2 & S3)|(S1 & S2 & S3 & S4 & pi' & S5 & S6 & S7)].
  - assert (KM : keepMatching c1 = true) by (apply quiet_keep; [exact S1| apply IV]).
    rewrite KM in E'. rewrite <- S3.
    assert (EZ : c' = c1 /\ (z =? 1)%Z = match k with KNot => negb b | _ => b end).
    { destruct HK; subst k; destruct b; cbn [negb] in E'; inversion E'; subst; split; reflexivity. }
    destruct EZ as (-> & ->). split; [exact IV|]. left. auto.
  - subst b. rewrite (running_stop c1 S1) in E'.
    assert (EZ : c' = c1 /\ (z =? 1)%Z = false).
    { destruct HK; subst k; cbn [negb] in E'; inversion E'; subst; split; reflexivity. }
    destruct EZ as (-> & ->). split; [exact IV|].
    right. split; [exact S1|]. split; [exact S2|]. split; [exact S3|]. split; [reflexivity|].
    exists (0 :: pi'). cbn [vpath crumbs evalp nthN N.eqb].
    split; [split; [destruct HK; subst k; reflexivity| exact S5]|]. split; [exact S6|].
    rewrite S7. destruct HK; subst k; reflexivity.
Qed.

Lemma single_node_ok cur k cs :
  k = KNot \/ k = KAllOf -> (k = KNot -> cs <> []) -> Forall run_ok cs -> run_ok (Inner cur k cs).
Proof.
  intros HK NE OK pi c r c' ND (Q & _ & _ & VP & PT) E. cbn [leaf_ids] in *.
  destruct cs as [|x rest].
  { (* an all-of without lines matches *)
    destruct HK as [->| ->]; [exfalso; apply NE; reflexivity|].
    destruct pi as [|p pit]; [|cbn [vpath nthN] in VP; destruct VP].
    cbn in E. inversion E; subst r c'. destruct Q as (Q1 & Q2 & Q3).
    split; [unfold inv; stg; repeat split; auto|]. left. stg. auto. }
  pose proof (Forall_inv OK) as OKx. cbn [flat_map] in ND |- *.
  assert (NDx := SD_app_l _ _ _ ND).
  apply (outcome_weaken (leaf_ids x)); [|apply incl_appl, incl_refl].
  destruct pi as [|p pit].
  - cbn [startof node_run] in E. fold (kmap (x :: rest)) in E.
    destruct (doMatch k cur 0 (kmap (x :: rest)) (set_lastName (Some cur) c)) as [z c1] eqn:ED.
    inversion E; subst r c'.
    replace (evalp (lv c) [] (Inner cur k (x :: rest)))
      with (match k with KNot => negb (evalp (lv c) [] x) | _ => evalp (lv c) [] x end)
      by (destruct HK; subst k; reflexivity).
    apply (single_step cur k x rest [] (set_lastName (Some cur) c) z c1 HK OKx NDx); [|exact ED].
    split; [exact Q|]. split; [exact Logic.I| exact PT].
  - cbn [vpath tailcrumbs] in VP, PT.
    destruct (nthN p (x :: rest)) as [y|] eqn:EN; [|destruct VP]. destruct VP as (P0 & VP).
    assert (p = 0) by (destruct HK; subst k; exact P0). subst p. cbn in EN. inversion EN; subst y.
    cbn [startof node_run] in E. fold (kmap (x :: rest)) in E.
    destruct (doMatch k cur 0 (kmap (x :: rest)) c) as [z c1] eqn:ED.
    inversion E; subst r c'.
    replace (evalp (lv c) (0 :: pit) (Inner cur k (x :: rest)))
      with (match k with KNot => negb (evalp (lv c) pit x) | _ => evalp (lv c) pit x end)
      by (destruct HK; subst k; reflexivity).
    exact (single_step cur k x rest pit c z c1 HK OKx NDx (conj Q (conj VP PT)) ED).
Qed.

(* 3. every well-formed node behaves *)
Lemma node_ok : forall n, wf_node n = true -> run_ok n.
Proof.
  induction n as [i|i k cs IH] using node_ind2; intros WF; [apply leaf_ok|].
  cbn [wf_node] in WF. apply andb_prop in WF. destruct WF as (WF1 & WF2).
  assert (OK : Forall run_ok cs).
  { rewrite forallb_forall in WF2. rewrite Forall_forall in IH |- *. intros x Hx. apply IH; [exact Hx| apply WF2; exact Hx]. }
  destruct k.
  - apply single_node_ok; [left; reflexivity| | exact OK]. intros _ ->. discriminate.
  - apply and_node_ok; exact OK.
  - apply or_node_ok; [left; reflexivity| exact OK].
  - apply single_node_ok; [right; reflexivity| | exact OK]. intros C; discriminate.
  - apply or_node_ok; [right; reflexivity| exact OK].
Qed.

(* 4. the root Acl::Tree and matchAndFinish *)
Definition decide_V (m : mode) (t : tree) (V : option N) : code * N * bool :=
  match V with
  | Some pos =>
      match actions t with
      | [] => (Allowed, 0, false)
      | _ => (acode (nth_action t pos), akind (nth_action t pos), false)
      end
  | None =>
      match m with
      | MFastList => (Denied, 0, false)
      | _ => (opposite (acode (last (actions t) (action Dunno 0))), 0, true)
      end
  end.

Lemma decide_eq m v t bans : decide m v t bans = decide_V m t (first_from v (rule_banned t bans) 0 (rules t)).
Proof. reflexivity. Qed.

Lemma markFinished_quiet a c : stg c = SNone -> finished c = false ->
  markFinished a c = set_ans (mkAns (acode a) (akind a) (aimplicit a) (lastName c)) (set_finished true c).
Proof. intros S F. unfold markFinished, asyncInProgress. rewrite S, F. reflexivity. Qed.

Lemma nth_action_explicit t pos : explicit_actions t = true -> aimplicit (nth_action t pos) = false.
Proof.
  unfold explicit_actions, nth_action. intros H.
  destruct (nthN pos (actions t)) as [a|] eqn:E; [|reflexivity].
  rewrite forallb_forall in H. apply nthN_in in E. apply H in E. now apply negb_true_iff in E.
Qed.

Section Root.
Variables (t : tree) (bans : list answer).
Hypothesis WF : forallb wf_node (rules t) = true.
Hypothesis EX : explicit_actions t = true.
Let rb := rule_banned t bans.
Let ids := tree_leaf_ids t.

Lemma tree_banned_rb c q : banned c = bans -> tree_banned t c q = rb q.
Proof. intros B. unfold tree_banned, rb, rule_banned, bannedAction. rewrite B. reflexivity. Qed.

Lemma rules_ok : Forall run_ok (rules t).
Proof.
  rewrite forallb_forall in WF. rewrite Forall_forall. intros x Hx. apply node_ok, WF, Hx.
Qed.

(* the value of the suspended root recursion *)
Definition susp_core (V : option N) (c' : st) : Prop :=
  stg c' = SRunning /\ finished c' = false /\ asyncCaller c' = true /\ pend ids c' /\
  exists q x pi', nthN q (rules t) = Some x /\ rb q = false /\ vpath pi' x /\
    path c' = (tid t, q) :: crumbs pi' x /\
    (if evalp (lv c') pi' x then Some q else first_from (lv c') rb (q + 1) (dropN (q + 1) (rules t))) = V.

Definition mfpost (V : option N) (c c' : st) : Prop :=
  (forall j, (length (lrem c' j) <= length (lrem c j))%nat) /\
  err c' = false /\ cbk c' = cbk c /\ asyncCaller c' = asyncCaller c /\ banned c' = banned c /\
  ((stg c' = SNone /\ finished c' = true /\ exists q, V = Some q /\
      forall m, (acode (ans c'), akind (ans c'), aimplicit (ans c')) = decide_V m t V)
   \/ (stg c' = SNone /\ finished c' = false /\ V = None)
   \/ susp_core V c').

(* what matchAndFinish does with the outcome of the root OrNode loop *)
Lemma finish_ok V c0 z c1 :
  (forall q, V = Some q -> q < lenN (rules t)) ->
  opost (tid t) (rules t) true rb ids V c0 z c1 ->
  mfpost V c0 (if (z =? 1)%Z then
                 let '(a, bad) := winningAction t c1 in markFinished a (if bad then set_err true c1 else c1)
               else c1).
Proof.
  intros BD ((A1 & A2 & A3 & A4 & A5 & A6 & A7) & G).
  destruct G as [(S1 & S2 & S3 & S4)|(S1 & S3 & S4 & S2 & S5)].
  - rewrite S3. destruct V as [q|]; cbn [is_some].
    + specialize (S4 eq_refl q eq_refl). specialize (BD q eq_refl).
      assert (QB : lenN (rules t) <=? q = false) by (apply N.leb_gt; exact BD).
      assert (WA : winningAction t c1 =
                   (match actions t with [] => action Allowed 0 | _ => nth_action t q end, false)).
      { unfold winningAction. rewrite S4, QB. destruct (actions t); reflexivity. }
      rewrite WA, (markFinished_quiet _ c1 S1 A2).
      refine (conj A7 (conj A1 (conj A5 (conj A3 (conj A4 _))))).
      left. split; [exact S1|]. split; [reflexivity|].
      exists q. split; [reflexivity|]. intros m. cbn [decide_V].
      destruct (actions t) eqn:EA; [reflexivity|]. rewrite (nth_action_explicit t q EX). reflexivity.
    + refine (conj A7 (conj A1 (conj A5 (conj A3 (conj A4 _))))). right. left. auto.
  - rewrite S2. refine (conj A7 (conj A1 (conj A5 (conj A3 (conj A4 _))))). right. right.
    unfold susp_core. auto.
Qed.

Lemma matchAndFinish_fresh c :
  SD c (tree_leaf_ids t) -> quiet c -> path c = [] -> banned c = bans ->
  mfpost (first_from (lv c) rb 0 (rules t)) c (matchAndFinish scr t c).
Proof.
  intros ND Q PT BN. unfold matchAndFinish. rewrite PT. unfold tree_run. fold (kmap (rules t)).
  destruct (or_loop (tree_banned t) true (tid t) 0 0 (kmap (rules t))
              (set_lastMatch None (set_lastName (Some (tid t)) c))) as [z c1] eqn:EL.
  set (c0 := set_lastMatch None (set_lastName (Some (tid t)) c)) in *.
  destruct Q as (Q1 & Q2 & Q3).
  assert (G' : opost (tid t) (rules t) true rb ids (first_from (lv c0) rb 0 (rules t)) c0 z c1).
  { apply (or_fresh (tid t) (rules t) (tree_banned t) true rb bans tree_banned_rb 0 (rules t) [] eq_refl rules_ok
             (N.le_0_l _) c0 z c1); [unfold quiet, c0; stg; auto| exact PT| exact BN| exact ND| exact EL]. }
  assert (BD : forall q, first_from (lv c0) rb 0 (rules t) = Some q -> q < lenN (rules t)).
  { intros q H. apply first_from_bound in H. lia. }
  exact (finish_ok _ c0 z c1 BD G').
Qed.

Lemma matchAndFinish_resume V c q x pi' :
  SD c (tree_leaf_ids t) -> quiet c -> banned c = bans ->
  nthN q (rules t) = Some x -> rb q = false -> vpath pi' x -> path c = (tid t, q) :: crumbs pi' x ->
  (if evalp (lv c) pi' x then Some q else first_from (lv c) rb (q + 1) (dropN (q + 1) (rules t))) = V ->
  mfpost V c (matchAndFinish scr t c).
Proof.
  intros ND Q BN EN NB VP PT EV. unfold matchAndFinish. rewrite PT. cbn [fst snd]. rewrite N.eqb_refl.
  unfold tree_run. fold (kmap (rules t)).
  set (c0 := set_lastMatch None (set_path (crumbs pi' x) c)).
  destruct (or_loop (tree_banned t) true (tid t) q 0 (kmap (rules t)) c0) as [z c1] eqn:EL.
  destruct Q as (Q1 & Q2 & Q3).
  assert (G := or_resume (tid t) (rules t) (tree_banned t) true rb bans tree_banned_rb q x pi' c0 z c1
                 EN rules_ok ND BN NB).
  assert (G' : opost (tid t) (rules t) true rb ids V c0 z c1).
  { rewrite <- EV. apply G; [|exact EL]. split; [unfold quiet, c0; stg; auto|]. split; [exact VP| reflexivity]. }
  assert (BD : forall q0, V = Some q0 -> q0 < lenN (rules t)).
  { intros q0 H. rewrite <- EV in H. pose proof (nthN_lt _ _ _ EN) as LT.
    destruct (evalp (lv c) pi' x); [inversion H; subst; exact LT|].
    apply first_from_bound in H. rewrite lenN_dropN in H. clear -H LT. lia. }
  exact (finish_ok V c0 z c1 BD G').
Qed.
End Root.

(* 5. the checks *)
Section Top.
Variables (t : tree) (bans : list answer).
Hypothesis WF : forallb wf_node (rules t) = true.
Hypothesis EX : explicit_actions t = true.
Let rb := rule_banned t bans.
Let ids := tree_leaf_ids t.

Definition answered (V : option N) (c : st) : Prop :=
  err c = false /\ exists a, cbk c = Some a /\ (acode a, akind a, aimplicit a) = decide_V MNonBlocking t V.

Definition suspended (V : option N) (c : st) : Prop :=
  err c = false /\ cbk c = None /\ banned c = bans /\ SD c ids /\ susp_core t bans V c.

Lemma opposite_eq c : match c with Denied => Allowed | Allowed => Denied | _ => Dunno end = opposite c.
Proof. destruct c; reflexivity. Qed.

(* matching ended without suspending: what the check then answers. fastCheck(list) denies when no rule
   matched, the other checks reverse the last action *)
Lemma settle_ok m V c c' :
  mfpost t bans V c c' -> stg c' = SNone ->
  let c2 := if finished c' then c'
            else match m with MFastList => markFinished (action Denied 0) c' | _ => calcImplicitAnswer t c' end in
  finished c2 = true /\ err c2 = false /\ lrem c2 = lrem c' /\ result (ans c2) = decide_V m t V.
Proof.
  intros (_ & M2 & _ & _ & _ & [(_ & S2 & q & _ & S4)|[(_ & S2 & ->)|(S1 & _)]]) S0; [| |congruence]; rewrite S2.
  - repeat split; [exact S2| exact M2| apply S4].
  - destruct m; unfold calcImplicitAnswer; rewrite (markFinished_quiet _ _ S0 S2), ?opposite_eq; repeat split; exact M2.
Qed.

(* after matchAndFinish: completeNonBlocking, or stay suspended *)
Lemma complete_ok V c c' :
  SD c ids -> mfpost t bans V c c' -> cbk c = None -> banned c = bans ->
  (asyncInProgress c' = false /\ answered V (completeNonBlocking t c') /\ lrem (completeNonBlocking t c') = lrem c')
  \/ (asyncInProgress c' = true /\ suspended V c').
Proof.
  intros SDc M CB BN. pose proof M as (M1 & M2 & M3 & M4 & M5 & M6).
  assert (Q : stg c' = SNone \/ susp_core t bans V c') by (destruct M6 as [(S1 & _)|[(S1 & _)|S]]; auto).
  unfold completeNonBlocking, asyncInProgress. destruct Q as [S1|S].
  - left. rewrite S1. split; [reflexivity|]. cbn [stage_eqb negb].
    destruct (settle_ok MNonBlocking V c c' M S1) as (T1 & T2 & T3 & T4). cbv beta iota zeta in T1, T2, T3, T4.
    unfold checkCallback. rewrite T1. split; [|exact T3].
    split; [exact T2|]. eexists. split; [reflexivity| exact T4].
  - right. pose proof S as (S1 & _). rewrite S1. split; [reflexivity|].
    split; [exact M2|]. split; [congruence|]. split; [congruence|].
    split; [eapply SD_mono; [exact SDc| exact M1]| exact S].
Qed.

Lemma nonBlockingCheck_ok c0 :
  SD c0 ids -> stg c0 = SNone -> err c0 = false -> path c0 = [] -> cbk c0 = None -> banned c0 = bans ->
  let V := first_from (fun i => lval_k true (retry (scr i)) (truth (scr i)) 0 (lrem c0 i)) rb 0 (rules t) in
  let c' := nonBlockingCheck scr t c0 in
  (answered V c' \/ suspended V c') /\ (forall j, (length (lrem c' j) <= length (lrem c0 j))%nat).
Proof.
  intros SD0 S0 E0 P0 C0 B0 V c'. unfold c', nonBlockingCheck.
  set (c1 := set_asyncCaller true (preCheck c0)).
  pose proof (matchAndFinish_fresh t bans WF EX c1 SD0 (conj S0 (conj eq_refl E0)) P0 B0) as M'.
  destruct (complete_ok V c1 _ SD0 M') as [(A & B & L)|(A & B)]; try assumption; rewrite A.
  - split; [left; exact B|]. rewrite L. apply M'.
  - split; [right; exact B|]. apply M'.
Qed.

Lemma lv_deliver c j rest :
  asyncCaller c = true -> lrem c j = Real :: rest ->
  forall i, lv (set_stg SNone (deliver j c)) i = lv c i.
Proof.
  intros AC LR i. unfold lv, deliver. stg. rewrite AC. unfold upd.
  destruct (i =? j) eqn:E; [|reflexivity]. apply N.eqb_eq in E. subst i. rewrite LR. reflexivity.
Qed.

Lemma resume_ok V c :
  suspended V c ->
  exists j, pending c = Some j /\
    let c' := resumeNonBlockingCheck scr t (deliver j c) in
    (answered V c' \/ suspended V c') /\ (total ids c' < total ids c)%nat.
Proof.
  intros (E0 & C0 & B0 & SDc & S1 & S2 & S3 & (j & rest & P1 & P2 & P3) & q & x & pi' & T1 & T2 & T3 & T4 & T5).
  exists j. split; [exact P1|]. intros c'. unfold c', resumeNonBlockingCheck.
  assert (D1 : stg (deliver j c) = SRunning) by exact S1.
  rewrite D1. cbn [stage_eqb]. 
  set (c2 := set_stg SNone (deliver j c)).
  assert (P2' : path c2 = (tid t, q) :: crumbs pi' x) by exact T4.
  rewrite P2'.
  assert (F2 : finished c2 = false) by exact S2. rewrite F2.
  assert (LV := lv_deliver c j rest S3 P3). fold c2 in LV.
  assert (LE2 : forall i, (length (lrem c2 i) <= length (lrem c i))%nat) by exact (upd_tl_le (lrem c) j).
  assert (SD2 : SD c2 ids) by (eapply SD_mono; [exact SDc| exact LE2]).
  assert (M := matchAndFinish_resume t bans WF EX V c2 q x pi' SD2).
  assert (M' : mfpost t bans V c2 (matchAndFinish scr t c2)).
  { apply M; try assumption.
    - unfold quiet, c2, deliver; stg; auto.
    - rewrite <- T5. rewrite (evalp_ext _ _ pi' x (fun i _ => LV i)).
      rewrite (first_from_ext _ _ rb (q + 1) _ (fun i _ => LV i)). reflexivity. }
  assert (LT : (total ids (matchAndFinish scr t c2) < total ids c)%nat).
  { destruct M' as (M1 & _). apply (Nat.le_lt_trans _ (total ids c2)); [apply total_le; exact M1|].
    apply (total_lt ids c c2 j LE2 P2).
    change (lrem c2 j) with (upd (lrem c) j (tl (lrem c j)) j). rewrite upd_same, P3. apply Nat.lt_succ_diag_r. }
  destruct (complete_ok V c2 _ SD2 M') as [(A & B & L)|(A & B)]; try assumption; rewrite A.
  - split; [left; exact B|]. unfold total. rewrite L. exact LT.
  - pose proof B as (_ & _ & _ & _ & _ & _ & _ & _ & q' & x' & pi2 & _ & _ & _ & B11 & _).
    rewrite B11. split; [right; exact B| exact LT].
Qed.

Lemma nb_loop_answered V fuel c : answered V c -> nb_loop scr fuel t c = Some c.
Proof. intros (_ & a & A & _). destruct fuel; cbn [nb_loop]; rewrite A; reflexivity. Qed.

Lemma nb_loop_ok V : forall fuel c,
  answered V c \/ (suspended V c /\ (total ids c < fuel)%nat) ->
  exists c', nb_loop scr fuel t c = Some c' /\ answered V c'.
Proof.
  induction fuel as [|f IH]; intros c [A|(S & LT)];
    try (exists c; split; [apply (nb_loop_answered V), A| exact A]).
  - inversion LT.
  - destruct (resume_ok V c S) as (j & PJ & G & LT2). cbn [nb_loop]. destruct S as (_ & CB & _). rewrite CB, PJ.
    apply IH. destruct G as [G|G]; [left; exact G| right; split; [exact G|]].
    apply (Nat.lt_le_trans _ _ _ LT2), Nat.lt_succ_r, LT.
Qed.

(* fastCheck() and fastCheck(list): goAsync() is refused, so matching never suspends *)
Lemma fast_ok (m : mode) c0 :
  m <> MNonBlocking -> SD c0 ids ->
  stg c0 = SNone -> err c0 = false -> path c0 = [] -> banned c0 = bans ->
  let V := first_from (fun i => lval_k false (retry (scr i)) (truth (scr i)) 0 (lrem c0 i)) rb 0 (rules t) in
  let c' := match m with MFastList => fastCheckList scr t c0 | _ => fastCheck scr t c0 end in
  err c' = false /\ (acode (ans c'), akind (ans c'), aimplicit (ans c')) = decide_V m t V.
Proof.
  intros NM SD0 S0 E0 P0 B0 V c'.
  set (c1 := set_asyncCaller false (preCheck c0)).
  pose proof (matchAndFinish_fresh t bans WF EX c1 SD0 (conj S0 (conj eq_refl E0)) P0 B0) as M'.
  assert (S1 : stg (matchAndFinish scr t c1) = SNone).
  { destruct M' as (_ & _ & _ & M4 & _ & [(S1 & _)|[(S1 & _)|(_ & _ & AC & _)]]); try exact S1.
    rewrite M4 in AC. discriminate AC. }
  destruct (settle_ok m V c1 _ M' S1) as (_ & T2 & _ & T4).
  destruct m; [congruence| |]; exact (conj T2 T4).
Qed.
End Top.

End Proofs.

Lemma NoDup_shared_leaves_sync t tbl : NoDup (tree_leaf_ids t) -> shared_leaves_sync t tbl.
Proof.
  intros ND l1 l2 j E H1 H2.
  exact (NoDup_SD (init_st [] (fun i => attempts (lookup_script tbl i))) _ ND l1 l2 j E H1 H2).
Qed.

Theorem nonblocking_first_match t bans tbl :
  tree_ok t = true -> forallb wf_node (rules t) = true -> explicit_actions t = true ->
  shared_leaves_sync t tbl ->
  exists c a, run_check MNonBlocking t bans tbl = Some c /\ err c = false /\ cbk c = Some a /\
    result a = decide MNonBlocking (fun i => leaf_value true (lookup_script tbl i)) t bans.
Proof.
  intros TK WF EX ND. unfold run_check. rewrite TK. cbn [negb].
  set (scr := lookup_script tbl). set (c0 := init_st bans (fun i => attempts (scr i))).
  destruct (nonBlockingCheck_ok scr t bans WF EX c0 ND) as (G & LE); try reflexivity.
  cbn zeta in G, LE.
  set (V := first_from (fun i => lval_k true (retry (scr i)) (truth (scr i)) 0 (lrem c0 i))
              (rule_banned t bans) 0 (rules t)) in *.
  destruct (nb_loop_ok scr t bans WF EX V (S (tree_attempts scr t)) (nonBlockingCheck scr t c0))
    as (c' & RUN & A1 & a & A2 & A3).
  { destruct G as [G|G]; [left; exact G| right; split; [exact G|]].
    apply Nat.lt_succ_r. exact (total_le (tree_leaf_ids t) c0 _ LE). }
  exists c', a. split; [exact RUN|]. split; [exact A1|]. split; [exact A2|].
  unfold result. rewrite A3, decide_eq. reflexivity.
Qed.

Theorem fast_first_match m t bans tbl :
  m <> MNonBlocking ->
  tree_ok t = true -> forallb wf_node (rules t) = true -> explicit_actions t = true ->
  shared_leaves_sync t tbl ->
  exists c, run_check m t bans tbl = Some c /\ err c = false /\
    result (ans c) = decide m (fun i => leaf_value false (lookup_script tbl i)) t bans.
Proof.
  intros NM TK WF EX ND. unfold run_check. rewrite TK. cbn [negb].
  set (scr := lookup_script tbl). set (c0 := init_st bans (fun i => attempts (scr i))).
  destruct (fast_ok scr t bans WF EX m c0 NM ND) as (G1 & G2); try reflexivity.
  cbn zeta in G1, G2. rewrite decide_eq.
  destruct m; [congruence| |]; eexists; (split; [reflexivity|]); (split; [exact G1| exact G2]).
Qed.

Lemma decide_ext m v w t bans :
  (forall j, In j (tree_leaf_ids t) -> v j = w j) -> decide m v t bans = decide m w t bans.
Proof. intros H. unfold decide. rewrite (first_from_ext v w _ _ _ H). reflexivity. Qed.

Lemma lval_all_real rt tr : forall atts, forallb is_real atts = true -> lval_k true rt tr 0 atts = tr.
Proof.
  induction atts as [|a atts IH]; intros H; [reflexivity|]. cbn [forallb] in H. apply andb_prop in H.
  destruct H as (H1 & H2). destruct a; [|discriminate]. cbn. apply IH, H2.
Qed.

(* every lookup really goes asynchronous (any number of times): the leaves are worth their truth values *)
Theorem nonblocking_async_invisible t bans tbl :
  tree_ok t = true -> forallb wf_node (rules t) = true -> explicit_actions t = true ->
  shared_leaves_sync t tbl ->
  (forall i, In i (tree_leaf_ids t) -> forallb is_real (attempts (lookup_script tbl i)) = true) ->
  exists c a, run_check MNonBlocking t bans tbl = Some c /\ err c = false /\ cbk c = Some a /\
    result a = decide MNonBlocking (fun i => truth (lookup_script tbl i)) t bans.
Proof.
  intros TK WF EX ND AR.
  destruct (nonblocking_first_match t bans tbl TK WF EX ND) as (c & a & R1 & R2 & R3 & R4).
  exists c, a. split; [exact R1|]. split; [exact R2|]. split; [exact R3|]. rewrite R4.
  apply decide_ext. intros j Hj. apply lval_all_real, AR, Hj.
Qed.

(* the decision does not depend on how often (or whether) the leaves go asynchronous *)
Theorem schedule_independent t bans tbl tbl' :
  tree_ok t = true -> forallb wf_node (rules t) = true -> explicit_actions t = true ->
  shared_leaves_sync t tbl -> shared_leaves_sync t tbl' ->
  (forall i, In i (tree_leaf_ids t) ->
     truth (lookup_script tbl i) = truth (lookup_script tbl' i) /\
     forallb is_real (attempts (lookup_script tbl i)) = true /\
     forallb is_real (attempts (lookup_script tbl' i)) = true) ->
  exists c a c' a', run_check MNonBlocking t bans tbl = Some c /\ cbk c = Some a /\
    run_check MNonBlocking t bans tbl' = Some c' /\ cbk c' = Some a' /\ result a = result a'.
Proof.
  intros TK WF EX ND ND' H.
  destruct (nonblocking_async_invisible t bans tbl TK WF EX ND) as (c & a & R1 & _ & R3 & R4).
  { intros i Hi. apply (H i Hi). }
  destruct (nonblocking_async_invisible t bans tbl' TK WF EX ND') as (c' & a' & R1' & _ & R3' & R4').
  { intros i Hi. apply (H i Hi). }
  exists c, a, c', a'. repeat (split; [assumption|]). rewrite R4, R4'.
  apply decide_ext. intros j Hj. apply (H j Hj).
Qed.

(* with synchronous leaves the fast checks decide like the non-blocking check *)
Theorem fast_sync_truth m t bans tbl :
  m <> MNonBlocking ->
  tree_ok t = true -> forallb wf_node (rules t) = true -> explicit_actions t = true ->
  shared_leaves_sync t tbl ->
  (forall i, In i (tree_leaf_ids t) -> attempts (lookup_script tbl i) = []) ->
  exists c, run_check m t bans tbl = Some c /\ err c = false /\
    result (ans c) = decide m (fun i => truth (lookup_script tbl i)) t bans.
Proof.
  intros NM TK WF EX ND SY.
  destruct (fast_first_match m t bans tbl NM TK WF EX ND) as (c & R1 & R2 & R3).
  exists c. split; [exact R1|]. split; [exact R2|]. rewrite R3.
  apply decide_ext. intros j Hj. unfold leaf_value. rewrite (SY j Hj). reflexivity.
Qed.

Theorem decide_is_first_match m v t bans :
  match first_from v (rule_banned t bans) 0 (rules t) with
  | Some q =>
      (exists x, nthN q (rules t) = Some x /\ rule_banned t bans q = false /\ eval v x = true) /\
      (forall p y, p < q -> nthN p (rules t) = Some y -> rule_banned t bans p = true \/ eval v y = false) /\
      decide m v t bans = match actions t with
                          | [] => (Allowed, 0, false)
                          | _ => (acode (nth_action t q), akind (nth_action t q), false)
                          end
  | None =>
      (forall p y, nthN p (rules t) = Some y -> rule_banned t bans p = true \/ eval v y = false) /\
      decide m v t bans = match m with
                          | MFastList => (Denied, 0, false)
                          | _ => (opposite (acode (last (actions t) (action Dunno 0))), 0, true)
                          end
  end.
Proof.
  unfold decide. pose proof (first_from_spec v (rule_banned t bans) (rules t) 0) as S.
  destruct (first_from v (rule_banned t bans) 0 (rules t)) as [q|].
  - destruct S as (p & x & -> & Hn & Hb & He & Hl). cbn [N.add] in *.
    split; [exists x; auto|]. split; [exact Hl| reflexivity].
  - split; [exact S| reflexivity].
Qed.

Theorem empty_list_is_dunno i bans tbl :
  exists c a, run_check MNonBlocking (mkTree i [] []) bans tbl = Some c /\ err c = false /\ cbk c = Some a /\
    result a = (Dunno, 0, true).
Proof.
  destruct (nonblocking_first_match (mkTree i [] []) bans tbl eq_refl eq_refl eq_refl (NoDup_shared_leaves_sync (mkTree i [] []) tbl (NoDup_nil N)))
    as (c & a & H1 & H2 & H3 & H4).
  exists c, a. auto.
Qed.

Lemma shared_leaves_check t tbl : shared_leaves_sync_b t tbl = true -> shared_leaves_sync t tbl.
Proof.
  unfold shared_leaves_sync_b, shared_leaves_sync. intros H l1 l2 j E H1 H2.
  rewrite forallb_forall in H.
  assert (IN : In j (tree_leaf_ids t)) by (rewrite E; apply in_or_app; left; exact H1).
  specialize (H j IN). apply orb_prop in H. destruct H as [H|H].
  - exfalso. apply Nat.leb_le in H. rewrite E, count_occ_app in H.
    apply (count_occ_In N.eq_dec) in H1. apply (count_occ_In N.eq_dec) in H2. lia.
  - destruct (attempts (lookup_script tbl j)); [reflexivity| discriminate].
Qed.
