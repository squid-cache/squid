(* Properties_C03.v — C03: no request smuggling: forwarded messages match strict client framing.
   Statements, closed by `exact` or by the few lines that assemble them; proofs live in SmugglingProofs.v.  Model: SmugglingModel.v
     process_one cf buf   one turn of ConnStateData::parseRequests on inBuf = buf: request parser (C21/C22 model),
                          HttpHeader::parse (C25/C26 models), checkEntityFraming, the body-length decision of
                          clientProcessRequest, the chunked decoder (C24 model), the upstream framing fields of http.cc
     run_stream cf s      the whole connection: the events EForward start f | EPartial | EReject | EReset | EClose
     cf                   relaxed_header_parser, request_header_max_size, body pipe capacity
   Vocabulary (SmugglingProofs.v):
     line_ok l            a head line as a strict RFC 9112 reader sees it: not empty, no LF inside, not starting with CR
     enc_lines ls         the lines, each followed by CRLF;  crlf = CR LF
     fwd_ok f             at most one Content-Length value goes upstream, and none together with Transfer-Encoding
     fits b               the buffer is no longer than an SBuf can be (2^32 - 1)
   The strict reader is given by the SHAPE of what it accepts:  line1 CRLF *( line CRLF ) CRLF body tail  with the body
   either `n` octets or the RFC 9112 7.1 chunked-body grammar (ChunkedProofs.encode / message_ok, property C24). *)
Require Import SquidV.Bytes SquidV.TokModel SquidV.Incremental SquidV.ReqparseModel SquidV.ReqparseProofs.
Require SquidV.ClenModel SquidV.HdrparseModel SquidV.ChunkedModel SquidV.ChunkedProofs.
Require Import SquidV.SmugglingModel SquidV.SmugglingProofs.
Require Import SquidV.gen.Smuggling_gen.
Local Open Scope N_scope.

(* --- boundaries: the head.  For EVERY buffer that starts with a line-structured head (any bytes may follow), in both
       parser modes and for every header size limit: if Squid's request parser accepts the buffer as an HTTP/1.x
       message, the bytes it leaves for body and next message are exactly those after the head's empty line --- *)
Theorem C03_head_extent_agrees : forall relaxed limit line1 ls x f rest,
  line_ok line1 -> Forall line_ok ls -> nolf line1 ->
  fits (line1 ++ crlf ++ enc_lines ls ++ crlf ++ x) ->
  parse_whole relaxed limit (line1 ++ crlf ++ enc_lines ls ++ crlf ++ x) = Done f rest ->
  f_major f = 1 ->
  rest = x.
Proof. intros relaxed limit line1 ls x f rest Hl Hls _. now apply head_extent. Qed.
Print Assumptions C03_head_extent_agrees.

(* the field block ends where headersEnd says, for every line-structured block *)
Theorem C03_field_block_ends_at_empty_line : forall ls rest, Forall line_ok ls -> exists fold,
  headers_end (enc_lines ls ++ crlf ++ rest) = (lenN (enc_lines ls ++ crlf), fold).
Proof. exact headers_end_of_lines. Qed.
Print Assumptions C03_field_block_ends_at_empty_line.

(* --- boundaries: the whole message (PARTIAL).  If Squid forwards a message from a buffer whose front the strict reader
       delimits as head ++ body_enc, leaving tail, and Squid's framing DECISION is the strict reader's (not chunked and
       the length Squid uses = |body_enc|; or chunked and body_enc is a chunked-body of the RFC grammar), then Squid's
       message ends where the strict one ends (the next message is parsed from exactly `tail`), the head/total extents
       are the strict ones and the body handed upstream is the strict body.
       Missing for the full statement: (1) that the decision agrees on every strictly valid field block is not
       composed here through the field splitter (component facts: C25 block_fields_is_reference, C26
       strict_iff / relaxed_nolist_iff, and C03_parsed_header_single_content_length below); (2) the chunked case is
       shown for a chunked message that ENDS the buffer (tail = []): C24's exactness theorem bounds what the decoder
       leaves only from one side when more bytes follow in the same buffer; (3) the stream-level statement follows from
       this one and C03_extents_chain by induction over the messages, not spelled out. --- *)
Theorem C03_message_extent_agrees_partial : forall cf line1 ls body_enc tail f persist rest,
  line_ok line1 -> Forall line_ok ls ->
  fits (line1 ++ crlf ++ enc_lines ls ++ crlf ++ body_enc ++ tail) ->
  process_one cf (line1 ++ crlf ++ enc_lines ls ++ crlf ++ body_enc ++ tail) = MForward f persist rest ->
  fw_major f = 1 ->
  (fw_chunked f = false /\ lenN body_enc = Z.to_N (fw_clen f)) \/
  (fw_chunked f = true /\ tail = [] /\
   exists m, ChunkedProofs.message_ok m /\ body_enc = ChunkedProofs.encode m /\ lenN (ChunkedProofs.body m) <= c_cap cf) ->
  rest = tail /\
  fw_head f = lenN (line1 ++ crlf ++ enc_lines ls ++ crlf) /\
  fw_used f = lenN (line1 ++ crlf ++ enc_lines ls ++ crlf ++ body_enc) /\
  (fw_chunked f = false -> fw_body f = body_enc) /\
  (fw_chunked f = true -> forall m, ChunkedProofs.message_ok m -> body_enc = ChunkedProofs.encode m ->
                          lenN (ChunkedProofs.body m) <= c_cap cf -> fw_body f = ChunkedProofs.body m).
Proof. exact message_extent. Qed.
Print Assumptions C03_message_extent_agrees_partial.

(* --- boundaries: the stream (PARTIAL).  For EVERY stream that the strict reader delimits into the messages ms (each a
       line-structured head and the octets of its body) followed by arbitrary bytes, every configuration and every
       offset: if Squid's framing decision for each message it forwards is the strict one (agree: HTTP/1.x, body of a
       declared length, that length), then the i-th forwarded message starts where the strict reader's i-th message
       starts, has its length and carries its body (aligned) — no byte of one client message is forwarded as part of
       another.  Partial as C03_message_extent_agrees_partial is: the decision agreement is a hypothesis, chunked
       messages are not covered at stream level. --- *)
Theorem C03_squid_boundaries_agree_partial : forall ms cf tail,
  Forall smsg_ok ms -> fits (stream_of ms ++ tail) ->
  agree ms (run_stream cf (stream_of ms ++ tail)) ->
  aligned 0 ms (run_stream cf (stream_of ms ++ tail)).
Proof. intros ms cf tail. apply stream_aligned. Qed.
Print Assumptions C03_squid_boundaries_agree_partial.

(* a chunked-body of the grammar that is all the buffer holds is decoded to its body with nothing left (from C24) *)
Theorem C03_chunked_body_decoded_exactly : forall relaxed cap m,
  ChunkedProofs.message_ok m -> lenN (ChunkedProofs.body m) <= cap ->
  exists st, ChunkedModel.parse relaxed cap ChunkedModel.init_state (ChunkedProofs.encode m) =
             ChunkedModel.PRet true st [] (ChunkedProofs.body m).
Proof. exact chunked_whole. Qed.
Print Assumptions C03_chunked_body_decoded_exactly.

(* events carry consecutive extents: every event starts where the previous forwarded message ended *)
Theorem C03_extents_chain : forall cf s, chained 0 (run_stream cf s).
Proof. intros cf s. apply run_conn_chained. Qed.
Print Assumptions C03_extents_chain.

(* --- one framing upstream: for ALL streams and configurations, every request that goes upstream (completely or with
       an unfinished body) carries at most one Content-Length value and never Content-Length together with
       Transfer-Encoding; a completely forwarded request never carries Transfer-Encoding --- *)
Theorem C03_forwarded_framing_single : forall cf s e, In e (run_stream cf s) ->
  match e with
  | EForward _ f => fwd_ok f /\ fw_te f = false
  | EPartial _ f => fwd_ok f
  | _ => True
  end.
Proof. intros cf s e. apply run_conn_fwd_ok. Qed.
Print Assumptions C03_forwarded_framing_single.

(* the reason, for ALL header blocks: HttpHeader::parse leaves at most one Content-Length entry and none next to a
   Transfer-Encoding entry *)
Theorem C03_parsed_header_single_content_length : forall relaxed req proh block hr,
  HdrparseModel.h_parse relaxed req proh block = Some hr ->
  (n_cl (HdrparseModel.hr_entries hr) <= 1)%nat /\
  (HdrparseModel.h_has_id HdrparseModel.ID_TE (HdrparseModel.hr_entries hr) = true -> n_cl (HdrparseModel.hr_entries hr) = 0%nat).
Proof. exact parsed_header_one_cl. Qed.
Print Assumptions C03_parsed_header_single_content_length.

(* --- a rejection ends the connection: for ALL streams, whatever is not a completely forwarded message (an error
       answer 400/411/417/501/505..., a reset, a close, an unfinished body) is the LAST event: no byte after it is
       interpreted --- *)
Theorem C03_reject_stops_reading : forall cf s pre e post,
  run_stream cf s = pre ++ e :: post -> is_forward e = false -> post = [].
Proof. intros cf s. apply run_conn_terminal_last. Qed.
Print Assumptions C03_reject_stops_reading.

(* --- the former finding C03-vt-ff-as-ows is REPAIRED in /repo (cc868a1: only SP / HTAB are trimmed around
       Content-Length and Transfer-Encoding values, the Content-Length interpreter accepts only SP / HTAB around the
       digits in every mode).  Its witnesses, as theorems about the model of /repo HEAD and as regression scenarios
       replayed against the running proxy (corpus/C03/regress.jsonl): `Transfer-Encoding: chunked<VT>` with a
       Content-Length covering an embedded request is answered 501 in both parser modes and nothing after it is read;
       `Content-Length: <VT>5` and `Content-Length: 5<FF>` are answered 400 --- *)
Theorem C03_vt_after_chunked_rejected : forall relaxed,
  run_stream (sm_default_cfg relaxed) w_stream = [EReject 0 sm_sc_not_implemented] /\
  Forall line_ok [w_l1; w_host; w_te_line; w_cl_line] /\
  w_te_line = ClenModel.name_transfer_encoding ++ [58; 32] ++ ClenModel.word_chunked ++ [11].
Proof. exact vt_after_chunked_rejected. Qed.
Print Assumptions C03_vt_after_chunked_rejected.

Theorem C03_vt_content_length_rejected : forall relaxed,
  run_stream (sm_default_cfg relaxed) w_cl_vt_stream = [EReject 0 sm_sc_bad_request] /\
  run_stream (sm_default_cfg relaxed) w_cl_ff_stream = [EReject 0 sm_sc_bad_request].
Proof. exact vt_content_length_rejected. Qed.
Print Assumptions C03_vt_content_length_rejected.

(* --- what the faithful model of /repo HEAD still REFUTES of "forwarded messages are messages a strict reader delimits"
       (known findings, confirmed on the running proxy by corpus/C03/known.jsonl): with relaxed_header_parser on, VT is
       read as bad white space inside a chunk extension (C03-chunk-line-bws) and next to an element of a Content-Length
       list (C03-cl-list-vt-ff); with it off both streams are refused.  In both cases the message still ends where its
       CRLF-delimited lines / its declared length say: no byte crosses a message boundary --- *)
Theorem C03_vt_in_chunk_ext_refuted : exists f,
  run_stream (sm_default_cfg true) w_chunk_vt_stream = [EForward 0 f] /\ fw_chunked f = true /\ fw_body f = w_hello /\
  run_stream (sm_default_cfg false) w_chunk_vt_stream = [EReset 0].
Proof. exact vt_in_chunk_ext_refuted. Qed.
Print Assumptions C03_vt_in_chunk_ext_refuted.

Theorem C03_vt_in_content_length_list_refuted : exists f,
  run_stream (sm_default_cfg true) w_cl_list_vt_stream = [EForward 0 f] /\ fw_body f = w_hello /\ fw_cl f = [[53]] /\
  run_stream (sm_default_cfg false) w_cl_list_vt_stream = [EReject 0 sm_sc_bad_request].
Proof. exact vt_in_content_length_list_refuted. Qed.
Print Assumptions C03_vt_in_content_length_list_refuted.

(* --- non-vacuity --- *)
(* "Host: h" is a head line; a line starting with CR or containing LF is not *)
Example C03_ex_line_ok : line_ok [72;111;115;116;58;32;104] /\ ~ line_ok [13;88] /\ ~ line_ok [88;10;89].
Proof.
  split; [split; [reflexivity|discriminate]|]. split; intros [H1 H2]; [apply H2; reflexivity|discriminate H1].
Qed.
(* the hypotheses of C03_message_extent_agrees_partial hold for POST http://o/m0 HTTP/1.1 / Host: h / Content-Length: 5 /
   hello followed by the bytes "GET": Squid forwards with the 5-byte body, not chunked, HTTP/1.x *)
Example C03_ex_message : exists f,
  process_one (sm_default_cfg true)
    (w_l1 ++ crlf ++ enc_lines [w_host; [67;111;110;116;101;110;116;45;76;101;110;103;116;104;58;32;53]] ++ crlf ++
     [104;101;108;108;111] ++ [71;69;84]) = MForward f true [71;69;84] /\
  fw_major f = 1 /\ fw_chunked f = false /\ Z.to_N (fw_clen f) = 5 /\ fw_body f = [104;101;108;108;111].
Proof. eexists. vm_compute. repeat split; reflexivity. Qed.
(* a rejection event exists: two different Content-Length values *)
Example C03_ex_reject : exists c,
  run_stream (sm_default_cfg true)
    (w_l1 ++ crlf ++ enc_lines [[67;111;110;116;101;110;116;45;76;101;110;103;116;104;58;32;53];
                               [67;111;110;116;101;110;116;45;76;101;110;103;116;104;58;32;54]] ++ crlf ++ [104]) = [EReject 0 c] /\
  c = sm_sc_bad_request.
Proof. eexists. vm_compute. split; reflexivity. Qed.
(* the hypotheses of C03_squid_boundaries_agree_partial hold for a pipeline of two messages (POST with 5 octets, then the
   same again) followed by "GET" *)
Definition ex_msg : smsg :=
  {| sm_line1 := w_l1; sm_lines := [w_host; [67;111;110;116;101;110;116;45;76;101;110;103;116;104;58;32;53]];
     sm_body_enc := [104;101;108;108;111] |}.
Example C03_ex_stream : Forall smsg_ok [ex_msg; ex_msg] /\
  agree [ex_msg; ex_msg] (run_stream (sm_default_cfg true) (stream_of [ex_msg; ex_msg] ++ [71;69;84])) /\
  length (filter is_forward (run_stream (sm_default_cfg true) (stream_of [ex_msg; ex_msg] ++ [71;69;84]))) = 2%nat.
Proof.
  split; [repeat constructor; try discriminate|]. split; [vm_compute; repeat split; reflexivity|vm_compute; reflexivity].
Qed.
