(* PagestackProofs.v — proofs about PagestackModel.v (C53).

   Method. Every node p of the tree other than the root, whose parent is "live" (covers at least one
   page index below the capacity), satisfies the counting equation
       counter of p in its parent + pops on their way to p + pushes that updated p but not yet its parent
         = what p itself offers (popcount of a live leaf / left+right of a live inner node / 0 for a dead node),
   where the two middle terms are sums of 0/1 weights of the program counters of all processes. Every page
   index x of a live leaf satisfies   bit x of its leaf + number of processes that have x in their hands
   = [x belongs to the pool], and size_ satisfies two linear equations. One step of one process replaces one
   thread and at most one word, so the sums over the other processes cancel (inv_replace); what is left for
   each program counter is to compare the weights of the acting process and the changed word before and
   after, by the position of the changed word relative to p (same node / child / unrelated), with linear
   arithmetic. The bit-level facts needed (x & (x-1) clears exactly the lowest set bit, trailingZeros finds
   it, fetch_or sets one bit) are proved from N.testbit. *)
Require Import SquidV.Bytes SquidV.PagestackModel.
Require Import ZifyBool ZifyN ZifyNat.
Local Open Scope N_scope.
Ltac Zify.zify_post_hook ::= Z.div_mod_to_equations.
Set Default Proof Using "All".

Definition b2n (b : bool) : N := if b then 1 else 0.
Lemma b2n_le1 : forall b, b2n b <= 1.
Proof. destruct b; cbn [b2n]; lia. Qed.

Lemma neqb : forall a b, a <> b -> (a =? b) = false.
Proof. intros. destruct (N.eqb_spec a b); [contradiction | reflexivity]. Qed.

Fixpoint sumN (n : nat) (f : N -> N) : N :=
  match n with O => 0 | S k => sumN k f + f (N.of_nat k) end.

Lemma sumN_ext : forall n f g, (forall k, k < N.of_nat n -> f k = g k) -> sumN n f = sumN n g.
Proof.
  induction n as [|n IH]; intros f g H; simpl; [reflexivity|].
  rewrite (IH f g) by (intros; apply H; lia). rewrite H by lia. reflexivity.
Qed.

Lemma sumN_upd_one : forall n f g i, i < N.of_nat n -> (forall k, k < N.of_nat n -> k <> i -> f k = g k) ->
  sumN n g + f i = sumN n f + g i.
Proof.
  induction n as [|n IH]; intros f g i Hi H; [lia|]. cbn [sumN].
  destruct (N.eq_dec i (N.of_nat n)) as [E|E].
  - subst i. rewrite (sumN_ext n f g) by (intros; apply H; lia). lia.
  - pose proof (IH f g i ltac:(lia) ltac:(intros; apply H; lia)). rewrite (H (N.of_nat n)) by lia. lia.
Qed.

Lemma sumN_zero : forall n f, (forall k, k < N.of_nat n -> f k = 0) -> sumN n f = 0.
Proof. induction n as [|n IH]; intros f H; simpl; [reflexivity|]. rewrite IH by (intros; apply H; lia). rewrite H by lia. reflexivity. Qed.

Lemma sumN_le : forall n f b, (forall k, k < N.of_nat n -> f k <= b) -> sumN n f <= N.of_nat n * b.
Proof. induction n as [|n IH]; intros f b H; simpl sumN; [lia|]. pose proof (IH f b ltac:(intros; apply H; lia)). pose proof (H (N.of_nat n) ltac:(lia)). lia. Qed.

Lemma sumN_add : forall n f g, sumN n (fun k => f k + g k) = sumN n f + sumN n g.
Proof. induction n as [|n IH]; intros; simpl; [reflexivity|]. rewrite IH. lia. Qed.

Lemma sumN_pos : forall n f i, i < N.of_nat n -> f i <= sumN n f.
Proof.
  induction n as [|n IH]; intros f i Hi; [lia|]. cbn [sumN].
  destruct (N.eq_dec i (N.of_nat n)) as [E|E]; [subst; lia|]. pose proof (IH f i ltac:(lia)). lia.
Qed.

Lemma sumN_pairs : forall n f, sumN (2 * n) f = sumN n (fun j => f (2 * j) + f (2 * j + 1)).
Proof.
  induction n as [|n IH]; intro f; [reflexivity|].
  replace (2 * S n)%nat with (S (S (2 * n))) by lia. cbn [sumN]. rewrite IH.
  replace (N.of_nat (2 * n)) with (2 * N.of_nat n) by lia.
  replace (N.of_nat (S (2 * n))) with (2 * N.of_nat n + 1) by lia. lia.
Qed.

Lemma of_nat_64 : N.of_nat 64 = 64.
Proof. reflexivity. Qed.

Definition popcount64 (w : N) : N := sumN 64 (fun k => b2n (N.testbit w k)).

Definition lowbit (w b : N) : Prop := N.testbit w b = true /\ forall k, k < b -> N.testbit w k = false.

Lemma lowbit_unique : forall w a b, lowbit w a -> lowbit w b -> a = b.
Proof.
  intros w a b [Ha La] [Hb Lb]. destruct (N.lt_trichotomy a b) as [L|[E|L]]; [|assumption|].
  - rewrite (Lb a L) in Ha. discriminate.
  - rewrite (La b L) in Hb. discriminate.
Qed.

Lemma tz_loop_spec : forall fuel w c b, N.testbit w b = true -> (forall k, k < c -> N.testbit w k = false) ->
  b < c + N.of_nat fuel -> lowbit w (tz_loop fuel w c) /\ tz_loop fuel w c <= b.
Proof.
  induction fuel as [|f IH]; intros w c b Hb Lc Hf; cbn [tz_loop].
  - rewrite Lc in Hb by lia. discriminate.
  - destruct (N.testbit w c) eqn:T.
    + split; [split; assumption|]. destruct (N.le_gt_cases c b) as [L|L]; [exact L|]. rewrite (Lc b L) in Hb. discriminate.
    + apply IH; [exact Hb | | lia]. intros k Hk. destruct (N.eq_dec k c); [subst; exact T | apply Lc; lia].
Qed.

Lemma trailing_zeros_spec : forall w, w <> 0 -> w < two64 -> lowbit w (trailing_zeros w) /\ trailing_zeros w < 64.
Proof.
  intros w Hw Hlt. assert (N.log2 w < 64) by (apply N.log2_lt_pow2; [lia | exact Hlt]).
  unfold trailing_zeros. rewrite (neqb w 0 Hw).
  destruct (tz_loop_spec 64 w 0 (N.log2 w) (N.bit_log2 w Hw)) as [L B]; [intros; lia | lia |]. split; [exact L | lia].
Qed.

Lemma pred_bits : forall w b, lowbit w b -> forall k,
  N.testbit (w - 1) k = if k <? b then true else if k =? b then false else N.testbit w k.
Proof.
  intro w. induction w as [| a IH | a IH] using N.binary_ind; intros b [Hb Lb] k.
  - rewrite N.bits_0 in Hb. discriminate.
  - (* w = 2a *)
    rewrite N.double_spec in *.
    destruct (N.eq_dec b 0) as [E|E]; [subst b; rewrite N.testbit_even_0 in Hb; discriminate|].
    assert (A : a <> 0) by (intro; subst; rewrite N.bits_0 in Hb; discriminate).
    assert (LB : lowbit a (b - 1)).
    { split.
      - replace b with (N.succ (b - 1)) in Hb by lia. rewrite N.testbit_even_succ in Hb by lia. assumption.
      - intros j Hj. specialize (Lb (N.succ j) ltac:(lia)). rewrite N.testbit_even_succ in Lb by lia. assumption. }
    replace (2 * a - 1) with (2 * (a - 1) + 1) by lia.
    destruct (N.eq_dec k 0) as [K|K].
    + subst k. rewrite N.testbit_odd_0. destruct (N.ltb_spec 0 b); [reflexivity | lia].
    + assert (EK : exists k', k = N.succ k') by (exists (k - 1); lia). destruct EK as [k' ->].
      rewrite N.testbit_odd_succ by lia. rewrite (IH (b - 1) LB k'). rewrite N.testbit_even_succ by lia.
      destruct (N.ltb_spec k' (b - 1)); destruct (N.ltb_spec (N.succ k') b); try lia; try reflexivity.
      destruct (N.eqb_spec k' (b - 1)); destruct (N.eqb_spec (N.succ k') b); try lia; reflexivity.
  - (* w = 2a+1 *)
    rewrite N.succ_double_spec in *.
    assert (b = 0).
    { destruct (N.eq_dec b 0); [assumption|]. specialize (Lb 0 ltac:(lia)). rewrite N.testbit_odd_0 in Lb. discriminate. }
    subst b. replace (2 * a + 1 - 1) with (2 * a) by lia.
    destruct (N.ltb_spec k 0); [lia|].
    destruct (N.eqb_spec k 0) as [K|K].
    + subst k. apply N.testbit_even_0.
    + assert (EK : exists k', k = N.succ k') by (exists (k - 1); lia). destruct EK as [k' ->].
      rewrite N.testbit_even_succ, N.testbit_odd_succ by lia. reflexivity.
Qed.

Lemma clear_low_bits : forall w b, lowbit w b -> forall k,
  N.testbit (N.land w (w - 1)) k = N.testbit w k && negb (k =? b).
Proof.
  intros w b L k. rewrite N.land_spec, (pred_bits w b L k). destruct L as [Hb Lb].
  destruct (N.ltb_spec k b) as [H|H].
  - rewrite (Lb k H). reflexivity.
  - destruct (N.eqb_spec k b); [subst; rewrite Hb; reflexivity|]. destruct (N.testbit w k); reflexivity.
Qed.

Lemma set_bit_bits : forall w b k, N.testbit (N.lor w (2 ^ b)) k = N.testbit w k || (k =? b).
Proof.
  intros. rewrite N.lor_spec. f_equal. destruct (N.eqb_spec k b).
  - subst. apply N.pow2_bits_true.
  - apply N.pow2_bits_false. congruence.
Qed.

Lemma land_mask_zero : forall w b, (N.land w (2 ^ b) =? 0) = negb (N.testbit w b).
Proof.
  intros. destruct (N.testbit w b) eqn:T; simpl.
  - destruct (N.eqb_spec (N.land w (2 ^ b)) 0) as [E|E]; [|reflexivity].
    exfalso. assert (N.testbit (N.land w (2 ^ b)) b = true) by (rewrite N.land_spec, T, N.pow2_bits_true; reflexivity).
    rewrite E, N.bits_0 in H. discriminate.
  - destruct (N.eqb_spec (N.land w (2 ^ b)) 0) as [E|E]; [reflexivity|]. exfalso. apply E.
    apply N.bits_inj. intro k. rewrite N.land_spec, N.bits_0. destruct (N.eq_dec k b).
    + subst. rewrite T. reflexivity.
    + rewrite N.pow2_bits_false by congruence. apply andb_false_r.
Qed.

Lemma lt64_bits : forall w, w < two64 <-> (forall k, 64 <= k -> N.testbit w k = false).
Proof.
  intro w. split.
  - intros H k Hk. destruct (N.eq_dec w 0); [subst; apply N.bits_0|].
    apply N.bits_above_log2. assert (N.log2 w < 64) by (apply N.log2_lt_pow2; [lia | exact H]). lia.
  - intro H. destruct (N.eq_dec w 0); [subst; reflexivity|].
    destruct (N.lt_ge_cases w two64); [assumption|]. exfalso.
    assert (64 <= N.log2 w) by (apply N.log2_le_pow2; [lia | exact H0]).
    pose proof (N.bit_log2 w n). rewrite H in H2 by assumption. discriminate.
Qed.

Lemma land_lt64 : forall w v, w < two64 -> N.land w v < two64.
Proof. intros w v H. apply lt64_bits. intros k Hk. rewrite N.land_spec. rewrite (proj1 (lt64_bits w) H k Hk). reflexivity. Qed.

Lemma lor_lt64 : forall w b, w < two64 -> b < 64 -> N.lor w (2 ^ b) < two64.
Proof.
  intros w b H Hb. apply lt64_bits. intros k Hk. rewrite set_bit_bits, (proj1 (lt64_bits w) H k Hk).
  destruct (N.eqb_spec k b); [lia | reflexivity].
Qed.

Lemma popcount_zero : popcount64 0 = 0.
Proof. unfold popcount64. apply sumN_zero. intros. rewrite N.bits_0. reflexivity. Qed.

Lemma popcount_le : forall w, popcount64 w <= 64.
Proof.
  intro w. unfold popcount64. pose proof (sumN_le 64 (fun k => b2n (N.testbit w k)) 1) as S.
  rewrite of_nat_64, N.mul_1_r in S. apply S. intros. apply b2n_le1.
Qed.

Lemma popcount_bit : forall w b, b < 64 -> b2n (N.testbit w b) <= popcount64 w.
Proof. intros. unfold popcount64. apply (sumN_pos 64 (fun k => b2n (N.testbit w k)) b). rewrite of_nat_64. assumption. Qed.

Lemma popcount_change_bit : forall w v b, b < 64 -> (forall k, k <> b -> N.testbit v k = N.testbit w k) ->
  popcount64 v + b2n (N.testbit w b) = popcount64 w + b2n (N.testbit v b).
Proof.
  intros w v b Hb H. unfold popcount64.
  apply (sumN_upd_one 64 (fun k => b2n (N.testbit w k)) (fun k => b2n (N.testbit v k)) b); [rewrite of_nat_64; exact Hb|].
  intros k _ Hk. rewrite (H k Hk). reflexivity.
Qed.

Lemma pow2_pos : forall n, 1 <= 2 ^ n.
Proof. intro n. pose proof (N.pow_nonzero 2 n ltac:(lia)). lia. Qed.
Lemma pow2_succ : forall n, 2 ^ (n + 1) = 2 * 2 ^ n.
Proof. intro n. rewrite N.add_1_r, N.pow_succ_r'. reflexivity. Qed.
Lemma pow2_le : forall a b, a <= b -> 2 ^ a <= 2 ^ b.
Proof. intros. apply N.pow_le_mono_r; lia. Qed.
Lemma pow2_lt : forall a b, a < b -> 2 * 2 ^ a <= 2 ^ b.
Proof. intros a b H. rewrite <- pow2_succ. apply pow2_le. lia. Qed.

Lemma getw_setw_same : forall m j v, j < lenN m -> getw (setw m j v) j = v.
Proof.
  unfold getw. induction m as [|y m IH]; intros j v H; simpl in H; [lia|]. simpl.
  destruct (N.eqb_spec j 0) as [E|E]; simpl.
  - rewrite E. reflexivity.
  - destruct (N.eqb_spec j 0); [contradiction|]. apply IH. lia.
Qed.
Lemma getw_setw_other : forall m j k v, j <> k -> getw (setw m j v) k = getw m k.
Proof.
  unfold getw. induction m as [|y m IH]; intros j k v H; simpl; [reflexivity|].
  destruct (N.eqb_spec j 0) as [E|E]; simpl.
  - destruct (N.eqb_spec k 0); [lia | reflexivity].
  - destruct (N.eqb_spec k 0); [reflexivity|]. apply IH. lia.
Qed.
Lemma lenN_setw : forall m j v, lenN (setw m j v) = lenN m.
Proof. induction m as [|y m IH]; intros; simpl; [reflexivity|]. destruct (j =? 0); simpl; [reflexivity | rewrite IH; reflexivity]. Qed.
Lemma getw_setw_cases : forall m k v j, getw (setw m k v) j = v \/ getw (setw m k v) j = getw m j.
Proof.
  unfold getw. induction m as [|y m IH]; intros k v j; simpl; [right; reflexivity|].
  destruct (N.eqb_spec k 0); simpl.
  - destruct (N.eqb_spec j 0); [left | right]; reflexivity.
  - destruct (N.eqb_spec j 0); [right; reflexivity | apply IH].
Qed.
Lemma getw_setw_bound : forall m k v B, (forall j, getw m j < B) -> v < B -> forall j, getw (setw m k v) j < B.
Proof. intros m k v B H Hv j. destruct (getw_setw_cases m k v j) as [E|E]; rewrite E; [assumption | apply H]. Qed.

Lemma updN_split : forall (A : Type) (l : list A) (n : N) (x : A),
  nthN n l = Some x ->
  exists l1 l2, l = l1 ++ x :: l2 /\ (forall y, updN n y l = l1 ++ y :: l2).
Proof.
  induction l as [|a l IH]; intros n x H; simpl in H; [discriminate|].
  destruct (N.eqb_spec n 0) as [E|E].
  - inversion H; subst. exists [], l. split; [reflexivity|]. intro y. simpl. reflexivity.
  - destruct (IH _ _ H) as (l1 & l2 & E1 & E2).
    exists (a :: l1), l2. split.
    + simpl. rewrite E1. reflexivity.
    + intro y. simpl. destruct (N.eqb_spec n 0); [contradiction|]. rewrite E2. reflexivity.
Qed.

Definition tsum (f : thread -> N) (l : list thread) : N := fold_right (fun th a => f th + a) 0 l.
Lemma tsum_cons : forall f th l, tsum f (th :: l) = f th + tsum f l.
Proof. reflexivity. Qed.
Lemma tsum_replace : forall f l1 th th' l2, tsum f (l1 ++ th' :: l2) + f th = tsum f (l1 ++ th :: l2) + f th'.
Proof. induction l1 as [|a l1 IH]; intros; cbn [app]; rewrite !tsum_cons; [|specialize (IH th th' l2)]; lia. Qed.
Lemma tsum_zero : forall f l, (forall th, In th l -> f th = 0) -> tsum f l = 0.
Proof. induction l as [|a l IH]; intro H; [reflexivity|]. rewrite tsum_cons. rewrite IH by (intros; apply H; right; assumption). rewrite H by (left; reflexivity). reflexivity. Qed.
Lemma tsum_member : forall f l th, In th l -> f th <= tsum f l.
Proof. induction l as [|a l IH]; intros th H; [contradiction|]. rewrite tsum_cons. destruct H as [->|H]; [lia|]. pose proof (IH _ H). lia. Qed.
Lemma tsum_ext : forall f g (l : list thread), (forall th, In th l -> f th = g th) -> tsum f l = tsum g l.
Proof.
  induction l as [|a l IH]; intro H; [reflexivity|]. rewrite !tsum_cons.
  rewrite H by (left; reflexivity). rewrite IH by (intros; apply H; right; assumption). reflexivity.
Qed.
Lemma tsum_add : forall f g (l : list thread), tsum (fun th => f th + g th) l = tsum f l + tsum g l.
Proof. induction l as [|a l IH]; [reflexivity|]. rewrite !tsum_cons, IH. lia. Qed.
Lemma tsum_two_members : forall f (l : list thread) i j a b,
  i <> j -> nthN i l = Some a -> nthN j l = Some b -> f a + f b <= tsum f l.
Proof.
  intros f l. induction l as [|y l IH]; intros i j a b D Ni Nj; simpl in Ni, Nj; [discriminate|].
  rewrite tsum_cons.
  destruct (N.eqb_spec i 0) as [Ei|Ei]; destruct (N.eqb_spec j 0) as [Ej|Ej].
  - subst. contradiction.
  - inversion Ni; subst. pose proof (tsum_member f l _ (nthN_in _ _ _ Nj)). lia.
  - inversion Nj; subst. pose proof (tsum_member f l _ (nthN_in _ _ _ Ni)). lia.
  - assert (N.pred i <> N.pred j) by lia. pose proof (IH _ _ _ _ H Ni Nj). lia.
Qed.

Fixpoint countN (x : N) (l : list N) : N :=
  match l with [] => 0 | y :: r => b2n (y =? x) + countN x r end.
Lemma countN_app : forall x a b, countN x (a ++ b) = countN x a + countN x b.
Proof. induction a as [|y a IH]; intros; simpl; [reflexivity | rewrite IH; lia]. Qed.
Lemma countN_in : forall x l, 1 <= countN x l -> In x l.
Proof. induction l as [|y l IH]; simpl; intro H; [lia|]. destruct (N.eqb_spec y x); [left; assumption | right; apply IH; simpl in H; lia]. Qed.
Lemma in_countN : forall x l, In x l -> 1 <= countN x l.
Proof. induction l as [|y l IH]; simpl; intro H; [contradiction|]. destruct H as [->|H]; [rewrite N.eqb_refl; cbn [b2n]; lia | pose proof (IH H); lia]. Qed.

Definition pos_eqb (p q : pos) : bool := (level p =? level q) && (offset p =? offset q).
Lemma pos_eqb_spec : forall p q, reflect (p = q) (pos_eqb p q).
Proof.
  intros [l o] [l' o']. unfold pos_eqb. simpl.
  destruct (N.eqb_spec l l'); destruct (N.eqb_spec o o'); simpl; constructor; congruence.
Qed.
Lemma pos_eqb_refl : forall p, pos_eqb p p = true.
Proof. intro p. destruct (pos_eqb_spec p p); congruence. Qed.
Lemma pos_neqb : forall p q, p <> q -> pos_eqb p q = false.
Proof. intros p q H. destruct (pos_eqb_spec p q); [contradiction | reflexivity]. Qed.
Lemma lvl_neq : forall p q, level p <> level q -> pos_eqb p q = false.
Proof. intros p q H. apply pos_neqb. intros ->. contradiction. Qed.

Lemma ascend_descend : forall q d, ascend (descend q d) = q.
Proof.
  intros [l o] d. unfold ascend, descend. cbn [level offset]. f_equal; [lia|]. destruct d; cbn [dbit]; lia.
Qed.
Lemma ascdir_descend : forall q d, ascend_direction (descend q d) = d.
Proof.
  intros [l o] d. unfold ascend_direction, descend. cbn [level offset]. destruct d; cbn [dbit].
  - destruct (N.eqb_spec ((o * 2 + 0) mod 2) 0); [reflexivity | lia].
  - destruct (N.eqb_spec ((o * 2 + 1) mod 2) 0); [lia | reflexivity].
Qed.
Lemma descend_ascend : forall p, 1 <= level p -> descend (ascend p) (ascend_direction p) = p.
Proof.
  intros [l o] H. cbn [level] in H. unfold ascend, descend, ascend_direction. cbn [level offset]. f_equal; [lia|].
  destruct (N.eqb_spec (o mod 2) 0); cbn [dbit]; lia.
Qed.
Lemma descend_inj : forall q d q' d', descend q d = descend q' d' -> q = q' /\ d = d'.
Proof.
  intros q d q' d' H. split.
  - rewrite <- (ascend_descend q d), H. apply ascend_descend.
  - rewrite <- (ascdir_descend q d), H. apply ascdir_descend.
Qed.
Lemma child_neqb : forall q d p, ascend p <> q -> pos_eqb (descend q d) p = false.
Proof. intros q d p H. apply pos_neqb. intros <-. apply H, ascend_descend. Qed.
Lemma pos_eqb_descend : forall q d e, pos_eqb (descend q d) (descend q e) = (dbit d =? dbit e).
Proof.
  intros q d e. destruct (N.eqb_spec (dbit d) (dbit e)) as [E|E].
  - replace e with d by (destruct d, e; cbn [dbit] in E; congruence). apply pos_eqb_refl.
  - apply pos_neqb. intro F. apply descend_inj in F. destruct F as [_ ->]. contradiction.
Qed.

Section Tree.
Variable c : cfg.
Notation h := (ilc c).

Record WF : Prop := mkWF { wf_h1 : 1 <= h; wf_h2 : h <= 26; wf_cap : cap c <= 64 * 2 ^ h; wf_cap32 : cap c < two32 }.
Hypothesis wf : WF.

Definition valid (p : pos) : Prop := level p <= h /\ offset p < 2 ^ level p.

Definition span (l : N) : N := 64 * 2 ^ (h - l).
Definition lo (p : pos) : N := offset p * span (level p).
Definition live (p : pos) : bool := lo p <? cap c.

Lemma span_half : forall l, l < h -> span l = 2 * span (l + 1).
Proof. intros l H. unfold span. replace (h - l) with ((h - (l + 1)) + 1) by lia. rewrite pow2_succ. lia. Qed.
Lemma span_h : span h = 64.
Proof. unfold span. rewrite N.sub_diag. reflexivity. Qed.
Lemma span_pos : forall l, 64 <= span l.
Proof. intro l. unfold span. pose proof (pow2_pos (h - l)). lia. Qed.
Lemma span_small : forall l, 1 <= l -> span l <= 2147483648.
Proof.
  intros l Hl. unfold span. pose proof wf as [_ H2 _ _]. pose proof (pow2_le (h - l) 25 ltac:(lia)) as P.
  change (2 ^ 25) with 33554432 in P. lia.
Qed.

Lemma valid_root : valid root.
Proof. split; simpl; lia. Qed.
Lemma valid_descend : forall q d, valid q -> level q < h -> valid (descend q d).
Proof. intros [l o] d [H1 H2] H3. cbn [level offset] in *. split; cbn [level offset descend]; [lia|]. rewrite pow2_succ. destruct d; cbn [dbit]; lia. Qed.
Lemma valid_ascend : forall p, valid p -> valid (ascend p).
Proof.
  intros [l o] [H1 H2]. cbn [level offset] in *. split; cbn [level offset ascend]; [lia|].
  destruct (N.eq_dec l 0) as [->|E]; [change (2 ^ (0 - 1)) with 1; change (2 ^ 0) with 1 in H2; lia|].
  replace l with ((l - 1) + 1) in H2 by lia. rewrite pow2_succ in H2. lia.
Qed.

Lemma lo_descend : forall q d, level q < h -> lo (descend q d) = lo q + dbit d * span (level q + 1).
Proof. intros [l o] d H. unfold lo. cbn [level offset descend] in *. rewrite (span_half l H). lia. Qed.
Lemma live_descend : forall q d, level q < h -> live (descend q d) = true -> live q = true.
Proof. intros q d H. unfold live. rewrite (lo_descend q d H). intro L. destruct (N.ltb_spec (lo q) (cap c)); [reflexivity|]. lia. Qed.
Lemma live_left : forall q, level q < h -> live (descend q DLeft) = live q.
Proof. intros q H. unfold live. rewrite (lo_descend q DLeft H). cbn [dbit]. rewrite N.mul_0_l, N.add_0_r. reflexivity. Qed.
Lemma live_ascend : forall p, valid p -> 1 <= level p -> live p = true -> live (ascend p) = true.
Proof.
  intros p V H L. rewrite <- (descend_ascend p H) in L. apply live_descend in L; [assumption|].
  destruct p as [l o]; destruct V; cbn [level offset ascend] in *; lia.
Qed.

Lemma node_ok_valid : forall p, valid p -> node_ok c p = true.
Proof.
  intros [l o] [H1 H2]. simpl in *. unfold node_ok, tree_height, node_count, leaf_count, nodes_before, at_root. simpl.
  pose proof (pow2_pos l) as P1. pose proof (pow2_le l h H1) as P2.
  destruct (N.eq_dec l 0) as [E|E].
  - subst l. change (2 ^ 0) with 1 in *. assert (o = 0) by lia. subst o. simpl.
    destruct (N.ltb_spec 0 (h + 1)); [|lia]. simpl. destruct (N.ltb_spec 0 (2 ^ h * 2 - 1)); [reflexivity | lia].
  - assert (2 <= 2 ^ l) by (replace l with ((l - 1) + 1) by lia; rewrite pow2_succ; pose proof (pow2_pos (l - 1)); lia).
    destruct (N.ltb_spec l (h + 1)); [|lia]. destruct (N.ltb_spec o ((2 ^ l - 1) * 2)); [|lia]. simpl.
    destruct (N.ltb_spec (2 ^ l - 1 + o) (2 ^ h * 2 - 1)); [reflexivity | lia].
Qed.

Lemma nodes_before_lt : forall p, valid p -> nodes_before p < node_count c.
Proof.
  intros [l o] [H1 H2]. simpl in *. unfold node_count, leaf_count, nodes_before. simpl.
  pose proof (pow2_pos l). pose proof (pow2_le l h H1). lia.
Qed.

Lemma nodes_before_inj : forall p q, valid p -> valid q -> nodes_before p = nodes_before q -> p = q.
Proof.
  intros [l o] [l' o'] [H1 H2] [H3 H4] E. unfold nodes_before in E. simpl in *.
  pose proof (pow2_pos l). pose proof (pow2_pos l').
  destruct (N.lt_trichotomy l l') as [L|[L|L]].
  - pose proof (pow2_lt l l' L). lia.
  - subst l'. f_equal. lia.
  - pose proof (pow2_lt l' l L). lia.
Qed.

Definition word (m : list N) (p : pos) : N := getw m (nodes_before p).

Definition lc (m : list N) (p : pos) : N := unpack_left (word m p).
Definition rc (m : list N) (p : pos) : N := unpack_right (word m p).
Definition cnt_to (m : list N) (p : pos) : N :=
  match ascend_direction p with DLeft => lc m (ascend p) | DRight => rc m (ascend p) end.
Definition avail (m : list N) (p : pos) : N :=
  if level p =? h then popcount64 (word m p) else lc m p + rc m p.
Definition gav (m : list N) (p : pos) : N := if live p then avail m p else 0.

End Tree.

Lemma choice_none : forall w, inner_pop_choice w = None <-> unpack_left w = 0 /\ unpack_right w = 0.
Proof.
  intro w. unfold inner_pop_choice.
  destruct (N.ltb_spec 0 (unpack_left w)); [split; [discriminate | lia]|].
  destruct (N.ltb_spec 0 (unpack_right w)); [split; [discriminate | lia]|]. split; [lia | reflexivity].
Qed.

Lemma choice_spec : forall old d new, inner_pop_choice old = Some (d, new) -> old < two64 ->
  new < two64 /\
  match d with
  | DLeft => 1 <= unpack_left old /\ unpack_left new + 1 = unpack_left old /\ unpack_right new = unpack_right old
  | DRight => 1 <= unpack_right old /\ unpack_left new = unpack_left old /\ unpack_right new + 1 = unpack_right old
  end.
Proof.
  intros old d new H Hlt. unfold inner_pop_choice in H.
  destruct (N.ltb_spec 0 (unpack_left old)) as [L|L].
  - inversion H; subst; clear H. unfold unpack_left, unpack_right, pack, two32, two64 in *. lia.
  - destruct (N.ltb_spec 0 (unpack_right old)) as [R|R]; [|discriminate].
    inversion H; subst; clear H. unfold unpack_left, unpack_right, pack, two32, two64 in *. lia.
Qed.

Lemma push_inc_spec : forall old d, old < two64 ->
  unpack_left old + 1 < two32 -> unpack_right old + 1 < two32 ->
  let v := (old + push_increment d) mod two64 in
  v < two64 /\ (old <=? ones64 - push_increment d) = true /\
  unpack_left v = unpack_left old + (match d with DLeft => 1 | DRight => 0 end) /\
  unpack_right v = unpack_right old + (match d with DLeft => 0 | DRight => 1 end).
Proof.
  intros old d Hlt Hl Hr. cbn zeta. unfold unpack_left, unpack_right in *.
  assert (E : old + push_increment d < two64) by (destruct d; unfold push_increment, pack, two32, two64 in *; lia).
  rewrite (N.mod_small _ _ E).
  destruct d; unfold push_increment, pack, ones64, two32, two64 in *; repeat split; lia.
Qed.

Lemma pos_eta : forall p, mkPos (level p) (offset p) = p.
Proof. destruct p; reflexivity. Qed.

Section Inv.
Variable c : cfg.
Notation h := (ilc c).
Hypothesis wf : WF c.
Definition leafpos (x : N) : pos := mkPos h (x / 64).
Definition bitfree (m : list N) (x : N) : N := b2n (N.testbit (word m (leafpos x)) (x mod 64)).

Definition wP (p : pos) (th : thread) : N :=
  match tpc th with
  | PopLoad q | PopCas q _ | LeafLoad q | LeafCas q _ => b2n (pos_eqb q p)
  | _ => 0
  end.
Definition wU (p : pos) (th : thread) : N :=
  match tpc th with
  | PushInner q d _ => b2n (pos_eqb (descend q d) p)
  | _ => 0
  end.
Definition wH (x : N) (th : thread) : N :=
  countN (x + 1) (theld th) +
  match tpc th with
  | PopSize y | PushSize y | PushLeaf y => b2n (y =? x)
  | _ => 0
  end.
Definition wHeld (th : thread) : N :=
  lenN (theld th) + match tpc th with PushSize _ => 1 | _ => 0 end.
Definition wInfl (th : thread) : N :=
  match tpc th with PopSize _ | PushLeaf _ => 1 | _ => 0 end.

Definition Fsum (m : list N) : N := sumN (N.to_nat (2 ^ h)) (fun o => gav c m (mkPos h o)).

Definition twf (th : thread) : Prop :=
  Forall (fun n => 1 <= n <= cap c) (theld th) /\
  match tpc th with
  | Ready | Done => True
  | Crashed => False
  | PopLoad q => valid c q /\ level q < h /\ live c q = true
  | PopCas q old => valid c q /\ level q < h /\ live c q = true /\ inner_pop_choice old <> None
  | LeafLoad q => valid c q /\ level q = h /\ live c q = true
  | LeafCas q old => valid c q /\ level q = h /\ live c q = true
  | PopSize x | PushSize x | PushLeaf x => x < cap c
  | PushInner q d x => valid c q /\ level q < h /\ live c (descend q d) = true
  end.

Lemma h_bounds : 2 <= 2 ^ h /\ 2 ^ h <= 67108864.
Proof.
  pose proof wf as [H1 H2 _ _]. split; [|change 67108864 with (2 ^ 26); apply pow2_le; assumption].
  replace h with ((h - 1) + 1) by lia. rewrite pow2_succ. pose proof (pow2_pos (h - 1)). lia.
Qed.

Lemma valid_leafpos : forall x, x < 64 * 2 ^ h -> valid c (leafpos x).
Proof. intros x H. split; cbn [level offset leafpos]; lia. Qed.

Lemma leafpos_live : forall x, x < cap c -> live c (leafpos x) = true.
Proof.
  intros x H. unfold live, lo, leafpos. cbn [level offset]. rewrite (span_h c wf).
  destruct (N.ltb_spec (x / 64 * 64) (cap c)); [reflexivity | lia].
Qed.

Lemma valid_level0 : forall q, valid c q -> level q = 0 -> q = root.
Proof. intros [l o] [H1 H2] H3. cbn [level offset] in *. subst l. change (2 ^ 0) with 1 in H2. unfold root. f_equal. lia. Qed.

Lemma leaf_id : forall q b, valid c q -> level q = h -> b < 64 ->
  let x := offset q * 64 + b in
  x < 64 * 2 ^ h /\ x mod two32 = x /\ leafpos x = q /\ x mod 64 = b.
Proof.
  intros [l o] b [H1 H2] H3 Hb. cbn [level offset] in *. subst l. cbn zeta.
  pose proof h_bounds as [_ HB].
  assert (o * 64 + b < 64 * 2 ^ h) by lia.
  split; [assumption|]. split; [unfold two32; lia|]. split; [|lia].
  unfold leafpos. f_equal. lia.
Qed.

Section Writes.
Variable m : list N.
Hypothesis Hlen : lenN m = node_count c.
Variable q : pos.
Hypothesis Vq : valid c q.
Variable v : N.
Let m' := setw m (nodes_before q) v.

Lemma w_word : forall p, valid c p -> word m' p = if pos_eqb p q then v else word m p.
Proof.
  intros p Vp. unfold word, m'. destruct (pos_eqb_spec p q) as [->|E].
  - apply getw_setw_same. rewrite Hlen. apply (nodes_before_lt c wf), Vq.
  - apply getw_setw_other. intro F. apply E. symmetry. apply (nodes_before_inj c wf); assumption.
Qed.

Lemma w_cnt_to : forall p, valid c p ->
  cnt_to m' p = if pos_eqb (ascend p) q
                then match ascend_direction p with DLeft => unpack_left v | DRight => unpack_right v end
                else cnt_to m p.
Proof.
  intros p Vp. unfold cnt_to, lc, rc. rewrite (w_word (ascend p)) by (apply valid_ascend; assumption).
  destruct (pos_eqb (ascend p) q); destruct (ascend_direction p); reflexivity.
Qed.

Lemma w_gav : forall p, valid c p ->
  gav c m' p = if pos_eqb p q
               then (if live c q then (if level q =? h then popcount64 v else unpack_left v + unpack_right v) else 0)
               else gav c m p.
Proof.
  intros p Vp. unfold gav, avail, lc, rc. rewrite (w_word p Vp). destruct (pos_eqb_spec p q) as [->|E]; reflexivity.
Qed.

Lemma w_bitfree : forall x, x < 64 * 2 ^ h ->
  bitfree m' x = if pos_eqb (leafpos x) q then b2n (N.testbit v (x mod 64)) else bitfree m x.
Proof.
  intros x Hx. unfold bitfree. rewrite (w_word (leafpos x) (valid_leafpos x Hx)).
  destruct (pos_eqb (leafpos x) q); reflexivity.
Qed.

Lemma w_Fsum_inner : level q < h -> Fsum m' = Fsum m.
Proof.
  intro Hq. unfold Fsum. apply sumN_ext. intros o Ho.
  rewrite w_gav by (split; cbn [level offset]; lia).
  destruct (pos_eqb_spec (mkPos h o) q) as [E|E]; [|reflexivity]. subst q. cbn [level] in Hq. lia.
Qed.

Lemma w_Fsum_leaf : level q = h -> Fsum m' + gav c m q = Fsum m + gav c m' q.
Proof.
  intro Hq. pose proof Vq as [_ Vo].
  assert (EQ : mkPos h (offset q) = q) by (rewrite <- Hq; apply pos_eta).
  unfold Fsum.
  pose proof (sumN_upd_one (N.to_nat (2 ^ h)) (fun o => gav c m (mkPos h o)) (fun o => gav c m' (mkPos h o)) (offset q)) as S.
  cbn beta in S. rewrite EQ in S. apply S; [rewrite Hq in Vo; lia|].
  intros k Hk Hne. rewrite (w_gav (mkPos h k)) by (split; cbn [level offset]; lia).
  destruct (pos_eqb_spec (mkPos h k) q) as [E|E]; [|reflexivity]. rewrite <- E in Hne. cbn [offset] in Hne. contradiction.
Qed.
End Writes.

Variable total : N.
Variable inU : N -> bool.

Record Inv (st : state) : Prop := mkInv {
  inv_len : lenN (nodes (sh st)) = node_count c;
  inv_w64 : forall j, getw (nodes (sh st)) j < two64;
  inv_thr : Forall twf (ths st);
  inv_tree : forall p, valid c p -> 1 <= level p -> live c (ascend p) = true ->
     cnt_to (nodes (sh st)) p + tsum (wP p) (ths st) + tsum (wU p) (ths st) = gav c (nodes (sh st)) p;
  inv_own : forall x, x < 64 * 2 ^ h -> live c (leafpos x) = true ->
     bitfree (nodes (sh st)) x + tsum (wH x) (ths st) = b2n (inU x);
  inv_sz1 : sz (sh st) + tsum wHeld (ths st) = total;
  inv_sz2 : sz (sh st) = Fsum (nodes (sh st)) + tsum wInfl (ths st)
}.

End Inv.

Definition side (d : dir) (w : N) : N := match d with DLeft => unpack_left w | DRight => unpack_right w end.

Lemma fetch_push : forall held scr o r, fetch held scr = Some (o, r) -> o <> OpPop -> held <> [].
Proof.
  induction scr as [|a scr IH]; intros o r H Ho; simpl in H; [discriminate|].
  destruct a.
  - inversion H; subst. contradiction.
  - destruct held; [apply (IH _ _ H Ho) | discriminate].
  - destruct held; [apply (IH _ _ H Ho) | discriminate].
Qed.

Section Step.
Variable c : cfg.
Notation h := (ilc c).
Hypothesis wf : WF c.
Variable total : N.
Variable inU : N -> bool.
Hypothesis total_le : total <= cap c.
Hypothesis inU_cap : forall x, inU x = true -> x < cap c.

Notation twf := (twf c).
Notation valid := (valid c).
Notation leafpos := (leafpos c).
Notation Inv := (Inv c total inU).

(* One step replaces one thread and at most one word, so it suffices to compare the terms of the acting thread
   and of the memory before and after; the sums over the other threads cancel. *)
Lemma inv_replace : forall s l1 th l2 s' th',
  Inv (mkState s (l1 ++ th :: l2)) ->
  lenN (nodes s') = node_count c -> (forall j, getw (nodes s') j < two64) -> twf th' ->
  (forall p, valid p -> 1 <= level p -> live c (ascend p) = true ->
     cnt_to (nodes s') p + wP p th' + wU p th' + gav c (nodes s) p =
     cnt_to (nodes s) p + wP p th + wU p th + gav c (nodes s') p) ->
  (forall x, x < 64 * 2 ^ h -> live c (leafpos x) = true ->
     bitfree c (nodes s') x + wH x th' = bitfree c (nodes s) x + wH x th) ->
  sz s' + wHeld th' = sz s + wHeld th ->
  sz s' + Fsum c (nodes s) + wInfl th = sz s + Fsum c (nodes s') + wInfl th' ->
  Inv (mkState s' (l1 ++ th' :: l2)).
Proof.
  intros s l1 th l2 s' th' [_ _ H3 H4 H5 H6 H7] L W TW ET EO E1 E2. cbn [sh ths] in *.
  constructor; cbn [sh ths].
  - exact L.
  - exact W.
  - apply Forall_app in H3 as [T1 T2]. apply Forall_app. split; [exact T1|]. inversion T2; subst. constructor; assumption.
  - intros p Vp Hl Lp. specialize (H4 p Vp Hl Lp). specialize (ET p Vp Hl Lp).
    pose proof (tsum_replace (wP p) l1 th th' l2). pose proof (tsum_replace (wU p) l1 th th' l2). lia.
  - intros x Hx Lx. specialize (H5 x Hx Lx). specialize (EO x Hx Lx).
    pose proof (tsum_replace (wH x) l1 th th' l2). lia.
  - pose proof (tsum_replace wHeld l1 th th' l2). lia.
  - pose proof (tsum_replace wInfl l1 th th' l2). lia.
Qed.

(* a step that writes no tree word *)
Lemma inv_same_nodes : forall s l1 th l2 s' th',
  Inv (mkState s (l1 ++ th :: l2)) -> nodes s' = nodes s -> twf th' ->
  (forall p, 1 <= level p -> wP p th' + wU p th' = wP p th + wU p th) ->
  (forall x, wH x th' = wH x th) ->
  sz s' + wHeld th' = sz s + wHeld th -> sz s' + wInfl th = sz s + wInfl th' ->
  Inv (mkState s' (l1 ++ th' :: l2)).
Proof.
  intros s l1 th l2 s' th' HI EN TW EP EH E1 E2.
  apply (inv_replace s l1 th l2 s' th' HI); rewrite ?EN; try assumption.
  - apply (inv_len _ _ _ _ HI).
  - apply (inv_w64 _ _ _ _ HI).
  - intros p _ Hl _. specialize (EP p Hl). lia.
  - intros x _ _. rewrite EH. reflexivity.
  - lia.
Qed.

(* a step that writes the word of an inner node q: the equations of q and of its two children change *)
Lemma inv_write_inner : forall s l1 th l2 q v th',
  Inv (mkState s (l1 ++ th :: l2)) -> valid q -> level q < h -> live c q = true -> v < two64 -> twf th' ->
  (forall p, 1 <= level p -> p <> q -> ascend p <> q -> wP p th' + wU p th' = wP p th + wU p th) ->
  (1 <= level q -> wP q th' + wU q th' + (unpack_left (word (nodes s) q) + unpack_right (word (nodes s) q)) =
                   wP q th + wU q th + (unpack_left v + unpack_right v)) ->
  (forall e, side e v + wP (descend q e) th' + wU (descend q e) th' =
             side e (word (nodes s) q) + wP (descend q e) th + wU (descend q e) th) ->
  (forall x, wH x th' = wH x th) -> wHeld th' = wHeld th -> wInfl th' = wInfl th ->
  Inv (mkState (mkShared (sz s) (setw (nodes s) (nodes_before q) v)) (l1 ++ th' :: l2)).
Proof.
  intros s l1 th l2 q v th' HI Vq Hq Lq Hv TW E1 E2 E3 EH EL EI.
  pose proof (inv_len _ _ _ _ HI) as Hlen. cbn [sh] in Hlen.
  apply (inv_replace s l1 th l2 _ th' HI); cbn [nodes sz]; try assumption.
  - rewrite lenN_setw. exact Hlen.
  - apply getw_setw_bound; [apply (inv_w64 _ _ _ _ HI) | exact Hv].
  - intros p Vp Hl _. rewrite (w_cnt_to c wf _ Hlen q Vq v p Vp), (w_gav c wf _ Hlen q Vq v p Vp).
    destruct (pos_eqb_spec p q) as [->|NE].
    + rewrite (lvl_neq (ascend q) q) by (cbn [level ascend]; lia).
      unfold gav, avail, lc, rc. rewrite Lq, (neqb (level q) h) by lia. specialize (E2 Hl). lia.
    + destruct (pos_eqb_spec (ascend p) q) as [EA|NA].
      * pose proof (E3 (ascend_direction p)) as E. rewrite <- EA, (descend_ascend p Hl) in E.
        unfold cnt_to, lc, rc. unfold side in E. destruct (ascend_direction p); lia.
      * specialize (E1 p Hl NE NA). lia.
  - intros x Hx _. rewrite (w_bitfree c wf _ Hlen q Vq v x Hx), (lvl_neq (leafpos x) q), EH by (cbn [level PagestackProofs.leafpos]; lia).
    reflexivity.
  - lia.
  - rewrite (w_Fsum_inner c wf _ Hlen q Vq v Hq). lia.
Qed.

(* a step that changes bit b of the leaf q, the bit of page index x: the equation of q and that of x change *)
Lemma inv_write_leaf : forall s l1 th l2 q b v th',
  Inv (mkState s (l1 ++ th :: l2)) -> valid q -> level q = h -> live c q = true -> b < 64 -> v < two64 -> twf th' ->
  (forall k, k <> b -> N.testbit v k = N.testbit (word (nodes s) q) k) ->
  (forall p, 1 <= level p -> p <> q -> wP p th' + wU p th' = wP p th + wU p th) ->
  wP q th' + wU q th' + b2n (N.testbit (word (nodes s) q) b) = wP q th + wU q th + b2n (N.testbit v b) ->
  (forall y, y <> offset q * 64 + b -> wH y th' = wH y th) ->
  b2n (N.testbit v b) + wH (offset q * 64 + b) th' = b2n (N.testbit (word (nodes s) q) b) + wH (offset q * 64 + b) th ->
  wHeld th' = wHeld th ->
  b2n (N.testbit v b) + wInfl th' = b2n (N.testbit (word (nodes s) q) b) + wInfl th ->
  Inv (mkState (mkShared (sz s) (setw (nodes s) (nodes_before q) v)) (l1 ++ th' :: l2)).
Proof.
  intros s l1 th l2 q b v th' HI Vq Hq Lq Hb Hv TW EB E1 E2 EH EX EL EI.
  pose proof (inv_len _ _ _ _ HI) as Hlen. cbn [sh] in Hlen.
  pose proof (popcount_change_bit _ v b Hb EB) as PC.
  assert (G : forall w, gav c w q = popcount64 (word w q)) by (intro w; unfold gav, avail; rewrite Lq, Hq, N.eqb_refl; reflexivity).
  pose proof wf as [W1 _ _ _].
  apply (inv_replace s l1 th l2 _ th' HI); cbn [nodes sz]; try assumption.
  - rewrite lenN_setw. exact Hlen.
  - apply getw_setw_bound; [apply (inv_w64 _ _ _ _ HI) | exact Hv].
  - intros p Vp Hl _. rewrite (w_cnt_to c wf _ Hlen q Vq v p Vp), (w_gav c wf _ Hlen q Vq v p Vp).
    rewrite (lvl_neq (ascend p) q) by (destruct Vp; cbn [level ascend]; lia).
    destruct (pos_eqb_spec p q) as [->|NE].
    + rewrite Lq, Hq, N.eqb_refl, G. lia.
    + specialize (E1 p Hl NE). lia.
  - intros y Hy _. rewrite (w_bitfree c wf _ Hlen q Vq v y Hy).
    destruct (leaf_id c wf q b Vq Hq Hb) as (_ & _ & XQ & XB).
    destruct (pos_eqb_spec (leafpos y) q) as [EQ|NE].
    + unfold bitfree. rewrite EQ. destruct (N.eq_dec (y mod 64) b) as [EY|NY].
      * replace y with (offset q * 64 + b) by (rewrite <- EQ, <- EY; cbn [offset PagestackProofs.leafpos]; lia). rewrite XB. exact EX.
      * rewrite (EB _ NY), EH; [reflexivity|]. intros ->. apply NY, XB.
    + rewrite EH; [reflexivity|]. intros ->. apply NE, XQ.
  - lia.
  - pose proof (w_Fsum_leaf c wf _ Hlen q Vq v Hq) as FL.
    rewrite (w_gav c wf _ Hlen q Vq v q Vq), pos_eqb_refl, Lq, Hq, N.eqb_refl, G in FL. lia.
Qed.

Lemma inv_twf : forall st th, Inv st -> In th (ths st) -> twf th.
Proof. intros st th HI. apply Forall_forall, (inv_thr _ _ _ _ HI). Qed.

Lemma inv_word64 : forall s l q, Inv (mkState s l) -> word (nodes s) q < two64.
Proof. intros s l q HI. apply (inv_w64 _ _ _ _ HI). Qed.

(* a live node with a pop on its way to it offers something *)
Lemma pop_target_nonempty : forall st th q, Inv st -> In th (ths st) ->
  valid q -> 1 <= level q -> live c q = true -> wP q th = 1 -> 1 <= avail c (nodes (sh st)) q.
Proof.
  intros st th q HI IN Vq Hl Lq W.
  pose proof (inv_tree _ _ _ _ HI q Vq Hl (live_ascend c wf q Vq Hl Lq)) as T.
  pose proof (tsum_member (wP q) _ _ IN). unfold gav in T. rewrite Lq in T. lia.
Qed.

Lemma leaf_target_nonzero : forall st th q, Inv st -> In th (ths st) ->
  valid q -> level q = h -> live c q = true -> wP q th = 1 -> word (nodes (sh st)) q <> 0.
Proof.
  intros st th q HI IN Vq Hq Lq W. pose proof wf as [W1 _ _ _].
  pose proof (pop_target_nonempty st th q HI IN Vq ltac:(lia) Lq W) as A.
  unfold avail in A. rewrite Hq, N.eqb_refl in A. intro Z. rewrite Z, popcount_zero in A. lia.
Qed.

(* no counter exceeds the number of IDs below it *)
Lemma gav_bound : forall st, Inv st ->
  forall n p, valid p -> 1 <= level p -> live c (ascend p) = true -> h - level p = N.of_nat n ->
  gav c (nodes (sh st)) p <= span c (level p).
Proof.
  intros st HI. induction n as [|n IH]; intros p Vp Hl Lp Hn.
  - assert (E : level p = h) by (destruct Vp; lia). unfold gav, avail. rewrite E, N.eqb_refl, (span_h c wf).
    pose proof (popcount_le (word (nodes (sh st)) p)). destruct (live c p); lia.
  - assert (Hlt : level p < h) by lia.
    unfold gav. destruct (live c p) eqn:LV; [|lia].
    unfold avail. rewrite (neqb (level p) h) by lia.
    assert (B : forall d, cnt_to (nodes (sh st)) (descend p d) <= span c (level p + 1)).
    { intro d. pose proof (valid_descend c wf p d Vp Hlt) as Vd.
      pose proof (inv_tree _ _ _ _ HI (descend p d) Vd) as T. pose proof (IH (descend p d) Vd) as BD.
      rewrite ascend_descend in T, BD. cbn [level descend] in T, BD.
      specialize (T ltac:(lia) LV). specialize (BD ltac:(lia) LV ltac:(lia)). lia. }
    pose proof (B DLeft) as BL. pose proof (B DRight) as BR.
    unfold cnt_to in BL, BR. rewrite ascdir_descend, ascend_descend in BL, BR.
    rewrite (span_half c wf (level p) Hlt). lia.
Qed.

Lemma child_counter_bound : forall st th q d, Inv st -> In th (ths st) ->
  valid q -> level q < h -> live c q = true ->
  side d (word (nodes (sh st)) q) + wU (descend q d) th <= 2147483648.
Proof.
  intros st th q d HI IN Vq Hq Lq.
  pose proof (valid_descend c wf q d Vq Hq) as Vp.
  pose proof (inv_tree _ _ _ _ HI (descend q d) Vp) as T.
  pose proof (gav_bound st HI (N.to_nat (h - (level q + 1))) (descend q d) Vp) as B.
  rewrite ascend_descend in T, B. cbn [level descend] in T, B.
  specialize (T ltac:(lia) Lq). specialize (B ltac:(lia) Lq ltac:(lia)).
  pose proof (tsum_member (wU (descend q d)) _ _ IN).
  unfold cnt_to in T. rewrite ascdir_descend, ascend_descend in T. unfold lc, rc in T.
  pose proof (span_small c wf (level q + 1) ltac:(lia)).
  unfold side. destruct d; lia.
Qed.

(* the step of a process at program counter p, acting in any state that satisfies the invariant *)
Definition preserved (p : pc) : Prop := forall s l1 held scr l2 s' p' held' scr' evs,
  Inv (mkState s (l1 ++ mkT p held scr :: l2)) ->
  pstep c s p held scr = (s', p', held', scr', evs) ->
  Inv (mkState s' (l1 ++ mkT p' held' scr' :: l2)).

Ltac wexp := unfold wP, wU, wH, wHeld, wInfl; cbn [tpc theld].

Lemma ready_push : forall s l1 l2 a n b scr r,
  Inv (mkState s (l1 ++ mkT Ready (a ++ n :: b) scr :: l2)) ->
  (0 <? n) && (n <=? cap c) = true /\ Inv (mkState s (l1 ++ mkT (PushSize (n - 1)) (a ++ b) r :: l2)).
Proof.
  intros s l1 l2 a n b scr r HI.
  pose proof (inv_twf _ _ HI (in_elt _ _ _)) as [TH _]. cbn [theld] in TH.
  apply Forall_app in TH as [Ta Tb]. inversion Tb as [|? ? Hn Tb']; subst.
  split; [lia|].
  apply (inv_same_nodes _ _ _ _ s _ HI); try reflexivity; wexp.
  - split; [apply Forall_app; split; assumption | cbn [tpc]; lia].
  - intro x. rewrite !countN_app. cbn [countN].
    destruct (N.eqb_spec n (x + 1)); destruct (N.eqb_spec (n - 1) x); cbn [b2n]; lia.
  - rewrite !lenN_app. cbn [lenN]. lia.
Qed.

Lemma case_ready : preserved Ready.
Proof.
  intros s l1 held scr l2 s' p' held' scr' evs HI E. cbn [pstep] in E.
  pose proof (inv_twf _ _ HI (in_elt _ _ _)) as [TH _]. cbn [theld] in TH.
  destruct (fetch held scr) as [[o r]|] eqn:F.
  - destruct o.
    + destruct (N.eqb_spec (cap c) 0) as [C0|C0]; inversion E; subst; clear E.
      * apply (inv_same_nodes _ _ _ _ s' _ HI); try reflexivity. split; [assumption | exact I].
      * apply (inv_same_nodes _ _ _ _ s' _ HI); try reflexivity.
        -- split; [assumption|]. cbn [tpc]. split; [apply (valid_root c wf)|]. pose proof wf as [W1 _ _ _].
           split; [cbn [level root]; lia|]. unfold live, lo. cbn [level offset root]. lia.
        -- intros p Hl. wexp. rewrite lvl_neq; [reflexivity|]. cbn [level root]. lia.
    + pose proof (fetch_push _ _ _ _ F ltac:(discriminate)) as NE.
      destruct held as [|n t]; [contradiction|]. cbn [hd tl] in E.
      destruct (ready_push s l1 l2 [] n t scr r HI) as [B HI']. rewrite B in E. inversion E; subst. exact HI'.
    + pose proof (fetch_push _ _ _ _ F ltac:(discriminate)) as NE.
      rewrite (app_removelast_last 0 NE) in HI.
      destruct (ready_push s l1 l2 _ _ [] scr r HI) as [B HI']. rewrite B in E. rewrite app_nil_r in HI'.
      inversion E; subst. exact HI'.
  - inversion E; subst; clear E. apply (inv_same_nodes _ _ _ _ s' _ HI); try reflexivity. split; [assumption | exact I].
Qed.

(* what innerPop does with a value it has just read from the node q that this pop is at; a failed CAS at q is
   in the position of a load at q *)
Lemma inner_read : forall s l1 q held scr l2 p' ev,
  Inv (mkState s (l1 ++ mkT (PopLoad q) held scr :: l2)) ->
  after_inner_read q (word (nodes s) q) = (p', ev) ->
  Inv (mkState s (l1 ++ mkT p' held scr :: l2)).
Proof.
  intros s l1 q held scr l2 p' ev HI E.
  pose proof (inv_twf _ _ HI (in_elt _ _ _)) as [TH (Vq & Hq & Lq)]. cbn [theld tpc] in *.
  unfold after_inner_read in E.
  destruct (inner_pop_choice (word (nodes s) q)) as [[d new]|] eqn:CH.
  - inversion E; subst; clear E. apply (inv_same_nodes _ _ _ _ s _ HI); try reflexivity.
    split; [assumption|]. cbn [tpc]. rewrite CH. split; [|split; [|split]]; try assumption. discriminate.
  - destruct (N.eqb_spec (level q) 0) as [L0|L0]; inversion E; subst; clear E.
    + apply (inv_same_nodes _ _ _ _ s _ HI); try reflexivity.
      * split; [assumption | exact I].
      * intros p Hl. wexp. rewrite lvl_neq; [reflexivity | lia].
    + exfalso. apply choice_none in CH.
      pose proof (pop_target_nonempty _ (mkT (PopLoad q) held scr) q HI (in_elt _ _ _) Vq ltac:(lia) Lq) as A.
      unfold wP in A. cbn [tpc] in A. rewrite pos_eqb_refl in A. specialize (A eq_refl).
      unfold avail, lc, rc in A. cbn [sh nodes] in A. rewrite (neqb (level q) h) in A by lia. lia.
Qed.

Lemma case_popload : forall q, preserved (PopLoad q).
Proof.
  intros q s l1 held scr l2 s' p' held' scr' evs HI E. cbn [pstep] in E.
  pose proof (inv_twf _ _ HI (in_elt _ _ _)) as [_ (Vq & _)].
  rewrite (node_ok_valid c wf q Vq) in E.
  destruct (after_inner_read q (getw (nodes s) (nodes_before q))) as [p1 ev1] eqn:AR.
  inversion E; subst; clear E. exact (inner_read _ _ _ _ _ _ _ _ HI AR).
Qed.

Lemma case_popcas : forall q old, preserved (PopCas q old).
Proof.
  intros q old s l1 held scr l2 s' p' held' scr' evs HI E. cbn [pstep] in E.
  pose proof (inv_twf _ _ HI (in_elt _ _ _)) as [TH (Vq & Hq & Lq & CHN)]. cbn [theld tpc] in *.
  destruct (N.eqb_spec (getw (nodes s) (nodes_before q)) old) as [EQ|NE].
  2: { destruct (after_inner_read q (getw (nodes s) (nodes_before q))) as [p1 ev1] eqn:AR.
       inversion E; subst; clear E. apply (inner_read _ _ _ _ _ _ _ _) with (2 := AR).
       apply (inv_same_nodes _ _ _ _ s' _ HI); try reflexivity. exact (conj TH (conj Vq (conj Hq Lq))). }
  destruct (inner_pop_choice old) as [[d new]|] eqn:CH; [|contradiction].
  destruct (N.ltb_spec (level q) (tree_height c)); [|unfold tree_height in *; lia].
  inversion E; subst; clear E.
  change (getw (nodes s) (nodes_before q)) with (word (nodes s) q) in CH.
  pose proof (choice_spec _ _ _ CH (inv_word64 _ _ q HI)) as [Hnew CS].
  pose proof (valid_descend c wf q d Vq Hq) as Vq'.
  assert (Lq' : live c (descend q d) = true).
  { pose proof (inv_tree _ _ _ _ HI (descend q d) Vq') as T. rewrite ascend_descend in T.
    cbn [level descend] in T. specialize (T ltac:(lia) Lq).
    unfold cnt_to in T. rewrite ascdir_descend, ascend_descend in T.
    unfold gav in T. destruct (live c (descend q d)); [reflexivity|]. exfalso.
    unfold lc, rc in T. cbn [sh nodes] in T. destruct d; lia. }
  match goal with |- context [mkT ?X held' scr'] => set (pcn := X) end.
  assert (W : twf (mkT pcn held' scr') /\ (forall p, wP p (mkT pcn held' scr') = b2n (pos_eqb (descend q d) p)) /\
              (forall p, wU p (mkT pcn held' scr') = 0) /\ (forall x, wH x (mkT pcn held' scr') = countN (x + 1) held' + 0) /\
              wHeld (mkT pcn held' scr') = lenN held' + 0 /\ wInfl (mkT pcn held' scr') = 0).
  { unfold pcn. cbn [level descend]. destruct (N.ltb_spec (level q + 1) h);
      (split; [split; [exact TH | cbn [tpc level descend]; split; [exact Vq' | split; [lia | exact Lq']]] | repeat split]). }
  destruct W as (TW & WP & WU & WH & WL & WI). clearbody pcn.
  apply (inv_write_inner _ _ _ _ q new _ HI); try assumption; try (intros; rewrite ?WH, ?WL, ?WI; reflexivity).
  - intros p _ NQ NA. rewrite WP, WU. wexp. rewrite (child_neqb q d p NA), (pos_neqb q p) by congruence. reflexivity.
  - intros _. rewrite WP, WU. wexp. rewrite pos_eqb_refl, lvl_neq by (cbn [level descend]; lia). cbn [b2n]. destruct d; lia.
  - intro e. rewrite WP, WU. wexp. rewrite pos_eqb_descend, (lvl_neq q) by (cbn [level descend]; lia). unfold side.
    destruct d, e; cbn [dbit N.eqb Pos.eqb b2n]; lia.
Qed.

Lemma case_leafload : forall q, preserved (LeafLoad q).
Proof.
  intros q s l1 held scr l2 s' p' held' scr' evs HI E. cbn [pstep] in E.
  pose proof (inv_twf _ _ HI (in_elt _ _ _)) as [TH (Vq & Hq & Lq)]. cbn [theld tpc] in *.
  rewrite (node_ok_valid c wf q Vq) in E.
  pose proof (leaf_target_nonzero _ _ q HI (in_elt _ _ _) Vq Hq Lq ltac:(wexp; rewrite pos_eqb_refl; reflexivity)) as NZ.
  unfold word in NZ. cbn [sh] in NZ.
  destruct (N.eqb_spec (getw (nodes s) (nodes_before q)) 0); [contradiction|].
  inversion E; subst; clear E.
  apply (inv_same_nodes _ _ _ _ s' _ HI); try reflexivity.
  split; [assumption|]. cbn [tpc]. split; [assumption|]. split; assumption.
Qed.

Lemma case_leafcas : forall q old, preserved (LeafCas q old).
Proof.
  intros q old s l1 held scr l2 s' p' held' scr' evs HI E. cbn [pstep] in E.
  pose proof (inv_twf _ _ HI (in_elt _ _ _)) as [TH (Vq & Hq & Lq)]. cbn [theld tpc] in *.
  pose proof (leaf_target_nonzero _ _ q HI (in_elt _ _ _) Vq Hq Lq ltac:(wexp; rewrite pos_eqb_refl; reflexivity)) as NZ.
  unfold word in NZ. cbn [sh] in NZ.
  destruct (N.eqb_spec (getw (nodes s) (nodes_before q)) old) as [EQ|NE].
  2: { destruct (N.eqb_spec (getw (nodes s) (nodes_before q)) 0); [contradiction|].
       inversion E; subst; clear E.
       apply (inv_same_nodes _ _ _ _ s' _ HI); try reflexivity.
       split; [assumption|]. cbn [tpc]. split; [assumption|]. split; assumption. }
  inversion E; subst; clear E.
  change (getw (nodes s) (nodes_before q)) with (word (nodes s) q) in *.
  pose proof (inv_word64 _ _ q HI) as Hw.
  set (old := word (nodes s) q) in *.
  pose proof (trailing_zeros_spec old NZ Hw) as [LB Bb].
  set (b := trailing_zeros old) in *.
  pose proof (leaf_id c wf q b Vq Hq Bb) as (Xlt & Xmod & Xleaf & Xbit). cbn zeta in *.
  unfold BitsPerLeaf. rewrite Xmod.
  set (x := offset q * 64 + b) in *.
  pose proof (clear_low_bits old b LB) as VB. destruct LB as [LB1 _].
  pose proof (inv_own _ _ _ _ HI x Xlt ltac:(rewrite Xleaf; exact Lq)) as Ox. cbn [sh ths] in Ox.
  unfold bitfree in Ox. rewrite Xleaf, Xbit in Ox. fold old in Ox. rewrite LB1 in Ox.
  assert (XU : inU x = true) by (destruct (inU x); [reflexivity | cbn [b2n] in Ox; lia]).
  rewrite XU in Ox. cbn [b2n] in Ox.
  apply (inv_write_leaf _ _ _ _ q b _ _ HI); try assumption; fold old; fold x; wexp; rewrite ?VB, ?LB1, ?N.eqb_refl.
  - apply land_lt64. exact Hw.
  - split; [assumption|]. cbn [tpc]. apply inU_cap. exact XU.
  - intros k Hk. rewrite VB, (neqb k b Hk). apply andb_true_r.
  - intros p _ NE. rewrite (pos_neqb q p) by congruence. reflexivity.
  - rewrite pos_eqb_refl. reflexivity.
  - intros y Hy. rewrite (neqb x y) by congruence. reflexivity.
  - cbn [andb negb b2n]. lia.
  - reflexivity.
  - reflexivity.
Qed.

Lemma case_popsize : forall x, preserved (PopSize x).
Proof.
  intros x s l1 held scr l2 s' p' held' scr' evs HI E. cbn [pstep] in E.
  pose proof (inv_twf _ _ HI (in_elt _ _ _)) as [TH Xc]. cbn [theld tpc] in *.
  pose proof (inv_sz1 _ _ _ _ HI) as S1. pose proof (inv_sz2 _ _ _ _ HI) as S2. cbn [sh ths] in S1, S2.
  pose proof (tsum_member wInfl _ _ (in_elt (mkT (PopSize x) held scr) l1 l2)) as M.
  change (wInfl (mkT (PopSize x) held scr)) with 1 in M.
  pose proof wf as [_ _ _ C32].
  assert (N1 : (sz s + two32 - 1) mod two32 = sz s - 1 /\ sz s - 1 < cap c /\ 1 <= sz s) by (clear - S1 S2 M C32 total_le; unfold two32 in *; lia).
  destruct N1 as (N1 & N3 & N4).
  assert (N2 : (x + 1) mod two32 = x + 1) by (clear - Xc C32; unfold two32 in *; lia).
  rewrite N1, N2 in E. clear S1 S2 M.
  destruct (N.ltb_spec (sz s - 1) (cap c)); [|lia]. destruct (N.ltb_spec 0 (x + 1)); [|lia].
  destruct (N.leb_spec (x + 1) (cap c)); [|lia]. cbn [andb] in E. inversion E; subst; clear E.
  apply (inv_same_nodes _ _ _ _ _ _ HI); try reflexivity; wexp; cbn [sz].
  - split; [|exact I]. cbn [theld]. apply Forall_app. split; [assumption|]. constructor; [lia | constructor].
  - intro y. rewrite countN_app. cbn [countN]. clear. destruct (N.eqb_spec x y); destruct (N.eqb_spec (x + 1) (y + 1)); cbn [b2n]; lia.
  - rewrite lenN_app. cbn [lenN]. lia.
  - lia.
Qed.

Lemma case_pushsize : forall x, preserved (PushSize x).
Proof.
  intros x s l1 held scr l2 s' p' held' scr' evs HI E. cbn [pstep] in E.
  pose proof (inv_twf _ _ HI (in_elt _ _ _)) as [TH Xc]. cbn [theld tpc] in *.
  pose proof (inv_sz1 _ _ _ _ HI) as S1. cbn [sh ths] in S1.
  pose proof (tsum_member wHeld _ _ (in_elt (mkT (PushSize x) held scr) l1 l2)) as M.
  change (wHeld (mkT (PushSize x) held scr)) with (lenN held + 1) in M.
  pose proof wf as [_ _ _ C32].
  assert (N1 : (sz s + 1) mod two32 = sz s + 1 /\ sz s + 1 <= cap c) by (clear - S1 M C32 total_le; unfold two32 in *; lia).
  destruct N1 as (N1 & N2).
  rewrite N1 in E. clear S1 M. destruct (N.leb_spec (sz s + 1) (cap c)); [|lia]. inversion E; subst; clear E.
  apply (inv_same_nodes _ _ _ _ _ _ HI); try reflexivity; wexp; cbn [sz]; try lia.
  split; [assumption | exact Xc].
Qed.

Lemma case_pushleaf : forall x, preserved (PushLeaf x).
Proof.
  intros x s l1 held scr l2 s' p' held' scr' evs HI E. cbn [pstep] in E.
  pose proof (inv_twf _ _ HI (in_elt _ _ _)) as [TH Xc]. cbn [theld tpc] in *.
  pose proof wf as [W1 W2 W3 W4].
  assert (Xlt : x < 64 * 2 ^ h) by lia.
  pose proof (valid_leafpos c wf x Xlt) as Vq. pose proof (leafpos_live c wf x Xc) as Lq.
  unfold BitsPerLeaf in E. change (mkPos h (x / 64)) with (leafpos x) in E.
  set (q := leafpos x) in *.
  assert (Hq : level q = h) by reflexivity.
  assert (Xq : offset q * 64 + x mod 64 = x) by (cbn [q offset PagestackProofs.leafpos]; lia).
  rewrite (node_ok_valid c wf q Vq) in E.
  change (getw (nodes s) (nodes_before q)) with (word (nodes s) q) in E.
  pose proof (inv_word64 _ _ q HI) as Hw.
  set (old := word (nodes s) q) in *.
  pose proof (inv_own _ _ _ _ HI x Xlt Lq) as Ox. cbn [sh ths] in Ox. unfold bitfree in Ox. fold q in Ox. fold old in Ox.
  pose proof (tsum_member (wH x) _ _ (in_elt (mkT (PushLeaf x) held scr) l1 l2)) as Mx.
  change (wH x (mkT (PushLeaf x) held scr)) with (countN (x + 1) held + b2n (x =? x)) in Mx. rewrite N.eqb_refl in Mx.
  pose proof (b2n_le1 (inU x)) as IU.
  assert (TB : N.testbit old (x mod 64) = false) by (destruct (N.testbit old (x mod 64)); [cbn [b2n] in *; lia | reflexivity]).
  rewrite land_mask_zero, TB in E. cbn [negb] in E.
  unfold next_inner_push in E. rewrite Hq in E. destruct (N.ltb_spec 0 h); [|lia].
  inversion E; subst; clear E.
  assert (Bx : x mod 64 < 64) by lia.
  assert (DA : descend (ascend q) (ascend_direction q) = q) by (apply descend_ascend; lia).
  apply (inv_write_leaf _ _ _ _ q (x mod 64) _ _ HI); try assumption; fold old; rewrite ?Xq, ?set_bit_bits, ?TB, ?N.eqb_refl; wexp; rewrite ?DA.
  - apply lor_lt64; assumption.
  - split; [assumption|]. cbn [tpc]. split; [apply valid_ascend; assumption|].
    split; [cbn [level ascend]; lia|]. rewrite DA. assumption.
  - intros k Hk. rewrite set_bit_bits, (neqb k _ Hk). apply orb_false_r.
  - intros p _ NE. rewrite (pos_neqb q p) by congruence. reflexivity.
  - rewrite pos_eqb_refl. reflexivity.
  - intros y Hy. rewrite (neqb x y) by congruence. cbn [b2n]. lia.
  - rewrite N.eqb_refl. cbn [orb b2n]. lia.
  - reflexivity.
  - reflexivity.
Qed.

Lemma case_pushinner : forall q d x, preserved (PushInner q d x).
Proof.
  intros q d x s l1 held scr l2 s' p' held' scr' evs HI E. cbn [pstep] in E.
  pose proof (inv_twf _ _ HI (in_elt _ _ _)) as [TH (Vq & Hq & Lc)]. cbn [theld tpc] in *.
  pose proof (live_descend c wf q d Hq Lc) as Lq.
  rewrite (node_ok_valid c wf q Vq) in E.
  change (getw (nodes s) (nodes_before q)) with (word (nodes s) q) in E.
  pose proof (inv_word64 _ _ q HI) as Hw.
  pose proof (child_counter_bound _ _ q DLeft HI (in_elt _ _ _) Vq Hq Lq) as BL.
  pose proof (child_counter_bound _ _ q DRight HI (in_elt _ _ _) Vq Hq Lq) as BR.
  cbn [sh nodes side] in BL, BR.
  set (old := word (nodes s) q) in *.
  pose proof (push_inc_spec old d Hw ltac:(unfold two32; lia) ltac:(unfold two32; lia)) as (Hv & HA & HL & HR).
  cbn zeta in *. rewrite HA in E.
  set (v := (old + push_increment d) mod two64) in *.
  assert (NP : exists pcn, p' = pcn /\ twf (mkT pcn held scr) /\
             (forall p, 1 <= level p -> wU p (mkT pcn held scr) = b2n (pos_eqb q p)) /\
             (forall p, wP p (mkT pcn held scr) = 0) /\
             (forall y, wH y (mkT pcn held scr) = countN (y + 1) held + 0) /\
             wHeld (mkT pcn held scr) = lenN held + 0 /\ wInfl (mkT pcn held scr) = 0).
  { destruct (at_root q) eqn:AR.
    - exists Ready. split; [congruence|]. split; [split; [assumption | exact I]|].
      split; [|repeat split; reflexivity]. intros p Hl. unfold at_root in AR. wexp. rewrite lvl_neq; [reflexivity | lia].
    - unfold next_inner_push in E. assert (L1 : 1 <= level q).
      { destruct (N.eq_dec (level q) 0) as [L0|L0]; [|lia]. rewrite (valid_level0 c wf q Vq L0) in AR. discriminate. }
      destruct (N.ltb_spec 0 (level q)); [|lia].
      assert (DA : descend (ascend q) (ascend_direction q) = q) by (apply descend_ascend; lia).
      exists (PushInner (ascend q) (ascend_direction q) x). split; [congruence|].
      split.
      + split; [assumption|]. cbn [tpc]. split; [apply valid_ascend; assumption|]. split; [cbn [level ascend]; lia|]. rewrite DA. assumption.
      + split; [|repeat split; reflexivity]. intros p _. wexp. rewrite DA. reflexivity. }
  destruct NP as (pcn & EP & TW & WU & WP & WH & WL & WI).
  assert (ES : (s', held', scr') = (mkShared (sz s) (setw (nodes s) (nodes_before q) v), held, scr)).
  { destruct (at_root q); [|destruct (next_inner_push q x)]; congruence. }
  inversion ES; subst; clear ES E.
  apply (inv_write_inner _ _ _ _ q v _ HI); try assumption; try (intros; rewrite ?WH, ?WL, ?WI; reflexivity); fold old.
  - intros p Hl NQ NA. rewrite WP, (WU p Hl). wexp. rewrite (child_neqb q d p NA), (pos_neqb q p) by congruence. reflexivity.
  - intros Hl. rewrite WP, (WU q Hl). wexp. rewrite pos_eqb_refl, lvl_neq by (cbn [level descend]; lia). cbn [b2n]. destruct d; lia.
  - intro e. rewrite WP, WU by (cbn [level descend]; lia). wexp. rewrite pos_eqb_descend, (lvl_neq q) by (cbn [level descend]; lia).
    unfold side. destruct d, e; cbn [dbit N.eqb Pos.eqb b2n]; lia.
Qed.

Theorem pstep_inv : forall p, preserved p.
Proof.
  destruct p.
  - apply case_ready.
  - intros s l1 held scr l2 s' p' held' scr' evs HI E. inversion E; subst. exact HI.
  - intros s l1 held scr l2 s' p' held' scr' evs HI E. inversion E; subst. exact HI.
  - apply case_popload.
  - apply case_popcas.
  - apply case_leafload.
  - apply case_leafcas.
  - apply case_popsize.
  - apply case_pushsize.
  - apply case_pushleaf.
  - apply case_pushinner.
Qed.

Lemma step_inv : forall st t st' evs b, Inv st -> step c st t = (st', evs, b) -> Inv st'.
Proof.
  intros [s l] t st' evs b HI E. unfold step in E. cbn [sh ths] in E.
  destruct (nthN t l) as [[p held scr]|] eqn:NT; [|inversion E; subst; assumption].
  cbn [tpc theld tscr] in E.
  destruct (terminal p); [inversion E; subst; assumption|].
  destruct (pstep c s p held scr) as [[[[s1 p1] held1] scr1] evs1] eqn:P.
  inversion E; subst; clear E.
  destruct (updN_split _ _ _ _ NT) as (l1 & l2 & E1 & E2).
  rewrite E2. subst l. exact (pstep_inv p _ _ _ _ _ _ _ _ _ _ HI P).
Qed.

Lemma exec_inv : forall sched st st' evs n, Inv st -> exec c st sched = (st', evs, n) -> Inv st'.
Proof.
  induction sched as [|t r IH]; intros st st' evs n HI E; simpl in E.
  - inversion E; subst; assumption.
  - destruct (step c st t) as [[st1 e1] b] eqn:S1.
    destruct (exec c st1 r) as [[st2 e2] n2] eqn:S2.
    inversion E; subst; clear E.
    eapply IH; [|eassumption]. eapply step_inv; eassumption.
Qed.

Lemma run_rr_inv : forall fuel st st' evs n, Inv st -> run_rr fuel c st = Some (st', evs, n) -> Inv st'.
Proof.
  induction fuel as [|f IH]; intros st st' evs n HI E; simpl in E.
  - destruct (all_terminal st); [inversion E; subst; assumption | discriminate].
  - destruct (all_terminal st); [inversion E; subst; assumption|].
    destruct (exec c st (tids st)) as [[st1 e1] n1] eqn:X.
    destruct (run_rr f c st1) as [[[st2 e2] n2]|] eqn:R; [|discriminate].
    inversion E; subst; clear E.
    eapply IH; [|eassumption]. eapply exec_inv; eassumption.
Qed.

Definition reach (st0 : state) (sched : list N) : state := fst (fst (exec c st0 sched)).

Theorem reach_inv : forall st0 sched, Inv st0 -> Inv (reach st0 sched).
Proof.
  intros st0 sched HI. unfold reach. destruct (exec c st0 sched) as [[st e] n] eqn:E. simpl.
  eapply exec_inv; eassumption.
Qed.

End Step.

(* a start state: the parameters fit, and the invariant holds *)
Definition Start (c : cfg) (total : N) (inU : N -> bool) (st0 : state) : Prop :=
  WF c /\ total <= cap c /\ (forall x, inU x = true -> x < cap c) /\ Inv c total inU st0.

Theorem reach_start : forall c total inU st0, Start c total inU st0 ->
  forall sched, Start c total inU (reach c st0 sched).
Proof.
  intros c total inU st0 (W & T & U & I) sched. split; [exact W|]. split; [exact T|]. split; [exact U|].
  apply (reach_inv c W total inU T U). exact I.
Qed.

Lemma sumN_tsum : forall n (f : N -> thread -> N) l,
  sumN n (fun k => tsum (f k) l) = tsum (fun th => sumN n (fun k => f k th)) l.
Proof.
  intros n f l. induction l as [|a l IH].
  - cbn [tsum fold_right]. apply sumN_zero. reflexivity.
  - rewrite tsum_cons, <- IH, <- sumN_add. apply sumN_ext. intros. rewrite tsum_cons. reflexivity.
Qed.

Lemma sumN_indicator : forall n o0, sumN n (fun o => b2n (o0 =? o)) = b2n (o0 <? N.of_nat n).
Proof.
  induction n as [|n IH]; intro o0.
  - cbn [sumN]. destruct (N.ltb_spec o0 (N.of_nat 0)); [lia | reflexivity].
  - cbn [sumN]. rewrite IH.
    destruct (N.ltb_spec o0 (N.of_nat n)); destruct (N.ltb_spec o0 (N.of_nat (S n))); destruct (N.eqb_spec o0 (N.of_nat n)); cbn [b2n]; lia.
Qed.

(* sum over all positions of levels 1..n *)
Fixpoint lev_sum (n : nat) (F : pos -> N) : N :=
  match n with
  | O => 0
  | S k => lev_sum k F + sumN (N.to_nat (2 ^ N.of_nat (S k))) (fun o => F (mkPos (N.of_nat (S k)) o))
  end.

Lemma lev_sum_tsum : forall n (f : pos -> thread -> N) l,
  lev_sum n (fun p => tsum (f p) l) = tsum (fun th => lev_sum n (fun p => f p th)) l.
Proof.
  induction n as [|n IH]; intros f l.
  - cbn [lev_sum]. symmetry. apply tsum_zero. reflexivity.
  - cbn [lev_sum]. rewrite IH, sumN_tsum.
    induction l as [|a l IHl]; [reflexivity|]. rewrite !tsum_cons. lia.
Qed.

Lemma lev_sum_add : forall n F G, lev_sum n (fun p => F p + G p) = lev_sum n F + lev_sum n G.
Proof. induction n as [|n IH]; intros; cbn [lev_sum]; [reflexivity|]. rewrite IH, sumN_add. lia. Qed.

Lemma lev_sum_zero : forall n F, (forall p, F p = 0) -> lev_sum n F = 0.
Proof. induction n as [|n IH]; intros F H; cbn [lev_sum]; [reflexivity|]. rewrite IH by assumption. rewrite sumN_zero; [reflexivity|]. intros; apply H. Qed.

Lemma lev_sum_indicator : forall n q, offset q < 2 ^ level q ->
  lev_sum n (fun p => b2n (pos_eqb q p)) = b2n ((1 <=? level q) && (level q <=? N.of_nat n)).
Proof.
  induction n as [|n IH]; intros q Vq; cbn [lev_sum].
  - destruct (1 <=? level q) eqn:A; destruct (level q <=? N.of_nat 0) eqn:B; cbn [andb b2n]; lia.
  - rewrite (IH q Vq). unfold pos_eqb. cbn [level offset].
    destruct (N.eqb_spec (level q) (N.of_nat (S n))) as [E|E]; cbn [andb].
    + rewrite sumN_indicator, <- E, N.leb_refl.
      destruct (offset q <? N.of_nat (N.to_nat (2 ^ level q))) eqn:LT; [|lia].
      destruct (1 <=? level q) eqn:A; destruct (level q <=? N.of_nat n) eqn:B; cbn [andb b2n]; lia.
    + rewrite sumN_zero by reflexivity.
      destruct (1 <=? level q) eqn:A; destruct (level q <=? N.of_nat n) eqn:B; destruct (level q <=? N.of_nat (S n)) eqn:C; cbn [andb b2n]; lia.
Qed.

(* a call in progress that has claimed (pop) or is about to credit (push) something in the tree above the leaves *)
Definition wC (th : thread) : N :=
  match tpc th with
  | PopLoad q | PopCas q _ | LeafLoad q | LeafCas q _ => b2n (1 <=? level q)
  | PushInner _ _ _ => 1
  | _ => 0
  end.

Lemma lev_sum_at : forall c q, valid c q ->
  lev_sum (N.to_nat (ilc c)) (fun p => b2n (pos_eqb q p)) = b2n (1 <=? level q).
Proof.
  intros c q [V1 V2]. rewrite (lev_sum_indicator _ q V2), N2Nat.id.
  destruct (N.leb_spec (level q) (ilc c)); [rewrite andb_true_r; reflexivity | lia].
Qed.

Definition wBusy (th : thread) : N := wHeld th + wInfl th + wC th.

Definition quiescent (l : list thread) : Prop := forall th, In th l -> tpc th = Ready \/ tpc th = Done.

Lemma after_read_none : forall q w p1 ev1, after_inner_read q w = (p1, ev1) -> In (EvRetPop None) ev1 ->
  level q = 0 /\ unpack_left w = 0 /\ unpack_right w = 0.
Proof.
  intros q w p1 ev1 A I1. unfold after_inner_read in A. destruct (inner_pop_choice w) as [[d n]|] eqn:CH.
  - inversion A; subst. destruct I1.
  - apply choice_none in CH. destruct (N.eqb_spec (level q) 0); inversion A; subst.
    + tauto.
    + destruct I1 as [F|[]]; discriminate.
Qed.

(* closes a branch of pstep whose events do not include a failed pop *)
Ltac noev E IN := inversion E; subst; clear E; cbn [In] in IN; intuition discriminate.

Lemma pstep_pop_none : forall c s p held scr s' p' held' scr' evs, cap c <> 0 ->
  pstep c s p held scr = (s', p', held', scr', evs) -> In (EvRetPop None) evs ->
  exists q, (p = PopLoad q \/ exists old, p = PopCas q old) /\ level q = 0 /\ s' = s /\
            unpack_left (word (nodes s) q) = 0 /\ unpack_right (word (nodes s) q) = 0.
Proof.
  intros c s p held scr s' p' held' scr' evs C0 E IN. unfold crash in *.
  destruct p; cbn [pstep] in E.
  - destruct (fetch held scr) as [[[] r]|].
    + destruct (N.eqb_spec (cap c) 0); [contradiction|]. noev E IN.
    + destruct ((0 <? hd 0 held) && (hd 0 held <=? cap c)); noev E IN.
    + destruct ((0 <? last held 0) && (last held 0 <=? cap c)); noev E IN.
    + noev E IN.
  - noev E IN.
  - noev E IN.
  - destruct (node_ok c p); [|noev E IN].
    destruct (after_inner_read p (getw (nodes s) (nodes_before p))) as [p1 ev1] eqn:A. inversion E; subst; clear E.
    destruct (after_read_none _ _ _ _ A IN) as (L0 & UL & UR).
    exists p. split; [left; reflexivity|]. repeat split; assumption.
  - destruct (N.eqb_spec (getw (nodes s) (nodes_before p)) old).
    + destruct (inner_pop_choice old) as [[d n]|]; [|noev E IN].
      destruct (level p <? tree_height c); noev E IN.
    + destruct (after_inner_read p (getw (nodes s) (nodes_before p))) as [p1 ev1] eqn:A. inversion E; subst; clear E.
      destruct (after_read_none _ _ _ _ A IN) as (L0 & UL & UR).
      exists p. split; [right; exists old; reflexivity|]. repeat split; assumption.
  - destruct (node_ok c p); [|noev E IN]. destruct (getw (nodes s) (nodes_before p) =? 0); noev E IN.
  - destruct (getw (nodes s) (nodes_before p) =? old); [noev E IN|]. destruct (getw (nodes s) (nodes_before p) =? 0); noev E IN.
  - destruct (((sz s + two32 - 1) mod two32 <? cap c) && (0 <? (id + 1) mod two32) && ((id + 1) mod two32 <=? cap c)); noev E IN.
  - destruct ((sz s + 1) mod two32 <=? cap c); noev E IN.
  - destruct (node_ok c _); [|noev E IN]. destruct (N.land _ _ =? 0); [|noev E IN].
    unfold next_inner_push in E. destruct (0 <? _); noev E IN.
  - destruct (node_ok c p); [|noev E IN]. destruct (_ <=? _); [|noev E IN].
    destruct (at_root p); [noev E IN|]. unfold next_inner_push in E. destruct (0 <? _); noev E IN.
Qed.

(* what the invariant gives in a state that satisfies it *)
Section Legal.
Variables (c : cfg) (total : N) (inU : N -> bool) (st : state).
Hypothesis HS : Start c total inU st.
Notation h := (ilc c).
Notation m := (nodes (sh st)).

Lemma legal_twf : forall th, In th (ths st) -> twf c th.
Proof. destruct HS as (W & T & U & I). exact (fun th => inv_twf c W total inU T U st th I). Qed.

Theorem no_crash : forall i th, nthN i (ths st) = Some th -> tpc th <> Crashed.
Proof. intros i th NT F. destruct (legal_twf th (nthN_in _ _ _ NT)) as [_ W]. rewrite F in W. exact W. Qed.

Theorem held_pages_valid : forall i th n, nthN i (ths st) = Some th -> In n (theld th) -> 1 <= n <= cap c.
Proof.
  intros i th n NT IN. destruct (legal_twf th (nthN_in _ _ _ NT)) as [W _]. rewrite Forall_forall in W. apply W, IN.
Qed.

Lemma own_le1 : forall x, x < cap c -> tsum (wH x) (ths st) <= 1.
Proof.
  intros x Hx. destruct HS as (W & _ & _ & HI). pose proof W as [_ _ W3 _].
  pose proof (inv_own _ _ _ _ HI x ltac:(lia) (leafpos_live c W x Hx)) as O.
  pose proof (b2n_le1 (inU x)). lia.
Qed.

Theorem no_double_holder : forall x i j a b, x < cap c -> i <> j ->
  nthN i (ths st) = Some a -> nthN j (ths st) = Some b -> 1 <= wH x a -> 1 <= wH x b -> False.
Proof.
  intros x i j a b Hx D Ni Nj Ha Hb.
  pose proof (tsum_two_members (wH x) _ _ _ _ _ D Ni Nj). pose proof (own_le1 x Hx). lia.
Qed.

Theorem no_page_held_twice : forall n i j a b, i <> j ->
  nthN i (ths st) = Some a -> nthN j (ths st) = Some b -> In n (theld a) -> In n (theld b) -> False.
Proof.
  intros n i j a b D Ni Nj Ia Ib.
  pose proof (held_pages_valid _ _ _ Ni Ia) as [V1 V2].
  apply (no_double_holder (n - 1) i j a b ltac:(lia) D Ni Nj).
  - unfold wH. replace (n - 1 + 1) with n by lia. pose proof (in_countN _ _ Ia). lia.
  - unfold wH. replace (n - 1 + 1) with n by lia. pose proof (in_countN _ _ Ib). lia.
Qed.

Theorem held_once : forall n i a, nthN i (ths st) = Some a -> countN n (theld a) <= 1.
Proof.
  intros n i a Ni. destruct (N.eq_dec (countN n (theld a)) 0) as [Z|Z]; [lia|].
  assert (IN : In n (theld a)) by (apply countN_in; lia).
  pose proof (held_pages_valid _ _ _ Ni IN) as [V1 V2].
  pose proof (own_le1 (n - 1) ltac:(lia)) as O.
  pose proof (tsum_member (wH (n - 1)) _ _ (nthN_in _ _ _ Ni)) as M.
  unfold wH in M at 1. replace (n - 1 + 1) with n in M by lia. lia.
Qed.

(* a free page: not in anybody's hands => its bit is set in its leaf *)
Theorem free_page_in_leaf : forall x, inU x = true -> tsum (wH x) (ths st) = 0 ->
  N.testbit (word m (leafpos c x)) (x mod 64) = true.
Proof.
  intros x U Z. destruct HS as (W & _ & IU & HI). pose proof W as [_ _ W3 _]. pose proof (IU x U) as Hx.
  pose proof (inv_own _ _ _ _ HI x ltac:(lia) (leafpos_live c W x Hx)) as O.
  rewrite Z, U in O. unfold bitfree in O. destruct (N.testbit _ _); [reflexivity | cbn [b2n] in O; lia].
Qed.

Theorem size_accounting : sz (sh st) + tsum wHeld (ths st) = total.
Proof. destruct HS as (_ & _ & _ & HI). exact (inv_sz1 _ _ _ _ HI). Qed.

Lemma thread_in_tree : forall th, In th (ths st) ->
  lev_sum (N.to_nat h) (fun p => wP p th + wU p th) = wC th.
Proof.
  intros th IN. destruct (legal_twf th IN) as [_ W]. destruct HS as (wf & _).
  rewrite lev_sum_add. unfold wP, wU, wC.
  destruct (tpc th); rewrite ?(lev_sum_zero _ (fun _ => 0)) by reflexivity; try reflexivity.
  1-4: rewrite lev_sum_at by apply W; lia.
  rewrite lev_sum_at by (apply (valid_descend c wf); apply W). cbn [level descend].
  destruct (N.leb_spec 1 (level p + 1)); [reflexivity | lia].
Qed.

(* nothing is on its way to, or pending at, a node whose parent is dead *)
Lemma dead_parent : forall p, valid c p -> 1 <= level p -> live c (ascend p) = false ->
  tsum (wP p) (ths st) = 0 /\ tsum (wU p) (ths st) = 0 /\ live c p = false.
Proof.
  intros p Vp Hl D. destruct HS as (wf & _).
  assert (LP : live c p = false).
  { destruct (live c p) eqn:L; [|reflexivity]. rewrite (live_ascend c wf p Vp Hl L) in D. discriminate. }
  split; [|split; [|assumption]].
  - apply tsum_zero. intros th IN. destruct (legal_twf th IN) as [_ W]. unfold wP.
    destruct (tpc th); try reflexivity.
    all: destruct (pos_eqb_spec p0 p) as [E|E]; [|reflexivity]; subst p0; exfalso.
    all: assert (L : live c p = true) by apply W; congruence.
  - apply tsum_zero. intros th IN. destruct (legal_twf th IN) as [_ W]. unfold wU.
    destruct (tpc th); try reflexivity.
    destruct (pos_eqb_spec (descend p0 d) p) as [E|E]; [|reflexivity]. exfalso.
    destruct W as (_ & _ & L). rewrite E in L. congruence.
Qed.

Definition level_sum (l : N) : N := sumN (N.to_nat (2 ^ l)) (fun o => gav c m (mkPos l o)).
Definition inflight (p : pos) : N := tsum (wP p) (ths st) + tsum (wU p) (ths st).

(* the counting equations of the two children of every node of level l, added up *)
Lemma level_step : forall l, l < h ->
  level_sum (l + 1) = level_sum l + sumN (N.to_nat (2 ^ (l + 1))) (fun o => inflight (mkPos (l + 1) o)).
Proof.
  intros l Hl. destruct HS as (wf & _ & _ & HI). unfold level_sum.
  set (cnt' := fun p => if live c (ascend p) then cnt_to m p else 0).
  assert (EQ : forall o, o < N.of_nat (N.to_nat (2 ^ (l + 1))) ->
               gav c m (mkPos (l + 1) o) = cnt' (mkPos (l + 1) o) + inflight (mkPos (l + 1) o)).
  { intros o Ho. set (p := mkPos (l + 1) o).
    assert (Vp : valid c p) by (split; cbn [level offset p]; lia).
    unfold cnt', inflight. destruct (live c (ascend p)) eqn:L.
    - pose proof (inv_tree _ _ _ _ HI p Vp ltac:(cbn [level p]; lia) L). lia.
    - destruct (dead_parent p Vp ltac:(cbn [level p]; lia) L) as (A & B & D). rewrite A, B. unfold gav. rewrite D. reflexivity. }
  rewrite (sumN_ext _ _ _ EQ), sumN_add. f_equal.
  rewrite pow2_succ. replace (N.to_nat (2 * 2 ^ l)) with (2 * N.to_nat (2 ^ l))%nat by lia.
  rewrite sumN_pairs. apply sumN_ext. intros j Hj.
  set (q := mkPos l j).
  assert (E0 : mkPos (l + 1) (2 * j) = descend q DLeft) by (unfold descend, q; cbn [level offset dbit]; f_equal; lia).
  assert (E1 : mkPos (l + 1) (2 * j + 1) = descend q DRight) by (unfold descend, q; cbn [level offset dbit]; f_equal; lia).
  rewrite E0, E1. unfold cnt'. rewrite !ascend_descend. unfold cnt_to. rewrite !ascdir_descend, !ascend_descend.
  unfold gav. destruct (live c q); [|reflexivity]. unfold avail. rewrite (neqb (level q) h) by (cbn [level q]; lia). reflexivity.
Qed.

Lemma level_sum_down : forall n, N.of_nat n <= h -> level_sum (N.of_nat n) = level_sum 0 + lev_sum n inflight.
Proof.
  induction n as [|n IH]; intro H.
  - cbn [lev_sum N.of_nat]. lia.
  - cbn [lev_sum]. replace (N.of_nat (S n)) with (N.of_nat n + 1) by lia.
    rewrite (level_step (N.of_nat n)) by lia. rewrite IH by lia. lia.
Qed.

(* what the root offers + the calls in progress in the tree = the free bits of the live leaves *)
Theorem root_accounting :
  (if 0 <? cap c then unpack_left (word m root) + unpack_right (word m root) else 0) + tsum wC (ths st) = Fsum c m.
Proof.
  pose proof HS as ([W1 _ _ _] & _).
  pose proof (level_sum_down (N.to_nat h) ltac:(lia)) as L. rewrite N2Nat.id in L.
  change (Fsum c m) with (level_sum h). rewrite L.
  f_equal.
  - unfold level_sum. change (N.to_nat (2 ^ 0)) with 1%nat. cbn [sumN N.of_nat]. change (mkPos 0 0) with root.
    unfold gav, live, lo, avail, lc, rc. cbn [level offset root]. rewrite (neqb 0 h) by lia.
    destruct (N.ltb_spec 0 (cap c)); destruct (N.ltb_spec (0 * span c 0) (cap c)); lia.
  - unfold inflight. rewrite lev_sum_add, !lev_sum_tsum, <- tsum_add.
    symmetry. apply tsum_ext. intros th IN. rewrite <- lev_sum_add. apply thread_in_tree, IN.
Qed.

(* every page of the pool is accounted for, at every moment *)
Theorem pool_accounting :
  (if 0 <? cap c then unpack_left (word m root) + unpack_right (word m root) else 0) + tsum wBusy (ths st) = total.
Proof.
  pose proof root_accounting as R. destruct HS as (_ & _ & _ & HI).
  pose proof (inv_sz1 _ _ _ _ HI) as S1. pose proof (inv_sz2 _ _ _ _ HI) as S2.
  unfold wBusy. rewrite !tsum_add. lia.
Qed.

(* the step in which pop() returns false reads a root whose two counters are zero and changes nothing; in the state
   it reads, every page of the pool is accounted to some process: held, being pushed, or reserved by a committed pop *)
Theorem pop_fails_only_when_no_page_free : forall t st' evs b,
  step c st t = (st', evs, b) -> In (t, EvRetPop None) evs -> cap c <> 0 ->
  sh st' = sh st /\
  unpack_left (word m root) = 0 /\ unpack_right (word m root) = 0 /\
  tsum wBusy (ths st) = total.
Proof.
  intros t st' evs b E IN C0. unfold step in E.
  destruct (nthN t (ths st)) as [th|] eqn:NT; [|inversion E; subst; destruct IN].
  destruct (terminal (tpc th)); [inversion E; subst; destruct IN|].
  destruct (pstep c (sh st) (tpc th) (theld th) (tscr th)) as [[[[s1 p1] held1] scr1] evs1] eqn:P.
  inversion E; subst; clear E.
  apply in_map_iff in IN. destruct IN as (e & EE & IN). inversion EE; subst e; clear EE.
  destruct (pstep_pop_none _ _ _ _ _ _ _ _ _ _ C0 P IN) as (q & PC & L0 & ES & UL & UR).
  destruct (legal_twf th (nthN_in _ _ _ NT)) as [_ W].
  assert (Vq : valid c q) by (destruct PC as [PC|[old PC]]; rewrite PC in W; apply W).
  rewrite (valid_level0 c (proj1 HS) q Vq L0) in *. cbn [sh]. subst s1.
  split; [reflexivity|]. split; [assumption|]. split; [assumption|].
  pose proof pool_accounting as A. rewrite UL, UR in A. destruct (0 <? cap c); lia.
Qed.

Hypothesis Q : quiescent (ths st).

Lemma quiescent_zero : forall f : thread -> N, (forall th, tpc th = Ready \/ tpc th = Done -> f th = 0) -> tsum f (ths st) = 0.
Proof. intros f H. apply tsum_zero. intros th IN. apply H, Q, IN. Qed.

Theorem quiescent_tree_exact : forall p, valid c p -> 1 <= level p -> live c (ascend p) = true ->
  cnt_to m p = gav c m p.
Proof.
  intros p Vp Hl Lp. destruct HS as (_ & _ & _ & HI). pose proof (inv_tree _ _ _ _ HI p Vp Hl Lp) as T.
  rewrite (quiescent_zero (wP p)), (quiescent_zero (wU p)) in T; [lia| |].
  - intros th [E|E]. all: unfold wU; rewrite E; reflexivity.
  - intros th [E|E]. all: unfold wP; rewrite E; reflexivity.
Qed.

(* size_ and the root counters say exactly how many pages are free *)
Theorem quiescent_free_count :
  sz (sh st) + tsum (fun th => lenN (theld th)) (ths st) = total /\
  sz (sh st) = (if 0 <? cap c then unpack_left (word m root) + unpack_right (word m root) else 0).
Proof.
  pose proof root_accounting as R. destruct HS as (_ & _ & _ & HI).
  pose proof (inv_sz1 _ _ _ _ HI) as S1. pose proof (inv_sz2 _ _ _ _ HI) as S2.
  rewrite quiescent_zero in R, S2.
  - split; [|lia]. rewrite <- S1. f_equal. apply tsum_ext. intros th IN. unfold wHeld.
    destruct (Q th IN) as [E|E]; rewrite E; lia.
  - intros th [E|E]. all: unfold wInfl; rewrite E; reflexivity.
  - intros th [E|E]. all: unfold wC; rewrite E; reflexivity.
Qed.
End Legal.

Definition forall_range (n : nat) (f : N -> bool) : bool := forallb f (map N.of_nat (seq 0 n)).
Lemma forall_range_spec : forall n f, forall_range n f = true -> forall k, k < N.of_nat n -> f k = true.
Proof.
  intros n f H k Hk. unfold forall_range in H. rewrite forallb_forall in H. apply H.
  apply in_map_iff. exists (N.to_nat k). split; [lia|]. apply in_seq. lia.
Qed.

Lemma forall_range_intro n f : (forall k, k < N.of_nat n -> f k = true) -> forall_range n f = true.
Proof.
  intros H. unfold forall_range. apply forallb_forall. intros x Hx.
  apply in_map_iff in Hx as (j & <- & Hj). apply in_seq in Hj. apply H. lia.
Qed.

Definition WFb (c : cfg) : bool :=
  (1 <=? ilc c) && (ilc c <=? 26) && (cap c <=? 64 * 2 ^ ilc c) && (cap c <? two32).
Lemma WFb_spec : forall c, WFb c = true -> WF c.
Proof. intros c H. unfold WFb in H. constructor; lia. Qed.

Definition init_okb (c : cfg) (m : list N) : bool :=
  (lenN m =? node_count c) && forallb (fun w => w <? two64) m &&
  forall_range (N.to_nat (ilc c)) (fun l0 => let l := l0 + 1 in
     forall_range (N.to_nat (2 ^ l)) (fun o => let p := mkPos l o in
        implb (live c (ascend p)) (cnt_to m p =? gav c m p))) &&
  forall_range (N.to_nat (2 ^ ilc c)) (fun o => let p := mkPos (ilc c) o in
     implb (live c p) (forall_range 64 (fun b => Bool.eqb (N.testbit (word m p) b) (o * 64 + b <? cap c)))) &&
  (Fsum c m =? cap c).

Definition all_ready (l : list thread) : Prop := forall th, In th l -> tpc th = Ready.

Lemma ready_weights : forall l, all_ready l ->
  (forall p, tsum (wP p) l = 0) /\ (forall p, tsum (wU p) l = 0) /\ tsum wInfl l = 0 /\
  tsum wHeld l = tsum (fun th => lenN (theld th)) l /\
  (forall x, tsum (wH x) l = tsum (fun th => countN (x + 1) (theld th)) l).
Proof.
  intros l R. repeat split; intros.
  - apply tsum_zero. intros th IN. unfold wP. rewrite (R th IN). reflexivity.
  - apply tsum_zero. intros th IN. unfold wU. rewrite (R th IN). reflexivity.
  - apply tsum_zero. intros th IN. unfold wInfl. rewrite (R th IN). reflexivity.
  - apply tsum_ext. intros th IN. unfold wHeld. rewrite (R th IN). lia.
  - apply tsum_ext. intros th IN. unfold wH. rewrite (R th IN). lia.
Qed.

Lemma ready_twf : forall c l, all_ready l -> (forall th, In th l -> Forall (fun n => 1 <= n <= cap c) (theld th)) -> Forall (twf c) l.
Proof.
  intros c l R V. apply Forall_forall. intros th IN. split; [apply V; assumption|]. rewrite (R th IN). exact I.
Qed.

Lemma lenN_zeros : forall n, lenN (zeros n) = N.of_nat n.
Proof. induction n as [|n IH]; simpl; [reflexivity | rewrite IH; lia]. Qed.
Lemma getw_zeros : forall n j, getw (zeros n) j = 0.
Proof. unfold getw. induction n as [|n IH]; intro j; simpl; [reflexivity|]. destruct (j =? 0); [reflexivity | apply IH]. Qed.

(* a leaf word as the constructor leaves it, its low bits set *)
Lemma popcount_ones : forall_range 65 (fun k => popcount64 (N.ones k) =? k) = true.
Proof. vm_compute. reflexivity. Qed.

(* the number of pool pages below p *)
Definition below (c : cfg) (p : pos) : N :=
  if live c p then N.min (span c (level p)) (cap c - lo c p) else 0.

(* the word the constructor leaves at a live node of a full stack *)
Definition full_word (c : cfg) (p : pos) : N :=
  if level p =? ilc c then N.ones (below c p)
  else pack (below c (descend p DLeft)) (below c (descend p DRight)).

(* init_okb stated word by word: every live node holds the word a full stack has there *)
Definition init_okw (c : cfg) (m : list N) : bool :=
  (lenN m =? node_count c) && forallb (fun w => w <? two64) m &&
  forall_range (N.to_nat (ilc c + 1)) (fun l =>
     forall_range (N.to_nat (2 ^ l)) (fun o => let p := mkPos l o in
        implb (live c p) (word m p =? full_word c p))) &&
  (sumN (N.to_nat (2 ^ ilc c)) (fun o => below c (mkPos (ilc c) o)) =? cap c).

Lemma unpack_pack : forall a b, b < two32 -> unpack_left (pack a b) = a /\ unpack_right (pack a b) = b.
Proof. intros a b H. unfold unpack_left, unpack_right, pack, two32 in *. lia. Qed.

Section FullWords.
Variable c : cfg.
Hypothesis wf : WF c.
Notation h := (ilc c).

Lemma below_le : forall p, below c p <= span c (level p).
Proof. intro p. unfold below. destruct (live c p); lia. Qed.

Lemma below_split : forall p, level p < h ->
  below c (descend p DLeft) + below c (descend p DRight) = below c p.
Proof.
  intros p Hp. unfold below, live. rewrite !(lo_descend c wf p _ Hp). cbn [level descend dbit].
  rewrite (span_half c wf _ Hp). pose proof (span_pos c wf (level p + 1)).
  destruct (N.ltb_spec (lo c p + 0 * span c (level p + 1)) (cap c));
  destruct (N.ltb_spec (lo c p + 1 * span c (level p + 1)) (cap c));
  destruct (N.ltb_spec (lo c p) (cap c)); lia.
Qed.

Variable m : list N.
Hypothesis words : forall p, valid c p -> live c p = true -> word m p = full_word c p.

Lemma full_gav : forall p, valid c p -> gav c m p = below c p.
Proof.
  intros p Vp. unfold gav. destruct (live c p) eqn:L; [|unfold below; rewrite L; reflexivity].
  unfold avail, lc, rc. rewrite (words p Vp L). unfold full_word.
  destruct (N.eqb_spec (level p) h) as [E|E].
  - pose proof (below_le p) as B. rewrite E, (span_h c wf) in B.
    apply N.eqb_eq, (forall_range_spec _ _ popcount_ones). lia.
  - assert (Hp : level p < h) by (destruct Vp; lia).
    pose proof (below_le (descend p DRight)) as B. cbn [level descend] in B.
    pose proof (span_small c wf (level p + 1) ltac:(lia)).
    destruct (unpack_pack (below c (descend p DLeft)) (below c (descend p DRight)) ltac:(unfold two32; lia)) as [-> ->].
    apply below_split, Hp.
Qed.

Lemma full_cnt_to : forall p, valid c p -> 1 <= level p -> live c (ascend p) = true -> cnt_to m p = below c p.
Proof.
  intros p Vp Hl L. pose proof (valid_ascend c wf p Vp) as Va.
  unfold cnt_to, lc, rc. rewrite (words _ Va L). unfold full_word.
  rewrite (neqb (level (ascend p)) h) by (destruct Vp; cbn [level ascend]; lia).
  pose proof (below_le (descend (ascend p) DRight)) as B. cbn [level descend ascend] in B.
  pose proof (span_small c wf (level p - 1 + 1) ltac:(lia)).
  destruct (unpack_pack (below c (descend (ascend p) DLeft)) (below c (descend (ascend p) DRight)) ltac:(unfold two32; lia)) as [EL ER].
  transitivity (below c (descend (ascend p) (ascend_direction p))); [|rewrite (descend_ascend p Hl); reflexivity].
  destruct (ascend_direction p); assumption.
Qed.
End FullWords.

Lemma init_okw_sound : forall c m, WF c -> init_okw c m = true -> init_okb c m = true.
Proof.
  intros c m W OK. unfold init_okw in OK. unfold init_okb.
  apply andb_prop in OK as [OK O5]. apply andb_prop in OK as [O12 O3].
  assert (words : forall p, valid c p -> live c p = true -> word m p = full_word c p).
  { intros p [V1 V2] L. pose proof (forall_range_spec _ _ O3 (level p) ltac:(lia)) as A. cbv beta in A.
    pose proof (forall_range_spec _ _ A (offset p) ltac:(lia)) as B. cbv beta zeta in B.
    rewrite pos_eta, L in B. apply N.eqb_eq, B. }
  rewrite O12. cbn [andb]. repeat (apply andb_true_intro; split).
  - apply forall_range_intro. intros l0 Hl0. cbv beta zeta. apply forall_range_intro. intros o Ho.
    set (p := mkPos (l0 + 1) o). assert (Vp : valid c p) by (split; cbn [level offset p]; lia).
    destruct (live c (ascend p)) eqn:L; [|reflexivity]. cbn [implb]. apply N.eqb_eq.
    rewrite (full_cnt_to c W m words p Vp ltac:(cbn [level p]; lia) L). symmetry. apply (full_gav c W m words p Vp).
  - apply forall_range_intro. intros o Ho. cbv beta zeta.
    set (p := mkPos (ilc c) o). assert (Vp : valid c p) by (split; cbn [level offset p]; lia).
    destruct (live c p) eqn:L; [|reflexivity]. cbn [implb]. rewrite (words p Vp L).
    unfold full_word, below. cbn [level p]. rewrite N.eqb_refl. fold p. rewrite L.
    unfold lo. cbn [level offset p]. rewrite (span_h c W).
    apply forall_range_intro. intros b Hb. rewrite of_nat_64 in Hb. apply Bool.eqb_true_iff.
    destruct (N.ltb_spec b (N.min 64 (cap c - o * 64))) as [Lb|Lb].
    + rewrite N.ones_spec_low by exact Lb. lia.
    + rewrite N.ones_spec_high by exact Lb. lia.
  - unfold Fsum. rewrite (sumN_ext _ _ (fun o => below c (mkPos (ilc c) o))); [exact O5|].
    intros o Ho. apply (full_gav c W m words). split; cbn [level offset]; lia.
Qed.

Definition ctor_okw (capacity : N) : bool :=
  let c := measure capacity in
  WFb c &&
  match construct c true with
  | Some s0 => (sz s0 =? capacity) && init_okw c (nodes s0)
  | None => false
  end.

Definition all_in_pool (capacity : N) : N -> bool := fun x => x <? capacity.

Theorem start_full : forall c m l, WF c -> init_okb c m = true ->
  all_ready l -> (forall th, In th l -> theld th = []) ->
  Start c (cap c) (all_in_pool (cap c)) (mkState (mkShared (cap c) m) l).
Proof.
  intros c m l W OK R HE. split; [assumption|]. split; [lia|]. split; [intros x H; unfold all_in_pool in H; lia|].
  change (all_in_pool (cap c)) with (fun x => x <? cap c). unfold init_okb in OK.
  apply andb_prop in OK as [OK O5]. apply andb_prop in OK as [OK O4].
  apply andb_prop in OK as [OK O3]. apply andb_prop in OK as [O1 O2].
  destruct (ready_weights l R) as (WP0 & WU0 & WI0 & WL0 & WH0).
  assert (HZ : forall (f : thread -> N), (forall th, theld th = [] -> f th = 0) -> tsum f l = 0).
  { intros f Hf. apply tsum_zero. intros th IN. apply Hf. apply HE. assumption. }
  constructor; cbn [sh ths nodes sz].
  - lia.
  - intro j. unfold getw. destruct (nthN j m) eqn:NJ; [|reflexivity].
    rewrite forallb_forall in O2. apply N.ltb_lt, O2, (nthN_in _ _ _ NJ).
  - apply ready_twf; [assumption|]. intros th IN. rewrite (HE th IN). constructor.
  - intros p [V1 V2] Hl Lp. rewrite WP0, WU0.
    pose proof (forall_range_spec _ _ O3 (level p - 1) ltac:(lia)) as A. cbn beta zeta in A.
    replace (level p - 1 + 1) with (level p) in A by lia.
    pose proof (forall_range_spec _ _ A (offset p) ltac:(lia)) as B. cbn beta zeta in B.
    rewrite pos_eta, Lp in B. cbn [implb] in B. lia.
  - intros x Hx Lx. rewrite WH0. rewrite HZ by (intros th E; rewrite E; reflexivity).
    pose proof (h_bounds c W) as [_ HB].
    pose proof (forall_range_spec _ _ O4 (x / 64) ltac:(lia)) as A. cbn beta zeta in A.
    change (mkPos (ilc c) (x / 64)) with (leafpos c x) in A. rewrite Lx in A. cbn [implb] in A.
    pose proof (forall_range_spec _ _ A (x mod 64) ltac:(rewrite of_nat_64; lia)) as B. cbn beta in B.
    replace (x / 64 * 64 + x mod 64) with x in B by lia.
    unfold bitfree. apply Bool.eqb_prop in B. rewrite B. lia.
  - rewrite WL0. rewrite HZ by (intros th E; rewrite E; reflexivity). lia.
  - rewrite WI0. lia.
Qed.

(* created empty: the pages are in the hands of the clients *)
Theorem start_empty : forall c inU l, WF c ->
  all_ready l -> (forall th, In th l -> Forall (fun n => 1 <= n <= cap c) (theld th)) ->
  (forall x, tsum (fun th => countN (x + 1) (theld th)) l = b2n (inU x)) ->
  (forall x, inU x = true -> x < cap c) ->
  tsum (fun th => lenN (theld th)) l <= cap c ->
  Start c (tsum (fun th => lenN (theld th)) l) inU (mkState (mkShared 0 (zeros (N.to_nat (node_count c)))) l).
Proof.
  intros c inU l W R V HC HU HT. split; [assumption|]. split; [assumption|]. split; [assumption|].
  destruct (ready_weights l R) as (WP0 & WU0 & WI0 & WL0 & WH0).
  assert (WZ : forall p, word (zeros (N.to_nat (node_count c))) p = 0) by (intro p; apply getw_zeros).
  assert (GZ : forall p, gav c (zeros (N.to_nat (node_count c))) p = 0).
  { intro p. unfold gav, avail, lc, rc. rewrite WZ. rewrite popcount_zero. destruct (live c p); [|reflexivity].
    destruct (level p =? ilc c); reflexivity. }
  constructor; cbn [sh ths nodes sz].
  - rewrite lenN_zeros. lia.
  - intro j. rewrite getw_zeros. reflexivity.
  - apply ready_twf; assumption.
  - intros p Vp Hl Lp. rewrite WP0, WU0, GZ. unfold cnt_to, lc, rc. rewrite WZ. destruct (ascend_direction p); reflexivity.
  - intros x Hx Lx. rewrite WH0, HC. unfold bitfree. rewrite WZ, N.bits_0. reflexivity.
  - rewrite WL0. lia.
  - rewrite WI0. unfold Fsum. rewrite sumN_zero; [reflexivity|]. intros. apply GZ.
Qed.

(* the real constructor (fillAllNodes + truncateExtras as modelled) yields a start state: checked by computation for capacities 0..1100 *)
Definition ctor_bound : nat := 1101.
Lemma ctor_sweep : forall_range ctor_bound ctor_okw = true.
Proof. vm_compute. reflexivity. Qed.

Theorem ctor_start_upto : forall capacity l, capacity <= 1100 ->
  all_ready l -> (forall th, In th l -> theld th = []) ->
  exists s0, construct (measure capacity) true = Some s0 /\
             Start (measure capacity) capacity (all_in_pool capacity) (mkState s0 l).
Proof.
  intros capacity l H R HE.
  pose proof (forall_range_spec _ _ ctor_sweep capacity ltac:(unfold ctor_bound; lia)) as OK.
  unfold ctor_okw in OK. apply andb_prop in OK as [W OK]. apply WFb_spec in W.
  destruct (construct (measure capacity) true) as [s0|]; [|discriminate].
  apply andb_prop in OK as [SZ OK]. apply (init_okw_sound _ _ W) in OK. exists s0. split; [reflexivity|].
  destruct s0 as [z m]. cbn [sz nodes] in *. assert (z = capacity) by lia. subst z.
  change capacity with (cap (measure capacity)) at 2 3 4. apply start_full; assumption.
Qed.
