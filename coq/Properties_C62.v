(* Properties_C62.v — C62: header size limits are enforced before forwarding.
   Statements, closed by `exact` or by the few lines that assemble them; proofs live in ReqparseProofs.v (vocabulary: see Properties_C21.v).

   Request half (parser level; [limit] = request_header_max_size): a request is only ever accepted
   (Done = handed on towards forwarding) when its request line is shorter than the limit and
   method + target + 12 + header-block bytes stay below the limit — for every way the bytes arrive;
   a parser that keeps waiting never holds limit bytes; rejections carry 400/414/431, an over-long line
   with a well-formed method 414, anything after an accepted request line 431.
   Reply half ([limit] = reply_header_max_size): the decision function of grabMimeBlock as reached from
   HttpStateData::processReplyHeader. The end-to-end behaviour (error page instead of forwarding / relaying)
   rests on the correspondence run against the real squid binary (checks/c62.py). *)
Require Import SquidV.Bytes SquidV.TokModel SquidV.Incremental SquidV.ReqparseModel SquidV.ReqparseProofs.
Require Import SquidV.gen.CharSets_gen SquidV.gen.ReqTabs_gen.
Local Open Scope N_scope.

(* --- accepted => within the limits; stated on the raw input bytes:
       input = tolerated empty lines ++ request line ++ LF ++ header block ++ unconsumed rest --- *)
Theorem C62_accepted_request_within_limits : forall relaxed limit input f rest,
  lenN input <= npos ->
  parse_whole relaxed limit input = Done f rest ->
  exists lead line block,
    input = lead ++ line ++ [10] ++ block ++ rest /\
    forallb (fun c => (c =? 13) || (c =? 10)) lead = true /\
    forallb (fun c => negb (c =? 10)) line = true /\
    lenN line < limit /\
    (if f_http f && (f_major f =? 1)
     then lenN (f_mimg f) + lenN (f_uri f) + req_fls_extra + lenN block < limit
     else block = []).
Proof. intros relaxed limit input f rest _. apply accepted_request_within_limits. Qed.

(* the same for EVERY segmentation of the input (oversized requests are never accepted, however they arrive) *)
Theorem C62_oversized_never_accepted_any_segmentation : forall relaxed limit, req_max_method + 2 <= limit ->
  forall segs f rest, segs <> [] -> lenN (concat segs) <= npos ->
  parse_segments relaxed limit segs = Done f rest ->
  exists lead line block,
    concat segs = lead ++ line ++ [10] ++ block ++ rest /\
    forallb (fun c => (c =? 13) || (c =? 10)) lead = true /\
    forallb (fun c => negb (c =? 10)) line = true /\
    lenN line < limit /\
    (if f_http f && (f_major f =? 1)
     then lenN (f_mimg f) + lenN (f_uri f) + req_fls_extra + lenN block < limit
     else block = []).
Proof. exact accepted_segments_within_limits. Qed.

(* a parser that still waits for data holds fewer than limit bytes (so an endless head is cut off at the limit) *)
Theorem C62_waiting_parser_below_limit : forall relaxed limit, req_max_method + 2 <= limit ->
  forall segs s keep, segs <> [] -> lenN (concat segs) <= npos ->
  parse_segments relaxed limit segs = More s keep -> lenN keep < limit.
Proof.
  intros relaxed limit Hl segs s keep Hne Hf H. pose proof (segments_bounded relaxed limit segs Hl Hne Hf) as B.
  now rewrite H in B.
Qed.

(* every rejection carries 400, 414 or 431 *)
Theorem C62_reject_status_400_414_431 : forall relaxed limit, req_max_method + 2 <= limit ->
  forall segs c f, segs <> [] -> lenN (concat segs) <= npos ->
  parse_segments relaxed limit segs = Bad (c, f) ->
  c = rq_sc_bad_request \/ c = rq_sc_uri_too_long \/ c = rq_sc_fields_too_large.
Proof.
  intros relaxed limit Hl segs c f Hne Hf H. pose proof (segments_bounded relaxed limit segs Hl Hne Hf) as B.
  now rewrite H in B.
Qed.

(* method SP target... with no LF within the first limit bytes: 414 *)
Theorem C62_overlong_line_answered_414 : forall relaxed limit m c u tail,
  req_max_method + 2 <= limit ->
  m <> [] -> forallb cs_TCHAR m = true -> lenN m <= req_max_method ->
  delim relaxed c = false ->
  forallb (fun b => negb (b =? 10)) (m ++ 32 :: c :: u) = true ->
  limit <= lenN (m ++ 32 :: c :: u) -> lenN ((m ++ 32 :: c :: u) ++ tail) <= npos ->
  exists f, parse_whole relaxed limit ((m ++ 32 :: c :: u) ++ tail) = Bad (rq_sc_uri_too_long, f).
Proof. exact overlong_line_414. Qed.

(* once the request line has been accepted the only possible rejection is 431 *)
Theorem C62_header_block_rejection_is_431 : forall relaxed limit, req_max_method + 2 <= limit ->
  forall head s keep x c f, lenN (head ++ x) <= npos ->
  parse_whole relaxed limit head = More s keep -> r_stage s = SMime ->
  parse_whole relaxed limit (head ++ x) = Bad (c, f) -> c = rq_sc_fields_too_large.
Proof. exact header_block_rejection_is_431. Qed.

(* --- reply half --- *)
Theorem C62_reply_relayed_only_within_limit : forall limit fls buf n,
  resp_head_decision limit fls buf = RHrelay n -> fls + n < limit /\ 0 < n /\ n <= lenN buf.
Proof. exact resp_relay_within_limit. Qed.

Theorem C62_reply_decision_stable : forall limit fls buf x,
  (forall n, resp_head_decision limit fls buf = RHrelay n -> resp_head_decision limit fls (buf ++ x) = RHrelay n) /\
  (resp_head_decision limit fls buf = RHtoobig -> resp_head_decision limit fls (buf ++ x) = RHtoobig) /\
  (resp_head_decision limit fls buf = RHmore -> lenN buf + fls < limit).
Proof. exact resp_decision_stable. Qed.

(* non-vacuity (limit 64):  "GET /a HTTP/1.1\r\nH: v\r\n\r\n" is accepted;
   the same line followed by a 50-byte header block is rejected with 431 *)
Example C62_example_accepted : exists f,
  parse_whole true 64 [71;69;84;32;47;97;32;72;84;84;80;47;49;46;49;13;10;72;58;32;118;13;10;13;10] = Done f [] /\
  f_http f && (f_major f =? 1) = true.
Proof. eexists. split; vm_compute; reflexivity. Qed.
Example C62_example_431 : exists f,
  parse_whole true 64 ([71;69;84;32;47;97;32;72;84;84;80;47;49;46;49;13;10;72;58;32] ++ repeat 118 44 ++ [13;10;13;10])
  = Bad (rq_sc_fields_too_large, f).
Proof. eexists. vm_compute. reflexivity. Qed.
Example C62_example_414_hyps :
  forallb cs_TCHAR [71;69;84] = true /\ delim true 47 = false /\ lenN [71;69;84] <= req_max_method.
Proof. vm_compute. repeat split; discriminate. Qed.

Print Assumptions C62_accepted_request_within_limits.
Print Assumptions C62_oversized_never_accepted_any_segmentation.
Print Assumptions C62_waiting_parser_below_limit.
Print Assumptions C62_reject_status_400_414_431.
Print Assumptions C62_overlong_line_answered_414.
Print Assumptions C62_header_block_rejection_is_431.
Print Assumptions C62_reply_relayed_only_within_limit.
Print Assumptions C62_reply_decision_stable.
