(* C16 with slot reuse, purges and overwrites, for a finite family of workloads of the rock crash model: at every
   crash point at which no same-key overwrite is in flight, every hit is the full stream of a completely written
   session with that key. The family is evaluated along its prefix tree; that is sound because a crash point inside
   the writes of a prefix of a workload is a crash point of that prefix (DiskcrashProofs.hit_after_app). *)
Require Import SquidV.Bytes.
Require Import SquidV.DiskcrashModel SquidV.DiskcrashProofs.
Require Import ZifyBool ZifyNat.
Local Open Scope Z_scope.

Definition completed_b (P : Z) (ss : list session) (n : nat) (s : session) : bool :=
  existsb (fun sm => (s_obj (fst sm) =? s_obj s) && (snd sm =? nwrites P (fst sm))%nat) (split_n P ss n).

Fixpoint atoms_eqb (a b : list atom) : bool :=
  match a, b with
  | [], [] => true
  | x :: a', y :: b' => atom_eqb x y && atoms_eqb a' b'
  | _, _ => false
  end.

(* the hit for key k after the crash is the full stream of a completed session with that key (or there is no hit) *)
Definition hit_ok_b (N P : Z) (ss : list session) (n : nat) (k : key) : bool :=
  match hit_after N P ss n None k with
  | None => true
  | Some c => existsb (fun s => completed_b P ss n s && key_eqb (s_key s) k && atoms_eqb c (full_stream s)) ss
  end.

(* the session whose writes are cut by the crash, if any *)
Definition inflight (P : Z) (ss : list session) (n : nat) : option session :=
  match find (fun sm => (0 <? snd sm)%nat && (snd sm <? nwrites P (fst sm))%nat) (split_n P ss n) with
  | Some sm => Some (fst sm)
  | None => None
  end.

(* "a same-key overwrite is in flight at the crash": the cut session's key was stored before *)
Fixpoint stored_before (ss : list session) (s : session) : bool :=
  match ss with
  | [] => false
  | x :: r => if s_obj x =? s_obj s then false else key_eqb (s_key x) (s_key s) || stored_before r s
  end.

Definition overwrite_inflight (P : Z) (ss : list session) (n : nat) : bool :=
  match inflight P ss n with Some s => stored_before ss s | None => false end.

(* Family: 8 slots of 2 payload bytes, two keys (filenos 1 and 2), operations = store of a fresh object of 1..6
   stream bytes (1..3 slots) under one of the keys, or purge of a key; ALL workloads of at most [len] operations, ALL
   crash points at write boundaries, both keys queried. *)
Definition fam_keys : list key := [(1, 0); (2, 0)].
Definition fam_ops (o : Z) : list op :=
  flat_map (fun k => OPurge k :: map (fun len => OStore k o o len 1 0) [1; 2; 3; 4; 5; 6]) fam_keys.
Fixpoint fam_workloads (len : nat) (o : Z) : list (list op) :=
  match len with
  | O => [[]]
  | S l => [] :: flat_map (fun x => map (cons x) (fam_workloads l (o + 1))) (fam_ops o)
  end.

(* the check for one workload: every crash point at a write boundary, every key. sweep_gen_spec says what it
   establishes; sweep_tree below evaluates the same crash points along the prefix tree of the family *)
Definition sweep_gen (N P : Z) (keys : list key) (ops : list op) : bool :=
  let ss := sessions_of N P ops in
  let total := length (all_writes P ss) in
  forallb (fun n => overwrite_inflight P ss n || forallb (hit_ok_b N P ss n) keys) (seq 0 (S total)).

Definition sweep_one (ops : list op) : bool := sweep_gen 8 2 fam_keys ops.

Definition sweep (len : nat) : bool := forallb sweep_one (fam_workloads len 1).

Lemma atoms_eqb_eq : forall a b, atoms_eqb a b = true -> a = b.
Proof.
  induction a as [|[o i] a IH]; intros [|[o' i'] b] H; cbn [atoms_eqb] in H; try discriminate H; [reflexivity|].
  apply andb_prop in H. destruct H as [H1 H2]. unfold atom_eqb in H1. cbn [fst snd] in H1.
  apply andb_prop in H1. destruct H1 as [Ho Hi]. apply Z.eqb_eq in Ho, Hi. subst. f_equal. apply IH, H2.
Qed.

(* what the sweep asks of one workload (given by its sessions) and one crash point *)
Definition sound_at (N P : Z) (keys : list key) (ss : list session) (n : nat) : Prop :=
  overwrite_inflight P ss n = false ->
  forall k, In k keys ->
  forall c, hit_after N P ss n None k = Some c ->
  exists s, In s ss /\ completed_b P ss n s = true /\ s_key s = k /\ c = full_stream s.

(* one crash image and one rebuild serve the queries for all keys (hit_after would build both again for every key) *)
Definition hit_ok_r (N P : Z) (ss : list session) (n : nat) (dk : disk) (r : rst) (k : key) : bool :=
  match hit N (oinfo_of ss) dk r k with
  | None => true
  | Some c => existsb (fun s => completed_b P ss n s && key_eqb (s_key s) k && atoms_eqb c (full_stream s)) ss
  end.

Definition point_ok (N P : Z) (keys : list key) (ss : list session) (ws : list wr) (n : nat) : bool :=
  overwrite_inflight P ss n ||
  (let dk := crash_disk ws n None in let r := rebuild N P (oinfo_of ss) dk in forallb (hit_ok_r N P ss n dk r) keys).

Lemma point_ok_sound : forall N P keys ss n, point_ok N P keys ss (all_writes P ss) n = true -> sound_at N P keys ss n.
Proof.
  intros N P keys ss n H Hov k Hk c Hc. unfold point_ok in H. rewrite Hov in H. cbn [orb] in H. cbv zeta in H.
  rewrite forallb_forall in H. specialize (H k Hk). unfold hit_ok_r in H. fold (hit_after N P ss n None k) in H.
  rewrite Hc in H. apply existsb_exists in H. destruct H as (s & Hin_s & Hs).
  apply andb_prop in Hs. destruct Hs as [Hs Heq]. apply andb_prop in Hs. destruct Hs as [Hcomp Hkey].
  exists s. repeat split; auto using key_eqb_true, atoms_eqb_eq.
Qed.

(* crash points before the writes of ss2 mean the same for ss1 ++ ss2 as for ss1 *)
Lemma split_n_app : forall P ss1 ss2 n,
  split_n P (ss1 ++ ss2) n = split_n P ss1 n ++ split_n P ss2 (n - length (all_writes P ss1)).
Proof.
  induction ss1 as [|s ss1 IH]; intros ss2 n; cbn [app split_n]; [rewrite Nat.sub_0_r; reflexivity|].
  rewrite IH. change (all_writes P (s :: ss1)) with (writes_of P s ++ all_writes P ss1).
  rewrite app_length. fold (nwrites P s). rewrite Nat.sub_add_distr. reflexivity.
Qed.

Lemma split_n_0 : forall P ss sm, In sm (split_n P ss 0) -> snd sm = 0%nat.
Proof.
  induction ss as [|s ss IH]; intros sm H; [destruct H|]. cbn [split_n] in H. destruct H as [<- | H]; [reflexivity|].
  apply IH. exact H.
Qed.

Lemma inflight_app : forall P ss1 ss2 n, (n <= length (all_writes P ss1))%nat ->
  inflight P (ss1 ++ ss2) n = inflight P ss1 n.
Proof.
  intros P ss1 ss2 n Hn. unfold inflight. rewrite split_n_app, find_app.
  replace (n - length (all_writes P ss1))%nat with 0%nat by lia.
  destruct (find _ (split_n P ss1 n)); [reflexivity|]. rewrite find_all_false; [reflexivity|].
  intros sm Hsm. rewrite (split_n_0 P ss2 sm Hsm). reflexivity.
Qed.

Lemma inflight_in : forall P ss n s, inflight P ss n = Some s -> In s ss.
Proof.
  intros P ss n s H. unfold inflight in H. destruct (find _ (split_n P ss n)) as [sm|] eqn:E; [|discriminate H].
  injection H as <-. apply find_some in E. rewrite <- (split_n_fst P ss n). apply in_map, E.
Qed.

Lemma stored_before_app : forall ss1 ss2 s, In s ss1 -> stored_before (ss1 ++ ss2) s = stored_before ss1 s.
Proof.
  induction ss1 as [|x ss1 IH]; intros ss2 s Hs; [destruct Hs|]. cbn [app stored_before].
  destruct (s_obj x =? s_obj s) eqn:E; [reflexivity|]. rewrite IH; [reflexivity|].
  destruct Hs as [-> | Hs]; [lia| exact Hs].
Qed.

Lemma overwrite_inflight_app : forall P ss1 ss2 n, (n <= length (all_writes P ss1))%nat ->
  overwrite_inflight P (ss1 ++ ss2) n = overwrite_inflight P ss1 n.
Proof.
  intros P ss1 ss2 n Hn. unfold overwrite_inflight. rewrite inflight_app by exact Hn.
  destruct (inflight P ss1 n) as [s|] eqn:E; [|reflexivity]. apply stored_before_app, (inflight_in P ss1 n s E).
Qed.

Lemma completed_b_app : forall P ss1 ss2 n s, completed_b P ss1 n s = true -> completed_b P (ss1 ++ ss2) n s = true.
Proof.
  intros P ss1 ss2 n s H. unfold completed_b in *. rewrite split_n_app, existsb_app, H. reflexivity.
Qed.

Lemma sound_at_app : forall N P keys ss1 ss2 n,
  (n <= length (all_writes P ss1))%nat -> (forall s, In s ss2 -> s_obj s <> 0) ->
  sound_at N P keys ss1 n -> sound_at N P keys (ss1 ++ ss2) n.
Proof.
  intros N P keys ss1 ss2 n Hn H0 H Hov k Hk c Hc.
  rewrite overwrite_inflight_app in Hov by exact Hn. rewrite hit_after_app in Hc by assumption.
  destruct (H Hov k Hk c Hc) as (s & Hs & Hcomp & Hkey & Hfull).
  exists s. split; [apply in_or_app; left; exact Hs|]. split; [apply completed_b_app, Hcomp| auto].
Qed.

(* the family as a tree: every operation is run once, from the state its prefix reached, and only the crash points
   within the writes of the session it adds are evaluated; the earlier ones were evaluated at the prefix *)
Fixpoint sweep_tree (N P : Z) (keys : list key) (len : nat) (o : Z) (m : mem) (ss : list session) (nw : nat) : bool :=
  match len with
  | O => true
  | S l =>
    forallb (fun x =>
      match step_op N P m x with
      | (m1, None) => sweep_tree N P keys l (o + 1) m1 ss nw
      | (m1, Some s) =>
        let ss' := ss ++ [s] in
        let ws := all_writes P ss' in
        let nw' := length ws in
        forallb (point_ok N P keys ss' ws) (seq (S nw) (nw' - nw)) && sweep_tree N P keys l (o + 1) m1 ss' nw'
      end) (fam_ops o)
  end.

Lemma fam_ops_obj : forall o k o' ver len mlen ssz, In (OStore k o' ver len mlen ssz) (fam_ops o) -> o' = o.
Proof.
  intros o k o' ver len mlen ssz H. unfold fam_ops, fam_keys in H. cbn [flat_map map app In] in H.
  repeat (destruct H as [H | H]; [congruence|]). destruct H.
Qed.

Lemma step_op_obj : forall N P m x m1 s, step_op N P m x = (m1, Some s) ->
  exists k ver len mlen ssz, x = OStore k (s_obj s) ver len mlen ssz.
Proof.
  intros N P m [k o ver len mlen ssz | k] m1 s H; cbn [step_op] in H.
  - destruct (pop_n _ _ _) as [[pops m2]|]; [|discriminate H]. injection H as _ <-. cbn [s_obj]. eauto 6.
  - destruct (match a_state _ with AReadable => _ | _ => false end); discriminate H.
Qed.

Lemma run_ops_snoc : forall N P p x m ss m1 so, run_ops N P mem0 p = (m, ss) -> step_op N P m x = (m1, so) ->
  run_ops N P mem0 (p ++ [x]) = (m1, ss ++ match so with Some s => [s] | None => [] end).
Proof.
  intros N P p x m ss m1 so Hp Hx. rewrite run_ops_app, Hp. cbn [run_ops]. rewrite Hx. destruct so; reflexivity.
Qed.

Lemma sweep_tree_sound : forall N P keys len o m ss nw p,
  0 < o -> run_ops N P mem0 p = (m, ss) -> nw = length (all_writes P ss) ->
  (forall n, (n <= nw)%nat -> sound_at N P keys ss n) ->
  sweep_tree N P keys len o m ss nw = true ->
  forall q, In q (fam_workloads len o) ->
  forall n, (n <= length (all_writes P (sessions_of N P (p ++ q))))%nat -> sound_at N P keys (sessions_of N P (p ++ q)) n.
Proof.
  induction len as [|l IH]; intros o m ss nw p Ho Hp Hnw Hold Ht q Hq.
  - destruct Hq as [<- | []]. rewrite app_nil_r. unfold sessions_of. rewrite Hp. cbn [snd]. subst nw. exact Hold.
  - cbn [fam_workloads] in Hq. destruct Hq as [<- | Hq].
    { rewrite app_nil_r. unfold sessions_of. rewrite Hp. cbn [snd]. subst nw. exact Hold. }
    apply in_flat_map in Hq. destruct Hq as (x & Hx & Hq). apply in_map_iff in Hq. destruct Hq as (q' & <- & Hq').
    cbn [sweep_tree] in Ht. rewrite forallb_forall in Ht. specialize (Ht x Hx).
    replace (p ++ x :: q') with ((p ++ [x]) ++ q') by (rewrite <- app_assoc; reflexivity).
    destruct (step_op N P m x) as [m1 [s|]] eqn:Es.
    + pose proof (run_ops_snoc N P p x m ss m1 _ Hp Es) as Hp'. cbv zeta in Ht. apply andb_prop in Ht. destruct Ht as [Hnew Ht].
      apply (IH (o + 1) m1 (ss ++ [s]) (length (all_writes P (ss ++ [s]))) (p ++ [x])); auto; [lia|].
      intros n Hn. destruct (Nat.le_gt_cases n nw) as [Hle | Hgt].
      * apply sound_at_app; [lia| | apply Hold, Hle]. intros s' [<- | []].
        destruct (step_op_obj N P m x m1 s Es) as (k & ver & len & mlen & ssz & ->).
        rewrite (fam_ops_obj o _ _ _ _ _ _ Hx). lia.
      * apply point_ok_sound. rewrite forallb_forall in Hnew. apply Hnew. apply in_seq. lia.
    + pose proof (run_ops_snoc N P p x m ss m1 _ Hp Es) as Hp'. rewrite app_nil_r in Hp'.
      apply (IH (o + 1) m1 ss nw (p ++ [x])); auto. lia.
Qed.

Lemma sweep_gen_spec : forall N P keys ops, sweep_gen N P keys ops = true ->
  forall n, (n <= length (all_writes P (sessions_of N P ops)))%nat -> sound_at N P keys (sessions_of N P ops) n.
Proof.
  intros N P keys ops H n Hn. unfold sweep_gen in H. cbv zeta in H. rewrite forallb_forall in H.
  apply point_ok_sound. apply (H n). apply in_seq. lia.
Qed.

(* fam_workloads 4 1 has 41371 workloads (14 operations per position, lengths 0..4), one per node of the tree *)
Lemma sweep4 : point_ok 8 2 fam_keys [] [] 0 && sweep_tree 8 2 fam_keys 4 1 mem0 [] 0 = true.
Proof. vm_compute. reflexivity. Qed.

(* For every workload of the family, every crash point at a write boundary at which no same-key overwrite is in
   flight, and both keys: a hit after recovery is the full stream of a session with that key all of whose writes
   are among the first n. *)
Lemma sweep_sound :
  forall ops, In ops (fam_workloads 4 1) ->
  forall n, (n <= length (all_writes 2 (sessions_of 8 2 ops)))%nat ->
  overwrite_inflight 2 (sessions_of 8 2 ops) n = false ->
  forall k, In k fam_keys ->
  forall c, hit_after 8 2 (sessions_of 8 2 ops) n None k = Some c ->
  exists s, In s (sessions_of 8 2 ops) /\ completed_b 2 (sessions_of 8 2 ops) n s = true /\ s_key s = k /\
            c = full_stream s.
Proof.
  pose proof sweep4 as H. apply andb_prop in H. destruct H as [H0 Ht]. intros ops Hops n Hn.
  apply (sweep_tree_sound 8 2 fam_keys 4 1 mem0 [] 0 [] ltac:(lia) eq_refl eq_refl) with (q := ops); auto.
  intros n0 Hn0. replace n0 with 0%nat by lia. apply point_ok_sound, H0.
Qed.
