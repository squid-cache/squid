(* LoopmfProofs.v — proofs about LoopmfModel (C63). *)
Require Import SquidV.Bytes SquidV.HopModel SquidV.HopProofs SquidV.LoopmfModel.
Require Import SquidV.gen.HdrTable_gen SquidV.gen.Loopmf_gen.
Require Import ZifyBool ZifyN ZifyNat.
Local Open Scope N_scope.
Ltac Zify.zify_post_hook ::= Z.div_mod_to_equations.

Lemma starts_with_spec l p : starts_with l p = true <-> exists r, l = p ++ r.
Proof. split; [intros H; eexists; apply starts_with_split, H | intros [r ->]; apply starts_with_app]. Qed.

(* the strstr model finds the needle iff the text is  a ++ needle ++ b  for some a, b *)
Lemma is_substr_spec n h : is_substr n h = true <-> exists a b, h = a ++ n ++ b.
Proof.
  split.
  - induction h as [|x h IH]; cbn [is_substr]; intros H; apply orb_true_iff in H; destruct H as [H|H];
      try (apply starts_with_spec in H; destruct H as [r Hr]; exists [], r; exact Hr); [discriminate|].
    apply IH in H. destruct H as [a [b Hab]]. exists (x :: a), b. cbn [app]. now rewrite Hab.
  - intros [a [b Hab]]. subst h. induction a as [|x a IH].
    + cbn [app]. destruct (n ++ b) eqn:E; cbn [is_substr]; apply orb_true_iff; left; apply starts_with_spec; exists b; now rewrite E.
    + cbn [app is_substr]. apply orb_true_iff. right. exact IH.
Qed.

Definition nz (ch : N) : bool := negb (ch =? 0).
Definition nonul (l : bytes) : bool := forallb nz l.

Lemma c_str_app_nonul a b : nonul a = true -> c_str (a ++ b) = a ++ c_str b.
Proof.
  unfold c_str, nonul. induction a as [|x a IH]; intros H; cbn [app]; [reflexivity|].
  cbn [forallb] in H. apply andb_true_iff in H. destruct H as [Hx Ha].
  cbn [span]. unfold nz in Hx. rewrite Hx. specialize (IH Ha).
  destruct (span (fun c : N => negb (c =? 0)) (a ++ b)) as [u v] eqn:E. cbn [fst] in *. now rewrite IH.
Qed.

Lemma nonul_c_str l : nonul (c_str l) = true.
Proof. unfold c_str, nonul, nz. apply (span_all (fun c : N => negb (c =? 0))). Qed.

Lemma nonul_app a b : nonul (a ++ b) = nonul a && nonul b.
Proof. unfold nonul. apply forallb_app. Qed.

Lemma sla_prefix vals : forall acc, exists t, str_list_add_all acc vals = acc ++ t.
Proof.
  induction vals as [|v r IH]; intros acc; cbn [str_list_add_all].
  - exists []. now rewrite app_nil_r.
  - destruct acc as [|x acc].
    + destruct (IH (c_str v)) as [t Ht]. exists (c_str v ++ t). exact Ht.
    + destruct (IH ((x :: acc) ++ [44; 32] ++ c_str v)) as [t Ht]. exists (([44; 32] ++ c_str v) ++ t).
      rewrite Ht. now rewrite <- !app_assoc.
Qed.

(* every field value (as C text) occurs in the joined value *)
Lemma sla_contains vals : forall acc v, In v vals -> exists a b, str_list_add_all acc vals = a ++ c_str v ++ b.
Proof.
  induction vals as [|w r IH]; intros acc v Hin; [destruct Hin|].
  cbn [str_list_add_all]. destruct Hin as [Hw|Hr].
  - subst w. destruct acc as [|x acc].
    + destruct (sla_prefix r (c_str v)) as [t Ht]. exists [], t. exact Ht.
    + destruct (sla_prefix r ((x :: acc) ++ [44; 32] ++ c_str v)) as [t Ht].
      exists ((x :: acc) ++ [44; 32]), t. rewrite Ht. now rewrite <- !app_assoc.
  - apply IH. exact Hr.
Qed.

Lemma sla_nonul vals : forall acc, nonul acc = true -> nonul (str_list_add_all acc vals) = true.
Proof.
  induction vals as [|v r IH]; intros acc Hacc; cbn [str_list_add_all]; [exact Hacc|].
  apply IH. destruct acc as [|x acc]; [apply nonul_c_str|].
  rewrite !nonul_app, Hacc, nonul_c_str. reflexivity.
Qed.

Lemma via_value_nonul hs : nonul (via_value hs) = true.
Proof. unfold via_value. apply sla_nonul. reflexivity. Qed.

Lemma via_value_contains hs h : In h hs -> is_via h = true -> exists a b, via_value hs = a ++ c_str (h_value h) ++ b.
Proof.
  intros Hin Hv. unfold via_value. apply sla_contains. apply in_map. apply filter_In. split; assumption.
Qed.

Lemma c_str_cons_space l : c_str (32 :: l) = 32 :: c_str l.
Proof. unfold c_str. cbn [span]. change (negb (32 =? 0)) with true. cbv iota. destruct (span _ l); reflexivity. Qed.

Lemma loop_detected_spec c hs :
  loop_detected c hs = true <->
  has_via hs = true /\ exists a b, via_value hs = a ++ c_str (this_cache2 c) ++ b.
Proof.
  unfold loop_detected, str_list_is_substr. split.
  - intros H. apply andb_true_iff in H. destruct H as [Hh Hs]. split; [exact Hh|].
    destruct (via_value hs) as [|x s] eqn:E; [discriminate|]. apply is_substr_spec. exact Hs.
  - intros [Hh [a [b Hab]]]. rewrite Hh. cbn [andb]. rewrite Hab.
    assert (Hne : a ++ c_str (this_cache2 c) ++ b <> []).
    { unfold this_cache2. rewrite c_str_cons_space. destruct a; discriminate. }
    destruct (a ++ c_str (this_cache2 c) ++ b) as [|x s] eqn:E; [contradiction|].
    apply is_substr_spec. exists a, b. symmetry. exact E.
Qed.

Lemma nonul_this_cache2 c : nonul (c_host c) = true -> nonul (c_app c) = true -> nonul (this_cache2 c) = true.
Proof.
  intros Hh Ha. unfold this_cache2, this_cache.
  change (32 :: c_host c ++ [32; 40] ++ c_app c ++ [41]) with ([32] ++ c_host c ++ [32; 40] ++ c_app c ++ [41]).
  rewrite !nonul_app, Hh, Ha. reflexivity.
Qed.

(* a Via field whose value contains " <host> (<app>)" anywhere (any list position, anything before and after,
   any number of other Via fields around it) sets loopDetected *)
Lemma own_entry_detected c hs h pre post :
  nonul (c_host c) = true -> nonul (c_app c) = true ->
  In h hs -> is_via h = true -> nonul pre = true ->
  h_value h = pre ++ this_cache2 c ++ post ->
  loop_detected c hs = true.
Proof.
  intros Hh Ha Hin Hv Hpre Hval. apply loop_detected_spec. split; [apply existsb_exists; exists h; split; assumption|].
  destruct (via_value_contains hs h Hin Hv) as [a [b Hab]].
  pose proof (nonul_this_cache2 c Hh Ha) as Htc.
  rewrite Hval in Hab. rewrite (c_str_app_nonul pre _ Hpre), (c_str_app_nonul _ post Htc) in Hab.
  rewrite (c_str_id _ Htc).
  exists (a ++ pre), (c_str post ++ b). rewrite Hab. now rewrite <- !app_assoc.
Qed.

Definition dstep (a : Z) (d : N) : Z := (a * 10 + Z.of_N (d - 48))%Z.

Lemma digits_val_app ds : forall rest a s,
  forallb is_digit ds = true ->
  digits_val (ds ++ rest) a s = digits_val rest (fold_left dstep ds a) (s || negb (match ds with [] => true | _ => false end)).
Proof.
  induction ds as [|d ds IH]; intros rest a s Hd; cbn [app fold_left].
  - now rewrite orb_false_r.
  - cbn [forallb] in Hd. apply andb_true_iff in Hd. destruct Hd as [Hd Hds].
    cbn [digits_val]. rewrite Hd. rewrite (IH rest _ true Hds). cbn [orb negb]. rewrite orb_true_r. reflexivity.
Qed.

(* dec_fuel with enough fuel prepends a non-empty all-digit string whose value is n *)
Lemma dec_fuel_spec f : forall n acc, n < 2 ^ N.of_nat (S f) ->
  exists ds p, dec_fuel (S f) n acc = ds ++ acc /\ forallb is_digit ds = true /\ ds <> [] /\
               forall a, fold_left dstep ds a = (a * p + Z.of_N n)%Z.
Proof.
  induction f as [|f IH]; intros n acc Hn;
    change (dec_fuel (S ?g) n acc) with
      (if n / 10 =? 0 then (48 + n mod 10) :: acc else dec_fuel g (n / 10) ((48 + n mod 10) :: acc));
    destruct (n / 10 =? 0) eqn:E.
  1, 3: exists [48 + n mod 10], 10%Z; repeat split;
          [cbn [forallb]; unfold is_digit; lia | discriminate | intros a; cbn [fold_left]; unfold dstep; lia].
  - change (2 ^ N.of_nat 1) with 2 in Hn. lia.
  - assert (Hn' : n / 10 < 2 ^ N.of_nat (S f)).
    { rewrite Nat2N.inj_succ, N.pow_succ_r' in Hn. lia. }
    destruct (IH (n / 10) ((48 + n mod 10) :: acc) Hn') as [ds [p [Hds [Hall [Hne Hval]]]]].
    exists (ds ++ [48 + n mod 10]), (p * 10)%Z. repeat split.
    + rewrite Hds. now rewrite <- app_assoc.
    + rewrite forallb_app, Hall. cbn [forallb]. unfold is_digit. lia.
    + destruct ds; discriminate.
    + intros a. rewrite fold_left_app, Hval. cbn [fold_left]. unfold dstep. nia.
Qed.

Lemma dec_N_spec n :
  exists ds p, dec_N n = ds /\ forallb is_digit ds = true /\ ds <> [] /\ forall a, fold_left dstep ds a = (a * p + Z.of_N n)%Z.
Proof.
  unfold dec_N.
  assert (Hn : n < 2 ^ N.of_nat (S (N.to_nat (N.size n)))).
  { rewrite Nat2N.inj_succ, N2Nat.id, N.pow_succ_r'. pose proof (N.size_gt n). lia. }
  destruct (dec_fuel_spec (N.to_nat (N.size n)) n [] Hn) as [ds [p [Hds H]]].
  exists ds, p. rewrite Hds, app_nil_r. split; [reflexivity|exact H].
Qed.

Lemma digits_not_space : forallb (fun d => negb (c_isspace d)) [48;49;50;51;52;53;54;55;56;57] = true.
Proof. vm_compute. reflexivity. Qed.

Lemma digit_facts d : is_digit d = true -> c_isspace d = false /\ nz d = true /\ (d =? 45) = false /\ (d =? 43) = false.
Proof.
  intros H. unfold is_digit in H. assert (Hin : In d [48;49;50;51;52;53;54;55;56;57]) by (cbn [In]; lia).
  pose proof digits_not_space as Hs. rewrite forallb_forall in Hs. specialize (Hs d Hin).
  unfold nz. repeat split; try lia. destruct (c_isspace d); [discriminate|reflexivity].
Qed.

Lemma digits_nonul ds : forallb is_digit ds = true -> nonul ds = true.
Proof.
  unfold nonul. induction ds as [|d ds IH]; cbn [forallb]; [reflexivity|]. intros H. apply andb_true_iff in H. destruct H as [Hd Hds].
  destruct (digit_facts d Hd) as [_ [Hz _]]. rewrite Hz, (IH Hds). reflexivity.
Qed.

Lemma dec_N_nonul n : nonul (dec_N n) = true.
Proof. destruct (dec_N_spec n) as [ds [p [-> [Hall _]]]]. apply digits_nonul, Hall. Qed.

Lemma fwd_via_shape c major minor hs0 :
  nonul (c_host c) = true -> nonul (c_app c) = true ->
  exists pre, nonul pre = true /\ fwd_via c major minor hs0 = pre ++ this_cache2 c.
Proof.
  intros Hh Ha. pose proof (nonul_this_cache2 c Hh Ha) as Htc.
  assert (Ht : nonul (this_cache c) = true).
  { unfold this_cache2, nonul in Htc. cbn [forallb] in Htc. apply andb_true_iff in Htc. apply Htc. }
  unfold fwd_via, own_via_entry. rewrite (c_str_id _ Ht).
  exists ((match via_value hs0 with [] => [] | _ :: _ => via_value hs0 ++ [44; 32] end) ++ dec_N major ++ [46] ++ dec_N minor).
  split.
  - rewrite !nonul_app, !dec_N_nonul. pose proof (via_value_nonul hs0) as Hv.
    destruct (via_value hs0) as [|x s] eqn:E; [reflexivity|]. rewrite nonul_app, Hv. reflexivity.
  - unfold this_cache2. rewrite <- !app_assoc. reflexivity.
Qed.

Lemma via_round_trip c major minor hs0 hs h post :
  nonul (c_host c) = true -> nonul (c_app c) = true ->
  In h hs -> is_via h = true ->
  h_value h = fwd_via c major minor hs0 ++ post ->
  loop_detected c hs = true.
Proof.
  intros Hh Ha Hin Hv Hval. destruct (fwd_via_shape c major minor hs0 Hh Ha) as [pre [Hpre Hf]].
  apply (own_entry_detected c hs h pre post Hh Ha Hin Hv Hpre). rewrite Hval, Hf. now rewrite <- app_assoc.
Qed.

Definition is_local (o : outcome) : bool := match o with Local _ => true | Forward _ _ _ => false end.

(* the five ways `handle` ends, each with what the inputs must have been *)
Lemma handle_cases c m major minor cache nocache hs :
  let o := handle c m major minor cache nocache hs in
  (o = Local st_not_implemented /\ is_options m = true /\ mf_first hs = 0%Z) \/
  (o = Local st_ok /\ (is_trace m = true /\ mf_first hs = 0%Z \/ cache = CFresh /\ nocache = false)) \/
  o = process_miss c m major minor hs \/
  (o = process_expired c m major minor hs /\
   cache = CStale /\ nocache = false /\ is_trace m = false /\ loop_detected c hs = false).
Proof.
  cbv zeta. unfold handle.
  destruct (is_options m && (mf_first hs =? 0)%Z) eqn:E1.
  { left. apply andb_true_iff in E1 as [Ho E0]. repeat split; [exact Ho | lia]. }
  right. destruct (is_trace m).
  { destruct (mf_first hs =? 0)%Z eqn:E0; [left; split; [reflexivity | left; split; [reflexivity | lia]] | auto]. }
  destruct nocache; [auto|]. destruct cache; [auto | auto 6 |].
  destruct (loop_detected c hs); auto 8.
Qed.

(* a detected loop is never forwarded: every method, version, cache state, header block *)
Lemma loop_not_forwarded c m major minor cache nocache hs :
  loop_detected c hs = true ->
  exists st, handle c m major minor cache nocache hs = Local st.
Proof.
  intros Hl.
  destruct (handle_cases c m major minor cache nocache hs) as [[-> _] | [[-> _] | [-> | [_ (_ & _ & _ & H)]]]]; eauto.
  - unfold process_miss. rewrite Hl. eauto.
  - congruence.
Qed.

(* a conditional (revalidation) request goes upstream only for a stale entry, without no-cache, not on TRACE *)
Lemma revalidation_only_stale c m major minor cache nocache hs mfs via :
  handle c m major minor cache nocache hs = Forward true mfs via ->
  cache = CStale /\ nocache = false /\ is_trace m = false.
Proof.
  intros H.
  destruct (handle_cases c m major minor cache nocache hs) as [[E _] | [[E _] | [E | [_ R]]]];
    [rewrite E in H .. | tauto]; try discriminate H.
  unfold process_miss in H. destruct (loop_detected c hs); discriminate H.
Qed.

(* without a detected loop nothing is refused with 403 *)
Lemma no_loop_no_403 c m major minor cache nocache hs :
  loop_detected c hs = false -> handle c m major minor cache nocache hs <> Local st_forbidden.
Proof.
  intros Hl.
  destruct (handle_cases c m major minor cache nocache hs) as [[-> _] | [[-> _] | [-> | [-> _]]]]; try discriminate.
  unfold process_miss. rewrite Hl. discriminate.
Qed.

(* the property's first sentence for this Squid's own entry as Squid writes it *)
Lemma own_via_not_forwarded_partial c m major minor cache nocache hs h pre post :
  nonul (c_host c) = true -> nonul (c_app c) = true ->
  In h hs -> is_via h = true -> nonul pre = true ->
  h_value h = pre ++ this_cache2 c ++ post ->
  exists st, handle c m major minor cache nocache hs = Local st.
Proof.
  intros Hh Ha Hin Hv Hpre Hval. apply loop_not_forwarded.
  eapply own_entry_detected; eassumption.
Qed.

(* every forwarded request carries the received Via list followed by this Squid's entry *)
Lemma forwarded_via c m major minor cache nocache hs cnd mfs via :
  handle c m major minor cache nocache hs = Forward cnd mfs via ->
  via = fwd_via c major minor hs /\ mfs = fwd_mfs m hs.
Proof.
  intros H.
  destruct (handle_cases c m major minor cache nocache hs) as [[E _] | [[E _] | [E | [E _]]]];
    rewrite E in H; try discriminate H.
  - unfold process_miss in H. destruct (loop_detected c hs); [discriminate H|]. injection H as _ <- <-. auto.
  - injection H as _ <- <-. auto.
Qed.

(* concrete witnesses (host verif.test, the tree's own application string) *)
Definition w_host : bytes := map N.of_nat [118;101;114;105;102;46;116;101;115;116]%nat.          (* verif.test *)
Definition w_HOST : bytes := map N.of_nat [86;69;82;73;70;46;84;69;83;84]%nat.                   (* VERIF.TEST *)
Definition w_cfg : cfg := cfg_of w_host.
Definition w_via_name : bytes := map N.of_nat [86;105;97]%nat.                                   (* Via *)
Definition w_mf_name : bytes := map N.of_nat [77;97;120;45;70;111;114;119;97;114;100;115]%nat.   (* Max-Forwards *)
Definition w_11 : bytes := [49; 46; 49; 32].                                                     (* "1.1 " *)
Definition mk_via (v : bytes) : hdr := {| h_name := w_via_name; h_value := v |}.
Definition mk_mf (v : bytes) : hdr := {| h_name := w_mf_name; h_value := v |}.

(* regression of the repaired F16: stale hit + exactly this Squid's own Via entry => 403, nothing forwarded *)
Lemma own_via_stale_hit_refused :
  handle w_cfg M_GET 1 1 CStale false [mk_via (w_11 ++ this_cache w_cfg)] = Local st_forbidden.
Proof. vm_compute. reflexivity. Qed.

Lemma mf_zero_local c m major minor cache nocache hs :
  is_options m || is_trace m = true -> mf_first hs = 0%Z ->
  handle c m major minor cache nocache hs = Local (if is_options m then st_not_implemented else st_ok).
Proof.
  intros Hm H0. unfold handle. rewrite H0. change (0 =? 0)%Z with true.
  destruct m; try discriminate Hm; reflexivity.
Qed.

(* conversely, OPTIONS is answered 501 / TRACE echoed only when the first Max-Forwards reads as 0 *)
Lemma local_501_only_mf_zero c m major minor cache nocache hs :
  handle c m major minor cache nocache hs = Local st_not_implemented -> is_options m = true /\ mf_first hs = 0%Z.
Proof.
  intros H.
  destruct (handle_cases c m major minor cache nocache hs) as [[_ R] | [[E _] | [E | [E _]]]];
    [exact R | rewrite E in H ..]; try discriminate H.
  unfold process_miss in H. destruct (loop_detected c hs); discriminate H.
Qed.

(* parse_offset stays inside int64 *)
Lemma parse_offset_range v x : parse_offset v = Some x -> (llong_min <= x <= llong_max)%Z.
Proof.
  unfold parse_offset.
  destruct (match skip_space (c_str v) with
            | [] => (false, skip_space (c_str v))
            | ch :: r => if ch =? 45 then (true, r) else if ch =? 43 then (false, r) else (false, skip_space (c_str v))
            end) as [neg l1].
  destruct (digits_val l1 0%Z false) as [a seen]. destruct (negb seen); [discriminate|].
  destruct ((((if neg then (- a)%Z else a) <? llong_min)%Z || (llong_max <? (if neg then (- a)%Z else a))%Z)) eqn:E; [discriminate|].
  intros H; injection H as H; subst x. lia.
Qed.

Lemma entry_int64_range h : (llong_min <= entry_int64 h <= llong_max)%Z.
Proof.
  unfold entry_int64. destruct (parse_offset (h_value h)) as [x|] eqn:E; [apply (parse_offset_range _ _ E)|].
  vm_compute. split; discriminate.
Qed.

(* every Max-Forwards value sent upstream is a received value minus one: never negative, never the received value,
   computed without leaving int64 *)
Lemma fwd_mfs_entries_sound es x :
  In x (fwd_mfs_entries es) -> exists e, In e es /\ entry_int64 e = (x + 1)%Z /\ (0 <= x < llong_max)%Z.
Proof.
  induction es as [|e r IH]; cbn [fwd_mfs_entries]; [intros []|].
  intros H. apply in_app_or in H. destruct H as [H|H].
  - destruct (0 <? entry_int64 e)%Z eqn:E; [|destruct H]. destruct H as [H|[]].
    exists e. pose proof (entry_int64_range e). split; [left; reflexivity|]. lia.
  - destruct (IH H) as [e' [Hin Hx]]. exists e'. split; [right; exact Hin|exact Hx].
Qed.

Lemma fwd_mfs_sound m hs x :
  In x (fwd_mfs m hs) ->
  is_trace m || is_options m = true /\
  exists e, In e hs /\ is_mf e = true /\ entry_int64 e = (x + 1)%Z /\ (0 <= x < llong_max)%Z.
Proof.
  unfold fwd_mfs. destruct (is_trace m || is_options m); [|intros []]. intros H. split; [reflexivity|].
  destruct (fwd_mfs_entries_sound _ _ H) as [e [Hin Hx]]. apply filter_In in Hin. exists e. tauto.
Qed.

Lemma forwarded_mfs_sound c m major minor cache nocache hs cnd mfs via x :
  handle c m major minor cache nocache hs = Forward cnd mfs via -> In x mfs ->
  is_trace m || is_options m = true /\
  exists e, In e hs /\ is_mf e = true /\ parse_offset (h_value e) = Some (x + 1)%Z /\ (0 <= x < llong_max)%Z.
Proof.
  intros H Hx. apply forwarded_via in H. destruct H as [_ Hm]. subst mfs.
  destruct (fwd_mfs_sound _ _ _ Hx) as [Hk [e [Hin [Hmf [He Hr]]]]]. split; [exact Hk|].
  exists e. repeat split; try assumption; try lia.
  unfold entry_int64 in He. destruct (parse_offset (h_value e)) as [y|]; [now rewrite He | lia].
Qed.

(* requests other than TRACE/OPTIONS never carry Max-Forwards upstream *)
Lemma other_methods_no_mf m hs : is_trace m || is_options m = false -> fwd_mfs m hs = [].
Proof. unfold fwd_mfs. intros ->. reflexivity. Qed.

(* one Max-Forwards field reading n > 0 on a forwarded TRACE/OPTIONS: exactly n-1 goes upstream *)
Lemma single_mf_decremented c m major minor nocache hs e n :
  is_options m || is_trace m = true ->
  filter is_mf hs = [e] -> parse_offset (h_value e) = Some n -> (0 < n)%Z ->
  loop_detected c hs = false ->
  handle c m major minor CNone nocache hs = Forward false [(n - 1)%Z] (fwd_via c major minor hs).
Proof.
  intros Hm Hf Hp Hn Hl. unfold handle, process_miss, mf_first, fwd_mfs. rewrite Hf, Hl. cbn [fwd_mfs_entries].
  unfold entry_int64. rewrite Hp.
  destruct (n =? 0)%Z eqn:E0; [lia|]. destruct (0 <? n)%Z eqn:E1; [|lia].
  rewrite andb_false_r. destruct m; try discriminate Hm; cbn [is_trace is_options orb app]; [destruct nocache|]; reflexivity.
Qed.

(* "Max-Forwards: <n printed in decimal>" is read as n, for every n that fits int64; one above INT64_MAX is not read
   at all (strtoll ERANGE): getInt64 gives -1 *)
Lemma parse_offset_dec_N n :
  parse_offset (dec_N n) = if (llong_max <? Z.of_N n)%Z then None else Some (Z.of_N n).
Proof.
  destruct (dec_N_spec n) as [ds [p [Hds [Hall [Hne Hval]]]]]. rewrite Hds.
  unfold parse_offset. rewrite (c_str_id ds (digits_nonul ds Hall)).
  destruct ds as [|d ds']; [contradiction|].
  pose proof Hall as Hall'. cbn [forallb] in Hall'. apply andb_true_iff in Hall'. destruct Hall' as [Hd _].
  destruct (digit_facts d Hd) as [Hsp [_ [Hm Hp]]].
  cbn [skip_space]. rewrite Hsp, Hm, Hp.
  rewrite <- (app_nil_r (d :: ds')). rewrite (digits_val_app (d :: ds') [] 0%Z false Hall). cbn [digits_val orb negb].
  rewrite Hval. cbn [negb].
  assert (Hmin : (llong_min <= 0)%Z) by (vm_compute; discriminate).
  replace (0 * p + Z.of_N n)%Z with (Z.of_N n) by lia.
  replace (Z.of_N n <? llong_min)%Z with false by lia. reflexivity.
Qed.

Lemma parse_offset_decimal n : (Z.of_N n <= llong_max)%Z -> parse_offset (dec_N n) = Some (Z.of_N n).
Proof. intros H. rewrite parse_offset_dec_N. replace (llong_max <? Z.of_N n)%Z with false by lia. reflexivity. Qed.

Lemma parse_offset_beyond_int64 n : (llong_max < Z.of_N n)%Z -> parse_offset (dec_N n) = None.
Proof. intros H. rewrite parse_offset_dec_N. replace (llong_max <? Z.of_N n)%Z with true by lia. reflexivity. Qed.

(* the property's Max-Forwards sentence for decimal values that fit int64 *)
Lemma maxforwards_decimal_partial c m major minor nocache hs e n :
  is_options m || is_trace m = true ->
  filter is_mf hs = [e] -> h_value e = dec_N n -> (Z.of_N n <= llong_max)%Z ->
  loop_detected c hs = false ->
  handle c m major minor CNone nocache hs =
    if n =? 0 then Local (if is_options m then st_not_implemented else st_ok)
    else Forward false [(Z.of_N n - 1)%Z] (fwd_via c major minor hs).
Proof.
  intros Hm Hf Hv Hmax Hl. pose proof (parse_offset_decimal n Hmax) as Hp. rewrite <- Hv in Hp.
  destruct (n =? 0) eqn:E0.
  - apply mf_zero_local; [exact Hm|]. unfold mf_first, entry_int64. rewrite Hf, Hp. lia.
  - apply (single_mf_decremented c m major minor nocache hs e (Z.of_N n)); try assumption. lia.
Qed.

