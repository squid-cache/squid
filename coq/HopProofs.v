(* HopProofs.v — proofs for C04, and the facts about strListGetItem's loop that every reader of a list header shares *)
Require Import SquidV.Bytes SquidV.HopModel.
Require Import SquidV.gen.HdrTable_gen.
Require Import ZifyBool.
Local Open Scope N_scope.

Lemma drop_while_ext p q l : (forall c, In c l -> p c = q c) -> drop_while p l = drop_while q l.
Proof.
  induction l as [|c r IH]; intros H; cbn [drop_while]; [reflexivity|].
  rewrite <- (H c (or_introl eq_refl)). destruct (p c); [apply IH; intros; apply H; now right|reflexivity].
Qed.

Lemma drop_while_length p l : (length (drop_while p l) <= length l)%nat.
Proof. induction l as [|c r IH]; cbn [drop_while length]; [lia|]. destruct (p c); cbn [length]; lia. Qed.

Lemma drop_while_stops p l : match drop_while p l with [] => True | c :: _ => p c = false end.
Proof. induction l as [|c r IH]; cbn [drop_while]; [exact I|]. destruct (p c) eqn:E; [exact IH|exact E]. Qed.

Lemma drop_while_all p pre l : forallb p pre = true -> drop_while p (pre ++ l) = drop_while p l.
Proof.
  induction pre as [|x pre IH]; cbn [forallb app drop_while]; [reflexivity|].
  intros H. apply andb_prop in H. destruct H as [-> H]. now apply IH.
Qed.

Lemma scan_item_split del : forall l q acc it rest,
  scan_item del q l acc = (it, rest) ->
  exists used, l = used ++ rest /\ it = rev acc ++ used.
Proof.
  fix IH 1. intros l q acc it rest H. destruct l as [|c r].
  - cbn in H. injection H as <- <-. exists []. split; [reflexivity| now rewrite app_nil_r].
  - cbn [scan_item] in H. destruct q.
    + destruct (c =? 34) eqn:E34.
      * apply IH in H. destruct H as (u & -> & ->). exists (c :: u). cbn [rev app]. split; [reflexivity| now rewrite <- app_assoc].
      * destruct (c =? 92) eqn:E92.
        -- destruct r as [|d r'].
           ++ injection H as <- <-. exists [c]. cbn [rev app]. split; reflexivity.
           ++ apply IH in H. destruct H as (u & -> & ->). exists (c :: d :: u). cbn [rev app].
              rewrite <- !app_assoc. split; reflexivity.
        -- apply IH in H. destruct H as (u & -> & ->). exists (c :: u). cbn [rev app]. split; [reflexivity| now rewrite <- app_assoc].
    + destruct (c =? 34) eqn:E34.
      * apply IH in H. destruct H as (u & -> & ->). exists (c :: u). cbn [rev app]. split; [reflexivity| now rewrite <- app_assoc].
      * destruct ((c =? del) || (c =? 44)) eqn:Ed.
        -- injection H as <- <-. exists []. split; [reflexivity| now rewrite app_nil_r].
        -- apply IH in H. destruct H as (u & -> & ->). exists (c :: u). cbn [rev app]. split; [reflexivity| now rewrite <- app_assoc].
Qed.

(* an iteration that yields an item consumes at least one character, so the loop bound never ends a list early *)
Lemma scan_item_shorter del l item rest :
  scan_item del false l [] = (item, rest) -> rtrim item <> [] -> (length rest < length l)%nat.
Proof.
  intros Hs Hne. destruct (scan_item_split _ _ _ _ _ _ Hs) as (used & -> & ->).
  destruct used; [now destruct Hne|]. rewrite app_length. cbn [length]. lia.
Qed.

Lemma items_fuel_enough del : forall f1 f2 l, (length l < f1)%nat -> (length l < f2)%nat ->
  items_fuel f1 del l = items_fuel f2 del l.
Proof.
  induction f1 as [|f1 IH]; intros f2 l H1 H2; [lia|]. destruct f2 as [|f2]; [lia|].
  cbn [items_fuel]. pose proof (drop_while_length (is_delim2 del) l) as Hd.
  destruct (scan_item del false (drop_while (is_delim2 del) l) []) as [item rest] eqn:Es.
  destruct (rtrim item) as [|i0 it] eqn:Er; [reflexivity|].
  pose proof (scan_item_shorter _ _ _ _ Es ltac:(rewrite Er; discriminate)) as Hlt.
  f_equal. apply IH; lia.
Qed.

(* the loop without its bound, and the equation it satisfies *)
Definition items (del : N) (l : bytes) : list bytes := items_fuel (S (length l)) del l.

Lemma items_eq del l :
  items del l =
  let '(item, rest) := scan_item del false (drop_while (is_delim2 del) l) [] in
  match rtrim item with
  | [] => []
  | it => it :: items del rest
  end.
Proof.
  unfold items at 1. cbn [items_fuel]. pose proof (drop_while_length (is_delim2 del) l) as Hd.
  destruct (scan_item del false (drop_while (is_delim2 del) l) []) as [item rest] eqn:Es.
  destruct (rtrim item) as [|i0 it] eqn:Er; [reflexivity|].
  pose proof (scan_item_shorter _ _ _ _ Es ltac:(rewrite Er; discriminate)) as Hlt.
  f_equal. apply items_fuel_enough; lia.
Qed.

Lemma c_str_id l : forallb (fun c => negb (c =? 0)) l = true -> c_str l = l.
Proof. intros H. unfold c_str. now rewrite (span_forall _ l H). Qed.

Lemma c_str_length l : (length (c_str l) <= length l)%nat.
Proof. rewrite <- (span_app (fun c => negb (c =? 0)) l) at 2. rewrite app_length. unfold c_str. lia. Qed.

Lemma list_items_items del l : list_items del l = items del (c_str l).
Proof. pose proof (c_str_length l). apply items_fuel_enough; lia. Qed.

(* reference reading of a token list: comma split, OWS trim, empty elements dropped *)
Definition is_ows (c : N) : bool := (c =? 32) || (c =? 9).
Fixpoint split_on (d : N) (l : bytes) (cur : bytes) : list bytes :=
  match l with
  | [] => [rev cur]
  | c :: r => if c =? d then rev cur :: split_on d r [] else split_on d r (c :: cur)
  end.
Definition trim_ows (l : bytes) : bytes := rev (drop_while is_ows (rev (drop_while is_ows l))).
Definition nonempty (l : bytes) : bool := match l with [] => false | _ => true end.
Definition ref_items (l : bytes) : list bytes := filter nonempty (map trim_ows (split_on 44 l [])).

(* "simple" list text: no DQUOTE, no NUL, and no whitespace other than SP / HTAB *)
Definition simple_char (c : N) : bool :=
  negb (c =? 34) && negb (c =? 0) && negb ((10 <=? c) && (c <=? 13)).
Definition simple (l : bytes) : bool := forallb simple_char l.

Lemma split_on_acc d l cur :
  split_on d l cur = match split_on d l [] with [] => [] | a :: t => (rev cur ++ a) :: t end.
Proof.
  revert cur. induction l as [|c r IH]; intros cur; cbn [split_on].
  - cbn. now rewrite app_nil_r.
  - destruct (c =? d) eqn:E; [cbn; now rewrite app_nil_r|].
    rewrite IH. rewrite (IH [c]). destruct (split_on d r []) as [|a t]; [reflexivity|].
    cbn [rev app]. now rewrite <- app_assoc.
Qed.

Lemma split_on_nonnil d l cur : split_on d l cur <> [].
Proof. revert cur; induction l as [|c r IH]; intros cur; cbn [split_on]; [discriminate|]. destruct (c =? d); [discriminate|apply IH]. Qed.

(* scanning without quotes is a plain search for the next comma *)
Lemma scan_simple l acc :
  simple l = true ->
  scan_item 44 false l acc =
  (rev acc ++ fst (span (fun c => negb (c =? 44)) l), snd (span (fun c => negb (c =? 44)) l)).
Proof.
  revert acc. induction l as [|c r IH]; intros acc Hs; cbn [scan_item span].
  - cbn. now rewrite app_nil_r.
  - cbn [simple forallb] in Hs. apply andb_prop in Hs. destruct Hs as [Hc Hr].
    unfold simple_char in Hc.
    destruct (c =? 34) eqn:E34; [cbn in Hc; discriminate|].
    replace ((c =? 44) || (c =? 44)) with (c =? 44) by (destruct (c =? 44); reflexivity).
    destruct (c =? 44) eqn:E44; cbn [negb].
    + cbn. now rewrite app_nil_r.
    + rewrite IH by exact Hr. destruct (span _ r) as [a b]. cbn [fst snd rev].
      now rewrite <- app_assoc.
Qed.

Lemma simple_app a b : simple (a ++ b) = simple a && simple b.
Proof. unfold simple. apply forallb_app. Qed.

Lemma simple_span_fst p l : simple l = true -> simple (fst (span p l)) = true.
Proof. intros H. rewrite <- (span_app p l), simple_app in H. now apply andb_prop in H. Qed.
Lemma simple_span_snd p l : simple l = true -> simple (snd (span p l)) = true.
Proof. intros H. rewrite <- (span_app p l), simple_app in H. now apply andb_prop in H. Qed.

Lemma simple_drop p l : simple l = true -> simple (drop_while p l) = true.
Proof.
  induction l as [|c r IH]; intros H; cbn [drop_while]; [reflexivity|].
  destruct (p c); [|exact H]. apply IH. cbn [simple forallb] in H. now apply andb_prop in H.
Qed.

(* on simple text, left-trimming by delim[2] only meets SP, HTAB and commas *)
Lemma delim2_simple c : simple_char c = true -> is_delim2 44 c = is_ows c || (c =? 44).
Proof. unfold simple_char, is_delim2, is_ows. intros H. lia. Qed.
Lemma xspace_simple c : simple_char c = true -> is_xspace c = is_ows c.
Proof. unfold simple_char, is_xspace, is_ows. intros H. lia. Qed.

Lemma rtrim_simple a : simple a = true -> rtrim a = rev (drop_while is_ows (rev a)).
Proof.
  intros H. unfold rtrim. f_equal. apply drop_while_ext. intros c Hc.
  apply xspace_simple. unfold simple in H. rewrite forallb_forall in H. apply H. now apply in_rev.
Qed.

(* split_on on a string with no comma *)
Lemma split_no_comma l : forallb (fun c => negb (c =? 44)) l = true -> split_on 44 l [] = [l].
Proof.
  intros H. assert (G : forall cur, split_on 44 l cur = [rev cur ++ l]).
  { induction l as [|c r IH]; intros cur; cbn [split_on]; [now rewrite app_nil_r|].
    cbn [forallb] in H. apply andb_prop in H. destruct H as [Hc Hr].
    destruct (c =? 44); [discriminate|]. rewrite (IH Hr). cbn [rev]. now rewrite <- app_assoc. }
  now rewrite G.
Qed.

Lemma split_on_app_comma a b :
  forallb (fun c => negb (c =? 44)) a = true ->
  split_on 44 (a ++ 44 :: b) [] = a :: split_on 44 b [].
Proof.
  intros H. assert (G : forall cur, split_on 44 (a ++ 44 :: b) cur = (rev cur ++ a) :: split_on 44 b []).
  { induction a as [|c r IH]; intros cur; cbn [app split_on].
    - now rewrite N.eqb_refl, app_nil_r.
    - cbn [forallb] in H. apply andb_prop in H. destruct H as [Hc Hr].
      destruct (c =? 44); [discriminate|]. rewrite (IH Hr). cbn [rev]. now rewrite <- app_assoc. }
  now rewrite G.
Qed.

(* dropping one leading delimiter character does not change the reference reading *)
Lemma ref_items_drop1 c r :
  (is_ows c || (c =? 44)) = true -> ref_items (c :: r) = ref_items r.
Proof.
  intros H. unfold ref_items. cbn [split_on].
  destruct (c =? 44) eqn:E.
  - cbn [rev map filter]. unfold trim_ows at 1. cbn. reflexivity.
  - cbn [orb] in H. rewrite orb_false_r in H.
    rewrite (split_on_acc 44 r [c]). destruct (split_on 44 r []) as [|a t] eqn:Es; [reflexivity|].
    cbn [rev app map]. f_equal. f_equal.
    unfold trim_ows. cbn [drop_while]. now rewrite H.
Qed.

Lemma ref_items_drop l : simple l = true -> ref_items (drop_while (is_delim2 44) l) = ref_items l.
Proof.
  induction l as [|c r IH]; intros H; cbn [drop_while]; [reflexivity|].
  cbn [simple forallb] in H. apply andb_prop in H. destruct H as [Hc Hr].
  destruct (is_delim2 44 c) eqn:E; [|reflexivity].
  rewrite (IH Hr). symmetry. apply ref_items_drop1. now rewrite <- delim2_simple.
Qed.


Lemma trim_first_nonows c a :
  is_ows c = false -> trim_ows (c :: a) = rev (drop_while is_ows (rev (c :: a))).
Proof. intros H. unfold trim_ows. cbn [drop_while]. now rewrite H. Qed.

Lemma drop_while_rev_nonempty c a : is_ows c = false -> rev (drop_while is_ows (rev (c :: a))) <> [].
Proof.
  intros H Hn. assert (E : drop_while is_ows (rev (c :: a)) = []) by (now rewrite <- (rev_involutive (drop_while _ _)), Hn).
  cbn [rev] in E.
  assert (G : forall l, drop_while is_ows (l ++ [c]) <> []).
  { induction l as [|x l IH]; cbn [app drop_while]; [now rewrite H|]. destruct (is_ows x); [exact IH|discriminate]. }
  exact (G _ E).
Qed.

Lemma items_fuel_S f del l :
  items_fuel (S f) del l =
  let l1 := drop_while (is_delim2 del) l in
  let '(item, rest) := scan_item del false l1 [] in
  match rtrim item with
  | [] => []
  | it => it :: items_fuel f del rest
  end.
Proof. reflexivity. Qed.

(* with fuel at least the length of the text, the items loop computes the reference item list of a simple text *)
Lemma items_step f l :
  simple l = true -> (length l <= f)%nat ->
  items_fuel (S f) 44 l = ref_items l.
Proof.
  revert l. induction f as [|f IH]; intros l Hs Hlen.
  - destruct l; [|cbn in Hlen; lia]. reflexivity.
  - rewrite items_fuel_S. cbn zeta.
    rewrite <- (ref_items_drop l Hs).
    pose proof (simple_drop (is_delim2 44) l Hs) as Hs1.
    pose proof (drop_while_length (is_delim2 44) l) as Hl1.
    pose proof (drop_while_stops (is_delim2 44) l) as Hhead.
    set (l1 := drop_while (is_delim2 44) l) in *. clearbody l1.
    rewrite (scan_simple l1 [] Hs1). cbn [rev app].
    destruct l1 as [|c r].
    { reflexivity. }
    pose proof (eq_sym (span_app (fun c => negb (c =? 44)) (c :: r))) as Hparts.
    pose proof (span_all (fun c => negb (c =? 44)) (c :: r)) as Hall.
    pose proof (span_stop (fun c => negb (c =? 44)) (c :: r)) as Hstop.
    pose proof (simple_span_fst (fun c => negb (c =? 44)) (c :: r) Hs1) as Hsa.
    pose proof (simple_span_snd (fun c => negb (c =? 44)) (c :: r) Hs1) as Hsb.
    assert (Hc : simple_char c = true) by (cbn [simple forallb] in Hs1; now apply andb_prop in Hs1).
    assert (Hc44 : (c =? 44) = false /\ is_ows c = false).
    { rewrite (delim2_simple c Hc) in Hhead. destruct (is_ows c); destruct (c =? 44); cbn in Hhead; try discriminate; tauto. }
    destruct Hc44 as [Hc44 Hcows].
    cbn [span] in *. rewrite Hc44 in *. cbn [negb] in *.
    destruct (span (fun c0 => negb (c0 =? 44)) r) as [a b] eqn:Esp. cbn [fst snd] in *.
    rewrite (rtrim_simple (c :: a) Hsa).
    destruct (rev (drop_while is_ows (rev (c :: a)))) as [|i0 it] eqn:Eit.
    { exfalso. exact (drop_while_rev_nonempty c a Hcows Eit). }
    assert (Hlenb : (length b <= f)%nat).
    { apply (f_equal (@length N)) in Hparts. rewrite app_length in Hparts. cbn [length] in *. clear -Hparts Hlen Hl1. lia. }
    rewrite (IH b Hsb Hlenb).
    rewrite Hparts. destruct b as [|k b'].
    + rewrite app_nil_r. unfold ref_items. rewrite (split_no_comma (c :: a) Hall). cbn [map].
      rewrite (trim_first_nonows c a Hcows), Eit. cbn [filter nonempty]. reflexivity.
    + apply negb_false_iff, N.eqb_eq in Hstop. subst k.
      rewrite (ref_items_drop1 44 b' ltac:(reflexivity)).
      change (ref_items ((c :: a) ++ 44 :: b')) with
        (filter nonempty (map trim_ows (split_on 44 ((c :: a) ++ 44 :: b') []))).
      rewrite (split_on_app_comma (c :: a) b' Hall). cbn [map].
      rewrite (trim_first_nonows c a Hcows), Eit. cbn [filter nonempty]. reflexivity.
Qed.

Lemma c_str_simple l : simple l = true -> c_str l = l.
Proof.
  intros H. apply c_str_id. revert H. apply forallb_impl. intros c Hc.
  apply andb_prop in Hc. destruct Hc as [Hc _]. now apply andb_prop in Hc.
Qed.

Theorem list_items_is_ref l : simple l = true -> list_items 44 l = ref_items l.
Proof.
  intros H. unfold list_items. rewrite (c_str_simple l H). apply items_step; [exact H|lia].
Qed.

Theorem is_member_simple lst name :
  simple lst = true -> is_member lst name = existsb (fun it => ci_eqb name it) (ref_items lst).
Proof. intros H. unfold is_member. now rewrite list_items_is_ref. Qed.

Lemma ci_eqb_trans_l a : forall b c, ci_eqb a b = true -> ci_eqb a c = ci_eqb b c.
Proof.
  induction a as [|x a IH]; intros b c H; destruct b as [|y b]; cbn [ci_eqb] in *; try discriminate; [reflexivity|].
  apply andb_prop in H. destruct H as [Hxy Hab]. destruct c as [|z c]; [reflexivity|].
  cbn [ci_eqb]. rewrite (IH b c Hab). apply N.eqb_eq in Hxy. now rewrite Hxy.
Qed.

Lemma ci_eqb_refl a : ci_eqb a a = true.
Proof. induction a as [|x a IH]; [reflexivity|]. cbn [ci_eqb]. now rewrite N.eqb_refl, IH. Qed.

Lemma ci_eqb_sym a : forall b, ci_eqb a b = ci_eqb b a.
Proof.
  induction a as [|x a IH]; intros [|y b]; cbn [ci_eqb]; try reflexivity.
  now rewrite (N.eqb_sym (to_lower x)), IH.
Qed.

Lemma lookup_id_ci tbl a b : ci_eqb a b = true -> lookup_id tbl a = lookup_id tbl b.
Proof.
  intros H. induction tbl as [|[[id nm] fl] r IH]; cbn [lookup_id]; [reflexivity|].
  rewrite (ci_eqb_trans_l a b nm H). now rewrite IH.
Qed.

Definition std_hop_ids : list N :=
  [ID_CONNECTION; ID_KEEP_ALIVE; ID_TE; ID_TRAILER; ID_UPGRADE; ID_PROXY_CONNECTION; ID_TRANSFER_ENCODING;
   ID_PROXY_AUTHORIZATION].

(* table facts, re-evaluated against the regenerated table on every run *)
Lemma std_hop_flagged : forallb is_hopbyhop std_hop_ids = true.
Proof. vm_compute. reflexivity. Qed.

Lemma special_ids_registered :
  forallb (fun i => negb (i =? hdr_OTHER))
    (ID_PROXY_AUTHENTICATE :: ID_AUTHORIZATION :: ID_HOST :: ID_IF_MODIFIED_SINCE :: ID_IF_NONE_MATCH :: ID_MAX_FORWARDS
     :: ID_VIA :: ID_RANGE :: ID_IF_RANGE :: ID_REQUEST_RANGE :: ID_CONTENT_LENGTH :: ID_X_FORWARDED_FOR
     :: ID_CACHE_CONTROL :: ID_FRONT_END_HTTPS :: std_hop_ids) = true.
Proof. vm_compute. reflexivity. Qed.

Theorem resp_filter_sound hs e :
  In e (resp_filter false hs) ->
  is_hopbyhop (hdr_id e) = false /\
  (hdr_id e =? ID_PROXY_AUTHENTICATE) = false /\
  is_member (conn_value (filter (fun h => negb (hdr_id h =? ID_PROXY_AUTHENTICATE)) hs)) (h_name e) = false /\
  In e hs.
Proof.
  unfold resp_filter. intros H.
  apply filter_In in H. destruct H as [H Hhop].
  apply filter_In in H. destruct H as [H Hmem].
  apply filter_In in H. destruct H as [H Hpa].
  repeat split; try assumption.
  - now destruct (is_hopbyhop (hdr_id e)).
  - now destruct (hdr_id e =? ID_PROXY_AUTHENTICATE).
  - now destruct (is_member _ (h_name e)).
Qed.

Definition std_hop_names : list (list nat) :=
  [[67;111;110;110;101;99;116;105;111;110]; [75;101;101;112;45;65;108;105;118;101]; [84;69];
   [84;114;97;105;108;101;114]; [85;112;103;114;97;100;101];
   [80;114;111;120;121;45;67;111;110;110;101;99;116;105;111;110];
   [84;114;97;110;115;102;101;114;45;69;110;99;111;100;105;110;103];
   [80;114;111;120;121;45;65;117;116;104;111;114;105;122;97;116;105;111;110];
   [80;114;111;120;121;45;65;117;116;104;101;110;116;105;99;97;116;101]]%nat.

Lemma std_names_blocked :
  forallb (fun nm => is_hopbyhop (id_of nm) || (id_of nm =? ID_PROXY_AUTHENTICATE)) std_hop_names = true.
Proof. vm_compute. reflexivity. Qed.

(* no relayed response field carries (in any letter case) one of the standard hop-by-hop names *)
Theorem resp_no_std_hop_names hs e nm :
  In e (resp_filter false hs) -> In nm std_hop_names -> ci_eqb (h_name e) (map N.of_nat nm) = false.
Proof.
  intros He Hnm. destruct (ci_eqb (h_name e) (map N.of_nat nm)) eqn:E; [|reflexivity]. exfalso.
  apply resp_filter_sound in He. destruct He as (Hhop & Hpa & _ & _).
  pose proof std_names_blocked as Hb. rewrite forallb_forall in Hb. specialize (Hb nm Hnm).
  assert (Hid : hdr_id e = id_of nm) by (unfold hdr_id, id_of; now apply lookup_id_ci).
  rewrite <- Hid in Hb. rewrite Hhop, Hpa in Hb. discriminate.
Qed.

Lemma req_walk_in cfg cv hs : forall ims h v,
  In (h, v) (req_walk cfg cv ims hs) -> exists ims', v = req_one cfg cv ims' h /\ In h hs.
Proof.
  induction hs as [|x r IH]; intros ims h v H; cbn [req_walk] in H; [contradiction|].
  destruct H as [H|H].
  - injection H as Hh Hv. subst. exists ims. split; [reflexivity|now left].
  - destruct (IH _ _ _ H) as (ims' & Hv & Hin). exists ims'. split; [exact Hv|now right].
Qed.

Lemma req_filter_in cfg hs e :
  In e (req_filter cfg hs) -> exists ims, req_one cfg (conn_value hs) ims e = Copied /\ In e hs.
Proof.
  unfold req_filter, req_verdicts. intros H. apply in_map_iff in H. destruct H as ([h v] & Hf & H). cbn in Hf. subst h.
  apply filter_In in H. destruct H as [H Hv]. cbn in Hv. destruct v; try discriminate.
  apply req_walk_in in H. destruct H as (ims & Hq & Hin). exists ims. split; [now symmetry|exact Hin].
Qed.

(* at each of these ids the cascade ends in Dropped, whatever the configuration *)
Lemma req_one_std_dropped cfg cv ims h :
  existsb (N.eqb (hdr_id h))
    [ID_CONNECTION; ID_TE; ID_KEEP_ALIVE; ID_PROXY_AUTHENTICATE; ID_TRAILER; ID_TRANSFER_ENCODING; ID_UPGRADE;
     ID_PROXY_CONNECTION] = true ->
  req_one cfg cv ims h = Dropped.
Proof.
  unfold req_one. generalize (hdr_id h) as id. intros id D. cbn [existsb] in D.
  repeat (apply orb_prop in D; destruct D as [D|D]; [apply N.eqb_eq in D; subst id; vm_compute; reflexivity|]).
  discriminate D.
Qed.

(* the standard hop-by-hop request fields are never copied; Proxy-Authorization only to a peer with login=PASS* *)
Theorem req_filter_std cfg hs e :
  In e (req_filter cfg hs) ->
  let id := hdr_id e in
  (id =? ID_CONNECTION) = false /\ (id =? ID_TE) = false /\ (id =? ID_KEEP_ALIVE) = false /\
  (id =? ID_PROXY_AUTHENTICATE) = false /\ (id =? ID_TRAILER) = false /\ (id =? ID_TRANSFER_ENCODING) = false /\
  (id =? ID_UPGRADE) = false /\ (id =? ID_PROXY_CONNECTION) = false /\
  ((id =? ID_PROXY_AUTHORIZATION) = true -> to_origin cfg = false /\ peer_login_passes cfg = true).
Proof.
  intros H. apply req_filter_in in H. destruct H as (ims & H & _). cbn zeta.
  pose proof (req_one_std_dropped cfg (conn_value hs) ims e) as D.
  destruct (existsb _ _) eqn:Ex in D; [rewrite (D eq_refl) in H; discriminate H|]. clear D.
  cbn [existsb] in Ex. repeat (apply orb_false_elim in Ex; destruct Ex as [? Ex]).
  repeat (split; [assumption|]).
  intros E. unfold req_one in H. rewrite E in H.
  destruct (to_origin cfg), (peer_login_passes cfg); try discriminate H. now split.
Qed.

(* fields handled by the default branch (every extension field and every registered field without special
   treatment) are not copied when a Connection field names them *)
Definition special_req_ids : list N :=
  [ID_PROXY_AUTHORIZATION; ID_CONNECTION; ID_TE; ID_KEEP_ALIVE; ID_PROXY_AUTHENTICATE; ID_TRAILER; ID_TRANSFER_ENCODING;
   ID_UPGRADE; ID_AUTHORIZATION; ID_HOST; ID_IF_MODIFIED_SINCE; ID_IF_NONE_MATCH; ID_MAX_FORWARDS; ID_VIA; ID_RANGE;
   ID_IF_RANGE; ID_REQUEST_RANGE; ID_PROXY_CONNECTION; ID_CONTENT_LENGTH; ID_X_FORWARDED_FOR; ID_CACHE_CONTROL;
   ID_FRONT_END_HTTPS].

Theorem req_connection_named_dropped_partial cfg hs e :
  In e (req_filter cfg hs) ->
  existsb (fun i => hdr_id e =? i) special_req_ids = false ->
  is_member (conn_value hs) (h_name e) = false.
Proof.
  intros H Hsp. apply req_filter_in in H. destruct H as (ims & H & _).
  unfold req_one in H. set (id := hdr_id e) in *. clearbody id.
  (* every test of the cascade fails, which leaves the default branch *)
  cbn [special_req_ids existsb] in Hsp.
  repeat (apply orb_false_elim in Hsp; destruct Hsp as [E Hsp]; rewrite E in H; clear E).
  cbn [orb] in H. destruct (is_member (conn_value hs) (h_name e)); [discriminate H|reflexivity].
Qed.

(* ... but the full statement ("no Connection-named field is copied") is false of the code: a registered
   field with its own switch case is copied even when named by Connection *)
Definition wit_hs : list hdr :=
  [ {| h_name := map N.of_nat [67;111;110;110;101;99;116;105;111;110]%nat;
       h_value := map N.of_nat [65;117;116;104;111;114;105;122;97;116;105;111;110]%nat |};
    {| h_name := map N.of_nat [65;117;116;104;111;114;105;122;97;116;105;111;110]%nat;
       h_value := map N.of_nat [66;97;115;105;99;32;101;72;107;54;101;72;107;61]%nat |} ].

Theorem req_connection_named_refuted :
  exists hs e, In e (req_filter (cfg_direct false) hs) /\ is_member (conn_value hs) (h_name e) = true.
Proof.
  exists wit_hs. exists (nth 1 wit_hs {| h_name := []; h_value := [] |}).
  split; [vm_compute; auto|vm_compute; reflexivity].
Qed.
