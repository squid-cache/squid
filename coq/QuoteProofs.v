(* QuoteProofs.v — C32 (HTML quoting) and C31 (percent-encoding).  The encoders are per-byte maps
   concat (map f s): what is shown of every entry f c carries over to the encoded string through the three
   lemmas about concat (map f s) below. *)
Require Import SquidV.Bytes SquidV.TokModel SquidV.QuoteModel.
Require Import SquidV.gen.ByteMaps_gen.
Require Import ZifyBool ZifyN ZifyNat.
Ltac Zify.zify_post_hook ::= Z.div_mod_to_equations.
Local Open Scope N_scope.

Lemma all_bytes_Forall (P : N -> Prop) : Forall P all_bytes -> forall c, c < 256 -> P c.
Proof. intros H c Hc. rewrite Forall_forall in H. apply H, all_bytes_complete, Hc. Qed.

Definition bytes_ok (s : bytes) : Prop := Forall (fun c => c < 256) s.
Definition nul_free (s : bytes) : Prop := Forall (fun c => c <> 0) s.

Lemma cstr_nul_free s : nul_free s -> cstr s = s.
Proof.
  induction 1 as [|c s Hc Hs IH]; cbn [cstr]; [reflexivity|].
  destruct (N.eqb_spec c 0); [contradiction|]. now rewrite IH.
Qed.

Lemma cstr_is_nul_free s : nul_free (cstr s).
Proof.
  induction s as [|c s IH]; cbn [cstr]; [constructor|].
  destruct (N.eqb_spec c 0); constructor; assumption.
Qed.

Lemma cstr_bytes_ok s : bytes_ok s -> bytes_ok (cstr s).
Proof.
  induction 1 as [|c s Hc Hs IH]; cbn [cstr]; [constructor|].
  destruct (c =? 0); constructor; assumption.
Qed.

Lemma cstr_ok s : bytes_ok s -> Forall (fun c => c < 256 /\ c <> 0) (cstr s).
Proof. intros Hb. apply Forall_and; [apply cstr_bytes_ok, Hb|apply cstr_is_nul_free]. Qed.

Lemma forallb_Forall {A} (p : A -> bool) (P : A -> Prop) l :
  (forall x, p x = true -> P x) -> forallb p l = true -> Forall P l.
Proof. rewrite forallb_forall, Forall_forall. auto. Qed.

(* ---------- per-byte encoders: from one entry to the encoded string ---------- *)

Lemma concat_map_items (f : N -> bytes) (P : N -> Prop) (Q : bytes -> Prop) s :
  (forall c, P c -> Q (f c)) -> Forall P s -> exists items, concat (map f s) = concat items /\ Forall Q items.
Proof. intros H Hs. exists (map f s). split; [reflexivity|]. apply Forall_map. exact (Forall_impl _ H Hs). Qed.

(* a decoder that reads each entry back as its byte reads the encoded string back as the string *)
Lemma concat_map_decode (f : N -> bytes) (P : N -> Prop) (dec : bytes -> option bytes) s :
  (forall c r, P c -> dec (f c ++ r) = option_map (cons c) (dec r)) -> dec [] = Some [] ->
  Forall P s -> dec (concat (map f s)) = Some s.
Proof.
  intros H H0 Hs. induction Hs as [|c s Hc _ IH]; [exact H0|].
  cbn [map concat]. now rewrite (H c _ Hc), IH.
Qed.

(* ---------- C32: html_quote ---------- *)

(* the reference decoder is a left-to-right machine: a successfully decoded prefix can be cut off *)
Lemma html_dec_app e : forall p out r, html_dec e p = Some out ->
  html_dec (e ++ r) p = option_map (app out) (html_dec r None).
Proof.
  induction e as [|c e IH]; intros p out r H.
  - cbn [html_dec] in H. destruct p; [discriminate|]. injection H as <-. cbn [app].
    destruct (html_dec r None); reflexivity.
  - cbn [app html_dec] in *. destruct p as [acc|].
    + destruct (c =? 59).
      * destruct (ref_value (rev acc)) as [v|]; [|discriminate].
        destruct (html_dec e None) as [o|] eqn:E; [|discriminate]. cbn [option_map] in H. injection H as <-.
        rewrite (IH None o r E). destruct (html_dec r None); reflexivity.
      * destruct (is_html_meta c); [discriminate|]. apply IH, H.
    + destruct (c =? 38); [apply IH, H|].
      destruct (is_html_meta c); [discriminate|].
      destruct (html_dec e None) as [o|] eqn:E; [|discriminate]. cbn [option_map] in H. injection H as <-.
      rewrite (IH None o r E). destruct (html_dec r None); reflexivity.
Qed.

Definition ref_char (c : N) : bool := negb (is_html_meta c) && negb (c =? 59).

(* an item of the quoted form: one byte that is not a markup metacharacter, or
   '&' name ';' where name is a known reference and contains neither ';' nor a metacharacter *)
Definition html_item (it : bytes) : Prop :=
  (exists c, it = [c] /\ is_html_meta c = false) \/
  (exists name v, it = 38 :: name ++ [59] /\ ref_value name = Some v /\ forallb ref_char name = true).

Definition html_item_b (it : bytes) : bool :=
  match it with
  | [] => false
  | c :: rest =>
    match rest with
    | [] => negb (is_html_meta c)
    | _ => (c =? 38) &&
           match rev rest with
           | [] => false
           | z :: rname => (z =? 59) && forallb ref_char (rev rname) &&
                           match ref_value (rev rname) with Some _ => true | None => false end
           end
    end
  end.

Lemma html_item_b_sound it : html_item_b it = true -> html_item it.
Proof.
  unfold html_item_b. destruct it as [|c rest]; [discriminate|].
  destruct rest as [|d rest'].
  - intros H. left. exists c. split; [reflexivity|]. now destruct (is_html_meta c).
  - intros H. apply andb_prop in H as [Hc H]. apply N.eqb_eq in Hc. subst c.
    destruct (rev (d :: rest')) as [|z rname] eqn:E; [discriminate|].
    apply andb_prop in H as [H Hv]. apply andb_prop in H as [Hz Hn]. apply N.eqb_eq in Hz. subst z.
    destruct (ref_value (rev rname)) as [v|] eqn:Ev; [|discriminate].
    right. exists (rev rname), v. repeat split; try assumption.
    f_equal. rewrite <- (rev_involutive (d :: rest')), E. reflexivity.
Qed.

(* direct form: no less-than, greater-than or quote character occurs at all *)
Definition is_quote_meta (c : N) : bool := (c =? 60) || (c =? 62) || (c =? 34) || (c =? 39).

(* one sweep over the regenerated table: no entry holds an angle bracket or a quote, and the entry of every
   byte but NUL is an item that decodes to exactly that byte *)
Definition html_entry_ok (c : N) : bool :=
  let e := tbl_entry bm_html_quote c in
  forallb (fun x => negb (is_quote_meta x)) e &&
  ((c =? 0) || (match html_dec e None with Some [x] => x =? c | _ => false end && html_item_b e)).

Lemma html_entry_facts c : c < 256 ->
  forallb (fun x => negb (is_quote_meta x)) (tbl_entry bm_html_quote c) = true /\
  (c <> 0 -> html_dec (tbl_entry bm_html_quote c) None = Some [c] /\ html_item (tbl_entry bm_html_quote c)).
Proof.
  intros Hc. pose proof (forallb_bytes html_entry_ok ltac:(vm_compute; reflexivity) c Hc) as H.
  unfold html_entry_ok in H. cbv zeta in H. apply andb_prop in H as [Hq H]. split; [exact Hq|]. intros H0.
  apply orb_prop in H as [H|H]; [lia|]. apply andb_prop in H as [Hd Hi]. split; [|exact (html_item_b_sound _ Hi)].
  destruct (html_dec _ None) as [[|x [|y l]]|]; try discriminate. apply N.eqb_eq in Hd. now subst.
Qed.

Theorem html_unquote_quote s : bytes_ok s -> html_unquote (html_quote s) = Some (cstr s).
Proof.
  intros Hb. apply (concat_map_decode _ (fun c => c < 256 /\ c <> 0) (fun e => html_dec e None)).
  - intros c r [Hc H0]. apply (html_dec_app _ None [c]), html_entry_facts; assumption.
  - reflexivity.
  - apply cstr_ok, Hb.
Qed.

(* the quoted form is made of non-markup bytes and entity references *)
Theorem html_quote_items s : bytes_ok s ->
  exists items, html_quote s = concat items /\ Forall html_item items.
Proof.
  intros Hb. apply (concat_map_items _ (fun c => c < 256 /\ c <> 0)); [|apply cstr_ok, Hb].
  intros c [Hc H0]. apply html_entry_facts; assumption.
Qed.

Theorem html_quote_no_angle_or_quote s : bytes_ok s ->
  forallb (fun c => negb (is_quote_meta c)) (html_quote s) = true.
Proof.
  intros Hb. apply forallb_concat_map. intros c Hc.
  apply html_entry_facts. exact (proj1 (Forall_forall _ _) (cstr_bytes_ok _ Hb) c Hc).
Qed.

(* ---------- C31: percent-encoding ---------- *)

Definition res_of (o : option bytes) : dres := match o with Some x => DOk x | None => DBad end.

(* Tokenizer::int64(v, 16, false, 1) reads exactly one hex digit *)
Lemma tok_int64_hex1 h r : h < 256 ->
  tok_int64 16 false 1 (h :: r) = match hexval h with Some v => Some (Z.of_N v, 1) | None => None end.
Proof.
  intros Hh. replace (tok_int64 16 false 1 (h :: r)) with (tok_int64 16 false 1 [h])
    by (unfold tok_int64, int64_front; cbn [takeN N.eqb N.pred]; now rewrite takeN_0).
  pose proof (forallb_bytes
    (fun h => match tok_int64 16 false 1 [h], hexval h with
              | Some (z, n), Some v => (z =? Z.of_N v)%Z && (n =? 1)
              | None, None => true
              | _, _ => false
              end) ltac:(vm_compute; reflexivity) h Hh) as H. cbv beta in H.
  destruct (tok_int64 16 false 1 [h]) as [[z n]|], (hexval h); try discriminate; [|reflexivity].
  apply andb_prop in H as [Hz Hn]. apply Z.eqb_eq in Hz. apply N.eqb_eq in Hn. now subst.
Qed.

Lemma tok_int64_nil : tok_int64 16 false 1 [] = None.
Proof. reflexivity. Qed.

Lemma hexval_lt16 h v : hexval h = Some v -> v < 16.
Proof.
  unfold hexval. intros H.
  destruct ((48 <=? h) && (h <=? 57)) eqn:E1; [injection H as <-; lia|].
  destruct ((65 <=? h) && (h <=? 70)) eqn:E2; [injection H as <-; lia|].
  destruct ((97 <=? h) && (h <=? 102)) eqn:E3; [injection H as <-; lia|discriminate].
Qed.

Lemma shift_or_byte a b : a < 16 -> b < 16 ->
  Z.to_N ((Z.lor (Z.shiftl (Z.of_N a) 4) (Z.of_N b)) mod 256) = 16 * a + b.
Proof.
  intros Ha Hb.
  pose proof (forallb_bytes (fun c => Z.to_N ((Z.lor (Z.shiftl (Z.of_N (c / 16)) 4) (Z.of_N (c mod 16))) mod 256) =? c)
                ltac:(vm_compute; reflexivity) (16 * a + b) ltac:(lia)) as H.
  apply N.eqb_eq in H.
  replace ((16 * a + b) / 16) with a in H by lia. replace ((16 * a + b) mod 16) with b in H by lia. exact H.
Qed.

Lemma pct_decode_plain tok rest : forallb not_percent tok = true ->
  pct_decode (tok ++ rest) = option_map (app tok) (pct_decode rest).
Proof.
  induction tok as [|c tok IH]; intros H.
  - cbn. destruct (pct_decode rest); reflexivity.
  - cbn [forallb] in H. apply andb_prop in H as [Hc Ht].
    cbn [app pct_decode]. unfold not_percent in Hc. destruct (c =? 37); [discriminate|].
    rewrite (IH Ht). destruct (pct_decode rest); reflexivity.
Qed.

Lemma span_length {A} (p : A -> bool) l : (length (snd (span p l)) <= length l)%nat.
Proof.
  rewrite <- (span_app p l) at 2. rewrite app_length. lia.
Qed.

(* AnyP::Uri::Decode computes RFC 3986 percent-decoding (and never runs out of fuel) *)
Lemma uri_decode_loop_spec : forall fuel buf, bytes_ok buf -> (length buf < fuel)%nat ->
  uri_decode_loop fuel buf = res_of (pct_decode buf).
Proof.
  induction fuel as [|f IH]; intros buf Hb Hlen; [lia|].
  cbn [uri_decode_loop]. destruct buf as [|c0 buf0]; [reflexivity|].
  remember (c0 :: buf0) as buf eqn:Ebuf.
  unfold uri_decode_turn.
  pose proof (span_app not_percent buf) as Happ.
  pose proof (span_all not_percent buf) as Hall.
  pose proof (span_stop not_percent buf) as Hstop.
  destruct (span not_percent buf) as [tok rest]. cbn [fst snd] in *.
  assert (Hlb : (length buf = length tok + length rest)%nat) by (rewrite <- Happ, app_length; reflexivity).
  assert (Hne : (length buf > 0)%nat) by (subst buf; cbn; lia).
  rewrite <- Happ in Hb. apply Forall_app in Hb as [_ Hbr].
  rewrite <- Happ. rewrite (pct_decode_plain tok rest Hall).
  destruct rest as [|p r].
  - (* the run reached the end *)
    rewrite IH; [|apply Forall_nil|cbn [length]; lia]. reflexivity.
  - unfold not_percent in Hstop. destruct (N.eqb_spec p 37) as [->|]; [|discriminate].
    cbn [pct_decode]. change (37 =? 37) with true. cbv iota.
    pose proof (Forall_inv_tail Hbr) as Hr.
    destruct r as [|h1 r1]; [reflexivity|].
    pose proof (Forall_inv Hr) as Hh1. pose proof (Forall_inv_tail Hr) as Hr1. cbv beta in Hh1.
    rewrite (tok_int64_hex1 h1 r1 Hh1).
    destruct (hexval h1) as [a|] eqn:Ea; [|destruct r1 as [|? ?]; reflexivity].
    change (dropN 1 (h1 :: r1)) with (dropN 0 r1). rewrite dropN_0.
    destruct r1 as [|h2 r2]; [reflexivity|].
    pose proof (Forall_inv Hr1) as Hh2. pose proof (Forall_inv_tail Hr1) as Hr2. cbv beta in Hh2.
    rewrite (tok_int64_hex1 h2 r2 Hh2).
    destruct (hexval h2) as [b|] eqn:Eb; [|reflexivity].
    change (dropN 1 (h2 :: r2)) with (dropN 0 r2). rewrite dropN_0.
    rewrite (shift_or_byte a b (hexval_lt16 _ _ Ea) (hexval_lt16 _ _ Eb)).
    rewrite IH; [|exact Hr2|cbn [length] in *; lia].
    destruct (pct_decode r2); [|reflexivity]. cbn [res_of option_map]. rewrite <- app_assoc. reflexivity.
Qed.

Theorem uri_decode_spec buf : bytes_ok buf -> uri_decode buf = res_of (pct_decode buf).
Proof. intros Hb. apply uri_decode_loop_spec; [exact Hb|lia]. Qed.

(* the entry of byte c reads back as c: the byte itself (not '%'), or the triplet whose value is the byte *)
Definition pct_item_rt (c : N) (e : bytes) : bool :=
  match e with
  | [x] => (x =? c) && negb (x =? 37)
  | [p; h; l] => (p =? 37) &&
                 match hexval h, hexval l with Some a, Some b => 16 * a + b =? c | _, _ => false end
  | _ => false
  end.

(* alphabet: a byte of the ignore set left alone, or '%' followed by two hex digits *)
Definition pct_item (ignore : cset) (it : bytes) : Prop :=
  (exists x, it = [x] /\ ignore x = true) \/
  (exists h l, it = [37; h; l] /\ is_hex h = true /\ is_hex l = true).

Lemma pct_decode_item c e r : pct_item_rt c e = true ->
  pct_decode (e ++ r) = option_map (cons c) (pct_decode r).
Proof.
  unfold pct_item_rt. destruct e as [|x [|h [|l [|? ?]]]]; try discriminate.
  - intros H. apply andb_prop in H as [Hx Hp]. apply N.eqb_eq in Hx. subst x.
    cbn [app pct_decode]. destruct (c =? 37); [discriminate|reflexivity].
  - intros H. apply andb_prop in H as [Hp H]. apply N.eqb_eq in Hp. subst x.
    cbn [app pct_decode]. change (37 =? 37) with true. cbv iota.
    destruct (hexval h) as [a|]; [|discriminate]. destruct (hexval l) as [b|]; [|discriminate].
    apply N.eqb_eq in H. now rewrite H.
Qed.

(* --- AnyP::Uri::Encode with an arbitrary ignore set (hand-written model) --- *)
Lemma hexval_hex_upper d : d < 16 -> hexval (hex_upper d) = Some d.
Proof.
  intros Hd. unfold hex_upper, hexval. destruct (d <? 10) eqn:E.
  - replace ((48 <=? 48 + d) && (48 + d <=? 57)) with true by lia. f_equal. lia.
  - replace ((48 <=? 55 + d) && (55 + d <=? 57)) with false by lia.
    replace ((65 <=? 55 + d) && (55 + d <=? 70)) with true by lia. f_equal. lia.
Qed.

Lemma pct_triplet_rt c : c < 256 -> pct_item_rt c (pct_triplet c) = true.
Proof.
  intros Hc. unfold pct_triplet, pct_item_rt. rewrite !hexval_hex_upper by lia.
  rewrite N.eqb_refl. cbn [andb]. lia.
Qed.

(* the percent sign itself must not be left alone *)
Lemma pct_entry_rt ignore c : c < 256 -> (c = 37 -> ignore c = false) -> pct_item_rt c (pct_entry ignore c) = true.
Proof.
  intros Hc H37. unfold pct_entry. destruct (ignore c) eqn:E; [|apply pct_triplet_rt, Hc].
  cbn [pct_item_rt]. rewrite N.eqb_refl. destruct (N.eqb_spec c 37) as [E37|]; [|reflexivity].
  discriminate (H37 E37).
Qed.

Lemma pct_entry_bytes ignore c : c < 256 -> forallb (fun x => x <? 256) (pct_entry ignore c) = true.
Proof.
  intros Hc. unfold pct_entry, pct_triplet, hex_upper. destruct (ignore c); cbn [forallb]; [lia|].
  destruct (c / 16 <? 10), (c mod 16 <? 10); lia.
Qed.

Lemma pct_entry_item ignore c : c < 256 -> pct_item ignore (pct_entry ignore c).
Proof.
  intros Hc. unfold pct_entry. destruct (ignore c) eqn:E; [left; now exists c|].
  right. exists (hex_upper (c / 16)), (hex_upper (c mod 16)). unfold is_hex. now rewrite !hexval_hex_upper by lia.
Qed.

Lemma uri_decode_encode_set_when ignore s : bytes_ok s -> Forall (fun c => c = 37 -> ignore c = false) s ->
  uri_decode (uri_encode_set ignore s) = DOk s.
Proof.
  intros Hb Hp. unfold uri_encode_set. rewrite uri_decode_spec.
  - rewrite (concat_map_decode _ (fun c => c < 256 /\ (c = 37 -> ignore c = false)) pct_decode s);
      [reflexivity| |reflexivity|apply Forall_and; assumption].
    intros c r [Hc H]. apply pct_decode_item, pct_entry_rt; assumption.
  - apply (forallb_Forall (fun x => x <? 256)); [lia|].
    apply forallb_concat_map. intros c Hc. apply pct_entry_bytes. exact (proj1 (Forall_forall _ _) Hb c Hc).
Qed.

Theorem uri_decode_encode_set ignore s : ignore 37 = false -> bytes_ok s ->
  uri_decode (uri_encode_set ignore s) = DOk s.
Proof.
  intros H37 Hb. apply uri_decode_encode_set_when; [exact Hb|]. apply Forall_forall. now intros c _ ->.
Qed.

Theorem uri_encode_set_alphabet ignore s : bytes_ok s ->
  exists items, uri_encode_set ignore s = concat items /\ Forall (pct_item ignore) items.
Proof. apply concat_map_items, pct_entry_item. Qed.

(* --- the three encoders used in the tree: the regenerated tables are exactly that encoder applied with
   the regenerated sets --- *)
Definition tables_check (c : N) : bool :=
  list_eqb (tbl_entry bm_uri_userinfo c) (pct_entry (mem_tbl bm_uri_userinfo_set) c) &&
  list_eqb (tbl_entry bm_uri_path c) (pct_entry (mem_tbl bm_uri_path_set) c) &&
  list_eqb (tbl_entry bm_uri_unreserved c) (pct_entry (mem_tbl bm_uri_unreserved_set) c).
Theorem uri_tables_are_pct_entry c : c < 256 ->
  tbl_entry bm_uri_userinfo c = pct_entry (mem_tbl bm_uri_userinfo_set) c /\
  tbl_entry bm_uri_path c = pct_entry (mem_tbl bm_uri_path_set) c /\
  tbl_entry bm_uri_unreserved c = pct_entry (mem_tbl bm_uri_unreserved_set) c.
Proof.
  intros Hc. pose proof (forallb_bytes tables_check ltac:(vm_compute; reflexivity) c Hc) as H.
  unfold tables_check in H. apply andb_prop in H as [H H3]. apply andb_prop in H as [H1 H2].
  repeat split; apply list_eqb_eq; assumption.
Qed.

Lemma uri_encoders_are_encode_set s : bytes_ok s ->
  uri_encode_userinfo s = uri_encode_set (mem_tbl bm_uri_userinfo_set) s /\
  uri_encode_path s = uri_encode_set (mem_tbl bm_uri_path_set) s /\
  uri_encode_unreserved s = uri_encode_set (mem_tbl bm_uri_unreserved_set) s.
Proof.
  intros Hb. unfold bytes_ok in Hb. rewrite Forall_forall in Hb.
  pose proof (fun c Hc => uri_tables_are_pct_entry c (Hb c Hc)) as E.
  unfold uri_encode_userinfo, uri_encode_path, uri_encode_unreserved, map_bytes, uri_encode_set.
  split; [|split]; apply (f_equal (@concat N)), map_ext_in; intros c Hc.
  - exact (proj1 (E c Hc)).
  - exact (proj1 (proj2 (E c Hc))).
  - exact (proj2 (proj2 (E c Hc))).
Qed.

(* the path encoder leaves '%' alone (it is in PathChars): the round trip fails exactly there *)
Definition percent_free (s : bytes) : Prop := Forall (fun c => c <> 37) s.

Theorem uri_decode_encode_path_partial s : bytes_ok s -> percent_free s ->
  uri_decode (uri_encode_path s) = DOk s.
Proof.
  intros Hb Hp. rewrite (proj1 (proj2 (uri_encoders_are_encode_set s Hb))).
  apply uri_decode_encode_set_when; [exact Hb|]. revert Hp. apply Forall_impl. intros c H E. contradiction.
Qed.

Lemma path_rt c : c < 256 -> c <> 37 -> pct_item_rt c (tbl_entry bm_uri_path c) = true.
Proof.
  intros Hc H37. rewrite (proj1 (proj2 (uri_tables_are_pct_entry c Hc))). apply pct_entry_rt; [exact Hc|contradiction].
Qed.
Lemma path_bytes c : c < 256 -> forallb (fun x => x <? 256) (tbl_entry bm_uri_path c) = true.
Proof. intros Hc. rewrite (proj1 (proj2 (uri_tables_are_pct_entry c Hc))). apply pct_entry_bytes, Hc. Qed.

(* the sets read off the encoders are the ones RFC 3986 / the source name:
   unreserved = ALPHA DIGIT - . _ ~ ; userinfo adds sub-delims and ':' ; path adds '/' '@' '%' and,
   because path_ holds path+query, the query delimiter '?' (PathChars + '?' in Uri::absolutePath()) *)
Definition in_range (lo hi c : N) : bool := (lo <=? c) && (c <=? hi).
Definition rfc3986_unreserved (c : N) : bool :=
  in_range 65 90 c || in_range 97 122 c || in_range 48 57 c || existsb (N.eqb c) [45; 46; 95; 126].
Definition rfc3986_sub_delims (c : N) : bool := existsb (N.eqb c) [33; 36; 38; 39; 40; 41; 42; 43; 44; 59; 61].
Definition sets_check (c : N) : bool :=
  Bool.eqb (mem_tbl bm_uri_unreserved_set c) (rfc3986_unreserved c) &&
  Bool.eqb (mem_tbl bm_uri_userinfo_set c) (rfc3986_unreserved c || rfc3986_sub_delims c || (c =? 58)) &&
  Bool.eqb (mem_tbl bm_uri_path_set c)
           (rfc3986_unreserved c || rfc3986_sub_delims c || (c =? 58) || (c =? 64) || (c =? 47) || (c =? 37) || (c =? 63)).
Theorem uri_ignore_sets c : c < 256 ->
  mem_tbl bm_uri_unreserved_set c = rfc3986_unreserved c /\
  mem_tbl bm_uri_userinfo_set c = (rfc3986_unreserved c || rfc3986_sub_delims c || (c =? 58)) /\
  mem_tbl bm_uri_path_set c =
    (rfc3986_unreserved c || rfc3986_sub_delims c || (c =? 58) || (c =? 64) || (c =? 47) || (c =? 37) || (c =? 63)).
Proof.
  intros Hc. pose proof (forallb_bytes sets_check ltac:(vm_compute; reflexivity) c Hc) as H.
  unfold sets_check in H. apply andb_prop in H as [H H3]. apply andb_prop in H as [H1 H2].
  apply Bool.eqb_prop in H1, H2, H3. repeat split; assumption.
Qed.

(* ---------- C31: rfc1738_do_escape / rfc1738_unescape ---------- *)

(* entry shape for the round trip: the byte itself (not '%'), or %HL with value = the byte, 1..255 *)
Definition esc_item_rt (c : N) (e : bytes) : bool :=
  match e with
  | [x] => (x =? c) && negb (x =? 37)
  | [p; h; l] => (p =? 37) &&
                 match hexval h, hexval l with
                 | Some a, Some b => (a * 16 + b =? c) && (0 <? c) && (c <=? 255)
                 | _, _ => false
                 end
  | _ => false
  end.

Lemma unesc_list_item c e r : esc_item_rt c e = true -> unesc_list (e ++ r) = c :: unesc_list r.
Proof.
  unfold esc_item_rt. destruct e as [|x [|h [|l [|? ?]]]]; try discriminate.
  - intros H. apply andb_prop in H as [Hx Hp]. apply N.eqb_eq in Hx. subst x.
    cbn [app unesc_list]. rewrite Hp. reflexivity.
  - intros H. apply andb_prop in H as [Hp H]. apply N.eqb_eq in Hp. subst x.
    destruct (hexval h) as [a|] eqn:Ea; [|discriminate]. destruct (hexval l) as [b|] eqn:Eb; [|discriminate].
    apply andb_prop in H as [H H255]. apply andb_prop in H as [Hv H0]. apply N.eqb_eq in Hv.
    cbn [app unesc_list]. change (negb (37 =? 37)) with false. cbv iota.
    destruct (N.eqb_spec h 37) as [->|]; [discriminate Ea|]. unfold fromhex. rewrite Ea, Eb. cbv zeta.
    rewrite Hv, H0, H255. reflexivity.
Qed.

Lemma unesc_list_concat_map (f : N -> bytes) (P : N -> Prop) s :
  (forall c, P c -> esc_item_rt c (f c) = true) -> Forall P s -> unesc_list (concat (map f s)) = s.
Proof.
  intros H Hs. induction Hs as [|c s Hc _ IH]; [reflexivity|].
  cbn [map concat]. now rewrite (unesc_list_item c _ _ (H c Hc)), IH.
Qed.

(* does this flag set make rfc1738_do_escape escape '%' itself?  UNSAFE without NOPERCENT *)
Definition escapes_percent (flags : N) : bool :=
  negb (N.land flags bm_RFC1738_ESCAPE_UNSAFE =? 0) && (N.land flags bm_RFC1738_ESCAPE_NOPERCENT =? 0).

(* one sweep over the seven regenerated tables: no entry contains a NUL (the escaped form is again a C string),
   and the entry of every byte reads back as that byte, except NUL and, under flags that leave it alone, '%' *)
Definition flag_entry_ok (flags c : N) (e : bytes) : bool :=
  forallb (fun x => negb (x =? 0)) e &&
  ((c =? 0) || ((c =? 37) && negb (escapes_percent flags)) || esc_item_rt c e).

Lemma assoc_tbl_in l k t : assoc_tbl l k = Some t -> In (k, t) l.
Proof.
  induction l as [|[k' t'] l IH]; cbn [assoc_tbl]; [discriminate|].
  destruct (N.eqb_spec k k') as [<-|]; [|intros H; right; apply IH, H].
  intros H. injection H as <-. now left.
Qed.

Lemma flag_tables_ok flags t c : rfc1738_tbl flags = Some t -> c < 256 -> flag_entry_ok flags c (tbl_entry t c) = true.
Proof.
  intros Ht. apply assoc_tbl_in in Ht. revert c. apply forallb_bytes.
  assert (H : forallb (fun ft => forallb (fun c => flag_entry_ok (fst ft) c (tbl_entry (snd ft) c)) all_bytes)
                      bm_rfc1738_all = true) by (vm_compute; reflexivity).
  rewrite forallb_forall in H. exact (H _ Ht).
Qed.

Lemma flag_table_rt flags t c : rfc1738_tbl flags = Some t -> c < 256 -> c <> 0 ->
  (c = 37 -> escapes_percent flags = true) -> esc_item_rt c (tbl_entry t c) = true.
Proof.
  intros Ht Hc H0 H37. pose proof (flag_tables_ok flags t c Ht Hc) as H. unfold flag_entry_ok in H.
  apply andb_prop in H as [_ H]. apply orb_prop in H as [H|H]; [|exact H].
  apply orb_prop in H as [H|H]; [lia|]. apply andb_prop in H as [E H]. rewrite H37 in H by lia. discriminate.
Qed.

Lemma escaped_nul_free flags t s : rfc1738_tbl flags = Some t -> bytes_ok s -> nul_free (map_bytes t s).
Proof.
  intros Ht Hb. apply (forallb_Forall (fun x => negb (x =? 0))); [lia|].
  apply forallb_concat_map. intros c Hc. pose proof (proj1 (Forall_forall _ _) Hb c Hc) as L.
  pose proof (flag_tables_ok flags t c Ht L) as H. now apply andb_prop in H.
Qed.

(* ---------- the in-place loop computes unesc_list and stays inside the C string ---------- *)
Lemma setN_app_at {A} (a : list A) x v Y : setN (lenN a) v (a ++ x :: Y) = Some (a ++ v :: Y).
Proof.
  induction a as [|y a IH]; cbn [lenN app setN]; [reflexivity|].
  destruct (N.succ (lenN a) =? 0) eqn:E; [lia|].
  replace (N.pred (N.succ (lenN a))) with (lenN a) by lia. rewrite IH. reflexivity.
Qed.

(* s[i] = c where c was just read at j >= i: the written prefix grows by c, the gap keeps its length *)
Lemma write_step (w g : bytes) (c : N) (X : bytes) : exists G : bytes,
  setN (lenN w) c (w ++ g ++ c :: X) = Some ((w ++ [c]) ++ G ++ X) /\ lenN G = lenN g.
Proof.
  destruct g as [|x g'].
  - exists []. cbn [app]. rewrite setN_app_at, <- app_assoc. split; reflexivity.
  - exists (g' ++ [c]). cbn [app]. rewrite setN_app_at. split.
    + f_equal. rewrite <- !app_assoc. reflexivity.
    + rewrite lenN_app. cbn [lenN]. lia.
Qed.

Lemma read_at (w g X : bytes) k i : i = lenN w + lenN g + k -> nthN i (w ++ g ++ X) = nthN k X.
Proof. intros ->. rewrite !nthN_app_r by lia. f_equal. lia. Qed.

(* decides the tests on the literal index or NUL byte that reading s[j] leaves behind in unesc_loop *)
Ltac simp0 := repeat (progress (change (0 =? 0) with true; change (0 =? 37) with false;
                                change (1 =? 0) with false; change (N.pred 1) with 0; cbv iota)).

Lemma unesc_loop_spec : forall fuel r, nul_free r -> (length r < fuel)%nat ->
  forall w g rest i j, i = lenN w -> j = lenN w + lenN g ->
  exists junk,
    unesc_loop fuel (w ++ g ++ r ++ 0 :: rest) i j =
      UOk (w ++ unesc_list r ++ 0 :: junk ++ rest) (lenN w + lenN (unesc_list r)) /\
    lenN (unesc_list r) + lenN junk = lenN g + lenN r.
Proof.
  induction fuel as [|f IH]; intros r Hn Hlen w g rest i j Hi Hj; [lia|].
  cbn [unesc_loop].
  rewrite (read_at w g (r ++ 0 :: rest) 0 j) by lia.
  destruct r as [|c r'].
  - (* terminator reached: s[i] = 0 *)
    cbn [app nthN]. simp0. subst i.
    destruct g as [|x g'].
    + exists []. cbn [app]. rewrite setN_app_at. cbn [unesc_list lenN app]. split; [f_equal; lia|lia].
    + exists (g' ++ [0]). cbn [app]. rewrite setN_app_at. cbn [unesc_list lenN app]. split.
      * f_equal; [|lia]. f_equal. f_equal. rewrite <- app_assoc. reflexivity.
      * rewrite lenN_app. cbn [lenN]. lia.
  - pose proof (Forall_inv Hn) as Hc0. pose proof (Forall_inv_tail Hn) as Hn'. cbv beta in Hc0.
    cbn [app nthN]. simp0.
    destruct (c =? 0) eqn:Ec0; [apply N.eqb_eq in Ec0; contradiction|].
    destruct (write_step w g c (r' ++ 0 :: rest)) as [G [HG HlG]].
    subst i. rewrite HG.
    assert (Hw1 : lenN (w ++ [c]) = lenN w + 1) by (rewrite lenN_app; cbn [lenN]; lia).
    cbn [length] in Hlen.
    (* common continuation: `continue` with the whole rest r' *)
    assert (Hcont : exists junk,
              unesc_loop f ((w ++ [c]) ++ G ++ r' ++ 0 :: rest) (lenN w + 1) (j + 1) =
                UOk (w ++ c :: unesc_list r' ++ 0 :: junk ++ rest) (lenN w + lenN (c :: unesc_list r')) /\
              lenN (c :: unesc_list r') + lenN junk = lenN g + lenN (c :: r')).
    { destruct (IH r' Hn' ltac:(lia) (w ++ [c]) G rest (lenN w + 1) (j + 1) ltac:(lia) ltac:(lia)) as [junk [H1 H2]].
      exists junk. rewrite H1. split; [|cbn [lenN]; lia].
      f_equal; [rewrite <- app_assoc; reflexivity|cbn [lenN]; lia]. }
    destruct (negb (c =? 37)) eqn:E37.
    + (* ordinary byte *)
      cbn [unesc_list]. rewrite E37. exact Hcont.
    + apply Bool.negb_false_iff, N.eqb_eq in E37. subst c.
      rewrite (read_at (w ++ [37]) G (r' ++ 0 :: rest) 0 (j + 1)) by lia.
      destruct r' as [|c1 r1].
      * (* '%' then NUL *)
        cbn [app nthN]. simp0.
        change (fromhex 0) with (@None N).
        cbn [unesc_list] in *. change (negb (37 =? 37)) with false in *. cbv iota in *. exact Hcont.
      * pose proof (Forall_inv_tail Hn') as Hn1.
        cbn [app nthN]. simp0.
        cbn [unesc_list]. change (negb (37 =? 37)) with false. cbv iota.
        cbn [unesc_list] in Hcont. change (negb (37 =? 37)) with false in Hcont. cbv iota in Hcont.
        destruct (c1 =? 37) eqn:Ec1.
        -- (* %% *)
           apply N.eqb_eq in Ec1. subst c1. cbn [length] in Hlen.
           destruct (IH r1 Hn1 ltac:(lia) (w ++ [37]) (G ++ [37]) rest (lenN w + 1) (j + 2)
                        ltac:(lia) ltac:(rewrite !lenN_app; cbn [lenN]; lia)) as [junk [H1 H2]].
           exists junk. rewrite <- !app_assoc in H1. cbn [app] in H1. rewrite <- !app_assoc. cbn [app].
           rewrite H1. split; [f_equal; cbn [lenN]; lia|].
           rewrite lenN_app in H2. cbn [lenN] in *. lia.
        -- destruct (fromhex c1) as [v1|] eqn:Ev1; [|exact Hcont].
           rewrite (read_at (w ++ [37]) G (c1 :: r1 ++ 0 :: rest) 1 (j + 2)) by lia.
           cbn [nthN]. simp0.
           destruct r1 as [|c2 r2].
           ++ cbn [app nthN]. simp0.
              change (fromhex 0) with (@None N). exact Hcont.
           ++ pose proof (Forall_inv_tail Hn1) as Hn2.
              cbn [app nthN]. simp0.
              destruct (fromhex c2) as [v2|] eqn:Ev2; [|exact Hcont].
              cbv zeta.
              destruct ((0 <? v1 * 16 + v2) && (v1 * 16 + v2 <=? 255)) eqn:Ex; [|exact Hcont].
              (* decoded: s[i] = x, j += 2 *)
              rewrite <- (app_assoc w [37]). cbn [app]. rewrite setN_app_at.
              cbn [length] in Hlen.
              destruct (IH r2 Hn2 ltac:(lia) (w ++ [v1 * 16 + v2]) (G ++ [c1; c2]) rest (lenN w + 1) (j + 3)
                           ltac:(rewrite lenN_app; cbn [lenN]; lia)
                           ltac:(rewrite !lenN_app; cbn [lenN]; lia)) as [junk [H1 H2]].
              exists junk. rewrite <- !app_assoc in H1. cbn [app] in H1. rewrite H1.
              split; [f_equal; try reflexivity; try (rewrite <- app_assoc; reflexivity); rewrite ?lenN_app; cbn [lenN]; lia|].
              rewrite lenN_app in H2. cbn [lenN] in *. lia.
Qed.

(* the call on a buffer holding the NUL-free string r, its terminator, and anything after it *)
Theorem rfc1738_unescape_spec r rest : nul_free r ->
  exists junk,
    rfc1738_unescape (r ++ 0 :: rest) = UOk (unesc_list r ++ 0 :: junk ++ rest) (lenN (unesc_list r)) /\
    lenN (unesc_list r) + lenN junk = lenN r.
Proof.
  intros Hn. unfold rfc1738_unescape.
  destruct (unesc_loop_spec (S (length (r ++ 0 :: rest))) r Hn
              ltac:(rewrite app_length; cbn [length]; lia) [] [] rest 0 0 eq_refl eq_refl) as [junk [H1 H2]].
  exists junk. cbn [app lenN] in *. rewrite H1. split; [f_equal|]; lia.
Qed.

(* the C string left in the buffer by unescape(escape(s)) is s; stated on the explicit buffer *)
Definition unescaped_to (res : ures) (orig : bytes) (buflen : N) : Prop :=
  exists junk, res = UOk (orig ++ 0 :: junk) (lenN orig) /\ lenN orig + lenN junk = buflen.

(* the round trip holds when the flags escape '%' or the string has none *)
Lemma rfc1738_unescape_escape_when flags s e : bytes_ok s ->
  Forall (fun c => c = 37 -> escapes_percent flags = true) (cstr s) ->
  rfc1738_do_escape flags s = Some e ->
  unescaped_to (rfc1738_unescape (e ++ [0])) (cstr s) (lenN e).
Proof.
  intros Hb Hp Hesc. unfold rfc1738_do_escape in Hesc.
  destruct (rfc1738_tbl flags) as [t|] eqn:Et; [|discriminate]. injection Hesc as <-.
  unfold rfc1738_escape_tbl.
  assert (E : unesc_list (map_bytes t (cstr s)) = cstr s).
  { apply (unesc_list_concat_map _ (fun c => (c < 256 /\ c <> 0) /\ (c = 37 -> escapes_percent flags = true))).
    - intros c [[Hc H0] H37]. now apply (flag_table_rt flags).
    - apply Forall_and; [apply cstr_ok, Hb|exact Hp]. }
  destruct (rfc1738_unescape_spec (map_bytes t (cstr s)) [] (escaped_nul_free flags t _ Et (cstr_bytes_ok s Hb)))
    as [junk [H1 H2]].
  rewrite E, app_nil_r in H1. rewrite E in H2. now exists junk.
Qed.

Theorem rfc1738_unescape_escape flags s e : bytes_ok s -> escapes_percent flags = true ->
  rfc1738_do_escape flags s = Some e ->
  unescaped_to (rfc1738_unescape (e ++ [0])) (cstr s) (lenN e).
Proof. intros Hb He. apply rfc1738_unescape_escape_when; [exact Hb|]. apply Forall_forall. now intros. Qed.

Theorem rfc1738_unescape_escape_partial flags s e : bytes_ok s -> percent_free (cstr s) ->
  rfc1738_do_escape flags s = Some e ->
  unescaped_to (rfc1738_unescape (e ++ [0])) (cstr s) (lenN e).
Proof.
  intros Hb Hp. apply rfc1738_unescape_escape_when; [exact Hb|].
  revert Hp. apply Forall_impl. intros c H E. contradiction.
Qed.

Definition cstring_of (res : ures) : option bytes :=
  match res with UOk buf i => Some (takeN i buf) | _ => None end.

Theorem rfc1738_unescape_escape_refuted :
  forall flags, In flags [0; 4; 259; 387] ->
  exists s e, bytes_ok s /\ nul_free s /\ rfc1738_do_escape flags s = Some e /\
              cstring_of (rfc1738_unescape (e ++ [0])) = Some [65] /\ s <> [65].
Proof.
  intros flags Hin. exists [37; 52; 49], [37; 52; 49].
  split; [repeat constructor|]. split; [repeat constructor; discriminate|].
  cbn [In] in Hin. destruct Hin as [<-|[<-|[<-|[<-|[]]]]]; (split; [vm_compute; reflexivity|]);
    (split; [vm_compute; reflexivity|discriminate]).
Qed.
