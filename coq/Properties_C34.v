(* Properties_C34.v — C34: each transaction yields exactly one well-delimited log record.
   Statements, closed by `exact` or by the few lines that assemble them; proofs live in PagelogProofs.v.
   Model (PagelogModel.v): log_quoted_string and the quoting switch of Format::Format::assemble
   (src/format/Format.cc), Format::QuoteMimeBlob / QuoteUrlEncodeUsername (src/format/Quoting.cc),
   strwordquote (src/tools.cc), rfc1738_escape / rfc1738_escape_unescaped (lib/rfc1738.cc, per-byte tables
   regenerated from the function), the style selection of Format::Token::parse, and
   Log::Format::SquidCustom (record = assembled tokens + LF).  The dispatch tables (which function each
   LOG_QUOTE_ style runs, the modifier characters, which %codes set quote = 1, the guard around the switch) are
   regenerated from the source on every run (gen/LogQuote_gen.v).
   The readers (read_quoted, read_until, read_bracketed, read_shell_word, mime_decode) are reference
   specifications written here, not code of /repo.  cstr s = the bytes of s before the first NUL (the functions
   take C strings); bytes_ok s = every element is below 256. *)
Require Import SquidV.Bytes SquidV.QuoteModel SquidV.PagelogModel SquidV.PagelogProofs.
Require Import SquidV.gen.ByteMaps_gen SquidV.gen.LogQuote_gen.
Local Open Scope N_scope.

(* ---- the dispatch as it is in the source today ---- *)
Theorem C34_quoting_switch_dispatch :
  lq_guard_ok = true /\ lq_dash_ok = true /\
  quote_fn_of lq_enum_NONE = 1 /\ quote_fn_of lq_enum_QUOTES = 2 /\ quote_fn_of lq_enum_MIMEBLOB = 3 /\
  quote_fn_of lq_enum_URL = 4 /\ quote_fn_of lq_enum_SHELL = 5 /\ quote_fn_of lq_enum_RAW = 0 /\
  style_of (Some 34) lq_enum_NONE = lq_enum_QUOTES /\ style_of (Some 91) lq_enum_NONE = lq_enum_MIMEBLOB /\
  style_of (Some 35) lq_enum_NONE = lq_enum_URL /\ style_of (Some 47) lq_enum_NONE = lq_enum_SHELL /\
  style_of (Some 39) lq_enum_NONE = lq_enum_RAW.
Proof. vm_compute. repeat split. Qed.

(* the hand-written per-byte rules of log_quoted_string and QuoteMimeBlob are what the functions compute
   (tables regenerated from the real functions); the user-name quoting is QuoteMimeBlob followed by a pass that
   rewrites every space to %20 (per byte: user_entry) *)
Theorem C34_quoted_string_rule_matches_code : forall c, c < 256 -> c <> 0 ->
  lqs_entry c = tbl_entry bm_log_quoted_string c.
Proof. exact lqs_entry_table. Qed.
Theorem C34_mime_blob_rule_matches_code : forall c, c < 256 -> c <> 0 -> mime_entry c = tbl_entry bm_mimeblob c.
Proof. exact mime_entry_table. Qed.
Theorem C34_username_rule_matches_code : forall c, c < 256 -> c <> 0 -> user_entry c = tbl_entry bm_username_quote c.
Proof. exact user_entry_table. Qed.
Theorem C34_username_two_passes_are_per_byte_rule : forall s,
  encode_spaces (mime_blob s) = concat (map user_entry (cstr s)).
Proof. exact encode_spaces_mime_blob. Qed.

(* ---- no quoted form contains a raw CR or LF (all inputs) ---- *)
Theorem C34_quoted_string_no_line_break : forall s, forallb no_crlf (log_quoted_string s) = true.
Proof. exact lqs_no_crlf. Qed.
Theorem C34_mime_blob_no_line_break : forall s, forallb no_crlf (mime_blob s) = true.
Proof. exact mime_no_crlf. Qed.
Theorem C34_shell_no_line_break : forall s, forallb no_crlf (shell_quote s) = true.
Proof. exact shell_no_crlf. Qed.
Theorem C34_url_no_line_break_no_space : forall s, forallb (fun c => no_crlf c && no_sp c) (url_quote s) = true.
Proof. exact url_no_crlf_sp. Qed.
Theorem C34_default_no_line_break_no_space : forall s, forallb (fun c => no_crlf c && no_sp c) (default_quote s) = true.
Proof. exact default_no_crlf_sp. Qed.

(* ---- reversible and delimited: reading the quoted form back up to its delimiter returns exactly the value
   and leaves exactly what followed, whatever follows ---- *)
(* quoted-string style inside double quotes *)
Theorem C34_quoted_string_delimited_and_reversible : forall s rest,
  read_quoted unbackslash (log_quoted_string s ++ 34 :: rest) = Some (cstr s, rest).
Proof. exact quoted_string_delimited. Qed.

(* mime-blob style inside square brackets *)
Theorem C34_mime_blob_reversible : forall s, bytes_ok s -> mime_decode (mime_blob s) = Some (cstr s).
Proof. exact mime_reversible. Qed.
Theorem C34_mime_blob_bracket_delimited : forall s rest, bytes_ok s ->
  read_bracketed (mime_blob s ++ 93 :: rest) = Some (cstr s, rest).
Proof. exact mime_bracket_delimited. Qed.

(* URL style and the default style: delimited by the next space; URL style is undone by percent-decoding
   (pct_decode: structural RFC 3986 decoder; that Squid's rfc1738_unescape computes it on escaped strings is C31's
   theorem); the default style keeps percent signs and is not injective (C31 finding rfc1738-percent-kept) *)
Theorem C34_url_space_delimited : forall s rest, read_until 32 (url_quote s ++ 32 :: rest) = Some (url_quote s, rest).
Proof. exact url_delimited. Qed.
Theorem C34_default_space_delimited : forall s rest,
  read_until 32 (default_quote s ++ 32 :: rest) = Some (default_quote s, rest).
Proof. exact default_delimited. Qed.
Theorem C34_url_reversible : forall s, bytes_ok s -> pct_decode (url_quote s) = Some (cstr s).
Proof. exact url_reversible. Qed.

(* shell style: a word, quoted when it contains a space *)
Theorem C34_shell_delimited_and_reversible : forall s rest, cstr s <> [] ->
  read_shell_word (shell_quote s ++ 32 :: rest) = Some (cstr s, rest).
Proof. exact shell_delimited. Qed.

(* ---- the user-name field of the built-in squid format (Format::QuoteUrlEncodeUsername as repaired by /repo
   a257b3d; former finding F11): for EVERY user name the logged form contains no space, CR or LF, so the field
   ends at the next space whatever follows, and it decodes back to the name; absent / empty names give no field
   text (a dash is logged) ---- *)
Theorem C34_username_field_delimited_and_reversible : forall name q rest, bytes_ok name ->
  username_quote (Some name) = Some q ->
  forallb user_out_ok q = true /\
  read_until 32 (q ++ 32 :: rest) = Some (q, rest) /\
  mime_decode q = Some (cstr name).
Proof. exact username_field_delimited. Qed.
Theorem C34_username_absent_or_empty : username_quote None = None /\ forall n, cstr n = [] -> username_quote (Some n) = None.
Proof. split; [reflexivity|]. intros n H. unfold username_quote. rewrite H. reflexivity. Qed.

(* ---- what still deviates: the mime-blob style itself leaves a space as it is (documented: SP is not encoded), so a
   custom logformat that uses a %[code OUTSIDE brackets gets a field that a value with a space splits; what does
   hold for the style: printable ASCII without brackets (delimited inside brackets, above) ---- *)
Theorem C34_mime_blob_bare_field_refuted : mime_blob [97; 32; 98] = [97; 32; 98].
Proof. reflexivity. Qed.
Theorem C34_mime_blob_bare_field_partial : forall s, bytes_ok s -> forallb mime_out_ok (mime_blob s) = true.
Proof. exact mime_alphabet. Qed.

(* ---- one record, one line: for EVERY logformat whose literal text has no LF and whose codes all go through
   one of the five quoting functions, the record contains exactly one LF, its last byte ---- *)
Theorem C34_record_is_exactly_one_line : forall fmt, protected_fmt lq_enum_NONE fmt ->
  count_lf (log_record fmt) = 1 /\ exists body, log_record fmt = body ++ [10] /\ forallb no_lf body = true.
Proof. exact record_is_one_line. Qed.

(* the hypothesis is needed: the raw style, and codes that do not ask for quoting under no style (the user name),
   pass a line feed (model level; the proxy refuses user names with line breaks before they get here) *)
Theorem C34_unprotected_code_passes_line_feed_refuted :
  count_lf (log_record [FCode (Some 39) 1 (Some [97; 10; 98]) false]) = 2 /\
  count_lf (log_record [FCode None 5 (Some [97; 10; 98]) false]) = 2.
Proof. split; vm_compute; reflexivity. Qed.

(* non-vacuity *)
Example C34_example_forms :
  log_quoted_string [97; 34; 92; 10; 9; 32] = [97; 92;34; 92;92; 92;110; 92;116; 32] /\
  mime_blob [97; 91; 37; 13; 32; 200; 92] = [97; 37;53;98; 37;50;53; 92;114; 32; 37;99;56; 92;92] /\
  shell_quote [97; 32; 34] = [34; 97; 32; 92;34; 34] /\ shell_quote [97; 34; 9] = [97; 92;34; 9] /\
  url_quote [97; 32; 37; 39] = [97; 37;50;48; 37;50;53; 37;50;55] /\ default_quote [97; 32; 37; 39] = [97; 37;50;48; 37; 37;50;55].
Proof. vm_compute. repeat split. Qed.
Example C34_example_record :
  (* logformat: "%{h}>h" [%{h}>h] %#{h}>h %un  with h = a-space-doublequote and no user *)
  let h := Some [97; 32; 34] in
  let fmt := [FLit [34]; FCode None 1 h false; FLit [34; 32; 91]; FCode None 1 h false; FLit [93; 32];
              FCode (Some 35) 1 h true; FCode None 5 None false] in
  protected_code (style_of None lq_enum_QUOTES) 1 = true /\
  log_record fmt = [34; 97;32;92;34; 34; 32; 91; 97;32;34; 93; 32; 97;37;50;48;37;50;50; 32; 45; 10].
Proof. vm_compute. split; reflexivity. Qed.
Example C34_example_username : username_quote (Some [97; 32; 98; 91]) = Some [97; 37;50;48; 98; 37;53;98] /\
  bytes_ok [97; 32; 98; 91] /\ mime_decode [97; 37;50;48; 98; 37;53;98] = Some [97; 32; 98; 91].
Proof. split; [reflexivity|]. split; [repeat constructor|reflexivity]. Qed.
Example C34_example_hypotheses : bytes_ok [97; 32; 34] /\ cstr [97; 32; 34] <> [] /\
  protected_fmt lq_enum_NONE [FLit [34]; FCode None 1 (Some [10]) true; FLit [34]; FCode (Some 91) 5 (Some [10]) false].
Proof.
  split; [repeat constructor|]. split; [discriminate|]. cbn. repeat split.
Qed.

Print Assumptions C34_quoting_switch_dispatch.
Print Assumptions C34_quoted_string_rule_matches_code.
Print Assumptions C34_mime_blob_rule_matches_code.
Print Assumptions C34_username_rule_matches_code.
Print Assumptions C34_username_two_passes_are_per_byte_rule.
Print Assumptions C34_username_field_delimited_and_reversible.
Print Assumptions C34_username_absent_or_empty.
Print Assumptions C34_quoted_string_no_line_break.
Print Assumptions C34_mime_blob_no_line_break.
Print Assumptions C34_shell_no_line_break.
Print Assumptions C34_url_no_line_break_no_space.
Print Assumptions C34_default_no_line_break_no_space.
Print Assumptions C34_quoted_string_delimited_and_reversible.
Print Assumptions C34_mime_blob_reversible.
Print Assumptions C34_mime_blob_bracket_delimited.
Print Assumptions C34_url_space_delimited.
Print Assumptions C34_default_space_delimited.
Print Assumptions C34_url_reversible.
Print Assumptions C34_shell_delimited_and_reversible.
Print Assumptions C34_mime_blob_bare_field_refuted.
Print Assumptions C34_mime_blob_bare_field_partial.
Print Assumptions C34_record_is_exactly_one_line.
Print Assumptions C34_unprotected_code_passes_line_feed_refuted.
