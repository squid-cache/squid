(* HitsProofs.v — proofs for the cache-hit data path model (C10): the chain walk (seek / chain_read); the machine
   invariant [Inv], preserved by every helper and every operation; a finished reader holds one completed write,
   readers hold prefixes of their own entry, slots are never shared; the ghost log is written by CloseW only,
   Append adds exactly the appended bytes; the stored format. *)
Require Import SquidV.Bytes SquidV.gen.Hits_gen SquidV.gen.HitsPage_gen SquidV.HitsModel.
Require Import Lia ZifyBool ZifyN ZifyNat.
Local Open Scope N_scope.

Lemma takeN_takeN {A} (l : list A) a b : takeN a (takeN b l) = takeN (N.min a b) l.
Proof. apply Bytes.takeN_takeN. Qed.

Lemma seek_some sl : forall o off s o', o <= off -> seek sl o off = Some (s, o') ->
  exists pre post, sl = pre ++ s :: post /\ o' = o + lenN (concat pre) /\ o' <= off /\ off < o' + lenN s.
Proof.
  induction sl as [|x sl IH]; intros o off s o' Hle H; cbn [seek] in H.
  - discriminate.
  - destruct (off <? o + lenN x) eqn:E.
    + inversion H; subst. exists [], sl. cbn. repeat split; lia.
    + apply IH in H; [|lia]. destruct H as (pre & post & -> & -> & H1 & H2).
      exists (x :: pre), post. cbn [concat app]. rewrite lenN_app. repeat split; try lia; try reflexivity.
Qed.
Lemma seek_none sl : forall o off, o <= off -> seek sl o off = None -> o + lenN (concat sl) <= off.
Proof.
  induction sl as [|x sl IH]; intros o off Hle H; cbn [seek] in H; cbn [concat].
  - cbn. lia.
  - destruct (off <? o + lenN x) eqn:E; [discriminate|].
    apply IH in H; [|lia]. rewrite lenN_app. lia.
Qed.

(* chain_read returns exactly the bytes [off, off+n) of the concatenated chain, n = min(len, rest of the slot) *)
Lemma chain_read_spec sl off len :
  exists n, chain_read sl off len = takeN n (dropN off (concat sl)) /\ n <= len /\
            (off < lenN (concat sl) -> 0 < len -> 0 < n /\ off + n <= lenN (concat sl)).
Proof.
  unfold chain_read. destruct (seek sl 0 off) as [[s o]|] eqn:E.
  - apply seek_some in E; [|lia]. destruct E as (pre & post & -> & -> & H1 & H2).
    cbn [N.add] in *. set (o := lenN (concat pre)) in *.
    exists (N.min len (o + lenN s - off)). split; [|split].
    + rewrite concat_app. cbn [concat]. rewrite dropN_app_ge by (fold o; lia). fold o.
      rewrite dropN_app_le by lia.
      rewrite takeN_app_le; [reflexivity|]. rewrite lenN_dropN. lia.
    + lia.
    + intros _ Hl. rewrite concat_app. cbn [concat]. rewrite !lenN_app. fold o. lia.
  - apply seek_none in E; [|lia]. exists 0. split; [|split].
    + rewrite takeN_firstn. reflexivity.
    + lia.
    + intros. lia.
Qed.

Lemma chain_read_extends sl off len stream pre :
  concat sl = stream -> pre = takeN off stream -> off <= lenN stream ->
  let d := chain_read sl off len in
  pre ++ d = takeN (off + lenN d) stream /\ off + lenN d <= lenN stream.
Proof.
  intros Hs Hp Ho d.
  destruct (chain_read_spec sl off len) as (n & Hn & _ & _).
  fold d in Hn. rewrite Hs in Hn. subst pre.
  assert (lenN d = N.min n (lenN stream - off)) by (rewrite Hn, lenN_takeN, lenN_dropN; reflexivity).
  split.
  - rewrite Hn. rewrite <- takeN_add. rewrite <- Hn, H.
    destruct (N.le_ge_cases n (lenN stream - off)).
    + now rewrite N.min_l.
    + rewrite N.min_r by assumption. rewrite !takeN_all; auto; lia.
  - lia.
Qed.
Definition stream_of (st : state) (e : entry) : bytes := concat (chain_of st e).

Record Inv (st : state) : Prop := mkInv {
  I_free_nd : NoDup (s_free st);
  I_slots_nd : forall a e, s_ents st a = Some e -> NoDup (e_rslots e);
  I_slots_free : forall a e s, s_ents st a = Some e -> In s (e_rslots e) -> ~ In s (s_free st);
  I_disj : forall a b ea eb s, a <> b -> s_ents st a = Some ea -> s_ents st b = Some eb ->
                               In s (e_rslots ea) -> ~ In s (e_rslots eb);
  I_data : forall a e, s_ents st a = Some e -> stream_of st e = sent e /\ e_len e = lenN (sent e);
  I_compl : forall a e, s_ents st a = Some e -> e_complete e = true ->
                        e_writing e = false /\ In (e_key e, e_ver e, sent e) (s_log st);
  I_rdr : forall r rd, s_rdrs st r = Some rd -> r_open rd = true ->
            exists e, s_ents st (r_ent rd) = Some e /\ In r (e_rdrs e) /\ e_key e = r_key rd /\
                      acc rd = takeN (r_off rd) (sent e) /\ r_off rd <= e_len e;
  I_done : forall r rd, s_rdrs st r = Some rd -> r_done rd = true ->
            exists v, In (r_key rd, v, acc rd) (s_log st)
}.

Lemma upd_eq {A} (f : N -> A) k v : upd f k v k = v.
Proof. unfold upd. now rewrite N.eqb_refl. Qed.
Lemma upd_neq {A} (f : N -> A) k v x : x <> k -> upd f k v x = f x.
Proof. unfold upd. intros H. apply N.eqb_neq in H. now rewrite H. Qed.

Ltac case_upd x k :=
  let E := fresh "E" in
  destruct (N.eq_dec x k) as [E|E];
  [subst; rewrite ?upd_eq in * | rewrite ?(upd_neq _ _ _ _ E) in *].

Lemma map_ext_in' {A B} (f g : A -> B) l : (forall x, In x l -> f x = g x) -> map f l = map g l.
Proof. intros H. apply map_ext_in. exact H. Qed.

Lemma chain_ext (c1 c2 : N -> bytes) sl :
  (forall s, In s sl -> c1 s = c2 s) -> map c1 (rev sl) = map c2 (rev sl).
Proof. intros H. apply map_ext_in. intros x Hx. apply H. now apply in_rev. Qed.

Lemma nodup_app {A} (l l' : list A) :
  NoDup l -> NoDup l' -> (forall x, In x l -> ~ In x l') -> NoDup (l ++ l').
Proof.
  induction l as [|x l IH]; intros H1 H2 H; cbn; [assumption|].
  inversion H1; subst. constructor.
  - intros Hin. apply in_app_or in Hin. destruct Hin; [contradiction|]. apply (H x); [now left|assumption].
  - apply IH; auto. intros y Hy. apply H. now right.
Qed.

Lemma concat_rev_cons (x : bytes) l : concat (rev (x :: l)) = concat (rev l) ++ x.
Proof. cbn [rev]. rewrite concat_app. cbn. now rewrite app_nil_r. Qed.
Lemma sent_cons e now : concat (rev (now :: e_sent e)) = sent e ++ now.
Proof. apply concat_rev_cons. Qed.

Lemma init_inv cap free scan : NoDup free -> Inv (init cap free scan).
Proof.
  intros H. constructor; cbn; try discriminate; auto.
Qed.

Lemma log_inv st x : Inv st ->
  Inv (mkS (s_cap st) (s_content st) (s_free st) (s_scan st) (s_ents st) (s_rdrs st) (x :: s_log st)).
Proof.
  intros [F1 F2 F3 F4 F5 F6 F7 F8]. constructor; cbn; auto.
  - intros a e H Hc. destruct (F6 a e H Hc). split; [assumption|now right].
  - intros r rd H Hd. destruct (F8 r rd H Hd) as (v & Hv). exists v. now right.
Qed.

Lemma release_inv st a e e' :
  Inv st -> s_ents st a = Some e -> e_rslots e' = e_rslots e ->
  (forall r rd, s_rdrs st r = Some rd -> r_open rd = true -> r_ent rd <> a) ->
  Inv (release st a e').
Proof.
  intros [F1 F2 F3 F4 F5 F6 F7 F8] Ha Hs Hr. unfold release. rewrite Hs.
  constructor; cbn.
  - apply nodup_app; eauto.
  - intros b eb H. case_upd b a; [discriminate|]. eauto.
  - intros b eb s H Hin Hf. case_upd b a; [discriminate|].
    apply in_app_or in Hf. destruct Hf as [Hf|Hf].
    + exact (F4 b a eb e s E H Ha Hin Hf).
    + exact (F3 b eb s H Hin Hf).
  - intros b c eb ec s Hbc H1 H2. case_upd b a; [discriminate|]. case_upd c a; [discriminate|]. eauto.
  - intros b eb H. case_upd b a; [discriminate|]. apply (F5 b eb H).
  - intros b eb H. case_upd b a; [discriminate|]. eauto.
  - intros r rd H Ho. destruct (F7 r rd H Ho) as (e1 & H1 & H2). exists e1. split; auto.
    rewrite upd_neq by (eapply Hr; eauto). assumption.
  - eauto.
Qed.

Definition same_data (e e' : entry) : Prop :=
  e_key e' = e_key e /\ e_ver e' = e_ver e /\ e_rslots e' = e_rslots e /\ e_len e' = e_len e /\ e_sent e' = e_sent e.

Lemma same_data_sent e e' : same_data e e' -> sent e' = sent e.
Proof. intros (_ & _ & _ & _ & H). unfold sent. now rewrite H. Qed.

Lemma set_inv st a e e' :
  Inv st -> s_ents st a = Some e -> same_data e e' ->
  (e_complete e' = true -> e_writing e' = false /\ In (e_key e, e_ver e, sent e) (s_log st)) ->
  (forall r rd, s_rdrs st r = Some rd -> r_open rd = true -> r_ent rd = a -> In r (e_rdrs e')) ->
  Inv (set_ent st a (Some e')).
Proof.
  intros [F1 F2 F3 F4 F5 F6 F7 F8] Ha Hsd Hc Hr.
  pose proof (same_data_sent _ _ Hsd) as Hsent.
  destruct Hsd as (Hk & Hv & Hs & Hl & Hse).
  constructor; cbn.
  - assumption.
  - intros b eb H. case_upd b a; [inversion H; subst; rewrite Hs|]; eauto.
  - intros b eb s H. case_upd b a; [inversion H; subst; rewrite Hs|]; eauto.
  - intros b c eb ec s Hbc H1 H2.
    case_upd b a; case_upd c a; try congruence.
    + inversion H1; subst. rewrite Hs. eauto.
    + inversion H2; subst. rewrite Hs. eauto.
    + eauto.
  - intros b eb H. case_upd b a.
    + inversion H; subst. unfold stream_of, chain_of in *. cbn. rewrite Hs, Hsent, Hl. apply (F5 a e Ha).
    + apply (F5 b eb H).
  - intros b eb H Hcm. case_upd b a.
    + inversion H; subst. rewrite Hk, Hv, Hsent. auto.
    + eauto.
  - intros r rd H Ho. destruct (F7 r rd H Ho) as (e1 & H1 & H2 & H3 & H4 & H5).
    case_upd (r_ent rd) a.
    + exists e'. rewrite H1 in Ha. inversion Ha; subst. rewrite Hk, Hsent, Hl. repeat split; auto.
      apply (Hr r rd); auto.
    + exists e1. repeat split; auto.
  - eauto.
Qed.

Lemma put_inv st a e e' :
  Inv st -> s_ents st a = Some e -> same_data e e' ->
  (e_complete e' = true -> e_writing e' = false /\ In (e_key e, e_ver e, sent e) (s_log st)) ->
  (forall r rd, s_rdrs st r = Some rd -> r_open rd = true -> r_ent rd = a -> In r (e_rdrs e')) ->
  Inv (put_ent st a e').
Proof.
  intros HI Ha Hsd Hc Hr. unfold put_ent.
  destruct (e_dead e' && idle e') eqn:E.
  - apply andb_prop in E. destruct E as [_ E]. unfold idle in E. apply andb_prop in E. destruct E as [_ E].
    destruct (e_rdrs e') eqn:Er; [|discriminate].
    apply (release_inv st a e e'); [assumption|assumption|destruct Hsd as (_ & _ & H & _); exact H|].
    intros r rd H Ho Hent. specialize (Hr r rd H Ho Hent). rewrite ?Er in Hr. destruct Hr.
  - apply (set_inv st a e e'); auto.
Qed.

Lemma new_inv st a k v : Inv st -> s_ents st a = None -> Inv (set_ent st a (Some (new_entry k v))).
Proof.
  intros [F1 F2 F3 F4 F5 F6 F7 F8] Ha. constructor; cbn.
  - assumption.
  - intros b eb H. case_upd b a; [inversion H; subst; constructor|]; eauto.
  - intros b eb s H. case_upd b a; [inversion H; subst; cbn; tauto|]; eauto.
  - intros b c eb ec s Hbc H1 H2.
    case_upd b a; case_upd c a; try congruence.
    + inversion H1; subst. cbn. tauto.
    + inversion H2; subst. cbn. tauto.
    + eauto.
  - intros b eb H. case_upd b a.
    + inversion H; subst. cbn. auto.
    + apply (F5 b eb H).
  - intros b eb H Hcm. case_upd b a; [inversion H; subst; discriminate|]. eauto.
  - intros r rd H Ho. destruct (F7 r rd H Ho) as (e1 & H1 & H2). exists e1. split; auto.
    rewrite upd_neq; auto. congruence.
  - eauto.
Qed.

Lemma set_rdr_inv st r rd :
  Inv st ->
  (r_open rd = true -> exists e, s_ents st (r_ent rd) = Some e /\ In r (e_rdrs e) /\ e_key e = r_key rd /\
                                 acc rd = takeN (r_off rd) (sent e) /\ r_off rd <= e_len e) ->
  (r_done rd = true -> exists v, In (r_key rd, v, acc rd) (s_log st)) ->
  Inv (set_rdr st r rd).
Proof.
  intros [F1 F2 F3 F4 F5 F6 F7 F8] H1 H2. constructor; cbn; auto.
  - intros r' rd' H Ho. case_upd r' r; [inversion H; subst|]; eauto.
  - intros r' rd' H Hd. case_upd r' r; [inversion H; subst|]; eauto.
Qed.

Lemma readers_listed st a e : Inv st -> s_ents st a = Some e ->
  forall r rd, s_rdrs st r = Some rd -> r_open rd = true -> r_ent rd = a -> In r (e_rdrs e).
Proof.
  intros HI Ha r rd H Ho Hent. destruct (I_rdr st HI r rd H Ho) as (e1 & H1 & H2 & _).
  rewrite Hent, Ha in H1. now inversion H1; subst.
Qed.

Lemma idle_no_readers st a e :
  Inv st -> s_ents st a = Some e -> idle e = true ->
  forall r rd, s_rdrs st r = Some rd -> r_open rd = true -> r_ent rd <> a.
Proof.
  intros HI Ha Hi r rd H Ho Hent. pose proof (readers_listed st a e HI Ha r rd H Ho Hent) as Hin.
  unfold idle in Hi. apply andb_prop in Hi. destruct Hi as [_ Hi]. destruct (e_rdrs e); [destruct Hin|discriminate].
Qed.

Lemma writing_not_complete st a e : Inv st -> s_ents st a = Some e -> e_writing e = true -> e_complete e = false.
Proof.
  intros HI Ha Hw. destruct (e_complete e) eqn:E; auto.
  destruct (I_compl st HI a e Ha E). congruence.
Qed.

Lemma pop_free_inv st s st1 : Inv st -> pop_free st = Some (s, st1) ->
  Inv st1 /\ s_ents st1 = s_ents st /\ s_cap st1 = s_cap st /\ s_content st1 s = [] /\ ~ In s (s_free st1) /\
  (forall b eb, s_ents st1 b = Some eb -> ~ In s (e_rslots eb)).
Proof.
  intros [F1 F2 F3 F4 F5 F6 F7 F8] H. unfold pop_free in H. destruct (s_free st) as [|x f] eqn:Ef; [discriminate|].
  inversion H; subst; clear H. cbn. inversion F1; subst.
  assert (Hfresh : forall b eb, s_ents st b = Some eb -> ~ In s (e_rslots eb)).
  { intros b eb Hb Hin. apply (F3 b eb s Hb Hin). now left. }
  refine (conj _ (conj eq_refl (conj eq_refl (conj (upd_eq _ _ _) (conj H1 Hfresh))))).
  constructor; cbn; auto.
  - intros b eb x Hb Hin Hf. apply (F3 b eb x Hb Hin). now right.
  - intros b eb Hb. destruct (F5 b eb Hb) as [G1 G2]. split; auto.
    unfold stream_of, chain_of in *. cbn. rewrite <- G1. f_equal. apply chain_ext.
    intros x Hx. apply upd_neq. intros ->. exact (Hfresh b eb Hb Hx).
Qed.

Lemma purge_one_inv st : forall scan st', Inv st -> purge_one st scan = Some st' ->
  Inv st' /\ s_cap st' = s_cap st /\ s_content st' = s_content st /\
  (forall a e, s_ents st a = Some e -> idle e = false -> s_ents st' a = Some e).
Proof.
  induction scan as [|b scan IH]; intros st' HI H; cbn in H; [discriminate|].
  destruct (s_ents st b) as [eb|] eqn:Eb; [|eauto].
  destruct (idle eb) eqn:Ei; [|eauto].
  inversion H; subst; clear H. refine (conj _ (conj eq_refl (conj eq_refl _))).
  - apply (release_inv st b eb eb); auto. eapply idle_no_readers; eauto.
  - intros a e Ha Hi. cbn. rewrite upd_neq; auto. intros ->. congruence.
Qed.

Lemma alloc_inv st s st1 a e : Inv st -> alloc st = Some (s, st1) -> s_ents st a = Some e -> e_writing e = true ->
  Inv st1 /\ s_ents st1 a = Some e /\ s_cap st1 = s_cap st /\ s_content st1 s = [] /\ ~ In s (s_free st1) /\
  (forall b eb, s_ents st1 b = Some eb -> ~ In s (e_rslots eb)).
Proof.
  intros HI H Ha Hw. unfold alloc in H. destruct (pop_free st) as [[s' st']|] eqn:Ep.
  - inversion H; subst. destruct (pop_free_inv _ _ _ HI Ep) as (G1 & G2 & G3 & G4 & G5 & G6).
    refine (conj G1 (conj _ (conj G3 (conj G4 (conj G5 G6))))). now rewrite G2.
  - destruct (purge_one st (s_scan st)) as [st2|] eqn:Eq; [|discriminate].
    destruct (purge_one_inv st _ _ HI Eq) as (K1 & K2 & K3 & K4).
    destruct (pop_free_inv _ _ _ K1 H) as (G1 & G2 & G3 & G4 & G5 & G6).
    refine (conj G1 (conj _ (conj _ (conj G4 (conj G5 G6))))).
    + rewrite G2. apply K4; auto. unfold idle. now rewrite Hw.
    + congruence.
Qed.

Definition same_but_slots (e0 e : entry) : Prop :=
  e_key e = e_key e0 /\ e_ver e = e_ver e0 /\ e_len e = e_len e0 /\ e_writing e = e_writing e0 /\
  e_complete e = e_complete e0 /\ e_dead e = e_dead e0 /\ e_rdrs e = e_rdrs e0 /\ e_sent e = e_sent e0.

Lemma fill_inv st a e0 e s rest d :
  Inv st -> s_ents st a = Some e0 -> e_complete e0 = false -> same_but_slots e0 e -> e_rslots e = s :: rest ->
  ~ In s rest -> NoDup rest -> ~ In s (s_free st) ->
  (forall b eb, b <> a -> s_ents st b = Some eb -> ~ In s (e_rslots eb)) ->
  (forall x, In x rest -> In x (e_rslots e0)) ->
  concat (map (s_content st) (rev rest)) ++ s_content st s = sent e0 ->
  Inv (fst (fill st a e s d)) /\
  exists e', s_ents (fst (fill st a e s d)) a = Some e' /\ e_writing e' = e_writing e0 /\
             s_cap (fst (fill st a e s d)) = s_cap st.
Proof.
  intros [F1 F2 F3 F4 F5 F6 F7 F8] Ha Hnc (Hk & Hv & Hl & Hw & Hc & Hd & Hr & Hse) Hs Hsr Hnd Hsf Hso Hsub Hcat.
  unfold fill. set (now := takeN (space_in st s d) d). cbn [fst].
  split; [|eexists; cbn; rewrite upd_eq; split; [reflexivity|split; [exact Hw|reflexivity]]].
  assert (Hsent : sent e = sent e0) by (unfold sent; now rewrite Hse).
  destruct (F5 a e0 Ha) as [D1 D2].
  constructor; cbn.
  - assumption.
  - intros b eb H. case_upd b a; [inversion H; subst; cbn; rewrite Hs; now constructor|]; eauto.
  - intros b eb x H Hin. case_upd b a.
    + inversion H; subst; cbn in Hin. rewrite Hs in Hin. destruct Hin as [<-|Hin]; auto.
      apply (F3 a e0 x Ha). auto.
    + eauto.
  - intros b c eb ec x Hbc H1 H2 Hin.
    case_upd b a; case_upd c a; try congruence.
    + inversion H1; subst; cbn in Hin. rewrite Hs in Hin. destruct Hin as [<-|Hin]; [eauto|].
      apply (F4 a c e0 ec x); auto.
    + inversion H2; subst; cbn. rewrite Hs. intros [<-|Hin2].
      * exact (Hso b eb Hbc H1 Hin).
      * apply (F4 b a eb e0 x); auto.
    + eauto.
  - intros b eb H. case_upd b a.
    + inversion H; subst. unfold stream_of, chain_of. cbn. rewrite Hs. cbn [rev]. rewrite map_app, concat_app. cbn.
      rewrite upd_eq, app_nil_r. rewrite Hse. rewrite concat_app. cbn [concat]. rewrite app_nil_r.
      change (concat (rev (e_sent e0))) with (sent e0).
      replace (map (upd (s_content st) s (s_content st s ++ now)) (rev rest)) with (map (s_content st) (rev rest)).
      2:{ apply chain_ext. intros x Hx. symmetry. apply upd_neq. intros ->. contradiction. }
      rewrite app_assoc, Hcat. split; [reflexivity|]. rewrite lenN_app, Hl, D2. reflexivity.
    + destruct (F5 b eb H) as [G1 G2]. split; auto. unfold stream_of, chain_of in *. cbn. rewrite <- G1. f_equal.
      apply chain_ext. intros x Hx. apply upd_neq. intros ->. exact (Hso b eb E H Hx).
  - intros b eb H Hcm. case_upd b a; [inversion H; subst; cbn in Hcm; congruence|]. eauto.
  - intros r rd H Ho. destruct (F7 r rd H Ho) as (e1 & H1 & H2 & H3 & H4 & H5).
    case_upd (r_ent rd) a.
    + rewrite H1 in Ha. inversion Ha; subst. eexists. split; [reflexivity|]. unfold sent at 1. cbn [e_rdrs e_key e_sent e_len]. rewrite Hr, Hk, Hse, concat_rev_cons.
      change (concat (rev (e_sent e0))) with (sent e0).
      repeat split; auto.
      * rewrite takeN_app_le; auto. clear - H5 D2. lia.
      * clear - H5 Hl. lia.
    + exists e1. repeat split; auto.
  - eauto.
Qed.
Lemma with_flags_same e w c d rs : same_data e (with_flags e w c d rs).
Proof. unfold same_data, with_flags; cbn. repeat split; reflexivity. Qed.

(* an operation that changes only the flags and the reader list of an entry *)
Lemma flags_inv st a e w c d rs :
  Inv st -> s_ents st a = Some e ->
  (c = true -> w = false /\ In (e_key e, e_ver e, sent e) (s_log st)) ->
  (forall r rd, s_rdrs st r = Some rd -> r_open rd = true -> r_ent rd = a -> In r rs) ->
  Inv (put_ent st a (with_flags e w c d rs)).
Proof. intros HI Ha Hc Hr. apply (put_inv st a e); auto. apply with_flags_same. Qed.

Lemma abort_inv st a : Inv st -> Inv (abort st a).
Proof.
  intros HI. unfold abort. destruct (s_ents st a) as [e|] eqn:Ha; [|assumption].
  apply flags_inv; auto.
  - discriminate.
  - apply (readers_listed st a e HI Ha).
Qed.

(* a round of the writer fills the current slot, or a freshly allocated one put at the head of the chain *)
Lemma append1_cases st a d x e : s_ents st a = Some e -> append1 st a d = Some x ->
  (exists s rs, e_rslots e = s :: rs /\ x = fill st a e s d) \/
  (exists s st1 e1, alloc st = Some (s, st1) /\ s_ents st1 a = Some e1 /\
     x = fill st1 a (mkE (e_key e1) (e_ver e1) (s :: e_rslots e1) (e_len e1) (e_writing e1)
                         (e_complete e1) (e_dead e1) (e_rdrs e1) (e_sent e1)) s d).
Proof.
  intros Ha H. unfold append1 in H. rewrite Ha in H.
  destruct (e_rslots e) as [|s rs]; [right| destruct (0 <? space_in st s d); [left|right]].
  2: { exists s, rs. split; [reflexivity|]. now inversion H. }
  all: destruct (alloc st) as [[s' st1]|]; [|discriminate]; destruct (s_ents st1 a) as [e1|] eqn:E1; [|discriminate];
    exists s', st1, e1; split; [reflexivity|]; split; [exact E1|]; now inversion H.
Qed.

Lemma append1_inv st a d st' rest e :
  Inv st -> s_ents st a = Some e -> e_writing e = true -> append1 st a d = Some (st', rest) ->
  Inv st' /\ s_cap st' = s_cap st /\ exists e', s_ents st' a = Some e' /\ e_writing e' = true.
Proof.
  intros HI Ha Hw H. pose proof (writing_not_complete st a e HI Ha Hw) as Hnc.
  destruct (append1_cases _ _ _ _ _ Ha H) as [(s & rs & Es & E)|(s & st1 & e1 & Ea & G & E)];
    apply (f_equal fst) in E; cbn [fst] in E; subst st'.
  - pose proof (I_slots_nd st HI a e Ha) as Hnd. rewrite Es in Hnd. inversion Hnd; subst.
    destruct (fill_inv st a e e s rs d) as (K1 & e' & K2 & K3 & K4); auto.
    + unfold same_but_slots; repeat split; reflexivity.
    + apply (I_slots_free st HI a e s Ha). rewrite Es. now left.
    + intros b eb Hb Heb Hin. apply (I_disj st HI b a eb e s Hb Heb Ha Hin). rewrite Es. now left.
    + intros x Hx. rewrite Es. now right.
    + destruct (I_data st HI a e Ha) as [D _]. unfold stream_of, chain_of in D. rewrite Es in D. cbn [rev] in D.
      rewrite map_app, concat_app in D. cbn in D. rewrite app_nil_r in D. exact D.
    + split; [assumption|]. split; [assumption|]. exists e'. split; [assumption|congruence].
  - destruct (alloc_inv st s st1 a e HI Ea Ha Hw) as (G1 & G2 & G3 & G4 & G5 & G6).
    rewrite G2 in G. inversion G; subst e1.
    match goal with |- Inv (fst (fill _ _ ?e2 _ _)) /\ _ =>
      destruct (fill_inv st1 a e e2 s (e_rslots e) d) as (K1 & e' & K2 & K3 & K4) end; auto.
    + unfold same_but_slots; cbn; repeat split; reflexivity.
    + exact (G6 a e G2).
    + exact (I_slots_nd st1 G1 a e G2).
    + intros b eb _ Hb. exact (G6 b eb Hb).
    + rewrite G4, app_nil_r. apply (I_data st1 G1 a e G2).
    + split; [assumption|]. split; [congruence|]. exists e'. split; [assumption|congruence].
Qed.

Lemma append_loop_inv fuel : forall st a d e,
  Inv st -> s_ents st a = Some e -> e_writing e = true -> Inv (append_loop fuel st a d).
Proof.
  induction fuel as [|f IH]; intros st a d e HI Ha Hw; destruct d as [|c d]; cbn [append_loop]; auto.
  - now apply abort_inv.
  - destruct (append1 st a (c :: d)) as [[st' rest]|] eqn:E1; [|now apply abort_inv].
    destruct (append1_inv _ _ _ _ _ _ HI Ha Hw E1) as (K1 & _ & e' & K2 & K3).
    eapply IH; eauto.
Qed.

Lemma step_inv st o : Inv st -> Inv (step st o).
Proof.
  intros HI. destruct o as [a k v|a d|a|a|r a k|r len|r|a]; cbn [step].
  - (* OpenW *)
    destruct (s_ents st a) as [e|] eqn:Ha.
    + destruct (idle e) eqn:Ei; [|assumption].
      apply new_inv.
      * apply (release_inv st a e e); auto. eapply idle_no_readers; eauto.
      * cbn. apply upd_eq.
    + now apply new_inv.
  - (* Append *)
    destruct (s_ents st a) as [e|] eqn:Ha; [|assumption].
    destruct (e_writing e) eqn:Hw; [|assumption].
    eapply append_loop_inv; eauto.
  - (* CloseW *)
    destruct (s_ents st a) as [e|] eqn:Ha; [|assumption].
    destruct (e_writing e) eqn:Hw; [|assumption].
    apply flags_inv.
    + now apply log_inv.
    + exact Ha.
    + intros _. split; [reflexivity|now left].
    + apply (readers_listed st a e HI Ha).
  - (* AbortW *)
    destruct (s_ents st a) as [e|] eqn:Ha; [|assumption].
    destruct (e_writing e); [now apply abort_inv|assumption].
  - (* OpenR *)
    destruct (s_rdrs st r) as [rd0|] eqn:Hr; [assumption|].
    destruct (s_ents st a) as [e|] eqn:Ha; [|assumption].
    destruct ((e_key e =? k) && negb (e_dead e) && (e_complete e || e_writing e)) eqn:Ec; [|assumption].
    apply andb_prop in Ec. destruct Ec as [Ec _]. apply andb_prop in Ec. destruct Ec as [Ek _].
    apply N.eqb_eq in Ek.
    apply set_rdr_inv.
    + apply (set_inv st a e); auto.
      * apply with_flags_same.
      * cbn. intros Hc. apply (I_compl st HI a e Ha Hc).
      * cbn. intros r' rd' H1 H2 H3. right. eapply readers_listed; eauto.
    + cbn. intros _. eexists. rewrite upd_eq. split; [reflexivity|]. cbn.
      split; [now left|]. split; [assumption|]. split; [now rewrite takeN_0|lia].
    + cbn. discriminate.
  - (* Read *)
    destruct (s_rdrs st r) as [rd|] eqn:Hr; [|assumption].
    destruct (r_open rd && negb (r_done rd)) eqn:Eo; [|assumption].
    apply andb_prop in Eo. destruct Eo as [Eo Ed].
    destruct (s_ents st (r_ent rd)) as [e|] eqn:Ha; [|assumption].
    destruct (I_rdr st HI r rd Hr Eo) as (e1 & H1 & H2 & H3 & H4 & H5).
    rewrite Ha in H1. inversion H1; subst e1; clear H1.
    destruct (I_data st HI _ e Ha) as [D1 D2].
    destruct (e_complete e && (r_off rd =? e_len e)) eqn:Ec.
    + apply andb_prop in Ec. destruct Ec as [Ec El]. apply N.eqb_eq in El.
      apply set_rdr_inv; auto.
      * intros _. exists e. cbn [r_ent r_key r_off]. unfold acc; cbn [r_racc]; fold (acc rd). repeat split; auto.
      * intros _. exists (e_ver e). cbn [r_key]. unfold acc; cbn [r_racc]; fold (acc rd).
        rewrite H4, El, D2, takeN_all by lia. rewrite <- H3. apply (I_compl st HI _ e Ha Ec).
    + apply set_rdr_inv; auto.
      * intros _. exists e. cbn [r_ent r_key r_off].
        destruct (chain_read_extends (chain_of st e) (r_off rd) len (sent e) (acc rd)) as [X1 X2]; auto; [lia|].
        unfold acc at 1. cbn [r_racc]. rewrite concat_rev_cons. fold (acc rd).
        repeat split; auto. lia.
      * cbn [r_done]. discriminate.
  - (* CloseR *)
    destruct (s_rdrs st r) as [rd|] eqn:Hr; [|assumption].
    destruct (r_open rd) eqn:Eo; [|assumption].
    set (st1 := set_rdr st r (mkR (r_ent rd) (r_key rd) (r_off rd) (r_racc rd) false (r_done rd))).
    assert (HI1 : Inv st1).
    { apply set_rdr_inv; auto; cbn; [discriminate|]. intros Hd. apply (I_done st HI r rd Hr Hd). }
    destruct (s_ents st1 (r_ent rd)) as [e|] eqn:Ha; [|assumption].
    apply flags_inv; auto.
    + intros Hc. apply (I_compl st1 HI1 _ e Ha Hc).
    + intros r' rd' G1 G2 G3. apply filter_In. split.
      * eapply readers_listed; eauto.
      * destruct (N.eq_dec r' r) as [->|Hne].
        -- subst st1. cbn in G1. rewrite upd_eq in G1. inversion G1; subst. discriminate.
        -- apply N.eqb_neq in Hne. now rewrite Hne.
  - (* Evict *)
    destruct (s_ents st a) as [e|] eqn:Ha; [|assumption].
    apply flags_inv; auto.
    + intros Hc. apply (I_compl st HI a e Ha Hc).
    + apply (readers_listed st a e HI Ha).
Qed.

Lemma run_inv ops : forall st, Inv st -> Inv (run st ops).
Proof. induction ops as [|o ops IH]; intros st HI; cbn; auto. apply IH. now apply step_inv. Qed.

Theorem hit_is_one_completed_write cap free scan ops r rd :
  NoDup free ->
  let st := run (init cap free scan) ops in
  s_rdrs st r = Some rd -> r_done rd = true ->
  exists v, In (r_key rd, v, acc rd) (s_log st).
Proof.
  intros Hf st Hr Hd. apply (I_done st (run_inv ops _ (init_inv cap free scan Hf)) r rd Hr Hd).
Qed.

Theorem reader_holds_prefix_of_its_entry cap free scan ops r rd :
  NoDup free ->
  let st := run (init cap free scan) ops in
  s_rdrs st r = Some rd -> r_open rd = true ->
  exists e, s_ents st (r_ent rd) = Some e /\ e_key e = r_key rd /\ In r (e_rdrs e) /\
            acc rd = takeN (r_off rd) (sent e) /\ r_off rd <= lenN (sent e) /\ stream_of st e = sent e.
Proof.
  intros Hf st Hr Ho.
  pose proof (run_inv ops _ (init_inv cap free scan Hf)) as HI. fold st in HI.
  destruct (I_rdr st HI r rd Hr Ho) as (e & H1 & H2 & H3 & H4 & H5).
  destruct (I_data st HI _ e H1) as [D1 D2].
  exists e. repeat split; auto. lia.
Qed.

Theorem slots_are_never_shared cap free scan ops :
  NoDup free ->
  let st := run (init cap free scan) ops in
  (forall a e s, s_ents st a = Some e -> In s (e_rslots e) -> ~ In s (s_free st)) /\
  (forall a b ea eb s, a <> b -> s_ents st a = Some ea -> s_ents st b = Some eb ->
                       In s (e_rslots ea) -> ~ In s (e_rslots eb)) /\
  (forall a e, s_ents st a = Some e -> NoDup (e_rslots e)).
Proof.
  intros Hf st. pose proof (run_inv ops _ (init_inv cap free scan Hf)) as HI. fold st in HI.
  split; [|split].
  - apply (I_slots_free st HI).
  - apply (I_disj st HI).
  - apply (I_slots_nd st HI).
Qed.
Lemma log_put_ent st a e : s_log (put_ent st a e) = s_log st.
Proof. unfold put_ent. destruct (e_dead e && idle e); reflexivity. Qed.
Lemma log_abort st a : s_log (abort st a) = s_log st.
Proof. unfold abort. destruct (s_ents st a); [apply log_put_ent|reflexivity]. Qed.
Lemma log_purge st : forall scan st', purge_one st scan = Some st' -> s_log st' = s_log st.
Proof.
  induction scan as [|b scan IH]; intros st' H; cbn in H; [discriminate|].
  destruct (s_ents st b) as [eb|]; [|auto]. destruct (idle eb); [|auto]. now inversion H.
Qed.
Lemma log_pop st s st1 : pop_free st = Some (s, st1) -> s_log st1 = s_log st.
Proof. unfold pop_free. destruct (s_free st); [discriminate|]. intros H. now inversion H. Qed.
Lemma log_alloc st s st1 : alloc st = Some (s, st1) -> s_log st1 = s_log st.
Proof.
  unfold alloc. destruct (pop_free st) as [[s' st']|] eqn:Ep.
  - intros H. inversion H; subst. eapply log_pop; eauto.
  - destruct (purge_one st (s_scan st)) as [st2|] eqn:Eq; [|discriminate].
    intros H. rewrite (log_pop _ _ _ H). eapply log_purge; eauto.
Qed.
Lemma log_append1 st a d st' rest : append1 st a d = Some (st', rest) -> s_log st' = s_log st.
Proof.
  intros H. destruct (s_ents st a) as [e|] eqn:Ha; [|unfold append1 in H; rewrite Ha in H; discriminate].
  destruct (append1_cases _ _ _ _ _ Ha H) as [(s & rs & _ & E)|(s & st1 & e1 & Ea & _ & E)];
    apply (f_equal fst) in E; cbn [fst] in E; subst st'; [reflexivity| exact (log_alloc _ _ _ Ea)].
Qed.
Lemma log_append_loop fuel : forall st a d, s_log (append_loop fuel st a d) = s_log st.
Proof.
  induction fuel as [|f IH]; intros st a d; destruct d as [|c d]; cbn [append_loop]; auto using log_abort.
  destruct (append1 st a (c :: d)) as [[st' rest]|] eqn:E1; [|apply log_abort].
  rewrite IH. eapply log_append1; eauto.
Qed.

Definition closes (st : state) (o : op) : list (N * N * bytes) :=
  match o with
  | CloseW a => match s_ents st a with
                | Some e => if e_writing e then [(e_key e, e_ver e, sent e)] else []
                | None => []
                end
  | _ => []
  end.

Lemma log_step st o : s_log (step st o) = closes st o ++ s_log st.
Proof.
  destruct o as [a k v|a d|a|a|r a k|r len|r|a]; cbn [step closes app].
  - destruct (s_ents st a) as [e|]; [destruct (idle e)|]; reflexivity.
  - destruct (s_ents st a) as [e|]; [destruct (e_writing e)|]; auto using log_append_loop.
  - destruct (s_ents st a) as [e|]; [destruct (e_writing e)|]; try reflexivity. now rewrite log_put_ent.
  - destruct (s_ents st a) as [e|]; [destruct (e_writing e)|]; auto using log_abort.
  - destruct (s_rdrs st r); [reflexivity|]. destruct (s_ents st a) as [e|]; [|reflexivity].
    destruct ((e_key e =? k) && negb (e_dead e) && (e_complete e || e_writing e)); reflexivity.
  - destruct (s_rdrs st r) as [rd|]; [|reflexivity]. destruct (r_open rd && negb (r_done rd)); [|reflexivity].
    destruct (s_ents st (r_ent rd)) as [e|]; [|reflexivity].
    destruct (e_complete e && (r_off rd =? e_len e)); reflexivity.
  - destruct (s_rdrs st r) as [rd|]; [|reflexivity]. destruct (r_open rd); [|reflexivity].
    match goal with |- context [s_ents ?s ?x] => destruct (s_ents s x) end; [now rewrite log_put_ent|reflexivity].
  - destruct (s_ents st a) as [e|]; [now rewrite log_put_ent|reflexivity].
Qed.

(* every logged write is the [sent] of an entry that a CloseW closed while it was being written *)
Theorem log_only_completed_writes ops : forall st x, In x (s_log (run st ops)) ->
  In x (s_log st) \/
  exists pre a post e, ops = pre ++ CloseW a :: post /\ s_ents (run st pre) a = Some e /\ e_writing e = true /\
                       x = (e_key e, e_ver e, sent e).
Proof.
  induction ops as [|o ops IH]; intros st x H; cbn [run] in H; [now left|].
  apply IH in H. destruct H as [H|(pre & a & post & e & -> & H1 & H2 & H3)].
  - rewrite log_step in H. apply in_app_or in H. destruct H as [H|H]; [|now left].
    right. destruct o; cbn in H; try contradiction.
    destruct (s_ents st a) as [e|] eqn:Ha; [|contradiction]. destruct (e_writing e) eqn:Hw; [|contradiction].
    destruct H as [<-|[]]. exists [], a, ops, e. repeat split; auto.
  - right. exists (o :: pre), a, post, e. repeat split; auto.
Qed.

Lemma abort_not_writing st a e' : s_ents (abort st a) a = Some e' -> e_writing e' = false.
Proof.
  unfold abort. destruct (s_ents st a) as [e|] eqn:Ha; [|congruence].
  unfold put_ent. destruct (_ && _); cbn; rewrite upd_eq; [discriminate|]. intros H. now inversion H.
Qed.

Lemma append1_sent st a d st' rest e :
  Inv st -> s_ents st a = Some e -> e_writing e = true -> append1 st a d = Some (st', rest) ->
  exists e' n, s_ents st' a = Some e' /\ sent e' = sent e ++ takeN n d /\ rest = dropN n d /\
               e_key e' = e_key e /\ e_ver e' = e_ver e.
Proof.
  intros HI Ha Hw H.
  assert (Hfill : forall st1 e2 s, e_key e2 = e_key e -> e_ver e2 = e_ver e -> e_sent e2 = e_sent e ->
            (st', rest) = fill st1 a e2 s d ->
            exists e' n, s_ents st' a = Some e' /\ sent e' = sent e ++ takeN n d /\ rest = dropN n d /\
                         e_key e' = e_key e /\ e_ver e' = e_ver e).
  { intros st1 e2 s Hk Hv Hs E. unfold fill in E. inversion E; subst; clear E. cbn. rewrite upd_eq.
    eexists. eexists. split; [reflexivity|]. unfold sent at 1. cbn [e_sent]. rewrite concat_rev_cons, Hs.
    repeat split; assumption || reflexivity. }
  destruct (append1_cases _ _ _ _ _ Ha H) as [(s & rs & _ & E)|(s & st1 & e1 & Ea & G & E)].
  - refine (Hfill _ _ _ _ _ _ E); reflexivity.
  - destruct (alloc_inv st s st1 a e HI Ea Ha Hw) as (_ & G2 & _). rewrite G2 in G. inversion G; subst e1.
    refine (Hfill _ _ _ _ _ _ E); reflexivity.
Qed.

Lemma append_loop_sent fuel : forall st a d e e',
  Inv st -> s_ents st a = Some e -> e_writing e = true ->
  s_ents (append_loop fuel st a d) a = Some e' -> e_writing e' = true ->
  sent e' = sent e ++ d /\ e_key e' = e_key e /\ e_ver e' = e_ver e.
Proof.
  induction fuel as [|f IH]; intros st a d e e' HI Ha Hw H Hw'; destruct d as [|c d]; cbn [append_loop] in H.
  - rewrite Ha in H. inversion H; subst. now rewrite app_nil_r.
  - apply abort_not_writing in H. congruence.
  - rewrite Ha in H. inversion H; subst. now rewrite app_nil_r.
  - destruct (append1 st a (c :: d)) as [[st' rest]|] eqn:E1; [|apply abort_not_writing in H; congruence].
    destruct (append1_inv _ _ _ _ _ _ HI Ha Hw E1) as (K1 & _ & e1 & K2 & K3).
    destruct (append1_sent _ _ _ _ _ _ HI Ha Hw E1) as (e2 & n & L1 & L2 & L3 & L4 & L5).
    rewrite K2 in L1. inversion L1; subst e2; clear L1.
    destruct (IH st' a rest e1 e' K1 K2 K3 H Hw') as (M1 & M2 & M3).
    rewrite M1, L2, L3, <- app_assoc, takeN_dropN. repeat split; congruence.
Qed.

Theorem append_adds_exactly cap free scan ops a d e e' :
  NoDup free ->
  let st := run (init cap free scan) ops in
  s_ents st a = Some e -> e_writing e = true ->
  s_ents (step st (Append a d)) a = Some e' -> e_writing e' = true ->
  sent e' = sent e ++ d /\ e_key e' = e_key e /\ e_ver e' = e_ver e.
Proof.
  intros Hf st Ha Hw H Hw'. cbn [step] in H. rewrite Ha, Hw in H.
  eapply append_loop_sent; eauto. apply run_inv. now apply init_inv.
Qed.

Lemma headers_end_from_app b : forall st e t, headers_end_from st e b <> 0 ->
  headers_end_from st e (b ++ t) = headers_end_from st e b.
Proof.
  induction b as [|c b IH]; intros st e t H; cbn [headers_end_from app] in *; [congruence|].
  match goal with |- (if ?x =? 3 then _ else _) = _ => destruct (x =? 3) end; auto.
Qed.

Theorem parse_memory_stream key hdr body :
  headers_end hdr = lenN hdr -> hdr <> [] ->
  parse_stored false key (hdr ++ body) = Some (hdr, body).
Proof.
  intros H Hne. unfold parse_stored. unfold headers_end in *.
  assert (lenN hdr <> 0) by (destruct hdr; [congruence|cbn; lia]).
  rewrite headers_end_from_app by congruence. rewrite H.
  destruct (lenN hdr =? 0) eqn:E; [apply N.eqb_eq in E; congruence|].
  rewrite takeN_app_le, takeN_all, dropN_app_ge by lia.
  replace (lenN hdr - lenN hdr) with 0 by lia. f_equal. f_equal. destruct body; reflexivity.
Qed.

Theorem parse_disk_stream key meta hdr body :
  unpack_hit_meta key (takeN (N.min hits_reqbuf_size hits_sm_page_size) (meta ++ hdr ++ body)) = Some (lenN meta) ->
  headers_end hdr = lenN hdr -> hdr <> [] ->
  parse_stored true key (meta ++ hdr ++ body) = Some (hdr, body).
Proof.
  intros Hm H Hne. unfold parse_stored. rewrite Hm.
  rewrite dropN_app_ge by lia. replace (lenN meta - lenN meta) with 0 by lia.
  replace (dropN 0 (hdr ++ body)) with (hdr ++ body) by (destruct (hdr ++ body); reflexivity).
  apply (parse_memory_stream key hdr body H Hne).
Qed.

(* a disk stream whose first metadata field is another key is refused (swap-in validation) *)
Theorem other_key_is_refused key key' rest buf n :
  unpack_prefix buf = Some n ->
  takeN (n - hits_meta_prefix) (dropN hits_meta_prefix buf) = hits_meta_key_md5 :: le32_enc hits_md5_len ++ key' ++ rest ->
  lenN key' = hits_md5_len -> list_eqb key' key = false ->
  unpack_hit_meta key buf = None.
Proof.
  intros Hp Hm Hl Hk. unfold unpack_hit_meta. rewrite Hp, Hm.
  assert (Hv : takeN hits_md5_len (dropN hits_meta_len_size (le32_enc hits_md5_len ++ key' ++ rest)) = key').
  { unfold le32_enc. rewrite dropN_app_ge by (vm_compute; discriminate).
    replace (dropN _ (key' ++ rest)) with (key' ++ rest) by (destruct (key' ++ rest); reflexivity).
    rewrite takeN_app_le by lia. apply takeN_all. lia. }
  cbn [length check_fields].
  replace (le32 (le32_enc hits_md5_len ++ key' ++ rest)) with (Some hits_md5_len) by reflexivity.
  rewrite Hv, Hk, N.eqb_refl.
  destruct (int_max <? hits_md5_len); [reflexivity|].
  destruct (hits_meta_value_max <? hits_md5_len); [reflexivity|].
  destruct (lenN (le32_enc hits_md5_len ++ key' ++ rest) <? hits_meta_len_size + hits_md5_len); reflexivity.
Qed.

(* refreshing the stored header (Rock::HeaderUpdater / MemStore::updateHeaders) *)
Lemma chunks_concat fuel : forall sizes dflt d, concat (chunks fuel sizes dflt d) = d.
Proof.
  induction fuel as [|f IH]; intros sizes dflt d; destruct d as [|c d]; cbn [chunks concat]; auto.
  - now rewrite app_nil_r.
  - destruct sizes as [|x r]; cbn [concat]; rewrite IH; apply takeN_dropN.
Qed.

Lemma splice_tail_concat sl : forall n, n <= lenN (concat sl) ->
  fst (splice_tail sl n) ++ concat (snd (splice_tail sl n)) = dropN n (concat sl).
Proof.
  induction sl as [|s t IH]; intros n H; cbn [splice_tail concat] in *.
  - destruct n; reflexivity.
  - rewrite lenN_app in H. destruct (n <=? lenN s) eqn:E; cbn [fst snd].
    + rewrite dropN_app_le by lia. reflexivity.
    + rewrite IH by lia. rewrite dropN_app_ge by lia. reflexivity.
Qed.

(* whatever the slot boundaries are, the spliced chain spells: fresh prefix, then the old stream minus its prefix *)
Theorem update_chain_spec cap sl oldprefix body newp :
  concat sl = oldprefix ++ body ->
  concat (update_chain cap sl (lenN oldprefix) newp) = newp ++ body.
Proof.
  intros H. unfold update_chain.
  pose proof (splice_tail_concat sl (lenN oldprefix)) as K.
  destruct (splice_tail sl (lenN oldprefix)) as [tl rest]. cbn [fst snd] in K.
  rewrite concat_app, chunks_concat, <- app_assoc, K by (rewrite H, lenN_app; lia).
  rewrite H, dropN_app_ge by lia. replace (lenN oldprefix - lenN oldprefix) with 0 by lia.
  destruct body; reflexivity.
Qed.
