(* Properties_C57.v — C57: rock rebuild indexes only intact entries from any disk image.
   Statements, closed by `exact` or by the few lines that assemble them; proofs live in RockrebuildProofs.v.

   [rebuild slotSize doublecheck img] is the model of the whole Rock::Rebuild job over a db image [img]
   (one element per db slot: what its first 4 KB say): Ok s = finished with index state s, Abort = an
   assert() failed, Thrown = an exception escaped the job (squid dies in both cases), NoFuel = model
   artefact. [readable e] = StoreMap::openForReadingAt would succeed on the anchor. [chain_of s i l] = l is
   the list of slots reached from slot i through the index's slice links up to the -1 terminator. *)
Require Import SquidV.Bytes SquidV.RockrebuildModel SquidV.RockrebuildProofs.
Require Import SquidV.gen.RockRebuild_gen.
Local Open Scope Z_scope.

(* --- termination: for every image the three link-following loops end within their fuel --- *)
Theorem C57_rebuild_terminates : forall slotSize doublecheck img,
  rebuild slotSize doublecheck img <> NoFuel.
Proof. exact rebuild_terminates. Qed.
Print Assumptions C57_rebuild_terminates.

(* --- every readable entry, for EVERY image: its chain ends, visits no slot twice, and consists of
       slots of the db that were loaded (mapped), finalized, with positive payload sizes --- *)
Theorem C57_readable_chain_complete_acyclic : forall slotSize doublecheck img s f,
  rebuild slotSize doublecheck img = Ok s -> readable (ents s f) = true ->
  exists l, chain_of s (a_start (ents s f)) l /\ NoDup l /\
    forall x, In x l -> 0 <= x < Z.of_nat (length img) /\ s_mapped (sls s x) = true /\
                        s_final (sls s x) = true /\ 0 < s_size (sls s x).
Proof. exact readable_chain_acyclic_loaded. Qed.
Print Assumptions C57_readable_chain_complete_acyclic.

(* --- no slot is in the chains of two readable entries --- *)
Theorem C57_readable_chains_share_no_slot : forall slotSize doublecheck img s f g l1 l2 x,
  rebuild slotSize doublecheck img = Ok s -> f <> g ->
  readable (ents s f) = true -> readable (ents s g) = true ->
  chain_of s (a_start (ents s f)) l1 -> chain_of s (a_start (ents s g)) l2 -> In x l1 -> In x l2 -> False.
Proof. exact readable_chains_disjoint. Qed.
Print Assumptions C57_readable_chains_share_no_slot.

(* --- sizes: the payload sizes of the chain add up to the entry size (anchor.basics.swap_file_sz);
       holds since /repo e9a49c7 (finalizeOrThrow compares the known size with the bytes seen) --- *)
Theorem C57_chain_sizes_add_up : forall slotSize doublecheck img s f l,
  rebuild slotSize doublecheck img = Ok s -> readable (ents s f) = true ->
  chain_of s (a_start (ents s f)) l -> sumsz s l = a_swapsz (ents s f).
Proof. exact readable_chain_sizes. Qed.
Print Assumptions C57_chain_sizes_add_up.

(* --- complete: the first (inode, metadata) slot of every readable entry was loaded --- *)
Theorem C57_readable_entry_has_inode : forall slotSize doublecheck img s f,
  rebuild slotSize doublecheck img = Ok s -> readable (ents s f) = true -> e_anch (ents s f) = true.
Proof. exact readable_anchored. Qed.
Print Assumptions C57_readable_entry_has_inode.

(* --- a finished rebuild leaves no entry locked for writing --- *)
Theorem C57_nothing_left_locked : forall slotSize doublecheck img s f,
  rebuild slotSize doublecheck img = Ok s -> e_state (ents s f) <> LeLoading -> a_writing (ents s f) = false.
Proof. exact nothing_left_locked. Qed.
Print Assumptions C57_nothing_left_locked.

(* --- all-ones size fields (repaired in e9a49c7): importEntry never lets one into the index, and the two
       images that used to trip the asserts are now rebuilt to an index with nothing readable --- *)
Theorem C57_allones_size_never_imported : forall h m e e',
  import_entry h m e = ImpOk e' -> a_swapsz e' <> rr_entry_size_max.
Proof. exact import_never_allones. Qed.
Print Assumptions C57_allones_size_never_imported.

Theorem C57_never_crashes_on_allones_entry_size :
  holds_after 131072 false
    [DHdr (mkHdr 5 7 rr_entry_size_max 200 1 0 (-1)) (MOk true 5 7 0 false 75); dE; dE; dE; dE; dE; dE]
    (fun s => forall f, 0 <= f < 7 -> readable (ents s f) = false).
Proof. exact allones_entry_size_regress. Qed.
Print Assumptions C57_never_crashes_on_allones_entry_size.

Theorem C57_never_crashes_on_allones_metadata_size :
  holds_after 131072 false
    [DHdr (mkHdr 5 7 0 100 1 0 (-1)) (MOk true 5 7 rr_entry_size_max false 75); dE; dE; dE; dE; dE; dE]
    (fun s => forall f, 0 <= f < 7 -> readable (ents s f) = false).
Proof. exact allones_meta_size_regress. Qed.
Print Assumptions C57_never_crashes_on_allones_metadata_size.

(* --- "without crashing" is still FALSE: cross-linked chains kill squid (known finding C57-cross-linked-chains) --- *)
Theorem C57_never_crashes_refuted_cross_linked : rebuild 131072 false img_double_free = Abort.
Proof. exact crash_double_free_witness. Qed.
Print Assumptions C57_never_crashes_refuted_cross_linked.

Theorem C57_never_crashes_refuted_doublecheck : exists s, rebuild 131072 true img_freed_slot_in_use = Thrown s.
Proof. exact crash_doublecheck_witness. Qed.
Print Assumptions C57_never_crashes_refuted_doublecheck.

(* --- "that no other entry uses" is false beyond the index itself: a readable entry's slot can sit in the
       free-slot index, from where the next swap-out takes it --- *)
Theorem C57_chain_slots_not_free_refuted :
  holds_after 131072 false img_freed_slot_in_use (fun s =>
    readable (ents s 1) = true /\ chain_of s (a_start (ents s 1)) [1; 0] /\ In 0 (free s)).
Proof. exact freed_slot_in_use_witness. Qed.
Print Assumptions C57_chain_slots_not_free_refuted.

(* --- chains can mix cells of two keys, and of two versions of one key --- *)
Theorem C57_chain_of_one_key_refuted :
  holds_after 131072 false img_hodgepodge (fun s =>
    readable (ents s 1) = true /\ a_k0 (ents s 1) = 1 /\ chain_of s (a_start (ents s 1)) [1; 0] /\
    readable (ents s 2) = true /\ a_k0 (ents s 2) = 2 /\ chain_of s (a_start (ents s 2)) [4; 2]).
Proof. exact hodgepodge_witness. Qed.
Print Assumptions C57_chain_of_one_key_refuted.

Theorem C57_chain_of_one_version_refuted :
  holds_after 131072 false
    [DHdr (mkHdr 5 7 0 100 2 0 1) (MOk true 5 7 0 false 75); DHdr (mkHdr 5 7 0 100 1 0 (-1)) MBad; dE; dE; dE; dE; dE]
    (fun s => readable (ents s 5) = true /\ chain_of s (a_start (ents s 5)) [0; 1] /\ a_swapsz (ents s 5) = 200).
Proof. exact version_mix_witness. Qed.
Print Assumptions C57_chain_of_one_version_refuted.

(* --- PARTIAL, what does hold about keys and versions: in an image in which no used cell links to a used cell
       of another key and the swap metadata keys equal the cell keys, every slot of a readable chain holds a
       cell stamped with the entry's key; if moreover cells of one key carry one version, one version --- *)
Theorem C57_chain_of_one_key_partial : forall slotSize doublecheck img s f l,
  rebuild slotSize doublecheck img = Ok s -> no_cross_key_links slotSize img -> meta_keys_match img ->
  readable (ents s f) = true -> chain_of s (a_start (ents s f)) l ->
  forall x, In x l -> exists h m, live slotSize img x h m /\ h_k0 h = a_k0 (ents s f) /\ h_k1 h = a_k1 (ents s f).
Proof. exact readable_chain_one_key_partial. Qed.
Print Assumptions C57_chain_of_one_key_partial.

Theorem C57_chain_of_one_version_partial : forall slotSize doublecheck img s f l,
  rebuild slotSize doublecheck img = Ok s -> no_cross_key_links slotSize img -> meta_keys_match img ->
  (forall x y hx mx hy my, live slotSize img x hx mx -> live slotSize img y hy my ->
      h_k0 hx = h_k0 hy -> h_k1 hx = h_k1 hy -> h_ver hx = h_ver hy) ->
  readable (ents s f) = true -> chain_of s (a_start (ents s f)) l ->
  forall x y hx mx hy my, In x l -> In y l -> live slotSize img x hx mx -> live slotSize img y hy my -> h_ver hx = h_ver hy.
Proof. exact readable_chain_one_version_partial. Qed.
Print Assumptions C57_chain_of_one_version_partial.

(* --- the hypotheses of the implications are met by concrete images --- *)
Example C57_example_plain_entry_indexed :
  holds_after 131072 false
    [dE; dE; dE; DHdr (mkHdr 5 7 200 200 1 3 (-1)) (MOk true 5 7 0 false 75); dE; dE; dE] (fun s =>
    readable (ents s 5) = true /\ chain_of s (a_start (ents s 5)) [3] /\ sumsz s [3] = 200 /\
    a_swapsz (ents s 5) = 200).
Proof. exact plain_entry_example. Qed.

Example C57_example_two_entries_indexed :
  holds_after 131072 false
    [DHdr (mkHdr 1 0 300 100 1 0 2) (MOk true 1 0 0 false 75);
     DHdr (mkHdr 2 0 0 50 4 1 3) (MOk true 2 0 0 false 75);
     DHdr (mkHdr 1 0 0 200 1 0 (-1)) MBad;
     DHdr (mkHdr 2 0 0 60 4 1 (-1)) MBad; dE; dE; dE] (fun s =>
    readable (ents s 1) = true /\ chain_of s (a_start (ents s 1)) [0; 2] /\
    readable (ents s 2) = true /\ chain_of s (a_start (ents s 2)) [1; 3] /\ a_swapsz (ents s 2) = 110).
Proof. exact two_entries_example. Qed.

Example C57_example_partial_hypotheses : no_cross_key_links 262144 img_two /\ meta_keys_match img_two /\
  holds_after 262144 false img_two (fun s =>
    readable (ents s 1) = true /\ chain_of s (a_start (ents s 1)) [0; 2] /\
    readable (ents s 2) = true /\ chain_of s (a_start (ents s 2)) [1; 3] /\ a_swapsz (ents s 2) = 110).
Proof. exact img_two_hypotheses. Qed.
