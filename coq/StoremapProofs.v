(* StoremapProofs.v — proofs about StoremapModel.v (C55), part 2 (part 1: StoremapLock.v).

   Data invariants on top of the per-anchor lock invariant: what protects the key, the
   waitingToBeFreed mark and the slices of an entry is that every transition changing them is made
   by an activity that holds the anchor's lock exclusively, and an exclusive holder excludes every
   other holder. *)
Require Import SquidV.Bytes SquidV.RwlockModel SquidV.RwlockProofs SquidV.StoremapModel SquidV.StoremapLock.
Require Import ZifyBool ZifyN ZifyNat.
Local Open Scope Z_scope.

Lemma key_eq_dec : forall a b : key, {a = b} + {a <> b}.
Proof. intros [a1 a2] [b1 b2]. destruct (N.eq_dec a1 b1); destruct (N.eq_dec a2 b2); subst; try (left; reflexivity); right; congruence. Qed.

Lemma ksame_eq : forall a b, ksame a b = true -> a = b.
Proof.
  intros [a1 a2] [b1 b2] H. unfold ksame in H. cbn [fst snd] in H.
  apply andb_true_iff in H. destruct H as [H1 H2].
  apply N.eqb_eq in H1. apply N.eqb_eq in H2. subst. reflexivity.
Qed.

Definition exclOn (f : N) (th : mthread) : Prop := pri f th = Ready MExcl \/ tra f th = Ready MExcl.

(* events that neither free a slice nor report a successful open for reading *)
Definition quiet (e : mevent) : Prop :=
  match e with MFree _ | MRet _ (OOpenR (Some _)) _ => False | _ => True end.

(* what a step of a process does to the anchors: nothing, or one anchor through astepA; and what it reports *)
Lemma tstep_anchor_effect : forall sh th sh' th' evs,
  nou_pc (tpc th) = true ->
  tstep sh th = (sh', th', evs) ->
  (anchors sh' = anchors sh /\ forall e, In e evs -> quiet e) \/
  exists g p a0 a1 sh1 r evs1,
    (tpc th = Prim g p \/ tpc th = Tran g p) /\ nthN g (anchors sh) = Some a0 /\
    astepA sh a0 p = (a1, sh1, r, evs1) /\ anchors sh' = updN g a1 (anchors sh) /\
    (forall e, In e evs -> In e evs1 \/ e = MCrash \/ exists c lm o m', r = ADone lm o /\ e = MRet c o m').
Proof.
  intros sh [m p c s] sh' th' evs NU E. unfold tstep in E. cbn [cm tpc cur scr] in E. cbn [tpc] in NU.
  destruct p as [ | | |f0 m0|g0 m0|k|k|k|g p|g p|u q]; [ | | | | | | | | | |discriminate NU].
  1: { left. destruct (fetchk m s) as [[o r]|].
       - destruct (start_op sh m o) as [[sh1 p1] evs1] eqn:S. inversion E; subst; clear E.
         destruct (start_op_facts _ _ _ _ _ _ S) as (A & _ & Ev & _). split; [exact A|].
         intros e [<-|H]; [exact I|]. destruct (Ev e H) as [-> | ->]; exact I.
       - inversion E; subst. split; [reflexivity|]. intros e [<-|[]]. exact I. }
  1-4: left; inversion E; subst; split; [reflexivity | intros e []].
  1-3: left; destruct (fileno_of sh k); inversion E; subst; (split; [reflexivity|]); intros e I; cbn [In] in I;
    [contradiction | destruct I as [<-|[]]; exact Logic.I].
  all: destruct (astep sh g p) as [[sh1 r] evs1] eqn:EA; destruct (nthN g (anchors sh)) as [a0|] eqn:Ha0.
  1, 3: right; destruct (astep_anchors _ _ _ _ _ _ _ Ha0 EA) as (a1 & sh2 & EA2 & An & _);
    exists g, p, a0, a1, sh2, r, evs1; cbn [tpc]; (split; [auto|]); (split; [exact Ha0|]); (split; [assumption|]);
    destruct r; inversion E; subst; (split; [assumption|]); intros e I; [left; exact I | | | ];
    (apply in_app_or in I; destruct I as [I|I]; [left; exact I|]);
    [ destruct c; cbn [In] in I; [destruct I as [<-|[]]; right; right; eauto 6 | contradiction]
    | destruct I as [<-|[]]; right; left; reflexivity ..].
  all: left; unfold astep in EA; rewrite Ha0 in EA; inversion EA; subst; clear EA; inversion E; subst;
    split; [reflexivity|]; intros e [<-|[]]; exact I.
Qed.

Lemma pri_prim : forall g p m c s, pri g (mkT m (Prim g p) c s) = alock p.
Proof. intros. cbn [pri tpc]. rewrite N.eqb_refl. reflexivity. Qed.

Lemma exclOn_at : forall th g p, tpc th = Prim g p \/ tpc th = Tran g p -> alock p = Ready MExcl -> exclOn g th.
Proof.
  intros [m pc0 c s] g p TP AL. cbn [tpc] in TP. unfold exclOn, pri, tra.
  destruct TP as [-> | ->]; cbn [tpc]; rewrite N.eqb_refl; auto.
Qed.

Theorem tstep_protected : forall sh th sh' th' evs f a a',
  nou_pc (tpc th) = true ->
  tstep sh th = (sh', th', evs) ->
  nthN f (anchors sh) = Some a -> nthN f (anchors sh') = Some a' ->
  akey a' <> akey a \/ (wtbf a = true /\ wtbf a' = false) -> exclOn f th.
Proof.
  intros sh th sh' th' evs f a a' NU E Ha Ha' H.
  destruct (tstep_anchor_effect _ _ _ _ _ NU E) as [[An _]|(g & p & a0 & a1 & sh1 & r & evs1 & TP & Ha0 & EA & An & _)].
  - rewrite An in Ha'. rewrite Ha in Ha'. inversion Ha'; subst. exfalso. destruct H as [H|[H1 H2]]; congruence.
  - rewrite An in Ha'. destruct (N.eq_dec g f) as [->|D].
    + rewrite (nthN_updN_same _ _ _ _ _ Ha0) in Ha'. inversion Ha'; subst a'. rewrite Ha in Ha0. inversion Ha0; subst a0.
      apply (exclOn_at _ _ _ TP). apply (astepA_effect _ _ _ _ _ _ _ EA). tauto.
    + rewrite nthN_updN_other in Ha' by assumption. rewrite Ha in Ha'. inversion Ha'; subst. exfalso.
      destruct H as [H|[H1 H2]]; congruence.
Qed.

Theorem tstep_free_excl : forall sh th sh' th' evs sid,
  nou_pc (tpc th) = true ->
  tstep sh th = (sh', th', evs) -> In (MFree sid) evs ->
  exists g, exclOn g th /\ exists p, (tpc th = Prim g p \/ tpc th = Tran g p).
Proof.
  intros sh th sh' th' evs sid NU E I.
  destruct (tstep_anchor_effect _ _ _ _ _ NU E) as [[_ NF]|(g & p & a0 & a1 & sh1 & r & evs1 & TP & Ha0 & EA & An & FR)].
  - destruct (NF _ I).
  - exists g. split; [|exists p; exact TP].
    apply (exclOn_at _ _ _ TP). apply (astepA_effect _ _ _ _ _ _ _ EA). right. right. exists sid.
    destruct (FR _ I) as [I1|[I1|(? & ? & ? & ? & _ & I1)]]; [exact I1 | discriminate I1 ..].
Qed.

(* pcs of the operations a reader may call on its entry (chain walk, closeForReading, closeForReadingAndFreeIdle) *)
Definition rdctx (c : fcx) : bool := match c with FcCrf => true | _ => false end.
Definition rdclass (p : apc) : bool :=
  match p with
  | LK0 | LK1 | LK2 _ _ | LK3 _ _ | LK4 _ _ _ | CR1 | CF1 | CF2 | CF3 => true
  | AL LcCR _ | AL LcCF _ => true
  | AL (LcFcUX c) _ => rdctx c
  | FC0 c | FC1 c _ | FL1 c _ _ | FL2 c _ _ _ | FL3 c _ _ _ | RW1 c | RW2 c | RW3 c | RW4 c | RW5 c | RW6 c | CT c => rdctx c
  | _ => false
  end.

(* the pcs of the reader operations; R : rdclass p = true *)
Ltac rdclass_pcs p R :=
  destruct p; cbn [rdclass] in R; try discriminate R;
  try match goal with c : lcx |- _ => destruct c; cbn [rdclass] in R; try discriminate R end;
  try match goal with c : fcx |- _ => destruct c; cbn [rdctx] in R; try discriminate R end.

(* E : r = lcont a c m, for a given c: all the ways the method can have returned *)
Ltac lcont_split m E :=
  destruct m; cbn [lcont keep] in E; unfold fc_entry, callL in E;
  repeat match type of E with context [if ?x then _ else _] => destruct x eqn:? end.

Lemma rdclass_next : forall sh a p a' sh1 p' evs,
  astepA sh a p = (a', sh1, ANext p', evs) -> rdclass p = true -> rdclass p' = true.
Proof.
  intros sh a p a' sh1 p' evs E R.
  rdclass_pcs p R;
  match type of E with
  | astepA _ _ (AL _ _) = _ =>
      apply astepA_AL in E; destruct E as (_ & _ & _ & _ & [[m E] | [E | (lp' & E & _)]]);
      [ lcont_split m E | | ]; inversion E; subst; reflexivity
  | _ => astepA_split E; reflexivity
  end.
Qed.

(* a reader-class step that arrives at a pc holding the shared lock started from one, and does not touch the key *)
Lemma rdclass_shared : forall sh a p a' sh1 p' evs,
  astepA sh a p = (a', sh1, ANext p', evs) -> rdclass p = true -> alock p' = Ready MShared ->
  alock p = Ready MShared /\ akey a' = akey a.
Proof.
  intros sh a p a' sh1 p' evs E R S.
  rdclass_pcs p R;
  match type of E with
  | astepA _ _ (AL _ _) = _ =>
      apply astepA_AL in E; destruct E as (_ & _ & _ & _ & [[m E] | [E | (lp' & E & Hh)]]);
      [ lcont_split m E | | ]; inversion E; subst; cbn [alock amode keep] in S; try discriminate S;
      rewrite S in Hh; discriminate Hh
  | _ => astepA_split E; cbn [alock amode entry is_append keep] in S; try discriminate S; split; reflexivity
  end.
Qed.

(* the pc that fails a data assertion in a reader operation holds the shared lock *)
Lemma rdclass_crashD : forall sh a p a' sh1 m evs,
  astepA sh a p = (a', sh1, ACrashD m, evs) -> rdclass p = true -> alock p = Ready m.
Proof.
  intros sh a p a' sh1 m0 evs E R.
  rdclass_pcs p R;
  match type of E with
  | astepA _ _ (AL _ _) = _ =>
      apply astepA_AL in E; destruct E as (_ & _ & _ & _ & [[m E] | [E | (lp' & E & _)]]);
      [ lcont_split m E | | ]; discriminate E
  | _ => astepA_split E; reflexivity
  end.
Qed.

(* an operation ends with "opened for reading under k" only in openForReadingAt, after sameKey(k) *)
Lemma astepA_opened : forall sh a p a' sh1 m k evs,
  astepA sh a p = (a', sh1, ADone m (OOpenR (Some k)), evs) -> a' = a /\ akey a = k /\ wtbf a = false.
Proof.
  intros sh a p a' sh1 m k evs E.
  destruct p;
  [ apply astepA_AL in E; destruct E as (_ & _ & _ & _ & [[m0 E] | [E | (lp' & E & _)]]);
    [ destruct c; lcont_split m0 E | | ]; discriminate E
  | astepA_split E .. ].
  split; [reflexivity|]. split; [apply ksame_eq; assumption | auto].
Qed.

(* a chain walk ends where it started: holding the shared lock, key untouched *)
Lemma astepA_looked : forall sh a p a' sh1 m l w evs,
  astepA sh a p = (a', sh1, ADone m (OLook l w), evs) -> a' = a /\ alock p = Ready MShared.
Proof.
  intros sh a p a' sh1 m l w evs E.
  destruct p;
  [ apply astepA_AL in E; destruct E as (_ & _ & _ & _ & [[m0 E] | [E | (lp' & E & _)]]);
    [ destruct c; lcont_split m0 E | | ]; discriminate E
  | astepA_split E; split; reflexivity .. ].
Qed.

(* between two lock calls an activity is at a pc of the form Ready m *)
Lemma astepA_next_holds : forall sh a p a' sh1 p' evs x,
  astepA sh a p = (a', sh1, ANext p', evs) -> holds (alock p') = Some x -> alock p' = Ready x.
Proof.
  intros sh a p a' sh1 p' evs x E H.
  destruct p;
  [ apply astepA_AL in E; destruct E as (_ & _ & _ & _ & [[m0 E] | [E | (lp' & E & Hh)]]);
    [ destruct c; lcont_split m0 E | | ]; inversion E; subst
  | astepA_split E .. ];
  cbn [alock amode entry holds keep wmode_of is_append] in *; congruence.
Qed.

(* well-formedness of a reading client: it only runs reader operations, on its own entry *)
Definition wf1 (th : mthread) : Prop :=
  match cm th with
  | CRead g _ =>
      match tpc th with
      | Prim f p => f = g /\ rdclass p = true
      | StuckP f _ => f = g
      | KeyW _ | KeyR _ => False
      | _ => True
      end
  | _ => True
  end.

Definition isReader (th : mthread) (f : N) (k : key) : Prop := cm th = CRead f k /\ holdsP f th = Some MShared.

Lemma newcm_read : forall old g lm o f k,
  newcm old g lm o = CRead f k ->
  g = f /\ lm = MShared /\ (o = OOpenR (Some k) \/ (exists l w, o = OLook l w) /\ old = CRead f k).
Proof.
  intros old g lm o f k H. destruct lm; cbn [newcm] in H; try discriminate H.
  destruct o as [| |[k0|]| | |l w| | ]; try discriminate H.
  - inversion H; subst. repeat split. left. reflexivity.
  - destruct old; try discriminate H. destruct (N.eqb_spec f0 g); [|discriminate H].
    inversion H; subst. repeat split. right. split; [exists l, w; reflexivity | reflexivity].
Qed.

Lemma tstep_wf1 : forall sh th sh' th' evs, nou_pc (tpc th) = true -> wf1 th -> tstep sh th = (sh', th', evs) -> wf1 th'.
Proof.
  intros sh [m p c s] sh' th' evs NU W E. unfold tstep in E. cbn [cm tpc cur scr] in E. unfold wf1 in *. cbn [cm tpc] in W. cbn [tpc] in NU.
  destruct p as [ | | |f0 m0|g0 m0|k|k|k|g p|g p|u q]; [ | | | | | | | | | |discriminate NU].
  1: { destruct (fetchk m s) as [[o r]|] eqn:F.
       - destruct (start_op sh m o) as [[sh1 p1] evs1] eqn:S. inversion E; subst; clear E. cbn [cm tpc].
         destruct (fetchk_legal _ _ _ _ F) as [Lg _].
         destruct m; try exact I.
         destruct o; try discriminate Lg; cbn [start_op cm_anchor] in S;
           repeat match type of S with context [if ?x then _ else _] => destruct x end;
           inversion S; subst; try exact I; split; reflexivity.
       - inversion E; subst. cbn [cm tpc]. destruct m; exact I. }
  1-4: inversion E; subst; exact W.
  1-2: destruct m; try (destruct (fileno_of sh k); inversion E; subst; exact I); contradiction.
  1: destruct (fileno_of sh k); inversion E; subst; cbn [cm tpc]; destruct m; exact I.
  all: destruct (astep sh g p) as [[sh1 r] evs1] eqn:EA;
    destruct r as [p'|lm o| |lm]; inversion E; subst; clear E; cbn [cm tpc].
  all: try (destruct m; exact I).
  - (* the operation goes on: it stays among the reader's *)
    destruct m; try exact I. destruct W as [-> R]. split; [reflexivity|].
    unfold astep in EA. destruct (nthN f (anchors sh)) as [a0|]; [|inversion EA].
    destruct (astepA sh a0 p) as [[[a1 sh2] r1] evs2] eqn:EA2. inversion EA; subst.
    eapply rdclass_next; eassumption.
  - destruct (newcm m g lm o); exact I.
  - destruct m; try exact I. destruct W as [-> _]. reflexivity.
  - destruct m; try exact I; destruct lm; exact I.
Qed.

Lemma tstep_reader : forall sh th sh' th' evs f k a a',
  nou_pc (tpc th) = true -> wf1 th -> tstep sh th = (sh', th', evs) -> tpc th' <> CrashedL ->
  isReader th' f k -> nthN f (anchors sh) = Some a -> nthN f (anchors sh') = Some a' ->
  isReader th f k \/ akey a' = k.
Proof.
  intros sh [m p c s] sh' th' evs f k a a' NU W E NC [C H] Ha Ha'.
  unfold tstep in E. cbn [cm tpc cur scr] in E. cbn [tpc] in NU. unfold wf1 in W. cbn [cm tpc] in W. unfold isReader, holdsP in *.
  destruct p as [ | | |f0 m0|g0 m0|k0|k0|k0|g p|g p|u q]; [ | | | | | | | | | |discriminate NU].
  2-5: left; inversion E; subst; split; assumption.
  2-3: exfalso; destruct (fileno_of sh k0); inversion E; subst; cbn [cm] in C; subst m; exact W.
  - left. destruct (fetchk m s) as [[o r]|] eqn:F.
    + destruct (start_op sh m o) as [[sh1 p1] evs1] eqn:S. inversion E; subst; clear E. cbn [cm tpc] in *. subst m.
      split; [reflexivity|]. cbn [pri tpc cm cm_lmode]. rewrite N.eqb_refl. reflexivity.
    + inversion E; subst; clear E. cbn [cm] in C. subst m. split; [reflexivity|].
      cbn [pri tpc cm cm_lmode]. rewrite N.eqb_refl. reflexivity.
  - left. destruct (fileno_of sh k0); inversion E; subst; cbn [cm] in C; subst m; (split; [reflexivity|]);
      cbn [pri tpc cm cm_lmode]; rewrite N.eqb_refl; reflexivity.
  - destruct (astep sh g p) as [[sh1 r] evs1] eqn:EA.
    unfold astep in EA. destruct (nthN g (anchors sh)) as [a0|] eqn:Ha0.
    + destruct (astepA sh a0 p) as [[[a1 sh2] r1] evs2] eqn:EA2. inversion EA; subst; clear EA.
      destruct r as [p'|lm o| |lm]; inversion E; subst; clear E; cbn [cm tpc] in *.
      * (* still inside the operation *)
        subst m. destruct W as [-> R]. rewrite pri_prim in H.
        pose proof (astepA_next_holds _ _ _ _ _ _ _ _ EA2 H) as S.
        destruct (rdclass_shared _ _ _ _ _ _ _ EA2 R S) as [S0 _].
        left. split; [reflexivity|]. rewrite pri_prim. rewrite S0. reflexivity.
      * (* the operation returned *)
        destruct (newcm_read _ _ _ _ _ _ C) as (-> & -> & [->|[(l & w & ->) ->]]).
        -- right. destruct (astepA_opened _ _ _ _ _ _ _ _ EA2) as (-> & K & _).
           cbn [putA set_anchors anchors] in Ha'.
           pose proof (proj1 (astepA_effect _ _ _ _ _ _ _ EA2)) as An.
           rewrite An in Ha'. rewrite (nthN_updN_same _ _ _ _ _ Ha0) in Ha'. inversion Ha'; first [subst a'; exact K | congruence].
        -- left. destruct (astepA_looked _ _ _ _ _ _ _ _ _ EA2) as [-> S0]. destruct W as [_ R].
           split; [reflexivity|]. rewrite pri_prim. rewrite S0. reflexivity.
      * exfalso. apply NC. reflexivity.
      * subst m. destruct W as [-> R]. left. split; [reflexivity|]. rewrite pri_prim.
        cbn [pri tpc] in H. rewrite N.eqb_refl in H. cbn [holds] in H. inversion H; subst lm.
        rewrite (rdclass_crashD _ _ _ _ _ _ _ EA2 R). reflexivity.
    + inversion EA; subst; clear EA. inversion E; subst; clear E. cbn [cm tpc] in *. subst m. destruct W as [-> R].
      left. rewrite Ha in Ha0. discriminate Ha0.
  - (* transient activity: cm and the primary share do not change *)
    left. destruct (astep sh g p) as [[sh1 r] evs1] eqn:EA.
    destruct r as [p'|lm o| |lm]; inversion E; subst; clear E; cbn [cm tpc] in *; subst m;
      (split; [reflexivity|]); cbn [pri tpc cm cm_lmode]; rewrite N.eqb_refl; reflexivity.
Qed.

(* invariant: every reader's key is the key stored in its anchor *)
Definition WF1 (st : mstate) : Prop := forall th, In th (mths st) -> wf1 th.
Definition KInv (st : mstate) : Prop :=
  forall t th f k a, nthN t (mths st) = Some th -> isReader th f k ->
                     nthN f (anchors (msh st)) = Some a -> akey a = k.

Lemma nthN_updN_inv : forall (A : Type) (l : list A) n m (x y : A),
  nthN m (updN n x l) = Some y -> exists z, nthN m l = Some z.
Proof.
  induction l as [|a l IH]; intros n m x y H; simpl in *; [discriminate|].
  destruct (n =? 0)%N; simpl in H; destruct (m =? 0)%N; eauto.
Qed.

(* an exclusive activity on f excludes a reader of f, whoever they are *)
Lemma excl_vs_reader : forall st f a i j thi thj k,
  LInvC st -> nthN f (anchors (msh st)) = Some a ->
  nthN i (mths st) = Some thi -> nthN j (mths st) = Some thj ->
  isReader thi f k -> exclOn f thj -> False.
Proof.
  intros st f a i j thi thj k HI Ha Ni Nj [_ R] [X|X].
  - destruct (N.eq_dec i j) as [->|D].
    + rewrite Ni in Nj. inversion Nj; subst. unfold holdsP in R. rewrite X in R. discriminate R.
    + assert (C : compat MShared MExcl = true).
      { eapply (holders_compat_PP st HI f a i j); try eassumption. unfold holdsP. rewrite X. reflexivity. }
      discriminate C.
  - assert (C : compat MShared MExcl = true).
    { eapply (holders_compat_PT st HI f a i j); try eassumption. unfold holdsT. rewrite X. reflexivity. }
    discriminate C.
Qed.

Lemma sstep_kinv : forall st t0 st' evs b,
  LInvC st -> WF1 st -> KInv st -> sstep st t0 = (st', evs, b) -> WF1 st' /\ KInv st'.
Proof.
  intros [sh l] t0 st' evs b HI HW HK E.
  pose proof (sstep_linv _ _ _ _ _ HI E) as HI'.
  destruct (sstep_cases _ _ _ _ _ E) as [[-> _]|(th0 & sh1 & th1 & evs1 & N0 & TS & -> & _)]; [split; assumption|].
  cbn [msh mths] in *.
  assert (W0 : wf1 th0) by (apply HW; cbn [mths]; eapply nthN_in; eassumption).
  assert (N1 : nthN t0 (updN t0 th1 l) = Some th1) by (eapply nthN_updN_same; eassumption).
  assert (NC : tpc th1 <> CrashedL).
  { destruct HI' as [_ [HN _]]. apply HN. cbn [mths]. eapply nthN_in. exact N1. }
  assert (NU : nou_pc (tpc th0) = true).
  { destruct HI as [_ [_ HU]]. destruct (HU th0) as (_ & X & _); [cbn [mths]; eapply nthN_in; eassumption | exact X]. }
  split.
  - destruct (updN_split _ _ _ _ N0) as (l1 & l2 & E1 & E2). unfold WF1. cbn [mths]. rewrite E2.
    apply (in_replace _ wf1 _ _ th0); [rewrite <- E1; exact HW | exact (tstep_wf1 _ _ _ _ _ NU W0 TS)].
  - intros t th f k a' Nt R Ha'. cbn [msh mths] in *.
    assert (EX : exists a, nthN f (anchors sh) = Some a).
    { destruct (tstep_anchor_effect _ _ _ _ _ NU TS) as [[An _]|(g & p & a0 & a1 & sh2 & r & evs2 & _ & _ & _ & An & _)];
        rewrite An in Ha'; [eauto | eapply nthN_updN_inv; eassumption]. }
    destruct EX as [a Ha].
    assert (KEEP : forall i thi, nthN i l = Some thi -> isReader thi f k -> akey a' = k).
    { intros i thi Ni Ri.
      pose proof (HK i thi f k a Ni Ri Ha) as K0.
      destruct (key_eq_dec (akey a') (akey a)) as [Q|Q]; [congruence|].
      exfalso. eapply (excl_vs_reader (mkS sh l) f a i t0 thi th0 k); cbn [msh mths]; try eassumption.
      eapply tstep_protected; try eassumption. left. exact Q. }
    destruct (N.eq_dec t t0) as [->|D].
    + rewrite N1 in Nt. inversion Nt; subst th.
      destruct (tstep_reader _ _ _ _ _ _ _ _ _ NU W0 TS NC R Ha Ha') as [R0|K1]; [|exact K1].
      eapply KEEP; eassumption.
    + rewrite nthN_updN_other in Nt by congruence. eapply KEEP; eassumption.
Qed.

Lemma sexec_kinv : forall sched st st' evs n,
  LInvC st -> WF1 st -> KInv st -> sexec st sched = (st', evs, n) -> WF1 st' /\ KInv st'.
Proof.
  induction sched as [|t r IH]; intros st st' evs n HI HW HK E; simpl in E.
  - inversion E; subst; split; assumption.
  - destruct (sstep st t) as [[st1 e1] b] eqn:S1.
    destruct (sexec st1 r) as [[st2 e2] n2] eqn:S2.
    inversion E; subst; clear E.
    destruct (sstep_kinv _ _ _ _ _ HI HW HK S1) as [W1 K1].
    eapply IH; [ | exact W1 | exact K1 | eassumption]. eapply sstep_linv; eassumption.
Qed.

Lemma sinit_kinv : forall n scripts, WF1 (sinit n scripts) /\ KInv (sinit n scripts).
Proof.
  intros n scripts. split.
  - intros th I. cbn [sinit mths] in I. apply in_map_iff in I. destruct I as (s & E & _). subst th. exact I.
  - intros t th f k a Nt [C _] _. cbn [sinit mths] in Nt. apply nthN_in in Nt. apply in_map_iff in Nt.
    destruct Nt as (s & E & _). subst th. discriminate C.
Qed.

Theorem sreach_kinv : forall n scripts sched, noupd scripts = true -> KInv (sreach n scripts sched).
Proof.
  intros n scripts sched NU. unfold sreach. destruct (sexec (sinit n scripts) sched) as [[st e] k] eqn:E. simpl.
  destruct (sinit_kinv n scripts) as [W K].
  destruct (sexec_kinv _ _ _ _ _ (sinit_linv n scripts NU) W K E) as [_ K']. exact K'.
Qed.

(* a successful open for reading saw an unmarked anchor with the requested key *)
Lemma tstep_opened : forall sh th sh' th' evs c k m',
  nou_pc (tpc th) = true ->
  tstep sh th = (sh', th', evs) -> In (MRet c (OOpenR (Some k)) m') evs ->
  exists f a p, (tpc th = Prim f p \/ tpc th = Tran f p) /\ nthN f (anchors sh) = Some a /\ wtbf a = false /\ akey a = k.
Proof.
  intros sh th sh' th' evs c k m' NU E I.
  destruct (tstep_anchor_effect _ _ _ _ _ NU E) as [[_ NF]|(g & p & a0 & a1 & sh1 & r & evs1 & TP & Ha0 & EA & _ & EV)].
  - destruct (NF _ I).
  - exists g, a0, p. split; [exact TP|]. split; [exact Ha0|].
    destruct (EV _ I) as [I1|[I1|(c0 & lm & o & m0 & -> & I1)]]; [ | discriminate I1 | ].
    + destruct (proj1 (proj2 (astepA_effect _ _ _ _ _ _ _ EA)) _ I1) as [sid Q]. discriminate Q.
    + inversion I1; subst. destruct (astepA_opened _ _ _ _ _ _ _ _ EA) as (_ & K & W). auto.
Qed.

Lemma in_tagged : forall (t : N) (e : mevent) evs, In (t, e) (map (fun e => (t, e)) evs) -> In e evs.
Proof. intros t e evs I. apply in_map_iff in I. destruct I as (e' & Ee & Ie). inversion Ee; subst. exact Ie. Qed.

(* The theorems below hold of every state that satisfies the lock invariant (and whose processes do not update). *)
Section DataConsequences.
  Variable st : mstate.
  Hypothesis HI : LInvC st.

  Lemma linvc_nou_pc : forall t th, nthN t (mths st) = Some th -> nou_pc (tpc th) = true.
  Proof. intros t th Nt. destruct HI as [_ [_ HU]]. apply (HU th (nthN_in _ _ _ Nt)). Qed.

  (* a step that changes the key of an anchor or clears its waitingToBeFreed mark is made by an exclusive holder *)
  Theorem step_protected : forall t st' evs b f a a',
    sstep st t = (st', evs, b) ->
    nthN f (anchors (msh st)) = Some a -> nthN f (anchors (msh st')) = Some a' ->
    akey a' <> akey a \/ (wtbf a = true /\ wtbf a' = false) ->
    exists th, nthN t (mths st) = Some th /\ exclOn f th.
  Proof.
    intros t st' evs b f a a' E Ha Ha' H.
    destruct (sstep_cases _ _ _ _ _ E) as [[-> _]|(th & sh1 & th1 & evs1 & Nt & TS & -> & _)]; cbn [msh] in Ha'.
    - rewrite Ha in Ha'. inversion Ha'; subst. exfalso. destruct H as [H|[H1 H2]]; congruence.
    - exists th. split; [exact Nt|]. exact (tstep_protected _ _ _ _ _ _ _ _ (linvc_nou_pc _ _ Nt) TS Ha Ha' H).
  Qed.

  (* while a reader holds an entry, no step of any process changes its key or removes its mark *)
  Theorem stable_while_read : forall t st' evs b f a a' i thi k,
    sstep st t = (st', evs, b) ->
    nthN f (anchors (msh st)) = Some a -> nthN f (anchors (msh st')) = Some a' ->
    nthN i (mths st) = Some thi -> isReader thi f k ->
    akey a' = akey a /\ (wtbf a = true -> wtbf a' = true).
  Proof.
    intros t st' evs b f a a' i thi k E Ha Ha' Ni R.
    assert (X : ~ (akey a' <> akey a \/ (wtbf a = true /\ wtbf a' = false))).
    { intro H. destruct (step_protected t st' evs b f a a' E Ha Ha' H) as (th & Nt & EX).
      exact (excl_vs_reader st f a i t thi th k HI Ha Ni Nt R EX). }
    split.
    - destruct (key_eq_dec (akey a') (akey a)); [assumption|]. exfalso. apply X. left. assumption.
    - intro W. destruct (wtbf a') eqn:W'; [reflexivity|]. exfalso. apply X. right. split; auto.
  Qed.

  (* a slice is given back to the pool only by an activity holding exclusively the anchor whose chain it walks ... *)
  Theorem free_by_exclusive : forall t st' evs b sid,
    sstep st t = (st', evs, b) -> In (t, MFree sid) evs ->
    exists th g p, nthN t (mths st) = Some th /\ exclOn g th /\ (tpc th = Prim g p \/ tpc th = Tran g p).
  Proof.
    intros t st' evs b sid E I.
    destruct (sstep_cases _ _ _ _ _ E) as [[_ ->]|(th & sh1 & th1 & evs1 & Nt & TS & _ & ->)]; [destruct I|].
    destruct (tstep_free_excl _ _ _ _ _ _ (linvc_nou_pc _ _ Nt) TS (in_tagged _ _ _ I)) as (g & EX & p & TP).
    exists th, g, p. repeat split; assumption.
  Qed.

  (* ... hence never while some process has that entry open for reading *)
  Theorem no_free_while_read : forall t st' evs b sid,
    sstep st t = (st', evs, b) -> In (t, MFree sid) evs ->
    exists th g p, nthN t (mths st) = Some th /\ (tpc th = Prim g p \/ tpc th = Tran g p) /\
      forall a i thi k, nthN g (anchors (msh st)) = Some a -> nthN i (mths st) = Some thi -> ~ isReader thi g k.
  Proof.
    intros t st' evs b sid E I.
    destruct (free_by_exclusive t st' evs b sid E I) as (th & g & p & Nt & EX & TP).
    exists th, g, p. repeat split; try assumption.
    intros a i thi k Ha Ni R. exact (excl_vs_reader st g a i t thi th k HI Ha Ni Nt R EX).
  Qed.

  Theorem open_saw_unmarked : forall t st' evs b c k m',
    sstep st t = (st', evs, b) -> In (t, MRet c (OOpenR (Some k)) m') evs ->
    exists f a, nthN f (anchors (msh st)) = Some a /\ wtbf a = false /\ akey a = k.
  Proof.
    intros t st' evs b c k m' E I.
    destruct (sstep_cases _ _ _ _ _ E) as [[_ ->]|(th & sh1 & th1 & evs1 & Nt & TS & _ & ->)]; [destruct I|].
    destruct (tstep_opened _ _ _ _ _ _ _ _ (linvc_nou_pc _ _ Nt) TS (in_tagged _ _ _ I)) as (f & a & p & _ & Ha & W & K).
    exists f, a. repeat split; assumption.
  Qed.
End DataConsequences.

(* when every process has closed everything, every anchor's lock is idle and can be taken *)
Definition allClosed (st : mstate) : Prop :=
  forall th f, In th (mths st) -> holdsP f th = Some MIdle /\ holdsT f th = Some MIdle.

Theorem idle_when_all_closed : forall st f a,
  LInvC st -> allClosed st -> nthN f (anchors (msh st)) = Some a ->
  lk a = idle_shared /\ probe (lk a) = Some [EvRet OpLX true; EvRet OpLS true; EvRet OpLH true].
Proof.
  intros st f a [HL _] AC Ha. specialize (HL f a Ha).
  assert (ID : lk a = idle_shared).
  { apply (idle_when_all_released _ HL). cbn [ths]. intros x I. unfold proj in I. apply in_flat_map in I.
    destruct I as (th & It & Ix). destruct (AC th f It) as [P T]. cbn [In] in Ix.
    destruct Ix as [<-|[<-|[]]]; cbn [fst]; assumption. }
  split; [exact ID|]. rewrite ID. apply probe_idle.
Qed.

(* a decidable sufficient condition for allClosed: every process is between calls (or ended) and holds nothing *)
Definition closedb (st : mstate) : bool :=
  forallb (fun th => match cm th, tpc th with CIdle, Rdy | CIdle, Fin => true | _, _ => false end) (mths st).

Lemma closedb_allClosed : forall st, closedb st = true -> allClosed st.
Proof.
  intros st H th f I. unfold closedb in H. rewrite forallb_forall in H. specialize (H th I).
  unfold holdsP, holdsT, pri, tra. destruct (cm th); try discriminate H; destruct (tpc th); try discriminate H; split; reflexivity.
Qed.

(* the known finding with updaters: witness (see Properties_C55.v) *)
Definition wit_scripts : list (list kop) :=
  [[KW (1%N, 0%N); KAdd 2; KAdd 3; KCw; KU (1%N, 0%N); KSp 1; KAdd 5; KCu; KK (1%N, 0%N)]; [KR (1%N, 0%N); KLook; KLook; KLook; KCr]].
Definition wit_sched : list N := repeat 0%N 35 ++ repeat 1%N 15 ++ repeat 0%N 220.

(* what reader 1 sees and what is freed meanwhile: its chain walks, its close, and all MFree events, in order *)
Definition reader1_view (evs : list (N * mevent)) : list (N * mevent) :=
  filter (fun e => match e with
                   | (1%N, MRet KLook _ _) | (1%N, MRet KCr _ _) | (1%N, MRet (KR _) _ _) | (_, MFree _) => true
                   | _ => false
                   end) evs.

Lemma stale_reader_witness :
  exists scripts sched st evs n,
    srun_case 4 scripts sched = Some (st, evs, n) /\
    reader1_view evs =
      [ (1%N, MRet (KR (1%N, 0%N)) (OOpenR (Some (1%N, 0%N))) (CRead 1 (1%N, 0%N)));
        (1%N, MRet KLook (OLook [(0, 2%N); (1, 3%N)] true) (CRead 1 (1%N, 0%N)));
        (0%N, MFree 2); (0%N, MFree 1);
        (1%N, MRet KLook (OLook [(0, 2%N); (1, 0%N)] true) (CRead 1 (1%N, 0%N)));
        (1%N, MRet KLook (OLook [(0, 2%N); (1, 0%N)] true) (CRead 1 (1%N, 0%N)));
        (1%N, MRet KCr OUnit CIdle) ].
Proof.
  exists wit_scripts, wit_sched.
  destruct (srun_case 4 wit_scripts wit_sched) as [[[st evs] n]|] eqn:E; [|vm_compute in E; discriminate E].
  exists st, evs, n. split; [reflexivity|].
  vm_compute in E. inversion E; subst; clear E. vm_compute. reflexivity.
Qed.
