(* EventProofs.v — proofs about EventModel.v (C59). *)
Require Import SquidV.Bytes SquidV.EventModel.
Require Import SquidV.gen.Event_gen.
From Coq Require Import Sorting.Sorted Sorting.Permutation ZifyBool ZifyN ZifyNat.
Local Open Scope Z_scope.

(* order of firing: due time first, scheduling sequence number among equal due times *)
Definition ev_lt (x y : ev) : Prop :=
  e_when x < e_when y \/ (e_when x = e_when y /\ (e_id x < e_id y)%N).

Definition ev_due (now : Z) (x : ev) : Prop := e_when x <= now.

Inductive sub {A} : list A -> list A -> Prop :=
| sub_nil : sub [] []
| sub_skip x l1 l2 : sub l1 l2 -> sub l1 (x :: l2)
| sub_keep x l1 l2 : sub l1 l2 -> sub (x :: l1) (x :: l2).

Lemma sub_refl {A} (l : list A) : sub l l.
Proof. induction l; [apply sub_nil | apply sub_keep; assumption]. Qed.

Lemma sub_nil_l {A} (l : list A) : sub [] l.
Proof. induction l; [apply sub_nil | apply sub_skip; assumption]. Qed.

Lemma sub_In {A} (l1 l2 : list A) : sub l1 l2 -> forall x, In x l1 -> In x l2.
Proof. induction 1; cbn; intros y Hy; auto. destruct Hy; auto. Qed.

Lemma sub_app_l {A} (p l1 l2 : list A) : sub l1 l2 -> sub (p ++ l1) (p ++ l2).
Proof. intros H; induction p; cbn; [assumption | apply sub_keep; assumption]. Qed.

Lemma sub_app_drop {A} (d l : list A) : sub l (d ++ l).
Proof. induction d; cbn; [apply sub_refl | apply sub_skip; assumption]. Qed.

Lemma sub_app_mid {A} (l1 : list A) x l2 : sub (l1 ++ l2) (l1 ++ x :: l2).
Proof. apply sub_app_l. apply sub_skip. apply sub_refl. Qed.

Lemma sub_filter {A} (p : A -> bool) l : sub (filter p l) l.
Proof. induction l as [|x l IH]; cbn; [constructor|]. destruct (p x); [apply sub_keep | apply sub_skip]; assumption. Qed.

Lemma sub_Forall {A} (P : A -> Prop) l1 l2 : sub l1 l2 -> Forall P l2 -> Forall P l1.
Proof. intros Hs HF. rewrite Forall_forall in *. intros x Hx. apply HF. eapply sub_In; eauto. Qed.

Lemma sub_sorted {A} (R : A -> A -> Prop) l1 l2 : sub l1 l2 -> StronglySorted R l2 -> StronglySorted R l1.
Proof.
  induction 1 as [|x l1 l2 Hs IH|x l1 l2 Hs IH]; intros HS; [constructor| |].
  - inversion HS; subst. auto.
  - inversion HS as [|? ? HS' HF]; subst. constructor; [auto|]. eapply sub_Forall; eauto.
Qed.

Lemma sub_map {A B} (f : A -> B) l1 l2 : sub l1 l2 -> sub (map f l1) (map f l2).
Proof. induction 1; cbn; [apply sub_nil | apply sub_skip | apply sub_keep]; assumption. Qed.

Lemma sub_NoDup {A} (l1 l2 : list A) : sub l1 l2 -> NoDup l2 -> NoDup l1.
Proof.
  induction 1 as [|x l1 l2 Hs IH|x l1 l2 Hs IH]; intros HN; [constructor| |].
  - inversion HN; subst; auto.
  - inversion HN as [|? ? Hni HN']; subst. constructor; [|auto]. intros Hin. apply Hni. eapply sub_In; eauto.
Qed.

Lemma sorted_impl {A} (R S : A -> A -> Prop) l :
  (forall x y, R x y -> S x y) -> StronglySorted R l -> StronglySorted S l.
Proof.
  intros HRS; induction 1 as [|x l HS IH HF]; constructor; [assumption|].
  rewrite Forall_forall in *. auto.
Qed.

Lemma ev_lt_when x y : ev_lt x y -> e_when x <= e_when y.
Proof. unfold ev_lt; lia. Qed.

Lemma insert_In e q y : In y (ev_insert e q) <-> y = e \/ In y q.
Proof.
  induction q as [|x r IH]; cbn [ev_insert].
  - cbn. intuition.
  - destruct (e_when x >? e_when e); cbn [In]; [intuition|]. rewrite IH. intuition.
Qed.

Lemma insert_perm e q : Permutation (ev_insert e q) (e :: q).
Proof.
  induction q as [|x r IH]; cbn [ev_insert]; [reflexivity|].
  destruct (e_when x >? e_when e); [reflexivity|].
  rewrite IH. apply perm_swap.
Qed.

Lemma insert_sorted e q :
  StronglySorted ev_lt q -> Forall (fun x => (e_id x < e_id e)%N) q -> StronglySorted ev_lt (ev_insert e q).
Proof.
  induction 1 as [|x r HS IH HF]; intros Hid; cbn [ev_insert]; [repeat constructor|].
  inversion Hid as [|? ? Hx Hr]; subst.
  destruct (e_when x >? e_when e) eqn:E.
  - constructor; [constructor; assumption|].
    constructor; [unfold ev_lt; lia|].
    rewrite Forall_forall in *. intros y Hy. specialize (HF y Hy). apply ev_lt_when in HF. unfold ev_lt. lia.
  - constructor; [auto|].
    rewrite Forall_forall in *. intros y Hy. apply insert_In in Hy. destruct Hy as [->|Hy]; [|auto].
    unfold ev_lt. lia.
Qed.

(* schedule() inserts behind every event with the same or an earlier time, in front of all later ones *)
Lemma insert_spec e q :
  StronglySorted ev_lt q ->
  ev_insert e q = filter (fun x => e_when x <=? e_when e) q ++ e :: filter (fun x => e_when x >? e_when e) q.
Proof.
  induction 1 as [|x r HS IH HF]; [reflexivity|]. cbn [ev_insert].
  destruct (e_when x >? e_when e) eqn:E.
  - assert (Hall : forall y, In y (x :: r) -> e_when y > e_when e).
    { rewrite Forall_forall in HF. intros y [<-|Hy]; [lia|]. specialize (HF y Hy). apply ev_lt_when in HF. lia. }
    rewrite filter_none, filter_all; [reflexivity| |]; intros y Hy; specialize (Hall y Hy); lia.
  - cbn [filter]. rewrite E. replace (e_when x <=? e_when e) with true by lia. cbn [app]. f_equal. apply IH.
Qed.

Lemma cancel_loop_sub f a q : sub (fst (ev_cancel_loop f a q)) q.
Proof.
  induction q as [|x r IH]; cbn [ev_cancel_loop]; [constructor|].
  destruct (ev_nomatch f a x).
  - destruct (ev_cancel_loop f a r) as [r' ret]; cbn [fst] in *. apply sub_keep; assumption.
  - destruct (negb (a =? 0)%N); cbn [fst]; apply sub_skip; [apply sub_refl | assumption].
Qed.

Lemma cancel_sub f a q : sub (fst (ev_cancel f a q)) q.
Proof.
  unfold ev_cancel. pose proof (cancel_loop_sub f a q) as H.
  destruct (ev_cancel_loop f a q); assumption.
Qed.

(* cancel(func, nullptr): exactly the events of func go, no trap *)
Lemma cancel_all_spec f q :
  ev_cancel f 0%N q = (filter (fun x => negb (e_func x =? f)%N) q, false).
Proof.
  unfold ev_cancel.
  assert (H : ev_cancel_loop f 0%N q = (filter (fun x => negb (e_func x =? f)%N) q, false)).
  { induction q as [|x r IH]; cbn [ev_cancel_loop filter]; [reflexivity|].
    unfold ev_nomatch. cbn [N.eqb negb andb]. rewrite orb_false_r.
    destruct (negb (e_func x =? f)%N); [rewrite IH; reflexivity | apply IH]. }
  rewrite H. reflexivity.
Qed.

Lemma nomatch_false f a x : a <> 0%N -> ev_nomatch f a x = false -> e_func x = f /\ e_arg x = a.
Proof. unfold ev_nomatch. lia. Qed.

(* cancel(func, arg), arg != nullptr: exactly the first match goes; no match => the queue is untouched and
   debug_trap is called *)
Lemma cancel_one_spec f a q : a <> 0%N ->
  (forallb (ev_nomatch f a) q = true /\ ev_cancel f a q = (q, true)) \/
  (exists l1 x l2, q = l1 ++ x :: l2 /\ forallb (ev_nomatch f a) l1 = true /\ ev_nomatch f a x = false /\
                   ev_cancel f a q = (l1 ++ l2, false)).
Proof.
  intros Ha. apply N.eqb_neq in Ha. unfold ev_cancel.
  assert (H : (forallb (ev_nomatch f a) q = true /\ ev_cancel_loop f a q = (q, false)) \/
              (exists l1 x l2, q = l1 ++ x :: l2 /\ forallb (ev_nomatch f a) l1 = true /\
                               ev_nomatch f a x = false /\ ev_cancel_loop f a q = (l1 ++ l2, true))).
  { induction q as [|x r IH]; cbn [ev_cancel_loop forallb]; [left; split; reflexivity|].
    destruct (ev_nomatch f a x) eqn:E.
    - destruct IH as [[Hall ->] | (l1 & y & l2 & -> & Hl1 & Hy & ->)]; [left; split; [assumption|reflexivity]|].
      right. exists (x :: l1), y, l2. cbn [forallb app]. rewrite E. repeat split; assumption.
    - right. exists [], x, r. rewrite Ha. repeat split; assumption. }
  destruct H as [[Hall ->] | (l1 & y & l2 & Hq & Hl1 & Hy & ->)]; rewrite Ha; [left|right]; cbn [negb andb].
  - split; [assumption|reflexivity].
  - exists l1, y, l2. repeat split; assumption.
Qed.

Lemma remaining_zero_iff now q :
  ev_time_remaining now q = CRes 0 <-> match q with x :: _ => e_when x <= now | [] => False end.
Proof.
  unfold ev_time_remaining. destruct q as [|x r]; [split; [discriminate|contradiction]|].
  destruct (e_when x <=? now) eqn:E; [split; [lia|reflexivity]|].
  destruct (_ >? ev_int_max); split; try discriminate; try lia. intros H; inversion H. lia.
Qed.

Lemma remaining_not_assert now q : ev_time_remaining now q <> CAssert.
Proof.
  unfold ev_time_remaining. destruct q as [|x q]; [discriminate|].
  destruct (e_when x <=? now); [discriminate|]. destruct (_ >? ev_int_max); discriminate.
Qed.

Lemma remaining_spec now q :
  match q with
  | [] => ev_time_remaining now q = CRes ev_idle
  | x :: _ =>
    (e_when x <= now /\ ev_time_remaining now q = CRes 0) \/
    (e_when x > now /\
     ((1000 * (e_when x - now) > 1024 * ev_int_max /\ ev_time_remaining now q = CUndef) \/
      (exists ms, ev_time_remaining now q = CRes ms /\ 1 <= ms <= ev_int_max /\
                  1024 * ms >= 1000 * (e_when x - now) /\            (* never shorter than the real distance *)
                  (ms = 1 \/ 1024 * (ms - 1) < 1000 * (e_when x - now)))))   (* rounded up, not further *)
  end.
Proof.
  destruct q as [|x r]; [reflexivity|]. unfold ev_time_remaining.
  destruct (e_when x <=? now) eqn:E; [left; split; [lia|reflexivity]|]. right. split; [lia|].
  unfold ev_int_max.
  destruct ((1000 * (e_when x - now) + 1023) / 1024 >? 2147483647) eqn:E2.
  - left. split; [lia|reflexivity].
  - right. eexists. split; [reflexivity|]. lia.
Qed.

Lemma cres_eq_dec (a b : cres) : {a = b} + {a <> b}.
Proof. decide equality. apply Z.eq_dec. Qed.

(* the do-while loop stops behind a heavy event or when the next event is not due *)
Lemma check_loop_stop now inv x r : ev_heavy inv x = true \/ ev_time_remaining now r <> CRes 0 ->
  ev_check_loop now inv (x :: r) = ([x], r, ev_time_remaining now r).
Proof.
  intros H. cbn [ev_check_loop]. destruct (ev_heavy inv x); [reflexivity|].
  destruct H as [H|H]; [discriminate|]. destruct (ev_time_remaining now r) as [[| |]| |]; congruence.
Qed.

Lemma check_loop_go now inv x r : ev_heavy inv x = false -> ev_time_remaining now r = CRes 0 ->
  ev_check_loop now inv (x :: r) = let '(d, q', res) := ev_check_loop now inv r in (x :: d, q', res).
Proof. intros Hh Hr. cbn [ev_check_loop]. rewrite Hh, Hr. reflexivity. Qed.

Lemma check_loop_spec now inv q : forall d q' r,
  ev_time_remaining now q = CRes 0 -> ev_check_loop now inv q = (d, q', r) ->
  q = d ++ q' /\ Forall (ev_due now) d /\ r = ev_time_remaining now q' /\
  exists d0 z, d = d0 ++ [z] /\ forallb (fun x => negb (ev_heavy inv x)) d0 = true /\
               (ev_heavy inv z = true \/ ev_time_remaining now q' <> CRes 0).
Proof.
  induction q as [|x rest IH]; intros d q' r Hx H; apply remaining_zero_iff in Hx; [contradiction|].
  assert (Hstop : ev_heavy inv x = true \/ ev_time_remaining now rest <> CRes 0 ->
                  d = [x] /\ q' = rest /\ r = ev_time_remaining now rest).
  { intros Hs. rewrite (check_loop_stop _ _ _ _ Hs) in H. inversion H. auto. }
  destruct (ev_heavy inv x) eqn:Eh; [|destruct (cres_eq_dec (ev_time_remaining now rest) (CRes 0)) as [Er|Er]].
  1,3: destruct Hstop as (-> & -> & ->); [auto|]; repeat split; [repeat constructor; assumption|];
       exists [], x; repeat split; auto.
  rewrite (check_loop_go _ _ _ _ Eh Er) in H.
  destruct (ev_check_loop now inv rest) as [[d1 q1] r1]. inversion H; subst.
  destruct (IH d1 q' r Er eq_refl) as (Hq & Hd & Hr & d0 & z & -> & Hd0 & Hz).
  repeat split; [cbn [app]; f_equal; assumption | constructor; assumption | assumption |].
  exists (x :: d0), z. cbn [app forallb]. rewrite Eh, Hd0. repeat split; assumption.
Qed.

(* checkEvents: what is dequeued is a prefix of the queue, every dequeued event is due, the result is the
   time remaining for what is left, assert(event) cannot fail, and the prefix is the longest one that is due
   and contains no heavy event before its last element *)
Lemma check_events_spec now inv q d q' r :
  ev_check_events now inv q = (d, q', r) ->
  q = d ++ q' /\ Forall (ev_due now) d /\ r = ev_time_remaining now q' /\ r <> CAssert /\
  ((d = [] /\ ev_time_remaining now q <> CRes 0) \/
   (exists d0 z, d = d0 ++ [z] /\ forallb (fun x => negb (ev_heavy inv x)) d0 = true /\
                 (ev_heavy inv z = true \/ ev_time_remaining now q' <> CRes 0))).
Proof.
  unfold ev_check_events. intros H.
  destruct (cres_eq_dec (ev_time_remaining now q) (CRes 0)) as [E|E].
  - rewrite E in H. destruct (check_loop_spec now inv q d q' r E H) as (Hq & Hd & -> & Hmax).
    repeat split; [assumption | assumption | apply remaining_not_assert | right; assumption].
  - assert (H' : ([], q, ev_time_remaining now q) = (d, q', r))
      by (destruct (ev_time_remaining now q) as [[| |]| |]; congruence).
    inversion H'; subst. repeat split; [constructor | apply remaining_not_assert | left; split; trivial].
Qed.

Lemma loop_iter_spec fuel : forall now inv q pend idle delay fired,
  (length q + match pend with [] => 1 | _ => 2 end <= fuel)%nat ->
  ev_loop_iter fuel now inv q pend idle delay fired <> LFuel /\
  ev_loop_iter fuel now inv q pend idle delay fired <> LAssert /\
  forall q' i dl fr, ev_loop_iter fuel now inv q pend idle delay fired = LDone q' i dl fr -> exists dd, q = dd ++ q'.
Proof.
  induction fuel as [|k IH]; intros now inv q pend idle delay fired Hf.
  - exfalso. destruct pend; lia.
  - cbn [ev_loop_iter].
    destruct (ev_check_events now inv q) as [[d q1] r] eqn:Ec.
    destruct (check_events_spec now inv q d q1 r Ec) as (Hq & _ & _ & Hna & _).
    destruct r as [rz| |]; [|repeat split; try discriminate|contradiction].
    destruct (pend ++ d) as [|c cs] eqn:Ecalls.
    + repeat split; try discriminate. intros q' i dl fr H. inversion H; subst. exists d. reflexivity.
    + assert (Hk : (length q1 + 1 <= k)%nat).
      { subst q. rewrite app_length in Hf. destruct pend, d; cbn [length] in *; try discriminate; lia. }
      destruct (IH now inv q1 [] false
                   (if rz <? 0 then delay else if rz <? delay then rz else delay)
                   (fired ++ ev_dispatch inv (c :: cs)) Hk) as (H1 & H2 & H3).
      repeat split; [assumption|assumption|].
      intros q' i dl fr H. destruct (H3 q' i dl fr H) as [dd Hdd]. exists (d ++ dd). subst q q1. apply app_assoc.
Qed.

Lemma loop_once_spec now inv q pend :
  ev_loop_once now inv q pend <> LFuel /\ ev_loop_once now inv q pend <> LAssert /\
  forall q' i dl fr, ev_loop_once now inv q pend = LDone q' i dl fr -> exists dd, q = dd ++ q'.
Proof. unfold ev_loop_once. apply loop_iter_spec. destruct pend; lia. Qed.

Definition ev_reachable (s : est) : Prop := exists t0 ops, snd (ev_run (ev_init t0) ops) = s.

Lemma run_cons s o r : ev_run s (o :: r) =
  (snd (ev_step s o) :: fst (ev_run (fst (ev_step s o)) r), snd (ev_run (fst (ev_step s o)) r)).
Proof. cbn [ev_run]. destruct (ev_step s o) as [s1 out]. cbn [fst snd]. destruct (ev_run s1 r); reflexivity. Qed.

Lemma run_preserves (P : est -> Prop) :
  (forall s o s1 out, P s -> ev_step s o = (s1, out) -> P s1) -> forall ops s, P s -> P (snd (ev_run s ops)).
Proof.
  intros Hstep. induction ops as [|o r IH]; intros s Hs; [assumption|].
  rewrite run_cons. apply IH. destruct (ev_step s o) eqn:E. eapply Hstep; eauto.
Qed.

(* the events created by the schedule() calls of a history, with the due time computed from the clock at
   the time of the call: now + when, or 0 for when <= 0 *)
Fixpoint ev_created (now : Z) (next : N) (ops : list eop) : list ev :=
  match ops with
  | [] => []
  | OSched f a w wt cb :: r => mkEv next f a (ev_timestamp now w) wt cb :: ev_created now (N.succ next) r
  | OClock t :: r => ev_created t next r
  | _ :: r => ev_created now next r
  end.

(* schedule() adds one event; every other operation only takes events away, from the queue or from the
   pending calls, and leaves the numbering alone *)
Lemma step_cases s o s1 out : ev_step s o = (s1, out) ->
  (exists f a w wt cb, o = OSched f a w wt cb /\
     s1 = mkSt (s_now s) (N.succ (s_next s))
               (ev_insert (mkEv (s_next s) f a (ev_timestamp (s_now s) w) wt cb) (s_q s)) (s_pend s) (s_inv s)) \/
  (s_next s1 = s_next s /\ sub (s_q s1) (s_q s) /\ sub (s_pend s1 ++ s_q s1) (s_pend s ++ s_q s) /\
   forall r, ev_created (s_now s) (s_next s) (o :: r) = ev_created (s_now s1) (s_next s1) r).
Proof.
  intros H. destruct o; cbn [ev_step] in H; [left; inversion H; repeat eexists | right ..].
  - destruct (ev_cancel f a (s_q s)) as [q' trap] eqn:Ec. inversion H; subst; clear H.
    pose proof (cancel_sub f a (s_q s)) as Hs. rewrite Ec in Hs.
    repeat split; [assumption | apply sub_app_l; assumption].
  - inversion H. repeat split; apply sub_refl.
  - destruct (ev_check_events (s_now s) (s_inv s) (s_q s)) as [[d q'] r] eqn:Ec. inversion H; subst; clear H.
    destruct (check_events_spec _ _ _ _ _ _ Ec) as (Hq & _). cbn [s_q s_pend].
    repeat split; [rewrite Hq; apply sub_app_drop | rewrite <- app_assoc, <- Hq; apply sub_refl].
  - inversion H. repeat split; [apply sub_refl | apply sub_app_drop].
  - inversion H; subst. repeat split; apply sub_refl.
  - inversion H. repeat split; apply sub_refl.
  - inversion H; subst. repeat split; apply sub_refl.
  - destruct (loop_once_spec (s_now s) (s_inv s) (s_q s) (s_pend s)) as (_ & _ & Hd).
    destruct (ev_loop_once (s_now s) (s_inv s) (s_q s) (s_pend s)) as [q' i dl fr| | |];
      inversion H; subst; try (repeat split; apply sub_refl).
    destruct (Hd q' i dl fr eq_refl) as [dd Hdd]. cbn [s_q s_pend app]. rewrite Hdd.
    repeat split; [apply sub_app_drop | rewrite app_assoc; apply sub_app_drop].
Qed.

(* the invariant of all histories *)
Definition ev_inv (s : est) : Prop :=
  StronglySorted ev_lt (s_q s) /\
  Forall (fun x => (e_id x < s_next s)%N) (s_pend s ++ s_q s) /\
  NoDup (map e_id (s_pend s ++ s_q s)).

Lemma step_inv s o s1 out : ev_inv s -> ev_step s o = (s1, out) -> ev_inv s1.
Proof.
  intros (HS & HF & HN) H. unfold ev_inv.
  destruct (step_cases s o s1 out H) as [(f & a & w & wt & cb & _ & ->) | (Hn & Hq & Hpq & _)].
  - cbn [s_q s_pend s_next]. set (e := mkEv (s_next s) f a (ev_timestamp (s_now s) w) wt cb).
    split; [apply insert_sorted; [assumption | apply Forall_app in HF; apply HF]|].
    assert (Hp : Permutation (e :: s_pend s ++ s_q s) (s_pend s ++ ev_insert e (s_q s))).
    { eapply perm_trans; [apply Permutation_middle | apply Permutation_app_head; symmetry; apply insert_perm]. }
    split; [apply (Permutation_Forall Hp) | apply (Permutation_NoDup (Permutation_map e_id Hp)); cbn [map]];
      constructor; try assumption.
    + cbn. lia.
    + eapply Forall_impl; [|exact HF]. cbn beta. lia.
    + rewrite in_map_iff. intros (y & Hy & Hin). rewrite Forall_forall in HF. specialize (HF y Hin). cbn in Hy. lia.
  - rewrite Hn. repeat split; [eapply sub_sorted | eapply sub_Forall | eapply sub_NoDup; [apply sub_map|]]; eassumption.
Qed.

Lemma reachable_inv s : ev_reachable s -> ev_inv s.
Proof.
  intros (t0 & ops & <-). apply (run_preserves ev_inv step_inv). repeat split; constructor.
Qed.

Lemma sorted_app_lt {A} (R : A -> A -> Prop) l1 l2 :
  StronglySorted R (l1 ++ l2) -> forall x y, In x l1 -> In y l2 -> R x y.
Proof.
  induction l1 as [|a l1 IH]; cbn; intros HS x y Hx Hy; [contradiction|].
  inversion HS as [|? ? HS' HF]; subst. destruct Hx as [->|Hx]; [|eauto].
  rewrite Forall_forall in HF. apply HF. apply in_or_app; right; assumption.
Qed.

(* where queued events come from *)
Lemma step_members s o s1 out : ev_step s o = (s1, out) ->
  (s_next s <= s_next s1)%N /\
  forall y, In y (s_pend s1 ++ s_q s1) ->
    In y (s_pend s ++ s_q s) \/
    exists f a w wt cb, o = OSched f a w wt cb /\ y = mkEv (s_next s) f a (ev_timestamp (s_now s) w) wt cb.
Proof.
  intros H. destruct (step_cases s o s1 out H) as [(f & a & w & wt & cb & -> & ->) | (Hn & _ & Hpq & _)].
  - cbn [s_next s_pend s_q]. split; [lia|]. intros y. rewrite !in_app_iff, insert_In.
    intros [Hy|[->|Hy]]; [auto | right; repeat eexists | auto].
  - split; [lia|]. intros y Hy. left. eapply sub_In; eassumption.
Qed.

Lemma run_members ops : forall s y, In y (s_pend (snd (ev_run s ops)) ++ s_q (snd (ev_run s ops))) ->
  In y (s_pend s ++ s_q s) \/ In y (ev_created (s_now s) (s_next s) ops).
Proof.
  induction ops as [|o r IH]; intros s y Hy; [left; assumption|].
  rewrite run_cons in Hy. cbn [snd] in Hy. destruct (ev_step s o) as [s1 out] eqn:E. cbn [fst] in Hy.
  destruct (IH s1 y Hy) as [H1|H1].
  - destruct (step_members s o s1 out E) as (_ & Hm).
    destruct (Hm y H1) as [H2|(f & a & w & wt & cb & -> & ->)]; [left; assumption | right; left; reflexivity].
  - right. destruct (step_cases s o s1 out E) as [(f & a & w & wt & cb & -> & ->) | (_ & _ & _ & ->)];
      [right|]; exact H1.
Qed.

(* an id that is gone stays gone *)
Definition ev_absent (i : N) (s : est) : Prop :=
  (i < s_next s)%N /\ ~ In i (map e_id (s_pend s ++ s_q s)).

Lemma step_absent i s o s1 out : ev_absent i s -> ev_step s o = (s1, out) -> ev_absent i s1.
Proof.
  intros (Hlt & Hni) H. destruct (step_members s o s1 out H) as (Hn & Hm). split; [lia|].
  intros Hin. apply in_map_iff in Hin. destruct Hin as (y & Hy & Hin).
  destruct (Hm y Hin) as [H1|(f & a & w & wt & cb & _ & ->)].
  - apply Hni. rewrite <- Hy. apply in_map. assumption.
  - cbn in Hy. lia.
Qed.

Lemma NoDup_map_app_disjoint {A B} (f : A -> B) l1 l2 x :
  NoDup (map f (l1 ++ l2)) -> In x l1 -> In x l2 -> False.
Proof.
  induction l1 as [|a l1 IH]; cbn; intros HN H1 H2; [contradiction|].
  inversion HN as [|? ? Hni HN']; subst. destruct H1 as [->|H1]; [|eauto].
  apply Hni. apply in_map. apply in_or_app; right; assumption.
Qed.

Theorem queue_ordered s : ev_reachable s ->
  StronglySorted ev_lt (s_q s) /\ Forall (fun x => (e_id x < s_next s)%N) (s_q s).
Proof. intros H. destruct (reachable_inv s H) as (HS & HF & _). apply Forall_app in HF. tauto. Qed.

(* never early, in any state whatsoever *)
Theorem never_early s s1 r d : ev_step s OCheck = (s1, RCheck r d) ->
  Forall (fun x => e_when x <= s_now s) d /\ s_q s = d ++ s_q s1 /\ s_pend s1 = s_pend s ++ d /\ r <> CAssert.
Proof.
  cbn [ev_step]. destruct (ev_check_events (s_now s) (s_inv s) (s_q s)) as [[d' q'] r'] eqn:Ec.
  intros H; inversion H; subst; clear H. cbn [s_q s_pend].
  destruct (check_events_spec _ _ _ _ _ _ Ec) as (Hq & Hdue & _ & Hna & _). repeat split; assumption.
Qed.

(* ... and what is dequeued was created by an earlier schedule() with the due time it computed *)
Theorem never_early_history t0 ops s d q' r :
  snd (ev_run (ev_init t0) ops) = s -> ev_check_events (s_now s) (s_inv s) (s_q s) = (d, q', r) ->
  Forall (fun x => In x (ev_created t0 0%N ops) /\ e_when x <= s_now s) d.
Proof.
  intros Hs Hc. destruct (check_events_spec _ _ _ _ _ _ Hc) as (Hq & Hdue & _).
  rewrite Forall_forall in *. intros x Hx. split; [|apply Hdue; assumption].
  assert (Hin : In x (s_pend s ++ s_q s)) by (rewrite Hq, !in_app_iff; auto).
  rewrite <- Hs in Hin. apply run_members in Hin. cbn in Hin. destruct Hin; [contradiction|assumption].
Qed.

Theorem fires_in_order s s1 r d : ev_reachable s -> ev_step s OCheck = (s1, RCheck r d) ->
  StronglySorted ev_lt d /\ (forall x y, In x d -> In y (s_q s1) -> ev_lt x y).
Proof.
  intros Hr H. destruct (never_early s s1 r d H) as (_ & Hq & _).
  destruct (queue_ordered s Hr) as (HS & _). rewrite Hq in HS. split.
  - eapply sub_sorted; [|exact HS]. rewrite <- (app_nil_r d) at 1. apply sub_app_l, sub_nil_l.
  - intros x y Hx Hy. eapply sorted_app_lt; eauto.
Qed.

(* in a sorted queue whose head is not due nothing is due *)
Lemma sorted_none_due now l : StronglySorted ev_lt l -> ev_time_remaining now l <> CRes 0 ->
  forall y, In y l -> e_when y > now.
Proof.
  intros Hl Hn y Hy. rewrite remaining_zero_iff in Hn. destruct l as [|x l]; [contradiction|].
  inversion Hl as [|? ? _ HF]; subst. destruct Hy as [->|Hy]; [lia|].
  rewrite Forall_forall in HF. specialize (HF y Hy). apply ev_lt_when in HF. lia.
Qed.

Theorem check_takes_all_due s s1 r d : ev_reachable s -> ev_step s OCheck = (s1, RCheck r d) ->
  (d = [] /\ (forall y, In y (s_q s) -> e_when y > s_now s)) \/
  (exists d0 z, d = d0 ++ [z] /\ forallb (fun x => negb (ev_heavy (s_inv s) x)) d0 = true /\
                (ev_heavy (s_inv s) z = true \/ forall y, In y (s_q s1) -> e_when y > s_now s)).
Proof.
  intros Hr H. destruct (queue_ordered s Hr) as (HS & _). revert H. cbn [ev_step].
  destruct (ev_check_events (s_now s) (s_inv s) (s_q s)) as [[d' q'] r'] eqn:Ec.
  intros H; inversion H; subst; clear H. cbn [s_q].
  destruct (check_events_spec _ _ _ _ _ _ Ec) as (Hq & _ & _ & _ & [[Hd Hn] | (d0 & z & Hd & Hd0 & Hz)]).
  - left. split; [assumption|]. apply sorted_none_due; assumption.
  - right. exists d0, z. repeat split; try assumption. destruct Hz as [Hz|Hz]; [left; assumption|right].
    apply sorted_none_due; [|assumption]. rewrite Hq in HS. eapply sub_sorted; [apply sub_app_drop | exact HS].
Qed.

Theorem schedule_inserts_stably s f a w wt cb s1 out : ev_reachable s ->
  ev_step s (OSched f a w wt cb) = (s1, out) ->
  let e := mkEv (s_next s) f a (ev_timestamp (s_now s) w) wt cb in
  out = RSched (s_next s) /\
  s_q s1 = filter (fun x => e_when x <=? e_when e) (s_q s) ++ e :: filter (fun x => e_when x >? e_when e) (s_q s) /\
  s_pend s1 = s_pend s /\ s_now s1 = s_now s.
Proof.
  intros Hr H e. cbn [ev_step] in H. inversion H; subst; clear H. cbn [s_q s_pend s_now].
  destruct (queue_ordered s Hr) as (HS & _). repeat split. apply insert_spec. assumption.
Qed.

Theorem cancel_all_leaves_others s f s1 out : ev_step s (OCancel f 0%N) = (s1, out) ->
  s_q s1 = filter (fun x => negb (e_func x =? f)%N) (s_q s) /\ out = RCancel false /\
  s_pend s1 = s_pend s /\ s_now s1 = s_now s /\ s_next s1 = s_next s.
Proof.
  cbn [ev_step]. rewrite cancel_all_spec. intros H; inversion H; subst. cbn. repeat split.
Qed.

Theorem cancel_one_leaves_others s f a s1 out : a <> 0%N -> ev_step s (OCancel f a) = (s1, out) ->
  s_pend s1 = s_pend s /\ s_now s1 = s_now s /\ s_next s1 = s_next s /\
  ((forallb (ev_nomatch f a) (s_q s) = true /\ s_q s1 = s_q s /\ out = RCancel true) \/
   (exists l1 x l2, s_q s = l1 ++ x :: l2 /\ forallb (ev_nomatch f a) l1 = true /\
                    e_func x = f /\ e_arg x = a /\ s_q s1 = l1 ++ l2 /\ out = RCancel false)).
Proof.
  intros Ha. cbn [ev_step].
  destruct (cancel_one_spec f a (s_q s) Ha) as [[Hall Hc] | (l1 & x & l2 & Hq & Hl1 & Hx & Hc)];
    rewrite Hc; intros H; inversion H; subst; cbn [s_q s_pend s_now s_next]; repeat split.
  - left. repeat split; assumption.
  - right. exists l1, x, l2. destruct (nomatch_false f a x Ha Hx). repeat split; assumption.
Qed.

(* an event removed by cancel() while still queued is never dequeued, queued or pending again *)
Theorem cancelled_never_fires_partial s f a s1 out x ops : ev_reachable s ->
  ev_step s (OCancel f a) = (s1, out) -> In x (s_q s) -> ~ In x (s_q s1) ->
  let s2 := snd (ev_run s1 ops) in
  ~ In (e_id x) (map e_id (s_pend s2 ++ s_q s2)) /\
  forall d q' r, ev_check_events (s_now s2) (s_inv s2) (s_q s2) = (d, q', r) -> ~ In (e_id x) (map e_id d).
Proof.
  intros Hr H Hx Hnx s2. pose proof (reachable_inv s Hr) as (HS & HF & HN).
  assert (Habs : ev_absent (e_id x) s1).
  { revert H. cbn [ev_step]. destruct (ev_cancel f a (s_q s)) as [q' trap] eqn:Ec.
    intros H; inversion H; subst; clear H. cbn [s_q] in Hnx.
    pose proof (cancel_sub f a (s_q s)) as Hs. rewrite Ec in Hs. cbn [fst] in Hs.
    split; cbn [s_next s_pend s_q].
    - rewrite Forall_forall in HF. apply HF. apply in_or_app; right; assumption.
    - intros Hin. apply in_map_iff in Hin. destruct Hin as (y & Hy & Hin).
      assert (Hy' : In y (s_pend s ++ s_q s)) by (eapply sub_In; [apply sub_app_l; eassumption | assumption]).
      assert (Hx' : In x (s_pend s ++ s_q s)) by (apply in_or_app; right; assumption).
      assert (y = x) by (eapply NoDup_map_inj; eauto). subst y.
      apply in_app_or in Hin. destruct Hin as [Hin|Hin]; [|contradiction].
      eapply NoDup_map_app_disjoint; eauto. }
  pose proof (run_preserves _ (step_absent (e_id x)) ops s1 Habs) as (_ & Hni). fold s2 in Hni. split; [assumption|].
  intros d q' r Hc Hin. destruct (check_events_spec _ _ _ _ _ _ Hc) as (Hq & _).
  apply Hni. rewrite Hq, !map_app, !in_app_iff. auto.
Qed.

(* after cancel(func, nullptr) every queued event of func was scheduled later *)
Theorem cancel_all_then_only_new s f s1 out ops : ev_reachable s -> ev_step s (OCancel f 0%N) = (s1, out) ->
  forall y, In y (s_q (snd (ev_run s1 ops))) -> e_func y = f ->
  In y (ev_created (s_now s1) (s_next s1) ops) \/ In y (s_pend s).
Proof.
  intros Hr H y Hy Hf. destruct (cancel_all_leaves_others s f s1 out H) as (Hq & _ & Hp & _).
  assert (Hin : In y (s_pend (snd (ev_run s1 ops)) ++ s_q (snd (ev_run s1 ops)))) by (apply in_or_app; auto).
  apply run_members in Hin. destruct Hin as [Hin|Hin]; [|left; assumption].
  apply in_app_or in Hin. destruct Hin as [Hin|Hin]; [right; rewrite <- Hp; assumption|].
  exfalso. rewrite Hq in Hin. apply filter_In in Hin. destruct Hin as (_ & Hn).
  rewrite Hf, N.eqb_refl in Hn. discriminate.
Qed.

(* the literal statement "a cancelled event never fires" is false once checkEvents() has turned the
   event into an AsyncCall: cancel() does not find it (debug_trap) and the handler still runs *)
Theorem cancelled_never_fires_refuted :
  exists ops, fst (ev_run (ev_init 0) ops) =
    [RSched 0%N; RCheck (CRes ev_idle) [mkEv 0%N 1%N 1%N 0 0 false]; RCancel true; RDispatch [(1%N, 1%N)]].
Proof. exists [OSched 1%N 1%N 0 0 false; OCheck; OCancel 1%N 1%N; ODispatch]. vm_compute. reflexivity. Qed.

(* EventLoop::runOnce terminates within len+2 rounds, never trips assert(event); what it leaves is a
   suffix of the queue *)
Theorem loop_pass_total s s1 out : ev_step s OLoop = (s1, out) ->
  out <> RLoop LFuel /\ out <> RLoop LAssert /\
  forall q' i dl fr, out = RLoop (LDone q' i dl fr) -> exists dd, s_q s = dd ++ q' /\ s_q s1 = q' /\ s_pend s1 = [].
Proof.
  cbn [ev_step]. destruct (loop_once_spec (s_now s) (s_inv s) (s_q s) (s_pend s)) as (H1 & H2 & H3).
  destruct (ev_loop_once (s_now s) (s_inv s) (s_q s) (s_pend s)) as [q' i dl fr| | |] eqn:El;
    intros H; inversion H; subst; repeat split; try discriminate; try congruence.
  intros q0 i0 dl0 fr0 Heq. inversion Heq; subst. destruct (H3 q0 i0 dl0 fr0 eq_refl) as [dd Hdd].
  exists dd. cbn. auto.
Qed.

(* dispatch runs the pending calls in the order they were dequeued, skipping those whose cbdata
   argument has become invalid *)
Theorem dispatch_in_order s s1 out : ev_step s ODispatch = (s1, out) ->
  out = RDispatch (map (fun x => (e_func x, e_arg x)) (filter (ev_callable (s_inv s)) (s_pend s))) /\
  s_pend s1 = [] /\ s_q s1 = s_q s.
Proof. cbn [ev_step]. intros H; inversion H; subst. cbn. repeat split. Qed.
