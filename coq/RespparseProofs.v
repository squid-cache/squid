(* RespparseProofs.v — proofs about RespparseModel.v (C23).
   Every stage of the response parser keeps a definitive verdict when bytes are appended and resumes
   from a need-more checkpoint as if it had seen the longer input at once; Incremental.v turns that
   into independence of the segmentation.  The second half states the status-line grammar with
   explicit literals and proves that the parser accepts exactly it. *)
Require SquidV.Incremental.
Require Import SquidV.Bytes SquidV.TokModel SquidV.TokProofs SquidV.Int64Proofs SquidV.RespparseModel.
Require Import SquidV.gen.CharSets_gen SquidV.gen.RespTabs_gen.
Require Import ZifyBool ZifyN ZifyNat.
Local Open Scope N_scope.

Lemma incomparable_app l p x :
  starts_with l p = false -> starts_with p l = false ->
  starts_with (l ++ x) p = false /\ starts_with p (l ++ x) = false.
Proof.
  revert p; induction l as [|c l IH]; intros p H1 H2.
  - destruct p; cbn in H2; discriminate.
  - destruct p as [|y p]; [cbn in H1; discriminate|].
    cbn [starts_with app] in *. rewrite (N.eqb_sym y c) in *.
    destruct (c =? y) eqn:E; cbn [andb] in *; [|split; reflexivity].
    apply IH; assumption.
Qed.

Lemma starts_with_long l p : starts_with p l = true -> lenN p <= lenN l -> starts_with l p = true.
Proof.
  revert p; induction l as [|c l IH]; intros p H Hl.
  - destruct p; [reflexivity| cbn [lenN] in Hl; lia].
  - destruct p as [|y p]; [reflexivity|]. cbn [starts_with lenN] in *.
    apply andb_true_iff in H as [H1 H2]. rewrite (N.eqb_sym c y), H1. cbn [andb]. apply IH; [assumption|lia].
Qed.

Lemma tok_skip_true_stable t b r x :
  tok_skip t b = (true, r) -> tok_skip t (b ++ x) = (true, r ++ x).
Proof.
  unfold tok_skip. destruct (starts_with b t) eqn:E; [|discriminate].
  intros H. inversion H as [[H1 H2]]. rewrite (starts_with_ext _ _ x E), H1.
  rewrite dropN_app_le by (apply starts_with_len; exact E). reflexivity.
Qed.

Definition dval (c : N) : N := c - 48.

Lemma tok_int64_1 t : tok_int64 10 false 1 t =
  match t with
  | m :: _ => if is_digit m then Some ((Z.of_N m - 48)%Z, 1) else None
  | [] => None
  end.
Proof.
  rewrite tok_int64_dec_unsigned. destruct t as [|m r]; [reflexivity|].
  cbn [takeN N.eqb N.pred Pos.pred_N]. rewrite takeN_0. cbn [digit_run]. rewrite digit_of_10.
  destruct (is_digit m) eqn:Hm; [|reflexivity]. unfold digits_value. cbn [fold_left lenN].
  destruct (0 * 10 + (Z.of_N m - 48) >? two63 - 1)%Z eqn:E; [unfold is_digit, two63 in *; lia|].
  reflexivity.
Qed.

(* after a digit run of value v: the delimiter and the range test *)
Definition status_tail (relaxed : bool) (v : N) (t : bytes) : psres :=
  match t with
  | [] => PSmore
  | dl :: r => if delim relaxed dl
               then if v <=? 99 then PSbad (Some v) else if 600 <=? v then PSbad (Some v) else PSok v r
               else PSbad None
  end.
(* the same after reading at most n more digits *)
Fixpoint status_digits (relaxed : bool) (n : nat) (v : N) (t : bytes) : psres :=
  match n, t with
  | S n', d :: t' => if is_digit d then status_digits relaxed n' (10 * v + dval d) t'
                     else status_tail relaxed v t
  | _, _ => status_tail relaxed v t
  end.

(* status_digits follows the digit run that int64 reads; the run of at most n digits stays below 10^n *)
Lemma status_digits_run relaxed n : forall v t,
  let ds := digit_run 10 (takeN (N.of_nat n) t) in
  let V := digits_value 10 ds (Z.of_N v) in
  status_digits relaxed n v t = status_tail relaxed (Z.to_N V) (dropN (lenN ds) t) /\
  (Z.of_N v <= V < (Z.of_N v + 1) * 10 ^ Z.of_nat n)%Z.
Proof.
  induction n as [|n IH]; intros v t; cbn zeta.
  - cbn [N.of_nat]. rewrite takeN_0. cbn [digit_run lenN]. rewrite dropN_0.
    unfold digits_value. cbn [fold_left status_digits]. rewrite N2Z.id. split; [reflexivity|lia].
  - pose proof (Z.pow_pos_nonneg 10 (Z.of_nat n) ltac:(lia) ltac:(lia)) as Hp.
    rewrite Nat2Z.inj_succ, Z.pow_succ_r by lia.
    destruct t as [|d t'].
    { cbn [takeN digit_run lenN dropN status_digits]. unfold digits_value. cbn [fold_left].
      rewrite N2Z.id. split; [reflexivity|nia]. }
    rewrite Nat2N.inj_succ. cbn [takeN status_digits].
    destruct (N.succ (N.of_nat n) =? 0) eqn:E0; [lia|]. rewrite N.pred_succ.
    cbn [digit_run]. rewrite digit_of_10. destruct (is_digit d) eqn:Hd.
    + rewrite digits_value_cons. cbn [lenN dropN].
      destruct (N.succ (lenN (digit_run 10 (takeN (N.of_nat n) t'))) =? 0) eqn:E1; [lia|]. rewrite N.pred_succ.
      destruct (IH (10 * v + dval d) t') as [E B]. cbn zeta in E, B.
      replace (Z.of_N (10 * v + dval d)) with (Z.of_N v * 10 + (Z.of_N d - 48))%Z in E, B
        by (unfold dval, is_digit in *; lia).
      split; [exact E|]. unfold is_digit in Hd. nia.
    + unfold digits_value. cbn [fold_left lenN]. rewrite dropN_0, N2Z.id. split; [reflexivity|nia].
Qed.

Lemma parse_status_eq relaxed b :
  parse_status relaxed b =
  match b with
  | [] => PSmore
  | d :: t => if is_digit d then status_digits relaxed 2 (dval d) t else PSbad None
  end.
Proof.
  unfold parse_status. rewrite tok_int64_dec_unsigned. destruct b as [|d t]; [reflexivity|].
  cbn [takeN N.eqb N.pred Pos.pred_N Pos.pred_double digit_run]. rewrite digit_of_10.
  destruct (is_digit d) eqn:Hd; [|reflexivity].
  destruct (status_digits_run relaxed 2 (dval d) t) as [E B]. cbn zeta in E, B.
  change (N.of_nat 2) with 2 in E, B. rewrite digits_value_cons.
  replace (0 * 10 + (Z.of_N d - 48))%Z with (Z.of_N (dval d)) by (unfold dval, is_digit in *; lia).
  destruct (digits_value 10 (digit_run 10 (takeN 2 t)) (Z.of_N (dval d)) >? two63 - 1)%Z eqn:Eo;
    [unfold two63, dval, is_digit in *; lia|].
  cbn [lenN dropN]. destruct (N.succ (lenN (digit_run 10 (takeN 2 t))) =? 0) eqn:E1; [lia|].
  rewrite N.pred_succ, E. unfold status_tail.
  destruct (dropN (lenN (digit_run 10 (takeN 2 t))) t) as [|dl r]; cbn [tok_skipOne]; [reflexivity|].
  destruct (delim relaxed dl); reflexivity.
Qed.

(* a verdict of ParseResponseStatus stays when bytes are appended *)
Definition ps_ext (x : bytes) (o : psres) : psres :=
  match o with PSok c r => PSok c (r ++ x) | _ => o end.

Lemma status_tail_stable relaxed v t x : t <> [] ->
  status_tail relaxed v (t ++ x) = ps_ext x (status_tail relaxed v t).
Proof.
  destruct t as [|dl r]; [congruence|]. intros _. cbn [app status_tail].
  destruct (delim relaxed dl), (v <=? 99), (600 <=? v); reflexivity.
Qed.

Lemma status_digits_stable relaxed x n : forall v t, status_digits relaxed n v t <> PSmore ->
  status_digits relaxed n v (t ++ x) = ps_ext x (status_digits relaxed n v t).
Proof.
  induction n as [|n IH]; intros v [|d t] H; cbn [status_digits app] in *; try (now elim H).
  - apply (status_tail_stable relaxed v (d :: t)). discriminate.
  - destruct (is_digit d); [apply IH; exact H|]. apply (status_tail_stable relaxed v (d :: t)). discriminate.
Qed.

Lemma parse_status_stable relaxed b x o : parse_status relaxed b = o -> o <> PSmore ->
  parse_status relaxed (b ++ x) = ps_ext x o.
Proof.
  intros <-. rewrite !parse_status_eq. destruct b as [|d t]; [congruence|]. cbn [app].
  destruct (is_digit d); [apply status_digits_stable|reflexivity].
Qed.

Lemma skip_required_spec t b : t <> [] ->
  skip_required t b = if starts_with b t then SkOk (dropN (lenN t) b)
                      else if starts_with t b then SkMore else SkBad.
Proof.
  intros Ht. unfold skip_required. rewrite tok_skip_nonempty by exact Ht.
  assert (E0 : (lenN t =? 0) = false) by (destruct t; [congruence|cbn [lenN]; apply N.eqb_neq; lia]).
  rewrite E0. destruct (starts_with b t); cbn [orb]; reflexivity.
Qed.

(* a verdict of skipRequired / skipLineTerminator stays when bytes are appended *)
Definition sk_ext (x : bytes) (o : skres) : skres :=
  match o with SkOk r => SkOk (r ++ x) | _ => o end.

Lemma skip_required_stable t b x o : t <> [] ->
  skip_required t b = o -> o <> SkMore -> skip_required t (b ++ x) = sk_ext x o.
Proof.
  intros Ht <-. rewrite !skip_required_spec by exact Ht.
  destruct (starts_with b t) eqn:E1.
  - intros _. rewrite (starts_with_ext _ _ x E1), dropN_app_le by (apply starts_with_len, E1). reflexivity.
  - destruct (starts_with t b) eqn:E2; [congruence|]. intros _.
    destruct (incomparable_app _ _ x E1 E2) as [H1 H2]. now rewrite H1, H2.
Qed.

Lemma resp_crlf_nonnil : resp_crlf <> [].
Proof. discriminate. Qed.

Lemma skip_line_terminator_nil relaxed : skip_line_terminator relaxed [] = SkMore.
Proof. destruct relaxed; reflexivity. Qed.

Lemma skip_line_terminator_stable relaxed b x o :
  skip_line_terminator relaxed b = o -> o <> SkMore -> skip_line_terminator relaxed (b ++ x) = sk_ext x o.
Proof.
  destruct b as [|c b]; [rewrite skip_line_terminator_nil; congruence|].
  unfold skip_line_terminator. cbn [tok_skipOne app].
  destruct (cs_LF c), relaxed; cbn [andb]; try (intros <- _; reflexivity);
    apply (skip_required_stable resp_crlf (c :: b) x o resp_crlf_nonnil).
Qed.

Lemma set_reason_id s : p_reason s = [] -> set_reason s [] = s.
Proof. destruct s; cbn; intros ->; reflexivity. Qed.

(* a verdict (1 or -1) of the reason-phrase stage stays; after success the new bytes follow the rest *)
Lemma reason_and_eol_stable relaxed s t buf r s' k x buf' :
  reason_and_eol relaxed s t buf = (r, s', k) -> r <> 0%Z ->
  reason_and_eol relaxed s (t ++ x) buf' = (r, s', if (r =? 1)%Z then k ++ x else buf').
Proof.
  unfold reason_and_eol. intros H Hr.
  destruct (tok_prefix resp_phraseChars npos t) as [[tk r0]|] eqn:Ep.
  - assert (Hn : r0 <> []).
    { intros ->. rewrite skip_line_terminator_nil in H. injection H as <- _ _. now elim Hr. }
    rewrite (tok_prefix_ext_some _ _ _ x _ _ Ep Hn).
    destruct (skip_line_terminator relaxed r0) as [t2| |] eqn:Et; injection H as <- <- <-;
      try (now elim Hr); rewrite (skip_line_terminator_stable _ _ x _ Et) by discriminate; reflexivity.
  - assert (Hn : t <> []).
    { intros ->. rewrite skip_line_terminator_nil in H. injection H as <- _ _. now elim Hr. }
    rewrite (tok_prefix_ext_none _ _ _ x Ep Hn).
    destruct (skip_line_terminator relaxed t) as [t2| |] eqn:Et; injection H as <- <- <-;
      try (now elim Hr); rewrite (skip_line_terminator_stable _ _ x _ Et) by discriminate; reflexivity.
Qed.

Lemma reason_and_eol_more relaxed s t buf s' k :
  reason_and_eol relaxed s t buf = (0%Z, s', k) -> s' = set_reason s [] /\ k = buf.
Proof.
  unfold reason_and_eol.
  destruct (tok_prefix resp_phraseChars npos t) as [[tk r]|];
    [destruct (skip_line_terminator relaxed r)|destruct (skip_line_terminator relaxed t)];
    try discriminate; intros H; inversion H; subst; split; reflexivity.
Qed.

Lemma reason_and_eol_ret relaxed s t buf :
  let r := fst (fst (reason_and_eol relaxed s t buf)) in r = 1%Z \/ r = 0%Z \/ r = (-1)%Z.
Proof.
  unfold reason_and_eol.
  destruct (tok_prefix resp_phraseChars npos t) as [[tk r]|];
    [destruct (skip_line_terminator relaxed r)|destruct (skip_line_terminator relaxed t)]; cbn; auto.
Qed.

Lemma reason_and_eol_frame relaxed s t buf r s' k :
  reason_and_eol relaxed s t buf = (r, s', k) ->
  p_stage s' = p_stage s /\ p_proto s' = p_proto s /\ p_major s' = p_major s /\ p_minor s' = p_minor s /\
  p_completed s' = p_completed s /\ p_status s' = p_status s /\ p_mime s' = p_mime s /\ p_code s' = p_code s.
Proof.
  unfold reason_and_eol.
  destruct (tok_prefix resp_phraseChars npos t) as [[tk r0]|];
    [destruct (skip_line_terminator relaxed r0)|destruct (skip_line_terminator relaxed t)];
    intros H; inversion H; subst; cbn; repeat split.
Qed.

Lemma status_and_reason_stable relaxed s t buf r s' k x buf' :
  status_and_reason relaxed s t buf = (r, s', k) -> r <> 0%Z ->
  exists k', status_and_reason relaxed s (t ++ x) buf' = (r, s', k') /\ (r = 1%Z -> k' = k ++ x).
Proof.
  unfold status_and_reason. intros H Hr. destruct (p_completed s).
  - rewrite (reason_and_eol_stable _ _ _ _ _ _ _ x buf' H Hr). eexists. split; [reflexivity|now intros ->].
  - destruct (parse_status relaxed t) as [v t1| |[v|]] eqn:Ep.
    2:{ injection H as <- _ _. now elim Hr. }
    all: rewrite (parse_status_stable _ _ x _ Ep) by discriminate; cbn [ps_ext].
    + rewrite (reason_and_eol_stable _ _ _ _ _ _ _ x (t1 ++ x) H Hr). eexists. split; [reflexivity|now intros ->].
    + injection H as <- <- _. eexists. split; [reflexivity|discriminate].
    + injection H as <- <- _. eexists. split; [reflexivity|discriminate].
Qed.

Lemma status_and_reason_ret relaxed s t buf :
  let r := fst (fst (status_and_reason relaxed s t buf)) in r = 1%Z \/ r = 0%Z \/ r = (-1)%Z.
Proof.
  unfold status_and_reason. destruct (p_completed s); [apply reason_and_eol_ret|].
  destruct (parse_status relaxed t) as [v t1| |[v|]]; [apply reason_and_eol_ret| | |]; cbn; auto.
Qed.

Lemma status_and_reason_frame relaxed s t buf r s' k :
  status_and_reason relaxed s t buf = (r, s', k) ->
  p_stage s' = p_stage s /\ p_proto s' = p_proto s /\ p_major s' = p_major s /\ p_minor s' = p_minor s /\
  p_mime s' = p_mime s /\ p_code s' = p_code s.
Proof.
  unfold status_and_reason. destruct (p_completed s).
  - intros H. apply reason_and_eol_frame in H. tauto.
  - destruct (parse_status relaxed t) as [v t1| |[v|]]; intros H.
    1: apply reason_and_eol_frame in H; cbn in H; tauto.
    all: inversion H; subst; cbn; repeat split.
Qed.

(* the resume checkpoint: re-running from the retained bytes with the saved state continues the same parse *)
Lemma status_and_reason_more relaxed s t s' k :
  status_and_reason relaxed s t t = (0%Z, s', k) -> p_reason s = [] ->
  p_reason s' = [] /\
  forall x, status_and_reason relaxed s (t ++ x) (t ++ x) = status_and_reason relaxed s' (k ++ x) (k ++ x).
Proof.
  intros H Hr. pose proof (set_reason_id s Hr) as Hs.
  unfold status_and_reason in H. destruct (p_completed s) eqn:Ec.
  - apply reason_and_eol_more in H as [-> ->]. rewrite Hs.
    split; [exact Hr|]. intros x. reflexivity.
  - destruct (parse_status relaxed t) as [v t1| |[v|]] eqn:Ep; try discriminate.
    + apply reason_and_eol_more in H as [-> ->].
      rewrite set_reason_id by (cbn; exact Hr).
      split; [cbn; exact Hr|]. intros x. unfold status_and_reason. rewrite Ec.
      cbn [p_completed set_completed].
      rewrite (parse_status_stable _ _ x _ Ep) by discriminate. reflexivity.
    + inversion H; subst. rewrite Hs.
      split; [exact Hr|]. intros x. reflexivity.
Qed.

Lemma icy_not_http b x : starts_with b resp_icymagic = true -> starts_with (b ++ x) resp_http1magic = false.
Proof.
  destruct b as [|c b]; [discriminate|]. unfold resp_icymagic, resp_http1magic. cbn [starts_with app].
  destruct (c =? 73) eqn:E; [|discriminate]. apply N.eqb_eq in E; subst. reflexivity.
Qed.

Lemma magic_decided m b :
  starts_with b m = false -> ((lenN b <? lenN m) && starts_with m b) = false ->
  starts_with m b = false.
Proof.
  intros H1 H2. destruct (starts_with m b) eqn:E; [|reflexivity].
  rewrite andb_true_r in H2. apply N.ltb_ge in H2.
  rewrite (starts_with_long _ _ E H2) in H1. discriminate.
Qed.

Lemma first_line_resumed relaxed s b : proto_eqb (p_proto s) PNone = false ->
  first_line relaxed s b = status_and_reason relaxed s b b.
Proof. unfold first_line. now intros ->. Qed.

(* what parseResponseFirstLine does with the bytes t behind "HTTP/1." of the buffer b: minor version digit,
   delimiter, then status and reason *)
Definition http1_rest (relaxed : bool) (s : pst) (b t : bytes) : Z * pst * bytes :=
  match t with
  | m :: t2 =>
      if is_digit m then
        match t2 with
        | dl :: t3 => if delim relaxed dl
                      then status_and_reason relaxed (set_proto s PHttp 1 (dval m)) t3 t3
                      else ((-1)%Z, s, b)
        | [] => (0%Z, s, b)
        end
      else ((-1)%Z, s, b)
  | [] => (0%Z, s, b)
  end.

(* parseResponseFirstLine before a protocol has been recognised, read off the bytes *)
Lemma first_line_fresh relaxed s b : proto_eqb (p_proto s) PNone = true ->
  first_line relaxed s b =
  if starts_with b resp_http1magic then http1_rest relaxed s b (dropN (lenN resp_http1magic) b)
  else if starts_with b resp_icymagic then
    status_and_reason relaxed (set_proto s PIcy (p_major s) (p_minor s))
      (dropN (lenN resp_icymagic) b) (dropN (lenN resp_icymagic) b)
  else if (lenN b <? lenN resp_http1magic) && starts_with resp_http1magic b then (0%Z, s, b)
  else if (lenN b <? lenN resp_icymagic) && starts_with resp_icymagic b then (0%Z, s, b)
  else (1%Z, gateway09 s, b).
Proof.
  intros Ep. unfold first_line. rewrite Ep. cbn [negb].
  rewrite !tok_skip_nonempty, tok_int64_1 by discriminate.
  destruct (starts_with b resp_http1magic); [|destruct (starts_with b resp_icymagic); reflexivity].
  unfold http1_rest. destruct (dropN (lenN resp_http1magic) b) as [|m t2]; [reflexivity|].
  destruct (is_digit m); [|reflexivity]. cbn [dropN N.eqb N.pred Pos.pred_N]. rewrite dropN_0.
  destruct t2 as [|dl t3]; [reflexivity|]. cbn [tok_skipOne].
  destruct (delim relaxed dl); [|reflexivity]. do 3 f_equal. unfold dval. lia.
Qed.

(* The cases of parseResponseFirstLine, each with what happens when bytes are appended: the rest of the
   line goes to parseResponseStatusAndReason in a state s1 that has a protocol, or the verdict is
   taken from the first bytes alone and stays. *)
Inductive fl_view (relaxed : bool) (s : pst) (b : bytes) : Z * pst * bytes -> Prop :=
| FL_status s1 t :
    p_stage s1 = p_stage s -> p_reason s1 = p_reason s -> proto_eqb (p_proto s1) PNone = false ->
    (forall x, first_line relaxed s (b ++ x) = status_and_reason relaxed s1 (t ++ x) (t ++ x)) ->
    fl_view relaxed s b (status_and_reason relaxed s1 t t)
| FL_wait : fl_view relaxed s b (0%Z, s, b)
| FL_bad :
    (forall x, first_line relaxed s (b ++ x) = ((-1)%Z, s, b ++ x)) ->
    fl_view relaxed s b ((-1)%Z, s, b)
| FL_gateway :
    (forall x, first_line relaxed s (b ++ x) = (1%Z, gateway09 s, b ++ x)) ->
    starts_with b resp_http1magic = false -> starts_with resp_http1magic b = false ->
    starts_with b resp_icymagic = false -> starts_with resp_icymagic b = false ->
    fl_view relaxed s b (1%Z, gateway09 s, b).

Lemma first_line_view relaxed s b : fl_view relaxed s b (first_line relaxed s b).
Proof.
  destruct (proto_eqb (p_proto s) PNone) eqn:Ep.
  2:{ rewrite (first_line_resumed _ _ _ Ep). apply FL_status; try reflexivity; [exact Ep|].
      intros x. apply first_line_resumed, Ep. }
  pose proof (fun x => first_line_fresh relaxed s (b ++ x) Ep) as Hx.
  rewrite (first_line_fresh _ _ _ Ep).
  destruct (starts_with b resp_http1magic) eqn:Eh.
  - assert (Hd : forall x, first_line relaxed s (b ++ x) =
                          http1_rest relaxed s (b ++ x) (dropN (lenN resp_http1magic) b ++ x)).
    { intros x. now rewrite Hx, (starts_with_ext _ _ x Eh), dropN_app_le by (apply starts_with_len, Eh). }
    unfold http1_rest in *. destruct (dropN (lenN resp_http1magic) b) as [|m t2]; [apply FL_wait|].
    cbn [app] in Hd. destruct (is_digit m); [|apply FL_bad, Hd].
    destruct t2 as [|dl t3]; [apply FL_wait|].
    cbn [app] in Hd. destruct (delim relaxed dl); [|apply FL_bad, Hd].
    apply FL_status; try reflexivity. exact Hd.
  - destruct (starts_with b resp_icymagic) eqn:Ei.
    + apply FL_status; try reflexivity. intros x.
      rewrite Hx, (icy_not_http _ x Ei), (starts_with_ext _ _ x Ei).
      rewrite dropN_app_le by (apply starts_with_len, Ei). reflexivity.
    + destruct ((lenN b <? lenN resp_http1magic) && starts_with resp_http1magic b) eqn:C1; [apply FL_wait|].
      destruct ((lenN b <? lenN resp_icymagic) && starts_with resp_icymagic b) eqn:C2; [apply FL_wait|].
      pose proof (magic_decided _ _ Eh C1) as Eh'. pose proof (magic_decided _ _ Ei C2) as Ei'.
      apply FL_gateway; try assumption. intros x.
      destruct (incomparable_app _ _ x Eh Eh') as [A1 A2]. destruct (incomparable_app _ _ x Ei Ei') as [B1 B2].
      now rewrite Hx, A1, B1, A2, B2, !andb_false_r.
Qed.

Lemma first_line_ret relaxed s b :
  let r := fst (fst (first_line relaxed s b)) in r = 1%Z \/ r = 0%Z \/ r = (-1)%Z.
Proof. destruct (first_line_view relaxed s b); [apply status_and_reason_ret|cbn; auto ..]. Qed.

Lemma first_line_stable relaxed s b r s' k x :
  first_line relaxed s b = (r, s', k) -> r <> 0%Z ->
  exists k', first_line relaxed s (b ++ x) = (r, s', k') /\ (r = 1%Z -> k' = k ++ x).
Proof.
  destruct (first_line_view relaxed s b) as [s1 t _ _ _ Hx| |Hx|Hx _ _ _ _]; intros H Hr; rewrite ?Hx.
  - exact (status_and_reason_stable _ _ _ _ _ _ _ x (t ++ x) H Hr).
  - injection H as <- _ _. now elim Hr.
  - injection H as <- <- <-. eexists. split; [reflexivity|discriminate].
  - injection H as <- <- <-. eauto.
Qed.

Lemma first_line_stage relaxed s b r s1 k :
  first_line relaxed s b = (r, s1, k) -> p_stage s1 = p_stage s \/ p_stage s1 = SDone.
Proof.
  destruct (first_line_view relaxed s b) as [s2 t F1 _ _ _| |_|_ _ _ _ _]; intros H.
  - apply status_and_reason_frame in H. left. rewrite <- F1. tauto.
  - injection H as _ <- _. now left.
  - injection H as _ <- _. now left.
  - injection H as _ <- _. now right.
Qed.

Lemma first_line_more relaxed s b s' k :
  first_line relaxed s b = (0%Z, s', k) -> p_reason s = [] ->
  p_reason s' = [] /\ p_stage s' = p_stage s /\
  forall x, first_line relaxed s (b ++ x) = first_line relaxed s' (k ++ x).
Proof.
  destruct (first_line_view relaxed s b) as [s1 t F1 F2 F3 Hx| |_|_ _ _ _ _]; intros H Hr; try discriminate.
  - pose proof (status_and_reason_frame _ _ _ _ _ _ _ H) as (G1 & G2 & _).
    destruct (status_and_reason_more _ _ _ _ _ H ltac:(congruence)) as [R1 R2].
    split; [exact R1|]. split; [congruence|]. intros x.
    rewrite Hx, R2. symmetry. apply first_line_resumed. now rewrite G2.
  - injection H as <- <-. auto.
Qed.

Lemma headers_end_go_found_stable l x : forall st e f e' f',
  headers_end_go l st e f = (e', f') -> e' <> 0 -> headers_end_go (l ++ x) st e f = (e', f').
Proof.
  induction l as [|c r IH]; intros st e f e' f' H Hne.
  - cbn [headers_end_go] in H. inversion H; subst. congruence.
  - cbn [app headers_end_go] in *.
    destruct (st =? 0); [apply IH; assumption|].
    destruct (st =? 1).
    + destruct (c =? 13); [apply IH; assumption|].
      destruct (c =? 10); [exact H|].
      destruct ((c =? 32) || (c =? 9)); apply IH; assumption.
    + destruct (c =? 10); [exact H|]. apply IH; assumption.
Qed.

Lemma headers_end_go_found_range l : forall st e f e' f',
  headers_end_go l st e f = (e', f') -> e' <> 0 -> e < e' <= e + lenN l.
Proof.
  induction l as [|c r IH]; intros st e f e' f' H Hne.
  - cbn [headers_end_go] in H. inversion H; subst. congruence.
  - cbn [headers_end_go lenN] in *.
    destruct (st =? 0); [apply IH in H; [lia|assumption]|].
    destruct (st =? 1).
    + destruct (c =? 13); [apply IH in H; [lia|assumption]|].
      destruct (c =? 10); [inversion H; subst; lia|].
      destruct ((c =? 32) || (c =? 9)); (apply IH in H; [lia|assumption]).
    + destruct (c =? 10); [inversion H; subst; lia|]. apply IH in H; [lia|assumption].
Qed.

Lemma headers_end_go_late l x : forall st e f f1 e' f',
  headers_end_go l st e f = (0, f1) -> headers_end_go (l ++ x) st e f = (e', f') -> e' <> 0 ->
  e + lenN l < e'.
Proof.
  induction l as [|c r IH]; intros st e f f1 e' f' H0 H Hne.
  - cbn [app lenN] in *. apply headers_end_go_found_range in H; [lia|assumption].
  - cbn [app headers_end_go lenN] in *.
    destruct (st =? 0); [specialize (IH _ _ _ _ _ _ H0 H Hne); lia|].
    destruct (st =? 1).
    + destruct (c =? 13); [specialize (IH _ _ _ _ _ _ H0 H Hne); lia|].
      destruct (c =? 10); [inversion H0; lia|].
      destruct ((c =? 32) || (c =? 9)); (specialize (IH _ _ _ _ _ _ H0 H Hne); lia).
    + destruct (c =? 10); [inversion H0; lia|]. specialize (IH _ _ _ _ _ _ H0 H Hne); lia.
Qed.

Definition obs (r : bool * pst * bytes) : outcome :=
  let '(ok, s1, rest) := r in
  if needs_more s1 then More s1 rest
  else if ok then Done (fields_of s1) rest
  else Bad (p_code s1) (p_status s1).

Lemma step_obs relaxed limit s b : step relaxed limit s b = obs (parse relaxed limit s b).
Proof. reflexivity. Qed.

Lemma needs_more_done s : p_stage s = SDone -> needs_more s = false.
Proof. unfold needs_more; intros ->; reflexivity. Qed.
Lemma needs_more_not_done s : p_stage s <> SDone -> needs_more s = true.
Proof. unfold needs_more; destruct (p_stage s); try reflexivity; congruence. Qed.

Lemma parse_at_mime_done relaxed limit s b :
  p_stage s = SMime \/ p_stage s = SDone -> parse relaxed limit s b = parse_tail limit s b.
Proof. unfold parse, parse_first. intros [H|H]; rewrite H; reflexivity. Qed.

Lemma parse_at_first relaxed limit s b :
  p_stage s = SFirst -> parse relaxed limit s b = parse_first relaxed limit s b.
Proof. unfold parse. intros ->; reflexivity. Qed.

(* the invariant of a parser that is still waiting for data: before the status line is complete
   reasonPhrase_ is empty *)
Definition waiting_inv (s : pst) : Prop :=
  p_stage s = SMime \/ p_stage s = SDone \/ p_reason s = [].

(* what one call promises about longer inputs: a verdict stays, with the new bytes behind the unconsumed
   ones; a need-more outcome is a checkpoint from which parse() continues as if it had seen them at once *)
Definition stable_at (relaxed : bool) (limit : N) (P : bytes -> outcome) (b : bytes) : Prop :=
  (forall f rest, P b = Done f rest -> forall x, P (b ++ x) = Done f (rest ++ x)) /\
  (forall c st, P b = Bad c st -> forall x, P (b ++ x) = Bad c st) /\
  (forall s1 k, P b = More s1 k ->
     waiting_inv s1 /\ forall x, P (b ++ x) = step relaxed limit s1 (k ++ x)).

(* a call that hands every extension of its input b to another routine, on the same extension of b',
   promises what that routine promises at b' *)
Lemma stable_at_ext relaxed limit P P' b b' :
  (forall y, P (b ++ y) = P' (b' ++ y)) -> stable_at relaxed limit P' b' -> stable_at relaxed limit P b.
Proof.
  intros E (A & B & C). pose proof (E []) as E0. rewrite !app_nil_r in E0.
  split; [|split].
  - intros f rest H x. rewrite E. apply A. now rewrite <- E0.
  - intros c st H x. rewrite E. apply B. now rewrite <- E0.
  - intros s1 k H. rewrite E0 in H. destruct (C _ _ H) as [I1 I2]. split; [exact I1|].
    intros x. rewrite E. apply I2.
Qed.

Lemma parse_tail_cases limit s b :
  (forall f rest, obs (parse_tail limit s b) = Done f rest ->
     forall x, obs (parse_tail limit s (b ++ x)) = Done f (rest ++ x)) /\
  (forall c st, obs (parse_tail limit s b) = Bad c st ->
     forall x, obs (parse_tail limit s (b ++ x)) = Bad c st) /\
  (forall s1 k, obs (parse_tail limit s b) = More s1 k -> s1 = s /\ k = b).
Proof.
  unfold parse_tail. destruct (stage_eqb (p_stage s) SMime) eqn:Es.
  2:{ cbn [obs]. destruct (needs_more s) eqn:En; cbn [negb].
      - repeat split; try discriminate; inversion H; reflexivity.
      - repeat split; try discriminate. intros f rest H x; inversion H; subst. reflexivity. }
  assert (Hm : needs_more s = true) by (unfold needs_more; destruct (p_stage s); (discriminate || reflexivity)).
  unfold grab_mime, headers_end.
  destruct (proto_eqb (p_proto s) PHttp && (p_major s =? 1) || proto_eqb (p_proto s) PIcy).
  2:{ (* no header block expected *)
      repeat split; try discriminate. intros f rest H x; inversion H; subst. reflexivity. }
  destruct (headers_end_go b 1 0 false) as [e fold] eqn:E. destruct (e =? 0) eqn:E0.
  - apply N.eqb_eq in E0; subst e. destruct (limit <=? lenN b + first_line_size s) eqn:EL.
    + (* no end of headers yet and already too large: whatever arrives, it stays too large *)
      repeat split; try discriminate. intros c st H x; inversion H; subst.
      destruct (headers_end_go (b ++ x) 1 0 false) as [e2 fold2] eqn:E2. destruct (e2 =? 0) eqn:E20.
      * rewrite lenN_app. now replace (limit <=? lenN b + lenN x + first_line_size s) with true by lia.
      * apply N.eqb_neq in E20. pose proof (headers_end_go_late _ _ _ _ _ _ _ _ E E2 E20) as Hl.
        now replace (limit <=? first_line_size s + e2) with true by lia.
    + cbn [obs]. rewrite Hm. repeat split; try discriminate; inversion H; reflexivity.
  - (* the end of the headers was found in b: it is found at the same place in b ++ x *)
    apply N.eqb_neq in E0. pose proof (headers_end_go_found_range _ _ _ _ _ _ E E0) as Hr.
    assert (Hx : forall x, headers_end_go (b ++ x) 1 0 false = (e, fold))
      by (intros x; apply headers_end_go_found_stable; assumption).
    apply N.eqb_neq in E0.
    destruct (limit <=? first_line_size s + e) eqn:EL; repeat split; try discriminate.
    + intros c st H x; inversion H; subst. now rewrite Hx, E0, EL.
    + intros f rest H x; inversion H; subst.
      rewrite Hx, E0, EL, takeN_app_le, dropN_app_le by lia. reflexivity.
Qed.

Lemma parse_tail_stable relaxed limit s b : p_stage s = SMime \/ p_stage s = SDone ->
  stable_at relaxed limit (fun b => obs (parse_tail limit s b)) b.
Proof.
  intros Hs. destruct (parse_tail_cases limit s b) as (A & B & C). split; [exact A|]. split; [exact B|].
  intros s1 k H. destruct (C _ _ H) as [-> ->]. split; [unfold waiting_inv; tauto|].
  intros x. now rewrite step_obs, (parse_at_mime_done _ _ _ _ Hs).
Qed.

Lemma parse_first_stable relaxed limit s b :
  p_stage s = SFirst -> p_reason s = [] ->
  stable_at relaxed limit (fun b => obs (parse_first relaxed limit s b)) b.
Proof.
  intros Hst Hr. unfold parse_first. rewrite Hst. cbn [stage_eqb].
  destruct (first_line relaxed s b) as [[ret s1] b1] eqn:Ef.
  pose proof (first_line_ret relaxed s b) as Hret. rewrite Ef in Hret. cbn [fst] in Hret.
  destruct Hret as [-> | [-> | ->]]; [|unfold stable_at; cbv beta; rewrite Ef ..].
  - (* first line complete: the rest is up to the header-block stage *)
    set (s2 := if stage_eqb (p_stage s1) SFirst then set_stage s1 SMime else s1).
    assert (Hs2 : p_stage s2 = SMime \/ p_stage s2 = SDone).
    { destruct (first_line_stage _ _ _ _ _ _ Ef) as [H|H]; subst s2; rewrite H.
      - rewrite Hst. cbn. auto.
      - cbn. auto. }
    apply (stable_at_ext _ _ _ (fun b => obs (parse_tail limit s2 b)) b b1); [|apply parse_tail_stable, Hs2].
    intros x. cbv beta. destruct (first_line_stable _ _ _ _ _ _ x Ef ltac:(discriminate)) as (k' & -> & Hk).
    now rewrite (Hk eq_refl).
  - (* need more *)
    cbn [Z.ltb Z.compare andb].
    destruct (first_line_more _ _ _ _ _ Ef Hr) as (R1 & R2 & R3).
    unfold parse_tail. rewrite R2, Hst. cbn [stage_eqb obs].
    rewrite (needs_more_not_done s1) by (rewrite R2, Hst; discriminate).
    split; [discriminate|]. split; [discriminate|].
    intros s' k H; inversion H; subst. split; [unfold waiting_inv; tauto|].
    intros x. rewrite step_obs, (parse_at_first _ _ _ _ (eq_trans R2 Hst)).
    unfold parse_first. rewrite R2, Hst. cbn [stage_eqb]. rewrite R3. reflexivity.
  - (* syntax error *)
    cbn [Z.ltb Z.compare andb obs needs_more p_stage set_code set_stage stage_eqb negb p_code p_status].
    split; [discriminate|]. split; [|discriminate].
    intros c st H x; inversion H; subst.
    destruct (first_line_stable _ _ _ _ _ _ x Ef ltac:(discriminate)) as (k' & Hk & _). rewrite Hk.
    cbn [Z.ltb Z.compare andb obs needs_more p_stage set_code set_stage stage_eqb negb p_code p_status].
    reflexivity.
Qed.

Lemma set_stage_reason s x : p_reason (set_stage s x) = p_reason s.
Proof. reflexivity. Qed.

Theorem step_stable relaxed limit s b : waiting_inv s ->
  (forall f rest, step relaxed limit s b = Done f rest ->
     forall x, step relaxed limit s (b ++ x) = Done f (rest ++ x)) /\
  (forall c st, step relaxed limit s b = Bad c st ->
     forall x, step relaxed limit s (b ++ x) = Bad c st) /\
  (forall s1 k, step relaxed limit s b = More s1 k ->
     waiting_inv s1 /\ forall x, step relaxed limit s (b ++ x) = step relaxed limit s1 (k ++ x)).
Proof.
  intros Hinv. change (stable_at relaxed limit (step relaxed limit s) b).
  destruct (p_stage s) eqn:Est.
  - (* HTTP_PARSE_NONE *)
    assert (Hr : p_reason s = []) by (destruct Hinv as [H|[H|H]]; congruence).
    destruct b as [|c b].
    + unfold stable_at. rewrite step_obs. unfold parse at 1 2 3. rewrite Est. cbn [stage_eqb obs].
      rewrite (needs_more_not_done s) by (rewrite Est; discriminate).
      split; [discriminate|]. split; [discriminate|].
      intros s1 k H; inversion H; subst. split; [exact Hinv|]. intros x. reflexivity.
    + apply (stable_at_ext _ _ _ (fun b => obs (parse_first relaxed limit (set_stage s SFirst) b)) _ (c :: b));
        [|now apply parse_first_stable].
      intros y. rewrite step_obs. unfold parse. now rewrite Est.
  - (* HTTP_PARSE_FIRST *)
    apply (stable_at_ext _ _ _ (fun b => obs (parse_first relaxed limit s b)) b b).
    + intros y. now rewrite step_obs, (parse_at_first _ _ _ _ Est).
    + apply parse_first_stable; [exact Est|]. destruct Hinv as [H|[H|H]]; congruence.
  - (* HTTP_PARSE_MIME *)
    apply (stable_at_ext _ _ _ (fun b => obs (parse_tail limit s b)) b b); [|apply parse_tail_stable; now left].
    intros y. now rewrite step_obs, (parse_at_mime_done _ _ _ _ (or_introl Est)).
  - (* HTTP_PARSE_DONE *)
    apply (stable_at_ext _ _ _ (fun b => obs (parse_tail limit s b)) b b); [|apply parse_tail_stable; now right].
    intros y. now rewrite step_obs, (parse_at_mime_done _ _ _ _ (or_intror Est)).
Qed.

(* the callers' loop is the loop of Incremental.v over step *)
Definition res_of (o : outcome) : Incremental.res pst fields (N * N) :=
  match o with
  | More s keep => Incremental.More s keep
  | Done f rest => Incremental.Done f rest
  | Bad c st => Incremental.Bad (c, st)
  end.

Lemma res_of_inj o1 o2 : res_of o1 = res_of o2 -> o1 = o2.
Proof. destruct o1, o2; cbn [res_of]; intros [=]; subst; reflexivity. Qed.

Lemma drive_res relaxed limit segs : forall s buf,
  res_of (drive relaxed limit s buf segs) =
  Incremental.drive pst fields (N * N) (fun s b => res_of (step relaxed limit s b)) s buf segs.
Proof.
  induction segs as [|x more IH]; intros s buf; cbn [drive Incremental.drive]; [reflexivity|].
  destruct (step relaxed limit s (buf ++ x)); cbn [res_of]; [apply IH|reflexivity|reflexivity].
Qed.

(* segmentation independence, general form: from any waiting parser state and retained bytes *)
Theorem drive_segmentation_independent relaxed limit s buf segs :
  waiting_inv s -> segs <> [] ->
  drive relaxed limit s buf segs = step relaxed limit s (buf ++ concat segs).
Proof.
  intros Hinv Hne. apply res_of_inj. rewrite drive_res.
  apply (Incremental.drive_oneshot pst fields (N * N) (fun s b => res_of (step relaxed limit s b))
           waiting_inv (fun _ => True)); auto.
  - intros s0 b f rest x Hi _ H. destruct (step relaxed limit s0 b) eqn:E; try discriminate.
    injection H as <- <-. now rewrite (proj1 (step_stable relaxed limit s0 b Hi) _ _ E x).
  - intros s0 b e x Hi _ H. destruct (step relaxed limit s0 b) eqn:E; try discriminate.
    injection H as <-. now rewrite (proj1 (proj2 (step_stable relaxed limit s0 b Hi)) _ _ E x).
  - intros s0 b s1 keep x Hi _ H. destruct (step relaxed limit s0 b) eqn:E; try discriminate.
    injection H as <- <-. destruct (proj2 (proj2 (step_stable relaxed limit s0 b Hi)) _ _ E) as [I1 I2].
    now rewrite I2.
Qed.

Lemma waiting_inv_pst0 : waiting_inv pst0.
Proof. unfold waiting_inv. right; right; reflexivity. Qed.

Theorem resp_parse_segmentation_independent relaxed limit segs :
  segs <> [] -> drive relaxed limit pst0 [] segs = step relaxed limit pst0 (concat segs).
Proof. intros H. apply (drive_segmentation_independent relaxed limit pst0 [] segs waiting_inv_pst0 H). Qed.


(* The grammar is stated with explicit literals and byte ranges (RFC 9112 status-line,
   plus the documented tolerances of the relaxed parser); the regenerated tables are proved
   equal to these below, so a change of a magic or of a character set in the code breaks
   the proof. *)
Definition lit_http1 : bytes := [72;84;84;80;47;49;46].            (* "HTTP/1." *)
Definition lit_icy : bytes := [73;67;89;32].                       (* "ICY " *)
Definition is_delim (relaxed : bool) (c : N) : bool :=             (* SP; relaxed: SP HTAB VT FF CR *)
  if relaxed then (c =? 32) || (c =? 9) || (c =? 11) || (c =? 12) || (c =? 13) else (c =? 32).
Definition is_phrase (c : N) : bool :=                             (* HTAB / SP / VCHAR / obs-text *)
  (c =? 9) || (c =? 32) || ((33 <=? c) && (c <=? 126)) || ((128 <=? c) && (c <=? 255)).
Definition is_eol (relaxed : bool) (e : bytes) : Prop :=           (* CRLF; relaxed: also bare LF *)
  e = [13;10] \/ (relaxed = true /\ e = [10]).

(* status-line = ("HTTP/1." DIGIT delim / "ICY ") 3DIGIT delim *phrase-char eol, 100 <= status <= 599 *)
Inductive status_line (relaxed : bool) : bytes -> proto_t -> N -> N -> N -> bytes -> Prop :=
| SL_http m dl1 d1 d2 d3 dl2 reason eol :
    is_digit m = true -> is_delim relaxed dl1 = true ->
    is_digit d1 = true -> is_digit d2 = true -> is_digit d3 = true -> is_delim relaxed dl2 = true ->
    forallb is_phrase reason = true -> is_eol relaxed eol ->
    100 <= 100 * dval d1 + 10 * dval d2 + dval d3 <= 599 ->
    status_line relaxed (lit_http1 ++ m :: dl1 :: d1 :: d2 :: d3 :: dl2 :: reason ++ eol)
                PHttp 1 (dval m) (100 * dval d1 + 10 * dval d2 + dval d3) reason
| SL_icy d1 d2 d3 dl2 reason eol :
    is_digit d1 = true -> is_digit d2 = true -> is_digit d3 = true -> is_delim relaxed dl2 = true ->
    forallb is_phrase reason = true -> is_eol relaxed eol ->
    100 <= 100 * dval d1 + 10 * dval d2 + dval d3 <= 599 ->
    status_line relaxed (lit_icy ++ d1 :: d2 :: d3 :: dl2 :: reason ++ eol)
                PIcy 0 0 (100 * dval d1 + 10 * dval d2 + dval d3) reason.


Definition tables_check (c : N) : bool :=
  Bool.eqb (cs_strict_Delimiter c) (is_delim false c) &&
  Bool.eqb (cs_relaxed_Delimiter c) (is_delim true c) &&
  Bool.eqb (resp_phraseChars c) (is_phrase c) &&
  Bool.eqb (cs_LF c) (c =? 10) && Bool.eqb (cs_CR c) (c =? 13) &&
  Bool.eqb (cs_WSP c) ((c =? 32) || (c =? 9)).

Lemma tables_ok c :
  cs_strict_Delimiter c = is_delim false c /\ cs_relaxed_Delimiter c = is_delim true c /\
  resp_phraseChars c = is_phrase c /\ cs_LF c = (c =? 10) /\ cs_CR c = (c =? 13) /\
  cs_WSP c = ((c =? 32) || (c =? 9)).
Proof.
  destruct (c <? 256) eqn:Ec.
  - apply N.ltb_lt in Ec.
    pose proof (forallb_bytes tables_check ltac:(vm_compute; reflexivity) c Ec) as H.
    unfold tables_check in H. repeat (apply andb_true_iff in H; destruct H as [H ?]).
    repeat match goal with H : Bool.eqb _ _ = true |- _ => apply Bool.eqb_prop in H end.
    repeat split; assumption.
  - apply N.ltb_ge in Ec.
    unfold cs_strict_Delimiter, cs_relaxed_Delimiter, resp_phraseChars, cs_LF, cs_CR, cs_WSP.
    unfold mem_tbl. rewrite !tbl_get_default by (vm_compute lenN; exact Ec).
    unfold is_delim, is_phrase. repeat split; symmetry; lia.
Qed.

Lemma delim_spec relaxed c : delim relaxed c = is_delim relaxed c.
Proof. destruct relaxed; unfold delim; apply (tables_ok c). Qed.
Lemma phrase_spec c : resp_phraseChars c = is_phrase c.
Proof. apply (tables_ok c). Qed.
Lemma lf_spec c : cs_LF c = (c =? 10).
Proof. apply (tables_ok c). Qed.
Lemma magic_http1_lit : resp_http1magic = lit_http1. Proof. reflexivity. Qed.
Lemma magic_icy_lit : resp_icymagic = lit_icy. Proof. reflexivity. Qed.
Lemma crlf_lit : resp_crlf = [13;10]. Proof. reflexivity. Qed.


(* ParseResponseStatus accepts exactly 3DIGIT delim with 100 <= value <= 599 *)
Theorem parse_status_ok_iff relaxed b v r :
  parse_status relaxed b = PSok v r <->
  exists d1 d2 d3 dl, b = d1 :: d2 :: d3 :: dl :: r /\
    is_digit d1 = true /\ is_digit d2 = true /\ is_digit d3 = true /\ is_delim relaxed dl = true /\
    v = 100 * dval d1 + 10 * dval d2 + dval d3 /\ 100 <= v <= 599.
Proof.
  rewrite parse_status_eq. split.
  - destruct b as [|d1 [|d2 t2]]; try discriminate; (destruct (is_digit d1) eqn:H1; [|discriminate]);
      [discriminate|].
    cbn [status_digits]. destruct (is_digit d2) eqn:H2.
    2:{ cbn [status_tail]. destruct (delim relaxed d2); [|discriminate].
        replace (dval d1 <=? 99) with true by (unfold dval, is_digit in *; lia). discriminate. }
    destruct t2 as [|d3 t3]; [discriminate|]. cbn [status_digits]. destruct (is_digit d3) eqn:H3.
    2:{ cbn [status_tail]. destruct (delim relaxed d3); [|discriminate].
        replace (10 * dval d1 + dval d2 <=? 99) with true by (unfold dval, is_digit in *; lia). discriminate. }
    destruct t3 as [|dl r']; [discriminate|]. cbn [status_tail]. rewrite delim_spec.
    destruct (is_delim relaxed dl) eqn:Hd; [|discriminate].
    set (V := 10 * (10 * dval d1 + dval d2) + dval d3).
    destruct (V <=? 99) eqn:E1; [discriminate|]. destruct (600 <=? V) eqn:E2; [discriminate|].
    intros [= <- <-]. exists d1, d2, d3, dl. repeat split; try assumption; unfold V; lia.
  - intros (d1 & d2 & d3 & dl & -> & H1 & H2 & H3 & Hd & -> & Hv). rewrite H1. cbn [status_digits].
    rewrite H2, H3. cbn [status_tail]. rewrite delim_spec, Hd.
    replace (10 * (10 * dval d1 + dval d2) + dval d3) with (100 * dval d1 + 10 * dval d2 + dval d3) by lia.
    destruct (100 * dval d1 + 10 * dval d2 + dval d3 <=? 99) eqn:E1; [lia|].
    destruct (600 <=? 100 * dval d1 + 10 * dval d2 + dval d3) eqn:E2; [lia|]. reflexivity.
Qed.

Lemma eol_head_not_phrase relaxed eol rest : is_eol relaxed eol ->
  match eol ++ rest with [] => True | y :: _ => resp_phraseChars y = false end.
Proof. intros [->|[_ ->]]; reflexivity. Qed.

Lemma skip_line_terminator_ok_fwd relaxed eol rest : is_eol relaxed eol ->
  skip_line_terminator relaxed (eol ++ rest) = SkOk rest.
Proof.
  intros [->|[-> ->]].
  - unfold skip_line_terminator. cbn [app tok_skipOne]. rewrite lf_spec. cbn [N.eqb Pos.eqb andb].
    rewrite andb_false_r. rewrite skip_required_spec by exact resp_crlf_nonnil.
    destruct rest; reflexivity.
  - unfold skip_line_terminator. cbn [app tok_skipOne]. rewrite lf_spec. reflexivity.
Qed.

Lemma skip_line_terminator_ok_inv relaxed r rest :
  skip_line_terminator relaxed r = SkOk rest -> exists eol, is_eol relaxed eol /\ r = eol ++ rest.
Proof.
  unfold skip_line_terminator. destruct (tok_skipOne cs_LF r) as [ok r1] eqn:E.
  destruct (relaxed && ok) eqn:Er.
  - apply andb_true_iff in Er as [-> ->]. intros H; inversion H; subst.
    destruct r as [|c r]; cbn [tok_skipOne] in E; [discriminate|].
    destruct (cs_LF c) eqn:Ec; [|discriminate]. rewrite lf_spec in Ec. apply N.eqb_eq in Ec; subst c.
    inversion E; subst. exists [10]. split; [right; auto|reflexivity].
  - rewrite skip_required_spec by exact resp_crlf_nonnil.
    destruct (starts_with r resp_crlf) eqn:Es; [|destruct (starts_with resp_crlf r); discriminate].
    intros H; inversion H; subst. exists [13;10]. split; [left; reflexivity|].
    apply (starts_with_split _ _ Es).
Qed.

Lemma reason_and_eol_ok_fwd relaxed s reason eol rest buf :
  forallb is_phrase reason = true -> is_eol relaxed eol -> lenN (reason ++ eol ++ rest) < npos ->
  p_reason s = [] ->
  reason_and_eol relaxed s (reason ++ eol ++ rest) buf = (1%Z, set_reason s reason, rest).
Proof.
  intros Hp He Hl Hr. unfold reason_and_eol.
  rewrite tok_prefix_eq_spec. unfold prefix_spec. rewrite takeN_all by lia.
  rewrite (forallb_ext _ _ _ phrase_spec) in Hp || rewrite <- (forallb_ext _ _ reason phrase_spec) in Hp.
  rewrite (span_app_stop _ _ _ Hp (eol_head_not_phrase _ _ rest He)). cbn [fst].
  destruct reason as [|c reason].
  - cbn [app]. rewrite (skip_line_terminator_ok_fwd _ _ _ He). rewrite set_reason_id by exact Hr. reflexivity.
  - rewrite dropN_app_exact. rewrite (skip_line_terminator_ok_fwd _ _ _ He). reflexivity.
Qed.

Lemma reason_and_eol_ok_inv relaxed s t buf s1 rest :
  reason_and_eol relaxed s t buf = (1%Z, s1, rest) -> p_reason s = [] ->
  exists reason eol, t = reason ++ eol ++ rest /\ forallb is_phrase reason = true /\
                     is_eol relaxed eol /\ s1 = set_reason s reason.
Proof.
  unfold reason_and_eol. intros H Hr.
  destruct (tok_prefix resp_phraseChars npos t) as [[tk r]|] eqn:Ep.
  - destruct (skip_line_terminator relaxed r) as [t2| |] eqn:Et; try discriminate.
    inversion H; subst.
    destruct (tok_prefix_sound _ _ _ _ _ Ep) as (Happ & _ & Hall & _).
    destruct (skip_line_terminator_ok_inv _ _ _ Et) as (eol & He & ->).
    exists tk, eol. rewrite (forallb_ext _ _ _ phrase_spec) in Hall. auto.
  - destruct (skip_line_terminator relaxed t) as [t2| |] eqn:Et; try discriminate.
    inversion H; subst.
    destruct (skip_line_terminator_ok_inv _ _ _ Et) as (eol & He & ->).
    exists [], eol. rewrite set_reason_id by exact Hr. auto.
Qed.

Definition first0 : pst := set_stage pst0 SFirst.      (* state in which parse() first calls parseResponseFirstLine *)
Definition accepted_state (proto : proto_t) (major minor status : N) (reason : bytes) : pst :=
  {| p_stage := SFirst; p_proto := proto; p_major := major; p_minor := minor; p_completed := true;
     p_status := status; p_reason := reason; p_mime := []; p_code := sc_none |}.

Lemma status_and_reason_fresh_fwd relaxed s d1 d2 d3 dl2 reason eol rest buf :
  p_completed s = false -> p_reason s = [] ->
  is_digit d1 = true -> is_digit d2 = true -> is_digit d3 = true -> is_delim relaxed dl2 = true ->
  forallb is_phrase reason = true -> is_eol relaxed eol ->
  100 <= 100 * dval d1 + 10 * dval d2 + dval d3 <= 599 ->
  lenN (reason ++ eol ++ rest) < npos ->
  status_and_reason relaxed s (d1 :: d2 :: d3 :: dl2 :: reason ++ eol ++ rest) buf =
  (1%Z, set_reason (set_completed (set_status s (100 * dval d1 + 10 * dval d2 + dval d3)) true) reason, rest).
Proof.
  intros Hc Hr H1 H2 H3 Hd Hp He Hv Hl. unfold status_and_reason. rewrite Hc.
  assert (Ep : parse_status relaxed (d1 :: d2 :: d3 :: dl2 :: reason ++ eol ++ rest) =
               PSok (100 * dval d1 + 10 * dval d2 + dval d3) (reason ++ eol ++ rest)).
  { apply parse_status_ok_iff. exists d1, d2, d3, dl2. repeat split; (assumption || apply Hv). }
  rewrite Ep.
  apply reason_and_eol_ok_fwd; try assumption.
Qed.

Lemma status_and_reason_fresh_inv relaxed s t buf s1 rest :
  p_completed s = false -> p_reason s = [] ->
  status_and_reason relaxed s t buf = (1%Z, s1, rest) ->
  exists d1 d2 d3 dl2 reason eol,
    t = d1 :: d2 :: d3 :: dl2 :: reason ++ eol ++ rest /\
    is_digit d1 = true /\ is_digit d2 = true /\ is_digit d3 = true /\ is_delim relaxed dl2 = true /\
    forallb is_phrase reason = true /\ is_eol relaxed eol /\
    100 <= 100 * dval d1 + 10 * dval d2 + dval d3 <= 599 /\
    s1 = set_reason (set_completed (set_status s (100 * dval d1 + 10 * dval d2 + dval d3)) true) reason.
Proof.
  intros Hc Hr. unfold status_and_reason. rewrite Hc.
  destruct (parse_status relaxed t) as [v t1| |[v|]] eqn:Ep; try discriminate.
  intros H.
  destruct (proj1 (parse_status_ok_iff _ _ _ _) Ep) as (d1 & d2 & d3 & dl & -> & H1 & H2 & H3 & Hd & -> & Hv).
  destruct (reason_and_eol_ok_inv _ _ _ _ _ _ H ltac:(cbn; exact Hr)) as (reason & eol & -> & Hp & He & ->).
  exists d1, d2, d3, dl, reason, eol. repeat (split; [first [reflexivity|assumption]|]). reflexivity.
Qed.

Theorem status_line_accepted_iff_grammar relaxed b s1 rest : lenN b < npos ->
  (first_line relaxed first0 b = (1%Z, s1, rest) /\ p_stage s1 = SFirst) <->
  (exists line proto major minor status reason,
     b = line ++ rest /\ status_line relaxed line proto major minor status reason /\
     s1 = accepted_state proto major minor status reason).
Proof.
  intros Hlen. rewrite (first_line_fresh relaxed first0 b eq_refl). split.
  - (* the parser accepted: the input is a grammatical status line followed by rest *)
    intros [H Hst]. revert H.
    destruct (starts_with b resp_http1magic) eqn:Eh; [|destruct (starts_with b resp_icymagic) eqn:Ei].
    + unfold http1_rest. destruct (dropN (lenN resp_http1magic) b) as [|m [|dl1 t3]] eqn:Et1; try discriminate;
        (destruct (is_digit m) eqn:Hm; [|discriminate]); [discriminate|].
      destruct (delim relaxed dl1) eqn:Hd1; [|discriminate]. rewrite delim_spec in Hd1.
      intros H. apply status_and_reason_fresh_inv in H; [|reflexivity|reflexivity].
      destruct H as (d1 & d2 & d3 & dl2 & reason & eol & -> & H1 & H2 & H3 & Hd2 & Hp & He & Hv & ->).
      exists (lit_http1 ++ m :: dl1 :: d1 :: d2 :: d3 :: dl2 :: reason ++ eol), PHttp, 1, (dval m),
             (100 * dval d1 + 10 * dval d2 + dval d3), reason.
      split; [|split].
      * rewrite (starts_with_split _ _ Eh), Et1. rewrite magic_http1_lit.
        rewrite <- !app_assoc. cbn [app]. rewrite <- !app_assoc. reflexivity.
      * apply SL_http; assumption.
      * reflexivity.
    + intros H. apply status_and_reason_fresh_inv in H; [|reflexivity|reflexivity].
      destruct H as (d1 & d2 & d3 & dl2 & reason & eol & Et & H1 & H2 & H3 & Hd2 & Hp & He & Hv & ->).
      exists (lit_icy ++ d1 :: d2 :: d3 :: dl2 :: reason ++ eol), PIcy, 0, 0,
             (100 * dval d1 + 10 * dval d2 + dval d3), reason.
      split; [|split].
      * rewrite (starts_with_split _ _ Ei), Et. rewrite magic_icy_lit.
        rewrite <- !app_assoc. cbn [app]. rewrite <- !app_assoc. reflexivity.
      * apply SL_icy; assumption.
      * reflexivity.
    + destruct ((lenN b <? lenN resp_http1magic) && starts_with resp_http1magic b); [discriminate|].
      destruct ((lenN b <? lenN resp_icymagic) && starts_with resp_icymagic b); [discriminate|].
      intros H; inversion H; subst. cbn in Hst. discriminate.
  - (* a grammatical status line is accepted with exactly its fields *)
    intros (line & proto & major & minor & status & reason & -> & Hg & ->).
    split; [|destruct Hg; reflexivity].
    destruct Hg as [m dl1 d1 d2 d3 dl2 reason eol Hm Hd1 H1 H2 H3 Hd2 Hp He Hv
                   |d1 d2 d3 dl2 reason eol H1 H2 H3 Hd2 Hp He Hv];
      rewrite <- !app_assoc in *; cbn [app] in *; rewrite <- !app_assoc in *;
      assert (Hl : lenN (reason ++ eol ++ rest) < npos)
        by (clear -Hlen; rewrite lenN_app in Hlen; cbn [lenN] in Hlen; lia).
    + rewrite <- magic_http1_lit, starts_with_app, dropN_app_exact. unfold http1_rest. rewrite Hm, delim_spec, Hd1.
      rewrite status_and_reason_fresh_fwd by (first [reflexivity|assumption]). reflexivity.
    + rewrite (icy_not_http lit_icy _ eq_refl), <- magic_icy_lit, starts_with_app, dropN_app_exact.
      rewrite status_and_reason_fresh_fwd by (first [reflexivity|assumption]). reflexivity.
Qed.

(* b neither starts with a magic nor is a (possibly empty) proper prefix of one *)
Definition no_magic_relation (b : bytes) : Prop :=
  starts_with b lit_http1 = false /\ starts_with lit_http1 b = false /\
  starts_with b lit_icy = false /\ starts_with lit_icy b = false.

(* what the caller sees for a gatewayed HTTP/0.9 reply: HTTP/1.1 200 "Gatewaying" and the fake header block
   "X-Transformed-From: HTTP/0.9\r\nMime-Version: 1.0\r\nExpires: -1\r\n\r\n" *)
Definition gateway_fields : fields :=
  {| f_proto := PHttp; f_major := 1; f_minor := 1; f_status := 200;
     f_reason := [71;97;116;101;119;97;121;105;110;103];
     f_mime := [88;45;84;114;97;110;115;102;111;114;109;101;100;45;70;114;111;109;58;32;72;84;84;80;47;48;46;57;13;10;
                77;105;109;101;45;86;101;114;115;105;111;110;58;32;49;46;48;13;10;
                69;120;112;105;114;101;115;58;32;45;49;13;10;13;10] |}.

Lemma gateway_fields_ok : fields_of (gateway09 first0) = gateway_fields.
Proof. reflexivity. Qed.

Lemma first_line_gateway relaxed b : no_magic_relation b ->
  first_line relaxed first0 b = (1%Z, gateway09 first0, b).
Proof.
  intros (A1 & A2 & B1 & B2). rewrite (first_line_fresh relaxed first0 b eq_refl), magic_http1_lit, magic_icy_lit.
  now rewrite A1, B1, A2, B2, !andb_false_r.
Qed.

Theorem non_http_prefix_is_http09 relaxed limit b : no_magic_relation b ->
  step relaxed limit pst0 b = Done gateway_fields b.
Proof.
  intros Hn. pose proof (first_line_gateway relaxed b Hn) as Hf.
  destruct b as [|c b]; [destruct Hn as (_ & A2 & _); discriminate|].
  rewrite step_obs. unfold parse. cbn [p_stage pst0 stage_eqb].
  change (set_stage pst0 SFirst) with first0.
  unfold parse_first. cbn [p_stage first0 set_stage stage_eqb]. rewrite Hf. reflexivity.
Qed.

(* conversely the parser gateways nothing else: an input related to a magic never takes the HTTP/0.9 branch *)
Theorem http09_only_for_non_http_prefix relaxed b r s1 rest :
  first_line relaxed first0 b = (r, s1, rest) -> p_stage s1 = SDone ->
  no_magic_relation b /\ r = 1%Z /\ s1 = gateway09 first0 /\ rest = b.
Proof.
  destruct (first_line_view relaxed first0 b) as [s2 t F1 _ _ _| |_|_ A1 A2 B1 B2]; intros H Hs.
  - apply status_and_reason_frame in H. destruct H as (F & _). rewrite F, F1 in Hs. discriminate.
  - injection H as _ <- _. discriminate.
  - injection H as _ <- _. discriminate.
  - injection H as <- <- <-. repeat split; assumption.
Qed.

Definition at_line_start (q : bytes) : Prop := q = [] \/ exists q', q = q' ++ [10].
Definition he_inv (st : N) (pre : bytes) : Prop :=
  if st =? 0 then True
  else if st =? 1 then at_line_start pre
  else exists p, pre = p ++ [13] /\ at_line_start p.
(* p ends with an empty line: q is empty or LF-terminated, followed by LF or CR LF *)
Definition ends_with_empty_line (p : bytes) : Prop :=
  exists q eol, p = q ++ eol /\ (eol = [10] \/ eol = [13; 10]) /\ at_line_start q.

Lemma headers_end_go_sound l : forall st e f e' f' pre,
  headers_end_go l st e f = (e', f') -> e' <> 0 -> he_inv st pre ->
  ends_with_empty_line (pre ++ takeN (e' - e) l).
Proof.
  induction l as [|c r IH]; intros st e f e' f' pre H Hne Hinv.
  - cbn [headers_end_go] in H. inversion H; subst. congruence.
  - pose proof (headers_end_go_found_range _ _ _ _ _ _ H Hne) as Hr.
    assert (Htk : forall e2, e2 = N.succ e -> pre ++ takeN (e' - e) (c :: r) = (pre ++ [c]) ++ takeN (e' - e2) r).
    { intros e2 ->. cbn [takeN]. destruct (e' - e =? 0) eqn:E0; [apply N.eqb_eq in E0; lia|].
      replace (N.pred (e' - e)) with (e' - N.succ e) by lia. rewrite <- app_assoc. reflexivity. }
    assert (Hone : e' = N.succ e -> pre ++ takeN (e' - e) (c :: r) = pre ++ [c]).
    { intros ->. replace (N.succ e - e) with 1 by lia. cbn [takeN N.eqb N.pred Pos.pred_N]. rewrite takeN_0. reflexivity. }
    cbn [headers_end_go] in H. unfold he_inv in Hinv.
    destruct (st =? 0) eqn:S0.
    + rewrite (Htk _ eq_refl). eapply IH; [exact H|exact Hne|].
      unfold he_inv. destruct (c =? 10) eqn:Ec; cbn [N.eqb Pos.eqb]; [|exact I].
      apply N.eqb_eq in Ec; subst c. right. exists pre. reflexivity.
    + destruct (st =? 1) eqn:S1.
      * destruct (c =? 13) eqn:E13.
        { apply N.eqb_eq in E13; subst c. rewrite (Htk _ eq_refl). eapply IH; [exact H|exact Hne|].
          unfold he_inv. cbn [N.eqb Pos.eqb]. exists pre. auto. }
        destruct (c =? 10) eqn:E10.
        { apply N.eqb_eq in E10; subst c. inversion H; subst. rewrite (Hone eq_refl).
          exists pre, [10]. auto. }
        destruct ((c =? 32) || (c =? 9)); rewrite (Htk _ eq_refl); (eapply IH; [exact H|exact Hne|exact I]).
      * destruct (c =? 10) eqn:E10.
        { apply N.eqb_eq in E10; subst c. inversion H; subst. rewrite (Hone eq_refl).
          destruct Hinv as (p & -> & Hp). exists p, [13; 10]. rewrite <- app_assoc. auto. }
        rewrite (Htk _ eq_refl). eapply IH; [exact H|exact Hne|exact I].
Qed.

Lemma headers_end_sound b e f : headers_end b = (e, f) -> e <> 0 -> ends_with_empty_line (takeN e b).
Proof.
  intros H Hne. unfold headers_end in H.
  pose proof (headers_end_go_sound b 1 0 false e f [] H Hne (or_introl eq_refl)) as Hs.
  rewrite N.sub_0_r in Hs. exact Hs.
Qed.

Lemma grab_mime_frame limit s b ok s' k :
  grab_mime limit s b = (ok, s', k) ->
  p_proto s' = p_proto s /\ p_major s' = p_major s /\ p_minor s' = p_minor s /\
  p_status s' = p_status s /\ p_reason s' = p_reason s /\ p_completed s' = p_completed s /\
  (p_code s' = p_code s \/ p_code s' = sc_header_too_large) /\
  (p_stage s' = SDone \/ s' = s) /\
  (ok = true ->
   (proto_eqb (p_proto s) PHttp && (p_major s =? 1) || proto_eqb (p_proto s) PIcy) = true ->
   exists block, b = block ++ k /\ ends_with_empty_line block).
Proof.
  unfold grab_mime.
  destruct (proto_eqb (p_proto s) PHttp && (p_major s =? 1) || proto_eqb (p_proto s) PIcy).
  2:{ intros H; inversion H; subst; cbn. repeat split; auto. discriminate. }
  destruct (headers_end b) as [e fold] eqn:Eh. destruct (e =? 0) eqn:E0.
  - destruct (limit <=? lenN b + first_line_size s); intros H; inversion H; subst; cbn;
      repeat split; auto; discriminate.
  - destruct (limit <=? first_line_size s + e); intros H; inversion H; subst; cbn;
      repeat split; auto; try discriminate.
    intros _ _. exists (takeN e b). split; [symmetry; apply takeN_dropN|].
    apply N.eqb_neq in E0. apply (headers_end_sound _ _ _ Eh E0).
Qed.

Lemma parse_fresh_nonempty relaxed limit c b :
  parse relaxed limit pst0 (c :: b) = parse_first relaxed limit first0 (c :: b).
Proof. reflexivity. Qed.

(* Every reply head that parse() accepts from a fresh parser is either the HTTP/0.9 gateway case,
   or a grammatical status line followed by a header block and the unconsumed rest, and the
   reported protocol/version/status/reason are the grammar's fields. *)
Theorem accepted_reply_shape relaxed limit b f rest : lenN b < npos ->
  step relaxed limit pst0 b = Done f rest ->
  (no_magic_relation b /\ f = gateway_fields /\ rest = b) \/
  (exists line proto major minor status reason block,
     b = line ++ block ++ rest /\ status_line relaxed line proto major minor status reason /\
     ends_with_empty_line block /\
     f_proto f = proto /\ f_major f = major /\ f_minor f = minor /\ f_status f = status /\
     f_reason f = reason).
Proof.
  intros Hlen. rewrite step_obs. destruct b as [|c b]; [discriminate|].
  rewrite parse_fresh_nonempty. unfold parse_first. cbn [p_stage first0 set_stage stage_eqb].
  destruct (first_line relaxed first0 (c :: b)) as [[ret s1] b1] eqn:Ef.
  pose proof (first_line_ret relaxed first0 (c :: b)) as Hret. rewrite Ef in Hret. cbn [fst] in Hret.
  destruct Hret as [-> | [-> | ->]].
  - cbn [Z.ltb Z.compare andb].
    destruct (first_line_stage _ _ _ _ _ _ Ef) as [Hs|Hs].
    + (* status-line path *)
      cbn [p_stage first0 set_stage] in Hs.
      destruct (proj1 (status_line_accepted_iff_grammar relaxed (c :: b) s1 b1 Hlen) (conj Ef Hs))
        as (line & proto & major & minor & status & reason & Hb & Hg & ->).
      cbn [accepted_state p_stage stage_eqb]. unfold parse_tail. cbn [p_stage set_stage stage_eqb].
      destruct (grab_mime limit (set_stage (accepted_state proto major minor status reason) SMime) b1)
        as [[ok s3] k] eqn:Eg.
      destruct (grab_mime_frame _ _ _ _ _ _ Eg) as (G1 & G2 & G3 & G4 & G5 & _ & _ & _ & G8).
      destruct ok; cbn [obs].
      * destruct (needs_more s3); cbn [negb]; [discriminate|].
        intros H; inversion H; subst. right.
        assert (Hexp : (proto_eqb proto PHttp && (major =? 1) || proto_eqb proto PIcy) = true)
          by (destruct Hg; reflexivity).
        destruct (G8 eq_refl Hexp) as (block & Hblock & Hempty).
        exists line, proto, major, minor, status, reason, block.
        split; [rewrite Hb, Hblock; reflexivity|]. split; [exact Hg|]. split; [exact Hempty|].
        unfold fields_of; cbn [f_proto f_major f_minor f_status f_reason].
        rewrite G1, G2, G3, G4, G5. cbn. auto.
      * destruct (needs_more s3); discriminate.
    + (* HTTP/0.9 *)
      destruct (http09_only_for_non_http_prefix _ _ _ _ _ Ef Hs) as (Hn & _ & -> & ->).
      cbn [gateway09 p_stage set_stage stage_eqb]. unfold parse_tail. cbn [p_stage set_stage stage_eqb obs needs_more negb].
      intros H; inversion H; subst. left. split; [exact Hn|]. split; reflexivity.
  - cbn [Z.ltb Z.compare andb]. unfold parse_tail.
    destruct (first_line_more _ _ _ _ _ Ef eq_refl) as (_ & R2 & _).
    rewrite R2. cbn [p_stage first0 set_stage stage_eqb obs].
    rewrite (needs_more_not_done s1) by (rewrite R2; discriminate). discriminate.
  - cbn [Z.ltb Z.compare andb obs needs_more p_stage set_code set_stage stage_eqb negb]. discriminate.
Qed.

(* Conversely a grammatical status line is never rejected as a syntax error, and whatever the
   header-block stage then decides (need more / done / too large), the parser reports the
   grammar's protocol, version, status and reason. *)
Theorem grammatical_status_line_accepted relaxed limit line tail proto major minor status reason ok s rest :
  lenN (line ++ tail) < npos ->
  status_line relaxed line proto major minor status reason ->
  parse relaxed limit pst0 (line ++ tail) = (ok, s, rest) ->
  p_proto s = proto /\ p_major s = major /\ p_minor s = minor /\ p_status s = status /\
  p_reason s = reason /\ p_completed s = true /\ p_code s <> sc_invalid_header /\
  (p_stage s = SMime \/ p_stage s = SDone).
Proof.
  intros Hlen Hg.
  assert (Hf : first_line relaxed first0 (line ++ tail) =
               (1%Z, accepted_state proto major minor status reason, tail)).
  { apply (proj2 (status_line_accepted_iff_grammar relaxed (line ++ tail) _ tail Hlen)).
    exists line, proto, major, minor, status, reason. auto. }
  assert (Hne : exists c b, line ++ tail = c :: b) by (destruct Hg; cbn; eauto).
  destruct Hne as (c & b & Hcb). rewrite Hcb in *. rewrite parse_fresh_nonempty.
  unfold parse_first. cbn [p_stage first0 set_stage stage_eqb]. rewrite Hf.
  cbn [Z.ltb Z.compare andb accepted_state p_stage stage_eqb]. unfold parse_tail. cbn [p_stage set_stage stage_eqb].
  destruct (grab_mime limit (set_stage (accepted_state proto major minor status reason) SMime) tail)
    as [[ok1 s3] k] eqn:Eg.
  destruct (grab_mime_frame _ _ _ _ _ _ Eg) as (G1 & G2 & G3 & G4 & G5 & G6 & G7 & S & _).
  assert (Hst : p_stage s3 = SMime \/ p_stage s3 = SDone) by (destruct S as [S| ->]; auto).
  assert (Hcode : p_code s3 <> sc_invalid_header) by (destruct G7 as [->| ->]; discriminate).
  destruct ok1; intros H; inversion H; subst; cbn in *; repeat split; auto.
Qed.

Theorem tables_and_magics_spec :
  resp_http1magic = lit_http1 /\ resp_icymagic = lit_icy /\ resp_crlf = [13; 10] /\
  (forall relaxed c, delim relaxed c = is_delim relaxed c) /\
  (forall c, resp_phraseChars c = is_phrase c) /\
  sc_invalid_header = 600 /\ sc_header_too_large = 601 /\ sc_none = 0.
Proof. repeat split; try reflexivity; [apply delim_spec|apply phrase_spec]. Qed.
