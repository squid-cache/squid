(* Properties_C02.v — C02: request bodies reach the origin byte-exactly with valid framing.
   Statements, closed by `exact` or by the few lines that assemble them; proofs live in RelayProofs.v. Model: RelayModel.v (request direction).
   Reading guide: rq_run cap up clen evs = state of the request-body path after the event sequence evs, for a body
   pipe of capacity cap, upstream framing `up` (UpLen n = Content-Length passthrough, UpChunked = re-chunking) and a
   client body announced with Content-Length n (clen = Some n) or chunked (clen = None). Events: QSeg b (the client
   connection delivers b), QSpace (pipe space notification), QAbort (client gone), QNote (end notification reaches
   the server side), QGet (the server side may write). The event sequence is ARBITRARY: every interleaving.
   fed_of evs = all bytes the client delivered; produced q = bytes ever put into the pipe = q_pieces (written
   upstream, one piece per BodyPipe::getMoreData) ++ q_buf (still buffered); up_stream = the body bytes on the
   server connection. *)
Require Import SquidV.Bytes SquidV.RelayModel SquidV.RelayProofs.
Require Import SquidV.gen.Relay_gen.
Local Open Scope N_scope.

(* BodyPipe is a FIFO for every interleaving and every capacity: bytes out ++ bytes buffered = bytes in, the
   counters theGetSize / thePutSize are the lengths, and no empty write is issued *)
Theorem C02_bodypipe_fifo : forall cap up clen evs,
  let q := rq_run cap up clen evs in
  lenN (concat (q_pieces q)) = q_get q /\ lenN (produced q) = q_put q /\ q_get q <= q_put q /\
  Forall nonempty (q_pieces q).
Proof. exact bodypipe_fifo. Qed.
Print Assumptions C02_bodypipe_fifo.

(* bytes in are a prefix of the client's body, Content-Length case (n >= 1: no pipe exists for an empty body);
   when the server side has been told the body is whole, they are all of it *)
Theorem C02_produced_is_prefix_content_length : forall cap up n evs, 1 <= n ->
  let q := rq_run cap up (Some n) evs in
  (exists rest, takeN n (fed_of evs) = produced q ++ rest) /\
  (q_whole q = true -> produced q = takeN n (fed_of evs) /\ n <= lenN (fed_of evs)).
Proof. exact produced_prefix_len. Qed.
Print Assumptions C02_produced_is_prefix_content_length.

(* ... chunked case: a prefix of what the reference chunked reader decodes from the client's bytes, for every
   client segmentation; whole => the reference reader finds a complete message with exactly that body *)
Theorem C02_produced_is_prefix_chunked : forall cap up evs,
  let q := rq_run cap up None evs in
  (exists d o2 r, crun CSize0 (fed_of evs) = (d, produced q ++ o2, r)) /\
  (q_whole q = true -> exists r, crun CSize0 (fed_of evs) = (CDone, produced q, r)).
Proof. exact produced_prefix_chunked. Qed.
Print Assumptions C02_produced_is_prefix_chunked.

(* the upstream stream is validly framed at every moment: re-chunked, it decodes (reference reader) to exactly
   the bytes taken from the pipe and is complete iff last-chunk was written *)
Theorem C02_upstream_framing_valid : forall cap up clen evs,
  let q := rq_run cap up clen evs in
  match up with
  | UpChunked => crun CSize0 (up_stream UpChunked q) = (if q_last q then CDone else CSize0, concat (q_pieces q), [])
  | UpLen n => up_stream (UpLen n) q = concat (q_pieces q)
  end.
Proof. exact upstream_framing_valid. Qed.
Print Assumptions C02_upstream_framing_valid.

(* last-chunk only after the whole client body was received, announced and drained *)
Theorem C02_last_chunk_only_after_whole_body : forall cap up clen evs,
  let q := rq_run cap up clen evs in
  q_last q = true -> q_whole q = true /\ q_buf q = [] /\ q_prod q = false /\ q_size q = Some (q_put q) /\
                     lenN (concat (q_pieces q)) = q_put q.
Proof. exact last_chunk_only_when_whole. Qed.
Print Assumptions C02_last_chunk_only_after_whole_body.

(* complete upstream message = the client's body, exactly (re-chunked upstream, either client framing) *)
Theorem C02_upstream_complete_exact_chunked : forall cap evs clen, clen_ok clen ->
  let q := rq_run cap UpChunked clen evs in
  q_last q = true ->
  exists body, crun CSize0 (up_stream UpChunked q) = (CDone, body, []) /\
    match clen with
    | Some n => body = takeN n (fed_of evs) /\ n <= lenN (fed_of evs)
    | None => exists r, crun CSize0 (fed_of evs) = (CDone, body, r)
    end.
Proof. exact upstream_complete_exact_chunked. Qed.
Print Assumptions C02_upstream_complete_exact_chunked.

(* Content-Length passthrough: always a prefix of the client's first n bytes; the declared length is reached only
   by exactly those n bytes *)
Theorem C02_upstream_content_length_exact : forall cap n evs, 1 <= n ->
  let q := rq_run cap (UpLen n) (Some n) evs in
  (exists rest, takeN n (fed_of evs) = up_stream (UpLen n) q ++ rest) /\
  (lenN (up_stream (UpLen n) q) = n -> up_stream (UpLen n) q = takeN n (fed_of evs) /\ n <= lenN (fed_of evs)).
Proof. exact upstream_len_exact. Qed.
Print Assumptions C02_upstream_content_length_exact.

(* a client body that never completes (abort at any offset, malformed chunk framing) never completes upstream:
   no last-chunk, fewer bytes than the declared length *)
Theorem C02_upstream_abort_visible : forall cap up clen evs, clen_ok clen ->
  match clen with
  | Some n => lenN (fed_of evs) < n
  | None => cst_done (fst (fst (crun CSize0 (fed_of evs)))) = false
  end ->
  let q := rq_run cap up clen evs in
  q_whole q = false /\ q_last q = false /\
  match up with UpLen m => clen = Some m -> lenN (up_stream up q) < m | UpChunked => True end.
Proof. exact upstream_abort_visible. Qed.
Print Assumptions C02_upstream_abort_visible.

Example C02_abort_hypotheses_satisfiable :
  clen_ok (Some 5) /\ lenN (fed_of [QSeg [1; 2]; QGet; QSeg [3]; QAbort]) < 5 /\
  cst_done (fst (fst (crun CSize0 (fed_of [QSeg [51; 13; 10; 97]; QAbort])))) = false.
Proof. split; [exact (N.le_refl 1) || (cbn; lia)|]. split; [vm_compute; reflexivity|reflexivity]. Qed.

(* once the whole body is in the pipe, the end notification and two consumer turns deliver everything and (when
   re-chunking) write the last-chunk — PARTIAL liveness: that the intake reaches this point for every capacity
   under a fair schedule is shown by the end-to-end correspondence only *)
Theorem C02_end_of_body_is_flushed_partial : forall cap up clen evs,
  let q := rq_run cap up clen evs in
  q_prod q = false -> q_size q = Some (q_put q) -> q_abort q = false ->
  let q' := rq_from cap up q [QNote; QGet; QGet] in
  q_buf q' = [] /\ concat (q_pieces q') = produced q /\ q_whole q' = true /\
  match up with UpChunked => q_last q' = true | UpLen _ => True end.
Proof. exact end_of_body_is_flushed. Qed.
Print Assumptions C02_end_of_body_is_flushed_partial.

Example C02_flush_hypotheses_satisfiable :
  let q := rq_run 65536 UpChunked None [QSeg [51; 13; 10; 97; 98; 99; 13; 10; 48; 13; 10; 13; 10]] in
  q_prod q = false /\ q_size q = Some (q_put q) /\ q_abort q = false /\ produced q = [97; 98; 99].
Proof. repeat split. Qed.
