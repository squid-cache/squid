(* SmugglingProofs.v — lemmas and proofs for property C03 (request smuggling) about SmugglingModel.v. *)
Require Import SquidV.Bytes.
Require Import SquidV.TokModel SquidV.Incremental SquidV.ReqparseModel SquidV.ReqparseProofs SquidV.ReqparseGrammar.
Require SquidV.ClenModel SquidV.ClenProofs SquidV.HdrparseModel SquidV.HdrparseProofs SquidV.ChunkedModel SquidV.ChunkedProofs
  SquidV.HopModel.
Require Import SquidV.SmugglingModel.
Require Import SquidV.gen.CharSets_gen SquidV.gen.ReqTabs_gen SquidV.gen.Smuggling_gen.
Require Import ZifyBool ZifyN ZifyNat.
Local Open Scope N_scope.

Definition nolf (l : bytes) : Prop := forallb (fun c => negb (c =? 10)) l = true.
Definition crlf : bytes := [13; 10].

(* a head line as the strict reader sees it: not empty, no LF in it, does not start with CR *)
Definition line_ok (l : bytes) : Prop :=
  nolf l /\ match l with c :: _ => c <> 13 | [] => False end.
Definition enc_lines (ls : list bytes) : bytes := concat (map (fun l => l ++ crlf) ls).

Lemma nolf_app a b : nolf (a ++ b) <-> nolf a /\ nolf b.
Proof. unfold nolf. rewrite forallb_app, andb_true_iff. tauto. Qed.

Lemma he_state0 : forall l rest e fold, nolf l ->
  headers_end_go (l ++ 10 :: rest) 0 e fold = headers_end_go rest 1 (e + lenN l + 1) fold.
Proof.
  induction l as [|c l IH]; intros rest e fold Hl.
  - cbn [app lenN headers_end_go]. cbn. f_equal; lia.
  - unfold nolf in Hl. cbn [forallb] in Hl. apply andb_prop in Hl as [Hc Hl].
    cbn [app headers_end_go]. change (0 =? 0) with true. cbv iota.
    destruct (c =? 10) eqn:E; [discriminate|].
    rewrite IH by exact Hl. cbn [lenN]. f_equal. lia.
Qed.

Lemma he_line l rest e fold : line_ok l -> exists fold',
  headers_end_go ((l ++ crlf) ++ rest) 1 e fold = headers_end_go rest 1 (e + lenN l + 2) fold'.
Proof.
  intros [Hl Hc]. destruct l as [|c l]; [destruct Hc|].
  unfold nolf in Hl. cbn [forallb] in Hl. apply andb_prop in Hl as [Hc10 Hl].
  unfold crlf. rewrite <- app_assoc. cbn [app headers_end_go].
  change (1 =? 0) with false. change (1 =? 1) with true. cbv iota.
  replace (c =? 13) with false by lia. replace (c =? 10) with false by lia.
  replace (l ++ 13 :: 10 :: rest) with ((l ++ [13]) ++ 10 :: rest) by (rewrite <- app_assoc; reflexivity).
  assert (Hn : nolf (l ++ [13])) by (apply nolf_app; split; [exact Hl|reflexivity]).
  destruct ((c =? 32) || (c =? 9)); eexists; rewrite he_state0 by exact Hn; rewrite lenN_app; cbn [lenN]; f_equal; lia.
Qed.

Lemma he_lines : forall ls rest e fold, Forall line_ok ls -> exists fold',
  headers_end_go (enc_lines ls ++ crlf ++ rest) 1 e fold = (e + lenN (enc_lines ls) + 2, fold').
Proof.
  induction ls as [|l ls IH]; intros rest e fold H.
  - exists fold. cbn. f_equal; lia.
  - inversion H as [|? ? Hl Hls]; subst.
    unfold enc_lines. cbn [map concat]. fold (enc_lines ls). rewrite <- app_assoc.
    destruct (he_line l (enc_lines ls ++ crlf ++ rest) e fold Hl) as [f2 E2]. rewrite E2.
    destruct (IH rest (e + lenN l + 2) f2 Hls) as [f3 E3]. exists f3. rewrite E3.
    rewrite !lenN_app. unfold crlf. cbn [lenN]. f_equal. lia.
Qed.

(* the field block of a strictly formed head: the lines, then the empty line *)
Theorem headers_end_of_lines ls rest : Forall line_ok ls -> exists fold,
  headers_end (enc_lines ls ++ crlf ++ rest) = (lenN (enc_lines ls ++ crlf), fold).
Proof.
  intros H. unfold headers_end. destruct (he_lines ls rest 0 false H) as [f E]. exists f. rewrite E.
  rewrite lenN_app. unfold crlf. cbn [lenN]. f_equal; lia.
Qed.

(* the first LF splits a buffer uniquely *)
Lemma first_lf_unique (a c : bytes) b d : nolf a -> nolf c -> a ++ 10 :: b = c ++ 10 :: d -> a = c /\ b = d.
Proof.
  intros Ha Hc H. pose proof (span_app_stop _ a (10 :: b) Ha eq_refl) as S.
  rewrite H, (span_app_stop _ c (10 :: d) Hc eq_refl) in S. now injection S as -> ->.
Qed.

(* HEAD EXTENT: the strict reader sees  line1 CRLF *(line CRLF) CRLF  at the front of the buffer; if Squid's request
   parser accepts the buffer as an HTTP/1.x message, it consumed exactly that head *)
Theorem head_extent relaxed limit line1 ls x f rest :
  line_ok line1 -> Forall line_ok ls ->
  fits (line1 ++ crlf ++ enc_lines ls ++ crlf ++ x) ->
  parse_whole relaxed limit (line1 ++ crlf ++ enc_lines ls ++ crlf ++ x) = Done f rest ->
  f_major f = 1 ->
  rest = x.
Proof.
  intros Hl1 Hls Hf HP Hmaj1. unfold parse_whole in HP.
  set (buf := line1 ++ crlf ++ enc_lines ls ++ crlf ++ x) in *.
  rewrite step_start in HP; [|reflexivity|].
  2:{ destruct Hl1 as [Hn Hc]. destruct line1 as [|c l]; [destruct Hc|]. cbn [app] in buf. unfold buf.
      unfold nolf in Hn. cbn [forallb] in Hn. apply andb_prop in Hn as [Hn _]. split; [lia|exact Hc]. }
  destruct (first_cases relaxed limit (set_stage rst0 SFirst) buf eq_refl)
    as [(line & r & s1 & Hb & _ & Hline & _ & PL & _ & E & _) | [(c & f0 & _ & E & _) | [E _]]];
    rewrite E in HP; try discriminate.
  pose proof (mime_cases limit (set_stage s1 SMime) r eq_refl) as M. rewrite HP in M.
  destruct M as (e & m & -> & -> & _ & Hx & _).
  (* the first LF of buf is the one of line1's CRLF *)
  assert (Hsplit : line = line1 ++ [13] /\ r = enc_lines ls ++ crlf ++ x).
  { apply (first_lf_unique line (line1 ++ [13])); [exact Hline|apply nolf_app; split; [apply Hl1|reflexivity]|].
    rewrite <- Hb. unfold buf, crlf. now rewrite <- !app_assoc. }
  destruct Hsplit as [-> ->].
  cbn [f_major fields_of r_major r_http set_mime set_stage] in Hmaj1, Hx.
  (* an accepted HTTP/1.x line sets the protocol, so a field block was expected and found by headersEnd *)
  destruct (parse_line_sound_1x relaxed (set_stage rst0 SFirst) (line1 ++ [13]) s1)
    as (_ & _ & _ & _ & _ & _ & _ & Hh & _); [exact PL|lia|].
  rewrite Hh, Hmaj1 in Hx. destruct Hx as ((fold & HE) & _).
  destruct (headers_end_of_lines ls x Hls) as [fold' HE']. rewrite HE in HE'. injection HE' as -> _.
  rewrite app_assoc. apply dropN_app_exact.
Qed.


Definition is_forward (e : event) : bool := match e with EForward _ _ => true | _ => false end.

(* every event but the last is a completely forwarded message *)
Lemma run_conn_terminal_last : forall fuel cf off buf pre e post,
  run_conn fuel cf off buf = pre ++ e :: post -> is_forward e = false -> post = [].
Proof.
  induction fuel as [|k IH]; intros cf off buf pre e post H He.
  - cbn in H. destruct pre as [|p pre]; cbn in H; inversion H; subst; [reflexivity|]. destruct pre; discriminate.
  - cbn [run_conn] in H. destruct buf as [|b0 buf]; [destruct pre; discriminate|].
    destruct (process_one cf (b0 :: buf)) as [ |c| |f persist rest|f| | ].
    1: destruct pre; discriminate.
    1,2,4,5,6: destruct pre as [|p pre]; cbn in H; inversion H; subst; try reflexivity; destruct pre; discriminate.
    destruct pre as [|p pre]; cbn [app] in H; inversion H; subst.
    + cbn in He. discriminate.
    + destruct persist.
      * eapply IH; eassumption.
      * destruct pre as [|p2 pre]; cbn in H2; inversion H2; subst; [reflexivity|]. destruct pre; discriminate.
Qed.

(* extents chain: each event starts where the previous message ended *)
Fixpoint chained (off : N) (evs : list event) : Prop :=
  match evs with
  | [] => True
  | EForward st f :: r => st = off /\ chained (off + fw_used f) r
  | EPartial st _ :: r | EReject st _ :: r | EReset st :: r | EOther st :: r => st = off /\ chained off r
  | EClose :: r | EFuel :: r => chained off r
  end.

Lemma run_conn_chained : forall fuel cf off buf, chained off (run_conn fuel cf off buf).
Proof.
  induction fuel as [|k IH]; intros cf off buf; cbn [run_conn]; [exact I|].
  destruct buf as [|b0 buf]; [exact I|].
  destruct (process_one cf (b0 :: buf)) as [ |c| |f persist rest|f| | ]; cbn [chained]; auto.
  split; [reflexivity|]. destruct persist; [apply IH|exact I].
Qed.

Import SquidV.ClenModel SquidV.HdrparseModel.

Lemma ids_differ' : (ID_CL =? ID_TE) = false.
Proof. vm_compute. reflexivity. Qed.

Definition n_cl (es : list hentry) : nat := length (filter (fun e => he_id e =? ID_CL) es).

(* the Content-Length test in the loop of HttpHeader::parse keeps at most one such entry (ClenProofs.kept_cl) *)
Lemma entries_loop_one_cl relaxed es kept st :
  h_entries_loop relaxed es cl_init = Some (kept, st) -> (n_cl kept <= 1)%nat.
Proof.
  intros L. apply HdrparseProofs.h_loop_kept in L. unfold n_cl.
  destruct (ClenProofs.kept_cl _ _ _ _ _ _ _ L eq_refl) as [E|(e & E & _)];
    unfold HdrparseProofs.h_is_cl in E; rewrite E; cbn [length]; lia.
Qed.

Lemma n_cl_del es : n_cl (h_del_id ID_CL es) = 0%nat.
Proof.
  unfold n_cl, h_del_id. induction es as [|e r IH]; [reflexivity|]. cbn [filter].
  destruct (he_id e =? ID_CL) eqn:E; cbn [negb]; [exact IH|]. cbn [filter]. rewrite E. exact IH.
Qed.

Lemma n_cl_app a b : n_cl (a ++ b) = (n_cl a + n_cl b)%nat.
Proof. unfold n_cl. rewrite filter_app, app_length. reflexivity. Qed.

Lemma n_cl_del_te es : (n_cl (h_del_id ID_TE es) <= n_cl es)%nat.
Proof.
  unfold n_cl, h_del_id. induction es as [|e r IH]; [cbn; lia|]. cbn [filter].
  destruct (negb (he_id e =? ID_TE)); cbn [filter]; destruct (he_id e =? ID_CL); cbn [length]; lia.
Qed.

(* HttpHeader::parse leaves at most one Content-Length entry, and none next to Transfer-Encoding *)
Theorem parsed_header_one_cl relaxed req proh block hr : h_parse relaxed req proh block = Some hr ->
  (n_cl (hr_entries hr) <= 1)%nat /\ (h_has_id ID_TE (hr_entries hr) = true -> n_cl (hr_entries hr) = 0%nat).
Proof.
  unfold h_parse. destruct (h_block_fields relaxed req block) as [es|]; [|discriminate].
  destruct (h_entries_loop relaxed es cl_init) as [[kept st]|] eqn:L; [|discriminate].
  intros H; inversion H; subst hr. clear H.
  pose proof (entries_loop_one_cl _ _ _ _ L) as Hle.
  unfold h_post_process. destruct proh.
  - cbn [hr_entries]. pose proof (n_cl_del_te (h_del_id ID_CL kept)) as H1. rewrite n_cl_del in H1. split; [lia|intros _; lia].
  - destruct (h_has_id ID_TE kept) eqn:TE; cbn [hr_entries].
    + rewrite n_cl_del. split; [lia|reflexivity].
    + destruct (cl_sawBad st); cbn [hr_entries].
      * rewrite n_cl_del. split; [lia|reflexivity].
      * destruct (cl_needsSan st); cbn [hr_entries].
        -- rewrite n_cl_app, n_cl_del. destruct (cl_sawGood st).
           ++ split; [cbn; lia|]. intros HT. exfalso.
              unfold h_has_id in HT. rewrite existsb_app in HT. apply orb_prop in HT as [HT|HT].
              ** fold (h_has_id ID_TE (h_del_id ID_CL kept)) in HT.
                 rewrite HdrparseProofs.del_cl_is_filter, HdrparseProofs.has_te_filter_cl in HT. congruence.
              ** unfold h_cl_entry in HT. cbn [existsb he_id] in HT. rewrite ids_differ' in HT. discriminate HT.
           ++ rewrite app_nil_r. split; [cbn; lia|reflexivity].
        -- split; [exact Hle|]. intros HT. congruence.
Qed.

Lemma values_of_len id es : length (values_of id es) = length (filter (fun e => he_id e =? id) es).
Proof. unfold values_of. apply map_length. Qed.

Definition fwd_ok (f : fwd) : Prop := (length (fw_cl f) <= 1)%nat /\ (fw_te f = true -> fw_cl f = []).

Lemma hdr_choice_one_cl relaxed ma mime hr :
  (if 1 <=? ma then h_parse relaxed true false mime else Some empty_hdr) = Some hr ->
  (n_cl (hr_entries hr) <= 1)%nat.
Proof.
  destruct (1 <=? ma).
  - intros H. apply (parsed_header_one_cl _ _ _ _ _ H).
  - intros H; inversion H; subst. cbn. lia.
Qed.

(* what process_one hands to the next hop always has a single framing *)
Theorem process_one_fwd_ok cf buf :
  match process_one cf buf with
  | MForward f _ _ => fwd_ok f /\ fw_te f = false
  | MPartial f => fwd_ok f
  | _ => True
  end.
Proof.
  unfold process_one.
  destruct (parse_whole (c_relaxed cf) (c_limit cf) buf) as [fl rest|[code fl]|s keep]; try exact I.
  destruct (unmodelled_method (f_mid fl)); [exact I|].
  destruct (f_mid fl =? req_m_none); [exact I|].
  destruct (((f_major fl =? 0) && negb (f_minor fl =? 9)) || (1 <? f_major fl)); [exact I|].
  destruct (if 1 <=? f_major fl then h_parse (c_relaxed cf) true false (f_mime fl) else Some empty_hdr) as [hr|] eqn:HP; [|exact I].
  pose proof (hdr_choice_one_cl _ _ _ _ HP) as Hn.
  destruct (match get_list ID_EXPECT (hr_entries hr) with Some l => negb (ci_eqb l w_100_continue) | None => false end); [exact I|].
  destruct (negb (check_entity_framing _ _ _ _ _ _ _ =? 0)); [exact I|].
  assert (Hv : (length (values_of ID_CL (hr_entries hr)) <= 1)%nat) by (rewrite values_of_len; exact Hn).
  destruct (h_has_id ID_TE (hr_entries hr)).
  - destruct (ChunkedModel.parse _ _ _ rest) as [ret st rem out| |]; try exact I.
    destruct ret; unfold fwd_ok; cbn [fw_cl fw_te length]; repeat split; auto; try lia; discriminate.
  - destruct (0 <? _)%Z.
    + destruct (_ <=? lenN rest); unfold fwd_ok; cbn [fw_cl fw_te]; repeat split; auto; discriminate.
    + unfold fwd_ok; cbn [fw_cl fw_te]; repeat split; auto; discriminate.
Qed.

(* the strictly formed chunked body, all of it in the buffer and nothing after it: decoded exactly (C24) *)
Lemma chunked_whole relaxed cap m : ChunkedProofs.message_ok m -> lenN (ChunkedProofs.body m) <= cap ->
  exists st, ChunkedModel.parse relaxed cap ChunkedModel.init_state (ChunkedProofs.encode m) =
             ChunkedModel.PRet true st [] (ChunkedProofs.body m).
Proof.
  intros Hm Hcap.
  pose proof (ChunkedProofs.dechunk_exact relaxed m [] [(ChunkedProofs.encode m, cap)] [] Hm) as H.
  assert (Hs : ChunkedProofs.segs [(ChunkedProofs.encode m, cap)] ++ [] = ChunkedProofs.encode m ++ []).
  { unfold ChunkedProofs.segs. cbn [map concat fst]. rewrite !app_nil_r. reflexivity. }
  specialize (H Hs).
  assert (Hl : ChunkedProofs.live [] [] [(ChunkedProofs.encode m, cap)] (lenN (ChunkedProofs.body m))).
  { cbn [ChunkedProofs.live]. left. split; [cbn; lia|]. cbn. lia. }
  specialize (H Hl). cbv zeta in H. destruct H as (Hst & Hout & used & later & Hsg & Hused).
  unfold ChunkedModel.run_chunked, ChunkedModel.run in *. cbn [app] in *.
  destruct (ChunkedModel.parse relaxed cap ChunkedModel.init_state (ChunkedProofs.encode m)) as [ret st rem o| |] eqn:P;
    cbn [ChunkedModel.r_status ChunkedModel.r_out ChunkedModel.r_rest] in *; try discriminate.
  destruct ret.
  - cbn [ChunkedModel.r_status ChunkedModel.r_out ChunkedModel.r_rest app] in *.
    unfold ChunkedProofs.segs in Hsg. cbn [map concat fst] in Hsg. rewrite app_nil_r in Hsg.
    rewrite Hused in Hsg. rewrite <- app_assoc in Hsg.
    assert (Hnil : rem ++ later = []).
    { apply (app_inv_head (ChunkedProofs.encode m)). rewrite app_nil_r. symmetry. exact Hsg. }
    apply app_eq_nil in Hnil as [-> _]. exists st. subst o. reflexivity.
  - destruct (ChunkedModel.p_stage st); cbn [ChunkedModel.r_status] in Hst; discriminate.
Qed.

Ltac len_solve := unfold crlf in *; repeat (rewrite lenN_app in * || cbn [lenN] in * ); lia.

(* MESSAGE EXTENT.  The strict reader sees, at the front of the connection buffer, a head
   line1 CRLF *(line CRLF) CRLF followed by body_enc and then tail.  If Squid forwards a message from this buffer as
   HTTP/1.x and its framing decision is the strict reader's (kind and declared length: the hypothesis Hfr), then the
   message ends exactly where the strict reader's ends: the bytes left for the next message are tail, and the body
   handed upstream is the strict body.  For a chunked body this is shown when nothing follows it in the buffer. *)
Theorem message_extent cf line1 ls body_enc tail f persist rest :
  line_ok line1 -> Forall line_ok ls ->
  fits (line1 ++ crlf ++ enc_lines ls ++ crlf ++ body_enc ++ tail) ->
  process_one cf (line1 ++ crlf ++ enc_lines ls ++ crlf ++ body_enc ++ tail) = MForward f persist rest ->
  fw_major f = 1 ->
  (fw_chunked f = false /\ lenN body_enc = Z.to_N (fw_clen f)) \/
  (fw_chunked f = true /\ tail = [] /\
   exists m, ChunkedProofs.message_ok m /\ body_enc = ChunkedProofs.encode m /\ lenN (ChunkedProofs.body m) <= c_cap cf) ->
  rest = tail /\
  fw_head f = lenN (line1 ++ crlf ++ enc_lines ls ++ crlf) /\
  fw_used f = lenN (line1 ++ crlf ++ enc_lines ls ++ crlf ++ body_enc) /\
  (fw_chunked f = false -> fw_body f = body_enc) /\
  (fw_chunked f = true -> forall m, ChunkedProofs.message_ok m -> body_enc = ChunkedProofs.encode m ->
                          lenN (ChunkedProofs.body m) <= c_cap cf -> fw_body f = ChunkedProofs.body m).
Proof.
  intros Hl1 Hls Hf HP Hma Hfr.
  unfold process_one in HP.
  destruct (parse_whole (c_relaxed cf) (c_limit cf) (line1 ++ crlf ++ enc_lines ls ++ crlf ++ body_enc ++ tail))
    as [fl r0|[code fl]|s keep] eqn:PW; try discriminate.
  destruct (unmodelled_method (f_mid fl)); [discriminate|].
  destruct (f_mid fl =? req_m_none); [discriminate|].
  destruct (((f_major fl =? 0) && negb (f_minor fl =? 9)) || (1 <? f_major fl)); [discriminate|].
  destruct (if 1 <=? f_major fl then h_parse (c_relaxed cf) true false (f_mime fl) else Some empty_hdr) as [hr|]; [|discriminate].
  destruct (match get_list ID_EXPECT (hr_entries hr) with Some l => negb (ci_eqb l w_100_continue) | None => false end); [discriminate|].
  destruct (negb (check_entity_framing _ _ _ _ _ _ _ =? 0)); [discriminate|].
  assert (Hmaj : f_major fl = 1).
  { destruct (h_has_id ID_TE (hr_entries hr)).
    - destruct (ChunkedModel.parse _ _ _ r0) as [ret st rem out| |]; try discriminate. destruct ret; inversion HP; subst f; exact Hma.
    - destruct (0 <? _)%Z; [destruct (_ <=? lenN r0)|]; inversion HP; subst f; exact Hma. }
  assert (Hr0 : r0 = body_enc ++ tail).
  { eapply head_extent; eassumption. }
  subst r0. clear PW Hma.
  destruct (h_has_id ID_TE (hr_entries hr)) eqn:TE.
  - (* chunked *)
    destruct Hfr as [[Hc _]|(Hc & Ht & m & Hm & Hb & Hcap)].
    { destruct (ChunkedModel.parse _ _ _ (body_enc ++ tail)) as [ret st rem out| |]; try discriminate.
      destruct ret; inversion HP; subst f; cbn [fw_chunked] in Hc; discriminate. }
    subst tail body_enc. rewrite app_nil_r in HP.
    destruct (chunked_whole (c_relaxed cf) (c_cap cf) m Hm Hcap) as [st P]. rewrite P in HP.
    inversion HP; subst f rest persist. cbn [fw_head fw_used fw_chunked fw_body].
    split; [reflexivity|]. split; [len_solve|]. split; [len_solve|].
    split; [discriminate|].
    intros _ m' Hm' He' Hc'.
    destruct (chunked_whole (c_relaxed cf) (c_cap cf) m' Hm' Hc') as [st' P']. rewrite <- He' in P'. rewrite P in P'.
    inversion P'. reflexivity.
  - (* Content-Length or no body *)
    destruct Hfr as [[Hc Hn]|(Hc & _)].
    2:{ destruct (0 <? _)%Z; [destruct (_ <=? lenN (body_enc ++ tail))|]; inversion HP; subst f; cbn [fw_chunked] in Hc; discriminate. }
    destruct (0 <? _)%Z eqn:Hpos.
    + destruct (_ <=? lenN (body_enc ++ tail)) eqn:Hfit; [|discriminate].
      inversion HP; subst f rest persist. cbn [fw_head fw_used fw_chunked fw_body fw_clen] in *.
      rewrite <- Hn. rewrite takeN_app_exact, dropN_app_exact.
      split; [reflexivity|]. split; [len_solve|]. split; [len_solve|].
      split; [reflexivity|discriminate].
    + inversion HP; subst f rest persist. cbn [fw_head fw_used fw_chunked fw_body fw_clen] in *.
      assert (body_enc = []) as ->.
      { destruct body_enc; [reflexivity|]. cbn [lenN] in Hn. lia. }
      cbn [app]. split; [reflexivity|]. split; [len_solve|]. split; [len_solve|].
      split; [reflexivity|discriminate].
Qed.

Lemma run_conn_fwd_ok : forall fuel cf off buf e, In e (run_conn fuel cf off buf) ->
  match e with
  | EForward _ f => fwd_ok f /\ fw_te f = false
  | EPartial _ f => fwd_ok f
  | _ => True
  end.
Proof.
  induction fuel as [|k IH]; intros cf off buf e Hin; cbn [run_conn] in Hin.
  - destruct Hin as [<-|[]]. exact I.
  - destruct buf as [|b0 buf]; [destruct Hin|].
    pose proof (process_one_fwd_ok cf (b0 :: buf)) as Hok.
    destruct (process_one cf (b0 :: buf)) as [ |c| |f persist rest|f| | ]; cbn [In] in Hin.
    1: destruct Hin.
    1,2,4,5,6: destruct Hin as [<-|[]]; try exact I; exact Hok.
    destruct Hin as [<-|Hin]; [exact Hok|].
    destruct persist; [eapply IH; exact Hin|]. destruct Hin as [<-|[]]. exact I.
Qed.

Definition w_l1 : bytes := [80;79;83;84;32;104;116;116;112;58;47;47;111;47;109;48;32;72;84;84;80;47;49;46;49].          (* POST http://o/m0 HTTP/1.1 *)
Definition w_host : bytes := [72;111;115;116;58;32;104].        (* Host: h *)
Definition w_te_line : bytes := name_transfer_encoding ++ [58; 32] ++ word_chunked ++ [11].   (* Transfer-Encoding: chunked<VT> *)
Definition w_cl_line : bytes := [67;111;110;116;101;110;116;45;76;101;110;103;116;104;58;32;54;49].     (* Content-Length: 61 *)
Definition w_inner : bytes := [71;69;84;32;104;116;116;112;58;47;47;111;47;120;48;32;72;84;84;80;47;49;46;49;13;10;72;111;115;116;58;32;104;13;10;67;111;110;110;101;99;116;105;111;110;58;32;99;108;111;115;101;13;10;13;10].       (* GET http://o/x0 HTTP/1.1 CRLF Host: h CRLF Connection: close CRLF CRLF *)
Definition w_body : bytes := [48; 13; 10; 13; 10] ++ w_inner.      (* 0 CRLF CRLF, then the embedded request *)
Definition w_head : bytes := w_l1 ++ crlf ++ enc_lines [w_host; w_te_line; w_cl_line] ++ crlf.
Definition w_stream : bytes := w_head ++ w_body.
Definition w_inner_uri : bytes := [104;116;116;112;58;47;47;111;47;120;48].   (* http://o/x0 *)

(* REPAIRED in /repo (cc868a1, only SP / HTAB are trimmed around Content-Length and Transfer-Encoding values): in both
   parser modes `chunked<VT>` is an unsupported transfer coding; the message is answered 501 and nothing after it is read *)
Theorem vt_after_chunked_rejected : forall relaxed,
  run_stream (sm_default_cfg relaxed) w_stream = [EReject 0 sm_sc_not_implemented] /\
  Forall line_ok [w_l1; w_host; w_te_line; w_cl_line] /\
  w_te_line = name_transfer_encoding ++ [58; 32] ++ word_chunked ++ [11].
Proof. intros [|]; (split; [vm_compute; reflexivity|]); repeat split; try reflexivity; repeat constructor; try discriminate. Qed.

(* likewise `Content-Length: <VT>5` and `Content-Length: 5<FF>`: 400 in both modes *)
Definition w_cl_vt_stream : bytes := w_l1 ++ crlf ++ enc_lines [w_host; [67;111;110;116;101;110;116;45;76;101;110;103;116;104;58;32;11;53]] ++ crlf ++ [104;101;108;108;111].
Definition w_cl_ff_stream : bytes := w_l1 ++ crlf ++ enc_lines [w_host; [67;111;110;116;101;110;116;45;76;101;110;103;116;104;58;32;53;12]] ++ crlf ++ [104;101;108;108;111].
Theorem vt_content_length_rejected : forall relaxed,
  run_stream (sm_default_cfg relaxed) w_cl_vt_stream = [EReject 0 sm_sc_bad_request] /\
  run_stream (sm_default_cfg relaxed) w_cl_ff_stream = [EReject 0 sm_sc_bad_request].
Proof. intros [|]; split; vm_compute; reflexivity. Qed.

(* STILL accepted by the relaxed parser (known findings C03-chunk-line-bws, C03-cl-list-vt-ff): VT as bad white space
   inside a chunk extension, and VT next to an element of a Content-Length list *)
Definition w_hello : bytes := [104;101;108;108;111].
Definition w_chunk_vt_stream : bytes :=
  w_l1 ++ crlf ++ enc_lines [w_host; name_transfer_encoding ++ [58; 32] ++ word_chunked] ++ crlf ++
  [53; 11; 59; 97] ++ crlf ++ w_hello ++ crlf ++ [48] ++ crlf ++ crlf.               (* 5 VT ; a CRLF hello CRLF 0 CRLF CRLF *)
Theorem vt_in_chunk_ext_refuted : exists f,
  run_stream (sm_default_cfg true) w_chunk_vt_stream = [EForward 0 f] /\ fw_chunked f = true /\ fw_body f = w_hello /\
  run_stream (sm_default_cfg false) w_chunk_vt_stream = [EReset 0].
Proof. eexists. split; [vm_compute; reflexivity|]. repeat split; vm_compute; reflexivity. Qed.

Definition w_cl_list_vt_stream : bytes :=
  w_l1 ++ crlf ++ enc_lines [w_host; name_content_length ++ [58; 32; 53; 11; 44; 32; 53]] ++ crlf ++ w_hello.   (* Content-Length: 5 VT , SP 5 *)
Theorem vt_in_content_length_list_refuted : exists f,
  run_stream (sm_default_cfg true) w_cl_list_vt_stream = [EForward 0 f] /\ fw_body f = w_hello /\ fw_cl f = [[53]] /\
  run_stream (sm_default_cfg false) w_cl_list_vt_stream = [EReject 0 sm_sc_bad_request].
Proof. eexists. split; [vm_compute; reflexivity|]. repeat split; vm_compute; reflexivity. Qed.

(* a message as the strict reader delimits it: request line, field lines, the octets of its body encoding *)
Record smsg := { sm_line1 : bytes; sm_lines : list bytes; sm_body_enc : bytes }.
Definition smsg_bytes (m : smsg) : bytes := sm_line1 m ++ crlf ++ enc_lines (sm_lines m) ++ crlf ++ sm_body_enc m.
Definition smsg_ok (m : smsg) : Prop := line_ok (sm_line1 m) /\ Forall line_ok (sm_lines m).
Definition stream_of (ms : list smsg) : bytes := concat (map smsg_bytes ms).

(* Squid's framing decision for the i-th forwarded message is the strict reader's for its i-th message
   (HTTP/1.x, a body of declared length, that length) *)
Fixpoint agree (ms : list smsg) (evs : list event) : Prop :=
  match ms, evs with
  | m :: ms', EForward _ f :: evs' =>
      fw_major f = 1 /\ fw_chunked f = false /\ lenN (sm_body_enc m) = Z.to_N (fw_clen f) /\ agree ms' evs'
  | _, _ => True
  end.

(* the i-th forwarded message occupies exactly the extent of the strict reader's i-th message and carries its body *)
Fixpoint aligned (off : N) (ms : list smsg) (evs : list event) : Prop :=
  match ms, evs with
  | m :: ms', EForward st f :: evs' =>
      st = off /\ fw_used f = lenN (smsg_bytes m) /\ fw_body f = sm_body_enc m /\
      aligned (off + lenN (smsg_bytes m)) ms' evs'
  | _, _ => True
  end.

Lemma smsg_split m T : smsg_bytes m ++ T =
  sm_line1 m ++ crlf ++ enc_lines (sm_lines m) ++ crlf ++ sm_body_enc m ++ T.
Proof. unfold smsg_bytes. rewrite <- !app_assoc. reflexivity. Qed.

Theorem stream_aligned : forall ms fuel cf off tail,
  Forall smsg_ok ms -> fits (stream_of ms ++ tail) ->
  agree ms (run_conn fuel cf off (stream_of ms ++ tail)) ->
  aligned off ms (run_conn fuel cf off (stream_of ms ++ tail)).
Proof.
  induction ms as [|m ms IH]; intros fuel cf off tail Hok Hf Hag; [exact I|].
  inversion Hok as [|? ? [Hl1 Hls] Hok']; subst.
  unfold stream_of in *. cbn [map concat] in *. fold (stream_of ms) in *.
  rewrite <- app_assoc in *.
  destruct fuel as [|k]; [exact I|].
  cbn [run_conn] in *.
  destruct (smsg_bytes m ++ stream_of ms ++ tail) as [|b0 l] eqn:Eb; [exact I|].
  destruct (process_one cf (b0 :: l)) as [ |c| |f persist rest|f| | ] eqn:PO; try exact I.
  cbn [agree] in Hag. destruct Hag as (Hmaj & Hch & Hlen & Hag').
  rewrite <- Eb in PO, Hf. rewrite smsg_split in PO, Hf.
  destruct (message_extent cf (sm_line1 m) (sm_lines m) (sm_body_enc m) (stream_of ms ++ tail) f persist rest
              Hl1 Hls Hf PO Hmaj (or_introl (conj Hch Hlen))) as (Hrest & _ & Hused & Hbody & _).
  cbn [aligned]. split; [reflexivity|].
  assert (Hu : fw_used f = lenN (smsg_bytes m)).
  { rewrite Hused. unfold smsg_bytes. rewrite <- ?app_assoc. reflexivity. }
  split; [exact Hu|]. split; [apply Hbody; exact Hch|].
  destruct persist; [|destruct ms; exact I].
  subst rest. rewrite Hu in *. apply IH; [exact Hok'| |exact Hag'].
  rewrite <- smsg_split in Hf. apply fits_app_r in Hf. exact Hf.
Qed.
