(* Bytes.v — common vocabulary: bytes are N, byte strings are lists of N.
   Lengths and indices are N (never large nat numerals). *)
From Coq Require Export List NArith ZArith Bool Lia.
Export ListNotations.
Local Open Scope N_scope.

Definition byte := N.
Definition bytes := list N.

Fixpoint lenN {A} (l : list A) : N :=
  match l with [] => 0 | _ :: r => N.succ (lenN r) end.

Fixpoint takeN {A} (n : N) (l : list A) : list A :=
  match l with
  | [] => []
  | x :: r => if n =? 0 then [] else x :: takeN (N.pred n) r
  end.

Fixpoint dropN {A} (n : N) (l : list A) : list A :=
  match l with
  | [] => []
  | x :: r => if n =? 0 then l else dropN (N.pred n) r
  end.

Fixpoint nthN {A} (n : N) (l : list A) : option A :=
  match l with
  | [] => None
  | x :: r => if n =? 0 then Some x else nthN (N.pred n) r
  end.

Fixpoint span {A} (p : A -> bool) (l : list A) : list A * list A :=
  match l with
  | [] => ([], [])
  | x :: r => if p x then let '(a, b) := span p r in (x :: a, b) else ([], l)
  end.

Fixpoint list_eqb (a b : bytes) : bool :=
  match a, b with
  | [], [] => true
  | x :: a', y :: b' => (x =? y) && list_eqb a' b'
  | _, _ => false
  end.

Fixpoint starts_with (l p : bytes) : bool :=
  match p, l with
  | [], _ => true
  | y :: p', x :: l' => (x =? y) && starts_with l' p'
  | _ :: _, [] => false
  end.

Fixpoint tbl_get {A} (d : A) (t : list A) (c : N) : A :=
  match t with
  | [] => d
  | x :: r => if c =? 0 then x else tbl_get d r (N.pred c)
  end.

Definition cset := N -> bool.
(* a 256-entry table as a membership function *)
Definition mem_tbl (t : list bool) : cset := tbl_get false t.

(* all byte values, 0..255, for finite sweeps *)
Fixpoint upto_nat (n : nat) : list N :=
  match n with O => [] | S k => upto_nat k ++ [N.of_nat k] end.
Definition all_bytes : list N := upto_nat 256.

Lemma lenN_app {A} (a b : list A) : lenN (a ++ b) = lenN a + lenN b.
Proof. induction a as [|x a IH]; cbn [lenN app]; lia. Qed.

Lemma lenN_length {A} (l : list A) : lenN l = N.of_nat (length l).
Proof. induction l as [|x l IH]; cbn [lenN length]; lia. Qed.

Lemma takeN_dropN {A} n (l : list A) : takeN n l ++ dropN n l = l.
Proof.
  revert n; induction l as [|x l IH]; intros n; cbn [takeN dropN]; [reflexivity|].
  destruct (n =? 0) eqn:E; cbn [app]; [reflexivity| now rewrite IH].
Qed.

Lemma lenN_takeN {A} n (l : list A) : lenN (takeN n l) = N.min n (lenN l).
Proof.
  revert n; induction l as [|x l IH]; intros n; cbn [takeN lenN]; [lia|].
  destruct (n =? 0) eqn:E; cbn [lenN]; [apply N.eqb_eq in E; lia|].
  apply N.eqb_neq in E. rewrite IH. lia.
Qed.

Lemma span_app {A} (p : A -> bool) l : fst (span p l) ++ snd (span p l) = l.
Proof.
  induction l as [|x l IH]; cbn [span]; [reflexivity|].
  destruct (p x); [|reflexivity]. destruct (span p l) as [a b]; cbn in *. now rewrite IH.
Qed.

Lemma span_all {A} (p : A -> bool) l : forallb p (fst (span p l)) = true.
Proof.
  induction l as [|x l IH]; cbn [span]; [reflexivity|].
  destruct (p x) eqn:E; [|reflexivity]. destruct (span p l) as [a b]; cbn in *. now rewrite E, IH.
Qed.

Lemma span_stop {A} (p : A -> bool) l :
  match snd (span p l) with [] => True | y :: _ => p y = false end.
Proof.
  induction l as [|x l IH]; cbn [span]; [exact I|].
  destruct (p x) eqn:E; [|exact E]. destruct (span p l) as [a b]; cbn in *. exact IH.
Qed.

(* takeN, dropN and nthN are firstn, skipn and nth_error at N positions; their algebra comes from the
   standard library through these equations and
   nthN_nth_error below *)
Lemma takeN_firstn {A} n (l : list A) : takeN n l = firstn (N.to_nat n) l.
Proof.
  revert n; induction l as [|x l IH]; intros n; cbn [takeN]; [now rewrite firstn_nil|].
  destruct (N.eqb_spec n 0) as [->|E]; [reflexivity|].
  replace (N.to_nat n) with (S (N.to_nat (N.pred n))) by lia. cbn [firstn]. now rewrite IH.
Qed.

Lemma dropN_skipn {A} n (l : list A) : dropN n l = skipn (N.to_nat n) l.
Proof.
  revert n; induction l as [|x l IH]; intros n; cbn [dropN]; [now rewrite skipn_nil|].
  destruct (N.eqb_spec n 0) as [->|E]; [reflexivity|].
  replace (N.to_nat n) with (S (N.to_nat (N.pred n))) by lia. cbn [skipn]. apply IH.
Qed.

Lemma lenN_nat {A} (l : list A) : N.to_nat (lenN l) = length l.
Proof. rewrite lenN_length. apply Nat2N.id. Qed.

Lemma lenN_nil_iff {A} (l : list A) : lenN l = 0 <-> l = [].
Proof. destruct l; cbn [lenN]; split; intros H; (reflexivity || discriminate H || lia). Qed.

Lemma lenN_map {A B} (f : A -> B) l : lenN (map f l) = lenN l.
Proof. now rewrite !lenN_length, map_length. Qed.

Lemma lenN_rev {A} (l : list A) : lenN (rev l) = lenN l.
Proof. now rewrite !lenN_length, rev_length. Qed.

Lemma lenN_dropN {A} n (l : list A) : lenN (dropN n l) = lenN l - n.
Proof. rewrite dropN_skipn, !lenN_length, skipn_length. lia. Qed.

Lemma takeN_0 {A} (l : list A) : takeN 0 l = [].
Proof. destruct l; reflexivity. Qed.

Lemma dropN_0 {A} (l : list A) : dropN 0 l = l.
Proof. destruct l; reflexivity. Qed.

Lemma takeN_all {A} n (l : list A) : lenN l <= n -> takeN n l = l.
Proof. intros H. rewrite takeN_firstn. apply firstn_all2. rewrite <- lenN_nat. lia. Qed.

Lemma dropN_all {A} n (l : list A) : lenN l <= n -> dropN n l = [].
Proof. intros H. rewrite dropN_skipn. apply skipn_all2. rewrite <- lenN_nat. lia. Qed.

Lemma takeN_app {A} n (a b : list A) : takeN n (a ++ b) = takeN n a ++ takeN (n - lenN a) b.
Proof. rewrite !takeN_firstn, firstn_app, <- lenN_nat. do 2 f_equal. lia. Qed.

Lemma dropN_app {A} n (a b : list A) : dropN n (a ++ b) = dropN n a ++ dropN (n - lenN a) b.
Proof. rewrite !dropN_skipn, skipn_app, <- lenN_nat. do 2 f_equal. lia. Qed.

Lemma takeN_app_le {A} n (a b : list A) : n <= lenN a -> takeN n (a ++ b) = takeN n a.
Proof. intros H. rewrite takeN_app. replace (n - lenN a) with 0 by lia. now rewrite takeN_0, app_nil_r. Qed.

Lemma takeN_app_ge {A} n (a b : list A) : lenN a <= n -> takeN n (a ++ b) = a ++ takeN (n - lenN a) b.
Proof. intros H. now rewrite takeN_app, (takeN_all n a H). Qed.

Lemma dropN_app_le {A} n (a b : list A) : n <= lenN a -> dropN n (a ++ b) = dropN n a ++ b.
Proof. intros H. rewrite dropN_app. replace (n - lenN a) with 0 by lia. now rewrite dropN_0. Qed.

Lemma dropN_app_ge {A} n (a b : list A) : lenN a <= n -> dropN n (a ++ b) = dropN (n - lenN a) b.
Proof. intros H. now rewrite dropN_app, (dropN_all n a H). Qed.

Lemma takeN_app_exact {A} (a b : list A) : takeN (lenN a) (a ++ b) = a.
Proof. rewrite takeN_app_le, takeN_all by lia. reflexivity. Qed.

Lemma dropN_app_exact {A} (a b : list A) : dropN (lenN a) (a ++ b) = b.
Proof. rewrite dropN_app_ge, N.sub_diag by lia. apply dropN_0. Qed.

Lemma dropN_dropN {A} a b (l : list A) : dropN a (dropN b l) = dropN (b + a) l.
Proof.
  revert b; induction l as [|x l IH]; intros b; [now rewrite !dropN_all by (cbn; lia)|].
  destruct (N.eqb_spec b 0) as [->|E]; [now rewrite dropN_0|].
  cbn [dropN]. destruct (N.eqb_spec b 0) as [|_]; [contradiction|]. destruct (N.eqb_spec (b + a) 0) as [|_]; [lia|].
  rewrite IH. f_equal. lia.
Qed.

Lemma takeN_takeN {A} a b (l : list A) : takeN a (takeN b l) = takeN (N.min a b) l.
Proof. rewrite !takeN_firstn, firstn_firstn. f_equal. lia. Qed.

Lemma dropN_takeN {A} a b (l : list A) : dropN a (takeN b l) = takeN (b - a) (dropN a l).
Proof. rewrite !dropN_skipn, !takeN_firstn, skipn_firstn_comm. f_equal. lia. Qed.

Lemma takeN_add {A} a b (l : list A) : takeN (a + b) l = takeN a l ++ takeN b (dropN a l).
Proof.
  rewrite <- (takeN_dropN a l) at 1. rewrite takeN_app, lenN_takeN.
  destruct (N.le_ge_cases a (lenN l)) as [H|H].
  - rewrite N.min_l by exact H. replace (a + b - a) with b by lia.
    f_equal. apply takeN_all. rewrite lenN_takeN. lia.
  - rewrite (takeN_all a l H), (dropN_all a l H). destruct b; cbn [takeN]; rewrite takeN_all by lia; reflexivity.
Qed.

Lemma dropN_app_len {A} (a : list A) x b : dropN (lenN a + 1) (a ++ x :: b) = b.
Proof. rewrite dropN_app_ge by lia. replace (lenN a + 1 - lenN a) with 1 by lia. destruct b; reflexivity. Qed.

Lemma nthN_nth_error {A} n (l : list A) : nthN n l = nth_error l (N.to_nat n).
Proof.
  revert n; induction l as [|x l IH]; intros n; cbn [nthN]; [now destruct (N.to_nat n)|].
  destruct (N.eqb_spec n 0) as [->|E]; [reflexivity|].
  replace (N.to_nat n) with (S (N.to_nat (N.pred n))) by lia. apply IH.
Qed.

Lemma nthN_app_l {A} (a b : list A) i : i < lenN a -> nthN i (a ++ b) = nthN i a.
Proof. intros H. rewrite !nthN_nth_error. apply nth_error_app1. rewrite <- lenN_nat. lia. Qed.

Lemma nthN_app_r {A} (a b : list A) i : lenN a <= i -> nthN i (a ++ b) = nthN (i - lenN a) b.
Proof.
  intros H. rewrite !nthN_nth_error, nth_error_app2 by (rewrite <- lenN_nat; lia).
  f_equal. rewrite <- lenN_nat. lia.
Qed.

Lemma nthN_lt {A} i (l : list A) x : nthN i l = Some x -> i < lenN l.
Proof.
  rewrite nthN_nth_error. intros H. assert (G : nth_error l (N.to_nat i) <> None) by congruence.
  apply nth_error_Some in G. rewrite <- lenN_nat in G. lia.
Qed.

Lemma nthN_takeN {A} (l : list A) k i : i < k -> nthN i (takeN k l) = nthN i l.
Proof.
  intros H. rewrite <- (takeN_dropN k l) at 2.
  destruct (N.lt_ge_cases i (lenN (takeN k l))) as [L|L]; [now rewrite nthN_app_l|].
  rewrite lenN_takeN in L. rewrite (dropN_all k l) by lia. now rewrite app_nil_r.
Qed.

Lemma nthN_dropN {A} (l : list A) k i : nthN i (dropN k l) = nthN (k + i) l.
Proof.
  destruct (N.le_ge_cases k (lenN l)) as [H|H].
  - rewrite <- (takeN_dropN k l) at 2. rewrite nthN_app_r; rewrite lenN_takeN, N.min_l by exact H; [f_equal; lia|lia].
  - rewrite (dropN_all k l H), !nthN_nth_error. symmetry. destruct (N.to_nat i); [|]; try reflexivity;
    apply nth_error_None; rewrite <- lenN_nat; lia.
Qed.

Lemma nthN_some {A} (l : list A) i : i < lenN l -> exists x, nthN i l = Some x.
Proof.
  intros H. rewrite nthN_nth_error. destruct (nth_error l (N.to_nat i)) eqn:E; [eauto|].
  apply nth_error_None in E. rewrite <- lenN_nat in E. lia.
Qed.

Lemma nthN_none {A} (l : list A) i : lenN l <= i -> nthN i l = None.
Proof. intros H. rewrite nthN_nth_error. apply nth_error_None. rewrite <- lenN_nat. lia. Qed.

Lemma nthN_app_len {A} (pre : list A) x suf : nthN (lenN pre) (pre ++ x :: suf) = Some x.
Proof. rewrite nthN_app_r, N.sub_diag by lia. reflexivity. Qed.

Lemma nthN_in {A} (l : list A) i x : nthN i l = Some x -> In x l.
Proof. rewrite nthN_nth_error. apply nth_error_In. Qed.

Lemma nthN_split {A} (l : list A) i x : nthN i l = Some x -> l = takeN i l ++ x :: dropN (i + 1) l /\ lenN (takeN i l) = i.
Proof.
  intros H. pose proof (nthN_lt _ _ _ H) as L. split; [|rewrite lenN_takeN; lia].
  rewrite <- (takeN_dropN i l) at 1. f_equal. rewrite <- (dropN_dropN 1 i l).
  rewrite <- (N.add_0_r i), <- nthN_dropN in H. destruct (dropN i l) as [|y r]; [discriminate H|].
  cbn [nthN N.eqb] in H. injection H as ->. destruct r; reflexivity.
Qed.

Lemma list_eqb_iff a b : list_eqb a b = true <-> a = b.
Proof.
  revert b; induction a as [|x a IH]; intros [|y b]; cbn [list_eqb]; try (split; congruence).
  rewrite andb_true_iff, N.eqb_eq, IH. split; [intros [-> ->]; reflexivity | intros H; now inversion H].
Qed.

Lemma list_eqb_refl a : list_eqb a a = true.
Proof. now apply list_eqb_iff. Qed.

Lemma list_eqb_eq a b : list_eqb a b = true -> a = b.
Proof. apply list_eqb_iff. Qed.

Lemma starts_with_app p r : starts_with (p ++ r) p = true.
Proof. induction p as [|y p IH]; cbn [starts_with app]; [now destruct r|]. now rewrite N.eqb_refl. Qed.

Lemma starts_with_split l p : starts_with l p = true -> l = p ++ dropN (lenN p) l.
Proof.
  revert l; induction p as [|y p IH]; intros l H; [now rewrite dropN_0|].
  destruct l as [|x l]; [discriminate H|]. cbn [starts_with] in H.
  apply andb_true_iff in H as [E H]. apply N.eqb_eq in E. subst y.
  cbn [lenN dropN app]. destruct (N.eqb_spec (N.succ (lenN p)) 0) as [E|_]; [lia|].
  rewrite N.pred_succ. f_equal. now apply IH.
Qed.

Lemma forallb_impl {A} (p q : A -> bool) l :
  (forall x, p x = true -> q x = true) -> forallb p l = true -> forallb q l = true.
Proof. rewrite !forallb_forall. auto. Qed.

Lemma span_forall {A} (p : A -> bool) l : forallb p l = true -> span p l = (l, []).
Proof.
  induction l as [|x l IH]; cbn [span forallb]; [reflexivity|].
  intros H. apply andb_true_iff in H as [-> H]. now rewrite (IH H).
Qed.

Lemma span_app_stop {A} (p : A -> bool) a b :
  forallb p a = true -> match b with [] => True | y :: _ => p y = false end -> span p (a ++ b) = (a, b).
Proof.
  intros Ha Hb. induction a as [|x a IH]; cbn [app].
  - destruct b as [|y b]; cbn [span]; [reflexivity| now rewrite Hb].
  - cbn [forallb] in Ha. apply andb_true_iff in Ha as [Hx Ha]. cbn [span]. now rewrite Hx, (IH Ha).
Qed.

Lemma span_stable {A} (p : A -> bool) l x a y b :
  span p l = (a, y :: b) -> span p (l ++ x) = (a, (y :: b) ++ x).
Proof.
  intros H. pose proof (span_app p l) as E. pose proof (span_all p l) as F. pose proof (span_stop p l) as S.
  rewrite H in *. cbn [fst snd] in *. rewrite <- E, <- app_assoc. now apply span_app_stop.
Qed.

Lemma tbl_get_default {A} (d : A) t c : lenN t <= c -> tbl_get d t c = d.
Proof.
  revert c; induction t as [|x t IH]; intros c H; cbn [tbl_get lenN] in *; [reflexivity|].
  destruct (N.eqb_spec c 0) as [E|E]; [lia|]. apply IH. lia.
Qed.

Lemma lenN_snoc {A} (l : list A) x : lenN (l ++ [x]) = lenN l + 1.
Proof. rewrite lenN_app. reflexivity. Qed.

Lemma lenN_repeat {A} (x : A) n : lenN (repeat x n) = N.of_nat n.
Proof. now rewrite lenN_length, repeat_length. Qed.

Lemma lenN_pos {A} (l : list A) : l <> [] -> 1 <= lenN l.
Proof. destruct l; cbn [lenN]; [congruence|lia]. Qed.

Lemma forallb_ext {A} (f g : A -> bool) l : (forall c, f c = g c) -> forallb f l = forallb g l.
Proof. intros H. induction l as [|x l IH]; cbn [forallb]; [reflexivity| now rewrite H, IH]. Qed.

Lemma forallb_rev {A} (p : A -> bool) l : forallb p (rev l) = forallb p l.
Proof.
  induction l as [|x l IH]; cbn [rev forallb]; [reflexivity|].
  rewrite forallb_app, IH. cbn [forallb]. rewrite andb_true_r. apply andb_comm.
Qed.

Lemma forallb_takeN_dropN {A} (p : A -> bool) n l :
  forallb p l = true -> forallb p (takeN n l) = true /\ forallb p (dropN n l) = true.
Proof. intros H. rewrite <- (takeN_dropN n l), forallb_app in H. apply andb_true_iff, H. Qed.

Lemma forallb_filter {A} (p q : A -> bool) l : forallb p l = true -> forallb p (filter q l) = true.
Proof. rewrite !forallb_forall. intros H x Hx. apply filter_In in Hx as [Hx _]. exact (H x Hx). Qed.

Lemma forallb_concat_map {A B} (p : B -> bool) (f : A -> list B) s :
  (forall c, In c s -> forallb p (f c) = true) -> forallb p (concat (map f s)) = true.
Proof.
  induction s as [|c s IH]; intros H; [reflexivity|]. cbn [map concat].
  rewrite forallb_app, (H c (or_introl eq_refl)), IH; [reflexivity|]. intros d Hd. apply H. right. exact Hd.
Qed.

Lemma concat_snoc {A} (l : list (list A)) x : concat (l ++ [x]) = concat l ++ x.
Proof. now rewrite concat_app; cbn [concat]; rewrite app_nil_r. Qed.

Lemma fold_left_ext {A B} (f g : A -> B -> A) : (forall a b, f a b = g a b) ->
  forall l a, fold_left f l a = fold_left g l a.
Proof. intros H l. induction l as [|x l IH]; intros a; cbn [fold_left]; [reflexivity|]. now rewrite H, IH. Qed.

Lemma filter_all {A} (p : A -> bool) l : (forall y, In y l -> p y = true) -> filter p l = l.
Proof.
  induction l as [|x l IH]; cbn; intros H; [reflexivity|]. rewrite (H x), IH by auto. reflexivity.
Qed.

Lemma filter_none {A} (p : A -> bool) l : (forall y, In y l -> p y = false) -> filter p l = [].
Proof. induction l as [|x l IH]; cbn; intros H; [reflexivity|]. rewrite (H x) by auto. auto. Qed.

Lemma filter_filter_imp {A} (f g : A -> bool) l : (forall x, f x = true -> g x = true) ->
  filter f (filter g l) = filter f l.
Proof.
  intros H. induction l as [|x l IH]; cbn [filter]; [reflexivity|].
  destruct (g x) eqn:Eg; cbn [filter]; [now rewrite IH|].
  destruct (f x) eqn:Ef; [rewrite (H x Ef) in Eg; discriminate|exact IH].
Qed.

Lemma existsb_filter_imp {A} (f g : A -> bool) l : (forall x, f x = true -> g x = true) ->
  existsb f (filter g l) = existsb f l.
Proof.
  intros H. induction l as [|x l IH]; cbn [filter existsb]; [reflexivity|].
  destruct (g x) eqn:Eg; cbn [existsb]; rewrite IH; [reflexivity|].
  destruct (f x) eqn:Ef; [rewrite (H x Ef) in Eg; discriminate|reflexivity].
Qed.

Lemma NoDup_app_inv {A} (a b : list A) : NoDup (a ++ b) -> NoDup a /\ NoDup b /\ forall x, In x a -> ~ In x b.
Proof.
  induction a as [|x a IH]; intros H; cbn [app] in H; [split; [constructor| split; [exact H| intros ? []]]|].
  inversion H as [|? ? Hn Hd]; subst. destruct (IH Hd) as (Ha & Hb & Hab).
  split; [constructor; [intros Hc; apply Hn, in_or_app; left; exact Hc| exact Ha]|]. split; [exact Hb|].
  intros y [<- | Hy]; [intros Hc; apply Hn, in_or_app; right; exact Hc| apply Hab, Hy].
Qed.

Lemma NoDup_map_inj {A B} (f : A -> B) l a b :
  NoDup (map f l) -> In a l -> In b l -> f a = f b -> a = b.
Proof.
  induction l as [|x l IH]; cbn; intros HN Ha Hb Hf; [contradiction|].
  inversion HN as [|? ? Hni HN']; subst.
  destruct Ha as [->|Ha], Hb as [->|Hb]; auto.
  - exfalso. apply Hni. rewrite Hf. apply in_map. assumption.
  - exfalso. apply Hni. rewrite <- Hf. apply in_map. assumption.
Qed.

Lemma span_ext {A} (p q : A -> bool) l : (forall x, p x = q x) -> span p l = span q l.
Proof. intros H. induction l as [|x l IH]; cbn [span]; [reflexivity| now rewrite H, IH]. Qed.

Lemma span_app_forall {A} (p : A -> bool) a b :
  forallb p a = true -> span p (a ++ b) = (a ++ fst (span p b), snd (span p b)).
Proof.
  induction a as [|x a IH]; cbn [app forallb span]; intros H; [now destruct (span p b)|].
  apply andb_true_iff in H as [-> H]. now rewrite (IH H).
Qed.

Lemma span_fst_len {A} (p : A -> bool) l : lenN (fst (span p l)) <= lenN l.
Proof. rewrite <- (span_app p l) at 2. rewrite lenN_app. lia. Qed.

Lemma starts_with_ext l p x : starts_with l p = true -> starts_with (l ++ x) p = true.
Proof. intros H. rewrite (starts_with_split l p H), <- app_assoc. apply starts_with_app. Qed.

Lemma starts_with_len l p : starts_with l p = true -> lenN p <= lenN l.
Proof. intros H. rewrite (starts_with_split l p H), lenN_app. lia. Qed.

Lemma app_same_len_inj {A} (a b s1 s2 : list A) : lenN s1 = lenN s2 -> a ++ s1 = b ++ s2 -> a = b /\ s1 = s2.
Proof.
  intros L E. assert (La : length a = length b).
  { apply (f_equal (@length A)) in E. rewrite !app_length in E. rewrite !lenN_length in L. lia. }
  pose proof (f_equal (firstn (length a)) E) as E1. pose proof (f_equal (skipn (length a)) E) as E2.
  rewrite La in E1 at 2. rewrite La in E2 at 2.
  rewrite !firstn_app, !Nat.sub_diag, !firstn_all, !firstn_O, !app_nil_r in E1.
  rewrite !skipn_app, !Nat.sub_diag, !skipn_all, !skipn_O in E2. now split.
Qed.

Lemma one_elem {A} (l : list A) : l <> [] -> lenN l <= 1 -> exists x, l = [x].
Proof. destruct l as [|x [|y l]]; cbn [lenN]; intros H L; [congruence| now exists x| lia]. Qed.

Lemma all_bytes_complete c : c < 256 -> In c all_bytes.
Proof.
  intros H. unfold all_bytes.
  assert (G : forall n, (N.to_nat c < n)%nat -> In c (upto_nat n)).
  { induction n as [|n IH]; intros Hn; [lia|]. cbn [upto_nat]. apply in_or_app.
    destruct (Nat.eq_dec (N.to_nat c) n) as [He|Hne]; [right; left; lia| left; apply IH; lia]. }
  apply G. lia.
Qed.

Lemma forallb_bytes (f : N -> bool) :
  forallb f all_bytes = true -> forall c, c < 256 -> f c = true.
Proof. intros H c Hc. rewrite forallb_forall in H. apply H, all_bytes_complete, Hc. Qed.

(* a fact about the members of a 256-entry membership table, from a check of all byte values *)
Lemma mem_tbl_sweep (t : list bool) (q : N -> bool) : lenN t <= 256 ->
  forallb (fun c => negb (mem_tbl t c) || q c) all_bytes = true -> forall c, mem_tbl t c = true -> q c = true.
Proof.
  intros L H c Hc. destruct (N.lt_ge_cases c 256) as [Lc|Lc].
  - pose proof (forallb_bytes _ H c Lc) as G. cbv beta in G. now rewrite Hc in G.
  - unfold mem_tbl in Hc. rewrite tbl_get_default in Hc by lia. discriminate.
Qed.
