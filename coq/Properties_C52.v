(* Properties_C52.v — C52: overflow-safe arithmetic helpers (src/SquidMath.h) are exact.
   Statements, closed by `exact` or by the few lines that assemble them; proofs live in MathProofs.v, the model in MathModel.v.

   Vocabulary (MathModel.v): ity = the ten standard integer types; in_range t v = v is a value
   of type t (tmin t <= v <= tmax t); res = Ok x | UB (signed overflow evaluated).
   Specification side (MathProofs.v), in unbounded integers:
     all_nonneg args = every argument value is >= 0
     zsum args       = the mathematical sum of the argument values
     exact_sum S args = if all_nonneg args && (zsum args <=? tmax S) then Some (zsum args) else None
     args_in_range args = every (type, value) argument has its value in the range of its type.
   All theorems quantify over ALL result/argument types among the ten (every combination,
   including mixed signedness and mixed width) and ALL in-range values. *)
Require Import SquidV.Bytes SquidV.MathModel SquidV.MathProofs.
Require Import SquidV.gen.IntTypes_gen.
Local Open Scope Z_scope.

(* --- the integer-type model is what the compiler and SquidMath.h say today --- *)
(* widths/signedness/limits, integral promotion decltype(+x), std::common_type<A,B>,
   decltype(A()+B()) and AllUnsigned<A,B> for all 10 types / 100 pairs, regenerated by
   gen/gen_inttypes.cc on every run *)
Theorem C52_type_model_matches_compiler :
  model_types = gen_types /\ model_promote = gen_promote /\ model_common = gen_common /\
  model_sum_type = gen_sum_type /\ model_all_unsigned = gen_all_unsigned.
Proof. exact type_model_matches_compiler. Qed.

(* --- Less(a, b) is the mathematical comparison --- *)
Theorem C52_less_is_mathematical_comparison : forall ta a tb b,
  in_range ta a -> in_range tb b -> Less ta a tb b = (a <? b).
Proof. exact less_spec. Qed.

(* --- safe sums: the exact sum when all arguments are non-negative and it fits, else nothing --- *)
(* IncreaseSum(S s, T t): the two-argument overload, s may be any S value *)
Theorem C52_increase_sum_pair_exact_or_nothing : forall S s T t,
  in_range S s -> in_range T t ->
  increase_sum2 S s T t =
  Ok (if (0 <=? s) && (0 <=? t) && (s + t <=? tmax S) then Some (s + t) else None).
Proof. exact increase_sum2_spec. Qed.

(* IncreaseSum(S sum, T t, Args... args): any number (>= 1) of addends of any types *)
Theorem C52_increase_sum_variadic_exact_or_nothing : forall S s x rest,
  in_range S s -> args_in_range (x :: rest) ->
  increase_sum S s (x :: rest) =
  Ok (if (0 <=? s) && all_nonneg (x :: rest) && (s + zsum (x :: rest) <=? tmax S)
      then Some (s + zsum (x :: rest)) else None).
Proof. exact increase_sum_nonempty_spec. Qed.

(* NaturalSum<S>(args...): any number of arguments of any types *)
Theorem C52_natural_sum_exact_or_nothing : forall S args,
  args_in_range args -> natural_sum S args = Ok (exact_sum S args).
Proof. exact natural_sum_spec. Qed.

Theorem C52_natural_sum_returns_v_iff_exact_sum_fits : forall S args v,
  args_in_range args ->
  (natural_sum S args = Ok (Some v) <->
   all_nonneg args = true /\ v = zsum args /\ zsum args <= tmax S).
Proof. exact natural_sum_some_iff. Qed.

Theorem C52_natural_sum_nothing_iff_negative_or_too_big : forall S args,
  args_in_range args ->
  (natural_sum S args = Ok None <-> all_nonneg args = false \/ tmax S < zsum args).
Proof. exact natural_sum_none_iff. Qed.

Theorem C52_natural_sum_result_is_an_S_value : forall S args v,
  args_in_range args -> natural_sum S args = Ok (Some v) -> in_range S v.
Proof. exact natural_sum_result_in_range. Qed.

(* no signed overflow (undefined behaviour) is ever evaluated inside, whatever the arguments *)
Theorem C52_no_signed_overflow_evaluated : forall S args,
  args_in_range args -> natural_sum S args <> UB.
Proof. exact natural_sum_no_ub. Qed.

(* --- the clamping variant stores (and returns) the exact sum or the type's maximum --- *)
Theorem C52_set_to_natural_sum_or_max_exact_or_max : forall S args,
  args_in_range args ->
  set_to_natural_sum_or_max S args =
  Ok (if all_nonneg args && (zsum args <=? tmax S) then zsum args else tmax S).
Proof. exact set_to_natural_sum_or_max_spec. Qed.

(* --- NaturalCast<R>(s): the same value, or bad_optional_access (None) when it cannot be kept --- *)
Theorem C52_natural_cast_lossless_or_throws : forall R Src s,
  in_range Src s ->
  natural_cast R Src s = Ok (if (0 <=? s) && (s <=? tmax R) then Some s else None).
Proof. exact natural_cast_spec. Qed.

(* --- the two IncreaseSumInternal overloads, under the preconditions IncreaseSum establishes --- *)
Theorem C52_internal_signed_overload_exact : forall S A a B b,
  in_range A a -> in_range B b -> a <= tmax S -> tmax S <= tmax A ->
  isi_signed S A a B b =
  Ok (if (0 <=? a) && (0 <=? b) && (a + b <=? tmax S) then Some (a + b) else None).
Proof. exact isi_signed_spec. Qed.

Theorem C52_internal_unsigned_overload_exact : forall S A a B b,
  is_signed A = false -> is_signed B = false -> promote A = A -> promote B = B ->
  in_range A a -> in_range B b -> tmax S <= tmax A ->
  isi_unsigned S A a B b = Ok (if a + b <=? tmax S then Some (a + b) else None).
Proof. exact isi_unsigned_spec. Qed.

(* non-vacuity: the hypotheses hold for concrete non-trivial values, and concrete evaluations *)
Example C52_in_range_example : in_range SChar (-128) /\ in_range ULLong 18446744073709551615.
Proof. unfold in_range. vm_compute. intuition discriminate. Qed.
Example C52_args_in_range_example : args_in_range [(SChar, 100); (ULong, 27); (Short, -5)].
Proof. repeat constructor; vm_compute; discriminate. Qed.
Example C52_less_example : Less UInt 4294967295 Int (-1) = false /\ Less Int (-1) ULLong 0 = true.
Proof. vm_compute. split; reflexivity. Qed.
Example C52_sum_example :
  natural_sum SChar [(Int, 100); (ULong, 27)] = Ok (Some 127) /\
  natural_sum SChar [(Int, 100); (ULong, 28)] = Ok None /\
  natural_sum ULLong [(SChar, 1); (UShort, 2); (ULLong, 18446744073709551612)] = Ok (Some 18446744073709551615) /\
  natural_sum ULLong [(LLong, -1); (ULong, 5)] = Ok None.
Proof. vm_compute. repeat split; reflexivity. Qed.
Example C52_setmax_example :
  set_to_natural_sum_or_max UChar [(SChar, 100); (UShort, 156)] = Ok 255 /\
  set_to_natural_sum_or_max UShort [(SChar, 100); (SChar, 100)] = Ok 200.
Proof. vm_compute. split; reflexivity. Qed.
Example C52_internal_preconditions_example :
  (* IncreaseSum<unsigned>(unsigned, unsigned long) reaches the unsigned overload with these *)
  is_signed UInt = false /\ promote UInt = UInt /\ promote ULong = ULong /\ tmax UInt <= tmax UInt.
Proof. vm_compute. repeat split; try reflexivity; discriminate. Qed.
Example C52_internal_unsigned_precondition_matters :
  (* called directly with a result type wider than both operands the overload reports nothing
     although the sum fits S: `tmax S <= tmax A` (A = promoted S) is what IncreaseSum guarantees *)
  isi_unsigned ULLong UInt 4294967295 UInt 1 = Ok None.
Proof. vm_compute. reflexivity. Qed.

Print Assumptions C52_type_model_matches_compiler.
Print Assumptions C52_less_is_mathematical_comparison.
Print Assumptions C52_increase_sum_pair_exact_or_nothing.
Print Assumptions C52_increase_sum_variadic_exact_or_nothing.
Print Assumptions C52_natural_sum_exact_or_nothing.
Print Assumptions C52_natural_sum_returns_v_iff_exact_sum_fits.
Print Assumptions C52_natural_sum_nothing_iff_negative_or_too_big.
Print Assumptions C52_natural_sum_result_is_an_S_value.
Print Assumptions C52_no_signed_overflow_evaluated.
Print Assumptions C52_set_to_natural_sum_or_max_exact_or_max.
Print Assumptions C52_natural_cast_lossless_or_throws.
Print Assumptions C52_internal_signed_overload_exact.
Print Assumptions C52_internal_unsigned_overload_exact.
