(* Int64Proofs.v — the machine loop of Parser::Tokenizer::int64 (cutoff/cutlim test,
   accumulation in uint64_t) computes the arbitrary-precision value of the maximal digit
   run, never wraps, and fails exactly when that value does not fit. *)
Require Import SquidV.Bytes SquidV.TokModel.
Require Import ZifyBool.
Local Open Scope Z_scope.

Lemma digits_value_cons base d ds acc :
  digits_value base (d :: ds) acc = digits_value base ds (acc * base + d).
Proof. reflexivity. Qed.

Lemma digits_value_mono base ds acc :
  1 <= base -> 0 <= acc -> Forall (fun d => 0 <= d) ds -> acc <= digits_value base ds acc.
Proof.
  intros Hb. revert acc. induction ds as [|d ds IH]; intros acc Ha Hd; [cbn; lia|].
  rewrite digits_value_cons. inversion Hd as [|? ? Hd0 Hds]; subst.
  assert (acc <= acc * base + d) by nia.
  specialize (IH (acc * base + d) ltac:(lia) Hds). lia.
Qed.

Lemma digit_of_range base c d : digit_of base c = Some d -> 0 <= d < base.
Proof.
  unfold digit_of, digit_raw, is_digit, is_upper, is_lower.
  destruct ((48 <=? c)%N && (c <=? 57)%N) eqn:E1.
  { destruct (Z.of_N c - 48 >=? base) eqn:E; intros H; inversion H; subst; lia. }
  destruct ((65 <=? c)%N && (c <=? 90)%N) eqn:E2.
  { destruct (Z.of_N c - 55 >=? base) eqn:E; intros H; inversion H; subst; lia. }
  destruct ((97 <=? c)%N && (c <=? 122)%N) eqn:E3.
  { destruct (Z.of_N c - 87 >=? base) eqn:E; intros H; inversion H; subst; lia. }
  discriminate.
Qed.

Lemma digit_run_nonneg base l : Forall (fun d => 0 <= d) (digit_run base l).
Proof.
  induction l as [|c r IH]; cbn [digit_run]; [constructor|].
  destruct (digit_of base c) eqn:E; [|constructor].
  constructor; [apply digit_of_range in E; lia | exact IH].
Qed.

(* base 10: the digit run is the image of the maximal is_digit prefix, and its value a fold over the bytes *)
Lemma digit_of_10 c : digit_of 10 c = if is_digit c then Some (Z.of_N c - 48) else None.
Proof.
  unfold digit_of, digit_raw. destruct (is_digit c) eqn:Ed.
  - unfold is_digit in Ed. replace (Z.of_N c - 48 >=? 10) with false by lia. reflexivity.
  - destruct (is_upper c) eqn:Eu; [unfold is_upper in Eu; replace (Z.of_N c - 55 >=? 10) with true by lia; reflexivity|].
    destruct (is_lower c) eqn:El; [unfold is_lower in El; replace (Z.of_N c - 87 >=? 10) with true by lia|]; reflexivity.
Qed.

Definition dval (c : N) : Z := Z.of_N c - 48.

Lemma digit_run_span l : digit_run 10 l = map dval (fst (span is_digit l)).
Proof.
  induction l as [|c r IH]; cbn [digit_run span]; [reflexivity|].
  rewrite digit_of_10. destruct (is_digit c); [|reflexivity].
  destruct (span is_digit r) as [a b]. cbn [fst map] in *. now rewrite IH.
Qed.

Lemma digits_value_map ds acc :
  digits_value 10 (map dval ds) acc = fold_left (fun a c => a * 10 + (Z.of_N c - 48)) ds acc.
Proof. unfold digits_value. revert acc. induction ds as [|c ds IH]; intros acc; [reflexivity | apply IH]. Qed.

Lemma dec_value_nonneg_acc ds : forall a, 0 <= a -> forallb is_digit ds = true ->
  0 <= fold_left (fun a c => a * 10 + (Z.of_N c - 48)) ds a.
Proof.
  induction ds as [|c ds IH]; intros a Ha Hd; cbn [fold_left]; [exact Ha|].
  cbn [forallb] in Hd. apply andb_prop in Hd as [Hc Hd]. apply IH; [|exact Hd].
  unfold is_digit in Hc. lia.
Qed.

(* the sign dispatch of strtoll, written on byte literals in the models, as boolean tests *)
Lemma sign_split (l1 : bytes) (n1 : N) :
  (match l1 with
   | 45%N :: r => (true, r, N.succ n1)
   | 43%N :: r => (false, r, N.succ n1)
   | _ => (false, l1, n1)
   end) =
  match l1 with
  | c :: r => if (c =? 45)%N then (true, r, N.succ n1)
              else if (c =? 43)%N then (false, r, N.succ n1) else (false, l1, n1)
  | [] => (false, l1, n1)
  end.
Proof.
  destruct l1 as [|[|p] r]; try reflexivity. repeat (destruct p as [p|p|]; try reflexivity).
Qed.

(* the cutoff/cutlim test is exactly "the next value would exceed cutfull" *)
Lemma cutoff_test base cutfull acc d :
  2 <= base -> 0 <= acc -> 0 <= d < base -> 0 <= cutfull ->
  ((acc >? cutfull / base) || ((acc =? cutfull / base) && (d >? cutfull mod base))) = (acc * base + d >? cutfull).
Proof.
  intros Hb Ha Hd Hc.
  pose proof (Z.div_mod cutfull base ltac:(lia)) as Hdm.
  pose proof (Z.mod_pos_bound cutfull base ltac:(lia)) as Hm.
  set (q := cutfull / base) in *. set (r := cutfull mod base) in *.
  destruct (acc >? q) eqn:E1; destruct (acc =? q) eqn:E2; destruct (d >? r) eqn:E3;
    destruct (acc * base + d >? cutfull) eqn:E4; cbn; try reflexivity; exfalso; nia.
Qed.

Section Loop.
  Variables (base cutfull : Z).
  Hypothesis Hbase : 2 <= base.
  Hypothesis Hcut0 : 0 <= cutfull.
  Hypothesis Hcut64 : cutfull < two64.

  Let cutoff := cutfull / base.
  Let cutlim := cutfull mod base.

  (* state st faithfully represents the exact value V of the digits eaten so far *)
  Definition rep (st : i64st) (V : Z) : Prop :=
    0 <= V /\
    ((0 <= st_any st /\ st_acc st = V /\ V <= cutfull) \/ (st_any st = -1 /\ V > cutfull)).

  Lemma loop_exact l : forall st V, rep st V ->
    let st' := int64_loop base cutoff cutlim l st in
    let ds := digit_run base l in
    rep st' (digits_value base ds V) /\
    st_n st' = (st_n st + lenN ds)%N /\
    (ds = [] -> st' = st) /\
    (ds <> [] -> st_any st' <> 0).
  Proof.
    induction l as [|c r IH]; intros st V Hrep; cbn [int64_loop digit_run].
    { cbn. repeat split; try tauto; try lia; destruct Hrep; tauto. }
    destruct (digit_of base c) as [d|] eqn:Ed.
    2:{ cbn. repeat split; try tauto; try lia; destruct Hrep; tauto. }
    pose proof (digit_of_range _ _ _ Ed) as Hd.
    destruct Hrep as [HV Hrep].
    set (st1 := if (st_any st <? 0) || (st_acc st >? cutoff) || ((st_acc st =? cutoff) && (d >? cutlim))
                then {| st_any := -1; st_acc := st_acc st; st_n := N.succ (st_n st) |}
                else {| st_any := 1; st_acc := (st_acc st * base + d) mod two64; st_n := N.succ (st_n st) |}).
    assert (Hrep1 : rep st1 (V * base + d) /\ st_n st1 = N.succ (st_n st) /\ st_any st1 <> 0).
    { unfold st1, rep. destruct Hrep as [(Hany & Hacc & Hle) | (Hany & Hgt)].
      - replace (st_any st <? 0) with false by lia. cbn [orb].
        subst cutoff cutlim. rewrite cutoff_test by lia. rewrite Hacc.
        assert (0 <= V * base + d) by nia.
        destruct (V * base + d >? cutfull) eqn:E; cbn [st_any st_acc st_n].
        + split; [|split; [reflexivity|lia]]. split; [lia|]. right. split; [reflexivity|lia].
        + split; [|split; [reflexivity|lia]]. split; [lia|]. left. split; [lia|]. split; [|lia].
          apply Z.mod_small. lia.
      - replace (st_any st <? 0) with true by lia. cbn [orb st_any st_acc st_n].
        assert (V <= V * base + d) by nia.
        split; [|split; [reflexivity|lia]]. split; [lia|]. right. split; [reflexivity|lia]. }
    destruct Hrep1 as (Hr1 & Hn1 & Ha1).
    specialize (IH st1 (V * base + d) Hr1). cbn zeta in IH.
    destruct IH as (IHrep & IHn & IHnil & IHne).
    rewrite digits_value_cons. cbn [lenN].
    split; [exact IHrep|]. split; [rewrite IHn, Hn1; lia|]. split; [discriminate|].
    intros _. destruct (digit_run base r) eqn:Edr.
    + rewrite (IHnil eq_refl). exact Ha1.
    + apply IHne. discriminate.
  Qed.
End Loop.

(* Tokenizer::int64 after sign/prefix handling = arbitrary-precision reference *)
Theorem int64_core_exact base neg r2 n2 :
  2 <= base -> int64_core base neg r2 n2 = ref_core base neg r2 n2.
Proof.
  intros Hb. unfold int64_core, ref_core.
  destruct r2 as [|c r]; [reflexivity|].
  set (cutfull := if neg then two63 else two63 - 1).
  assert (Hc0 : 0 <= cutfull) by (unfold cutfull, two63; destruct neg; lia).
  assert (Hc64 : cutfull < two64) by (unfold cutfull, two63, two64; destruct neg; lia).
  pose proof (loop_exact base cutfull Hb Hc0 Hc64 (c :: r) {| st_any := 0; st_acc := 0; st_n := n2 |} 0) as H.
  cbn zeta in H. specialize (H ltac:(unfold rep; cbn; lia)).
  destruct H as (Hrep & Hn & Hnil & Hne).
  set (st' := int64_loop base (cutfull / base) (cutfull mod base) (c :: r) _) in *.
  set (ds := digit_run base (c :: r)) in *.
  destruct ds as [|d ds'] eqn:Eds.
  { rewrite (Hnil eq_refl). reflexivity. }
  specialize (Hne ltac:(discriminate)).
  destruct Hrep as (HV & [(Hany & Hacc & Hle) | (Hany & Hgt)]).
  - replace (st_any st' =? 0) with false by lia. replace (st_any st' <? 0) with false by lia.
    replace (digits_value base (d :: ds') 0 >? cutfull) with false by lia.
    rewrite Hacc, Hn. reflexivity.
  - replace (st_any st' =? 0) with false by lia. replace (st_any st' <? 0) with true by lia.
    replace (digits_value base (d :: ds') 0 >? cutfull) with true by lia. reflexivity.
Qed.

Definition base_ok (base0 : Z) : Prop := base0 = 0 \/ 2 <= base0 <= 36.

Theorem tok_int64_exact base0 allowSign limit buf :
  base_ok base0 -> tok_int64 base0 allowSign limit buf = ref_int64 base0 allowSign limit buf.
Proof.
  intros Hb. unfold tok_int64, ref_int64, int64_front.
  destruct buf as [|b0 buf']; [reflexivity|].
  destruct (limit =? 0)%N; [reflexivity|].
  destruct (if allowSign then _ else _) as [[[neg r1] n1] stop1].
  destruct stop1; [reflexivity|].
  destruct (match r1 with z :: x :: r => _ | _ => _ end) as [[base1 r2] n2] eqn:E.
  assert (Hb1 : base1 = base0 \/ base1 = 16).
  { destruct r1 as [|a [|x r]]; try (inversion E; subst; tauto).
    destruct ((a =? 48)%N && ((base0 =? 0) || (base0 =? 16)) && tolower_is_x x); inversion E; subst; tauto. }
  apply int64_core_exact.
  destruct (base1 =? 0) eqn:E0.
  - destruct r2 as [|z ?]; [lia|]. destruct (z =? 48)%N; lia.
  - unfold base_ok in Hb. lia.
Qed.

(* what the reference delivers: the value of exactly the consumed digits, in range *)
Theorem ref_core_sound base neg r2 n2 v n :
  2 <= base -> ref_core base neg r2 n2 = Some (v, n) ->
  let ds := digit_run base r2 in
  ds <> [] /\ n = (n2 + lenN ds)%N /\
  v = (if neg then - digits_value base ds 0 else digits_value base ds 0) /\
  - two63 <= v < two63.
Proof.
  intros Hb. unfold ref_core. cbn zeta.
  pose proof (digit_run_nonneg base r2) as Hnn.
  destruct (digit_run base r2) as [|d ds] eqn:E; [discriminate|].
  pose proof (digits_value_mono base (d :: ds) 0 ltac:(lia) ltac:(lia) Hnn) as Hm.
  set (V := digits_value base (d :: ds) 0) in *. clearbody V.
  destruct (V >? (if neg then two63 else two63 - 1)) eqn:Ec; [discriminate|].
  intros H; injection H as Hv Hn; subst v n. split; [discriminate|]. split; [reflexivity|]. split; [reflexivity|].
  unfold two63 in *. destruct neg; lia.
Qed.

Theorem ref_core_none base neg r2 n2 :
  ref_core base neg r2 n2 = None ->
  digit_run base r2 = [] \/ digits_value base (digit_run base r2) 0 > (if neg then two63 else two63 - 1).
Proof.
  unfold ref_core. destruct (digit_run base r2) as [|d ds]; [tauto|].
  destruct (_ >? _) eqn:E; [intros _; right; lia|discriminate].
Qed.


Theorem int64_core_sound base neg r2 n2 v n :
  2 <= base -> int64_core base neg r2 n2 = Some (v, n) ->
  let ds := digit_run base r2 in
  ds <> [] /\ n = (n2 + lenN ds)%N /\
  v = (if neg then - digits_value base ds 0 else digits_value base ds 0) /\
  - two63 <= v < two63.
Proof. intros Hb. rewrite int64_core_exact by exact Hb. apply ref_core_sound. exact Hb. Qed.

Theorem int64_core_none base neg r2 n2 :
  2 <= base -> int64_core base neg r2 n2 = None ->
  digit_run base r2 = [] \/ digits_value base (digit_run base r2) 0 > (if neg then two63 else two63 - 1).
Proof. intros Hb. rewrite int64_core_exact by exact Hb. apply ref_core_none. Qed.

(* the common case used by the HTTP parsers: base 10, no sign *)
Theorem tok_int64_dec_unsigned limit buf :
  tok_int64 10 false limit buf =
  match digit_run 10 (takeN limit buf) with
  | [] => None
  | ds => let v := digits_value 10 ds 0 in
          if v >? two63 - 1 then None else Some (v, lenN ds)
  end.
Proof.
  rewrite tok_int64_exact by (right; lia).
  unfold ref_int64, int64_front.
  destruct buf as [|b0 buf']; [reflexivity|].
  destruct (limit =? 0)%N eqn:El.
  { apply N.eqb_eq in El. subst limit. reflexivity. }
  set (range := takeN limit (b0 :: buf')).
  cbn beta iota.
  assert (Hfront : forall r1 : bytes,
    (let '(base1, r2, n2) :=
       match r1 with
       | z :: x :: r => if (z =? 48)%N && ((10 =? 0) || (10 =? 16)) && tolower_is_x x
                        then (16, r, (0 + 2)%N) else (10, r1, 0%N)
       | _ => (10, r1, 0%N)
       end in
     ref_core (if base1 =? 0 then match r2 with z :: _ => if (z =? 48)%N then 8 else 10 | [] => 10 end else base1)
              false r2 n2) = ref_core 10 false r1 0%N).
  { intros r1. destruct r1 as [|z [|x r]]; try reflexivity.
    replace ((z =? 48)%N && ((10 =? 0) || (10 =? 16)) && tolower_is_x x) with false; [reflexivity|].
    cbn. now rewrite andb_false_r. }
  rewrite Hfront. unfold ref_core.
  destruct (digit_run 10 range) as [|d ds]; [reflexivity|].
  cbn zeta. destruct (_ >? _); [reflexivity|]. now rewrite N.add_0_l.
Qed.

(* httpHeaderParseOffset / httpHeaderParseInt (strtoll/strtol semantics) *)
Theorem parse_offset_sound s v n :
  parse_offset s = Some (v, n) -> - two63 <= v < two63 /\ (0 < n)%N.
Proof.
  unfold parse_offset, strtoll10.
  destruct (skip_space (c_string s) 0%N) as [l1 n1].
  destruct (match l1 with 45%N :: r => _ | 43%N :: r => _ | _ => _ end) as [[neg l2] n2].
  pose proof (digit_run_nonneg 10 l2) as Hnn.
  destruct (digit_run 10 l2) as [|d ds] eqn:E; [discriminate|].
  pose proof (digits_value_mono 10 (d :: ds) 0 ltac:(lia) ltac:(lia) Hnn) as Hm.
  set (V := digits_value 10 (d :: ds) 0) in *. clearbody V.
  destruct neg.
  - destruct (V >? two63) eqn:Ec; [discriminate|].
    destruct ((n2 + lenN (d :: ds)) =? 0)%N eqn:En; [discriminate|].
    intros H; injection H as Hv Hn; subst. unfold two63 in *. lia.
  - destruct (V >? two63 - 1) eqn:Ec; [discriminate|].
    destruct ((n2 + lenN (d :: ds)) =? 0)%N eqn:En; [discriminate|].
    intros H; injection H as Hv Hn; subst. unfold two63 in *. lia.
Qed.

Theorem parse_int_in_int_range s v : parse_int s = Some v -> - two31 <= v < two31.
Proof.
  unfold parse_int. destruct (strtoll10 s) as [[v0 n0] er].
  destruct (er || (v0 <? - two31) || (v0 >? two31 - 1)) eqn:E; [discriminate|].
  destruct ((v0 =? 0) && _); [discriminate|].
  intros H; injection H as Hv; subst. unfold two31 in *. lia.
Qed.
