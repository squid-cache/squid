(* MgrProofs.v — proofs about MgrModel (C61). *)
Require Import SquidV.Bytes SquidV.TokModel SquidV.TokProofs SquidV.Int64Proofs SquidV.B64Model SquidV.MgrModel.
Require Import SquidV.gen.Mgr_gen.
Require Import ZifyBool ZifyN ZifyNat.
Local Open Scope N_scope.

Lemma leqb_false (a b : bytes) : list_eqb a b = false -> a <> b.
Proof. intros H E. subst b. rewrite list_eqb_refl in H. discriminate. Qed.

Lemma span_eq (p : N -> bool) (l a r : bytes) :
  span p l = (a, r) ->
  l = a ++ r /\ forallb p a = true /\ match r with [] => True | y :: _ => p y = false end.
Proof.
  intros H. pose proof (span_app p l) as H1. pose proof (span_all p l) as H2. pose proof (span_stop p l) as H3.
  rewrite H in H1, H2, H3. cbn [fst snd] in *. auto.
Qed.

Definition nonul (c : N) : bool := negb (c =? 0).
Definition nopct (c : N) : bool := negb (c =? 37).

Lemma cstr_app (a b : bytes) : forallb nonul a = true -> cstr (a ++ b) = a ++ cstr b.
Proof.
  intros Ha. unfold cstr. induction a as [|x a IH]; cbn [app]; [reflexivity|].
  cbn [forallb] in Ha. apply andb_true_iff in Ha. destruct Ha as [Hx Ha]. unfold nonul in Hx.
  cbn [span]. rewrite Hx. specialize (IH Ha).
  destruct (span (fun c => negb (c =? 0)) (a ++ b)) as [u v] eqn:E. cbn [fst] in *. now rewrite IH.
Qed.

Lemma uri_encode_app ok a b : uri_encode ok (a ++ b) = uri_encode ok a ++ uri_encode ok b.
Proof. unfold uri_encode. apply flat_map_app. Qed.

Lemma uri_encode_id ok a : forallb ok a = true -> uri_encode ok a = a.
Proof.
  induction a as [|x a IH]; intros H; [reflexivity|].
  cbn [forallb] in H. apply andb_true_iff in H. destruct H as [Hx Ha].
  unfold uri_encode in *. cbn [flat_map]. rewrite Hx, (IH Ha). reflexivity.
Qed.

Lemma uri_decode_app (a b : bytes) :
  forallb nopct a = true -> uri_decode (a ++ b) = option_map (app a) (uri_decode b).
Proof.
  intros Ha. induction a as [|x a IH]; cbn [app].
  - destruct (uri_decode b); reflexivity.
  - cbn [forallb] in Ha. apply andb_true_iff in Ha. destruct Ha as [Hx Ha]. unfold nopct in Hx.
    cbn [uri_decode]. apply negb_true_iff in Hx. rewrite Hx, (IH Ha).
    destruct (uri_decode b); reflexivity.
Qed.

(* whatever DecodeOrDupe does to the tail, a '%'-free head survives it *)
Lemma decode_or_dupe_head (a b : bytes) :
  forallb nopct a = true -> exists t, decode_or_dupe (a ++ b) = a ++ t.
Proof.
  intros Ha. unfold decode_or_dupe. rewrite (uri_decode_app a b Ha).
  destruct (uri_decode b) as [d|]; cbn [option_map]; eauto.
Qed.

Definition nocolon (c : N) : bool := negb (c =? 58).
Definition noslash (c : N) : bool := negb (c =? 47).

(* what `^[^:]+://[^/]+<lit>` (REG_EXTENDED, no REG_ICASE) means on a C string *)
Definition mgr_regex_spec (s : bytes) : Prop :=
  exists a b rest,
    cstr s = a ++ [58;47;47] ++ b ++ mgr_regex_lit ++ rest
    /\ a <> [] /\ forallb nocolon a = true
    /\ b <> [] /\ forallb noslash b = true.

Lemma lit_is_prefix : mgr_regex_lit = mgr_prefix.
Proof. vm_compute. reflexivity. Qed.

Lemma regex_match_iff s : mgr_regex_match s = true <-> mgr_regex_spec s.
Proof.
  unfold mgr_regex_match, mgr_regex_spec. split.
  - destruct (span (fun c => negb (c =? 58)) (cstr s)) as [a r1] eqn:E1.
    destruct a as [|a0 a']; [discriminate|].
    destruct (starts_with r1 [58;47;47]) eqn:E2; [|discriminate].
    destruct (span (fun c => negb (c =? 47)) (dropN 3 r1)) as [b r3] eqn:E3.
    destruct b as [|b0 b']; [discriminate|]. intros H.
    apply span_eq in E1. destruct E1 as (Hs & Ha & _).
    apply starts_with_split in E2. apply span_eq in E3 as (Hr2 & Hb & _). apply starts_with_split in H.
    exists (a0 :: a'), (b0 :: b'), (dropN (lenN mgr_regex_lit) r3).
    repeat split; try exact Ha; try exact Hb; try discriminate.
    now rewrite Hs, E2, Hr2, H at 1.
  - intros (a & b & rest & Hs & Hane & Ha & Hbne & Hb). rewrite Hs.
    rewrite (span_app_stop (fun c => negb (c =? 58)) a ([58;47;47] ++ b ++ mgr_regex_lit ++ rest) Ha) by reflexivity.
    destruct a as [|a0 a']; [congruence|].
    rewrite (starts_with_app [58;47;47] (b ++ mgr_regex_lit ++ rest)).
    rewrite (dropN_app_exact [58;47;47] (b ++ mgr_regex_lit ++ rest) : dropN 3 _ = _).
    (* the literal starts with a slash *)
    rewrite (span_app_stop (fun c => negb (c =? 47)) b (mgr_regex_lit ++ rest) Hb) by (vm_compute; reflexivity).
    destruct b as [|b0 b']; [congruence|]. apply starts_with_app.
Qed.

(* every request the cache manager would handle matches `manager` (no user-info in the effective URI) *)
Definition hostchar (c : N) : bool := negb (c =? 47) && negb (c =? 37) && negb (c =? 0).
Definition digitc (c : N) : bool := (48 <=? c) && (c <=? 57).
(* visible_hostname is a non-empty string without '/', '%' and NUL *)
Definition host_ok (h : bytes) : Prop := h <> [] /\ forallb hostchar h = true.

Lemma hostchar_lower c : hostchar (xtolower c) = hostchar c.
Proof.
  unfold hostchar, xtolower. destruct ((65 <=? c) && (c <=? 90)) eqn:E; [|reflexivity]. lia.
Qed.

Lemma forallb_hostchar_lower a : forallb hostchar (lower a) = forallb hostchar a.
Proof.
  unfold lower. induction a as [|x a IH]; cbn [map forallb]; [reflexivity|]. now rewrite hostchar_lower, IH.
Qed.

Lemma dec_aux_digits f : forall n acc, forallb digitc acc = true -> forallb digitc (dec_aux f n acc) = true.
Proof.
  induction f as [|f IH]; intros n acc Hacc; cbn [dec_aux]; [exact Hacc|].
  assert (Hd : digitc (48 + n mod 10) = true) by (pose proof (N.mod_lt n 10); unfold digitc; lia).
  destruct (n / 10 =? 0); [cbn [forallb]; now rewrite Hd, Hacc|].
  apply IH. cbn [forallb]. now rewrite Hd, Hacc.
Qed.

Lemma dec_hostchars n : forallb hostchar (dec n) = true.
Proof.
  apply (forallb_impl digitc hostchar); [|apply dec_aux_digits; reflexivity].
  intros x Hx. unfold digitc in Hx. unfold hostchar. lia.
Qed.

Lemma authority_hostchars s h port :
  forallb hostchar h = true -> forallb hostchar (authority s h port) = true.
Proof.
  intros Hh. unfold authority. rewrite forallb_app, Hh. cbn [andb].
  destruct (default_port s) as [d|]; [destruct (port =? d); [reflexivity|]|];
    cbn [forallb]; now rewrite dec_hostchars.
Qed.

Lemma internal_host_ok e q :
  is_internal e q = true -> host_ok (e_myhost e) ->
  norm_host (q_host q) <> [] /\ forallb hostchar (norm_host (q_host q)) = true.
Proof.
  unfold is_internal, bytes_eqb_ci, host_ok. intros H [Hne Hch].
  apply andb_true_iff in H. destruct H as [_ H]. apply list_eqb_eq in H.
  split.
  - intros E. rewrite E in H. cbn in H. symmetry in H. unfold lower in H. apply map_eq_nil in H. contradiction.
  - rewrite <- forallb_hostchar_lower, H, forallb_hostchar_lower. exact Hch.
Qed.

Lemma scheme_image_facts s : s <> SOther ->
  scheme_image s <> [] /\ forallb nocolon (scheme_image s) = true
  /\ forallb nopct (scheme_image s) = true /\ forallb nonul (scheme_image s) = true.
Proof. destruct s; intros H; try congruence; repeat split; try discriminate; reflexivity. Qed.

Lemma prefix_facts : forallb nopct mgr_prefix = true /\ forallb nonul mgr_prefix = true.
Proof. split; vm_compute; reflexivity. Qed.

Lemma internal_http_like e q : is_internal e q = true -> http_like (q_scheme q) = true.
Proof.
  unfold is_internal. intros H. apply andb_true_iff in H. destruct H as [H _].
  apply andb_true_iff in H. destruct H as [H _]. apply andb_true_iff in H. destruct H as [_ H]. exact H.
Qed.

Lemma http_like_facts s : http_like s = true -> s <> SOther /\ allow_userinfo s = false.
Proof. destruct s; intros H; try discriminate H; split; try discriminate; reflexivity. Qed.

Lemma hostchars_spec B : forallb hostchar B = true ->
  forallb noslash B = true /\ forallb nopct B = true /\ forallb nonul B = true.
Proof.
  intros H. repeat split; revert H; apply forallb_impl; intros c;
    unfold hostchar, noslash, nopct, nonul; rewrite !andb_true_iff; tauto.
Qed.

(* the text  scheme "://" authority <manager prefix> ...  still matches after DecodeOrDupe when scheme and authority
   hold no '%' and no NUL: decoding leaves that front alone, and the C string does not end inside it *)
Lemma manager_uri_matches (sch B tail : bytes) :
  sch <> [] -> forallb nocolon sch = true -> forallb nopct sch = true -> forallb nonul sch = true ->
  B <> [] -> forallb hostchar B = true ->
  mgr_regex_match (decode_or_dupe (sch ++ [58;47;47] ++ B ++ mgr_prefix ++ tail)) = true.
Proof.
  intros Hsne Hsc Hsp Hsn HBne HB. destruct prefix_facts as [Hpp Hpn]. destruct (hostchars_spec B HB) as (HBs & HBp & HBn).
  set (X := sch ++ [58;47;47] ++ B ++ mgr_prefix).
  assert (HXp : forallb nopct X = true) by (unfold X; rewrite !forallb_app, Hsp, Hpp, HBp; reflexivity).
  assert (HXn : forallb nonul X = true) by (unfold X; rewrite !forallb_app, Hsn, Hpn, HBn; reflexivity).
  replace (sch ++ [58;47;47] ++ B ++ mgr_prefix ++ tail) with (X ++ tail) by (unfold X; now rewrite <- !app_assoc).
  destruct (decode_or_dupe_head X tail HXp) as [t ->].
  apply regex_match_iff. exists sch, B, (cstr t). rewrite (cstr_app X t HXn), lit_is_prefix. unfold X.
  repeat split; try assumption. now rewrite <- !app_assoc.
Qed.

Lemma acl_covers e q :
  host_ok (e_myhost e) -> is_internal e q = true -> for_cache_manager q = true ->
  acl_manager q = true.
Proof.
  intros Hho Hint Hfcm.
  destruct (http_like_facts _ (internal_http_like e q Hint)) as [Hs Hau].
  destruct (internal_host_ok e q Hint Hho) as [Hne Hhc].
  destruct (scheme_image_facts _ Hs) as (Hine & Hic & Hip & Hin).
  apply starts_with_split in Hfcm.
  unfold acl_manager, effective_uri, userinfo_part. rewrite Hau, Hfcm. cbn [app].
  apply manager_uri_matches; try assumption.
  - unfold authority. destruct (norm_host (q_host q)); [congruence|discriminate].
  - apply authority_hostchars, Hhc.
Qed.

(* any answer produced by the cache manager itself *)
Definition mgr_answer (r : result) : bool :=
  match r with RAuthReq _ | RIndex | RReport _ | RNotFound | RFuel => true | _ => false end.

(* such an answer passed the four guards, and is what the URL's action and the password check make it *)
Lemma handle_answer e menu pl rules q :
  mgr_answer (handle e menu pl rules q) = true ->
  access_allowed (acl_manager q) (e_local e) rules = true /\ is_internal e q = true /\ for_cache_manager q = true /\
  handle e menu pl rules q =
  match parse_url menu pl (q_path q) with
  | UThrow => RNotFound
  | UFuel => RFuel
  | UAction a => if check_password pl a (supplied_password (q_auth q)) then RAuthReq (a_name a)
                 else if list_eqb (a_name a) kw_index then RIndex else RReport (a_name a)
  end.
Proof.
  unfold handle. destruct (url_check_request _ _); cbn [negb]; [|discriminate].
  destruct (access_allowed _ _ _); cbn [negb]; [|discriminate].
  destruct (is_internal e q); cbn [negb]; [|discriminate]. destruct (for_cache_manager q); cbn [negb]; [|discriminate].
  intros _. repeat split; reflexivity.
Qed.

Lemma answer_requires_access e menu pl rules q :
  mgr_answer (handle e menu pl rules q) = true ->
  access_allowed (acl_manager q) (e_local e) rules = true.
Proof. intros H. apply (handle_answer _ _ _ _ _ H). Qed.

(* `http_access deny manager` as the first rule: no cache-manager answer of any kind *)
Lemma deny_manager_blocks e menu pl rest q :
  host_ok (e_myhost e) ->
  mgr_answer (handle e menu pl (mkRule false [AMgr] :: rest) q) = false.
Proof.
  intros Hho. destruct (mgr_answer (handle e menu pl (mkRule false [AMgr] :: rest) q)) eqn:E; [|reflexivity].
  apply handle_answer in E as (Hacc & Ei & Ef & _).
  unfold access_allowed in Hacc. cbn [eval_rules r_atoms r_allow forallb atom_holds] in Hacc.
  rewrite (acl_covers e q Hho Ei Ef) in Hacc. discriminate Hacc.
Qed.

(* cachemgr_passwd: the first covering line decides *)
Definition covers_spec (e : pwent) (n : bytes) : Prop := In n (pe_actions e) \/ In kw_all (pe_actions e).
Definition uncovered (pl : list pwent) (n : bytes) : Prop := Forall (fun e => ~ covers_spec e n) pl.
Definition first_covering (pl : list pwent) (n : bytes) (e : pwent) : Prop :=
  exists pre post, pl = pre ++ e :: post /\ uncovered pre n /\ covers_spec e n.

Lemma covers_iff e n : covers e n = true <-> covers_spec e n.
Proof.
  unfold covers, covers_spec. rewrite existsb_exists. split.
  - intros (w & Hin & Hw). apply orb_true_iff in Hw. destruct Hw as [Hw|Hw]; apply list_eqb_eq in Hw; subst; auto.
  - intros [H|H]; [exists n|exists kw_all]; (split; [exact H|]); rewrite list_eqb_refl; [reflexivity|apply orb_true_r].
Qed.

Lemma passwd_get_first pl n e : first_covering pl n e -> passwd_get pl n = Some (pe_passwd e).
Proof.
  intros (pre & post & Hpl & Hpre & Hc). subst pl. induction Hpre as [|x pre Hx Hpre IH]; cbn [app passwd_get].
  - apply covers_iff in Hc. now rewrite Hc.
  - destruct (covers x n) eqn:E; [apply covers_iff in E; contradiction|exact IH].
Qed.

Lemma passwd_get_uncovered pl n : uncovered pl n -> passwd_get pl n = None.
Proof.
  intros H. induction H as [|x pl Hx Hpl IH]; cbn [passwd_get]; [reflexivity|].
  destruct (covers x n) eqn:E; [apply covers_iff in E; contradiction|exact IH].
Qed.

Lemma passwd_get_cases pl n :
  (exists e, first_covering pl n e /\ passwd_get pl n = Some (pe_passwd e)) \/ (uncovered pl n /\ passwd_get pl n = None).
Proof.
  induction pl as [|x pl IH]; cbn [passwd_get].
  - right. split; [constructor|reflexivity].
  - destruct (covers x n) eqn:E.
    + left. exists x. split; [|reflexivity]. exists [], pl. repeat split; [constructor|now apply covers_iff].
    + assert (Hx : ~ covers_spec x n) by (intros H; apply covers_iff in H; congruence).
      destruct IH as [(e & (pre & post & Hpl & Hpre & Hc) & Hg)|[Hu Hg]].
      * left. exists e. split; [|exact Hg]. exists (x :: pre), post. subst pl. repeat split; [constructor; assumption|exact Hc].
      * right. split; [constructor; assumption|exact Hg].
Qed.

(* credentials: RFC 7617 as squid reads it *)
(* `field` is the Authorization value; user and pass are what base64(user ":" pass) decodes to *)
Definition basic_credentials (field user pass : bytes) : Prop :=
  exists sch ws txt,
    cstr field = sch ++ ws ++ txt /\ lower sch = kw_basic
    /\ ws <> [] /\ forallb xisspace ws = true
    /\ b64_decode true txt = Some (user ++ 58 :: pass)
    /\ forallb nocolon user = true.

Lemma auth_token_spec f tok :
  get_auth_token (Some f) = tok -> tok <> [] ->
  exists sch ws txt, cstr f = sch ++ ws ++ txt /\ lower sch = kw_basic /\ ws <> [] /\ forallb xisspace ws = true
                     /\ b64_decode true txt = Some tok.
Proof.
  unfold get_auth_token. intros H Hne.
  destruct (list_eqb (lower (takeN 5 (cstr f))) kw_basic) eqn:E1; cbn [negb] in H; [|congruence].
  apply list_eqb_eq in E1.
  destruct (dropN 5 (cstr f)) as [|c r] eqn:E2; [congruence|].
  destruct (xisspace c) eqn:E3; cbn [negb] in H; [|congruence].
  destruct (span xisspace (c :: r)) as [ws r'] eqn:E4. cbn [snd] in H.
  destruct r' as [|d r'']; [congruence|].
  destruct (b64_decode true (d :: r'')) as [t|] eqn:E5; [|congruence]. subst t.
  assert (Hwsne : ws <> []).
  { cbn [span] in E4. rewrite E3 in E4. destruct (span xisspace r) as [u v]. injection E4 as Hw _. subst ws. discriminate. }
  apply span_eq in E4. destruct E4 as (Hcr & Hws & _).
  exists (takeN 5 (cstr f)), ws, (d :: r''). repeat split; try assumption.
  rewrite <- Hcr, <- E2. symmetry. apply takeN_dropN.
Qed.

Lemma supplied_password_spec field pass :
  supplied_password field = pass -> pass <> [] ->
  exists f user, field = Some f /\ basic_credentials f user pass.
Proof.
  unfold supplied_password. intros H Hne.
  destruct (span (fun c => negb (c =? 58)) (get_auth_token field)) as [user rest] eqn:E.
  destruct rest as [|c pw]; [congruence|]. subst pw.
  apply span_eq in E. destruct E as (Ht & Hu & Hc). apply negb_false_iff, N.eqb_eq in Hc. subst c.
  destruct field as [f|]; [|destruct user; discriminate Ht].
  assert (Htne : get_auth_token (Some f) <> []) by (rewrite Ht; destruct user; discriminate).
  destruct (auth_token_spec f _ eq_refl Htne) as (sch & ws & txt & H1 & H2 & H3 & H4 & H5).
  exists f, user. split; [reflexivity|]. exists sch, ws, txt. rewrite Ht in H5. repeat split; assumption.
Qed.

Lemma cstr_full (a : bytes) : lenN a = lenN (cstr a) -> a = cstr a.
Proof.
  unfold cstr. intros H. pose proof (span_app (fun c => negb (c =? 0)) a) as Happ.
  destruct (span (fun c => negb (c =? 0)) a) as [u v]. cbn [fst snd] in *.
  rewrite <- Happ in H. rewrite lenN_app in H. destruct v as [|y v]; [now rewrite app_nil_r in Happ|].
  cbn [lenN] in H. lia.
Qed.

Lemma cstr_nonul (a : bytes) : forallb nonul a = true -> cstr a = a.
Proof. intros H. rewrite <- (app_nil_r a) at 1. rewrite (cstr_app a [] H). apply app_nil_r. Qed.

Lemma check_password_false pl a pw :
  check_password pl a pw = false ->
  match passwd_get pl (a_name a) with
  | None => a_pwreq a = false
  | Some pwd => pwd <> kw_disable /\ (pwd = kw_none \/ (pw <> [] /\ pw = cstr pwd))
  end.
Proof.
  unfold check_password. destruct (passwd_get pl (a_name a)) as [pwd|]; [|auto].
  destruct (list_eqb pwd kw_disable) eqn:E1; [discriminate|]. apply leqb_false in E1.
  destruct (list_eqb pwd kw_none) eqn:E2; [apply list_eqb_eq in E2; auto|].
  destruct pw as [|p pw]; [discriminate|]. intros H. split; [exact E1|]. right.
  apply orb_false_iff in H. destruct H as [Hlen H].
  apply negb_false_iff, N.eqb_eq in Hlen.
  unfold string_ne in H. destruct pwd as [|d pwd]; [discriminate|].
  apply negb_false_iff, list_eqb_eq in H. split; [discriminate|].
  rewrite <- H in Hlen. rewrite <- H. apply cstr_full, Hlen.
Qed.

Definition field_char (c : N) : bool := negb (memb c mgr_field_stop).

(* what ParseUrl accepted *)
Lemma parse_url_action menu pl path a :
  parse_url menu pl path = UAction a -> lenN path < npos ->
  In a menu
  /\ (action_protection pl a = Public \/ action_protection pl a = Protected)
  /\ exists nm rest,
       path = mgr_prefix ++ nm ++ rest
       /\ forallb field_char nm = true
       /\ match rest with [] => True | c :: _ => field_char c = false end
       /\ a_name a = match nm with [] => kw_index | _ => nm end.
Proof.
  unfold parse_url, tok_skip. intros H Hlen.
  destruct (starts_with path mgr_prefix) eqn:E0; [|discriminate].
  apply starts_with_split in E0. set (b0 := dropN (lenN mgr_prefix) path) in *.
  assert (Hlen0 : lenN b0 < npos) by (rewrite E0, lenN_app in Hlen; lia).
  destruct (negb (lenN mgr_prefix =? 0)); [|discriminate].
  fold field_char in H.
  match type of H with (let '(_, _) := ?m in _) = _ => destruct m as [name b1] eqn:En end.
  destruct (find_action menu name) as [a'|] eqn:E2; [|discriminate].
  apply find_some in E2 as [Hin Hnm]. apply list_eqb_eq in Hnm.
  assert (Hprot : (action_protection pl a' = Public \/ action_protection pl a' = Protected) /\ a' = a).
  { destruct (action_protection pl a'); try discriminate; (split; [auto|]);
      destruct (tok_skipChar 63 b1) as [[|] b2]; try destruct (query_parse _ b2) as [b3| |];
      try discriminate; try (destruct b3 as [|c b3]; [|destruct (c =? 35)]; congruence);
      try (destruct b1 as [|c b1']; [|destruct (c =? 35)]; congruence). }
  destruct Hprot as [Hprot ->]. split; [exact Hin|]. split; [exact Hprot|].
  destruct (tok_prefix field_char npos b0) as [[nm r]|] eqn:E1; injection En as <- <-.
  - apply tok_prefix_sound in E1 as (Happ & Hne & Hall & Hle & Hstop).
    exists nm, r. rewrite E0, <- Happ. repeat split; try assumption.
    + destruct Hstop as [Hl|Hs]; [rewrite <- Happ, lenN_app in Hlen0; lia|]. destruct r; [exact I|exact Hs].
    + destruct nm; [congruence|exact Hnm].
  - exists [], b0. repeat split; try assumption.
    apply tok_prefix_none in E1 as [E|[E|E]]; [rewrite E; exact I|discriminate E|].
    destruct b0; [exact I|exact E].
Qed.

(* the action a cache-manager answer is about *)
Definition answered_action (r : result) : option bytes :=
  match r with
  | RAuthReq n => Some n
  | RReport n => Some n
  | RIndex => Some kw_index
  | _ => None
  end.

Lemma answered_inv e menu pl rules q n :
  answered_action (handle e menu pl rules q) = Some n ->
  exists a, parse_url menu pl (q_path q) = UAction a /\ a_name a = n.
Proof.
  intros H. destruct (handle_answer e menu pl rules q) as (_ & _ & _ & E).
  { destruct (handle e menu pl rules q); try discriminate H; reflexivity. }
  rewrite E in H. destruct (parse_url menu pl (q_path q)) as [a| |]; try discriminate.
  exists a. split; [reflexivity|].
  destruct (check_password pl a _); [cbn in H; congruence|].
  destruct (list_eqb (a_name a) kw_index) eqn:El; cbn in H; [apply list_eqb_eq in El|]; congruence.
Qed.

Lemma report_inv e menu pl rules q n :
  handle e menu pl rules q = RReport n ->
  exists a, parse_url menu pl (q_path q) = UAction a /\ a_name a = n
            /\ check_password pl a (supplied_password (q_auth q)) = false /\ n <> kw_index.
Proof.
  intros H. destruct (handle_answer e menu pl rules q) as (_ & _ & _ & E); [rewrite H; reflexivity|].
  rewrite E in H. destruct (parse_url menu pl (q_path q)) as [a| |]; try discriminate.
  destruct (check_password pl a _) eqn:Ec; [discriminate|].
  destruct (list_eqb (a_name a) kw_index) eqn:El; [discriminate|]. injection H as H.
  exists a. repeat split; try assumption. subst n. apply leqb_false, El.
Qed.

Definition path_ok (q : request) : Prop := lenN (q_path q) < npos.

(* the action performed is the one the URL names, and it is in the table *)
Lemma report_names_action e menu pl rules q n :
  handle e menu pl rules q = RReport n -> path_ok q ->
  (exists a, In a menu /\ a_name a = n)
  /\ exists rest, q_path q = mgr_prefix ++ n ++ rest
                  /\ forallb field_char n = true /\ n <> []
                  /\ match rest with [] => True | c :: _ => field_char c = false end.
Proof.
  intros H Hlen. destruct (report_inv _ _ _ _ _ _ H) as (a & Hp & Hn & _ & Hidx).
  destruct (parse_url_action _ _ _ _ Hp Hlen) as (Hin & _ & nm & rest & Hpath & Hfc & Hstop & Hname).
  split; [exists a; auto|].
  destruct nm as [|c nm]; [congruence|]. rewrite Hn in Hname. rewrite Hname.
  exists rest. repeat split; try assumption. discriminate.
Qed.

(* disabled and hidden actions: no answer that involves the action at all (they yield 404) *)
Lemma answered_not_disabled_nor_hidden e menu pl rules q n :
  answered_action (handle e menu pl rules q) = Some n -> path_ok q ->
  (forall e0, first_covering pl n e0 -> pe_passwd e0 <> kw_disable)
  /\ (uncovered pl n -> exists a, In a menu /\ a_name a = n /\ a_pwreq a = false).
Proof.
  intros H Hlen. destruct (answered_inv _ _ _ _ _ _ H) as (a & Hp & Hn).
  destruct (parse_url_action _ _ _ _ Hp Hlen) as (Hin & Hprot & _). subst n.
  unfold action_protection in Hprot. split.
  - intros e0 Hf. rewrite (passwd_get_first _ _ _ Hf) in Hprot. intros Hd. rewrite Hd in Hprot.
    cbn in Hprot. destruct Hprot; discriminate.
  - intros Hu. rewrite (passwd_get_uncovered _ _ Hu) in Hprot. exists a. repeat split; try assumption.
    destruct (a_pwreq a); [destruct Hprot; discriminate|reflexivity].
Qed.

(* a report implies the password rule admitted it *)
Lemma report_respects_passwd e menu pl rules q n :
  handle e menu pl rules q = RReport n -> path_ok q ->
  (forall e0, first_covering pl n e0 ->
     pe_passwd e0 <> kw_disable
     /\ (pe_passwd e0 = kw_none
         \/ exists f user pass, q_auth q = Some f /\ basic_credentials f user pass
                                /\ pass <> [] /\ pass = cstr (pe_passwd e0)))
  /\ (uncovered pl n -> exists a, In a menu /\ a_name a = n /\ a_pwreq a = false).
Proof.
  intros H Hlen. destruct (report_inv _ _ _ _ _ _ H) as (a & Hp & Hn & Hc & _).
  assert (Ha : answered_action (handle e menu pl rules q) = Some n) by (rewrite H; reflexivity).
  destruct (answered_not_disabled_nor_hidden _ _ _ _ _ _ Ha Hlen) as [Hd Hh].
  split; [|exact Hh]. intros e0 Hf. split; [apply Hd, Hf|].
  apply check_password_false in Hc. rewrite Hn, (passwd_get_first _ _ _ Hf) in Hc.
  destruct Hc as [_ [Hnone|(Hpw & Heq)]]; [left; exact Hnone|right].
  destruct (supplied_password_spec _ _ eq_refl Hpw) as (f & user & Hq & Hb).
  exists f, user, (supplied_password (q_auth q)). repeat split; assumption.
Qed.

(* http_access: first matching line decides, otherwise the reverse of the last line *)
Definition rule_matches (mgr local : bool) (r : rule) : bool := forallb (atom_holds mgr local) (r_atoms r).

Lemma eval_rules_first mgr local pre r post last :
  forallb (fun x => negb (rule_matches mgr local x)) pre = true -> rule_matches mgr local r = true ->
  eval_rules mgr local (pre ++ r :: post) last = r_allow r.
Proof.
  revert last. induction pre as [|x pre IH]; intros last Hpre Hr; cbn [app eval_rules].
  - unfold rule_matches in Hr. now rewrite Hr.
  - cbn [forallb] in Hpre. apply andb_true_iff in Hpre. destruct Hpre as [Hx Hpre].
    unfold rule_matches in Hx. apply negb_true_iff in Hx. rewrite Hx. apply IH; assumption.
Qed.

Lemma eval_rules_none mgr local rules last :
  forallb (fun x => negb (rule_matches mgr local x)) rules = true ->
  eval_rules mgr local rules last =
  match rev rules with r :: _ => negb (r_allow r) | [] => match last with Some a => negb a | None => false end end.
Proof.
  revert last. induction rules as [|x rules IH]; intros last H; cbn [eval_rules]; [reflexivity|].
  cbn [forallb] in H. apply andb_true_iff in H. destruct H as [Hx H].
  unfold rule_matches in Hx. apply negb_true_iff in Hx. rewrite Hx, (IH _ H). cbn [rev].
  destruct (rev rules) as [|y l]; reflexivity.
Qed.

Definition w_host : bytes := [118;101;114;105;102;46;116;101;115;116].            (* verif.test *)
Definition w_env : env := mkEnv w_host 3128 true.
Definition s_menu : bytes := [109;101;110;117].
Definition s_info : bytes := [105;110;102;111].
Definition s_shutdown : bytes := [115;104;117;116;100;111;119;110].
Definition s_secret : bytes := [115;101;99;114;101;116].
Definition w_menu : list action := [mkAct kw_index false; mkAct s_menu false; mkAct s_info false; mkAct s_shutdown true].
Definition deny_manager_allow_all : list rule := [mkRule false [AMgr]; mkRule true [AAll]].

(* GET ftp://a%2Fb@verif.test:3128/squid-internal-mgr/menu *)
Definition w_bypass : request :=
  mkReq MGet SFtp [97;37;50;70;98] w_host 3128
        [47;115;113;117;105;100;45;105;110;116;101;114;110;97;108;45;109;103;114;47;109;101;110;117] None.
(* the same request without user-info *)
Definition w_plain : request :=
  mkReq MGet SFtp [] w_host 3128
        [47;115;113;117;105;100;45;105;110;116;101;114;110;97;108;45;109;103;114;47;109;101;110;117] None.

Lemma w_host_ok : host_ok (e_myhost w_env).
Proof. split; [discriminate|reflexivity]. Qed.

(* the former bypass (finding C61-manager-acl-ftp-userinfo, repaired by 6b03ef7): the ACL still does not match this URL,
   but the request is no longer internal -- it goes to the ftp gateway like any ftp:// URL *)
Lemma bypass_witness :
  host_ok (e_myhost w_env)
  /\ is_internal w_env w_bypass = false
  /\ acl_manager w_bypass = false
  /\ handle w_env w_menu [] deny_manager_allow_all w_bypass = RForwarded
  /\ handle w_env w_menu [] deny_manager_allow_all w_plain = RDenied.
Proof. split; [exact w_host_ok|]. repeat split; vm_compute; reflexivity. Qed.

(* cachemgr_passwd secret info ; Authorization: Basic base64("u:secret" NUL "x") *)
Definition w_pl : list pwent := [mkPw s_secret [s_info]].
Definition w_nul : request :=
  mkReq MGet SHttp [] w_host 3128
        [47;115;113;117;105;100;45;105;110;116;101;114;110;97;108;45;109;103;114;47;105;110;102;111]
        (Some [66;97;115;105;99;32;100;84;112;122;90;87;78;121;90;88;81;65;101;65;61;61]).
Definition w_good : request :=
  mkReq MGet SHttp [] w_host 3128
        [47;115;113;117;105;100;45;105;110;116;101;114;110;97;108;45;109;103;114;47;105;110;102;111]
        (Some [66;97;115;105;99;32;100;84;112;122;90;87;78;121;90;88;81;61]).
Definition w_noauth : request :=
  mkReq MGet SHttp [] w_host 3128
        [47;115;113;117;105;100;45;105;110;116;101;114;110;97;108;45;109;103;114;47;105;110;102;111] None.

(* the former finding C61-password-nul-suffix (repaired by 5479385): "secret" NUL "x" is challenged again *)
Lemma nul_witness :
  first_covering w_pl s_info (mkPw s_secret [s_info])
  /\ handle w_env w_menu w_pl [mkRule true [AAll]] w_nul = RAuthReq s_info
  /\ supplied_password (q_auth w_nul) = s_secret ++ [0; 120]
  /\ handle w_env w_menu w_pl [mkRule true [AAll]] w_good = RReport s_info
  /\ handle w_env w_menu w_pl [mkRule true [AAll]] w_noauth = RAuthReq s_info.
Proof.
  split.
  - exists [], []. repeat split; [constructor|left; left; reflexivity].
  - repeat split; vm_compute; reflexivity.
Qed.

(* hypotheses of the main theorems are satisfiable, and the theorems are not vacuous *)
Lemma examples :
  path_ok w_good
  /\ uncovered w_pl s_menu
  /\ handle w_env w_menu w_pl [mkRule true [AAll]] (mkReq MGet SHttp [] w_host 3128 (q_path w_bypass) None) = RReport s_menu
  /\ handle w_env w_menu [mkPw kw_disable [s_menu]] [mkRule true [AAll]] (mkReq MGet SHttp [] w_host 3128 (q_path w_bypass) None) = RNotFound
  /\ handle w_env w_menu [] [mkRule true [AAll]]
       (mkReq MGet SHttp [] w_host 3128 (mgr_prefix ++ s_shutdown) (q_auth w_good)) = RNotFound.
Proof.
  repeat split; try (vm_compute; reflexivity).
  - constructor; [|constructor]. intros [H|H]; cbn in H; destruct H as [H|[]]; discriminate H.
Qed.

(* the fuel of the two QueryParams loops is always sufficient *)
Lemma int64_progress limit buf v n : tok_int64 10 false limit buf = Some (v, n) -> 1 <= n /\ buf <> [].
Proof.
  rewrite Int64Proofs.tok_int64_dec_unsigned. intros H. split.
  - destruct (digit_run 10 (takeN limit buf)) as [|d ds]; [discriminate|].
    cbv zeta in H. destruct (_ >? _)%Z; [discriminate|]. injection H as _ Hn. subst n. cbn [lenN]. lia.
  - intros E. subst buf. cbn in H. discriminate.
Qed.

Lemma param_value_fuel f : forall buf, (length buf < f)%nat -> param_value f buf <> TFuel.
Proof.
  induction f as [|f IH]; intros buf Hf; [lia|]. cbn [param_value].
  destruct (tok_int64 10 false npos buf) as [[v n]|] eqn:E; [|discriminate].
  destruct ((v <? -2147483648) || (v >? 2147483647))%Z; [discriminate|].
  destruct (int64_progress _ _ _ _ E) as [Hn Hb].
  assert (Hlt : (length (dropN n buf) < length buf)%nat).
  { pose proof (lenN_dropN n buf) as Hd. rewrite !lenN_length in Hd. destruct buf; [congruence|]. cbn [length] in *. lia. }
  apply IH.
  destruct (1 <? lenN (dropN n buf)); [|lia].
  unfold tok_skipOne. destruct (dropN n buf) as [|c r]; cbn [snd length] in *; [lia|].
  destruct (is_comma c); cbn [snd length]; lia.
Qed.

Lemma span_lengths {A} (p : A -> bool) l : (length (fst (span p l)) + length (snd (span p l)) = length l)%nat.
Proof. rewrite <- app_length, span_app. reflexivity. Qed.

Lemma query_parse_fuel f : forall buf, (length buf < f)%nat -> query_parse f buf <> QFuel.
Proof.
  induction f as [|f IH]; intros buf Hf; [lia|]. cbn [query_parse].
  destruct buf as [|c buf']; [discriminate|].
  destruct (c =? 35); [discriminate|].
  remember (c :: buf') as buf eqn:Hbuf. clear Hbuf c buf'.
  destruct (tok_skipAll is_amp buf) as [k b1] eqn:Es.
  rewrite tok_skipAll_spec in Es. injection Es as Hk Hb1.
  destruct (negb (k =? 0)) eqn:Ek.
  - apply IH. pose proof (span_lengths is_amp buf) as Hl. rewrite Hb1 in Hl.
    destruct (fst (span is_amp buf)) as [|y ys]; [cbn [lenN] in Hk; subst k; discriminate Ek|].
    cbn [length] in Hl. lia.
  - destruct (tok_prefix name_chars npos buf) as [[nm b2]|] eqn:E1; [|discriminate].
    apply tok_prefix_sound in E1. destruct E1 as (Happ1 & Hne1 & _).
    unfold tok_skipChar. destruct b2 as [|d b3]; [discriminate|].
    destruct (d =? 61); [|discriminate].
    destruct (tok_prefix value_chars npos b3) as [[v b4]|] eqn:E2; [|discriminate].
    apply tok_prefix_sound in E2. destruct E2 as (Happ2 & Hne2 & _).
    pose proof (param_value_fuel (S (length v)) v ltac:(lia)) as Hpv.
    destruct (param_value (S (length v)) v); [|discriminate|congruence].
    apply IH. rewrite <- Happ1, <- Happ2 in Hf. rewrite !app_length in Hf. cbn [length] in Hf.
    rewrite app_length in Hf. destruct nm; [congruence|]. cbn [length] in Hf. lia.
Qed.

Lemma parse_url_fuel menu pl path : parse_url menu pl path <> UFuel.
Proof.
  unfold parse_url. destruct (tok_skip mgr_prefix path) as [[|] b0]; [|discriminate].
  destruct (match tok_prefix _ npos b0 with Some (a, b) => (a, b) | None => (kw_index, b0) end) as [name b1].
  destruct (find_action menu name) as [a|]; [|discriminate].
  destruct (action_protection pl a); try discriminate;
    (destruct (tok_skipChar 63 b1) as [[|] b2];
     [pose proof (query_parse_fuel (S (length b2)) b2 ltac:(lia)) as Hq;
      destruct (query_parse (S (length b2)) b2) as [b3| |]; [|discriminate|congruence]
     |set (b3 := b1)];
     (destruct b3 as [|c b3']; [discriminate|destruct (c =? 35); discriminate])).
Qed.

Lemma handle_fuel e menu pl rules q : handle e menu pl rules q <> RFuel.
Proof.
  intros H. destruct (handle_answer e menu pl rules q) as (_ & _ & _ & E); [rewrite H; reflexivity|].
  rewrite E in H. pose proof (parse_url_fuel menu pl (q_path q)) as Hp.
  destruct (parse_url menu pl (q_path q)) as [a| |]; [|discriminate|congruence].
  destruct (check_password pl a _); [discriminate|]. destruct (list_eqb _ _); discriminate.
Qed.

Lemma report_password_exact e menu pl rules q n e0 :
  handle e menu pl rules q = RReport n -> path_ok q ->
  first_covering pl n e0 -> pe_passwd e0 <> kw_none -> forallb nonul (pe_passwd e0) = true ->
  supplied_password (q_auth q) = pe_passwd e0.
Proof.
  intros H Hlen Hf Hnn Hnul. destruct (report_inv _ _ _ _ _ _ H) as (a & Hp & Hn & Hc & _).
  apply check_password_false in Hc. rewrite Hn, (passwd_get_first _ _ _ Hf) in Hc.
  destruct Hc as [_ [Hnone|(_ & Heq)]]; [contradiction|]. rewrite Heq. apply cstr_nonul, Hnul.
Qed.
