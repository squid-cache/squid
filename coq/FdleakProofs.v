(* FdleakProofs.v — C08: proofs about the descriptor accounting / ownership protocol model. *)
Require Import SquidV.Bytes SquidV.FdleakModel.
From Coq Require Import Arith Lia ZifyBool ZifyNat.

Lemma upd_same : forall A (m : nat -> A) k v, upd m k v k = v.
Proof. intros. unfold upd. now rewrite Nat.eqb_refl. Qed.

Lemma upd_other : forall A (m : nat -> A) k v x, x <> k -> upd m k v x = m x.
Proof. intros. unfold upd. destruct (Nat.eqb_spec x k); congruence. Qed.

Definition b2n (b : bool) : nat := if b then 1 else 0.

Lemma count_S : forall n o, count_open (S n) o = count_open n o + b2n (o n).
Proof.
  intros. unfold count_open. rewrite seq_S, filter_app, app_length. cbn [filter Nat.add].
  destruct (o n); reflexivity.
Qed.

Lemma count_ext : forall n o o', (forall i, i < n -> o i = o' i) -> count_open n o = count_open n o'.
Proof.
  induction n as [|n IH]; intros o o' H; [reflexivity|].
  rewrite !count_S. rewrite (IH o o') by (intros; apply H; lia). rewrite (H n) by lia. reflexivity.
Qed.

Lemma count_upd : forall n o f v, f < n ->
  count_open n (upd o f v) + b2n (o f) = count_open n o + b2n v.
Proof.
  induction n as [|n IH]; intros o f v Hf; [lia|].
  rewrite !count_S. destruct (Nat.eq_dec f n) as [->|Hn].
  - rewrite upd_same. rewrite (count_ext n (upd o n v) o); [lia|].
    intros i Hi. apply upd_other. lia.
  - rewrite (upd_other _ o f v n) by lia. specialize (IH o f v). lia.
Qed.

Lemma count_le : forall n o, count_open n o <= n.
Proof. induction n; intros; [reflexivity|]. rewrite count_S. specialize (IHn o). destruct (o n); cbn; lia. Qed.

Lemma count_ltb : forall n k, count_open n (fun f => f <? k) = Nat.min n k.
Proof.
  induction n as [|n IH]; intros k; [reflexivity|].
  rewrite count_S, IH. destruct (Nat.ltb_spec n k); cbn [b2n]; lia.
Qed.

Lemma lower_range : forall o n, (-1 <= lower o n < Z.of_nat n)%Z.
Proof. induction n; cbn [lower]; [lia|]. destruct (o n); lia. Qed.

Lemma lower_open : forall o n, (0 <= lower o n)%Z -> o (Z.to_nat (lower o n)) = true.
Proof.
  induction n; cbn [lower]; intros H; [lia|].
  destruct (o n) eqn:E; [now rewrite Nat2Z.id | auto].
Qed.

Lemma lower_max : forall o n i, i < n -> o i = true -> (Z.of_nat i <= lower o n)%Z.
Proof.
  induction n; intros i Hi Ho; [lia|]. cbn [lower].
  destruct (Nat.eq_dec i n) as [->|Hn]; [rewrite Ho; lia|].
  destruct (o n); [lia|]. apply IHn; [lia|assumption].
Qed.

Lemma lower_unique : forall o n m,
  (-1 <= m < Z.of_nat n)%Z -> ((0 <= m)%Z -> o (Z.to_nat m) = true) ->
  (forall i, i < n -> o i = true -> (Z.of_nat i <= m)%Z) -> lower o n = m.
Proof.
  intros o n m Hr Ho Hmax. pose proof (lower_range o n) as Hl.
  assert (m <= lower o n)%Z.
  { destruct (Z_lt_le_dec m 0) as [|Hm]; [lia|]. pose proof (lower_max o n (Z.to_nat m) ltac:(lia) (Ho Hm)). lia. }
  destruct (Z_lt_le_dec (lower o n) 0) as [|Hp]; [lia|].
  pose proof (Hmax (Z.to_nat (lower o n)) ltac:(lia) (lower_open o n Hp)). lia.
Qed.

(* exactly the descriptors below k are open *)
Lemma only_below : forall n k o, k <= n -> (forall f, o f = true <-> f < k) ->
  count_open n o = k /\ lower o n = (Z.of_nat k - 1)%Z.
Proof.
  intros n k o Hk H. split.
  - rewrite (count_ext n o (fun f => f <? k)); [rewrite count_ltb; lia|].
    intros i _. destruct (Nat.ltb_spec i k) as [L|L]; [now apply H|].
    destruct (o i) eqn:E; [apply H in E; lia|reflexivity].
  - apply lower_unique; [lia| intros Hp; apply H; lia| intros i _ Hi; apply H in Hi; lia].
Qed.

Definition fds_inv (maxfd : nat) (d : fds) : Prop :=
  fnum d = Z.of_nat (count_open maxfd (fopen d)) /\
  (forall f, fopen d f = true -> f < maxfd) /\
  fbig d = lower (fopen d) maxfd.

(* fdUpdateBiggest after the open flag of f went from (negb v) to v: no assert fires, Biggest_FD is again the
   largest open descriptor *)
Lemma fd_update_biggest_ok : forall maxfd o f v,
  f < maxfd -> o f = negb v ->
  fd_update_biggest maxfd (upd o f v) (lower o maxfd) f v = Some (lower (upd o f v) maxfd).
Proof.
  intros maxfd o f v Hlt Hf. unfold fd_update_biggest.
  pose proof (lower_range o maxfd) as Hr.
  assert (Hmax : forall i, i < maxfd -> i <> f -> upd o f v i = true -> (Z.of_nat i <= lower o maxfd)%Z).
  { intros i Hi Hne Ho. rewrite upd_other in Ho by assumption. now apply lower_max. }
  apply Nat.ltb_lt in Hlt as Hlt'. rewrite Hlt'. cbn [negb].
  destruct (Z.of_nat f <? lower o maxfd)%Z eqn:E1; [|destruct (lower o maxfd <? Z.of_nat f)%Z eqn:E2].
  - f_equal. symmetry. apply lower_unique; [lia| |].
    + intros Hp. rewrite upd_other by lia. now apply lower_open.
    + intros i Hi Ho. destruct (Nat.eq_dec i f) as [->|Hne]; [lia|auto].
  - destruct v.
    + f_equal. symmetry. apply lower_unique; [lia| intros _; rewrite Nat2Z.id; apply upd_same|].
      intros i Hi Ho. destruct (Nat.eq_dec i f) as [->|Hne]; [lia|]. specialize (Hmax i Hi Hne Ho). lia.
    + pose proof (lower_max o maxfd f Hlt Hf). lia.
  - assert (Hbf : lower o maxfd = Z.of_nat f) by lia. destruct v.
    + pose proof (lower_open o maxfd ltac:(lia)) as Ho. rewrite Hbf, Nat2Z.id, Hf in Ho. discriminate.
    + f_equal. rewrite Hbf. replace (Z.to_nat (Z.of_nat f + 1)) with (S f) by lia.
      symmetry. apply lower_unique.
      * pose proof (lower_range (upd o f false) (S f)). lia.
      * apply lower_open.
      * intros i Hi Ho. apply lower_max; [|exact Ho].
        destruct (Nat.eq_dec i f) as [->|Hne]; [rewrite upd_same in Ho; discriminate|].
        specialize (Hmax i Hi Hne Ho). lia.
Qed.

(* one flag flips, Number_FD follows: the accounting stays exact *)
Lemma fds_flip : forall maxfd d f v n, fds_inv maxfd d -> f < maxfd -> fopen d f = negb v ->
  n = (fnum d + (if v then 1 else -1))%Z ->
  exists b, fd_update_biggest maxfd (upd (fopen d) f v) (fbig d) f v = Some b /\
            fds_inv maxfd (mkFds (upd (fopen d) f v) n b).
Proof.
  intros maxfd d f v n (Hn & Hb & Hg) Hlt Hf ->. rewrite Hg, fd_update_biggest_ok by assumption.
  eexists. split; [reflexivity|]. split; [|split; [|reflexivity]]; cbn [fnum fopen].
  - pose proof (count_upd maxfd (fopen d) f v Hlt) as C. rewrite Hf in C. destruct v; cbn [b2n negb] in C; lia.
  - intros g Hg'. destruct (Nat.eq_dec g f) as [->|Hne]; [exact Hlt|]. rewrite upd_other in Hg' by assumption. auto.
Qed.

Lemma fd_close_ok : forall maxfd d f, fds_inv maxfd d -> fopen d f = true ->
  exists d', fd_close maxfd d f = Some d' /\ fds_inv maxfd d' /\
             fopen d' = upd (fopen d) f false /\ fnum d' = (fnum d - 1)%Z.
Proof.
  intros maxfd d f I Hf. pose proof (proj1 (proj2 I) f Hf) as Hlt.
  destruct (fds_flip maxfd d f false (fnum d - 1) I Hlt Hf ltac:(lia)) as (b & E & I').
  unfold fd_close. rewrite Hf, E. cbn [negb]. eexists. split; [reflexivity|]. split; [exact I'|]. split; reflexivity.
Qed.

Lemma fd_open_ok : forall maxfd d f, fds_inv maxfd d -> f < maxfd ->
  exists d', fd_open maxfd d f = Some d' /\ fds_inv maxfd d' /\
             (forall g, fopen d' g = upd (fopen d) f true g) /\
             fnum d' = (fnum d + (if fopen d f then 0 else 1))%Z.
Proof.
  intros maxfd d f I Hlt.
  assert (H1 : exists d1, (if fopen d f then fd_close maxfd d f else Some d) = Some d1 /\ fds_inv maxfd d1 /\
                          fopen d1 f = false /\ (forall g, g <> f -> fopen d1 g = fopen d g) /\
                          fnum d1 = (fnum d - (if fopen d f then 1 else 0))%Z).
  { destruct (fopen d f) eqn:Ef.
    - destruct (fd_close_ok maxfd d f I Ef) as (d1 & Hc & Hi & Ho & Hn).
      exists d1. split; [exact Hc|]. split; [exact Hi|]. rewrite Ho.
      split; [apply upd_same|]. split; [intros; now apply upd_other|exact Hn].
    - exists d. split; [reflexivity|]. split; [exact I|]. split; [exact Ef|]. split; [auto|lia]. }
  destruct H1 as (d1 & Hd1 & I1 & Hf1 & Hoth & Hnum).
  destruct (fds_flip maxfd d1 f true (fnum d1 + 1) I1 Hlt Hf1 eq_refl) as (b & E & I').
  unfold fd_open. rewrite Hd1, E. eexists. split; [reflexivity|]. split; [exact I'|]. cbn [fopen fnum]. split.
  - intros g. unfold upd. destruct (Nat.eqb_spec g f); [reflexivity|auto].
  - destruct (fopen d f); lia.
Qed.

Fixpoint replay (o : nat -> bool) (ops : list fdop) : nat -> bool :=
  match ops with
  | [] => o
  | FOpen f :: r => replay (upd o f true) r
  | FClose f :: r => replay (upd o f false) r
  end.

(* the callers' obligations: descriptors lie inside the table; only open descriptors are closed *)
Fixpoint ops_valid (maxfd : nat) (o : nat -> bool) (ops : list fdop) : Prop :=
  match ops with
  | [] => True
  | FOpen f :: r => f < maxfd /\ ops_valid maxfd (upd o f true) r
  | FClose f :: r => o f = true /\ ops_valid maxfd (upd o f false) r
  end.

Lemma upd_ext : forall A (o o' : nat -> A) f v, (forall g, o g = o' g) -> forall g, upd o f v g = upd o' f v g.
Proof. intros. unfold upd. destruct (Nat.eqb g f); auto. Qed.

Lemma run_fdops_ok : forall maxfd ops d o, fds_inv maxfd d -> (forall g, fopen d g = o g) -> ops_valid maxfd o ops ->
  exists d', run_fdops maxfd d ops = Some d' /\ fds_inv maxfd d' /\ (forall g, fopen d' g = replay o ops g).
Proof.
  induction ops as [|[f|f] r IH]; intros d o Hinv E V; cbn [ops_valid run_fdops replay] in *.
  - exists d. auto.
  - destruct V as [V1 V2]. destruct (fd_open_ok maxfd d f Hinv V1) as (d1 & -> & Hi & Hfl & _).
    apply (IH d1); [exact Hi| |exact V2]. intros g. rewrite Hfl. now apply upd_ext.
  - destruct V as [V1 V2]. rewrite <- E in V1. destruct (fd_close_ok maxfd d f Hinv V1) as (d1 & -> & Hi & Hfl & _).
    apply (IH d1); [exact Hi| |exact V2]. intros g. rewrite Hfl. now apply upd_ext.
Qed.

Lemma fds_empty_inv : forall maxfd, fds_inv maxfd fds_empty.
Proof.
  intros maxfd. destruct (only_below maxfd 0 (fun _ => false) (Nat.le_0_l _)) as [C L]; [split; [discriminate|lia]|].
  unfold fds_inv, fds_empty. cbn [fnum fopen fbig]. rewrite C, L. split; [reflexivity|]. split; [discriminate|reflexivity].
Qed.

Lemma fd_accounting : forall maxfd ops d,
  ops_valid maxfd (fun _ => false) ops -> run_fdops maxfd fds_empty ops = Some d ->
  (forall g, fopen d g = replay (fun _ => false) ops g) /\
  fnum d = Z.of_nat (count_open maxfd (fopen d)) /\
  (forall g, fopen d g = true -> (Z.of_nat g <= fbig d)%Z) /\
  ((0 <= fbig d)%Z -> fopen d (Z.to_nat (fbig d)) = true) /\
  (-1 <= fbig d < Z.of_nat maxfd)%Z.
Proof.
  intros maxfd ops d V R.
  destruct (run_fdops_ok maxfd ops fds_empty _ (fds_empty_inv maxfd) (fun _ => eq_refl) V)
    as (d' & R' & (Hn & Hb & Hg) & Hfl).
  rewrite R in R'. inversion R'; subst d'. split; [exact Hfl|]. split; [exact Hn|]. rewrite Hg.
  split; [intros g Ho; apply lower_max; auto|]. split; [apply lower_open|apply lower_range].
Qed.

Lemma fd_valid_never_asserts : forall maxfd ops,
  ops_valid maxfd (fun _ => false) ops -> run_fdops maxfd fds_empty ops <> None.
Proof.
  intros maxfd ops V.
  destruct (run_fdops_ok maxfd ops fds_empty _ (fds_empty_inv maxfd) (fun _ => eq_refl) V) as (d' & R' & _). congruence.
Qed.

(* fd_open on an entry that is already open ("WARNING: Closing open FD"): a close followed by an open *)
Lemma fd_open_on_open_entry : forall maxfd d f, fds_inv maxfd d -> fopen d f = true ->
  exists d', fd_open maxfd d f = Some d' /\ fds_inv maxfd d' /\ fnum d' = fnum d /\
             (forall g, fopen d' g = fopen d g).
Proof.
  intros maxfd d f Hinv Hf.
  destruct (fd_open_ok maxfd d f Hinv (proj1 (proj2 Hinv) f Hf)) as (d' & Ho & Hi & Hfl & Hnum).
  exists d'. split; [exact Ho|]. split; [exact Hi|]. rewrite Hf in Hnum. split; [lia|].
  intros g. rewrite Hfl. unfold upd. destruct (Nat.eqb_spec g f); [subst; auto|reflexivity].
Qed.

Definition is_complete (f : nat) (c : call) : bool :=
  match c with CComplete g => Nat.eqb g f | _ => false end.
Definition ncomplete (f : nat) (l : list call) : nat := length (filter (is_complete f) l).

Lemma ncomplete_app : forall f a b, ncomplete f (a ++ b) = ncomplete f a + ncomplete f b.
Proof. intros. unfold ncomplete. now rewrite filter_app, app_length. Qed.

Lemma ncomplete_handlers : forall f l, ncomplete f (map CHandler l) = 0.
Proof. induction l; cbn; auto. Qed.

Lemma ncomplete_one : forall f g, ncomplete f [CComplete g] = if Nat.eqb g f then 1 else 0.
Proof. intros. unfold ncomplete. cbn. destruct (Nat.eqb g f); reflexivity. Qed.

Lemma remove_first_nodup : forall f l, NoDup l ->
  NoDup (remove_first f l) /\ forall g, In g (remove_first f l) <-> In g l /\ g <> f.
Proof.
  induction l as [|x r IH]; intros ND; cbn [remove_first In]; [split; [constructor|tauto]|].
  inversion ND as [|? ? Hx Hr]; subst. destruct (IH Hr) as [I1 I2]. destruct (Nat.eqb_spec x f) as [->|Hne].
  - split; [assumption|]. intros g. split; [intros H; split; [now right|congruence]|]. intros [[<-|H] N]; tauto.
  - split; [constructor; [rewrite I2; tauto|assumption]|].
    intros g. cbn [In]. rewrite I2. split; [intros [<-|[H N]]; auto|tauto].
Qed.

Lemma remove_first_notin : forall f l, ~ In f l -> remove_first f l = l.
Proof.
  induction l as [|x r IH]; cbn; auto. intros H. destruct (Nat.eqb_spec x f) as [->|Hne].
  - exfalso. apply H. now left.
  - f_equal. apply IH. intros Hin. apply H. now right.
Qed.

Lemma remove_first_length : forall f l, In f l -> S (length (remove_first f l)) = length l.
Proof.
  induction l as [|x r IH]; cbn; [contradiction|]. intros H.
  destruct (Nat.eqb_spec x f) as [->|Hne]; [reflexivity|]. cbn. f_equal. apply IH. destruct H; [congruence|assumption].
Qed.

Lemma existsb_eqb_in : forall f l, existsb (Nat.eqb f) l = true <-> In f l.
Proof.
  intros. rewrite existsb_exists. split.
  - intros (x & Hin & E). apply Nat.eqb_eq in E. now subst.
  - intros Hin. exists f. split; [assumption|apply Nat.eqb_refl].
Qed.

Lemma owner_eqb_eq : forall a b, owner_eqb a b = true <-> a = b.
Proof.
  destruct a, b; cbn; split; intros H; try reflexivity; try discriminate;
    try (apply Nat.eqb_eq in H; now subst); try (inversion H; apply Nat.eqb_refl).
Qed.

Section ProtoProofs.
Variable maxfd : nat.
Variable ninfra : nat.
Variable reserved : Z.
Hypothesis Hinfra : ninfra <= maxfd.

(* what must hold for a descriptor that is open and not being closed *)
Definition act_ok (s : st) (f : nat) : Prop :=
  match own s f with
  | OInfra => True
  | OCli _ | OSrv _ => hs s f = [own s f] /\ tmo s f = true /\ ~ In f (pool s)
  | OIdle => hs s f = [] /\ tmo s f = true /\ In f (pool s)
  | ONone => False
  end.

(* the part of the invariant that speaks of one descriptor *)
Record fd_ok (s : st) (f : nat) : Prop := {
  k_kern : kern s f = fopen (tbl s) f;                             (* the kernel and the table agree *)
  k_infra : f < ninfra -> fopen (tbl s) f = true /\ closing s f = false /\ own s f = OInfra;
  k_infra2 : own s f = OInfra -> f < ninfra;
  k_closing : closing s f = true -> fopen (tbl s) f = true /\ hs s f = [] /\ tmo s f = false;
  k_q : ncomplete f (q s) = if closing s f then 1 else 0;          (* exactly one pending comm_close_complete *)
  k_act : active s f = true -> act_ok s f;
  k_pool : In f (pool s) -> active s f = true /\ own s f = OIdle
}.

Record Inv (s : st) : Prop := {
  i_fds : fds_inv maxfd (tbl s);                                   (* Number_FD, Biggest_FD, table bounds *)
  i_fd : forall f, fd_ok s f;
  i_nodup : NoDup (pool s);
  i_pcount : pcount s = Z.of_nat (length (pool s));
  i_uniq : forall f g, active s f = true -> active s g = true -> own s f = own s g ->
                       is_job (own s f) = true -> f = g
}.

Lemma active_spec : forall s f, active s f = true <-> fopen (tbl s) f = true /\ closing s f = false.
Proof. intros. unfold active. destruct (fopen (tbl s) f), (closing s f); cbn; intuition congruence. Qed.

(* descriptor g looks the same in s and in s' *)
Definition same_at (s s' : st) (g : nat) : Prop :=
  fopen (tbl s') g = fopen (tbl s) g /\ kern s' g = kern s g /\ closing s' g = closing s g /\ own s' g = own s g /\
  hs s' g = hs s g /\ tmo s' g = tmo s g /\ (In g (pool s') <-> In g (pool s)) /\
  ncomplete g (q s') = ncomplete g (q s).

Lemma fd_ok_same : forall s s' g, same_at s s' g -> fd_ok s g -> fd_ok s' g.
Proof.
  intros s s' g (E1 & E2 & E3 & E4 & E5 & E6 & E7 & E8) K.
  constructor; unfold active, act_ok; rewrite ?E1, ?E2, ?E3, ?E4, ?E5, ?E6, ?E8.
  - apply K.
  - apply K.
  - apply K.
  - apply K.
  - apply K.
  - intros A. pose proof (k_act _ _ K A) as H. unfold act_ok in H. destruct (own s g); tauto.
  - intros P. apply E7 in P. exact (k_pool _ _ K P).
Qed.

(* an operation that changes the state of one descriptor f: the invariant is re-established at f alone *)
Lemma inv_change : forall s s' f, Inv s -> (forall g, g <> f -> same_at s s' g) ->
  fds_inv maxfd (tbl s') -> fd_ok s' f -> NoDup (pool s') -> pcount s' = Z.of_nat (length (pool s')) ->
  (active s' f = true -> is_job (own s' f) = true -> forall g, g <> f -> active s g = true -> own s g <> own s' f) ->
  Inv s'.
Proof.
  intros s s' f I Hfr Hfds Hf Hnd Hpc Hu.
  assert (Ha : forall g, g <> f -> active s' g = active s g /\ own s' g = own s g).
  { intros g N. destruct (Hfr g N) as (E1 & _ & E3 & E4 & _). unfold active. now rewrite E1, E3. }
  constructor; auto.
  - intros g. destruct (Nat.eq_dec g f) as [->|N]; [exact Hf|]. apply (fd_ok_same s); [auto|apply I].
  - intros g h Ag Ah E J. destruct (Nat.eq_dec g f) as [->|Ng], (Nat.eq_dec h f) as [->|Nh]; auto.
    + destruct (Ha h Nh) as [A O]. rewrite A in Ah. rewrite O in E. destruct (Hu Ag J h Nh Ah (eq_sym E)).
    + destruct (Ha g Ng) as [A O]. rewrite A in Ag. rewrite O in E, J. rewrite E in J. destruct (Hu Ah J g Ng Ag E).
    + destruct (Ha g Ng) as [A1 O1], (Ha h Nh) as [A2 O2]. rewrite A1 in Ag. rewrite A2 in Ah. rewrite O1 in *.
      rewrite O2 in E. now apply (i_uniq _ I).
Qed.

Lemma find_own_some : forall s o f, find_own maxfd s o = Some f -> active s f = true /\ own s f = o.
Proof.
  intros s o f H. apply find_some in H. destruct H as [_ Hp]. apply andb_true_iff in Hp. destruct Hp as [Ha Ho].
  now apply owner_eqb_eq in Ho.
Qed.

Lemma find_own_none : forall s o, Inv s -> find_own maxfd s o = None -> forall g, active s g = true -> own s g <> o.
Proof.
  intros s o I H g Ha Ho. unfold find_own in H.
  assert (Hlt : g < maxfd).
  { apply active_spec in Ha. destruct Ha as [Hop _]. destruct (i_fds _ I) as (_ & Hb & _). auto. }
  pose proof (find_none _ _ H g ltac:(apply in_seq; lia)) as Hn. cbn beta in Hn.
  rewrite Ha in Hn. cbn [andb] in Hn. assert (owner_eqb (own s g) o = true) by (now apply owner_eqb_eq). congruence.
Qed.

Lemma alloc_some : forall s f, alloc maxfd s = Some f -> f < maxfd /\ kern s f = false.
Proof.
  intros s f H. unfold alloc in H. apply find_some in H. destruct H as [Hin Hp]. apply in_seq in Hin.
  split; [lia|]. destruct (kern s f); [discriminate|reflexivity].
Qed.

Lemma complete_pending_closing : forall s f r, Inv s -> q s = CComplete f :: r -> closing s f = true.
Proof.
  intros s f r I Hq. pose proof (k_q _ _ (i_fd _ I f)) as H. rewrite Hq in H. unfold ncomplete in H.
  cbn [filter is_complete] in H. rewrite Nat.eqb_refl in H. destruct (closing s f); [reflexivity|discriminate].
Qed.

Lemma empty_queue_not_closing : forall s f, Inv s -> q s = [] -> closing s f = false.
Proof.
  intros s f I Hq. pose proof (k_q _ _ (i_fd _ I f)) as H. rewrite Hq in H.
  destruct (closing s f); [discriminate|reflexivity].
Qed.

(* the state between "the owner lets go of f" and comm_close(f): f's handler list and timeout may have been
   cleared, and f is out of the pool *)
Definition detached (f : nat) (s s' : st) : Prop :=
  tbl s' = tbl s /\ kern s' = kern s /\ closing s' = closing s /\ own s' = own s /\ q s' = q s /\
  (forall g, g <> f -> hs s' g = hs s g /\ tmo s' g = tmo s g) /\
  pool s' = remove_first f (pool s) /\ pcount s' = Z.of_nat (length (pool s')).

Lemma comm_close_inv : forall s s' f, Inv s -> active s f = true -> own s f <> OInfra -> detached f s s' ->
  Inv (comm_close s' f).
Proof.
  intros s s' f I Ha Hno (D1 & D2 & D3 & D4 & D5 & D6 & D7 & D8).
  apply active_spec in Ha. destruct Ha as [Ho Hc]. pose proof (i_fd _ I f) as K.
  destruct (remove_first_nodup f _ (i_nodup _ I)) as [R1 R2]. rewrite D7 in D8.
  unfold comm_close. rewrite D1, D2, D3, D4, D5, D7, Hc, Ho. cbn [negb].
  apply (inv_change s _ f I); unfold active; cbn [tbl kern closing own hs tmo q pool pcount];
    rewrite ?upd_same, ?andb_false_r; try discriminate; auto.
  - intros g N. destruct (D6 g N) as [E1 E2]. unfold same_at. cbn [tbl kern closing own hs tmo q pool pcount].
    rewrite !upd_other, !ncomplete_app, ncomplete_handlers, ncomplete_one by assumption.
    destruct (Nat.eqb_spec f g); [congruence|]. rewrite R2. repeat split; auto; tauto.
  - apply I.
  - constructor; unfold active; cbn [tbl kern closing own hs tmo q pool pcount]; rewrite ?upd_same, ?andb_false_r;
      try discriminate; auto.
    + apply K.
    + intros L. destruct (k_infra _ _ K L) as (_ & _ & E). contradiction.
    + intros E. contradiction.
    + rewrite !ncomplete_app, ncomplete_handlers, ncomplete_one, (k_q _ _ K), Hc, Nat.eqb_refl. reflexivity.
    + intros P. apply R2 in P. tauto.
Qed.

(* HttpStateData::closeServer *)
Lemma close_server_inv : forall s f c, Inv s -> active s f = true -> own s f = OSrv c -> Inv (close_server s f).
Proof.
  intros s f c I Ha Ho. unfold close_server.
  pose proof (k_act _ _ (i_fd _ I f) Ha) as Hact. unfold act_ok in Hact. rewrite Ho in Hact. destruct Hact as (_ & _ & H3).
  apply (comm_close_inv s _ f I Ha); [congruence|].
  unfold detached, set_hs; cbn [tbl kern closing own hs tmo q pool pcount]. repeat split; auto.
  - now rewrite upd_other.
  - now rewrite remove_first_notin.
  - apply I.
Qed.

(* comm_close of a descriptor owned by a job (handlers left in place: they are scheduled) *)
Lemma comm_close_job_inv : forall s f, Inv s -> active s f = true -> is_job (own s f) = true -> Inv (comm_close s f).
Proof.
  intros s f I Ha Hj. pose proof (k_act _ _ (i_fd _ I f) Ha) as Hact. unfold act_ok in Hact.
  apply (comm_close_inv s s f I Ha); [destruct (own s f); discriminate|].
  unfold detached. repeat split; auto; [|apply I].
  rewrite remove_first_notin; [reflexivity|]. destruct (own s f); try discriminate; tauto.
Qed.

(* IdleConnList::findAndClose *)
Lemma find_and_close_inv : forall s f, Inv s -> Inv (find_and_close s f).
Proof.
  intros s f I. unfold find_and_close. destruct (existsb (Nat.eqb f) (pool s)) eqn:E; [|assumption].
  apply existsb_eqb_in in E. destruct (k_pool _ _ (i_fd _ I f) E) as [Ha Ho].
  apply (comm_close_inv s _ f I Ha); [congruence|].
  unfold detached; cbn [tbl kern closing own hs tmo q pool pcount]. repeat split; auto.
  - now rewrite upd_other.
  - pose proof (remove_first_length f _ E). pose proof (i_pcount _ I). lia.
Qed.

Definition ok (r : option st) : Prop := match r with Some s' => Inv s' | None => False end.

Definition set_q (s : st) (r : list call) : st :=
  mkSt (tbl s) (kern s) (closing s) (own s) (hs s) (tmo s) r (pool s) (pcount s).

Lemma dequeue_handler_inv : forall s o r, Inv s -> q s = CHandler o :: r -> Inv (set_q s r).
Proof.
  intros s o r I Hq. destruct I as [I1 I2 I3 I4 I5]. constructor; auto.
  intros f. apply (fd_ok_same s); [|apply I2]. unfold same_at. rewrite Hq. repeat split; auto.
Qed.

(* comm_close_complete: fd_close + close(2) *)
Lemma close_complete_inv : forall s f r, Inv s -> q s = CComplete f :: r -> ok (close_complete maxfd (set_q s r) f).
Proof.
  intros s f r I Hq. pose proof (complete_pending_closing s f r I Hq) as Hc. pose proof (i_fd _ I f) as K.
  destruct (k_closing _ _ K Hc) as (Ho & _ & _).
  pose proof (k_q _ _ K) as Hn. rewrite Hq, Hc in Hn. change (CComplete f :: r) with ([CComplete f] ++ r) in Hn, Hq.
  rewrite ncomplete_app, ncomplete_one, Nat.eqb_refl in Hn.
  unfold close_complete, set_q. cbn [tbl kern closing own hs tmo q pool pcount].
  destruct (fd_close_ok maxfd (tbl s) f (i_fds _ I) Ho) as (d' & -> & Hi & Hfl & _). cbn [ok].
  apply (inv_change s _ f I); unfold active; cbn [tbl kern closing own hs tmo q pool pcount];
    rewrite ?Hfl, ?upd_same; try discriminate; auto; try apply I.
  - intros g N. unfold same_at. cbn [tbl kern closing own hs tmo q pool pcount].
    rewrite Hfl, Hq, ncomplete_app, ncomplete_one, !upd_other by assumption.
    destruct (Nat.eqb_spec f g); [congruence|]. repeat split; auto.
  - constructor; unfold active; cbn [tbl kern closing own hs tmo q pool pcount]; rewrite ?Hfl, ?upd_same;
      try discriminate; auto.
    + intros L. destruct (k_infra _ _ K L) as (_ & E & _). congruence.
    + intros P. destruct (k_pool _ _ K P) as [A _]. apply active_spec in A. destruct A. congruence.
Qed.

(* accept(2)/socket(2) + fd_open + the owner job's close handler and timeout *)
Lemma open_new_inv : forall s o, Inv s -> is_job o = true ->
  ok (match find_own maxfd s o with
      | Some _ => Some s
      | None => match alloc maxfd s with None => Some s | Some f => open_new maxfd s f o end
      end).
Proof.
  intros s o I Hj. destruct (find_own maxfd s o) eqn:F; [exact I|]. pose proof (find_own_none _ _ I F) as Hfresh.
  destruct (alloc maxfd s) as [f|] eqn:Hal; [|exact I].
  destruct (alloc_some _ _ Hal) as [Hlt Hk]. pose proof (i_fd _ I f) as K.
  assert (Hop : fopen (tbl s) f = false) by (now rewrite <- (k_kern _ _ K)).
  assert (Hcl : closing s f = false).
  { destruct (closing s f) eqn:E; [|reflexivity]. destruct (k_closing _ _ K E). congruence. }
  assert (Hnp : ~ In f (pool s)).
  { intros P. destruct (k_pool _ _ K P) as [A _]. apply active_spec in A. destruct A. congruence. }
  unfold open_new. destruct (fd_open_ok maxfd (tbl s) f (i_fds _ I) Hlt) as (d' & -> & Hi & Hfl & _). cbn [ok].
  apply (inv_change s _ f I); unfold active; cbn [tbl kern closing own hs tmo q pool pcount];
    rewrite ?Hfl, ?upd_same; auto; try apply I.
  - intros g N. unfold same_at. cbn [tbl kern closing own hs tmo q pool pcount].
    rewrite Hfl, !upd_other by assumption. repeat split; auto.
  - constructor; unfold active, act_ok; cbn [tbl kern closing own hs tmo q pool pcount]; rewrite ?Hfl, ?upd_same;
      try discriminate; auto.
    + intros L. destruct (k_infra _ _ K L). congruence.
    + intros ->. discriminate.
    + now rewrite (k_q _ _ K), Hcl.
    + intros _. destruct o; try discriminate; auto.
    + contradiction.
Qed.

(* COMPLETE_PERSISTENT_MSG -> PconnPool::push *)
Lemma pool_push_inv : forall s f c, Inv s -> active s f = true -> own s f = OSrv c ->
  Inv (pool_push maxfd reserved s f).
Proof.
  intros s f c I Ha Ho. pose proof (i_fd _ I f) as K.
  pose proof (k_act _ _ K Ha) as Hact. unfold act_ok in Hact. rewrite Ho in Hact. destruct Hact as (_ & _ & H3).
  unfold pool_push. destruct (fd_usage_high maxfd reserved (fnum (tbl s))).
  - apply (comm_close_inv s _ f I Ha); [congruence|].
    unfold detached; cbn [tbl kern closing own hs tmo q pool pcount].
    repeat split; auto; try (now rewrite upd_other); [now rewrite remove_first_notin|apply I].
  - apply active_spec in Ha. destruct Ha as [Hop Hc].
    apply (inv_change s _ f I); unfold active; cbn [tbl kern closing own hs tmo q pool pcount];
      rewrite ?upd_same; try discriminate; auto; try apply I.
    + intros g N. unfold same_at. cbn [tbl kern closing own hs tmo q pool pcount In].
      rewrite !upd_other by assumption. repeat split; auto. intros [E|P]; [congruence|assumption].
    + constructor; unfold active, act_ok; cbn [tbl kern closing own hs tmo q pool pcount In]; rewrite ?upd_same;
        try discriminate; try apply K; auto.
      * intros L. destruct (k_infra _ _ K L) as (_ & _ & E). congruence.
      * congruence.
      * now rewrite Hop, Hc.
    + constructor; [exact H3|apply I].
    + rewrite (i_pcount _ I). cbn [length]. lia.
Qed.

(* PconnPool::pop with keepOpen: the newest idle connection becomes the server connection of transaction c *)
Lemma pop_keep_inv : forall s f rest c, Inv s -> pool s = f :: rest -> find_own maxfd s (OSrv c) = None ->
  Inv (mkSt (tbl s) (kern s) (closing s) (upd (own s) f (OSrv c)) (upd (hs s) f [OSrv c])
            (upd (upd (tmo s) f false) f true) (q s) rest (pcount s - 1)).
Proof.
  intros s f rest c I Hp Hnone. pose proof (i_fd _ I f) as K.
  pose proof (i_nodup _ I) as ND. pose proof (i_pcount _ I) as PC. rewrite Hp in ND, PC.
  inversion ND as [|? ? Hnin Hnd]; subst.
  destruct (k_pool _ _ K ltac:(rewrite Hp; now left)) as [Ha Ho]. apply active_spec in Ha. destruct Ha as [Hop Hc].
  apply (inv_change s _ f I); unfold active; cbn [tbl kern closing own hs tmo q pool pcount];
    rewrite ?upd_same; auto; try apply I.
  - intros g N. unfold same_at. cbn [tbl kern closing own hs tmo q pool pcount].
    rewrite Hp, !upd_other by assumption. cbn [In]. repeat split; auto. intros [E|P]; [congruence|assumption].
  - constructor; unfold active, act_ok; cbn [tbl kern closing own hs tmo q pool pcount]; rewrite ?upd_same;
      try discriminate; try apply K; auto.
    + intros L. destruct (k_infra _ _ K L) as (_ & _ & E). congruence.
    + congruence.
    + contradiction.
  - cbn [length] in PC. lia.
  - intros _ _ g _ A. exact (find_own_none _ _ I Hnone g A).
Qed.

(* PconnPool::pop without keepOpen: the popped connection is closed *)
Lemma pop_kill_inv : forall s f rest, Inv s -> pool s = f :: rest ->
  Inv (comm_close (mkSt (tbl s) (kern s) (closing s) (own s) (hs s) (upd (tmo s) f false) (q s) rest (pcount s - 1)) f).
Proof.
  intros s f rest I Hp. destruct (k_pool _ _ (i_fd _ I f) ltac:(rewrite Hp; now left)) as [Ha Ho].
  apply (comm_close_inv s _ f I Ha); [congruence|].
  unfold detached; cbn [tbl kern closing own hs tmo q pool pcount]. repeat split; auto.
  - now rewrite upd_other.
  - rewrite Hp. cbn [remove_first]. now rewrite Nat.eqb_refl.
  - pose proof (i_pcount _ I) as P3. rewrite Hp in P3. cbn [length] in P3. lia.
Qed.

(* every event preserves the invariant, and no assertion of fd.cc fires *)
Lemma step_inv : forall s e, Inv s -> ok (step maxfd reserved s e).
Proof.
  intros s e I. destruct e as [c|c|c keep|c pers|c|c keep|c|f|f|f|ab]; unfold step.
  - (* EAccept *) now apply open_new_inv.
  - (* EConnect *) now apply open_new_inv.
  - (* EPop *)
    destruct (pool s) as [|f rest] eqn:P; [exact I|].
    destruct keep.
    + destruct (find_own maxfd s (OSrv c)) eqn:F; [exact I|]. cbn [ok tbl kern closing own hs tmo q pool pcount].
      now apply pop_keep_inv.
    + cbn [ok]. now apply pop_kill_inv.
  - (* ESrvDone *)
    destruct (find_own maxfd s (OSrv c)) eqn:F; [|exact I].
    destruct (find_own_some _ _ _ F) as [Ha Ho]. cbn [ok].
    destruct pers; [eapply pool_push_inv; eauto|eapply close_server_inv; eauto].
  - (* ESrvFail *)
    destruct (find_own maxfd s (OSrv c)) eqn:F; [|exact I].
    destruct (find_own_some _ _ _ F) as [Ha Ho]. cbn [ok]. eapply close_server_inv; eauto.
  - (* ECliDone *)
    destruct (find_own maxfd s (OCli c)) eqn:F; [|exact I].
    destruct (find_own_some _ _ _ F) as [Ha Ho]. cbn [ok].
    destruct keep; [exact I|]. apply comm_close_job_inv; auto. now rewrite Ho.
  - (* ECliEOF *)
    destruct (find_own maxfd s (OCli c)) eqn:F; [|exact I].
    destruct (find_own_some _ _ _ F) as [Ha Ho]. cbn [ok].
    apply comm_close_job_inv; auto. now rewrite Ho.
  - (* ETimeout *)
    destruct (active s f && tmo s f) eqn:E; [|exact I].
    apply andb_true_iff in E. destruct E as [Ha Ht].
    destruct (own s f) eqn:Ho; cbn [ok]; try exact I.
    + apply comm_close_job_inv; auto. now rewrite Ho.
    + eapply close_server_inv; eauto.
    + now apply find_and_close_inv.
  - (* EIdleRead *)
    destruct (active s f) eqn:Ha; [|exact I].
    destruct (own s f) eqn:Ho; cbn [ok]; try exact I. now apply find_and_close_inv.
  - (* EClose *)
    destruct (active s f && is_job (own s f)) eqn:E; [|exact I].
    apply andb_true_iff in E. destruct E as [Ha Hj]. cbn [ok]. now apply comm_close_job_inv.
  - (* ERun *)
    destruct (q s) as [|[o|f] r] eqn:Q; [exact I| |].
    + pose proof (dequeue_handler_inv _ _ _ I Q) as I1. unfold set_q in I1.
      destruct o; try exact I1. destruct ab; [|exact I1].
      match goal with |- ok (match find_own maxfd ?x _ with _ => _ end) => set (s1 := x) in * end.
      destruct (find_own maxfd s1 (OSrv c)) eqn:F; [|exact I1].
      destruct (find_own_some _ _ _ F) as [Ha Ho]. cbn [ok]. eapply close_server_inv; eauto.
    + now apply (close_complete_inv s f r).
Qed.

Lemma run_inv : forall evs s, Inv s -> ok (run maxfd reserved s evs).
Proof.
  induction evs as [|e r IH]; intros s I; cbn [run]; [exact I|].
  pose proof (step_inv s e I) as H. destruct (step maxfd reserved s e); [|contradiction]. now apply IH.
Qed.

Lemma init_inv : Inv (init ninfra).
Proof.
  unfold init. constructor; cbn [tbl kern closing own hs tmo q pool pcount fopen fnum fbig]; auto.
  - destruct (only_below maxfd ninfra (fun f => f <? ninfra) Hinfra (fun f => Nat.ltb_lt f ninfra)) as [C L].
    unfold fds_inv. cbn [fnum fopen fbig]. rewrite C, L. split; [reflexivity|]. split; [|reflexivity].
    intros f Hf. apply Nat.ltb_lt in Hf. lia.
  - intros f. constructor; unfold active, act_ok; cbn [tbl kern closing own hs tmo q pool pcount fopen]; auto.
    + intros L. apply Nat.ltb_lt in L. rewrite L. auto.
    + destruct (f <? ninfra) eqn:E; [intros _; now apply Nat.ltb_lt|discriminate].
    + discriminate.
    + destruct (f <? ninfra); [trivial|discriminate].
    + contradiction.
  - constructor.
  - intros f g Hf _ _ Hj. unfold active in Hf. cbn [tbl fopen own] in Hf, Hj. destruct (f <? ninfra); discriminate.
Qed.

Lemma reachable_inv : forall evs s, run maxfd reserved (init ninfra) evs = Some s -> Inv s.
Proof.
  intros evs s H. pose proof (run_inv evs (init ninfra) init_inv) as R. rewrite H in R. exact R.
Qed.

Lemma never_asserts : forall evs, run maxfd reserved (init ninfra) evs <> None.
Proof.
  intros evs H. pose proof (run_inv evs (init ninfra) init_inv) as R. rewrite H in R. exact R.
Qed.

(* an open descriptor outside the infrastructure is being closed *)
Definition settled (s : st) (f : nat) : Prop := fopen (tbl s) f = true -> f < ninfra \/ closing s f = true.

Definition all_closing (s : st) : Prop := forall f, settled s f.

Lemma comm_close_settles : forall s f,
  settled (comm_close s f) f /\ (forall g, settled s g -> settled (comm_close s f) g).
Proof.
  intros s f. unfold comm_close, settled. destruct (closing s f) eqn:Ec; [auto|].
  destruct (fopen (tbl s) f) eqn:Eo; cbn [negb tbl closing]; [|split; [rewrite Eo; discriminate|auto]].
  split; [intros _; right; apply upd_same|]. intros g H Hop. destruct (H Hop) as [L|C]; [now left|right].
  destruct (Nat.eq_dec g f) as [->|N]; [apply upd_same|now rewrite upd_other].
Qed.

Lemma timeout_step : forall s f, Inv s ->
  exists s', step maxfd reserved s (ETimeout f) = Some s' /\ Inv s' /\ settled s' f /\
             (forall g, settled s g -> settled s' g).
Proof.
  intros s f I. pose proof (step_inv s (ETimeout f) I) as Hok. unfold step in *.
  assert (Hstay : settled s f -> exists s', Some s = Some s' /\ Inv s' /\ settled s' f /\
                                            (forall g, settled s g -> settled s' g)) by (exists s; auto).
  destruct (active s f && tmo s f) eqn:E.
  - apply andb_true_iff in E. destruct E as [Ha Ht].
    pose proof (k_act _ _ (i_fd _ I f) Ha) as Hact. unfold act_ok in Hact.
    destruct (own s f) eqn:Ho.
    + contradiction.
    + apply Hstay. intros _. left. now apply (k_infra2 _ _ (i_fd _ I f)).
    + eexists. split; [reflexivity|]. split; [exact Hok|]. apply comm_close_settles.
    + eexists. split; [reflexivity|]. split; [exact Hok|]. apply (comm_close_settles (set_hs s _) f).
    + destruct Hact as (_ & _ & Hin). apply existsb_eqb_in in Hin. unfold find_and_close in *. rewrite Hin in *.
      eexists. split; [reflexivity|]. split; [exact Hok|]. exact (comm_close_settles _ f).
  - apply Hstay. intros Hop. destruct (closing s f) eqn:Ec; [now right|left].
    assert (Ha : active s f = true) by (apply active_spec; auto). rewrite Ha in E. cbn [andb] in E.
    pose proof (k_act _ _ (i_fd _ I f) Ha) as Hact. unfold act_ok in Hact.
    destruct (own s f) eqn:Ho; [contradiction|now apply (k_infra2 _ _ (i_fd _ I f))| | |];
      destruct Hact as (_ & T & _); congruence.
Qed.

Lemma fire_list : forall l s, Inv s ->
  exists s1, run maxfd reserved s (map ETimeout l) = Some s1 /\ Inv s1 /\
             (forall f, In f l -> settled s1 f) /\ (forall g, settled s g -> settled s1 g).
Proof.
  induction l as [|f r IH]; intros s I; cbn [map run].
  - exists s. split; [reflexivity|]. split; [exact I|]. split; [contradiction|auto].
  - destruct (timeout_step s f I) as (s' & -> & I' & Hf & Hm). destruct (IH s' I') as (s1 & Hr & I1 & Hf1 & Hm1).
    exists s1. split; [exact Hr|]. split; [exact I1|]. split; [|auto]. intros g [<-|Hin]; auto.
Qed.

Lemma fire_timeouts_ok : forall s, Inv s ->
  exists s1, fire_timeouts maxfd reserved s = Some s1 /\ Inv s1 /\ all_closing s1.
Proof.
  intros s I. unfold fire_timeouts. destruct (fire_list (seq 0 maxfd) s I) as (s1 & Hr & I1 & Hf & _).
  exists s1. split; [exact Hr|]. split; [exact I1|]. intros f Hop. apply Hf; [|exact Hop].
  apply in_seq. pose proof (proj1 (proj2 (i_fds _ I1)) f Hop). lia.
Qed.

Lemma run_step_allc : forall s c r, Inv s -> all_closing s -> q s = c :: r ->
  exists s1, step maxfd reserved s (ERun true) = Some s1 /\ Inv s1 /\ all_closing s1 /\ q s1 = r.
Proof.
  intros s c r I AC Hq. pose proof (step_inv s (ERun true) I) as Hok. unfold step in *. rewrite Hq in *.
  destruct c as [o|f].
  - (* nothing outside the infrastructure is active, so a close handler finds no server connection to abort *)
    assert (Hnone : forall c, find_own maxfd (mkSt (tbl s) (kern s) (closing s) (own s) (hs s) (tmo s) r (pool s) (pcount s))
                                (OSrv c) = None).
    { intros c. match goal with |- ?x = None => destruct x eqn:F end; [|reflexivity].
      destruct (find_own_some _ _ _ F) as [Ha Ho]. apply active_spec in Ha. cbn [tbl closing own] in *.
      destruct Ha as [A1 A2]. destruct (AC n A1) as [L|C]; [|congruence].
      destruct (k_infra _ _ (i_fd _ I n) L) as (_ & _ & E). congruence. }
    destruct o; rewrite ?Hnone in *; eexists; (split; [reflexivity|split; [exact Hok|split; [exact AC|reflexivity]]]).
  - pose proof (complete_pending_closing s f r I Hq) as Hcl. destruct (k_closing _ _ (i_fd _ I f) Hcl) as (Hof & _ & _).
    unfold close_complete in *. cbn [tbl] in *.
    destruct (fd_close_ok maxfd (tbl s) f (i_fds _ I) Hof) as (d' & Hc' & _ & Hfl & _). rewrite Hc' in *.
    eexists. split; [reflexivity|]. split; [exact Hok|]. split; [|reflexivity].
    intros g. unfold settled. cbn [tbl closing]. rewrite Hfl.
    destruct (Nat.eq_dec g f) as [->|Hne]; [rewrite upd_same; discriminate|]. rewrite !upd_other by assumption. apply AC.
Qed.

Lemma drain_allc : forall n s, Inv s -> all_closing s -> length (q s) <= n ->
  exists s', drain maxfd reserved n s = Some s' /\ Inv s' /\ all_closing s' /\ q s' = [].
Proof.
  induction n as [|n IH]; intros s I AC Hl; cbn [drain].
  - exists s. split; [reflexivity|]. split; [exact I|]. split; [exact AC|]. destruct (q s); [reflexivity|cbn in Hl; lia].
  - destruct (q s) as [|c r] eqn:Hq; [exists s; auto|].
    destruct (run_step_allc s c r I AC Hq) as (s1 & Hs & I1 & AC1 & Hq1). rewrite Hs.
    apply IH; auto. rewrite Hq1. cbn in Hl. lia.
Qed.

(* the quiescent state: only the infrastructure descriptors are open, in the table and in the kernel *)
Definition quiescent (s : st) : Prop :=
  q s = [] /\ (forall f, fopen (tbl s) f = true <-> f < ninfra) /\
  (forall f, kern s f = fopen (tbl s) f) /\ (forall f, closing s f = false) /\
  fnum (tbl s) = Z.of_nat ninfra /\ fbig (tbl s) = (Z.of_nat ninfra - 1)%Z /\
  pool s = [] /\ pcount s = 0%Z.

Lemma allc_empty_quiescent : forall s, Inv s -> all_closing s -> q s = [] -> quiescent s.
Proof.
  intros s I AC Hq.
  assert (Hnc : forall f, closing s f = false) by (intros f; exact (empty_queue_not_closing s f I Hq)).
  assert (Hopen : forall f, fopen (tbl s) f = true <-> f < ninfra).
  { intros f. split.
    - intros Hop. destruct (AC f Hop) as [L|C]; [assumption|]. rewrite Hnc in C. discriminate.
    - intros L. apply (k_infra _ _ (i_fd _ I f) L). }
  destruct (only_below maxfd ninfra (fopen (tbl s)) Hinfra Hopen) as [C L].
  destruct (i_fds _ I) as (Hn & Hb & Hg).
  assert (Hpool : pool s = []).
  { destruct (pool s) as [|f r] eqn:Hp; [reflexivity|].
    destruct (k_pool _ _ (i_fd _ I f) ltac:(rewrite Hp; now left)) as [A B].
    apply active_spec in A. destruct A as [A _]. apply Hopen in A.
    destruct (k_infra _ _ (i_fd _ I f) A) as (_ & _ & E). congruence. }
  repeat split; auto.
  - apply Hopen.
  - apply Hopen.
  - intros f. apply (i_fd _ I f).
  - now rewrite Hn, C.
  - now rewrite Hg, L.
  - now rewrite (i_pcount _ I), Hpool.
Qed.

Lemma settle_quiescent : forall s, Inv s -> exists s', settle maxfd reserved s = Some s' /\ Inv s' /\ quiescent s'.
Proof.
  intros s I. unfold settle. destruct (fire_timeouts_ok s I) as (s1 & Hf & I1 & AC1). rewrite Hf.
  destruct (drain_allc (length (q s1)) s1 I1 AC1 (le_n _)) as (s' & Hd & I' & AC' & Hq').
  exists s'. split; [exact Hd|]. split; [exact I'|]. now apply allc_empty_quiescent.
Qed.

(* after ANY history of events: when every armed timeout has fired and the call queue has run dry, exactly the
   descriptors that were open before traffic are open *)
Lemma quiescence : forall evs s, run maxfd reserved (init ninfra) evs = Some s ->
  exists s', settle maxfd reserved s = Some s' /\ quiescent s'.
Proof.
  intros evs s H. destruct (settle_quiescent s (reachable_inv evs s H)) as (s' & A & _ & B). eauto.
Qed.

Lemma init_quiescent : quiescent (init ninfra).
Proof.
  apply allc_empty_quiescent; [exact init_inv| |reflexivity].
  intros f Hf. left. cbn in Hf. now apply Nat.ltb_lt.
Qed.

(* with an empty call queue, every open descriptor is accounted for: infrastructure, a live job with an armed
   timeout and its close handler, or an idle pool entry with an armed timeout *)
Lemma no_orphans : forall s f, Inv s -> q s = [] -> fopen (tbl s) f = true ->
  kern s f = true /\ closing s f = false /\
  ((f < ninfra /\ own s f = OInfra) \/
   (exists c, (own s f = OCli c \/ own s f = OSrv c) /\ hs s f = [own s f] /\ tmo s f = true /\ ~ In f (pool s)) \/
   (own s f = OIdle /\ In f (pool s) /\ tmo s f = true /\ hs s f = [])).
Proof.
  intros s f I Hq Hop.
  pose proof (empty_queue_not_closing s f I Hq) as Hnc.
  split; [now rewrite (k_kern _ _ (i_fd _ I f))|]. split; [exact Hnc|].
  assert (Ha : active s f = true) by (apply active_spec; auto).
  pose proof (k_act _ _ (i_fd _ I f) Ha) as Hact. unfold act_ok in Hact.
  destruct (own s f) eqn:Ho.
  - contradiction.
  - left. split; [now apply (k_infra2 _ _ (i_fd _ I f))|reflexivity].
  - right. left. exists c. destruct Hact as (A & B & C). repeat split; auto.
  - right. left. exists c. destruct Hact as (A & B & C). repeat split; auto.
  - right. right. destruct Hact as (A & B & C). auto.
Qed.

Lemma one_descriptor_per_job : forall s f g, Inv s -> active s f = true -> active s g = true ->
  own s f = own s g -> is_job (own s f) = true -> f = g.
Proof. intros s f g I. apply (i_uniq _ I). Qed.

Lemma reachable_accounting : forall evs s, run maxfd reserved (init ninfra) evs = Some s ->
  fnum (tbl s) = Z.of_nat (count_open maxfd (fopen (tbl s))) /\
  fbig (tbl s) = lower (fopen (tbl s)) maxfd /\
  (forall f, kern s f = fopen (tbl s) f) /\
  (forall f, fopen (tbl s) f = true -> f < maxfd) /\
  (forall f, ncomplete f (q s) = if closing s f then 1 else 0) /\
  pcount s = Z.of_nat (length (pool s)).
Proof.
  intros evs s H. pose proof (reachable_inv evs s H) as I. destruct (i_fds _ I) as (A & B & C).
  repeat split; auto; try apply I.
Qed.

(* closing a client connection from anywhere notifies its owner before the descriptor is released *)
Lemma close_notifies_owner : forall s f o, Inv s -> active s f = true -> own s f = o -> is_job o = true ->
  exists s', step maxfd reserved s (EClose f) = Some s' /\
             q s' = q s ++ [CHandler o; CComplete f] /\ closing s' f = true /\ fopen (tbl s') f = true.
Proof.
  intros s f o I Ha Ho Hj. unfold step. rewrite Ha, Ho, Hj. cbn [andb].
  pose proof (k_act _ _ (i_fd _ I f) Ha) as Hact. unfold act_ok in Hact. rewrite Ho in Hact.
  assert (Hh : hs s f = [o]) by (destruct o; try discriminate; tauto).
  eexists. split; [reflexivity|]. apply active_spec in Ha. destruct Ha as [A B].
  unfold comm_close. rewrite B, A. cbn [negb q closing tbl]. rewrite Hh, upd_same. auto.
Qed.

(* when the client's close handler runs and the transaction is aborted, its server connection is released too *)
Lemma owner_end_releases_server : forall s c r f, Inv s -> q s = CHandler (OCli c) :: r ->
  active s f = true -> own s f = OSrv c ->
  exists s', step maxfd reserved s (ERun true) = Some s' /\ closing s' f = true /\
             q s' = r ++ [CComplete f].
Proof.
  intros s c r f I Hq Ha Ho. unfold step. rewrite Hq.
  pose proof (dequeue_handler_inv _ _ _ I Hq) as I1. unfold set_q in I1.
  match goal with |- context [find_own maxfd ?x _] => set (s1 := x) in * end.
  destruct (find_own maxfd s1 (OSrv c)) as [g|] eqn:F.
  - destruct (find_own_some _ _ _ F) as [Hag Hog].
    assert (g = f).
    { apply (i_uniq _ I1 g f); auto. rewrite Hog. exact (eq_sym Ho). now rewrite Hog. }
    subst g. eexists. split; [reflexivity|]. unfold close_server.
    apply active_spec in Hag. destruct Hag as [A B]. unfold comm_close.
    cbn [closing tbl set_hs hs q] in *. rewrite B, A. cbn [negb closing q hs]. rewrite !upd_same. auto.
  - exfalso. eapply (find_own_none _ _ I1 F f); auto.
Qed.

(* PconnPool::push refuses (closes) the connection when descriptor usage is high *)
Lemma push_refused_when_fd_usage_high : forall s c f, Inv s -> find_own maxfd s (OSrv c) = Some f ->
  fd_usage_high maxfd reserved (fnum (tbl s)) = true ->
  exists s', step maxfd reserved s (ESrvDone c true) = Some s' /\ pool s' = pool s /\ closing s' f = true.
Proof.
  intros s c f I F Hh. unfold step. rewrite F. destruct (find_own_some _ _ _ F) as [Ha Ho].
  eexists. split; [reflexivity|]. unfold pool_push. rewrite Hh.
  apply active_spec in Ha. destruct Ha as [A B]. unfold comm_close. cbn [closing tbl]. rewrite B, A.
  cbn [negb pool closing]. rewrite upd_same. auto.
Qed.

Lemma drain_inv : forall n s, Inv s -> ok (drain maxfd reserved n s).
Proof.
  induction n as [|n IH]; intros s I; cbn [drain]; [exact I|].
  destruct (q s); [exact I|].
  pose proof (step_inv s (ERun true) I) as H. destruct (step maxfd reserved s (ERun true)); [|contradiction].
  now apply IH.
Qed.

Lemma run_macro_inv : forall s m, Inv s -> ok (run_macro maxfd reserved s m).
Proof.
  intros s m I. destruct m as [e|c retr| |]; unfold run_macro.
  - now apply step_inv.
  - destruct (pool s); [now apply step_inv|]. destruct retr; [now apply step_inv|].
    pose proof (step_inv s (EPop c false) I) as H.
    destruct (step maxfd reserved s (EPop c false)); [|contradiction]. now apply step_inv.
  - destruct (pool s); [exact I|now apply step_inv].
  - now apply drain_inv.
Qed.

Lemma run_macros_inv : forall ms s, Inv s -> ok (run_macros maxfd reserved s ms).
Proof.
  induction ms as [|m r IH]; intros s I; cbn [run_macros]; [exact I|].
  pose proof (run_macro_inv s m I) as H. destruct (run_macro maxfd reserved s m); [|contradiction]. now apply IH.
Qed.

Lemma run_seq_inv : forall txs s, Inv s ->
  match run_seq maxfd reserved s txs with Some (s', _) => Inv s' | None => False end.
Proof.
  induction txs as [|t r IH]; intros s I; cbn [run_seq]; [exact I|].
  pose proof (run_macros_inv (t ++ [MDrain]) s I) as H.
  destruct (run_macros maxfd reserved s (t ++ [MDrain])) as [s1|]; [|contradiction].
  specialize (IH s1 H). destruct (run_seq maxfd reserved s1 r) as [[s2 l]|]; [exact IH|contradiction].
Qed.

Lemma observe_quiescent : forall s, quiescent s ->
  qo_leak (observe maxfd (init ninfra) s) = 0%Z /\ qo_kleak (observe maxfd (init ninfra) s) = 0%Z /\
  qo_acct (observe maxfd (init ninfra) s) = true /\ qo_idle (observe maxfd (init ninfra) s) = 0 /\
  qo_queue (observe maxfd (init ninfra) s) = 0.
Proof.
  intros s (Hq & Hop & Hk & Hc & Hn & Hb & Hp & Hpc).
  destruct (only_below maxfd ninfra (fopen (tbl s)) Hinfra Hop) as [C1 _].
  assert (C2 : count_open maxfd (kern s) = ninfra).
  { rewrite (count_ext maxfd _ (fopen (tbl s))) by (intros; apply Hk). exact C1. }
  assert (C3 : count_open maxfd (fun f => f <? ninfra) = ninfra) by (rewrite count_ltb; lia).
  unfold observe. cbn [qo_leak qo_kleak qo_acct qo_idle qo_queue init tbl kern fnum].
  rewrite C1, C2, C3, Hn, Hp, Hq. rewrite Z.eqb_refl, Nat.eqb_refl. cbn [andb length].
  repeat split; lia.
Qed.

(* the prediction printed by the runner: for EVERY list of transactions the model runs without a failed assertion
   and ends with no extra descriptor, consistent accounting, an empty pool and an empty call queue *)
Lemma hist_prediction : forall seqmode txs,
  exists o idle, hist_result maxfd ninfra reserved seqmode txs = Some (o, idle) /\
                 qo_leak o = 0%Z /\ qo_kleak o = 0%Z /\ qo_acct o = true /\ qo_idle o = 0 /\ qo_queue o = 0.
Proof.
  intros seqmode txs. unfold hist_result. destruct seqmode.
  - pose proof (run_seq_inv txs (init ninfra) init_inv) as H.
    destruct (run_seq maxfd reserved (init ninfra) txs) as [[s1 idle]|]; [|contradiction].
    destruct (settle_quiescent s1 H) as (s2 & Hs & _ & Q). rewrite Hs.
    exists (observe maxfd (init ninfra) s2), idle. split; [reflexivity|]. now apply observe_quiescent.
  - pose proof (run_macros_inv (rr (length (concat txs)) txs) (init ninfra) init_inv) as H.
    destruct (run_macros maxfd reserved (init ninfra) (rr (length (concat txs)) txs)) as [s1|]; [|contradiction].
    destruct (settle_quiescent s1 H) as (s2 & Hs & _ & Q). rewrite Hs.
    exists (observe maxfd (init ninfra) s2), []. split; [reflexivity|]. now apply observe_quiescent.
Qed.

End ProtoProofs.

Lemma comm_close_idempotent : forall s f, comm_close (comm_close s f) f = comm_close s f.
Proof.
  intros s f.
  assert (H : forall s', closing s' f = true -> comm_close s' f = s').
  { intros s' Hc. unfold comm_close. now rewrite Hc. }
  destruct (closing s f) eqn:Ec.
  - now rewrite !(H s Ec).
  - destruct (fopen (tbl s) f) eqn:Eo.
    + apply H. unfold comm_close. rewrite Ec, Eo. cbn [negb closing]. apply upd_same.
    + assert (E : comm_close s f = s) by (unfold comm_close; now rewrite Ec, Eo). now rewrite !E.
Qed.

(* the close handlers are scheduled once each, in list order (most recently added first), followed by
   comm_close_complete; the handler list is left empty and the timeout removed *)
Lemma comm_close_schedules : forall s f, active s f = true ->
  q (comm_close s f) = q s ++ map CHandler (hs s f) ++ [CComplete f] /\
  hs (comm_close s f) f = [] /\ tmo (comm_close s f) f = false /\ closing (comm_close s f) f = true.
Proof.
  intros s f Ha. apply andb_true_iff in Ha. destruct Ha as [Ho Hc].
  unfold comm_close. destruct (closing s f); [discriminate|]. rewrite Ho. cbn [negb q hs tmo closing].
  rewrite !upd_same. auto.
Qed.

Section Reach.
Variable maxfd : nat.
Variable ninfra : nat.
Variable reserved : Z.
Hypothesis Hinfra : ninfra <= maxfd.

Definition reachable (s : st) : Prop := exists evs, run maxfd reserved (init ninfra) evs = Some s.

Lemma reach_inv : forall s, reachable s -> Inv maxfd ninfra s.
Proof. intros s [evs H]. eapply reachable_inv; eauto. Qed.

Lemma reach_step : forall s e, reachable s -> exists s', step maxfd reserved s e = Some s' /\ reachable s'.
Proof.
  intros s e [evs H]. pose proof (step_inv maxfd ninfra reserved Hinfra s e (reachable_inv _ _ _ Hinfra evs s H)) as Hok.
  destruct (step maxfd reserved s e) as [s'|] eqn:E; [|contradiction].
  exists s'. split; [reflexivity|]. exists (evs ++ [e]).
  clear Hok. revert H. generalize (init ninfra). induction evs as [|x r IH]; intros s0 H; cbn [run app] in *.
  - inversion H; subst. now rewrite E.
  - destruct (step maxfd reserved s0 x); [now apply IH|discriminate].
Qed.

Lemma reach_quiescence : forall s, reachable s -> exists s', settle maxfd reserved s = Some s' /\ quiescent ninfra s'.
Proof. intros s [evs H]. eapply quiescence; eauto. Qed.

End Reach.
