(* AdversarialHttpProofs.v -- C09: outcome trichotomies for adversarial HTTP byte streams, composed from the proved
   theorems about the parser models of C21/C22/C62 (ReqparseModel), C23 (RespparseModel) and C24 (ChunkedModel).
   Kept apart from AdversarialProofs.v (C39) so that the datagram-decoder development does not depend on those models.
   The models are imported, never edited. *)
Require Import SquidV.Bytes SquidV.TokModel SquidV.Incremental SquidV.ReqparseModel SquidV.ReqparseProofs.
Require Import SquidV.gen.CharSets_gen SquidV.gen.ReqTabs_gen.
Local Open Scope N_scope.

(* what the client side can do with a request byte stream, whatever the bytes and however they are cut *)
Definition request_outcome_ok (limit : N) (input : bytes) (o : outcome) : Prop :=
  match o with
  | Done f rest =>
      (* accepted: tolerated empty lines ++ request line ++ LF ++ header block ++ unconsumed rest IS the input *)
      exists lead line block,
        input = lead ++ line ++ [10] ++ block ++ rest /\ lenN line < limit /\
        (if f_http f && (f_major f =? 1)
         then lenN (f_mimg f) + lenN (f_uri f) + req_fls_extra + lenN block < limit else block = [])
  | Bad (c, _) => c = rq_sc_bad_request \/ c = rq_sc_uri_too_long \/ c = rq_sc_fields_too_large
  | More _ keep => lenN keep < limit
  end.

Lemma request_stream_trichotomy relaxed limit : req_max_method + 2 <= limit ->
  forall segs, segs <> [] -> lenN (concat segs) <= npos ->
  request_outcome_ok limit (concat segs) (parse_segments relaxed limit segs).
Proof.
  intros HL segs Hne Hfit. pose proof (segments_bounded relaxed limit segs HL Hne Hfit) as B.
  unfold request_outcome_ok. destruct (parse_segments relaxed limit segs) as [f rest | [c f] | s keep] eqn:E.
  - destruct (accepted_segments_within_limits relaxed limit HL segs f rest Hne Hfit E)
      as (lead & line & block & A & _ & _ & C & D).
    exists lead, line, block. split; [exact A | split; [exact C | exact D]].
  - exact B.
  - exact B.
Qed.

Definition reply_decision_ok (limit fls : N) (buf : bytes) (d : resp_head) : Prop :=
  match d with
  | RHrelay n => fls + n < limit /\ 0 < n /\ n <= lenN buf
  | RHtoobig => True
  | RHmore => lenN buf + fls < limit
  end.

Lemma reply_head_trichotomy limit fls buf : reply_decision_ok limit fls buf (resp_head_decision limit fls buf).
Proof.
  unfold reply_decision_ok. destruct (resp_head_decision limit fls buf) as [n | |] eqn:E.
  - exact (resp_relay_within_limit limit fls buf n E).
  - exact I.
  - destruct (resp_decision_stable limit fls buf []) as (_ & _ & H). exact (H E).
Qed.
