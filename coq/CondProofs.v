Require Import SquidV.Bytes SquidV.HopModel SquidV.HopProofs SquidV.CondModel.
Require Import SquidV.gen.HdrTable_gen.
Require Import ZifyBool.
Local Open Scope N_scope.

Definition no_nul (l : bytes) : bool := forallb (fun c => negb (c =? 0)) l.
Lemma no_nul_app a b : no_nul (a ++ b) = no_nul a && no_nul b.
Proof. apply forallb_app. Qed.

(* the text of an entity-tag: optional W/ then DQUOTE mid DQUOTE *)
Definition render_tag (w : bool) (mid : bytes) : bytes := (if w then [87; 47] else []) ++ 34 :: mid ++ [34].

Lemma is_quoted_iff t : is_quoted t = true <-> exists mid, t = 34 :: mid ++ [34].
Proof.
  split.
  - destruct t as [|c r]; cbn [is_quoted]; [discriminate|].
    destruct (c =? 34) eqn:Ec; cbn [andb]; [|discriminate]. apply N.eqb_eq in Ec. subst c.
    destruct (rev r) as [|d x] eqn:E; [discriminate|].
    intros Hd. apply N.eqb_eq in Hd. subst d.
    exists (rev x). f_equal. rewrite <- (rev_involutive r), E. reflexivity.
  - intros [mid ->]. cbn [is_quoted]. rewrite rev_app_distr. reflexivity.
Qed.

Lemma etag_parse_render w mid :
  no_nul mid = true ->
  etag_parse (render_tag w mid) = Some {| et_weak := w; et_str := 34 :: mid ++ [34] |}.
Proof.
  intros Hn. unfold etag_parse.
  assert (Hq : is_quoted (34 :: mid ++ [34]) = true) by (apply is_quoted_iff; now exists mid).
  assert (Hnn : no_nul (render_tag w mid) = true).
  { unfold render_tag, no_nul in *. rewrite forallb_app. cbn [forallb]. rewrite forallb_app, Hn.
    destruct w; reflexivity. }
  rewrite (c_str_id _ Hnn). unfold render_tag. destruct w.
  - change ([87; 47] ++ 34 :: mid ++ [34]) with (87 :: 47 :: 34 :: mid ++ [34]).
    replace (starts_with (87 :: 47 :: 34 :: mid ++ [34]) [87; 47]) with true by reflexivity.
    replace (dropN 2 (87 :: 47 :: 34 :: mid ++ [34])) with (34 :: mid ++ [34]) by reflexivity.
    now rewrite Hq.
  - change ([] ++ 34 :: mid ++ [34]) with (34 :: mid ++ [34]).
    replace (starts_with (34 :: mid ++ [34]) [87; 47]) with false by reflexivity.
    now rewrite Hq.
Qed.

(* accepted exactly: [W/] DQUOTE ... DQUOTE (for NUL-free strings, which is all a header value can be) *)
Theorem etag_parse_spec s t :
  no_nul s = true ->
  (etag_parse s = Some t <-> exists mid, s = render_tag (et_weak t) mid /\ et_str t = 34 :: mid ++ [34]).
Proof.
  intros Hn. split.
  - unfold etag_parse. rewrite (c_str_id s Hn).
    destruct (starts_with s [87; 47]) eqn:Ew.
    + destruct s as [|a [|b s2]]; cbn [starts_with] in Ew; try discriminate.
      apply andb_prop in Ew. destruct Ew as [Ea Eb]. apply andb_prop in Eb. destruct Eb as [Eb _].
      apply N.eqb_eq in Ea, Eb. subst a b.
      assert (Hd : dropN 2 (87 :: 47 :: s2) = s2) by (destruct s2; reflexivity). rewrite Hd.
      destruct (is_quoted s2) eqn:Eq; [|discriminate].
      intros H. injection H as <-. cbn [et_weak et_str]. apply is_quoted_iff in Eq. destruct Eq as [mid ->].
      exists mid. split; reflexivity.
    + destruct (is_quoted s) eqn:Eq; [|discriminate].
      intros H. injection H as <-. cbn [et_weak et_str]. apply is_quoted_iff in Eq. destruct Eq as [mid Em].
      exists mid. split; [|exact Em]. unfold render_tag. cbn [app]. exact Em.
  - intros [mid [Hs Ht]]. subst s.
    assert (Hm : no_nul mid = true).
    { unfold render_tag, no_nul in Hn. rewrite forallb_app in Hn. apply andb_prop in Hn. destruct Hn as [_ Hn].
      cbn [forallb] in Hn. apply andb_prop in Hn. destruct Hn as [_ Hn]. rewrite forallb_app in Hn.
      now apply andb_prop in Hn. }
    rewrite (etag_parse_render _ _ Hm). destruct t as [w st]. cbn [et_weak et_str] in *. now subst st.
Qed.

Theorem weak_eq_spec a b : etag_weak_eq a b = true <-> et_str a = et_str b.
Proof. unfold etag_weak_eq, etag_strings_match. apply list_eqb_iff. Qed.
Theorem strong_eq_spec a b :
  etag_strong_eq a b = true <-> et_weak a = false /\ et_weak b = false /\ et_str a = et_str b.
Proof.
  unfold etag_strong_eq, etag_strings_match. rewrite !andb_true_iff, !negb_true_iff, list_eqb_iff. tauto.
Qed.
Theorem weak_eq_equivalence :
  (forall a, etag_weak_eq a a = true) /\
  (forall a b, etag_weak_eq a b = etag_weak_eq b a) /\
  (forall a b c, etag_weak_eq a b = true -> etag_weak_eq b c = true -> etag_weak_eq a c = true).
Proof.
  repeat split.
  - intros a. apply weak_eq_spec. reflexivity.
  - intros a b. apply Bool.eq_iff_eq_true. rewrite !weak_eq_spec. split; congruence.
  - intros a b c H1 H2. apply weak_eq_spec in H1, H2. apply weak_eq_spec. congruence.
Qed.
Theorem strong_implies_weak a b : etag_strong_eq a b = true -> etag_weak_eq a b = true.
Proof. intros H. apply strong_eq_spec in H. apply weak_eq_spec. tauto. Qed.

Section Decision.
Variable pd : bytes -> Z.

Definition im_present (r : creq) := has_id ID_IF_MATCH (rq_hdrs r).
Definition inm_present (r : creq) := has_id ID_IF_NONE_MATCH (rq_hdrs r).
(* effective modification time is known and not later than the client's date *)
Definition not_modified_since (e : centry) (ims : Z) : Prop :=
  (0 <= last_modified pd e <= ims)%Z.

Lemma modified_since_false e ims : modified_since pd e ims = false <-> not_modified_since e ims.
Proof.
  unfold modified_since, not_modified_since.
  destruct (last_modified pd e <? 0)%Z eqn:E1; [split; [discriminate|lia]|].
  destruct (ims <? last_modified pd e)%Z eqn:E2; [split; [discriminate|lia]|].
  destruct (last_modified pd e <? ims)%Z eqn:E3; split; intros; try reflexivity; lia.
Qed.

(* 304 exactly when: stored 200, If-Match (if any) holds, and either If-None-Match is present, matches and the method
   is GET/HEAD, or If-None-Match is absent and a parsed If-Modified-Since (> 0) covers the modification time.
   412 exactly when: stored 200 and If-Match fails, or (If-Match holds and) If-None-Match matches on a non-GET/HEAD *)
Theorem verdict_iffs r e :
  (process_conditional pd r e = V304 <->
   en_status e = 200 /\
   (im_present r = true -> has_if_match_etag e r = true) /\
   ((inm_present r = true /\ has_if_none_match_etag e r = true /\ rq_get_or_head r = true) \/
    (inm_present r = false /\ (0 < rq_ims pd r)%Z /\ not_modified_since e (rq_ims pd r)))) /\
  (process_conditional pd r e = V412 <->
   en_status e = 200 /\
   ((im_present r = true /\ has_if_match_etag e r = false) \/
    ((im_present r = true -> has_if_match_etag e r = true) /\
     inm_present r = true /\ has_if_none_match_etag e r = true /\ rq_get_or_head r = false))).
Proof.
  unfold process_conditional, im_present, inm_present, ims_flag.
  rewrite <- modified_since_false, <- (Z.ltb_lt 0), <- (N.eqb_eq (en_status e)).
  destruct (en_status e =? 200); cbn [negb]; [|intuition discriminate].
  destruct (has_id ID_IF_MATCH (rq_hdrs r)), (has_if_match_etag e r); cbn [andb negb]; try (intuition discriminate).
  all: destruct (has_id ID_IF_NONE_MATCH (rq_hdrs r)).
  all: try (destruct (has_if_none_match_etag e r), (rq_get_or_head r); intuition discriminate).
  all: destruct (0 <? rq_ims pd r)%Z, (modified_since pd e (rq_ims pd r)); intuition discriminate.
Qed.

(* everything else is a full response: a plain hit, or (stored status other than 200) a forwarded miss *)
Theorem verdict_otherwise_full r e :
  process_conditional pd r e <> V304 -> process_conditional pd r e <> V412 ->
  (process_conditional pd r e = VHit /\ en_status e = 200) \/ (process_conditional pd r e = VMiss /\ en_status e <> 200).
Proof.
  unfold process_conditional.
  destruct (en_status e =? 200) eqn:Es; cbn [negb].
  2:{ intros _ _. right. split; [reflexivity|]. now apply N.eqb_neq. }
  apply N.eqb_eq in Es. intros H1 H2. left. split; [|exact Es].
  destruct (has_id ID_IF_MATCH (rq_hdrs r) && negb (has_if_match_etag e r)); [contradiction|].
  destruct (has_id ID_IF_NONE_MATCH (rq_hdrs r)).
  - destruct (has_if_none_match_etag e r); [destruct (rq_get_or_head r); contradiction|reflexivity].
  - destruct (ims_flag pd r); [|reflexivity]. destruct (modified_since pd e (rq_ims pd r)); [reflexivity|contradiction].
Qed.

(* a request that is not conditional is never answered 304/412 from the hit path *)
Theorem unconditional_is_hit r e : is_conditional pd r = false -> hit_verdict pd r e = VHit.
Proof. unfold hit_verdict. now intros ->. Qed.
End Decision.

(* If-None-Match makes If-Modified-Since irrelevant: with If-None-Match present the verdict is the same for every
   date parser, i.e. whatever the If-Modified-Since / Last-Modified values are *)
Theorem inm_overrides_ims pd1 pd2 r e :
  has_id ID_IF_NONE_MATCH (rq_hdrs r) = true -> hit_verdict pd1 r e = hit_verdict pd2 r e.
Proof.
  intros H. unfold hit_verdict, is_conditional, process_conditional. rewrite H, !orb_true_r. reflexivity.
Qed.

(* weak comparison is used only for GET/HEAD without Range *)
Theorem weak_only_get_head_unranged e r :
  (rq_ranged r = true \/ rq_get_or_head r = false) ->
  has_if_none_match_etag e r = has_one_of_etags (get_etag (en_hdrs e)) (get_list ID_IF_NONE_MATCH (rq_hdrs r)) false.
Proof.
  intros H. unfold has_if_none_match_etag, allow_weak_match.
  destruct H as [-> | ->]; [reflexivity|]. now rewrite andb_false_r.
Qed.
(* If-Match always uses the strong comparison *)
Theorem if_match_is_strong e r :
  has_if_match_etag e r = has_one_of_etags (get_etag (en_hdrs e)) (get_list ID_IF_MATCH (rq_hdrs r)) false.
Proof. reflexivity. Qed.

(* An element of an If-Match / If-None-Match list: `*` or an entity-tag, followed by optional whitespace (el_ws)
   and, when another element follows, a comma and any mix of whitespace and further commas (el_dl). *)
Record elem := { el_star : bool; el_weak : bool; el_mid : bytes; el_ws : bytes; el_dl : bytes }.
Definition elem_text (e : elem) : bytes := if el_star e then asterisk else render_tag (el_weak e) (el_mid e).
Definition is_dl (c : N) : bool := is_ows c || (c =? 44).
(* etagc of RFC 7232 minus the backslash: any byte except DQUOTE, backslash, NUL *)
Definition etagc_nb (c : N) : bool := negb (c =? 34) && negb (c =? 92) && negb (c =? 0).
Definition elem_ok (e : elem) : bool :=
  forallb etagc_nb (el_mid e) && forallb is_ows (el_ws e) && forallb is_dl (el_dl e).
Fixpoint render (es : list elem) : bytes :=
  match es with
  | [] => []
  | e :: r => elem_text e ++ el_ws e ++ match r with [] => [] | _ => 44 :: el_dl e ++ render r end
  end.
(* what may follow the last element: nothing, or a comma and more delimiters *)
Definition post_ok (p : bytes) : bool := match p with [] => true | c :: q => (c =? 44) && forallb is_dl q end.

Lemma elem_ok_parts e : elem_ok e = true ->
  forallb etagc_nb (el_mid e) = true /\ forallb is_ows (el_ws e) = true /\ forallb is_dl (el_dl e) = true.
Proof. unfold elem_ok. rewrite !andb_true_iff. tauto. Qed.

Lemma scan_plain p : forall l acc,
  forallb (fun c => negb (c =? 34) && negb (c =? 44)) p = true ->
  scan_item 44 false (p ++ l) acc = scan_item 44 false l (rev p ++ acc).
Proof.
  induction p as [|c p IH]; intros l acc H; [reflexivity|].
  cbn [forallb] in H. apply andb_prop in H. destruct H as [Hc Hp].
  apply andb_prop in Hc. destruct Hc as [H34 H44]. apply negb_true_iff in H34, H44.
  cbn [app scan_item]. rewrite H34, H44. cbn [orb]. rewrite (IH l (c :: acc) Hp). cbn [rev]. now rewrite <- app_assoc.
Qed.
Lemma scan_quoted mid : forall l acc,
  forallb etagc_nb mid = true ->
  scan_item 44 true (mid ++ 34 :: l) acc = scan_item 44 false l (34 :: rev mid ++ acc).
Proof.
  induction mid as [|c m IH]; intros l acc H.
  - cbn [app scan_item rev]. reflexivity.
  - cbn [forallb] in H. apply andb_prop in H. destruct H as [Hc Hm]. unfold etagc_nb in Hc.
    apply andb_prop in Hc. destruct Hc as [Hc H0]. apply andb_prop in Hc. destruct Hc as [H34 H92].
    apply negb_true_iff in H34, H92.
    cbn [app scan_item]. rewrite H34, H92. rewrite (IH l (c :: acc) Hm). cbn [rev]. now rewrite <- !app_assoc.
Qed.
Lemma scan_stop rest acc :
  match rest with [] => True | c :: _ => c = 44 end -> scan_item 44 false rest acc = (rev acc, rest).
Proof. destruct rest as [|c q]; intros H; [reflexivity|]. subst c. reflexivity. Qed.

Lemma ows_plain ws : forallb is_ows ws = true -> forallb (fun c => negb (c =? 34) && negb (c =? 44)) ws = true.
Proof. apply forallb_impl. unfold is_ows. lia. Qed.

Lemma scan_elem e rest :
  elem_ok e = true -> match rest with [] => True | c :: _ => c = 44 end ->
  scan_item 44 false (elem_text e ++ el_ws e ++ rest) [] = (elem_text e ++ el_ws e, rest).
Proof.
  intros Hok Hrest. destruct (elem_ok_parts e Hok) as (Hmid & Hws & _).
  assert (Hfin : forall acc, scan_item 44 false (el_ws e ++ rest) acc = (rev acc ++ el_ws e, rest)).
  { intros acc. rewrite (scan_plain _ _ _ (ows_plain _ Hws)), (scan_stop _ _ Hrest).
    now rewrite rev_app_distr, rev_involutive. }
  unfold elem_text. destruct (el_star e); [now rewrite (scan_plain asterisk), Hfin|].
  (* the text before the opening DQUOTE is W/ or nothing: plain either way *)
  unfold render_tag. set (p := if el_weak e then [87; 47] else []).
  rewrite <- !app_assoc, (scan_plain p) by (now destruct (el_weak e)).
  cbn [app scan_item]. rewrite N.eqb_refl, <- app_assoc. cbn [app].
  rewrite (scan_quoted _ _ _ Hmid), Hfin, app_nil_r. cbn [rev app].
  rewrite !rev_app_distr, !rev_involutive. cbn [rev app]. now rewrite rev_involutive, <- !app_assoc.
Qed.

Lemma elem_text_last e : exists a c, elem_text e = a ++ [c] /\ is_xspace c = false.
Proof.
  unfold elem_text. destruct (el_star e).
  - exists [], 42. split; reflexivity.
  - exists ((if el_weak e then [87; 47] else []) ++ 34 :: el_mid e), 34. split; [|reflexivity].
    unfold render_tag. rewrite <- app_assoc. reflexivity.
Qed.
Lemma rtrim_elem e : forallb is_ows (el_ws e) = true -> rtrim (elem_text e ++ el_ws e) = elem_text e.
Proof.
  intros Hws. destruct (elem_text_last e) as [a [c [Ht Hc]]]. rewrite Ht. unfold rtrim.
  rewrite !rev_app_distr. cbn [rev app]. rewrite drop_while_all.
  2:{ rewrite forallb_rev. revert Hws. apply forallb_impl. unfold is_ows, is_xspace. lia. }
  cbn [drop_while]. rewrite Hc. cbn [rev]. now rewrite rev_involutive.
Qed.
Lemma elem_text_first e : exists c t, elem_text e = c :: t /\ is_delim2 44 c = false.
Proof.
  unfold elem_text. destruct (el_star e); [exists 42, []; split; reflexivity|].
  unfold render_tag. destruct (el_weak e); [exists 87, (47 :: 34 :: el_mid e ++ [34])| exists 34, (el_mid e ++ [34])]; split; reflexivity.
Qed.
Lemma dl_delim l : forallb is_dl l = true -> forallb (is_delim2 44) l = true.
Proof. apply forallb_impl. unfold is_dl, is_ows, is_delim2. lia. Qed.

Lemma post_ok_dl p : post_ok p = true -> forallb is_dl p = true.
Proof.
  destruct p as [|c q]; [reflexivity|]. cbn [post_ok forallb]. intros H. apply andb_prop in H. destruct H as [Hc Hq].
  rewrite Hq, andb_true_r. unfold is_dl. now rewrite Hc, orb_true_r.
Qed.
Lemma post_ok_head p : post_ok p = true -> match p with [] => True | c :: _ => c = 44 end.
Proof. destruct p as [|c q]; [trivial|]. cbn [post_ok]. intros H. apply andb_prop in H. destruct H as [Hc _]. now apply N.eqb_eq. Qed.

(* the items Squid iterates over are exactly the rendered elements' texts *)
Lemma items_delims l : forallb is_dl l = true -> items 44 l = [].
Proof. intros H. now rewrite items_eq, <- (app_nil_r l), (drop_while_all _ _ _ (dl_delim l H)). Qed.

Lemma items_render es : forall pre post,
  forallb elem_ok es = true -> forallb is_dl pre = true -> post_ok post = true ->
  items 44 (pre ++ render es ++ post) = map elem_text es.
Proof.
  induction es as [|e r IH]; intros pre post Hes Hpre Hpost.
  - apply items_delims. cbn [render app]. rewrite forallb_app, Hpre. now apply post_ok_dl.
  - cbn [forallb] in Hes. apply andb_prop in Hes. destruct Hes as [He Hr].
    destruct (elem_ok_parts e He) as (_ & Hws & Hdl).
    set (rest := match r with [] => post | _ => (44 :: el_dl e) ++ render r ++ post end).
    assert (Hshape : pre ++ render (e :: r) ++ post = pre ++ elem_text e ++ el_ws e ++ rest).
    { cbn [render]. subst rest. destruct r; [now rewrite app_nil_r, <- !app_assoc|].
      rewrite <- !app_assoc. cbn [app]. now rewrite <- !app_assoc. }
    assert (Hrest : match rest with [] => True | c0 :: _ => c0 = 44 end).
    { subst rest. destruct r; [now apply post_ok_head|reflexivity]. }
    assert (Hnext : items 44 rest = map elem_text r).
    { subst rest. destruct r as [|e2 r2]; [now apply items_delims, post_ok_dl|].
      apply IH; [exact Hr| |exact Hpost]. cbn [forallb]. now rewrite Hdl. }
    rewrite Hshape, items_eq.
    destruct (elem_text_first e) as [c [t [Ht Hc]]].
    rewrite (drop_while_all _ _ _ (dl_delim pre Hpre)), Ht at 1. cbn [app drop_while]. rewrite Hc, app_comm_cons, <- Ht.
    rewrite (scan_elem e rest He Hrest), (rtrim_elem e Hws), Hnext. cbn [map]. now rewrite Ht.
Qed.

Lemma is_dl_no_nul l : forallb is_dl l = true -> no_nul l = true.
Proof. apply forallb_impl. unfold is_dl, is_ows. lia. Qed.
Lemma is_ows_no_nul l : forallb is_ows l = true -> no_nul l = true.
Proof. apply forallb_impl. unfold is_ows. lia. Qed.
Lemma etagc_no_nul l : forallb etagc_nb l = true -> no_nul l = true.
Proof. apply forallb_impl. unfold etagc_nb. lia. Qed.
Lemma elem_text_no_nul e : elem_ok e = true -> no_nul (elem_text e) = true.
Proof.
  intros He. destruct (elem_ok_parts e He) as (Hm & _ & _).
  unfold elem_text. destruct (el_star e); [reflexivity|]. unfold render_tag.
  rewrite no_nul_app. change (no_nul (34 :: el_mid e ++ [34])) with (no_nul (el_mid e ++ [34])).
  rewrite no_nul_app, (etagc_no_nul _ Hm). destruct (el_weak e); reflexivity.
Qed.
Lemma render_no_nul es : forallb elem_ok es = true -> no_nul (render es) = true.
Proof.
  induction es as [|e r IH]; intros H; [reflexivity|].
  cbn [forallb] in H. apply andb_prop in H. destruct H as [He Hr]. cbn [render].
  destruct (elem_ok_parts e He) as (_ & Hws & Hdl).
  rewrite !no_nul_app, (elem_text_no_nul e He).
  rewrite (is_ows_no_nul _ Hws). destruct r as [|e2 r2]; [reflexivity|].
  change (no_nul (44 :: el_dl e ++ render (e2 :: r2))) with (no_nul (el_dl e ++ render (e2 :: r2))).
  now rewrite no_nul_app, (is_dl_no_nul _ Hdl), (IH Hr).
Qed.

(* Squid's reading of a rendered list is the list of its elements *)
Theorem list_items_render es pre post :
  forallb elem_ok es = true -> forallb is_dl pre = true -> post_ok post = true ->
  list_items 44 (pre ++ render es ++ post) = map elem_text es.
Proof.
  intros Hes Hpre Hpost.
  assert (Hn : no_nul (pre ++ render es ++ post) = true).
  { rewrite !no_nul_app, (is_dl_no_nul _ Hpre), (render_no_nul _ Hes), (is_dl_no_nul _ (post_ok_dl _ Hpost)). reflexivity. }
  rewrite list_items_items, (c_str_id _ Hn). now apply items_render.
Qed.

(* the RFC 7232 statement: does this listed element match the selected representation's entity-tag *)
Definition elem_matches (allow_weak : bool) (rep : etag) (e : elem) : bool :=
  el_star e ||
  (list_eqb (et_str rep) (34 :: el_mid e ++ [34]) && (allow_weak || (negb (et_weak rep) && negb (el_weak e)))).

Lemma item_matches_elem w rep e : elem_ok e = true -> item_matches w rep (elem_text e) = elem_matches w rep e.
Proof.
  intros He. unfold item_matches, elem_matches, elem_text. destruct (el_star e); [reflexivity|]. cbn [orb].
  assert (Hm : no_nul (el_mid e) = true) by now apply etagc_no_nul, elem_ok_parts.
  assert (Hns : list_eqb (render_tag (el_weak e) (el_mid e)) asterisk = false).
  { unfold render_tag, asterisk. destruct (el_weak e); reflexivity. }
  rewrite Hns, (etag_parse_render _ _ Hm).
  unfold etag_weak_eq, etag_strong_eq, etag_strings_match. cbn [et_weak et_str].
  destruct w; cbn [orb]; [now rewrite andb_true_r|].
  destruct (list_eqb (et_str rep) (34 :: el_mid e ++ [34])); destruct (et_weak rep); destruct (el_weak e); reflexivity.
Qed.

(* hasOneOfEtags on a well-formed list = "some listed element matches" (entity has a valid ETag) *)
Theorem has_one_of_render es pre post rep w :
  forallb elem_ok es = true -> forallb is_dl pre = true -> post_ok post = true ->
  has_one_of_etags (Some rep) (pre ++ render es ++ post) w = existsb (elem_matches w rep) es.
Proof.
  intros Hes Hpre Hpost. unfold has_one_of_etags. rewrite (list_items_render es pre post Hes Hpre Hpost).
  induction es as [|e r IH]; [reflexivity|].
  cbn [forallb] in Hes. apply andb_prop in Hes. destruct Hes as [He Hr].
  cbn [map existsb]. now rewrite (item_matches_elem w rep e He), (IH Hr).
Qed.

Lemma ci_star_elem e : ci_eqb asterisk (elem_text e) = el_star e.
Proof.
  unfold elem_text, asterisk. destruct (el_star e); [reflexivity|]. unfold render_tag. destruct (el_weak e); reflexivity.
Qed.
(* ... and when the entity has no (valid) ETag only `*` matches *)
Theorem has_one_of_render_none es pre post w :
  forallb elem_ok es = true -> forallb is_dl pre = true -> post_ok post = true ->
  has_one_of_etags None (pre ++ render es ++ post) w = existsb el_star es.
Proof.
  intros Hes Hpre Hpost. unfold has_one_of_etags, is_member. rewrite (list_items_render es pre post Hes Hpre Hpost).
  clear Hes. induction es as [|e r IH]; [reflexivity|]. cbn [map existsb]. now rewrite ci_star_elem, IH.
Qed.

(* full RFC 7232 etagc: %x21 / %x23-7E / obs-text — the backslash included *)
Definition etagc_rfc (c : N) : bool := (c =? 33) || ((35 <=? c) && (c <=? 126)) || ((128 <=? c) && (c <=? 255)).
Definition elem_ok_rfc (e : elem) : bool :=
  forallb etagc_rfc (el_mid e) && forallb is_ows (el_ws e) && forallb is_dl (el_dl e).
Lemma elem_ok_is_rfc_without_backslash e :
  elem_ok_rfc e = true -> forallb (fun c => negb (c =? 92)) (el_mid e) = true -> elem_ok e = true.
Proof.
  unfold elem_ok_rfc, elem_ok. intros H Hb. apply andb_prop in H. destruct H as [H Hd]. apply andb_prop in H. destruct H as [Hm Hw].
  rewrite Hw, Hd, !andb_true_r. rewrite forallb_forall in *. intros c Hc. specialize (Hm c Hc). specialize (Hb c Hc).
  unfold etagc_rfc in Hm. unfold etagc_nb. lia.
Qed.

(* witness: If-Match: "a\", "v1" against the entity tag "v1" *)
Definition wit_es : list elem :=
  [ {| el_star := false; el_weak := false; el_mid := [97; 92]; el_ws := []; el_dl := [32] |};
    {| el_star := false; el_weak := false; el_mid := [118; 49]; el_ws := []; el_dl := [] |} ].
Definition wit_rep : etag := {| et_weak := false; et_str := [34; 118; 49; 34] |}.
Theorem list_walk_refuted :
  exists es rep, forallb elem_ok_rfc es = true /\
    existsb (elem_matches false rep) es = true /\ has_one_of_etags (Some rep) (render es) false = false.
Proof. exists wit_es, wit_rep. vm_compute. repeat split. Qed.

(* the same witness through processConditional: 412 although a listed tag strongly matches *)
Definition wit_req : creq :=
  {| rq_get_or_head := true; rq_ranged := false;
     rq_hdrs := [ {| h_name := map N.of_nat [73;102;45;77;97;116;99;104]%nat; h_value := render wit_es |} ] |}.
Definition wit_entry : centry :=
  {| en_status := 200; en_hdrs := [ {| h_name := map N.of_nat [69;84;97;103]%nat; h_value := [34; 118; 49; 34] |} ];
     en_timestamp := 1000%Z |}.
Theorem if_match_412_refuted :
  forall pd, get_etag (en_hdrs wit_entry) = Some wit_rep /\
    get_list ID_IF_MATCH (rq_hdrs wit_req) = render wit_es /\
    existsb (elem_matches false wit_rep) wit_es = true /\
    hit_verdict pd wit_req wit_entry = V412.
Proof. intros pd. vm_compute. repeat split. Qed.

(* the decision on requests whose If-Match / If-None-Match fields are well-formed lists *)
Definition one_field (name : list nat) (v : bytes) : hdr := {| h_name := map N.of_nat name; h_value := v |}.

Lemma filter_filter {A} (p q : A -> bool) l : filter p (filter q l) = filter (fun x => q x && p x) l.
Proof.
  induction l as [|x l IH]; [reflexivity|]. cbn [filter]. destruct (q x) eqn:Eq; cbn [filter andb]; [|exact IH].
  destruct (p x); now rewrite IH.
Qed.
Lemma filter_ext_all {A} (p q : A -> bool) l : (forall x, p x = q x) -> filter p l = filter q l.
Proof. intros H. now apply filter_ext. Qed.
Lemma filter_true {A} (l : list A) : filter (fun _ => true) l = l.
Proof. induction l as [|x l IH]; [reflexivity|]. cbn [filter]. now rewrite IH. Qed.
Lemma existsb_false_all {A} (f : A -> bool) l : existsb f l = false -> forall x, In x l -> f x = false.
Proof.
  induction l as [|y l IH]; intros H x Hx; [destruct Hx|]. cbn [existsb] in H. apply orb_false_iff in H. destruct H as [Hy Hl].
  destruct Hx as [->|Hx]; [exact Hy|now apply IH].
Qed.

(* the sequential deletions of the first loop amount to one filter *)
Lemma update_delete_sk_closed sk fresh : forall cur,
  update_delete_sk sk fresh cur =
  filter (fun h => negb (existsb (fun e => deleted_by e h) (filter (fun e => negb (sk e)) fresh))) cur.
Proof.
  induction fresh as [|e r IH]; intros cur.
  - cbn [update_delete_sk filter existsb negb]. now rewrite filter_true.
  - cbn [update_delete_sk filter].
    destruct (sk e); cbn [negb]; [apply IH|].
    rewrite IH, filter_filter. apply filter_ext_all. intros h. cbn [existsb]. now rewrite negb_orb.
Qed.
Lemma update_delete_closed fresh cur :
  update_delete fresh cur = filter (fun h => negb (existsb (fun e => deleted_by e h) (update_added fresh))) cur.
Proof. unfold update_delete, update_added. apply update_delete_sk_closed. Qed.

(* ids are a function of the caseless name *)
Fixpoint ids_unique (tbl : list (N * list N * (bool * bool * bool * bool * bool))) : bool :=
  match tbl with
  | [] => true
  | (id, _, _) :: r => negb (existsb (fun row => fst (fst row) =? id) r) && ids_unique r
  end.
Lemma table_ids_unique : ids_unique hdr_table = true.
Proof. vm_compute. reflexivity. Qed.
Lemma ids_unique_name tbl : ids_unique tbl = true -> forall id n1 f1 n2 f2,
  In (id, n1, f1) tbl -> In (id, n2, f2) tbl -> n1 = n2.
Proof.
  induction tbl as [|[[i n] f] r IH]; intros Hu id n1 f1 n2 f2 H1 H2; [destruct H1|].
  cbn [ids_unique] in Hu. apply andb_prop in Hu. destruct Hu as [Hne Hr]. apply negb_true_iff in Hne.
  assert (Hno : forall nn ff, In (i, nn, ff) r -> False).
  { intros nn ff Hin. pose proof (existsb_false_all _ _ Hne (i, nn, ff) Hin) as Hx. cbn [fst] in Hx. now rewrite N.eqb_refl in Hx. }
  destruct H1 as [E1|H1]; destruct H2 as [E2|H2].
  - congruence.
  - injection E1 as -> -> ->. exfalso. eapply Hno; eauto.
  - injection E2 as -> -> ->. exfalso. eapply Hno; eauto.
  - eapply IH; eauto.
Qed.
Lemma lookup_id_hit tbl name : lookup_id tbl name <> hdr_OTHER ->
  exists nm fl, In (lookup_id tbl name, nm, fl) tbl /\ ci_eqb name nm = true.
Proof.
  induction tbl as [|[[i n] f] r IH]; cbn [lookup_id]; intros H; [contradiction|].
  destruct (ci_eqb name n) eqn:E.
  - exists n, f. split; [now left|exact E].
  - destruct (IH H) as [nm [fl [Hin Hc]]]. exists nm, fl. split; [now right|exact Hc].
Qed.
Lemma same_id_same_name a b :
  hdr_id a = hdr_id b -> hdr_id a <> hdr_OTHER -> ci_eqb (h_name a) (h_name b) = true.
Proof.
  unfold hdr_id. intros Heq Hne.
  destruct (lookup_id_hit hdr_table (h_name a) Hne) as [n1 [f1 [Hin1 Hc1]]].
  assert (Hne2 : lookup_id hdr_table (h_name b) <> hdr_OTHER) by congruence.
  destruct (lookup_id_hit hdr_table (h_name b) Hne2) as [n2 [f2 [Hin2 Hc2]]].
  rewrite <- Heq in Hin2. pose proof (ids_unique_name _ table_ids_unique _ _ _ _ _ Hin1 Hin2) as ->.
  rewrite (ci_eqb_trans_l _ _ (h_name b) Hc1). now rewrite ci_eqb_sym.
Qed.
(* delById / delByName delete exactly the stored fields with the (caseless) name of the 304's field *)
Lemma deleted_by_name e h : deleted_by e h = ci_eqb (h_name h) (h_name e).
Proof.
  unfold deleted_by. destruct (hdr_id e =? hdr_OTHER) eqn:Eo; cbn [negb]; [reflexivity|].
  apply N.eqb_neq in Eo.
  destruct (ci_eqb (h_name h) (h_name e)) eqn:Ec.
  - apply N.eqb_eq. unfold hdr_id. now apply lookup_id_ci.
  - destruct (hdr_id h =? hdr_id e) eqn:Ei; [|reflexivity]. apply N.eqb_eq in Ei.
    assert (Hne : hdr_id h <> hdr_OTHER) by congruence.
    pose proof (same_id_same_name h e Ei Hne). congruence.
Qed.

Definition named_in (hs : list hdr) (h : hdr) : bool := existsb (fun e => ci_eqb (h_name h) (h_name e)) hs.
(* closed form of HttpHeader::update + compact: stored fields whose name no (non-Vary) 304 field bears, in their
   order, followed by the 304's non-Vary fields in their order *)
Theorem hdr_update_closed old fresh :
  hdr_update old fresh = filter (fun h => negb (named_in (update_added fresh) h)) old ++ update_added fresh.
Proof.
  unfold hdr_update. rewrite update_delete_closed. f_equal. apply filter_ext_all. intros h. unfold named_in. f_equal.
  induction (update_added fresh) as [|e r IH]; [reflexivity|]. cbn [existsb]. now rewrite deleted_by_name, IH.
Qed.

(* "old (+) new by name": the fields of any given name after the update are the 304's if it has (non-Vary) fields of
   that name, else the stored ones — as lists, order and multiplicity included *)
Definition fields_named (n : bytes) (hs : list hdr) : list hdr := filter (fun h => ci_eqb (h_name h) n) hs.
Theorem merge_by_name old fresh n :
  fields_named n (hdr_update old fresh) =
  if existsb (fun e => ci_eqb (h_name e) n) (update_added fresh)
  then fields_named n (update_added fresh) else fields_named n old.
Proof.
  rewrite hdr_update_closed. unfold fields_named. rewrite filter_app, filter_filter.
  destruct (existsb (fun e => ci_eqb (h_name e) n) (update_added fresh)) eqn:Ex.
  - rewrite filter_none; [reflexivity|]. intros h _.
    destruct (ci_eqb (h_name h) n) eqn:Eh; [|now rewrite andb_false_r].
    rewrite andb_true_r. apply negb_false_iff. unfold named_in.
    apply existsb_exists in Ex. destruct Ex as [e0 [Hin He0]]. apply existsb_exists. exists e0. split; [exact Hin|].
    rewrite (ci_eqb_trans_l _ _ (h_name e0) Eh). now rewrite ci_eqb_sym.
  - rewrite (filter_none _ (update_added fresh)).
    2:{ intros e He. exact (existsb_false_all _ _ Ex e He). }
    rewrite app_nil_r. apply filter_ext_all. intros h.
    destruct (ci_eqb (h_name h) n) eqn:Eh; [|now rewrite andb_false_r].
    rewrite andb_true_r. apply negb_true_iff. unfold named_in.
    destruct (existsb (fun e => ci_eqb (h_name h) (h_name e)) (update_added fresh)) eqn:Ey; [|reflexivity].
    apply existsb_exists in Ey. destruct Ey as [e0 [Hin He0]].
    pose proof (existsb_false_all _ _ Ex e0 Hin) as Hf. cbn beta in Hf.
    rewrite <- (ci_eqb_trans_l _ _ n He0) in Hf. congruence.
Qed.

(* the fields a 304 contributes: its end-to-end fields other than Vary (HttpHeader::skipUpdateHeader, skipEntry) *)
Lemma update_added_In fresh e :
  In e (update_added fresh) <->
  In e fresh /\ hdr_id e <> ID_VARY /\ is_hopbyhop (hdr_id e) = false /\ is_member (conn_value fresh) (h_name e) = false.
Proof.
  unfold update_added, skip_entry, skip_update_header.
  rewrite filter_In, negb_true_iff, !orb_false_iff, N.eqb_neq. tauto.
Qed.

(* needUpdate = false means the stored (joined) value of every non-Vary field name of the 304 already equals the 304's *)
Theorem need_update_false old fresh :
  need_update old fresh = false ->
  forall e, In e (update_added fresh) -> get_named old (h_name e) = Some (get_by_name fresh (h_name e)).
Proof.
  intros H e He. apply update_added_In in He. destruct He as (Hin & Hv & _). apply N.eqb_neq in Hv.
  pose proof (existsb_false_all _ _ H e Hin) as Hf. cbn beta in Hf.
  unfold skip_update_header in Hf. rewrite Hv in Hf. cbn [andb negb] in Hf.
  destruct (get_named old (h_name e)) as [v|]; [|discriminate].
  apply negb_false_iff in Hf. apply list_eqb_eq in Hf. now subst v.
Qed.

(* the revalidation as a whole: body untouched; header either unchanged (nothing new) or merged by name *)
Theorem revalidation_merge o fresh :
  let o' := revalidated_304 o fresh in
  ob_body o' = ob_body o /\
  (need_update (ob_hdrs o) fresh = true ->
     forall n, fields_named n (ob_hdrs o') =
               if existsb (fun e => ci_eqb (h_name e) n) (update_added fresh)
               then fields_named n (update_added fresh) else fields_named n (ob_hdrs o)) /\
  (need_update (ob_hdrs o) fresh = false ->
     ob_hdrs o' = ob_hdrs o /\
     forall e, In e (update_added fresh) -> get_named (ob_hdrs o) (h_name e) = Some (get_by_name fresh (h_name e))).
Proof.
  cbn zeta. unfold revalidated_304, update_on_not_modified. cbn [ob_body ob_hdrs]. split; [reflexivity|]. split.
  - intros ->. intros n. apply merge_by_name.
  - intros Hn. rewrite Hn. split; [reflexivity|]. now apply need_update_false.
Qed.

(* Vary is never taken from a 304 (HttpHeader::skipUpdateHeader) *)
Theorem vary_not_updated old fresh h :
  In h (hdr_update old fresh) -> hdr_id h = ID_VARY -> In h old.
Proof.
  rewrite hdr_update_closed. intros Hin Hv. apply in_app_or in Hin. destruct Hin as [Hin|Hin].
  - apply filter_In in Hin. tauto.
  - apply update_added_In in Hin. tauto.
Qed.

(* repaired code: nothing hop-by-hop of the 304 (by the registered-header table, or nominated by the 304's own
   Connection field) enters the stored header, and such fields delete nothing *)
Theorem hop_by_hop_of_304_not_merged old fresh h :
  In h (hdr_update old fresh) ->
  In h old \/
  (In h fresh /\ is_hopbyhop (hdr_id h) = false /\ is_member (conn_value fresh) (h_name h) = false /\ hdr_id h <> ID_VARY).
Proof.
  rewrite hdr_update_closed. intros Hin. apply in_app_or in Hin. destruct Hin as [Hin|Hin].
  - left. apply filter_In in Hin. tauto.
  - right. apply update_added_In in Hin. tauto.
Qed.
Theorem stored_field_deleted_only_by_end_to_end_304_field old fresh h :
  In h old -> ~ In h (hdr_update old fresh) ->
  exists e, In e fresh /\ ci_eqb (h_name h) (h_name e) = true /\
            is_hopbyhop (hdr_id e) = false /\ is_member (conn_value fresh) (h_name e) = false.
Proof.
  rewrite hdr_update_closed. intros Hin Hnot.
  destruct (named_in (update_added fresh) h) eqn:En.
  - unfold named_in in En. apply existsb_exists in En. destruct En as [e [He Hc]].
    apply update_added_In in He. exists e. tauto.
  - exfalso. apply Hnot. apply in_or_app. left. apply filter_In. split; [exact Hin|]. now rewrite En.
Qed.

(* handleIMSReply: after an origin 304 the client gets a 304 only if it sent a usable If-Modified-Since that covers
   the (updated) entity; otherwise the (updated) stored response. The cache ends up with the merged header. *)
Theorem ims_reply_304 pd r old fresh ts fail :
  let merged := update_on_not_modified (en_hdrs old) fresh in
  let e' := {| en_status := en_status old; en_hdrs := merged; en_timestamp := ts |} in
  snd (handle_ims_reply pd r old 304 fresh ts fail) = merged /\
  (fst (handle_ims_reply pd r old 304 fresh ts fail) = RForward304 <->
     (0 < rq_ims pd r)%Z /\ not_modified_since pd e' (rq_ims pd r)) /\
  (fst (handle_ims_reply pd r old 304 fresh ts fail) <> RForward304 ->
     fst (handle_ims_reply pd r old 304 fresh ts fail) = ROld).
Proof.
  cbn zeta. unfold handle_ims_reply, ims_flag. cbn [N.eqb Pos.eqb].
  rewrite <- modified_since_false, <- (Z.ltb_lt 0).
  destruct (0 <? rq_ims pd r)%Z, (modified_since pd _ (rq_ims pd r)); cbn [andb negb fst snd]; intuition discriminate.
Qed.
