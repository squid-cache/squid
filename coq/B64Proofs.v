(* B64Proofs.v — specifications and proofs for the base64 / Basic-credential model (C36). *)
Require Import SquidV.Bytes SquidV.B64Model.
Require Import SquidV.gen.Base64_gen.
Require Import ZifyBool ZifyN ZifyNat.
Ltac Zify.zify_post_hook ::= Z.div_mod_to_equations.
Local Open Scope N_scope.

(* The specification: RFC 4648 section 4, written from the RFC *)

(* "ABCDEFGHIJKLMNOPQRSTUVWXYZabcdefghijklmnopqrstuvwxyz0123456789+/" *)
Definition rfc4648_alphabet : list N :=
  [65;66;67;68;69;70;71;72;73;74;75;76;77;78;79;80;81;82;83;84;85;86;87;88;89;90;
   97;98;99;100;101;102;103;104;105;106;107;108;109;110;111;112;113;114;115;116;117;118;119;120;121;122;
   48;49;50;51;52;53;54;55;56;57;43;47].

(* symbol for a 6-bit value *)
Definition E (i : N) : N := tbl_get 0 rfc4648_alphabet i.

(* the encoding: 3 bytes -> 4 symbols, final 1 or 2 bytes zero-extended and padded with '=' *)
Fixpoint enc_spec (l : bytes) : bytes :=
  match l with
  | [] => []
  | [a] => [E (a / 4); E ((a mod 4) * 16); PAD; PAD]
  | [a; b] => [E (a / 4); E ((a mod 4) * 16 + b / 16); E ((b mod 16) * 4); PAD]
  | a :: b :: c :: r =>
      E (a / 4) :: E ((a mod 4) * 16 + b / 16) :: E ((b mod 16) * 4 + c / 64) :: E (c mod 64) :: enc_spec r
  end.

Definition is_byte (b : N) : bool := b <? 256.
Definition all_bytes_ok (l : bytes) : Prop := forallb is_byte l = true.

(* white space the decoder skips: HT LF VT FF CR SP *)
Definition b64_ws (c : N) : bool := ((9 <=? c) && (c <=? 13)) || (c =? 32).
Definition strip_ws (l : bytes) : bytes := filter (fun c => negb (b64_ws c)) l.

Lemma list_ind3 {A} (P : list A -> Prop) :
  P [] -> (forall a, P [a]) -> (forall a b, P [a; b]) ->
  (forall a b c r, P r -> P (a :: b :: c :: r)) -> forall l, P l.
Proof.
  intros H0 H1 H2 H3.
  assert (G : forall l, P l /\ (forall a, P (a :: l)) /\ (forall a b, P (a :: b :: l))).
  { induction l as [|x l [IH0 [IH1 IH2]]]; [repeat split; auto|].
    repeat split; auto. }
  intros l; apply G.
Qed.

Lemma list_ind_triples {A} (P : list A -> Prop) :
  P [] -> (forall a b c r, P r -> P (a :: b :: c :: r)) -> forall l, lenN l mod 3 = 0 -> P l.
Proof.
  intros H0 H3. apply (list_ind3 (fun l => lenN l mod 3 = 0 -> P l)); [auto| | |].
  1, 2: intros; discriminate.
  intros a b c r IH H. apply H3, IH. cbn [lenN] in H. lia.
Qed.

Lemma lenN_dropN {A} n (l : list A) : lenN (dropN n l) = lenN l - n.
Proof. apply Bytes.lenN_dropN. Qed.


Lemma land_shiftl_small a b n : b < 2 ^ n -> N.land (N.shiftl a n) b = 0.
Proof.
  intros H. apply N.bits_inj_0; intro m. rewrite N.land_spec.
  destruct (N.lt_ge_cases m n) as [Hm|Hm].
  - rewrite N.shiftl_spec_low by exact Hm. reflexivity.
  - replace b with (b mod 2 ^ n) by (apply N.mod_small; exact H).
    rewrite N.mod_pow2_bits_high by exact Hm. apply andb_false_r.
Qed.

Lemma lor_shiftl_add a b n : b < 2 ^ n -> N.lor (N.shiftl a n) b = a * 2 ^ n + b.
Proof.
  intros H. rewrite <- N.lxor_lor by (apply land_shiftl_small; exact H).
  rewrite <- N.add_nocarry_lxor by (apply land_shiftl_small; exact H).
  rewrite N.shiftl_mul_pow2. reflexivity.
Qed.

Lemma enc_tbl_is_rfc : b64_enc_tbl = rfc4648_alphabet.
Proof. vm_compute. reflexivity. Qed.

Lemma ENC_E x : ENC x = E (x mod 64).
Proof. unfold ENC, E. rewrite N.land_comm. change 63 with (N.ones 6). rewrite N.land_ones, enc_tbl_is_rfc. reflexivity. Qed.

Ltac pow2 :=
  change (2 ^ 1) with 2 in *; change (2 ^ 2) with 4 in *; change (2 ^ 4) with 16 in *;
  change (2 ^ 6) with 64 in *; change (2 ^ 8) with 256 in *; change (2 ^ 0) with 1 in *.

(* two lists of symbols are equal when the 6-bit values are, entry by entry *)
Ltac list_E := repeat (apply f_equal2; [first [apply (f_equal E); lia | reflexivity]|]); try reflexivity.

Lemma bytes_cons a l : forallb is_byte (a :: l) = true <-> a < 256 /\ forallb is_byte l = true.
Proof. cbn [forallb]. unfold is_byte. rewrite andb_true_iff, N.ltb_lt. reflexivity. Qed.

Definition grp (a b c : N) : bytes :=
  [E (a / 4); E ((a mod 4) * 16 + b / 16); E ((b mod 16) * 4 + c / 64); E (c mod 64)].

Lemma enc_spec_cons3 a b c r : enc_spec (a :: b :: c :: r) = grp a b c ++ enc_spec r.
Proof. reflexivity. Qed.

Lemma enc_spec_app3 x y : lenN x mod 3 = 0 -> enc_spec (x ++ y) = enc_spec x ++ enc_spec y.
Proof.
  revert x. apply list_ind_triples; [reflexivity|]. intros a b c r IH.
  change ((a :: b :: c :: r) ++ y) with (a :: b :: c :: (r ++ y)). rewrite !enc_spec_cons3, IH, app_assoc. reflexivity.
Qed.

Lemma raw_group a b c : a < 256 -> b < 256 -> c < 256 ->
  [ENC (N.shiftr a 2); ENC (N.lor (N.shiftl a 4) (N.shiftr b 4));
   ENC (N.lor (N.shiftl b 2) (N.shiftr c 6)); ENC c] = grp a b c.
Proof.
  intros Ha Hb Hc. unfold grp. rewrite !ENC_E.
  rewrite !N.shiftr_div_pow2.
  rewrite (lor_shiftl_add a (b / 2 ^ 4) 4) by (pow2; lia).
  rewrite (lor_shiftl_add b (c / 2 ^ 6) 2) by (pow2; lia).
  pow2.
  list_E.
Qed.

(* the loop walks the reversed input and conses quanta onto what is already the encoding of the tail *)
Lemma raw_loop_spec r : lenN r mod 3 = 0 -> forallb is_byte r = true ->
  forall t, raw_loop r (enc_spec t) = enc_spec (rev r ++ t).
Proof.
  revert r. apply (list_ind_triples (fun r => forallb is_byte r = true ->
                                       forall t, raw_loop r (enc_spec t) = enc_spec (rev r ++ t))).
  - reflexivity.
  - intros c b a r IH Hb t.
    apply bytes_cons in Hb as [Hc Hb]. apply bytes_cons in Hb as [Hb' Hb]. apply bytes_cons in Hb as [Ha Hr].
    cbn [raw_loop rev]. rewrite <- !app_assoc. cbn [app]. rewrite <- (IH Hr), enc_spec_cons3, <- raw_group by assumption.
    reflexivity.
Qed.

Lemma encode_raw_spec x : all_bytes_ok x -> encode_raw x = enc_spec x.
Proof.
  unfold all_bytes_ok. intros Hx. unfold encode_raw. rewrite <- rev_alt, <- (lenN_rev x).
  replace (enc_spec x) with (enc_spec (rev (rev x))) by (rewrite rev_involutive; reflexivity).
  assert (Hr : forallb is_byte (rev x) = true) by (rewrite forallb_forall in *; intros y Hy; apply Hx, in_rev, Hy).
  revert Hr. generalize (rev x) as r. clear. intros r Hr.
  destruct (lenN r mod 3 =? 0) eqn:E0; [|destruct (lenN r mod 3 =? 1) eqn:E1].
  - rewrite <- (app_nil_r (rev r)). exact (raw_loop_spec r ltac:(lia) Hr []).
  - destruct r as [|i0 r']; [discriminate E0|]. apply bytes_cons in Hr as [H0 Hr]. cbn [lenN rev] in *.
    rewrite <- raw_loop_spec by (assumption || lia). f_equal.
    cbn [enc_spec]. rewrite !ENC_E, N.shiftr_div_pow2, N.shiftl_mul_pow2. pow2. list_E.
  - destruct r as [|i1 [|i0 r']]; [discriminate E0|discriminate E1|].
    apply bytes_cons in Hr as [H1 Hr]. apply bytes_cons in Hr as [H0 Hr]. cbn [lenN rev] in *.
    rewrite <- app_assoc, <- raw_loop_spec by (assumption || lia). f_equal.
    cbn [enc_spec]. rewrite !ENC_E, !N.shiftr_div_pow2, (lor_shiftl_add i0 (i1 / 2 ^ 4) 4) by (pow2; lia).
    rewrite N.shiftl_mul_pow2. pow2. list_E.
Qed.

(* specification of streaming: a state is (number of buffered bits, their value);
   each input byte emits one or two symbols *)
Definition sstep (st : N * N) (s : N) : bytes * (N * N) :=
  let '(bits, p) := st in
  if bits =? 0 then ([E (s / 4)], (2, s mod 4))
  else if bits =? 2 then ([E (p * 16 + s / 16)], (4, s mod 16))
  else ([E (p * 4 + s / 64); E (s mod 64)], (0, 0)).

Fixpoint ssteps (st : N * N) (l : bytes) : bytes * (N * N) :=
  match l with
  | [] => ([], st)
  | s :: r => let '(o, st1) := sstep st s in
              let '(o2, st2) := ssteps st1 r in (o ++ o2, st2)
  end.

Definition sfinal (st : N * N) : bytes :=
  let '(bits, p) := st in
  if bits =? 0 then [] else if bits =? 2 then [E (p * 16); PAD; PAD] else [E (p * 4); PAD].

Lemma ssteps_app st a b :
  ssteps st (a ++ b) =
  let '(o1, s1) := ssteps st a in let '(o2, s2) := ssteps s1 b in (o1 ++ o2, s2).
Proof.
  revert st; induction a as [|x a IH]; intros st; cbn [app ssteps].
  - destruct (ssteps st b). reflexivity.
  - destruct (sstep st x) as [o st1]. rewrite IH.
    destruct (ssteps st1 a) as [o1 s1]. destruct (ssteps s1 b) as [o2 s2].
    rewrite app_assoc. reflexivity.
Qed.

Lemma ssteps_triple a b c r :
  ssteps (0, 0) (a :: b :: c :: r) = let '(o, st) := ssteps (0, 0) r in (grp a b c ++ o, st).
Proof.
  cbn [ssteps]. unfold sstep at 1. change (0 =? 0) with true. cbv iota beta.
  unfold sstep at 1. change (2 =? 0) with false. change (2 =? 2) with true. cbv iota beta.
  unfold sstep at 1. change (4 =? 0) with false. change (4 =? 2) with false. cbv iota beta.
  destruct (ssteps (0, 0) r) as [o st]. reflexivity.
Qed.

Lemma ssteps_bulk l : lenN l mod 3 = 0 -> ssteps (0, 0) l = (enc_spec l, (0, 0)).
Proof.
  revert l. apply list_ind_triples; [reflexivity|]. intros a b c r IH. rewrite ssteps_triple, IH. reflexivity.
Qed.

Lemma enc_spec_ssteps l :
  enc_spec l = fst (ssteps (0, 0) l) ++ sfinal (snd (ssteps (0, 0) l)).
Proof.
  revert l. apply list_ind3.
  - reflexivity.
  - intros a. reflexivity.
  - intros a b. reflexivity.
  - intros a b c r IH. rewrite ssteps_triple. destruct (ssteps (0, 0) r) as [o st].
    cbn [fst snd] in *. rewrite enc_spec_cons3, IH, app_assoc. reflexivity.
Qed.

(* the C context seen abstractly; only the low e_bits bits of word matter *)
Definition eabs (c : ectx) : N * N := (e_bits c, e_word c mod 2 ^ e_bits c).
Definition evalid (c : ectx) : Prop := e_bits c = 0 \/ e_bits c = 2 \/ e_bits c = 4.

Lemma enc_emit_stop fuel w bits : bits < 6 -> enc_emit fuel w bits = ([], bits).
Proof.
  intros H. destruct fuel; cbn [enc_emit]; [reflexivity|].
  destruct (6 <=? bits) eqn:E6; [lia|reflexivity].
Qed.

Lemma enc_emit_go f w bits : 6 <= bits ->
  enc_emit (S f) w bits =
  let '(o, b) := enc_emit f w (bits - 6) in (ENC (N.shiftr w (bits - 6)) :: o, b).
Proof. intros H. cbn [enc_emit]. destruct (6 <=? bits) eqn:E6; [reflexivity|lia]. Qed.

(* the fuel handed to the while loop always suffices: it stops only when bits < 6 *)
Lemma enc_emit_fuel fuel w bits : (N.to_nat bits <= fuel)%nat -> snd (enc_emit fuel w bits) < 6.
Proof.
  revert bits; induction fuel as [|f IH]; intros bits H; cbn [enc_emit].
  - cbn [snd]. lia.
  - destruct (6 <=? bits) eqn:E6; [|cbn [snd]; lia].
    specialize (IH (bits - 6) ltac:(lia)). destruct (enc_emit f w (bits - 6)). exact IH.
Qed.

Lemma encode_single_sstep ctx s : evalid ctx -> s < 256 ->
  sstep (eabs ctx) s = (fst (encode_single ctx s), eabs (snd (encode_single ctx s))) /\
  evalid (snd (encode_single ctx s)).
Proof.
  destruct ctx as [w b]. unfold evalid, eabs. cbn [e_bits e_word].
  intros Hv Hs. unfold encode_single. cbn [e_bits e_word].
  rewrite (lor_shiftl_add w (s mod 256) 8) by (pow2; lia).
  destruct Hv as [-> | [-> | ->]].
  - change (0 + 8) with 8. change (N.to_nat 8) with 8%nat.
    rewrite enc_emit_go by lia. change (8 - 6) with 2. rewrite enc_emit_stop by lia.
    cbn [fst snd e_bits e_word]. change (2 mod 256) with 2. unfold sstep. change (0 =? 0) with true.
    cbv iota beta. rewrite ENC_E, N.shiftr_div_pow2. pow2. split; [|auto].
    f_equal; [list_E | f_equal; lia].
  - change (2 + 8) with 10. change (N.to_nat 10) with 10%nat.
    rewrite enc_emit_go by lia. change (10 - 6) with 4. rewrite enc_emit_stop by lia.
    cbn [fst snd e_bits e_word]. change (4 mod 256) with 4. unfold sstep.
    change (2 =? 0) with false. change (2 =? 2) with true.
    cbv iota beta. rewrite ENC_E, N.shiftr_div_pow2. pow2. split; [|auto].
    f_equal; [list_E | f_equal; lia].
  - change (4 + 8) with 12. change (N.to_nat 12) with 12%nat.
    rewrite enc_emit_go by lia. change (12 - 6) with 6.
    rewrite enc_emit_go by lia. change (6 - 6) with 0. rewrite enc_emit_stop by lia.
    cbn [fst snd e_bits e_word]. change (0 mod 256) with 0. unfold sstep.
    change (4 =? 0) with false. change (4 =? 2) with false.
    cbv iota beta. rewrite !ENC_E, !N.shiftr_div_pow2. pow2. split; [|auto].
    f_equal; [list_E | f_equal; lia].
Qed.

Lemma enc_singles_ssteps src : forall ctx, evalid ctx -> forallb is_byte src = true ->
  ssteps (eabs ctx) src = (fst (enc_singles ctx src), eabs (snd (enc_singles ctx src))) /\
  evalid (snd (enc_singles ctx src)).
Proof.
  induction src as [|s r IH]; intros ctx Hv Hb; cbn [enc_singles ssteps].
  - split; [reflexivity|exact Hv].
  - apply bytes_cons in Hb as [Hs Hr].
    destruct (encode_single_sstep ctx s Hv Hs) as [H1 Hv1].
    destruct (encode_single ctx s) as [o c1]. cbn [fst snd] in *.
    rewrite H1. destruct (IH c1 Hv1 Hr) as [H2 Hv2].
    destruct (enc_singles c1 r) as [o2 c2]. cbn [fst snd] in *. rewrite H2. split; [reflexivity|exact Hv2].
Qed.

Lemma enc_phase1_ssteps src : forall ctx, evalid ctx -> forallb is_byte src = true ->
  let '(o, c1, rest) := enc_phase1 ctx src in
  exists pre, src = pre ++ rest /\ ssteps (eabs ctx) pre = (o, eabs c1) /\ evalid c1 /\
              (rest = [] \/ e_bits c1 = 0).
Proof.
  induction src as [|s r IH]; intros ctx Hv Hb; cbn [enc_phase1].
  - exists []. repeat split; auto.
  - destruct (e_bits ctx =? 0) eqn:E0.
    + exists []. repeat split; auto. right. apply N.eqb_eq. exact E0.
    + apply bytes_cons in Hb as [Hs Hr].
      destruct (encode_single_sstep ctx s Hv Hs) as [H1 Hv1].
      destruct (encode_single ctx s) as [o c1]. cbn [fst snd] in *.
      specialize (IH c1 Hv1 Hr). destruct (enc_phase1 c1 r) as [[o2 c2] rest].
      destruct IH as [pre [Hsrc [Hst [Hv2 Hor]]]].
      exists (s :: pre). repeat split; auto.
      * rewrite Hsrc. reflexivity.
      * cbn [ssteps]. rewrite H1, Hst. reflexivity.
Qed.

(* one base64_encode_update call = the streaming specification on that chunk *)
Lemma encode_update_ssteps ctx src : evalid ctx -> forallb is_byte src = true ->
  ssteps (eabs ctx) src = (fst (encode_update ctx src), eabs (snd (encode_update ctx src))) /\
  evalid (snd (encode_update ctx src)).
Proof.
  intros Hv Hb. unfold encode_update.
  pose proof (enc_phase1_ssteps src ctx Hv Hb) as H1.
  destruct (enc_phase1 ctx src) as [[o1 c1] rest].
  destruct H1 as [pre [Hsrc [Hst [Hv1 Hor]]]].
  assert (Hbr : forallb is_byte rest = true).
  { rewrite Hsrc, forallb_app in Hb. apply andb_true_iff in Hb. tauto. }
  set (bulk := lenN rest - lenN rest mod 3).
  assert (Hbulk : bulk <= lenN rest) by (unfold bulk; lia).
  assert (Hb3 : bulk mod 3 = 0) by (unfold bulk; lia).
  destruct (forallb_takeN_dropN _ bulk _ Hbr) as [Hbt Hbd].
  pose proof (enc_singles_ssteps (dropN bulk rest) c1 Hv1 Hbd) as [H3 Hv3].
  destruct (enc_singles c1 (dropN bulk rest)) as [o3 c3]. cbn [fst snd] in *.
  split; [|exact Hv3].
  rewrite Hsrc, ssteps_app, Hst.
  rewrite <- (takeN_dropN bulk rest) at 1. rewrite ssteps_app.
  destruct Hor as [Hnil | Hz].
  - (* the whole chunk went through single-byte steps *)
    subst rest. cbn [lenN] in *. assert (bulk = 0) by lia. subst bulk.
    replace (lenN (@nil N) - lenN (@nil N) mod 3 =? 0) with true in * by reflexivity.
    cbn [takeN dropN ssteps] in *.
    assert (Ho : o3 = []) by congruence. assert (Ha : eabs c3 = eabs c1) by congruence.
    rewrite Ho, Ha. reflexivity.
  - (* no buffered bits: bulk through encode_raw *)
    assert (Ha : eabs c1 = (0, 0)).
    { unfold eabs. rewrite Hz. change (2 ^ 0) with 1. rewrite N.mod_1_r. reflexivity. }
    rewrite Ha in *.
    rewrite ssteps_bulk by (rewrite lenN_takeN; lia).
    rewrite H3. f_equal. f_equal.
    destruct (bulk =? 0) eqn:Eb.
    + apply N.eqb_eq in Eb. rewrite Eb. destruct rest; reflexivity.
    + rewrite encode_raw_spec; [reflexivity|exact Hbt].
Qed.

Lemma encode_final_sfinal ctx : evalid ctx -> fst (encode_final ctx) = sfinal (eabs ctx).
Proof.
  destruct ctx as [w b]. unfold evalid, eabs, encode_final, sfinal. cbn [e_bits e_word].
  intros [-> | [-> | ->]].
  - reflexivity.
  - change (2 =? 0) with false. change (2 =? 2) with true. cbv iota. cbn [fst pad_loop].
    change (2 <? 6) with true. change (2 + 2) with 4. change (4 <? 6) with true. change (4 + 2) with 6.
    change (6 <? 6) with false. cbv iota. change (6 - 2) with 4.
    rewrite ENC_E, N.shiftl_mul_pow2. pow2. list_E.
  - change (4 =? 0) with false. change (4 =? 2) with false. cbv iota. cbn [fst pad_loop].
    change (4 <? 6) with true. change (4 + 2) with 6. change (6 <? 6) with false. cbv iota.
    change (6 - 4) with 2. rewrite ENC_E, N.shiftl_mul_pow2. pow2. list_E.
Qed.

Lemma encode_chunks_ssteps chunks : forall ctx, evalid ctx -> forallb is_byte (concat chunks) = true ->
  encode_chunks ctx chunks =
  fst (ssteps (eabs ctx) (concat chunks)) ++ sfinal (snd (ssteps (eabs ctx) (concat chunks))).
Proof.
  induction chunks as [|s r IH]; intros ctx Hv Hb; cbn [encode_chunks concat].
  - cbn [ssteps fst snd app]. apply encode_final_sfinal. exact Hv.
  - cbn [concat] in Hb. rewrite forallb_app in Hb. apply andb_true_iff in Hb as [Hs Hr].
    destruct (encode_update_ssteps ctx s Hv Hs) as [H1 Hv1].
    destruct (encode_update ctx s) as [o c1]. cbn [fst snd] in *.
    rewrite ssteps_app, H1, (IH c1 Hv1 Hr).
    destruct (ssteps (eabs c1) (concat r)) as [o2 s2]. cbn [fst snd]. rewrite app_assoc. reflexivity.
Qed.

(* T: whatever way the input is cut into base64_encode_update calls, update*;final produces the
   RFC 4648 encoding of the whole input *)
Theorem encode_chunks_spec chunks : all_bytes_ok (concat chunks) ->
  encode_chunks ectx_init chunks = enc_spec (concat chunks).
Proof.
  intros Hb. rewrite encode_chunks_ssteps; [|left; reflexivity|exact Hb].
  change (eabs ectx_init) with (0, 0). symmetry. apply enc_spec_ssteps.
Qed.

Theorem b64_encode_spec x : all_bytes_ok x -> b64_encode x = enc_spec x.
Proof.
  intros Hb. unfold b64_encode. rewrite encode_chunks_spec; cbn [concat]; rewrite app_nil_r; auto.
Qed.

(* output length of one update call stays within BASE64_ENCODE_LENGTH (the assert at its end) *)
Lemma ssteps_len st l o st' : (fst st = 0 \/ fst st = 2 \/ fst st = 4) -> ssteps st l = (o, st') ->
  6 * lenN o + fst st' = fst st + 8 * lenN l /\ (fst st' = 0 \/ fst st' = 2 \/ fst st' = 4).
Proof.
  revert st o st'; induction l as [|s r IH]; intros [b p] o st' Hv H; cbn [ssteps] in H.
  - inversion H; subst. cbn [lenN fst] in *. split; [lia|exact Hv].
  - destruct (sstep (b, p) s) as [o1 st1] eqn:E1. destruct (ssteps st1 r) as [o2 st2] eqn:E2.
    inversion H; subst. cbn [fst] in Hv.
    assert (H1 : 6 * lenN o1 + fst st1 = b + 8 /\ (fst st1 = 0 \/ fst st1 = 2 \/ fst st1 = 4)).
    { unfold sstep in E1. destruct Hv as [-> | [-> | ->]]; cbn [N.eqb Pos.eqb] in E1; inversion E1; subst; cbn [lenN fst]; lia. }
    destruct H1 as [H1 Hv1]. destruct (IH st1 o2 st' Hv1 E2) as [H2 Hv2].
    rewrite lenN_app. cbn [lenN fst]. split; [lia|exact Hv2].
Qed.

Theorem encode_update_length ctx src : evalid ctx -> all_bytes_ok src ->
  lenN (fst (encode_update ctx src)) <= BASE64_ENCODE_LENGTH (lenN src).
Proof.
  intros Hv Hb. destruct (encode_update_ssteps ctx src Hv Hb) as [H _].
  apply ssteps_len in H; [|exact Hv]. cbn [fst eabs] in H. destruct H as [H Hv'].
  unfold BASE64_ENCODE_LENGTH. unfold evalid in Hv. lia.
Qed.

(* Everything from here to the end of the section is proved once for both decoders:
   k = false: bundled lib/base64.cc of /repo HEAD;  k = true: the libnettle 3.8 decoder. *)
Section Decoder.
Variable k : bool.

(* reachable contexts: bits in {0,2,4,6}, 16-bit word, at most 3 padding characters seen *)
Definition dvalid (c : dctx) : Prop :=
  (d_bits c = 0 \/ d_bits c = 2 \/ d_bits c = 4 \/ d_bits c = 6) /\ d_word c < 65536 /\ d_pad c <= 3.

Lemma dvalid_init : dvalid dctx_init.
Proof. unfold dvalid, dctx_init; cbn. repeat split; auto; lia. Qed.

(* facts about the regenerated 256-entry decode table, each by one sweep over its entries *)
Lemma dec_lookup_mod c : dec_lookup (c mod 256) = dec_lookup c.
Proof. unfold dec_lookup. rewrite N.mod_mod by lia. reflexivity. Qed.

Lemma dec_tbl_range c : (-3 <= dec_lookup c < 64)%Z.
Proof.
  rewrite <- dec_lookup_mod.
  pose proof (forallb_bytes (fun c => ((-3 <=? dec_lookup c) && (dec_lookup c <? 64))%Z)
                ltac:(vm_compute; reflexivity) (c mod 256) ltac:(lia)) as H. cbv beta in H. lia.
Qed.

(* symbols decode to their value; '=' is TABLE_END *)
Lemma dec_E i : i < 64 -> dec_lookup (E i) = Z.of_N i.
Proof.
  intros Hi.
  pose proof (forallb_bytes (fun i => if i <? 64 then (dec_lookup (E i) =? Z.of_N i)%Z else true)
                ltac:(vm_compute; reflexivity) i ltac:(lia)) as H. cbv beta in H. destruct (i <? 64) eqn:E64; lia.
Qed.

Lemma dec_PAD : dec_lookup PAD = (-3)%Z.
Proof. vm_compute. reflexivity. Qed.

(* conversely: a byte with a non-negative table entry is the alphabet symbol of that value;
   entry -3 is only '='; entry -2 is exactly the six white space bytes *)
Lemma dec_data_inv c : c < 256 -> (0 <= dec_lookup c)%Z -> c = E (Z.to_N (dec_lookup c)).
Proof.
  intros Hc Hd.
  pose proof (forallb_bytes (fun c => if (0 <=? dec_lookup c)%Z then c =? E (Z.to_N (dec_lookup c)) else true)
                ltac:(vm_compute; reflexivity) c Hc) as H. cbv beta in H. destruct (0 <=? dec_lookup c)%Z eqn:E0; lia.
Qed.

Lemma dec_end_inv c : c < 256 -> dec_lookup c = (-3)%Z -> c = PAD.
Proof.
  intros Hc Hd.
  pose proof (forallb_bytes (fun c => if (dec_lookup c =? -3)%Z then c =? PAD else true)
                ltac:(vm_compute; reflexivity) c Hc) as H. cbv beta in H. destruct (dec_lookup c =? -3)%Z eqn:E0; lia.
Qed.

Lemma dec_ws_iff c : c < 256 -> (dec_lookup c = (-2)%Z <-> b64_ws c = true).
Proof.
  intros Hc.
  pose proof (forallb_bytes (fun c => Bool.eqb (dec_lookup c =? -2)%Z (b64_ws c))
                ltac:(vm_compute; reflexivity) c Hc) as H. cbv beta in H. apply Bool.eqb_prop in H.
  destruct (b64_ws c); split; intros; try lia; try discriminate.
Qed.

(* decode_single in arithmetic form *)
Definition push (w d : N) : N := (w * 64 + d) mod 65536.

(* a data symbol of value d: six more bits are buffered and, once there are eight, the top byte
   leaves; of the word only the buffered (low d_bits) bits are looked at *)
Definition shift_in (ctx : dctx) (d : N) : dctx * sres :=
  let w := d_word ctx in
  match d_bits ctx with
  | 0 => (mkD (push w d) 6 0, SNone)
  | 6 => (mkD (push w d) 4 0, SByte (w mod 64 * 4 + d / 16))
  | 4 => (mkD (push w d) 2 0, SByte (w mod 16 * 16 + d / 4))
  | _ => (mkD (push w d) 0 0, SByte (w mod 4 * 64 + d))
  end.

(* '=': two buffered bits are dropped, provided all buffered bits are zero *)
Definition pad_in (ctx : dctx) : dctx * sres :=
  if (d_bits ctx =? 0) || pad_full k (d_pad ctx) || negb (d_word ctx mod 2 ^ d_bits ctx =? 0) then (ctx, SErr)
  else (mkD (d_word ctx) (d_bits ctx - 2) (d_pad ctx + 1), SNone).

Definition dstep (ctx : dctx) (c : N) : dctx * sres :=
  let d := dec_lookup c in
  if (d =? -1)%Z then (ctx, SErr)
  else if (d =? -2)%Z then (ctx, SNone)
  else if (d =? -3)%Z then pad_in ctx
  else if negb (d_pad ctx =? 0) then (ctx, SErr)
  else shift_in ctx (Z.to_N d).

Lemma push_lt w d : push w d < 65536.
Proof. apply N.mod_lt. discriminate. Qed.

Lemma push_low w d m : 64 mod m = 0 -> push w d mod m = d mod m.
Proof.
  intros H. assert (Hm : m <> 0) by (intros ->; discriminate H).
  apply (N.mod_divide _ _ Hm) in H. destruct H as [j Hj]. unfold push.
  replace 65536 with (m * (j * 1024)) by lia.
  rewrite N.mod_mul_r, (N.mul_comm m), N.mod_add, N.mod_mod by lia.
  rewrite Hj, N.mul_assoc, N.add_comm. apply N.mod_add. exact Hm.
Qed.

Lemma push_byte w d : d < 64 ->
  (push w d / 16) mod 256 = w mod 64 * 4 + d / 16 /\
  (push w d / 4) mod 256 = w mod 16 * 16 + d / 4 /\
  (push w d / 1) mod 256 = w mod 4 * 64 + d.
Proof. intros Hd. unfold push. repeat split; lia. Qed.

Lemma decode_single_dstep ctx c : dvalid ctx -> decode_single k ctx c = dstep ctx c.
Proof.
  destruct ctx as [w b p]. unfold dvalid. cbn [d_bits d_word d_pad]. intros [Hb [Hw Hp]].
  unfold decode_single, dstep, TABLE_INVALID, TABLE_SPACE, TABLE_END. cbn [d_bits d_word d_pad].
  pose proof (dec_tbl_range c) as Hr. set (d := dec_lookup c) in *.
  destruct (d =? -1)%Z eqn:E1; [reflexivity|].
  destruct (d =? -2)%Z eqn:E2; [reflexivity|].
  destruct (d =? -3)%Z eqn:E3.
  - rewrite N.shiftl_1_l, N.sub_1_r, <- N.ones_equiv, N.land_ones. unfold pad_in. cbn [d_bits d_word d_pad].
    destruct (b =? 0) eqn:Eb; [reflexivity|]. destruct (pad_full k p); [reflexivity|]. cbn [orb].
    destruct (negb (w mod 2 ^ b =? 0)); [reflexivity|]. do 2 f_equal; lia.
  - replace ((0 <=? d) && (d <? 64))%Z with true by lia.
    destruct (p =? 0) eqn:Ep0; cbn [negb]; [|reflexivity].
    assert (p = 0) by lia. subst p.
    rewrite (lor_shiftl_add w (Z.to_N d) 6) by (pow2; lia). pow2. fold (push w (Z.to_N d)).
    destruct (push_byte w (Z.to_N d)) as (B16 & B4 & B1); [lia|]. clear - Hb B16 B4 B1.
    rewrite N.shiftr_div_pow2.
    destruct Hb as [-> | [-> | [-> | ->]]]; cbn [shift_in d_bits d_word];
      [|rewrite <- B1|rewrite <- B4|rewrite <- B16]; reflexivity.
Qed.

Lemma dstep_acct ctx c ctx' r : dvalid ctx -> dstep ctx c = (ctx', r) ->
  dvalid ctx' /\
  match r with
  | SByte _ => d_bits ctx' + 8 = d_bits ctx + 6
  | SNone => d_bits ctx' <= d_bits ctx + 6
  | SErr => ctx' = ctx
  | SAbort => False
  end.
Proof.
  destruct ctx as [w b p]. unfold dvalid. cbn [d_bits d_word d_pad]. intros [Hb [Hw Hp]].
  unfold dstep. cbn [d_bits d_word d_pad].
  pose proof (dec_tbl_range c) as Hr. set (d := dec_lookup c) in *.
  destruct (d =? -1)%Z eqn:E1; [intros H; inversion H; subst; cbn; repeat split; auto|].
  destruct (d =? -2)%Z eqn:E2; [intros H; inversion H; subst; cbn; repeat split; auto; lia|].
  destruct (d =? -3)%Z eqn:E3.
  - unfold pad_in. cbn [d_bits d_word d_pad].
    destruct ((b =? 0) || pad_full k p || negb (w mod 2 ^ b =? 0)) eqn:Ec;
      intros H; inversion H; subst; cbn [d_bits d_word d_pad]; [repeat split; auto|].
    apply orb_false_iff in Ec as [Ec _]. apply orb_false_iff in Ec as [Eb Ep].
    assert (Hp2 : p <= 2) by (unfold pad_full in Ep; destruct k; lia). clear - Hb Hw Eb Hp2. repeat split; lia.
  - destruct (negb (p =? 0)) eqn:Ep0; [intros H; inversion H; subst; cbn; repeat split; auto|].
    pose proof (push_lt w (Z.to_N d)) as Hlt.
    destruct Hb as [-> | [-> | [-> | ->]]]; cbn [shift_in d_bits d_word d_pad];
      intros H; inversion H; subst; cbn [d_bits d_word d_pad]; repeat split; auto; lia.
Qed.

(* T: bytes stored by one decode_update call, accepted or not *)
Lemma decode_update_acct src : forall ctx ctx' u, dvalid ctx -> decode_update k ctx src = (ctx', u) ->
  dvalid ctx' /\ (forall w, u <> UAbort w) /\
  8 * lenN (uwritten u) + (match u with UOk _ => d_bits ctx' | _ => 0 end) <= d_bits ctx + 6 * lenN src.
Proof.
  induction src as [|c r IH]; intros ctx ctx' u Hv H; cbn [decode_update] in H.
  - inversion H; subst. split; [exact Hv|]. split; [intros ?; discriminate|]. cbn [uwritten lenN]. lia.
  - rewrite decode_single_dstep in H by exact Hv.
    destruct (dstep ctx c) as [c1 s] eqn:Es. destruct (dstep_acct ctx c c1 s Hv Es) as [Hv1 Hs].
    destruct s as [| |b|].
    + inversion H; subst. split; [exact Hv|]. split; [intros ?; discriminate|]. cbn [uwritten lenN]. lia.
    + destruct (IH c1 ctx' u Hv1 H) as [Hv' [Hna Hle]]. cbn [lenN].
      split; [exact Hv'|]. split; [exact Hna|]. lia.
    + destruct (decode_update k c1 r) as [c2 u2] eqn:E2. inversion H; subst.
      destruct (IH c1 ctx' u2 Hv1 E2) as [Hv' [Hna Hle]]. cbn [lenN].
      split; [exact Hv'|]. split.
      * intros w. destruct u2; cbn [ucons]; try discriminate. intros Hx. inversion Hx; subst.
        apply (Hna written). reflexivity.
      * destruct u2; cbn [ucons uwritten lenN] in *; lia.
    + destruct Hs.
Qed.

Theorem decode_update_bounded ctx src : dvalid ctx ->
  let '(ctx', u) := decode_update k ctx src in
  dvalid ctx' /\ (forall w, u <> UAbort w) /\ lenN (uwritten u) <= BASE64_DECODE_LENGTH (lenN src).
Proof.
  intros Hv. destruct (decode_update k ctx src) as [ctx' u] eqn:E.
  destruct (decode_update_acct src ctx ctx' u Hv E) as [Hv' [Hna Hle]].
  split; [exact Hv'|]. split; [exact Hna|]. unfold BASE64_DECODE_LENGTH.
  destruct Hv as [Hb _].
  assert (8 * lenN (uwritten u) <= 6 + 6 * lenN src) by (destruct u; lia).
  lia.
Qed.

(* decode_update over the arithmetic step *)
Fixpoint dupd (ctx : dctx) (src : bytes) : dctx * ures :=
  match src with
  | [] => (ctx, UOk [])
  | c :: r =>
    match dstep ctx c with
    | (ctx', SErr) => (ctx', UFail [])
    | (ctx', SAbort) => (ctx', UAbort [])
    | (ctx', SNone) => dupd ctx' r
    | (ctx', SByte b) => let '(c2, u) := dupd ctx' r in (c2, ucons b u)
    end
  end.

Lemma decode_update_dupd src : forall ctx, dvalid ctx -> decode_update k ctx src = dupd ctx src.
Proof.
  induction src as [|c r IH]; intros ctx Hv; cbn [decode_update dupd]; [reflexivity|].
  rewrite decode_single_dstep by exact Hv.
  destruct (dstep ctx c) as [c1 s] eqn:Es. destruct (dstep_acct ctx c c1 s Hv Es) as [Hv1 _].
  destruct s; try reflexivity; rewrite IH by exact Hv1; reflexivity.
Qed.

Lemma dstep_E ctx d : d < 64 -> d_pad ctx = 0 -> dstep ctx (E d) = shift_in ctx d.
Proof.
  intros Hd Hp. unfold dstep. rewrite dec_E, Hp, N2Z.id by exact Hd.
  replace (Z.of_N d =? -1)%Z with false by lia. replace (Z.of_N d =? -2)%Z with false by lia.
  replace (Z.of_N d =? -3)%Z with false by lia. reflexivity.
Qed.

Lemma dstep_PAD ctx : dstep ctx PAD = pad_in ctx.
Proof. unfold dstep. rewrite dec_PAD. reflexivity. Qed.

Lemma dstep_pad w b p : b <> 0 -> p <= 1 -> w mod 2 ^ b = 0 ->
  dstep (mkD w b p) PAD = (mkD w (b - 2) (p + 1), SNone).
Proof.
  intros Hb Hp Hw. rewrite dstep_PAD. unfold pad_in. cbn [d_bits d_word d_pad].
  rewrite Hw. replace (b =? 0) with false by lia.
  replace (pad_full k p) with false by (unfold pad_full; destruct k; lia). reflexivity.
Qed.

(* runs the decoder over the data symbols at the head of the input *)
Ltac sym_steps := repeat (rewrite dstep_E by (reflexivity || lia); cbn [shift_in d_bits d_word]).

Lemma dupd_quartet w a b c rest : a < 256 -> b < 256 -> c < 256 ->
  exists w', dupd (mkD w 0 0) (grp a b c ++ rest) =
             let '(c2, u) := dupd (mkD w' 0 0) rest in (c2, ucons a (ucons b (ucons c u))).
Proof.
  intros Ha Hb Hc. unfold grp. cbn [app dupd]. sym_steps.
  exists (push (push (push (push w (a / 4)) (a mod 4 * 16 + b / 16)) (b mod 16 * 4 + c / 64)) (c mod 64)).
  destruct (dupd _ rest) as [c2 u]. rewrite !push_low by reflexivity.
  do 2 f_equal; [lia|]. f_equal; [lia|]. f_equal. lia.
Qed.

Lemma dupd_enc_spec x : forallb is_byte x = true ->
  forall w, exists c', dupd (mkD w 0 0) (enc_spec x) = (c', UOk x) /\ d_bits c' = 0.
Proof.
  revert x. apply (list_ind3 (fun x => forallb is_byte x = true ->
    forall w, exists c', dupd (mkD w 0 0) (enc_spec x) = (c', UOk x) /\ d_bits c' = 0)).
  - intros _ w. eexists. split; reflexivity.
  - intros a Hb w. apply bytes_cons in Hb as [Ha _].
    cbn [enc_spec dupd]. sym_steps.
    rewrite dstep_pad by (rewrite ?push_low by reflexivity; pow2; lia). change (4 - 2) with 2. 
    rewrite dstep_pad by (rewrite ?push_low by reflexivity; pow2; lia).
    eexists. split; [cbn [ucons]; rewrite push_low by reflexivity; do 3 f_equal; lia | reflexivity].
  - intros a b Hb w. apply bytes_cons in Hb as [Ha Hb]. apply bytes_cons in Hb as [Hb _].
    cbn [enc_spec dupd]. sym_steps.
    rewrite dstep_pad by (rewrite ?push_low by reflexivity; pow2; lia).
    eexists. split; [cbn [ucons]; rewrite !push_low by reflexivity; do 3 f_equal; [lia|]; f_equal; lia | reflexivity].
  - intros a b c r IH Hb w. apply bytes_cons in Hb as [Ha Hb]. apply bytes_cons in Hb as [Hb Hc]. apply bytes_cons in Hc as [Hc Hr].
    rewrite enc_spec_cons3. destruct (dupd_quartet w a b c (enc_spec r) Ha Hb Hc) as [w' Hq].
    rewrite Hq. destruct (IH Hr w') as [c' [Hd Hz]]. rewrite Hd. eexists. split; [reflexivity|exact Hz].
Qed.

(* T: decoding the encoding returns the input exactly *)
Theorem decode_enc_spec x : all_bytes_ok x -> b64_decode k (enc_spec x) = Some x.
Proof.
  intros Hb. unfold b64_decode. rewrite decode_update_dupd by exact dvalid_init.
  destruct (dupd_enc_spec x Hb 0) as [c' [Hd Hz]]. unfold dctx_init. rewrite Hd.
  unfold decode_final. rewrite Hz. reflexivity.
Qed.

Theorem decode_encode_roundtrip x : all_bytes_ok x -> b64_decode k (b64_encode x) = Some x.
Proof. intros Hb. rewrite b64_encode_spec by exact Hb. apply decode_enc_spec. exact Hb. Qed.

Theorem decode_encode_raw_roundtrip x : all_bytes_ok x -> b64_decode k (encode_raw x) = Some x.
Proof. intros Hb. rewrite encode_raw_spec by exact Hb. apply decode_enc_spec. exact Hb. Qed.

(* regenerated constants agree with what the model assumes *)

Definition upto64 : list N := map N.of_nat (seq 0 64).

Lemma nettle_tables_equal_bundled :
  nettle_enc_tbl = b64_enc_tbl /\ nettle_dec_tbl = b64_dec_tbl /\
  nettle_decode_length_samples = b64_decode_length_samples /\
  nettle_encode_length_samples = b64_encode_length_samples.
Proof. vm_compute. repeat split; reflexivity. Qed.

Lemma header_constants_match_model :
  b64_enc_tbl = rfc4648_alphabet /\ b64_enc_tbl_static = rfc4648_alphabet /\
  map BASE64_DECODE_LENGTH upto64 = b64_decode_length_samples /\
  map BASE64_ENCODE_LENGTH upto64 = b64_encode_length_samples /\
  map BASE64_ENCODE_RAW_LENGTH upto64 = b64_encode_raw_length_samples /\
  map base64_encode_len upto64 = b64_squid_encode_len_samples /\
  BASE64_ENCODE_FINAL_LENGTH = b64_encode_final_length /\
  b64_enc_word_bytes = 2 /\ b64_dec_word_bytes = 2 /\ b64_dec_bits_bytes = 1.
Proof. vm_compute. repeat split; reflexivity. Qed.

Lemma E_graph i : i < 64 -> xisgraph (E i) = true.
Proof.
  intros Hi.
  pose proof (forallb_bytes (fun i => if i <? 64 then xisgraph (E i) else true) ltac:(vm_compute; reflexivity) i ltac:(lia)) as H.
  cbv beta in H. replace (i <? 64) with true in H by lia. exact H.
Qed.

Lemma enc_spec_graph x : forallb is_byte x = true -> forallb xisgraph (enc_spec x) = true.
Proof.
  revert x. apply (list_ind3 (fun x => forallb is_byte x = true -> forallb xisgraph (enc_spec x) = true)).
  - reflexivity.
  - intros a Hb. apply bytes_cons in Hb as [Ha _].
    cbn [enc_spec forallb]. rewrite !E_graph by lia. reflexivity.
  - intros a b Hb. apply bytes_cons in Hb as [Ha Hb]. apply bytes_cons in Hb as [Hb _].
    cbn [enc_spec forallb]. rewrite !E_graph by lia. reflexivity.
  - intros a b c r IH Hb. apply bytes_cons in Hb as [Ha Hb]. apply bytes_cons in Hb as [Hb Hc]. apply bytes_cons in Hc as [Hc Hr].
    cbn [enc_spec forallb]. rewrite !E_graph by lia. rewrite IH by exact Hr. reflexivity.
Qed.

Lemma cstr_no_nul s t : forallb (fun c => negb (c =? 0)) s = true -> cstr (s ++ t) = s ++ cstr t.
Proof.
  intros Hs. unfold cstr. induction s as [|x s IH]; cbn [app span]; [reflexivity|].
  cbn [forallb] in Hs. apply andb_true_iff in Hs as [Hx Hs]. rewrite Hx.
  specialize (IH Hs). destruct (span (fun c : N => negb (c =? 0)) (s ++ t)) as [a b] eqn:E1.
  cbn [fst] in *. rewrite IH. reflexivity.
Qed.

Lemma cstr_id s : forallb (fun c => negb (c =? 0)) s = true -> cstr s = s.
Proof. intros Hs. rewrite <- (app_nil_r s) at 1. rewrite cstr_no_nul by exact Hs. cbn. apply app_nil_r. Qed.

Lemma enc_spec_nonempty x : x <> [] -> exists y r, enc_spec x = y :: r.
Proof.
  destruct x as [|a [|b [|c r]]]; intros H; [congruence| | |]; cbn [enc_spec]; eauto.
Qed.

Lemma no_colon u : ~ In 58 u -> forallb (fun c => negb (c =? 58)) u = true.
Proof.
  intros Hu. rewrite forallb_forall. intros x Hx. destruct (N.eqb_spec x 58) as [->|]; [contradiction|reflexivity].
Qed.

(* user name = bytes before the first colon, password = bytes after it *)
Lemma basic_split_first_colon cs u p : ~ In 58 u ->
  basic_split cs (u ++ 58 :: p) =
  (if cs then u else map xtolower u, match p with [] => None | _ => Some p end).
Proof. intros Hu. unfold basic_split. rewrite (span_app_stop _ u (58 :: p)) by (reflexivity || apply no_colon, Hu). reflexivity. Qed.

Lemma basic_split_no_colon cs ct : ~ In 58 ct ->
  basic_split cs ct = (if cs then ct else map xtolower ct, None).
Proof. intros Hu. unfold basic_split. rewrite span_forall by apply no_colon, Hu. reflexivity. Qed.

(* a byte that makes decodeCleartext refuse the credentials: NUL (since 06c1c79), CR, LF *)
Definition cred_refused (c : N) : bool := (c =? 0) || (c =? 13) || (c =? 10).

Lemma existsb_false_forallb {A} (p : A -> bool) l :
  existsb p l = false -> forallb (fun c => negb (p c)) l = true.
Proof.
  induction l as [|x l IH]; cbn [existsb forallb]; [reflexivity|].
  intros H. apply orb_false_iff in H as [Hx Hl]. rewrite Hx, IH by exact Hl. reflexivity.
Qed.

(* the whole path through decodeCleartext and the split, for EVERY non-empty credential text:
   "<scheme> <white space> base64(clear) [LF anything]" is refused when clear contains NUL, CR or
   LF, and otherwise yields exactly the split of clear at its first colon *)
Theorem basic_decode_total cs scheme ws clear tail :
  forallb xisgraph scheme = true -> ws <> [] -> forallb xisspace ws = true ->
  all_bytes_ok clear -> clear <> [] ->
  (tail = [] \/ exists t, tail = 10 :: t) ->
  basic_decode k cs (scheme ++ ws ++ enc_spec clear ++ tail) =
  if existsb cred_refused clear then None else Some (basic_split cs clear).
Proof.
  intros Hs Hws0 Hws Hb Hne Ht. unfold all_bytes_ok in Hb.
  assert (Hg : forallb xisgraph (enc_spec clear) = true) by (apply enc_spec_graph; exact Hb).
  destruct (enc_spec_nonempty clear Hne) as [y [r Hy]].
  assert (Hyg : xisgraph y = true).
  { rewrite Hy in Hg. cbn [forallb] in Hg. apply andb_true_iff in Hg. tauto. }
  destruct ws as [|s0 ws']; [congruence|].
  assert (Hs0 : xisspace s0 = true) by (cbn [forallb] in Hws; apply andb_true_iff in Hws; tauto).
  unfold basic_decode, decodeCleartext.
  (* the header as a C string *)
  assert (Hcstr : cstr (scheme ++ (s0 :: ws') ++ enc_spec clear ++ tail) =
                  scheme ++ (s0 :: ws') ++ enc_spec clear ++ cstr tail).
  { rewrite !app_assoc. rewrite cstr_no_nul; [reflexivity|].
    rewrite !forallb_app. rewrite andb_true_iff; split; [rewrite andb_true_iff; split|].
    - revert Hs. apply forallb_impl. intros x. unfold xisgraph. lia.
    - revert Hws. apply forallb_impl. intros x. unfold xisspace. lia.
    - revert Hg. apply forallb_impl. intros x. unfold xisgraph. lia. }
  rewrite Hcstr.
  assert (Htail : cstr tail = [] \/ exists t', cstr tail = 10 :: t').
  { destruct Ht as [-> | [t ->]]; [left; reflexivity|right]. unfold cstr. cbn [span].
    change (negb (10 =? 0)) with true. cbv iota.
    destruct (span (fun c : N => negb (c =? 0)) t) as [a b]. cbn [fst]. eauto. }
  (* trim the scheme token *)
  rewrite (span_app_stop xisgraph scheme ((s0 :: ws') ++ enc_spec clear ++ cstr tail)); [|exact Hs|].
  2:{ cbn [app]. unfold xisgraph, xisspace in *. lia. }
  cbn [snd].
  (* trim white space *)
  rewrite (span_app_stop xisspace (s0 :: ws') (enc_spec clear ++ cstr tail)); [|exact Hws|].
  2:{ rewrite Hy. cbn [app]. unfold xisgraph, xisspace in *. lia. }
  cbn [snd].
  (* strtok(eek, "\n") *)
  assert (Hnl : forallb (fun c => negb (c =? 10)) (enc_spec clear) = true).
  { revert Hg. apply forallb_impl. intros x. unfold xisgraph. lia. }
  assert (Htok : strtok_nl_strlen (enc_spec clear ++ cstr tail) = enc_spec clear).
  { unfold strtok_nl_strlen. rewrite Hy at 1. cbn [app span].
    replace (y =? 10) with false by (unfold xisgraph in Hyg; lia).
    cbn [app]. change (y :: r ++ cstr tail) with ((y :: r) ++ cstr tail). rewrite <- Hy.
    rewrite (span_app_stop (fun c => negb (c =? 10)) (enc_spec clear) (cstr tail)); [reflexivity|exact Hnl|].
    destruct Htail as [-> | [t' ->]]; [exact I|reflexivity]. }
  rewrite Htok.
  rewrite decode_enc_spec by exact Hb.
  (* the NUL test, then the CR/LF test on the C string *)
  destruct (existsb (fun c : N => c =? 0) clear) eqn:Enul.
  - replace (existsb cred_refused clear) with true; [reflexivity|].
    symmetry. apply existsb_exists in Enul as [x [Hin Hx]]. apply existsb_exists. exists x.
    split; [exact Hin|]. unfold cred_refused. rewrite Hx. reflexivity.
  - rewrite cstr_id by (apply existsb_false_forallb; exact Enul).
    assert (Heq : existsb cred_refused clear = existsb (fun c : N => (c =? 13) || (c =? 10)) clear).
    { clear - Enul. induction clear as [|x l IH]; [reflexivity|]. cbn [existsb] in *.
      apply orb_false_iff in Enul as [Hx Hl]. rewrite IH by exact Hl. unfold cred_refused. rewrite Hx. reflexivity. }
    rewrite Heq. destruct (existsb (fun c : N => (c =? 13) || (c =? 10)) clear); reflexivity.
Qed.

(* "Basic credentials decode to the user name before the first colon and the password after it",
   with no restriction on the bytes of user name and password *)
Theorem basic_credentials cs scheme ws u p tail :
  forallb xisgraph scheme = true -> ws <> [] -> forallb xisspace ws = true ->
  all_bytes_ok (u ++ 58 :: p) -> ~ In 58 u ->
  (tail = [] \/ exists t, tail = 10 :: t) ->
  basic_decode k cs (scheme ++ ws ++ enc_spec (u ++ 58 :: p) ++ tail) =
  if existsb cred_refused (u ++ 58 :: p) then None
  else Some (if cs then u else map xtolower u, match p with [] => None | _ => Some p end).
Proof.
  intros Hs Hws0 Hws Hb Hu Ht.
  rewrite basic_decode_total; try assumption; [|destruct u; discriminate].
  rewrite basic_split_first_colon by exact Hu. reflexivity.
Qed.

Theorem basic_nul_refused cs scheme ws clear tail :
  forallb xisgraph scheme = true -> ws <> [] -> forallb xisspace ws = true ->
  all_bytes_ok clear -> In 0 clear ->
  (tail = [] \/ exists t, tail = 10 :: t) ->
  basic_decode k cs (scheme ++ ws ++ enc_spec clear ++ tail) = None.
Proof.
  intros Hs Hws0 Hws Hb Hin Ht.
  rewrite basic_decode_total; try assumption; [|destruct clear; [destruct Hin|discriminate]].
  replace (existsb cred_refused clear) with true; [reflexivity|].
  symmetry. apply existsb_exists. exists 0. split; [exact Hin|reflexivity].
Qed.

Definition uapp (o : bytes) (u : ures) : ures :=
  match u with UOk o2 => UOk (o ++ o2) | UFail w => UFail (o ++ w) | UAbort w => UAbort (o ++ w) end.

Lemma dupd_app a : forall ctx b,
  dupd ctx (a ++ b) =
  match dupd ctx a with
  | (c1, UOk o1) => let '(c2, u) := dupd c1 b in (c2, uapp o1 u)
  | other => other
  end.
Proof.
  induction a as [|x a IH]; intros ctx b; cbn [app dupd].
  - destruct (dupd ctx b) as [c2 [o|w|w]]; reflexivity.
  - destruct (dstep ctx x) as [c1 s]. destruct s as [| |y|]; try reflexivity.
    + apply IH.
    + rewrite IH. destruct (dupd c1 a) as [c2 u]. destruct u as [o|w|w]; cbn [ucons]; try reflexivity.
      destruct (dupd c2 b) as [c3 [o3|w3|w3]]; reflexivity.
Qed.

Definition dres_of (acc : bytes) (r : dctx * ures) : dres :=
  match r with
  | (c, UOk o) => if decode_final c then DOk (acc ++ o) else DTrunc (acc ++ o)
  | (_, UFail w) => DRej (acc ++ w)
  | (_, UAbort _) => DAbort
  end.

(* T: the outcome of init; update*; final -- including the bytes stored before a rejection --
   depends only on the concatenation of the chunks *)
Theorem decode_chunks_concat chunks : forall ctx acc, dvalid ctx ->
  decode_chunks k ctx chunks acc = dres_of acc (decode_update k ctx (concat chunks)).
Proof.
  induction chunks as [|s r IH]; intros ctx acc Hv; cbn [decode_chunks concat].
  - cbn [decode_update dres_of]. rewrite app_nil_r. reflexivity.
  - destruct (decode_update k ctx s) as [c1 u1] eqn:E1.
    pose proof (decode_update_acct s ctx c1 u1 Hv E1) as [Hv1 [Hna _]].
    rewrite (decode_update_dupd (s ++ concat r)) by exact Hv. rewrite dupd_app.
    rewrite <- (decode_update_dupd s) by exact Hv. rewrite E1.
    destruct u1 as [o1|w1|w1].
    + rewrite IH by exact Hv1. rewrite (decode_update_dupd (concat r)) by exact Hv1.
      destruct (dupd c1 (concat r)) as [c2 u2]. destruct u2; cbn [uapp dres_of]; rewrite ?app_assoc; reflexivity.
    + reflexivity.
    + reflexivity.
Qed.

Lemma dupd_strip_ws src : forallb is_byte src = true -> forall ctx, dupd ctx src = dupd ctx (strip_ws src).
Proof.
  induction src as [|c r IH]; intros Hb ctx; [reflexivity|].
  apply bytes_cons in Hb as [Hc Hr].
  unfold strip_ws. cbn [filter]. fold (strip_ws r).
  destruct (b64_ws c) eqn:Ew; cbn [negb].
  - cbn [dupd]. unfold dstep. apply (dec_ws_iff c Hc) in Ew. rewrite Ew.
    change (-2 =? -1)%Z with false. change (-2 =? -2)%Z with true. cbv iota. apply IH. exact Hr.
  - cbn [dupd]. destruct (dstep ctx c) as [c1 s]. destruct s; try reflexivity; rewrite IH by exact Hr; reflexivity.
Qed.

(* T: any cutting of any white-space-interleaved RFC 4648 encoding of x decodes to exactly x *)
Theorem decode_wellformed_any_segmentation chunks x :
  all_bytes_ok x -> all_bytes_ok (concat chunks) -> strip_ws (concat chunks) = enc_spec x ->
  decode_chunks k dctx_init chunks [] = DOk x.
Proof.
  intros Hx Hc Hs. rewrite decode_chunks_concat by exact dvalid_init.
  rewrite decode_update_dupd by exact dvalid_init. rewrite dupd_strip_ws by exact Hc. rewrite Hs.
  destruct (dupd_enc_spec x Hx 0) as [c' [Hd Hz]]. unfold dctx_init. rewrite Hd.
  cbn [dres_of]. unfold decode_final. rewrite Hz. reflexivity.
Qed.

Definition A3 : bytes := [65; 61; 61; 61].  (* "A===" *)

Lemma dstep_inv ctx c : c < 256 -> b64_ws c = false ->
  (exists d, d < 64 /\ c = E d /\ d_pad ctx = 0 /\ dstep ctx c = shift_in ctx d)
  \/ (c = PAD /\ d_bits ctx <> 0 /\ pad_full k (d_pad ctx) = false /\ d_word ctx mod 2 ^ d_bits ctx = 0 /\
      dstep ctx c = (mkD (d_word ctx) (d_bits ctx - 2) (d_pad ctx + 1), SNone))
  \/ dstep ctx c = (ctx, SErr).
Proof.
  intros Hc Hws. unfold dstep, pad_in.
  pose proof (dec_tbl_range c) as Hr. pose proof (dec_ws_iff c Hc) as Hwi.
  destruct (dec_lookup c =? -1)%Z eqn:E1; [right; right; reflexivity|].
  destruct (dec_lookup c =? -2)%Z eqn:E2.
  { exfalso. assert (b64_ws c = true) by (apply Hwi; lia). congruence. }
  destruct (dec_lookup c =? -3)%Z eqn:E3.
  - destruct ((d_bits ctx =? 0) || pad_full k (d_pad ctx) || negb (d_word ctx mod 2 ^ d_bits ctx =? 0)) eqn:Ec;
      [right; right; reflexivity|].
    right; left. apply orb_false_iff in Ec as [Ec Ew]. apply orb_false_iff in Ec as [Eb Ep].
    apply negb_false_iff, N.eqb_eq in Ew. apply N.eqb_neq in Eb.
    repeat split; auto. apply dec_end_inv; [exact Hc|lia].
  - destruct (negb (d_pad ctx =? 0)) eqn:Ep; [right; right; reflexivity|].
    left. exists (Z.to_N (dec_lookup c)). apply negb_false_iff, N.eqb_eq in Ep.
    repeat split; auto; [lia|apply dec_data_inv; [exact Hc|lia]].
Qed.

Definition clean (s : bytes) : Prop := forallb (fun c => is_byte c && negb (b64_ws c)) s = true.

(* what the decoder can have done with the first byte of an input it accepts *)
Definition after_first (ctx : dctx) (c : N) (r : bytes) (c' : dctx) (o : bytes) : Prop :=
  (exists d, d < 64 /\ c = E d /\ d_pad ctx = 0 /\
     match shift_in ctx d with
     | (c1, SByte x) => exists o2, o = x :: o2 /\ dupd c1 r = (c', UOk o2)
     | (c1, _) => dupd c1 r = (c', UOk o)
     end)
  \/ (c = PAD /\ d_bits ctx <> 0 /\ pad_full k (d_pad ctx) = false /\ d_word ctx mod 2 ^ d_bits ctx = 0 /\
      dupd (mkD (d_word ctx) (d_bits ctx - 2) (d_pad ctx + 1)) r = (c', UOk o)).

Lemma dupd_cons_inv ctx c r c' o : clean (c :: r) -> dupd ctx (c :: r) = (c', UOk o) ->
  clean r /\ after_first ctx c r c' o.
Proof.
  unfold clean. cbn [forallb dupd]. intros Hs H. apply andb_true_iff in Hs as [Hc Hs].
  apply andb_true_iff in Hc as [Hc Hw]. apply N.ltb_lt in Hc. apply negb_true_iff in Hw.
  split; [exact Hs|].
  destruct (dstep_inv ctx c Hc Hw) as [(d & Hd & He & Hp & Hd') | [(He & Hb & Hp & Hm & Hd') | Hd']];
    rewrite Hd' in H; [left | right | discriminate H].
  - exists d. repeat split; auto. destruct (shift_in ctx d) as [c1 [| |x|]]; try discriminate H; [exact H|].
    destruct (dupd c1 r) as [c2 [o2|w|w]]; cbn [ucons] in H; inversion H; subst. eauto.
  - repeat split; auto.
Qed.

Lemma dupd_nil_inv ctx c' o : dupd ctx [] = (c', UOk o) -> c' = ctx /\ o = [].
Proof. cbn [dupd]. intros H. inversion H. auto. Qed.

(* while bits are buffered, an accepted input goes on *)
Lemma dupd_next ctx s c' o : d_bits ctx <> 0 -> d_bits c' = 0 -> clean s -> dupd ctx s = (c', UOk o) ->
  exists c r, s = c :: r /\ clean r /\ after_first ctx c r c' o.
Proof.
  intros Hb Hz Hs H. destruct s as [|c r]; [apply dupd_nil_inv in H as [-> _]; contradiction|].
  exists c, r. split; [reflexivity|]. apply dupd_cons_inv; assumption.
Qed.

(* once padding has brought bits to 0 nothing more is accepted *)
Lemma dupd_after_padding w p s c' o : 1 <= p -> clean s ->
  dupd (mkD w 0 p) s = (c', UOk o) -> s = [] /\ o = [].
Proof.
  intros Hp Hs H. destruct s as [|c s]; [apply dupd_nil_inv in H; tauto|].
  apply dupd_cons_inv in H as [_ [(d & _ & _ & Hp0 & _) | (_ & Hb & _)]]; [|contradiction|exact Hs].
  cbn [d_pad] in Hp0. lia.
Qed.

Lemma grp_syms d0 d1 d2 d3 : d0 < 64 -> d1 < 64 -> d2 < 64 -> d3 < 64 ->
  grp (d0 mod 64 * 4 + d1 / 16) (d1 mod 16 * 16 + d2 / 4) (d2 mod 4 * 64 + d3) = [E d0; E d1; E d2; E d3].
Proof. intros. unfold grp. list_E. Qed.

(* H : dupd ctx s = (c', UOk o) with bits buffered in ctx: splits off the next byte of s and replaces H
   by the two ways (data symbol, '=') it can have been accepted *)
Ltac next_char H :=
  apply dupd_next in H; [|cbn [d_bits]; lia|assumption|assumption];
  let c := fresh "c" in let s := fresh "s" in let Hs := fresh "Hs" in
  destruct H as (c & s & -> & Hs & H); unfold after_first in H; cbn [shift_in d_bits d_word d_pad] in H.

Lemma dupd_accept_shape n : forall s, (length s <= n)%nat -> clean s ->
  forall w c' o, dupd (mkD w 0 0) s = (c', UOk o) -> d_bits c' = 0 ->
  s = enc_spec o \/ (k = true /\ s = enc_spec o ++ A3 /\ lenN o mod 3 = 0).
Proof.
  induction n as [|n IH]; intros s Hl Hs w c' o H Hz.
  { destruct s; [|cbn in Hl; lia]. apply dupd_nil_inv in H as [_ ->]. left; reflexivity. }
  destruct s as [|c0 s]; [apply dupd_nil_inv in H as [_ ->]; left; reflexivity|].
  apply dupd_cons_inv in H as [Hs0 [(d0 & Hd0 & -> & _ & H) | (_ & Hb & _)]]; [|contradiction|exact Hs].
  cbn [shift_in d_bits d_word] in H.
  next_char H. destruct H as [(d1 & Hd1 & -> & _ & o1 & -> & H) | (-> & _ & _ & Hm & H)].
  - next_char H. destruct H as [(d2 & Hd2 & -> & _ & o2 & -> & H) | (-> & _ & _ & Hm & H)].
    + next_char H. destruct H as [(d3 & Hd3 & -> & _ & o3 & -> & H) | (-> & _ & _ & Hm & H)].
      * (* a full quantum *)
        apply IH in H; [|cbn [length] in Hl; lia|assumption|assumption].
        rewrite !push_low by reflexivity. rewrite enc_spec_cons3, grp_syms by assumption. cbn [app].
        destruct H as [-> | (Hk & -> & Hm)]; [left; reflexivity|right].
        split; [exact Hk|]. split; [reflexivity|cbn [lenN]; lia].
      * (* "xxx=" *)
        apply dupd_after_padding in H as [-> ->]; [|lia|assumption].
        left. rewrite !push_low in * by reflexivity. pow2. clear - Hd0 Hd1 Hd2 Hm. cbn [enc_spec]. list_E.
    + (* "xx==" *)
      next_char H. destruct H as [(d3 & _ & _ & Hp & _) | (-> & _ & _ & _ & H)]; [discriminate Hp|].
      apply dupd_after_padding in H as [-> ->]; [|lia|assumption].
      left. rewrite !push_low in * by reflexivity. pow2. clear - Hd0 Hd1 Hm. cbn [enc_spec]. list_E.
  - (* "x===", which only the nettle test (padding > 2) lets through, and only for x = "A" *)
    next_char H. destruct H as [(d3 & _ & _ & Hp & _) | (-> & _ & _ & _ & H)]; [discriminate Hp|].
    next_char H. destruct H as [(d3 & _ & _ & Hp & _) | (-> & _ & Hp & _ & H)]; [discriminate Hp|].
    apply dupd_after_padding in H as [-> ->]; [|lia|assumption].
    destruct k; [|discriminate Hp].
    right. rewrite push_low in Hm by reflexivity. pow2. replace d0 with 0 by lia. repeat split; reflexivity.
Qed.
Lemma strip_ws_clean src : forallb is_byte src = true -> clean (strip_ws src).
Proof.
  intros Hb. unfold clean, strip_ws. rewrite forallb_forall in *. intros x Hx.
  apply filter_In in Hx as [Hx Hw]. rewrite (Hb x Hx), Hw. reflexivity.
Qed.

(* T: the accepted language, exactly (modulo the white space the decoder skips by design):
   an accepted input is the RFC 4648 encoding of what was decoded; only the nettle variant also
   accepts that encoding of a whole number of quanta followed by the non-canonical "A===" *)
Theorem accepted_language_exact src out : all_bytes_ok src -> b64_decode k src = Some out ->
  strip_ws src = enc_spec out \/
  (k = true /\ strip_ws src = enc_spec out ++ A3 /\ lenN out mod 3 = 0).
Proof.
  unfold all_bytes_ok, b64_decode. intros Hb H.
  rewrite decode_update_dupd in H by exact dvalid_init.
  rewrite dupd_strip_ws in H by exact Hb.
  destruct (dupd dctx_init (strip_ws src)) as [c u] eqn:E. destruct u as [o|w|w]; try discriminate H.
  unfold decode_final in H. destruct (d_bits c =? 0) eqn:Ez; [|discriminate H].
  inversion H; subst o. apply N.eqb_eq in Ez.
  exact (dupd_accept_shape (length (strip_ws src)) (strip_ws src) (le_n _) (strip_ws_clean src Hb) 0 c out E Ez).
Qed.

(* a byte outside alphabet, '=' and white space anywhere in the input: never accepted *)
Lemma dupd_invalid c src : In c src -> dec_lookup c = (-1)%Z ->
  forall ctx, match snd (dupd ctx src) with UOk _ => False | _ => True end.
Proof.
  intros Hin Hd. induction src as [|x r IH]; [destruct Hin|]. intros ctx. cbn [dupd].
  destruct Hin as [-> | Hin].
  - unfold dstep. rewrite Hd. change (-1 =? -1)%Z with true. cbv iota. exact I.
  - destruct (dstep ctx x) as [c1 s]. destruct s as [| |b|]; cbn [snd]; try exact I.
    + apply IH, Hin.
    + specialize (IH Hin c1). destruct (dupd c1 r) as [c2 u]. cbn [snd] in *. destruct u; cbn [ucons]; auto.
Qed.

Theorem invalid_character_rejected c src : In c src -> dec_lookup c = (-1)%Z -> b64_decode k src = None.
Proof.
  intros Hin Hd. unfold b64_decode. rewrite decode_update_dupd by exact dvalid_init.
  pose proof (dupd_invalid c src Hin Hd dctx_init) as H.
  destruct (dupd dctx_init src) as [c1 u]. cbn [snd] in H. destruct u; [destruct H|reflexivity|reflexivity].
Qed.

End Decoder.

(* bundled lib/base64.cc (HEAD): "malformed base64 is rejected" at full strength --
   whatever is accepted is, white space aside, the RFC 4648 encoding of the output *)
Theorem bundled_malformed_rejected src out : all_bytes_ok src -> b64_decode false src = Some out ->
  strip_ws src = enc_spec out.
Proof.
  intros Hb H. destruct (accepted_language_exact false src out Hb H) as [He | [Hk _]]; [exact He|discriminate Hk].
Qed.

(* contrapositive reading: an input that is not (white space aside) a canonical encoding is refused *)
Theorem bundled_rejects_noncanonical src : all_bytes_ok src ->
  (forall out, strip_ws src <> enc_spec out) -> b64_decode false src = None.
Proof.
  intros Hb Hn. destruct (b64_decode false src) as [out|] eqn:E; [|reflexivity].
  exfalso. exact (Hn out (bundled_malformed_rejected src out Hb E)).
Qed.

(* libnettle 3.8 decoder: exact language including the quirk, the refutation, and the restricted statement *)
Theorem nettle_accepted_language src out : all_bytes_ok src -> b64_decode true src = Some out ->
  strip_ws src = enc_spec out \/ (strip_ws src = enc_spec out ++ A3 /\ lenN out mod 3 = 0).
Proof.
  intros Hb H. destruct (accepted_language_exact true src out Hb H) as [He | [_ Hq]]; [left; exact He|right; exact Hq].
Qed.

Lemma nettle_strict_rejection_refuted :
  exists src out, all_bytes_ok src /\ b64_decode true src = Some out /\ strip_ws src <> enc_spec out.
Proof. exists A3, []. repeat split. discriminate. Qed.

Theorem nettle_malformed_rejected_partial src out : all_bytes_ok src -> b64_decode true src = Some out ->
  (forall o, strip_ws src <> enc_spec o ++ A3) -> strip_ws src = enc_spec out.
Proof.
  intros Hb H Hq. destruct (nettle_accepted_language src out Hb H) as [He | [He _]]; [exact He|].
  exfalso. exact (Hq out He).
Qed.

(* the same witness is refused by the bundled copy *)
Lemma bundled_refuses_A3 : b64_decode false A3 = None /\ b64_decode false ([81; 85; 74; 68] ++ A3) = None.
Proof. vm_compute. split; reflexivity. Qed.

(* through decodeCleartext with the nettle decoder linked: "Basic A===" still yields (empty) credentials *)
Lemma nettle_basic_accepts_A3 :
  basic_decode true true ([66; 97; 115; 105; 99; 32] ++ A3) = Some ([], None) /\
  basic_decode false true ([66; 97; 115; 105; 99; 32] ++ A3) = None.
Proof. vm_compute. split; reflexivity. Qed.

(* non-vacuity helpers for Properties_C36.v *)
Lemma example_no_A3_suffix : forall o, [81; 85; 74; 68] <> enc_spec o ++ A3.
Proof.
  intros o H. destruct o as [|a [|b [|c r]]]; cbn [enc_spec app] in H; try discriminate H.
  injection H as _ _ _ _ H. destruct (enc_spec r); discriminate H.
Qed.

Lemma example_cred_hyps :
  all_bytes_ok ([65; 108; 97; 100; 100; 105; 110] ++ 58 :: [111; 112; 101; 110]) /\
  ~ In 58 [65; 108; 97; 100; 100; 105; 110] /\
  existsb cred_refused ([65; 108; 97; 100; 100; 105; 110] ++ 58 :: [111; 112; 101; 110]) = false.
Proof.
  split; [vm_compute; reflexivity|]. split; [|vm_compute; reflexivity].
  cbn. intros H. repeat (destruct H as [H|H]; [discriminate H|]). exact H.
Qed.
