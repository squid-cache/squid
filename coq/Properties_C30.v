(* Properties_C30.v — C30: URI parsing is canonical and validates authority.
   Statements, closed by `exact` or by the few lines that assemble them; proofs live in UriProofs.v.  `ipq` is the Ip::Address oracle (Section variable
   of UriProofs.v, here an explicit argument) and `ipq_contract` its assumed contract. *)
Require Import SquidV.Bytes SquidV.TokModel SquidV.QuoteModel SquidV.UriModel SquidV.UriProofs.
Require Import SquidV.gen.Uri_gen.
Local Open Scope N_scope.

(* ---- (1) what every accepted URI looks like ---- *)

(* the host of an accepted URI (any method, any configuration) has no upper-case letter *)
Theorem C30_accepted_host_is_lowercase : forall ipq c m raw u,
  ipq_contract ipq -> parse c ipq m raw = Some u -> s_id (u_scheme u) <> uri_PROTO_URN ->
  forallb (fun x => negb ((65 <=? x) && (x <=? 90))) (u_host u) = true.
Proof. exact accepted_host_lowercase. Qed.
Print Assumptions C30_accepted_host_is_lowercase.

(* its port is in 1..65535 *)
Theorem C30_accepted_port_in_range : forall ipq c m raw u,
  parse c ipq m raw = Some u -> s_id (u_scheme u) <> uri_PROTO_URN ->
  exists p, u_port u = Some p /\ 1 <= p <= 65535.
Proof. exact accepted_port_in_range. Qed.
Print Assumptions C30_accepted_port_in_range.

(* its host (unless it is an IP literal, or the request-target is the asterisk-form) is non-empty,
   shorter than the host buffer, and splits at '.' into non-empty labels only *)
Theorem C30_accepted_host_no_empty_labels : forall ipq c m raw u,
  parse c ipq m raw = Some u -> s_id (u_scheme u) <> uri_PROTO_URN ->
  list_eqb raw uri_asterisk = false -> u_num u = false ->
  u_host u <> [] /\ no_empty_label (u_host u) = true /\ lenN (u_host u) < uri_SQUIDHOSTNAMELEN.
Proof. exact accepted_host_labels. Qed.
Print Assumptions C30_accepted_host_no_empty_labels.

(* ---- (2) canonical form: what is still false ---- *)

(* "http://example.com/a#f" -> "http://example.com/a%23f" -> a different path
   (path_ also holds the fragment; '#' is not in the set absolutePath() keeps) *)
Theorem C30_canonical_reparse_refuted_fragment :
  exists ipq c m raw u u', ipq_contract ipq /\ parse c ipq m raw = Some u /\
    parse c ipq m (canonical m u) = Some u' /\ u_path u' <> u_path u.
Proof. exact canonical_reparse_refuted_fragment. Qed.
Print Assumptions C30_canonical_reparse_refuted_fragment.

(* "http://[a:80/" is accepted with host "a:80"; its canonical form "http://a:80/" names host "a" *)
Theorem C30_canonical_reparse_refuted_colon_host :
  exists ipq c m raw u u', ipq_contract ipq /\ parse c ipq m raw = Some u /\
    parse c ipq m (canonical m u) = Some u' /\ u_host u' <> u_host u.
Proof. exact canonical_reparse_refuted_colon_host. Qed.
Print Assumptions C30_canonical_reparse_refuted_colon_host.

(* "urn:12:xyz" with an oracle reading "12" as 0.0.0.12 (inet_aton): canonical form "urn:0.0.0.12:xyz" is rejected *)
Theorem C30_canonical_reparse_refuted_urn_nid :
  exists ipq c m raw u, ipq_contract ipq /\ parse c ipq m raw = Some u /\
    parse c ipq m (canonical m u) = None.
Proof. exact canonical_reparse_refuted_urn_nid. Qed.
Print Assumptions C30_canonical_reparse_refuted_urn_nid.

(* the bytes absolutePath() leaves alone are PathChars() and the query delimiter '?' (table regenerated
   from absolutePath() itself on every run) *)
Theorem C30_query_delimiter_is_kept : forall c, c < 256 ->
  path_kept c = uri_PathChars c || (c =? 63).
Proof. exact path_kept_spec. Qed.
Print Assumptions C30_query_delimiter_is_kept.

(* ---- (1)/(3) the port of an RFC-shaped URI ---- *)

(* scheme "://" [userinfo "@"] reg-name ":" P rest, with P the text between the colon and the end of
   the authority: if the URI is accepted (any non-CONNECT method, any configuration) then P is a
   non-empty string of decimal digits, its value lies in 1..65535 and it is the port.  Read
   contrapositively: every non-numeric, empty or out-of-range port text is rejected. *)
Theorem C30_shaped_port_is_written : forall ipq c m s ui h P rest u,
  is_connect m = false -> scheme_text s ->
  s_id (scheme_of s) <> uri_PROTO_NONE -> s_id (scheme_of s) <> uri_PROTO_URN ->
  userinfo_at ui ->
  forallb auth_char h = true -> no_at h = true -> no_colon h = true -> starts_ch 91 h = false ->
  forallb auth_char P = true -> no_at P = true -> no_colon P = true ->
  rest_ok rest ->
  parse c ipq m (s ++ colon :: slash :: slash :: (ui ++ h ++ colon :: P) ++ rest) = Some u ->
  P <> [] /\ forallb dec_digit P = true /\ 1 <= dec_value P 0 <= 65535 /\ u_port u = Some (dec_value P 0).
Proof. exact shaped_port_is_written. Qed.
Print Assumptions C30_shaped_port_is_written.

(* the same after a bracketed literal: scheme "://" [userinfo "@"] "[" inner "]" ":" P rest *)
Theorem C30_shaped_literal_port_is_written : forall ipq c m s ui inner P rest u,
  is_connect m = false -> scheme_text s ->
  s_id (scheme_of s) <> uri_PROTO_NONE -> s_id (scheme_of s) <> uri_PROTO_URN ->
  userinfo_at ui ->
  forallb auth_char inner = true -> no_at inner = true -> no_rbracket inner = true ->
  forallb auth_char P = true -> no_at P = true ->
  rest_ok rest ->
  parse c ipq m (s ++ colon :: slash :: slash :: (ui ++ 91 :: inner ++ 93 :: colon :: P) ++ rest) = Some u ->
  P <> [] /\ forallb dec_digit P = true /\ 1 <= dec_value P 0 <= 65535 /\ u_port u = Some (dec_value P 0).
Proof. exact shaped_literal_port_is_written. Qed.
Print Assumptions C30_shaped_literal_port_is_written.

(* without a port: the scheme's default port (and a host must be present) *)
Theorem C30_shaped_default_port : forall ipq c m s ui h rest u,
  is_connect m = false -> scheme_text s ->
  s_id (scheme_of s) <> uri_PROTO_NONE -> s_id (scheme_of s) <> uri_PROTO_URN ->
  userinfo_at ui ->
  forallb auth_char h = true -> no_at h = true -> no_colon h = true -> starts_ch 91 h = false ->
  rest_ok rest ->
  parse c ipq m (s ++ colon :: slash :: slash :: (ui ++ h) ++ rest) = Some u ->
  h <> [] /\ u_port u = default_port (scheme_of s) /\ u_scheme u = scheme_of s.
Proof. exact shaped_default_port. Qed.
Print Assumptions C30_shaped_default_port.

(* ---- (2) canonical form: what holds ---- *)

(* Re-parsing absolute() of a URI value whose host is a settled reg-name (non-empty, no '@' ':' or
   leading '[', unchanged by lower-casing / trailing-dot removal, not cut) or a dotted quad that
   Ip::Address recognises as itself, and whose path+query consists of bytes absolutePath() keeps
   (PathChars and '?': so a query is covered; no fragment, nothing to encode) yields the same scheme,
   host, port and path.
   Missing for the full statement: paths with '#' or bytes that Encode rewrites (refuted above),
   hosts outside this class (refuted above), bracketed IPv6 literals and CONNECT targets (covered
   by the correspondence run and the oracle only), and the link "every parse result of a well-formed
   URI is such a value" is proved for the port and scheme (theorems above) but not for host and path. *)
Theorem C30_canonical_reparse_partial : forall ipq c m u port,
  is_connect m = false ->
  scheme_text (s_img (u_scheme u)) -> scheme_of (s_img (u_scheme u)) = u_scheme u ->
  s_id (u_scheme u) <> uri_PROTO_NONE -> s_id (u_scheme u) <> uri_PROTO_URN ->
  u_port u = Some port -> 1 <= port <= 65535 ->
  settled_host c (u_host u) -> set_host ipq (u_host u) = (u_host u, u_num u) ->
  clean_path (u_path u) ->
  lenN (absolute u) <= uri_MAX_URL - 1 ->
  exists login',
    parse c ipq m (absolute u) =
      Some {| u_scheme := u_scheme u; u_login := login'; u_host := u_host u; u_num := u_num u;
              u_port := Some port; u_path := u_path u |}.
Proof. exact reparse_canonical. Qed.
Print Assumptions C30_canonical_reparse_partial.

(* and the canonical form is then a fixed point: canonical (parse (canonical u)) = canonical u *)
Theorem C30_canonical_form_fixed_point_partial : forall ipq c m u port,
  is_connect m = false ->
  (s_id (u_scheme u) =? uri_PROTO_FTP) || (s_id (u_scheme u) =? uri_PROTO_UNKNOWN) = false ->
  scheme_text (s_img (u_scheme u)) -> scheme_of (s_img (u_scheme u)) = u_scheme u ->
  s_id (u_scheme u) <> uri_PROTO_NONE -> s_id (u_scheme u) <> uri_PROTO_URN ->
  u_port u = Some port -> 1 <= port <= 65535 ->
  settled_host c (u_host u) -> set_host ipq (u_host u) = (u_host u, u_num u) ->
  clean_path (u_path u) ->
  lenN (absolute u) <= uri_MAX_URL - 1 ->
  exists u', parse c ipq m (absolute u) = Some u' /\ absolute u' = absolute u.
Proof. exact canonical_fixed_point. Qed.
Print Assumptions C30_canonical_form_fixed_point_partial.

(* ---- hypotheses are satisfiable ---- *)
Example C30_ex_accepted :
  exists u, parse cfg_default no_ip m_get w_query = Some u /\ s_id (u_scheme u) <> uri_PROTO_URN /\
            u_num u = false /\ u_host u <> [] /\ lenN (u_host u) < uri_SQUIDHOSTNAMELEN - 1.
Proof. eexists. split; [vm_compute; reflexivity|]. repeat split; vm_compute; discriminate || reflexivity. Qed.

(* "http://Example.COM:8080/x?q=1": shaped with s = "http", h = "Example.COM", P = "8080", rest = "/x?q=1";
   its parse result satisfies every hypothesis of the canonical re-parse theorem *)
Definition C30_ex_s : bytes := [104;116;116;112].
Definition C30_ex_h : bytes := [69;120;97;109;112;108;101;46;67;79;77].
Definition C30_ex_P : bytes := [56;48;56;48].
Definition C30_ex_rest : bytes := [47;120;63;113;61;49].   (* /x?q=1 *)
Definition C30_ex_raw : bytes := C30_ex_s ++ colon :: slash :: slash :: ([] ++ C30_ex_h ++ colon :: C30_ex_P) ++ C30_ex_rest.
Definition C30_ex_u : uri :=
  match parse cfg_default no_ip m_get C30_ex_raw with Some u => u | None => star_uri end.
Ltac c30_decide := vm_compute; first [reflexivity | discriminate | (let H := fresh in intro H; discriminate H) | (left; reflexivity)].
Example C30_ex_parse : parse cfg_default no_ip m_get C30_ex_raw = Some C30_ex_u /\ u_port C30_ex_u = Some 8080.
Proof. split; vm_compute; reflexivity. Qed.
Example C30_ex_shaped_hyps :
  scheme_text C30_ex_s /\ s_id (scheme_of C30_ex_s) <> uri_PROTO_NONE /\ s_id (scheme_of C30_ex_s) <> uri_PROTO_URN /\
  userinfo_at [] /\
  forallb auth_char C30_ex_h = true /\ no_at C30_ex_h = true /\ no_colon C30_ex_h = true /\ starts_ch 91 C30_ex_h = false /\
  forallb auth_char C30_ex_P = true /\ no_at C30_ex_P = true /\ no_colon C30_ex_P = true /\ rest_ok C30_ex_rest.
Proof.
  split. { unfold scheme_text. split; [vm_compute; reflexivity|]. split; [vm_compute; discriminate| vm_compute; reflexivity]. }
  split; [vm_compute; discriminate|]. split; [vm_compute; discriminate|]. split; [left; reflexivity|].
  repeat (split; [vm_compute; reflexivity|]). left. vm_compute. reflexivity.
Qed.
Example C30_ex_reparse_hyps :
  is_connect m_get = false /\
  scheme_text (s_img (u_scheme C30_ex_u)) /\ scheme_of (s_img (u_scheme C30_ex_u)) = u_scheme C30_ex_u /\
  s_id (u_scheme C30_ex_u) <> uri_PROTO_NONE /\ s_id (u_scheme C30_ex_u) <> uri_PROTO_URN /\
  settled_host cfg_default (u_host C30_ex_u) /\ set_host no_ip (u_host C30_ex_u) = (u_host C30_ex_u, u_num C30_ex_u) /\
  clean_path (u_path C30_ex_u) /\ lenN (absolute C30_ex_u) <= uri_MAX_URL - 1 /\
  (s_id (u_scheme C30_ex_u) =? uri_PROTO_FTP) || (s_id (u_scheme C30_ex_u) =? uri_PROTO_UNKNOWN) = false.
Proof.
  split; [vm_compute; reflexivity|].
  split. { unfold scheme_text. split; [vm_compute; reflexivity|]. split; [vm_compute; discriminate| vm_compute; reflexivity]. }
  split; [vm_compute; reflexivity|]. split; [vm_compute; discriminate|]. split; [vm_compute; discriminate|].
  split. { unfold settled_host. repeat split; try (vm_compute; reflexivity); try (vm_compute; discriminate). }
  split; [vm_compute; reflexivity|]. split; [unfold clean_path; split; vm_compute; reflexivity|].
  split; [vm_compute; discriminate| vm_compute; reflexivity].
Qed.
