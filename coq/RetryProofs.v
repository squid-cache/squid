(* RetryProofs.v — proofs about the FwdState attempt machine (C07). *)
Require Import List NArith Bool Lia.
Require Import SquidV.Bytes SquidV.RetryModel.
Require Import SquidV.gen.RetryMethods_gen.
Import ListNotations.
Local Open Scope N_scope.

Lemma nonidempotent_not_retriable r :
  method_safe (r_method r) = false -> method_idem (r_method r) = false -> check_retriable r = false.
Proof. intros A B. unfold check_retriable. rewrite A, B. destruct (r_body r); reflexivity. Qed.

Lemma body_not_retriable r : r_body r = true -> check_retriable r = false.
Proof. intros A. unfold check_retriable. rewrite A. reflexivity. Qed.

Definition pending (p : phase) : bool := match p with PhIdle | PhConnecting => true | _ => false end.
Definition active (p : phase) : bool := match p with PhSent _ | PhGotHeaders _ => true | _ => false end.

Lemma active_not_pending p : active p = true -> pending p = false.
Proof. destruct p; simpl; congruence. Qed.
Lemma pending_not_active p : pending p = true -> active p = false.
Proof. destruct p; simpl; congruence. Qed.

(* the fields whose history the bounds depend on; every helper of `step` except dispatch leaves them alone *)
Definition keep (s : st) : bool * bool * bool := (s_cok s, s_nibbled s, s_hdr_wait s).

Lemma fail_view s e : s_phase (fail s e) = s_phase s /\ keep (fail s e) = keep s /\ s_err (fail s e) = Some e.
Proof.
  unfold fail. destruct e; try (repeat split; reflexivity). cbn.
  destruct (s_race s); try (repeat split; reflexivity). destruct (s_receipt s); repeat split; reflexivity.
Qed.
Lemma keep_fail s e : keep (fail s e) = keep s.
Proof. apply fail_view. Qed.

Lemma check_retry_true c r s :
  check_retry c r s = true -> s_nibbled s = false /\ (s_cok s = false \/ check_retriable r = true).
Proof.
  unfold check_retry. intros H.
  destruct (s_shutting s); [discriminate|].
  destruct (negb (s_entry_empty s)); [discriminate|].
  destruct (exhausted c s); [discriminate|].
  destruct (s_pinned s); [discriminate|].
  destruct (s_timeup s); [discriminate|].
  destruct (s_dont_retry s); [discriminate|].
  destruct (s_nibbled s); [discriminate|].
  split; [reflexivity|].
  destruct (s_cok s); simpl in H; [right; exact H | left; reflexivity].
Qed.

Lemma reforward_true c r s :
  reforward c r s = true ->
  s_nibbled s = false /\ s_hdr_wait s = true /\ (check_retriable r = false -> s_err s = None).
Proof.
  unfold reforward. intros H.
  destruct (s_pinned s); [discriminate|].
  destruct (s_hdr_wait s); simpl in H; [|discriminate].
  destruct (exhausted c s); [discriminate|].
  destruct (s_nibbled s); [discriminate|].
  split; [reflexivity|]. split; [reflexivity|]. intros NR. rewrite NR in H.
  destruct (s_err s); [discriminate | reflexivity].
Qed.

(* s' is s0 up to the other fields, and waits for a destination or a connection, or has ended *)
Definition quiet_end (s0 s' : st) : Prop :=
  keep s' = keep s0 /\ (pending (s_phase s') = true \/ s_phase s' = PhDone).

Lemma finish_view s0 s : keep s = keep s0 -> quiet_end s0 (finish s).
Proof. intros K. split; [exact K | right; reflexivity]. Qed.

Lemma hc_give_up_view c r s0 s : keep s = keep s0 -> quiet_end s0 (hc_give_up c r s).
Proof. intros K. apply finish_view. rewrite keep_fail. exact K. Qed.

Lemma hc_check_view c r s0 s : keep s = keep s0 -> quiet_end s0 (hc_check c r s).
Proof.
  intros K. unfold hc_check.
  destruct (hc_ran_out c s); [apply hc_give_up_view, K|].
  destruct (no_paths s && negb (s_subscribed s)); [apply hc_give_up_view, K|].
  split; [exact K | left; reflexivity].
Qed.

Lemma use_destinations_view c r s0 s : keep s = keep s0 -> quiet_end s0 (use_destinations c r s).
Proof.
  intros K. unfold use_destinations.
  destruct (negb (no_paths s)); [apply hc_check_view, K|].
  destruct (s_subscribed s); [split; [exact K | left; reflexivity]|].
  apply finish_view. destruct (s_err s); [|rewrite keep_fail]; exact K.
Qed.

Lemma retry_or_bail_view c r s0 s :
  keep s = keep s0 ->
  keep (retry_or_bail c r s) = keep s0 /\
  (s_phase (retry_or_bail c r s) = PhDone \/
   (pending (s_phase (retry_or_bail c r s)) = true /\ s_nibbled s0 = false /\ (s_cok s0 = false \/ check_retriable r = true))).
Proof.
  intros K. unfold retry_or_bail. destruct (check_retry c r s) eqn:E.
  - destruct (use_destinations_view c r s0 s K) as [A [B|B]]; auto.
    apply check_retry_true in E. injection K as <- <- _. auto.
  - auto.
Qed.

Record summary (c : cfg) (r : req) (e : event) (s s' : st) (o : list out) : Prop := {
  sm_sends : sends o = 0 \/
             (sends o = 1 /\ reforwards o = 0 /\ pending (s_phase s) = true /\ active (s_phase s') = true /\
              s_cok s' = true /\ s_nibbled s' = s_nibbled s /\ s_hdr_wait s' = s_hdr_wait s);
  sm_nosend : sends o = 0 -> s_cok s' = s_cok s;
  sm_refw : reforwards o = 0 \/
            (reforwards o = 1 /\ sends o = 0 /\ active (s_phase s) = true /\ s_hdr_wait s = true /\ s_nibbled s = false);
  sm_pending : sends o = 0 -> reforwards o = 0 -> pending (s_phase s') = true ->
               pending (s_phase s) = true \/
               (active (s_phase s) = true /\ s_nibbled s = false /\ (s_cok s = false \/ check_retriable r = true));
  sm_active : sends o = 0 -> active (s_phase s') = true -> active (s_phase s) = true;
  sm_nibbled : s_nibbled s = true -> s_nibbled s' = true;
  sm_nibble_set : s_nibbled s = false -> s_nibbled s' = true -> active (s_phase s') = true /\ o = [];
  sm_hdr : s_hdr_wait s' = true ->
           s_hdr_wait s = true \/ (exists status, e = EvHeaders status /\ reforwardable c status = true);
  (* reforward() says yes only in complete(), and for a non-retriable request only when the reply was received
     completely (no premature EOF) *)
  sm_refw_ev : reforwards o = 0 \/ (exists p, e = EvComplete p /\ (check_retriable r = false -> p = false))
}.

(* nothing sent, kept fields unchanged, phase unchanged or ended *)
Lemma summary_quiet c r e s s' :
  keep s' = keep s -> (s_phase s' = s_phase s \/ s_phase s' = PhDone) -> summary c r e s s' [].
Proof.
  intros [= A B C] P.
  assert (pending (s_phase s') = true -> pending (s_phase s) = true) by (destruct P as [-> | ->]; auto; discriminate).
  assert (active (s_phase s') = true -> active (s_phase s) = true) by (destruct P as [-> | ->]; auto; discriminate).
  constructor; simpl; intros; auto; try congruence; try (left; congruence).
Qed.

Lemma summary_ignored c r e s : summary c r e s s [].
Proof. apply summary_quiet; auto. Qed.

(* nothing sent from a pending phase *)
Lemma summary_pending c r e s s' :
  quiet_end s s' -> pending (s_phase s) = true -> summary c r e s s' [].
Proof.
  intros [[= A B C] P] Q.
  constructor; simpl; intros; auto; try congruence; try (left; congruence).
  destruct P as [P|P].
  - apply active_not_pending in H0. congruence.
  - rewrite P in H0. discriminate.
Qed.

(* a failure exit of an active phase: ended, or back to a pending phase because checkRetry() said yes *)
Lemma summary_retry c r e s s' :
  active (s_phase s) = true ->
  keep s' = keep s /\
  (s_phase s' = PhDone \/
   (pending (s_phase s') = true /\ s_nibbled s = false /\ (s_cok s = false \/ check_retriable r = true))) ->
  summary c r e s s' [].
Proof.
  intros Q [[= A B C] P].
  constructor; simpl; intros; auto; try congruence; try (left; congruence).
  destruct P as [P|[P1 [P2 P3]]]; [rewrite P in *; discriminate | right; auto].
Qed.

Lemma summary_send c r e s s0 d reused :
  pending (s_phase s) = true -> keep s0 = keep s -> 
  summary c r e s (fst (dispatch s0 d reused)) (snd (dispatch s0 d reused)).
Proof.
  intros P [= K N H].
  constructor; cbn; intros; auto; try congruence; try lia.
  - right. auto 10.
  - left. congruence.
Qed.

Lemma summary_finish c r e s s1 : keep s1 = keep s -> summary c r e s (finish s1) [].
Proof. intros K. apply summary_quiet; [exact K | right; reflexivity]. Qed.

Lemma retry_or_bail_quiet c r s0 s : keep s = keep s0 -> quiet_end s0 (retry_or_bail c r s).
Proof. intros K. destruct (retry_or_bail_view c r s0 s K) as [A [B|[B _]]]; split; auto. Qed.

Lemma note_connection_summary c r e s0 s d reused closing :
  pending (s_phase s0) = true -> keep s = keep s0 ->
  summary c r e s0 (fst (note_connection c r s d reused closing)) (snd (note_connection c r s d reused closing)) /\
  (snd (note_connection c r s d reused closing) = [] \/ snd (note_connection c r s d reused closing) = [OSend d reused]).
Proof.
  intros P K. unfold note_connection. destruct closing.
  - split; [|left; reflexivity]. apply summary_pending; [|exact P].
    apply retry_or_bail_quiet. rewrite keep_fail. destruct reused; exact K.
  - split; [|right; reflexivity]. apply summary_send; assumption.
Qed.

Lemma add_close c r e s s' o d :
  summary c r e s s' o -> pending (s_phase s) = true -> (o = [] \/ exists d' re, o = [OSend d' re]) ->
  summary c r e s s' (OClosePconn d :: o).
Proof.
  intros SM P O.
  assert (E1 : sends (OClosePconn d :: o) = sends o) by reflexivity.
  assert (E2 : reforwards (OClosePconn d :: o) = reforwards o) by reflexivity.
  destruct SM. constructor; try rewrite E1; try rewrite E2; auto.
  intros N1 N2. exfalso. destruct (sm_nibble_set0 N1 N2) as [A B].
  destruct O as [O|[d' [re O]]]; subst o; [|discriminate].
  apply sm_active0 in A; [|reflexivity]. apply pending_not_active in P. congruence.
Qed.

Lemma hc_attempt_summary c r e s pi ok cl :
  s_phase s = PhConnecting ->
  summary c r e s (fst (hc_attempt c r s pi ok cl)) (snd (hc_attempt c r s pi ok cl)).
Proof.
  intros PH. assert (P : pending (s_phase s) = true) by (rewrite PH; reflexivity).
  unfold hc_attempt. destruct (first_avail (s_paths s) 0) as [d|]; [|apply summary_ignored].
  cbn [set_paths s_hc_allow_pconn s_hc_retriable]. set (s1 := set_ntries _ _).
  pose proof (fun re => note_connection_summary c r e s s1 d re cl P eq_refl) as NC.
  assert (HC : forall rt al le, summary c r e s (hc_check c r (set_hc s1 rt al le)) []).
  { intros. apply summary_pending; [apply hc_check_view; reflexivity | exact P]. }
  destruct (s_hc_allow_pconn s && pi); cbn [andb].
  - destruct (s_hc_retriable s); [apply NC|].
    destruct ok; [|apply add_close; auto; apply HC].
    destruct (NC false) as [SM O2]. destruct (note_connection c r s1 d false cl) as [s2 o2]. cbn [fst snd] in *.
    apply add_close; auto. destruct O2; eauto.
  - destruct ok; [|apply HC].
    destruct (NC false) as [SM _]. destruct (note_connection c r s1 d false cl) as [s2 o2]. exact SM.
Qed.

Definition step_ok (c : cfg) (r : req) (e : event) : Prop :=
  forall s, summary c r e s (fst (step c r s e)) (snd (step c r s e)).

Lemma step_new_dest c r : step_ok c r EvNewDest.
Proof.
  intros s. unfold step.
  destruct (s_phase s) eqn:PH, (negb (s_subscribed s)); try apply summary_ignored.
  2-4: apply summary_quiet; [reflexivity | left; rewrite PH; reflexivity].
  apply summary_pending; [apply use_destinations_view; reflexivity | rewrite PH; reflexivity].
Qed.

Lemma step_dests_end c r : step_ok c r EvDestsEnd.
Proof.
  intros s. unfold step.
  destruct (s_phase s) eqn:PH, (negb (s_subscribed s)); try apply summary_ignored.
  all: cbn [s_found]; destruct (negb (s_found s)); [apply summary_finish; rewrite keep_fail; reflexivity|].
  3-4: apply summary_quiet; [reflexivity | left; rewrite PH; reflexivity].
  - apply summary_finish. cbn [s_err]. destruct (s_err s); [|rewrite keep_fail]; reflexivity.
  - apply summary_pending; [apply hc_check_view; reflexivity | rewrite PH; reflexivity].
Qed.

Lemma step_start_pinned c r ok : step_ok c r (EvStartPinned ok).
Proof.
  intros s. unfold step. destruct (s_phase s) eqn:PH; try apply summary_ignored.
  destruct (s_found s || negb (s_subscribed s)); [apply summary_ignored|].
  destruct (negb ok); [apply summary_finish; rewrite keep_fail; reflexivity|].
  apply summary_send; [rewrite PH|]; reflexivity.
Qed.

Lemma step_conn c r pi ok cl : step_ok c r (EvConn pi ok cl).
Proof.
  intros s. unfold step. destruct (s_phase s) eqn:PH; try apply summary_ignored.
  apply hc_attempt_summary, PH.
Qed.

Lemma step_body_consumed c r : step_ok c r EvBodyConsumed.
Proof.
  intros s. unfold step. destruct (s_phase s) eqn:PH; try apply summary_ignored.
  all: destruct (r_body r); [|apply summary_ignored].
  all: constructor; cbn; rewrite ?PH; intros; auto; try congruence; left; congruence.
Qed.

Lemma step_fail c r k : step_ok c r (EvFail k).
Proof.
  intros s. unfold step. destruct (s_phase s) eqn:PH; try apply summary_ignored.
  all: apply summary_retry; [rewrite PH; reflexivity|]; apply retry_or_bail_view.
  all: destruct k; cbn [fail_err]; rewrite ?keep_fail; reflexivity.
Qed.

Lemma step_headers c r status : step_ok c r (EvHeaders status).
Proof.
  intros s. unfold step. destruct (s_phase s) eqn:PH; try apply summary_ignored.
  constructor; cbn; rewrite ?PH; intros; auto; try congruence; try (left; congruence).
  destruct (s_hdr_wait s); [left; reflexivity | right; exists status; auto].
Qed.

Lemma step_hdr_wait_cleared c r : step_ok c r EvHdrWaitCleared.
Proof.
  intros s. unfold step. destruct (s_phase s) eqn:PH; try apply summary_ignored.
  constructor; cbn; rewrite ?PH; intros; auto; try congruence; left; congruence.
Qed.

Lemma step_complete c r premature : step_ok c r (EvComplete premature).
Proof.
  intros s. unfold step. destruct (s_phase s) eqn:PH; try apply summary_ignored.
  set (s1 := if premature then fail s ErrRead else s).
  assert (K1 : keep s1 = keep s) by (unfold s1; destruct premature; [apply keep_fail | reflexivity]).
  destruct (reforward c r s1) eqn:RF; [|apply summary_finish, K1].
  destruct (reforward_true _ _ _ RF) as (N & W & EN).
  set (sf := use_destinations c r _).
  assert (Q : quiet_end s sf) by (apply use_destinations_view, K1). clearbody sf.
  destruct Q as [[= A1 A2 A3] B]. injection K1 as _ X2 X3. rewrite X2 in N. rewrite X3 in W. cbn [fst snd].
  constructor; try (intros; congruence).
  - left; reflexivity.
  - right. rewrite PH. auto.
  - discriminate.
  - intros _ _. rewrite PH. reflexivity.
  - left. exact W.
  - right. exists premature. split; [reflexivity|]. intros NR. specialize (EN NR).
    destruct premature; [|reflexivity]. unfold s1 in EN. rewrite (proj2 (proj2 (fail_view s ErrRead))) in EN. discriminate.
Qed.

Lemma step_abort c r : step_ok c r EvAbort.
Proof. intros s. unfold step. destruct (s_phase s); try apply summary_ignored; apply summary_finish; reflexivity. Qed.

Lemma step_flag_only c r e : e = EvShutdown \/ e = EvTimeUp -> step_ok c r e.
Proof.
  intros [-> | ->] s; unfold step.
  all: destruct (s_phase s) eqn:PH; try apply summary_ignored; apply summary_quiet; auto; left; rewrite PH; reflexivity.
Qed.

Lemma step_summary c r s e s' o : step c r s e = (s', o) -> summary c r e s s' o.
Proof.
  intros H. assert (S : step_ok c r e).
  { destruct e; auto using step_new_dest, step_dests_end, step_start_pinned, step_conn, step_body_consumed, step_fail,
      step_headers, step_hdr_wait_cleared, step_complete, step_abort, step_flag_only. }
  specialize (S s). rewrite H in S. exact S.
Qed.

Lemma sends_app a b : sends (a ++ b) = sends a + sends b.
Proof. unfold sends. rewrite filter_app, lenN_app. reflexivity. Qed.
Lemma reforwards_app a b : reforwards (a ++ b) = reforwards a + reforwards b.
Proof. unfold reforwards. rewrite filter_app, lenN_app. reflexivity. Qed.

Lemma run_app c r evs1 : forall s evs2,
  run c r s (evs1 ++ evs2) =
  (fst (run c r (fst (run c r s evs1)) evs2), snd (run c r s evs1) ++ snd (run c r (fst (run c r s evs1)) evs2)).
Proof.
  induction evs1 as [|e t IH]; intros s evs2; simpl.
  - destruct (run c r s evs2); reflexivity.
  - destruct (step c r s e) as [s1 o1]. rewrite IH.
    destruct (run c r s1 t) as [s2 o2]. simpl.
    destruct (run c r s2 evs2) as [s3 o3]. simpl. rewrite app_assoc. reflexivity.
Qed.

(* the invariant behind "at most one send (plus one per reforward() decision)" for a non-retriable request *)
Definition Inv (s : st) (ns nr : N) : Prop :=
  (s_cok s = false -> ns = 0) /\ (pending (s_phase s) = true -> ns <= nr) /\ ns <= nr + 1 /\
  (active (s_phase s) = true -> s_cok s = true).

Lemma inv_init : Inv init 0 0.
Proof. unfold Inv, init; simpl. repeat split; intros; try lia; try discriminate. Qed.

Lemma inv_step c r s e s' o ns nr :
  check_retriable r = false -> Inv s ns nr -> step c r s e = (s', o) ->
  Inv s' (ns + sends o) (nr + reforwards o).
Proof.
  intros NR [I1 [I2 [I3 I4]]] H. destruct (step_summary _ _ _ _ _ _ H) as [S1 S2 S3 S4 S5 _ _ _].
  destruct S1 as [Z|[Z1 [Z2 [Z3 [Z4 [Z5 _]]]]]].
  - (* nothing sent *)
    specialize (S2 Z). rewrite Z.
    destruct S3 as [R|[R1 [_ [R3 _]]]].
    + rewrite R. specialize (S4 Z R).
      unfold Inv. repeat split; intros.
      * rewrite S2 in H0. specialize (I1 H0). lia.
      * destruct (S4 H0) as [Q|[Q1 [_ [Q3|Q3]]]].
        -- specialize (I2 Q). lia.
        -- specialize (I1 Q3). lia.
        -- congruence.
      * lia.
      * rewrite S2. apply I4. apply S5; assumption.
    + rewrite R1. unfold Inv. repeat split; intros.
      * rewrite S2 in H0. specialize (I1 H0). lia.
      * lia.
      * lia.
      * rewrite S2. apply I4. exact R3.
  - (* one send, from a pending phase *)
    rewrite Z1, Z2. specialize (I2 Z3).
    unfold Inv. repeat split; intros.
    + congruence.
    + apply active_not_pending in Z4. congruence.
    + lia.
    + exact Z5.
Qed.

Lemma inv_run c r evs : forall s ns nr,
  check_retriable r = false -> Inv s ns nr ->
  Inv (fst (run c r s evs)) (ns + sends (snd (run c r s evs))) (nr + reforwards (snd (run c r s evs))).
Proof.
  induction evs as [|e t IH]; intros s ns nr NR I; simpl.
  - replace (ns + sends []) with ns by (unfold sends; simpl; lia).
    replace (nr + reforwards []) with nr by (unfold reforwards; simpl; lia). exact I.
  - destruct (step c r s e) as [s1 o1] eqn:ST.
    pose proof (inv_step _ _ _ _ _ _ _ _ NR I ST) as I1.
    specialize (IH s1 _ _ NR I1).
    destruct (run c r s1 t) as [s2 o2]. simpl in *.
    rewrite sends_app, reforwards_app. rewrite !N.add_assoc. exact IH.
Qed.

(* MAIN: a request that checkRetriable() rejects is written on a connection at most once, plus once per
   reforward() decision -- along every event sequence *)
Theorem no_resend_nonretriable c r evs :
  check_retriable r = false ->
  sends (snd (run c r init evs)) <= 1 + reforwards (snd (run c r init evs)).
Proof.
  intros NR. destruct (inv_run c r evs init 0 0 NR inv_init) as [_ [_ [I3 _]]]. lia.
Qed.

Definition no_reforwardable_header (c : cfg) (e : event) : Prop :=
  match e with EvHeaders st => reforwardable c st = false | _ => True end.

Lemma no_reforward_run c r evs : forall s,
  Forall (no_reforwardable_header c) evs -> s_hdr_wait s = false ->
  s_hdr_wait (fst (run c r s evs)) = false /\ reforwards (snd (run c r s evs)) = 0.
Proof.
  induction evs as [|e t IH]; intros s F W; simpl.
  - split; [exact W | reflexivity].
  - inversion F as [|x l Fe Ft]; subst.
    destruct (step c r s e) as [s1 o1] eqn:ST.
    destruct (step_summary _ _ _ _ _ _ ST) as [_ _ S3 _ _ _ _ S8].
    assert (W1 : s_hdr_wait s1 = false).
    { destruct (s_hdr_wait s1) eqn:E; [|reflexivity].
      destruct (S8 eq_refl) as [Q|[st [Q1 Q2]]]; [congruence|].
      subst e. simpl in Fe. congruence. }
    assert (R1 : reforwards o1 = 0).
    { destruct S3 as [R|[_ [_ [_ [R _]]]]]; [exact R | congruence]. }
    destruct (IH s1 Ft W1) as [A B].
    destruct (run c r s1 t) as [s2 o2]. simpl in *.
    split; [exact A|]. rewrite reforwards_app. lia.
Qed.

(* the property for connection failures: whatever fails, however often and on whichever path or connection, as long
   as no reply header with a re-forwardable status is received the request is written at most once *)
Theorem at_most_one_send c r evs :
  check_retriable r = false -> Forall (no_reforwardable_header c) evs ->
  sends (snd (run c r init evs)) <= 1.
Proof.
  intros NR F. pose proof (no_resend_nonretriable c r evs NR) as A.
  destruct (no_reforward_run c r evs init F eq_refl) as [_ B]. lia.
Qed.

Definition NP (s : st) : Prop := s_nibbled s = true -> pending (s_phase s) = false.

Lemma np_init : NP init.
Proof. unfold NP, init; simpl. discriminate. Qed.

Lemma nibbled_step c r s e s' o :
  NP s -> step c r s e = (s', o) ->
  NP s' /\ (s_nibbled s = true -> s_nibbled s' = true /\ sends o = 0 /\ reforwards o = 0).
Proof.
  intros I H. destruct (step_summary _ _ _ _ _ _ H) as [S1 S2 S3 S4 S5 S6 S7 _].
  assert (K : s_nibbled s = true -> s_nibbled s' = true /\ sends o = 0 /\ reforwards o = 0 /\ pending (s_phase s') = false).
  { intros N. specialize (I N). specialize (S6 N).
    assert (Z : sends o = 0) by (destruct S1 as [Z|[_ [_ [Z _]]]]; [exact Z | congruence]).
    assert (R : reforwards o = 0) by (destruct S3 as [R|[_ [_ [_ [_ R]]]]]; [exact R | congruence]).
    repeat split; auto.
    destruct (pending (s_phase s')) eqn:E; [|reflexivity].
    destruct (S4 Z R eq_refl) as [Q|[_ [Q _]]]; congruence. }
  split.
  - intros N'. destruct (s_nibbled s) eqn:N.
    + destruct (K eq_refl) as [_ [_ [_ Q]]]. exact Q.
    + destruct (S7 eq_refl N') as [A _]. apply active_not_pending. exact A.
  - intros N. destruct (K N) as [A [B [C _]]]. auto.
Qed.

Lemma nibbled_run c r evs : forall s,
  NP s -> NP (fst (run c r s evs)) /\
          (s_nibbled s = true -> sends (snd (run c r s evs)) = 0 /\ reforwards (snd (run c r s evs)) = 0).
Proof.
  induction evs as [|e t IH]; intros s I; simpl.
  - split; [exact I | intros _; split; reflexivity].
  - destruct (step c r s e) as [s1 o1] eqn:ST.
    destruct (nibbled_step _ _ _ _ _ _ I ST) as [I1 K].
    destruct (IH s1 I1) as [A B].
    destruct (run c r s1 t) as [s2 o2]. simpl in *.
    split; [exact A|]. intros N. destruct (K N) as [N1 [Z1 R1]]. destruct (B N1) as [Z2 R2].
    rewrite sends_app, reforwards_app. lia.
Qed.

Theorem no_send_after_body_consumed c r evs1 evs2 :
  s_nibbled (fst (run c r init evs1)) = true ->
  sends (snd (run c r init (evs1 ++ evs2))) = sends (snd (run c r init evs1)) /\
  reforwards (snd (run c r init (evs1 ++ evs2))) = reforwards (snd (run c r init evs1)).
Proof.
  intros N. rewrite run_app. simpl.
  destruct (nibbled_run c r evs1 init np_init) as [I _].
  destruct (nibbled_run c r evs2 _ I) as [_ B]. destruct (B N) as [Z R].
  rewrite sends_app, reforwards_app. lia.
Qed.

Lemma drive_is_run fuel : forall c r en s s' tr evs okf,
  drive fuel c r en s = (s', tr, evs, okf) -> run c r s evs = (s', tr).
Proof.
  induction fuel as [|f IH]; intros c r en s s' tr evs okf H; simpl in H.
  - inversion H; subst. reflexivity.
  - destruct (next_event en s) as [[ev en1]|].
    + destruct (step c r s ev) as [s1 o1] eqn:ST.
      destruct (drive f c r (after_outputs r en1 o1) s1) as [[[s2 o2] evs2] ok2] eqn:D.
      inversion H; subst; clear H. simpl. rewrite ST. rewrite (IH _ _ _ _ _ _ _ _ D). reflexivity.
    + inversion H; subst. reflexivity.
Qed.

Definition cfg_default : cfg := mkCfg 25 false false.
Definition req_post_nobody : req := mkReq rm_METHOD_POST false.
Definition req_post_body : req := mkReq rm_METHOD_POST true.
Definition req_get : req := mkReq rm_METHOD_GET false.

(* two paths; the first attempt's reply (502, re-forwardable) is cut in the body by a connection close: the body-less
   POST is NOT written again (reforward(): err && !checkRetriable()); the same events make a GET go to the second path *)
Definition truncated_5xx_evs : list event :=
  [EvNewDest; EvNewDest; EvDestsEnd; EvConn false true false; EvHeaders 502; EvComplete true;
   EvConn false true false; EvFail FZero].

Definition is_complete_reply (e : event) : bool := match e with EvComplete false => true | _ => false end.
Definition complete_replies (evs : list event) : N := lenN (filter is_complete_reply evs).

Lemma reforwards_bounded c r evs : forall s,
  check_retriable r = false -> reforwards (snd (run c r s evs)) <= complete_replies evs.
Proof.
  induction evs as [|e t IH]; intros s NR; simpl.
  - unfold reforwards, complete_replies; simpl. lia.
  - destruct (step c r s e) as [s1 o1] eqn:ST.
    destruct (step_summary _ _ _ _ _ _ ST) as [_ _ S3 _ _ _ _ _ S9].
    specialize (IH s1 NR). destruct (run c r s1 t) as [s2 o2]. simpl in *.
    rewrite reforwards_app.
    assert (A : reforwards o1 <= (if is_complete_reply e then 1 else 0)).
    { destruct S9 as [Z|[p [E P]]]; [destruct (is_complete_reply e); lia|].
      rewrite (P NR) in E. subst e. simpl.
      destruct S3 as [Z|[Z _]]; lia. }
    unfold complete_replies in *. simpl. destruct (is_complete_reply e); simpl; lia.
Qed.

(* a request that checkRetriable() rejects is written on a connection at most once, plus once per COMPLETELY
   received reply (complete() on a whole reply is the only place where squid decides to send it again) *)
Theorem sends_bounded_by_complete_replies c r evs :
  check_retriable r = false -> sends (snd (run c r init evs)) <= 1 + complete_replies evs.
Proof.
  intros NR. pose proof (no_resend_nonretriable c r evs NR). pose proof (reforwards_bounded c r evs init NR). lia.
Qed.

(* a completely received reply re-forwards only when its status is re-forwardable: together *)
Definition failure_sequence (c : cfg) (evs : list event) : Prop :=
  Forall (fun e => e <> EvComplete false) evs \/ Forall (no_reforwardable_header c) evs.

Lemma no_complete_replies evs : Forall (fun e => e <> EvComplete false) evs -> complete_replies evs = 0.
Proof.
  induction 1 as [|e t He Ht IH]; [reflexivity|].
  unfold complete_replies in *. simpl.
  destruct e; simpl; try exact IH. destruct premature; [exact IH | congruence].
Qed.

(* THE PROPERTY: along every event sequence in which no complete re-forwardable reply arrived -- every reply either
   lost its connection before its end or had a status squid does not re-forward -- a request that checkRetriable()
   rejects is written on a connection at most once *)
Theorem sent_at_most_once_under_failures c r evs :
  check_retriable r = false -> failure_sequence c evs -> sends (snd (run c r init evs)) <= 1.
Proof.
  intros NR [F|F].
  - pose proof (sends_bounded_by_complete_replies c r evs NR). rewrite (no_complete_replies _ F) in H. lia.
  - apply at_most_one_send; assumption.
Qed.
