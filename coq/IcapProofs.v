(* IcapProofs.v — proofs about the ICAP transaction model (C60).
   Method: most model functions only move bookkeeping; that is the relation [fr] ("frames"), proved along the shape of
   each function by [frauto], and [fr] preserves every invariant below. The functions that do touch the delivered
   message get Hoare triples in [post]/[spec] over the Ok/Throw monad. Two invariants: [InvW] holds at every point,
   also in the state a throw leaves behind; [Inv] adds what holds only between asynchronous calls. [run_B] closes. *)
Require Import SquidV.Bytes SquidV.IcapModel SquidV.gen.IcapConst_gen.
Require Import ZifyBool ZifyN ZifyNat.
Local Open Scope N_scope.

Lemma dispatch_table :
  icap_dispatch 100 = 1 /\ icap_dispatch 200 = 2 /\ icap_dispatch 201 = 2 /\ icap_dispatch 204 = 3 /\ icap_dispatch 206 = 4 /\
  forall s, s <> 100 -> s <> 200 -> s <> 201 -> s <> 204 -> s <> 206 -> icap_dispatch s = 0.
Proof.
  repeat split; try reflexivity. intros s H1 H2 H3 H4 H5. unfold icap_dispatch.
  repeat match goal with |- context[?a =? ?b] => destruct (N.eqb_spec a b); [congruence|] end. reflexivity.
Qed.

Lemma writing_ranks :
  map w_rank [WInit; WConnect; WHeaders; WPreview; WPaused; WPrime; WAlmostDone; WReallyDone] = [0;1;2;3;4;5;6;7] /\
  writing_enum_size = 8.
Proof. split; reflexivity. Qed.

(* [fr x y]: y differs from x only in bookkeeping that the delivered message does not depend on *)
Definition fr (x y : xs) : Prop :=
  ad y = ad x /\ out y = out x /\ job y = job x /\ cfg y = cfg x /\
  parsing (st y) = parsing (st x) /\ sending (st y) = sending (st x) /\
  s_off (vs y) = s_off (vs x) /\ vp_data (vs y) = vp_data (vs x) /\ readbuf (io y) = readbuf (io x) /\
  icap_h (io y) = icap_h (io x) /\ icap_b (io y) = icap_b (io x) /\ icap_tr (io y) = icap_tr (io x) /\
  comm_eof (io y) = comm_eof (io x).
Lemma fr_refl x : fr x x.
Proof. unfold fr; repeat split. Qed.
Lemma fr_trans x y z : fr x y -> fr y z -> fr x z.
Proof.
  unfold fr. intros H (E1 & E2 & E3 & E4 & E5 & E6 & E7 & E8 & E9 & E10 & E11 & E12 & E13).
  rewrite E1, E2, E3, E4, E5, E6, E7, E8, E9, E10, E11, E12, E13. exact H.
Qed.
Definition frames (f : xs -> res) : Prop := forall x, fr x (st_of (f x)).

Lemma fr_bind x r g : fr x (st_of r) -> frames g -> fr x (st_of (r >>= g)).
Proof. intros H Hg. destruct r as [y|y]; cbn [bind st_of] in *; [eapply fr_trans; [exact H|apply Hg]|exact H]. Qed.
Lemma frames_bind f g : frames f -> frames g -> frames (fun x => f x >>= g).
Proof. intros Hf Hg x. apply fr_bind; [apply Hf|exact Hg]. Qed.
Lemma fr_must x (c : bool) : fr x (st_of (must c x)).
Proof. unfold must; destruct c; apply fr_refl. Qed.
Lemma frames_must c : frames (fun x => must (c x) x).
Proof. intros x. apply fr_must. Qed.

Ltac frsolve := unfold fr; cbn; repeat split; reflexivity.
Ltac brk :=
  repeat match goal with
  | |- context[if ?c then _ else _] => destruct c
  | |- context[match ?c with _ => _ end] => destruct c
  end.

Lemma checkConsuming_fr x : fr x (checkConsuming x).
Proof. unfold checkConsuming. brk; [apply fr_refl|frsolve]. Qed.

Create HintDb frames.
(* One step of a framing proof, along the shape of the model function: binds and branches are taken apart, a call of a
   function already known to frame is looked up in the hint database, setters are compared field by field. *)
Ltac fr1 :=
  match goal with
  | |- fr ?x ?x => apply fr_refl
  | |- fr _ (st_of (must _ _)) => eapply fr_trans; [| apply fr_must]
  | |- fr _ (st_of (_ >>= _)) => apply fr_bind; [| unfold frames; intros ?]
  | |- fr _ (st_of (if ?c then _ else _)) => destruct c
  | |- fr _ (st_of (match ?c with _ => _ end)) => destruct c
  | |- fr _ (st_of (Ok _)) => cbn [st_of]
  | |- fr _ (st_of (Throw _)) => cbn [st_of]
  | |- fr _ (st_of (?f ?z)) => apply (fr_trans _ z); [| solve [auto with frames nocore]]
  | |- fr _ (checkConsuming ?z) => apply (fr_trans _ z); [| apply checkConsuming_fr]
  | |- fr _ ?y => match y with context[if ?c then _ else _] => destruct c end
  | |- fr _ _ => frsolve
  end.
Ltac frauto := cbv zeta; repeat fr1.

Lemma virginConsume_fr x : fr x (st_of (virginConsume x)).
Proof. unfold virginConsume. frauto. Qed.
#[local] Hint Resolve virginConsume_fr : frames.
Lemma stopWriting_fr n x : fr x (st_of (stopWriting n x)).
Proof. unfold stopWriting. frauto. Qed.
#[local] Hint Resolve stopWriting_fr : frames.
Lemma stopBackup_fr x : fr x (st_of (stopBackup x)).
Proof. unfold stopBackup. frauto. Qed.
#[local] Hint Resolve stopBackup_fr : frames.
Lemma writeSomeBody_fr n x : fr x (st_of (writeSomeBody n x)).
Proof. unfold writeSomeBody. frauto. Qed.
#[local] Hint Resolve writeSomeBody_fr : frames.
Lemma decideWritingAfterPreview_fr x : fr x (st_of (decideWritingAfterPreview x)).
Proof. unfold decideWritingAfterPreview. frauto. Qed.
#[local] Hint Resolve decideWritingAfterPreview_fr : frames.
Lemma writePreviewBody_fr x : fr x (st_of (writePreviewBody x)).
Proof. unfold writePreviewBody. frauto. Qed.
Lemma writePrimeBody_fr x : fr x (st_of (writePrimeBody x)).
Proof. unfold writePrimeBody. frauto. Qed.
#[local] Hint Resolve writePreviewBody_fr writePrimeBody_fr : frames.
Lemma writeMore_fr x : fr x (st_of (writeMore x)).
Proof. unfold writeMore. frauto. Qed.
#[local] Hint Resolve writeMore_fr : frames.
Lemma handleCommWroteHeaders_fr x : fr x (st_of (handleCommWroteHeaders x)).
Proof. unfold handleCommWroteHeaders. frauto. Qed.
#[local] Hint Resolve handleCommWroteHeaders_fr : frames.
Lemma noteCommWrote_fr x : fr x (st_of (noteCommWrote x)).
Proof. unfold noteCommWrote. frauto. Qed.


(* what is on the adapted body pipe agrees with the head it belongs to *)
Definition body_ok (x : xs) : Prop :=
  match ad_header (ad x) with
  | None => o_body (out x) = [] /\ ad_in (ad x) = [] /\ s_off (vs x) = 0
  | Some SrcVirgin => o_body (out x) = takeN (s_off (vs x)) (vp_data (vs x)) /\ ad_in (ad x) = [] /\
                      s_off (vs x) <= lenN (vp_data (vs x))
  | Some SrcAdapted => o_body (out x) = ad_in (ad x) /\ s_off (vs x) = 0
  end.
Definition answer_ok (x : xs) : Prop := forall s, o_answer (out x) = Some (Fwd s) -> ad_header (ad x) = Some s.
(* p1: only a virgin clone is echoed; p2: chunks are parsed only into a message whose head came from the reply *)
Definition p1 (x : xs) : Prop := sending (st x) = SVirgin -> ad_header (ad x) = Some SrcVirgin.
Definition p2 (x : xs) : Prop := parsing (st x) = PsBody -> ad_header (ad x) = Some SrcAdapted.
Definition head_announced (x : xs) : Prop := parsing (st x) = PsHttpHeader -> icap_h (io x) <> HNone.
Definition virgin_done (x : xs) : Prop := ad_header (ad x) = Some SrcVirgin -> parsing (st x) = PsDone.
(* holds at every point, also in the state an exception leaves behind *)
Definition InvW (x : xs) : Prop := body_ok x /\ answer_ok x /\ p1 x /\ p2 x.
(* holds between asynchronous calls *)
Definition Inv (x : xs) : Prop := InvW x /\ head_announced x /\ virgin_done x.

Lemma Inv_InvW x : Inv x -> InvW x.
Proof. intros [H _]; exact H. Qed.

(* the fields the invariant reads *)
Definition same_core (x y : xs) : Prop :=
  ad_header (ad y) = ad_header (ad x) /\ ad_in (ad y) = ad_in (ad x) /\ o_body (out y) = o_body (out x) /\
  o_answer (out y) = o_answer (out x) /\ s_off (vs y) = s_off (vs x) /\ vp_data (vs y) = vp_data (vs x) /\
  parsing (st y) = parsing (st x) /\ sending (st y) = sending (st x) /\ icap_h (io y) = icap_h (io x).
Ltac core := unfold same_core; cbn; repeat split; reflexivity.

Lemma InvW_ext x y : same_core x y -> InvW x -> InvW y.
Proof.
  unfold same_core, InvW, body_ok, answer_ok, p1, p2. intros (E1 & E2 & E3 & E4 & E5 & E6 & E7 & E8 & E9).
  rewrite E1, E2, E3, E4, E5, E6, E7, E8. auto.
Qed.
Lemma Inv_ext x y : same_core x y -> Inv x -> Inv y.
Proof.
  intros C (H & H4 & H5). split; [eapply InvW_ext; eauto|].
  destruct C as (E1 & _ & _ & _ & _ & _ & E7 & _ & E9). unfold head_announced, virgin_done. rewrite E1, E7, E9. auto.
Qed.
Lemma fr_core x y : fr x y -> same_core x y.
Proof.
  intros (Ha & Ho & _ & _ & Hp & Hs & Hso & Hv & _ & Hh & _). unfold same_core.
  rewrite Ha, Ho, Hp, Hs, Hso, Hv, Hh. repeat split.
Qed.
Lemma fr_InvW x y : fr x y -> InvW x -> InvW y.
Proof. intros F. apply InvW_ext, fr_core, F. Qed.
Lemma fr_Inv x y : fr x y -> Inv x -> Inv y.
Proof. intros F. apply Inv_ext, fr_core, F. Qed.

(* the two stage fields the invariant reads may change when the new stage makes no claim about the head *)
Lemma InvW_parsing p x : InvW x -> (p = PsBody -> ad_header (ad x) = Some SrcAdapted) -> InvW (with_parsing p x).
Proof. intros (Hb & Ha & H1 & _) Hp. exact (conj Hb (conj Ha (conj H1 Hp))). Qed.
Lemma InvW_sending s x : InvW x -> (s = SVirgin -> ad_header (ad x) = Some SrcVirgin) -> InvW (with_sending s x).
Proof. intros (Hb & Ha & _ & H2) Hs. exact (conj Hb (conj Ha (conj Hs H2))). Qed.

(* a transaction without a head object gets one: nothing was put on the pipe and no answer sent yet *)
Lemma InvW_new_head s b x : InvW x -> ad_header (ad x) = None -> InvW (with_ad_isreply b (with_ad_header (Some s) x)).
Proof.
  intros (Hb & Ha & H1 & H2) Eh. unfold body_ok in Hb. rewrite Eh in Hb. destruct Hb as (Hb1 & Hb2 & Hb3).
  unfold InvW, body_ok, answer_ok, p1, p2. cbn. rewrite Hb1, Hb2, Hb3, takeN_0.
  split; [destruct s; repeat split; lia|].
  split; [intros s0 E; apply Ha in E|split; intros E; [apply H1 in E|apply H2 in E]]; congruence.
Qed.

(* functions that leave the head, the parsing stage and the reply's section list alone *)
Definition keeps (x y : xs) : Prop :=
  ad_header (ad y) = ad_header (ad x) /\ parsing (st y) = parsing (st x) /\ icap_h (io y) = icap_h (io x).
Lemma fr_keeps x y : fr x y -> keeps x y.
Proof. intros F. destruct (fr_core x y F) as (E1 & _ & _ & _ & _ & _ & E7 & _ & E9). exact (conj E1 (conj E7 E9)). Qed.
Lemma keeps_trans x y z : keeps x y -> keeps y z -> keeps x z.
Proof. unfold keeps; intuition congruence. Qed.

Lemma Inv_done x : InvW x -> parsing (st x) = PsDone -> Inv x.
Proof. intros H Hp. split; [exact H|]. unfold head_announced, virgin_done. rewrite Hp. split; [discriminate|reflexivity]. Qed.

(* Hoare-style specification of a model function: P before; Q after a normal return, QT after a throw *)
Definition post (Q QT : xs -> Prop) (r : res) : Prop := match r with Ok y => Q y | Throw y => QT y end.
Definition spec (P : xs -> Prop) (f : xs -> res) (Q QT : xs -> Prop) : Prop :=
  forall x, P x -> match f x with Ok y => Q y | Throw y => QT y end.

Lemma post_bind (Q R QT : xs -> Prop) r g : post Q QT r -> (forall y, Q y -> post R QT (g y)) -> post R QT (r >>= g).
Proof. destruct r; cbn [post bind]; auto. Qed.
Lemma post_must (R QT : xs -> Prop) (c : bool) x g : QT x -> (c = true -> post R QT (g x)) -> post R QT (must c x >>= g).
Proof. destruct c; cbn [post must bind]; auto. Qed.
Lemma post_st_of (Q QT : xs -> Prop) r : Q (st_of r) -> (forall y, Q y -> QT y) -> post Q QT r.
Proof. destruct r; cbn [post st_of]; auto. Qed.
Lemma post_weaken (Q Q' QT QT' : xs -> Prop) r :
  post Q QT r -> (forall x, Q x -> Q' x) -> (forall x, QT x -> QT' x) -> post Q' QT' r.
Proof. destruct r; cbn [post]; auto. Qed.

Lemma spec_bind (P : xs -> Prop) f (Q QT : xs -> Prop) g (R : xs -> Prop) :
  spec P f Q QT -> spec Q g R QT -> spec P (fun x => f x >>= g) R QT.
Proof. intros Hf Hg x Hx. exact (post_bind Q R QT (f x) g (Hf x Hx) Hg). Qed.
Lemma spec_frames (P : xs -> Prop) f : frames f -> (forall x y, fr x y -> P x -> P y) -> spec P f P P.
Proof. intros Hf HP x Hx. apply (post_st_of P P); [exact (HP _ _ (Hf x) Hx)|auto]. Qed.
Lemma spec_weaken (P P' : xs -> Prop) f (Q Q' QT QT' : xs -> Prop) :
  spec P f Q QT -> (forall x, P' x -> P x) -> (forall x, Q x -> Q' x) -> (forall x, QT x -> QT' x) -> spec P' f Q' QT'.
Proof. intros H HP HQ HT x Hx. exact (post_weaken Q Q' QT QT' (f x) (H x (HP x Hx)) HQ HT). Qed.
Lemma fr_InvW_res x r : InvW x -> fr x (st_of r) -> match r with Ok y => InvW y | Throw y => InvW y end.
Proof. intros H F. apply (post_st_of InvW InvW); [exact (fr_InvW _ _ F H)|auto]. Qed.

Lemma keeps_post_Inv x r : Inv x -> keeps x (st_of r) -> post InvW InvW r -> post Inv InvW r.
Proof.
  intros (_ & H4 & H5) (K1 & K2 & K3) Hw. destruct r as [y|y]; [|exact Hw]. split; [exact Hw|].
  unfold head_announced, virgin_done. cbn [st_of] in *. rewrite K1, K2, K3. auto.
Qed.
Lemma fr_post_Inv x r : fr x (st_of r) -> Inv x -> post Inv InvW r.
Proof. intros F HI. apply post_st_of; [exact (fr_Inv _ _ F HI)|exact Inv_InvW]. Qed.

(* stopSending only ends the body: no byte, no head changes *)
Lemma stopSending_InvW n x : InvW x -> InvW (st_of (stopSending n x)).
Proof.
  intros H. unfold stopSending. destruct (sending (st x)) eqn:Es; cbn [st_of]; try exact H.
  1: unfold must, bind; destruct (negb (ad_pipe (ad x))); cbn [st_of]; [|exact H].
  all: eapply fr_InvW; [apply checkConsuming_fr|]; apply InvW_sending; [|discriminate].
  all: destruct (ad_pipe (ad x)); first [exact H | eapply InvW_ext; [|exact H]; core].
Qed.
Lemma stopSending_keeps n x : keeps x (st_of (stopSending n x)).
Proof. unfold stopSending, checkConsuming, must, bind, keeps. brk; cbn; auto. Qed.

Lemma stopParsing_out c x : out (st_of (stopParsing c x)) = out x.
Proof. unfold stopParsing, must, bind. brk; reflexivity. Qed.
Lemma stopParsing_post c x :
  InvW x -> post (fun y => InvW y /\ parsing (st y) = PsDone /\ ad y = ad x) InvW (stopParsing c x).
Proof.
  intros H. unfold stopParsing.
  assert (D : forall b, post (fun y => InvW y /\ parsing (st y) = PsDone /\ ad y = ad x) InvW
                          (must b x >>= fun x => Ok (with_parsing PsDone x))).
  { intros b. apply post_must; [exact H|intros _]. split; [apply InvW_parsing; [exact H|discriminate]|split; reflexivity]. }
  destruct (parsing (st x)) eqn:E; try apply D. cbn [post]. auto.
Qed.

Definition echo_put (n : N) (x : xs) : xs :=
  with_s_off (s_off (vs x) + n) (with_ad_buf (ad_buf (ad x) + n)
    (with_o_body (o_body (out x) ++ takeN n (dropN (s_off (vs x)) (vp_data (vs x)))) x)).

(* echoMore is made of these steps: a preorder that contains them relates a state to what echoMore makes of it *)
Lemma echoMore_ind (R : xs -> xs -> Prop) :
  (forall x, R x x) -> (forall x y z, R x y -> R y z -> R x z) -> (forall x y, fr x y -> R x y) ->
  (forall x n, sending (st x) = SVirgin -> s_off (vs x) + n <= lenN (vp_data (vs x)) -> R x (echo_put n x)) ->
  (forall x, R x (st_of (stopSending true x))) ->
  forall x, R x (st_of (echoMore x)).
Proof.
  intros Rrefl Rtrans Rfr Rput Rstop x. unfold echoMore.
  unfold must at 1. destruct (is_sending SVirgin x) eqn:Es; [cbn [bind]|apply Rrefl].
  unfold must at 1. destruct (ad_pipe (ad x)); [cbn [bind]|apply Rrefl].
  unfold must at 1. destruct (active (s_st (vs x))); [cbn [bind]|apply Rrefl].
  unfold must at 1. destruct ((vp_consumed (vs x) <=? s_off (vs x)) && (s_off (vs x) <=? vend x)) eqn:Eb; [cbn [bind]|apply Rrefl].
  assert (Hend : forall y, R x y -> R x (st_of (if end_reached_s y then stopSending true y else Ok y))).
  { intros y Hy. destruct (end_reached_s y); [eapply Rtrans; [exact Hy|apply Rstop]|exact Hy]. }
  cbv zeta. destruct (0 <? vend x - s_off (vs x)); [|apply Hend, Rrefl].
  set (n := N.min _ (ad_space x)).
  assert (Hn : s_off (vs x) + n <= lenN (vp_data (vs x))).
  { unfold vend in *. subst n. destruct (ad_size (ad x)); lia. }
  assert (Hs : sending (st x) = SVirgin) by (unfold is_sending in Es; destruct (sending (st x)); congruence).
  change (R x (st_of (virginConsume (disableBypass true (disableRepeats (echo_put n x))) >>=
                       fun y => if end_reached_s y then stopSending true y else Ok y))).
  pose proof (virginConsume_fr (disableBypass true (disableRepeats (echo_put n x)))) as F.
  assert (Hy : R x (st_of (virginConsume (disableBypass true (disableRepeats (echo_put n x)))))).
  { eapply Rtrans; [exact (Rput x n Hs Hn)|]. eapply Rtrans; [|apply Rfr, F]. apply Rfr. frsolve. }
  destruct (virginConsume _) as [y|y]; cbn [bind st_of] in Hy |- *; [apply Hend, Hy|exact Hy].
Qed.

(* echoMore appends virgin bytes only, and only to a virgin-clone message *)
Lemma echoMore_spec : spec InvW echoMore InvW InvW.
Proof.
  intros x H. apply (post_st_of InvW InvW); [|auto]. revert H. apply (echoMore_ind (fun x y => InvW x -> InvW y)); clear x; auto.
  - exact fr_InvW.
  - intros x n Es Hn (Hb & Ha & H1 & H2). pose proof (H1 Es) as Hv. unfold body_ok in Hb. rewrite Hv in Hb.
    destruct Hb as (Hb1 & Hb2 & _). refine (conj _ (conj Ha (conj H1 H2))).
    unfold body_ok, echo_put. cbn. rewrite Hv, takeN_add, Hb1. auto.
  - intros x. apply stopSending_InvW.
Qed.
Lemma echoMore_keeps x : keeps x (st_of (echoMore x)).
Proof.
  apply echoMore_ind; clear x; [repeat split|apply keeps_trans|apply fr_keeps|repeat split|intros; apply stopSending_keeps].
Qed.
Lemma echoMore_Inv : spec Inv echoMore Inv InvW.
Proof.
  intros x HI. apply (keeps_post_Inv x); [exact HI|apply echoMore_keeps|apply echoMore_spec, HI].
Qed.

Lemma startSending_spec : spec InvW startSending InvW InvW.
Proof.
  intros x H. unfold startSending. cbv zeta.
  assert (H' : InvW (disableBypass true (disableRepeats x))) by (eapply InvW_ext; [|exact H]; core).
  set (x' := disableBypass true (disableRepeats x)) in *. clearbody x'.
  destruct (ad_header (ad x')) as [s|] eqn:Eh; [|exact H'].
  assert (H'' : InvW (sendAnswer (Fwd s) x')).
  { unfold sendAnswer. destruct (initiator (job x')); [|exact H'].
    destruct H' as (Hb & Ha & H1 & H2). refine (conj Hb (conj _ (conj H1 H2))).
    intros s0 E. injection E as <-. exact Eh. }
  destruct (is_sending SVirgin (sendAnswer (Fwd s) x')); [apply echoMore_spec, H''|exact H''].
Qed.
Lemma startSending_keeps x : keeps x (st_of (startSending x)).
Proof.
  unfold startSending. cbv zeta. destruct (ad_header _) as [s|]; [|repeat split].
  assert (K : keeps x (sendAnswer (Fwd s) (disableBypass true (disableRepeats x)))).
  { unfold sendAnswer. destruct (initiator _); repeat split. }
  destruct (is_sending SVirgin _); [|exact K]. eapply keeps_trans; [exact K|apply echoMore_keeps].
Qed.

Lemma makeAdaptedBodyPipe_core x : same_core x (st_of (makeAdaptedBodyPipe x)).
Proof. unfold makeAdaptedBodyPipe, must, bind. brk; core. Qed.

(* prepEchoing turns a transaction without an adapted head into a virgin-clone message, or throws *)
Lemma prepEchoing_spec :
  spec InvW prepEchoing (fun y => InvW y /\ ad_header (ad y) = Some SrcVirgin) InvW.
Proof.
  intros x H. unfold prepEchoing. cbv zeta.
  assert (H' : InvW (disableBypass true (disableRepeats x))) by (eapply InvW_ext; [|exact H]; core).
  set (x' := disableBypass true (disableRepeats x)) in *. clearbody x'. clear H.
  apply post_must; [exact H'|]. destruct (ad_header (ad x')) eqn:Eh; [discriminate|intros _].
  set (x2 := with_ad_isreply _ (with_ad_header (Some SrcVirgin) x')).
  assert (H2 : InvW x2) by (apply InvW_new_head; assumption).
  assert (Hh : ad_header (ad x2) = Some SrcVirgin) by reflexivity. clearbody x2. destruct (vb_expected (cfg x2)).
  - apply post_bind with (Q := fun y => InvW y /\ ad_header (ad y) = Some SrcVirgin).
    { destruct (active (s_st (vs x2))); [split; assumption|]. apply post_must; [exact H2|intros _].
      split; [eapply InvW_ext; [|exact H2]; core|exact Hh]. }
    intros y (Hy & Hyh). set (z := checkConsuming (with_sending SVirgin y)).
    assert (Hz : InvW z /\ ad_header (ad z) = Some SrcVirgin).
    { pose proof (checkConsuming_fr (with_sending SVirgin y)) as F. fold z in F. split.
      - eapply fr_InvW; [exact F|]. apply InvW_sending; [exact Hy|intros _; exact Hyh].
      - destruct F as (-> & _). exact Hyh. }
    clearbody z. destruct Hz as (Hz & Hzh). pose proof (makeAdaptedBodyPipe_core z) as C.
    destruct (makeAdaptedBodyPipe z) as [w|w]; cbn [bind st_of post] in *; [|eapply InvW_ext; eauto].
    assert (Hw : InvW w /\ ad_header (ad w) = Some SrcVirgin).
    { split; [eapply InvW_ext; eauto|]. destruct C as (-> & _). exact Hzh. }
    destruct (vb_known (cfg w)); [|exact Hw]. destruct Hw as (Hw & Hwh). split; [eapply InvW_ext; [|exact Hw]; core|exact Hwh].
  - pose proof (stopSending_InvW true x2 H2) as Hs. pose proof (stopSending_keeps true x2) as (Fh & _).
    destruct (stopSending true x2); cbn [st_of] in *; [split; [exact Hs|congruence]|exact Hs].
Qed.
Lemma prepEchoing_parsing x : parsing (st (st_of (prepEchoing x))) = parsing (st x).
Proof.
  unfold prepEchoing, makeAdaptedBodyPipe, stopSending, checkConsuming, must, bind, disableBypass, disableRepeats.
  cbv zeta. brk; reflexivity.
Qed.

Definition NoVirgin (x : xs) : Prop := ad_header (ad x) <> Some SrcVirgin.
Definition InvN (x : xs) : Prop := InvW x /\ NoVirgin x.
Lemma fr_InvN x y : fr x y -> InvN x -> InvN y.
Proof. intros F (H & N). split; [exact (fr_InvW x y F H)|]. unfold NoVirgin. destruct F as (-> & _). exact N. Qed.
Lemma InvN_Inv x : InvN x -> head_announced x -> Inv x.
Proof. intros (H & N) H4. split; [exact H|split; [exact H4|]]. intros E. contradiction. Qed.
Lemma Inv_InvN x : Inv x -> parsing (st x) <> PsDone -> InvN x.
Proof. intros (H & _ & H5) Hp. split; [exact H|]. intros E. apply Hp, H5, E. Qed.
Lemma InvN_adapted x : InvW x -> ad_header (ad x) = Some SrcAdapted -> InvN x.
Proof. intros H E. split; [exact H|]. unfold NoVirgin. congruence. Qed.

(* decideOnParsingBody, entered with an adapted head *)
Lemma decideOnParsingBody_spec :
  spec (fun x => InvW x /\ ad_header (ad x) = Some SrcAdapted) decideOnParsingBody
       (fun y => InvN y /\ parsing (st y) <> PsHttpHeader) InvW.
Proof.
  intros x (H & Hh). unfold decideOnParsingBody. destruct (icap_b (io x)).
  - assert (H' : InvW (with_parsing PsBody x)) by (apply InvW_parsing; [exact H|intros _; exact Hh]).
    pose proof (makeAdaptedBodyPipe_core (with_parsing PsBody x)) as C.
    destruct (makeAdaptedBodyPipe (with_parsing PsBody x)) as [y|y]; cbn [bind st_of] in *; [|eapply InvW_ext; eauto].
    unfold must. destruct (is_sending SAdapted y); (assert (Hy : InvW y) by (eapply InvW_ext; eauto)); [|exact Hy].
    destruct C as (Ch & _ & _ & _ & _ & _ & Cp & _). split; [apply InvN_adapted; [exact Hy|rewrite Ch; exact Hh]|]. rewrite Cp. discriminate.
  - apply post_bind with (Q := fun y => InvW y /\ ad_header (ad y) = Some SrcAdapted /\ parsing (st y) <> PsHttpHeader).
    { destruct (icap_tr (io x)).
      - split; [apply InvW_parsing; [exact H|discriminate]|split; [exact Hh|discriminate]].
      - eapply post_weaken; [apply stopParsing_post, H| |auto].
        intros y (Hy & Hp & Ha). cbv beta. rewrite Hp, Ha. split; [exact Hy|split; [exact Hh|discriminate]]. }
    intros y (Hy & Hyh & Hyp).
    pose proof (stopSending_InvW true y Hy) as Hs. pose proof (stopSending_keeps true y) as (Fh & Fp & _).
    destruct (stopSending true y) as [z|z]; cbn [st_of] in *; [|exact Hs].
    split; [apply InvN_adapted; congruence|congruence].
Qed.

Lemma need_more_post (Q QT : xs -> Prop) x : Q x -> QT x -> post Q QT (need_more x).
Proof. intros HQ HT. unfold need_more. destruct (comm_eof (io x)); assumption. Qed.

(* parseHttpHead with maybeAllocateHttpMsg: entered between calls with parsing = psHttpHeader *)
Lemma parseHttpHead_spec :
  spec (fun x => Inv x /\ parsing (st x) = PsHttpHeader) parseHttpHead (fun y => InvN y /\ head_announced y) InvW.
Proof.
  intros x ((H & H4 & H5) & Hp). unfold parseHttpHead.
  assert (Hn : icap_h (io x) <> HNone) by apply H4, Hp.
  assert (G : forall b,
    let x' := match ad_header (ad x) with Some _ => x | None => with_ad_isreply b (with_ad_header (Some SrcAdapted) x) end in
    post (fun y => InvN y /\ head_announced y) InvW
         match front (readbuf (io x')) with
         | FEmpty | FPartial => need_more x'
         | FTok THttpHead rest => decideOnParsingBody (with_readbuf rest x')
         | FTok _ _ => Throw x'
         end).
  { intros b x'.
    assert (A : InvW x' /\ ad_header (ad x') = Some SrcAdapted /\ head_announced x').
    { subst x'. assert (Hnv : ad_header (ad x) <> Some SrcVirgin) by (intros E; apply H5 in E; congruence).
      destruct (ad_header (ad x)) as [[|]|] eqn:E; [congruence|auto|].
      split; [apply InvW_new_head; assumption|split; [reflexivity|exact H4]]. }
    clearbody x'. destruct A as (Hw & Hh & H4').
    destruct (front (readbuf (io x'))) as [| |t rest]; [| |destruct t; try exact Hw].
    1, 2: apply need_more_post; [split; [apply InvN_adapted|]|]; assumption.
    eapply post_weaken; [apply decideOnParsingBody_spec; split; [eapply InvW_ext; [|exact Hw]; core|exact Hh]| |auto].
    intros y (D1 & D2). split; [exact D1|]. intros E; contradiction. }
  destruct (icap_h (io x)); [congruence|apply G|apply G].
Qed.

Lemma handle204_spec : spec InvW handle204NoContent Inv InvW.
Proof.
  intros x H. unfold handle204NoContent.
  eapply post_bind; [apply stopParsing_post, H|]. intros y (Hy & Hp & _).
  pose proof (prepEchoing_spec y Hy) as P. pose proof (prepEchoing_parsing y) as Pp.
  destruct (prepEchoing y) as [z|z]; cbn [st_of] in *; [|exact P].
  apply Inv_done; [apply P|congruence].
Qed.

Lemma handle100_spec :
  spec InvN handle100Continue (fun y => InvN y /\ parsing (st y) = PsIcapHeader) InvW.
Proof.
  intros x H. unfold handle100Continue.
  apply post_must; [apply H|intros _]. apply post_must; [apply H|intros _].
  apply post_bind with (Q := InvN).
  { apply post_st_of; [|intros y [Hy _]; exact Hy]. destruct (negb (allow204post (fl x))); [|exact H]. eapply fr_InvN; [apply stopBackup_fr|exact H]. }
  intros y (Hy & Ny). set (z := with_writing WPrime (with_parsing PsIcapHeader y)).
  assert (Hz : InvN z /\ parsing (st z) = PsIcapHeader).
  { split; [|reflexivity]. split; [|exact Ny]. apply (InvW_ext (with_parsing PsIcapHeader y)); [core|apply InvW_parsing; [exact Hy|discriminate]]. }
  clearbody z. destruct Hz as (Hz & Hp). pose proof (writeMore_fr z) as F.
  apply post_st_of; [|intros w [Hw _]; apply Hw].
  split; [eapply fr_InvN; eauto|]. destruct F as (_ & _ & _ & _ & -> & _). exact Hp.
Qed.

Lemma handle200_spec :
  spec (fun x => InvN x /\ icap_h (io x) <> HNone) handle200Ok (fun y => InvN y /\ head_announced y) InvW.
Proof.
  intros x ((H & N) & Hh). unfold handle200Ok.
  set (x' := with_sending SAdapted (with_parsing PsHttpHeader x)).
  assert (Hx' : InvN x') by (split; [apply InvW_sending; [apply InvW_parsing; [exact H|]|]; discriminate|exact N]).
  assert (Hh' : icap_h (io x') <> HNone) by exact Hh. clearbody x'.
  apply post_bind with (Q := fun y => fr x' y).
  { apply post_st_of; [apply stopBackup_fr|intros y F; eapply fr_InvW; [exact F|apply Hx']]. }
  intros y F. pose proof (fr_trans _ _ _ F (checkConsuming_fr y)) as F2.
  split; [eapply fr_InvN; eauto|]. intros _. destruct F2 as (_ & _ & _ & _ & _ & _ & _ & _ & _ & -> & _). exact Hh'.
Qed.

Lemma handleUnknown_spec : spec InvW handleUnknownScode (fun _ => False) InvW.
Proof.
  intros x H. unfold handleUnknownScode.
  apply post_bind with (Q := InvW); [|intros y Hy; exact Hy].
  eapply post_bind; [apply stopParsing_post, H|]. intros y (Hy & _).
  destruct (can_bypass (fl y)); [exact Hy|exact (fr_InvW_res y _ Hy (stopBackup_fr y))].
Qed.

Lemma validate200_hdr x : validate200Ok x = true -> icap_h (io x) <> HNone.
Proof. unfold validate200Ok. destruct (c_reqmod (cfg x)), (icap_h (io x)); congruence. Qed.

(* parseIcapHead: entered between calls with parsing = psIcapHeader *)
Lemma parseIcapHead_spec :
  spec (fun x => Inv x /\ parsing (st x) = PsIcapHeader) parseIcapHead Inv InvW.
Proof.
  intros x (HI & Hp). unfold parseIcapHead.
  assert (HN : InvN x) by (apply Inv_InvN; [exact HI|congruence]).
  apply post_must; [apply HN|intros _].
  destruct (front (readbuf (io x))) as [| |t rest]; [| |destruct t as [stc h b tr| | | | | |]; try apply HN].
  1, 2: apply need_more_post; [exact HI|apply HN].
  set (x' := with_icap_tr tr (with_icap_b b (with_icap_h h (with_readbuf rest x)))).
  assert (Hx' : InvN x') by (destruct HN as ((Hb & Ha & H1 & H2) & N); exact (conj (conj Hb (conj Ha (conj H1 H2))) N)).
  assert (Hp' : parsing (st x') = PsIcapHeader) by exact Hp.
  assert (Hh' : icap_h (io x') = h) by reflexivity. clearbody x'. cbv zeta.
  apply post_bind with (Q := Inv).
  { destruct (icap_dispatch stc =? 1).
    { eapply post_weaken; [apply handle100_spec, Hx'| |auto].
      intros y (S1 & S2). apply InvN_Inv; [exact S1|]. intros E. congruence. }
    destruct (icap_dispatch stc =? 2).
    { apply post_must; [apply Hx'|intros Ev].
      eapply post_weaken; [apply handle200_spec; split; [exact Hx'|apply validate200_hdr, Ev]| |auto].
      intros y (S1 & S2). apply InvN_Inv; assumption. }
    destruct (icap_dispatch stc =? 3); [apply handle204_spec, Hx'|].
    destruct (icap_dispatch stc =? 4); [apply Hx'|].
    eapply post_weaken; [apply handleUnknown_spec, Hx'|contradiction|auto]. }
  intros y Hy. destruct (is_writing WPaused y); [eapply fr_post_Inv; [apply stopWriting_fr|exact Hy]|exact Hy].
Qed.

Lemma parseHeaders_spec : spec Inv parseHeaders Inv InvW.
Proof.
  intros x HI. unfold parseHeaders.
  apply post_bind with (Q := Inv).
  { destruct (parsing (st x)) eqn:E; try exact HI. apply parseIcapHead_spec. auto. }
  intros y Hy. apply post_bind with (Q := Inv).
  { destruct (parsing (st y)) eqn:E; try exact Hy.
    eapply post_weaken; [apply parseHttpHead_spec; auto| |auto]. intros z (S1 & S2). apply InvN_Inv; assumption. }
  intros z Hz. destruct (parsingHeaders z).
  - unfold must. destruct (negb (comm_eof (io z))); [exact Hz|apply Hz].
  - apply (keeps_post_Inv z); [exact Hz|apply startSending_keeps|apply startSending_spec, Hz].
Qed.

Lemma readMore_fr x : fr x (readMore x).
Proof. unfold readMore. brk; try apply fr_refl; frsolve. Qed.

(* parseBody appends adapted bytes only, and only to a message whose head came from the ICAP reply *)
Lemma parseBody_spec :
  spec (fun x => Inv x /\ parsing (st x) = PsBody) parseBody Inv InvW.
Proof.
  intros x (HI & Hp). unfold parseBody.
  assert (Hh : ad_header (ad x) = Some SrcAdapted) by (destruct HI as ((_ & _ & _ & H2) & _); apply H2, Hp).
  apply post_must; [apply HI|intros _].
  destruct (parseChunks (readbuf (io x)) (ad_space x)) as [[d rb] s].
  destruct (s =? 3); [apply HI|]. cbv zeta.
  match goal with |- context[if 0 <? ad_buf (ad ?z) then _ else ?z] => set (x1 := z) end.
  assert (H1 : Inv x1 /\ ad_header (ad x1) = Some SrcAdapted).
  { split; [|exact Hh].
    destruct HI as ((Hb & Ha & H1 & H2) & H4 & H5). unfold body_ok in Hb. rewrite Hh in Hb. destruct Hb as (Hb1 & Hb2).
    split; [|split; [exact H4|exact H5]].
    refine (conj _ (conj Ha (conj H1 H2))). unfold body_ok. cbn. rewrite Hh. split; [rewrite Hb1; reflexivity|exact Hb2]. }
  clearbody x1.
  set (x2 := if 0 <? ad_buf (ad x1) then disableBypass true (disableRepeats x1) else x1).
  assert (H2 : Inv x2 /\ ad_header (ad x2) = Some SrcAdapted).
  { subst x2. destruct (0 <? ad_buf (ad x1)); [|exact H1]. destruct H1 as (A & C). split; [eapply Inv_ext; [|exact A]; core|exact C]. }
  clearbody x2. destruct H2 as (H2 & H2h).
  destruct (s =? 1).
  - pose proof (stopSending_InvW true x2 (Inv_InvW _ H2)) as Hs. pose proof (stopSending_keeps true x2) as (F1 & _).
    destruct (stopSending true x2) as [y|y]; cbn [bind st_of] in *; [|exact Hs].
    assert (Hyh : ad_header (ad y) = Some SrcAdapted) by congruence.
    destruct (icap_tr (io y)).
    + apply InvN_Inv; [apply InvN_adapted; [apply InvW_parsing; [exact Hs|discriminate]|exact Hyh]|discriminate].
    + eapply post_weaken; [apply stopParsing_post, Hs| |auto]. intros z (Hz & Gp & _). apply Inv_done; assumption.
  - apply post_must; [apply H2|intros _]. eapply fr_Inv; [apply readMore_fr|exact H2].
Qed.

Lemma parseIcapTrailer_spec : spec Inv parseIcapTrailer Inv InvW.
Proof.
  intros x HI. unfold parseIcapTrailer.
  destruct (front (readbuf (io x))) as [| |t r]; [| |destruct t; try apply HI].
  1, 2: apply need_more_post; [exact HI|apply HI].
  assert (H' : InvW (with_readbuf r x)) by (eapply InvW_ext; [|apply HI]; core).
  eapply post_weaken; [apply stopParsing_post, H'| |auto]. intros z (Hz & Gp & _). apply Inv_done; assumption.
Qed.

Lemma parseMore_spec : spec Inv parseMore Inv InvW.
Proof.
  intros x HI. unfold parseMore.
  apply post_bind with (Q := Inv); [destruct (parsingHeaders x); [apply parseHeaders_spec, HI|exact HI]|].
  intros y Hy. apply post_bind with (Q := Inv).
  { destruct (parsing (st y)) eqn:E; try exact Hy. apply parseBody_spec. auto. }
  intros z Hz. destruct (parsing (st z)); try exact Hz. apply parseIcapTrailer_spec, Hz.
Qed.

Lemma handleCommRead_spec : spec Inv handleCommRead Inv InvW.
Proof.
  intros x HI. unfold handleCommRead.
  apply post_bind with (Q := Inv); [apply post_must; [apply HI|intros _; apply parseMore_spec, HI]|].
  intros y Hy. eapply fr_Inv; [apply readMore_fr|exact Hy].
Qed.

Lemma bypassFailure_spec : spec InvW bypassFailure Inv InvW.
Proof.
  intros x H. unfold bypassFailure. cbv zeta.
  assert (H0 : InvW (disableBypass false x)) by (eapply InvW_ext; [|exact H]; core).
  set (x0 := disableBypass false x) in *. clearbody x0.
  apply post_bind with (Q := Inv); [|intros v Hv; destruct (conn (io v)); [eapply Inv_ext; [|exact Hv]; core|exact Hv]].
  apply post_bind with (Q := Inv); [|intros w Hw; eapply fr_post_Inv; [apply stopWriting_fr|exact Hw]].
  apply post_bind with (Q := InvW).
  - apply post_bind with (Q := fun y => InvW y /\ ad_header (ad y) = Some SrcVirgin).
    + apply post_must; [exact H0|intros _]. apply prepEchoing_spec, H0.
    + intros y (Hy & _). apply startSending_spec, Hy.
  - intros z Hz. eapply post_weaken; [apply stopParsing_post, Hz| |auto]. intros w (Hw & Hp & _). apply Inv_done; assumption.
Qed.

Lemma callException_spec x : InvW x -> InvW (callException x) /\ (stop_req (job (callException x)) = true \/ Inv (callException x)).
Proof.
  intros H. unfold callException.
  destruct (negb (can_bypass (fl x)) || retriable (fl x)).
  - split; [eapply InvW_ext; [|exact H]; core|left; reflexivity].
  - pose proof (bypassFailure_spec x H) as B. destruct (bypassFailure x) as [y|y].
    + split; [apply B|right; exact B].
    + split; [eapply InvW_ext; [|exact B]; core|left; reflexivity].
Qed.

Lemma swanSong_InvW x : InvW x -> InvW (swanSong x) /\ stopped (job (swanSong x)) = true.
Proof.
  intros H. unfold swanSong. cbv zeta.
  pose proof (stopWriting_fr false x) as F. set (x1 := st_of (stopWriting false x)) in *.
  assert (H1 : InvW x1) by (eapply fr_InvW; eauto). clearbody x1.
  pose proof (stopSending_InvW false x1 H1) as H2. set (x2 := st_of (stopSending false x1)) in *. clearbody x2.
  split; [|destruct (initiator _); reflexivity].
  set (x3 := with_readbuf [] (with_writer false (with_reader false (with_conn false x2)))).
  assert (H3 : InvW x3) by (eapply InvW_ext; [|exact H2]; core). clearbody x3.
  destruct (initiator (job x3)).
  - destruct H3 as (Hb & Ha & H1' & H2'). refine (conj Hb (conj _ (conj H1' H2'))). intros s E. discriminate.
  - eapply InvW_ext; [|exact H3]. core.
Qed.

(* the invariant between asynchronous calls; a finished job keeps only the part about the delivered message *)
Definition B (x : xs) : Prop := InvW x /\ (stopped (job x) = true \/ (head_announced x /\ virgin_done x)).
Lemma B_of_Inv x : Inv x -> B x.
Proof. intros (H & H45). split; [exact H|right; exact H45]. Qed.

Lemma finish_B x : InvW x -> (stop_req (job x) = true \/ Inv x) -> B (finish x).
Proof.
  intros H HS. unfold finish. cbv zeta.
  match goal with |- B (if _ then swanSong ?z else ?z) => set (x1 := z) end.
  assert (H1 : InvW x1 /\ (stop_req (job x1) = true \/ Inv x1)).
  { subst x1. match goal with |- context[if ?c then _ else _] => destruct c end; [|auto].
    split; [eapply InvW_ext; [|exact H]; core|]. destruct HS as [HS|HS]; [left; exact HS|right; eapply Inv_ext; [|exact HS]; core]. }
  clearbody x1. destruct H1 as (H1 & HS1).
  destruct (stop_req (job x1) || doneAll x1) eqn:E.
  - pose proof (swanSong_InvW x1 H1) as (S1 & S2). split; [exact S1|left; exact S2].
  - destruct HS1 as [HS1|HS1]; [rewrite HS1 in E; discriminate|apply B_of_Inv, HS1].
Qed.

Lemma start_fr x : fr x (st_of (start x)).
Proof. unfold start. cbv zeta. cbn [st_of]. unfold checkConsuming. brk; frsolve. Qed.
Lemma startShoveling_fr x : fr x (st_of (startShoveling x)).
Proof.
  unfold startShoveling.
  pose proof (readMore_fr x) as F1. generalize dependent (readMore x). intros x1 F1. cbv zeta.
  set (x2 := if pv_enabled x1 && negb (vb_expected (cfg x1)) then with_pv_st PvIeof x1 else x1).
  assert (F2 : fr x1 x2) by (subst x2; destruct (pv_enabled x1 && negb (vb_expected (cfg x1))); [frsolve|apply fr_refl]).
  clearbody x2.
  set (x3 := with_allow204post (canBackupEverything x2) x2). assert (F3 : fr x2 x3) by frsolve. clearbody x3.
  eapply fr_trans; [exact F1|]. eapply fr_trans; [exact F2|]. eapply fr_trans; [exact F3|].
  frauto.
Qed.

Lemma vput_Inv bs x : Inv x -> Inv (vput bs x).
Proof.
  intros ((Hb & Ha & H1 & H2) & H4 & H5). unfold vput. cbv zeta.
  split; [|exact (conj H4 H5)]. refine (conj _ (conj Ha (conj H1 H2))).
  unfold body_ok in *. cbn. destruct (ad_header (ad x)) as [[|]|]; auto.
  destruct Hb as (Hb1 & Hb2 & Hb3). repeat split; auto.
  - rewrite takeN_app_le; assumption.
  - rewrite lenN_app. lia.
Qed.

Lemma noteVirgin_spec : spec Inv noteVirgin Inv InvW.
Proof.
  intros x HI. unfold noteVirgin.
  eapply post_bind; [eapply fr_post_Inv; [apply writeMore_fr|exact HI]|].
  intros y Hy. destruct (is_sending SVirgin y); [apply echoMore_Inv, Hy|exact Hy].
Qed.
Lemma noteVirgin_attached x : Inv x -> post Inv InvW (if vp_attached (vs x) then noteVirgin x else Ok x).
Proof. intros HI. destruct (vp_attached (vs x)); [apply noteVirgin_spec, HI|exact HI]. Qed.

Lemma handler_spec e : spec Inv (handler e) Inv InvW.
Proof.
  intros x HI. destruct e; cbn [handler].
  - destruct (is_writing WInit x); [eapply fr_post_Inv; [apply start_fr|exact HI]|exact HI].
  - destruct (is_writing WConnect x && negb (conn (io x))); [|exact HI].
    eapply fr_post_Inv; [apply startShoveling_fr|]. eapply Inv_ext; [|exact HI]. core.
  - destruct (is_writing WConnect x && negb (conn (io x))); [apply HI|exact HI].
  - destruct (writer (io x)); [eapply fr_post_Inv; [apply noteCommWrote_fr|exact HI]|exact HI].
  - destruct (writer (io x)); [|exact HI]. cbv zeta.
    destruct (ignore_lw (io (with_writer false x))); [eapply Inv_ext; [|exact HI]; core|eapply InvW_ext; [|apply HI]; core].
  - destruct (vb_expected (cfg x) && producing x); [|exact HI]. apply noteVirgin_attached, vput_Inv, HI.
  - destruct (vb_expected (cfg x) && producing x); [|exact HI]. apply noteVirgin_attached. eapply Inv_ext; [|exact HI]; core.
  - destruct (vb_expected (cfg x) && producing x); [|exact HI]. apply noteVirgin_attached. eapply Inv_ext; [|exact HI]; core.
  - destruct (reader (io x)); [|exact HI]. apply handleCommRead_spec. eapply Inv_ext; [|exact HI]. core.
  - destruct (reader (io x)); [|exact HI]. apply handleCommRead_spec. eapply Inv_ext; [|exact HI]. core.
  - destruct (conn (io x)); [|exact HI]. eapply Inv_ext; [|exact HI]. core.
  - destruct (conn (io x) && (reader (io x) || writer (io x))); [|exact HI]. eapply InvW_ext; [|apply HI]. core.
  - destruct (ad_pipe (ad x)); [|exact HI]. cbv zeta.
    set (x' := with_ad_buf _ x). assert (H' : Inv x') by (eapply Inv_ext; [|exact HI]; core). clearbody x'.
    destruct (sending (st x')); [exact H'|apply echoMore_Inv, H'|apply parseMore_spec, H'|apply H'].
  - destruct (ad_pipe (ad x)); [|exact HI]. eapply Inv_ext; [|exact HI]. core.
  - destruct (initiator (job x)); [|exact HI]. eapply Inv_ext; [|exact HI]. core.
Qed.

Lemma init_B c : B (init c).
Proof.
  apply B_of_Inv. unfold Inv, InvW, body_ok, answer_ok, p1, p2, head_announced, virgin_done. cbn.
  repeat split; try discriminate; try reflexivity.
Qed.

Lemma step_B x e : B x -> B (step x e).
Proof.
  intros (H & HS). unfold step. destruct (stopped (job x)) eqn:Es; [split; [exact H|left; exact Es]|].
  assert (HI : Inv x) by (destruct HS as [HS|HS]; [congruence|exact (conj H HS)]).
  pose proof (handler_spec e x HI) as S. destruct (handler e x) as [y|y].
  - apply finish_B; [apply S|right; exact S].
  - pose proof (callException_spec y S) as (C1 & C2). apply finish_B; assumption.
Qed.

Lemma run_B c evs : B (run (init c) evs).
Proof.
  unfold run. rewrite <- fold_left_rev_right. induction (rev evs) as [|e l IH]; [apply init_B|apply step_B, IH].
Qed.

(* once a head has been forwarded it is the head object, and the body sent so far is of that head's kind only *)
Lemma InvW_forwarded x s : InvW x -> o_answer (out x) = Some (Fwd s) ->
  match s with
  | SrcVirgin => o_body (out x) = takeN (s_off (vs x)) (vp_data (vs x)) /\ ad_in (ad x) = []
  | SrcAdapted => o_body (out x) = ad_in (ad x) /\ s_off (vs x) = 0
  end.
Proof.
  intros (Hb & Ha & _) E. apply Ha in E. unfold body_ok in Hb. rewrite E in Hb. destruct s; [split; apply Hb|exact Hb].
Qed.

(* what reaches the HTTP side (Iterator + ClientHttpRequest / Client) *)
Theorem deliver_InvW x : InvW x ->
  match deliver x with
  | DMessage SrcVirgin _ body _ => body = takeN (s_off (vs x)) (vp_data (vs x)) /\ ad_in (ad x) = []
  | DMessage SrcAdapted _ body _ => body = ad_in (ad x) /\ s_off (vs x) = 0
  | DVirginUntouched =>
    c_reqmod (cfg x) = true /\ c_bypass (cfg x) = true /\ (vb_expected (cfg x) = false \/ vp_consumed (vs x) = 0) /\
    (forall s, o_answer (out x) <> Some (Fwd s))
  | DError => forall s, o_answer (out x) <> Some (Fwd s)
  end.
Proof.
  intros HW. unfold deliver.
  destruct (o_answer (out x)) as [[s|]|] eqn:E; [destruct s; exact (InvW_forwarded x _ HW E)| |].
  (* no head was forwarded: the untouched virgin request under REQMOD bypass, or an error *)
  all: destruct (c_reqmod (cfg x)); [|intros s; discriminate].
  all: destruct (c_bypass (cfg x)); cbn [andb]; [|intros s; discriminate].
  all: destruct (vb_expected (cfg x)); cbn [negb orb andb]; [|repeat split; auto; intros s; discriminate].
  all: destruct (N.eqb_spec (vp_consumed (vs x)) 0) as [Z|Z]; cbn [andb negb]; [|intros s; discriminate].
  all: rewrite Z; cbn; repeat split; auto; intros s; discriminate.
Qed.

Definition cfg_demo (bp : bool) : cfg_t := mk_cfg bp false (Some 4) true true 10.
Definition vbody_demo : bytes := [1;2;3;4;5;6;7;8;9;10].
(* preview written, then the server's decisive reply *)
Definition evs_demo (reply : list event) : list event :=
  [EvStart; EvVData vbody_demo; EvVEnd; EvConnected; EvWrote; EvWrote] ++ reply.

(* refuted: bypass=1, the ICAP server answers 200 and closes inside the encapsulated HTTP head: no adapted head was
   ever completed or forwarded, no adapted byte accepted, and the client gets an error *)
Lemma bypass_refuted :
  exists c evs, c_bypass c = true /\
    let x := run (init c) evs in
    o_body (out x) = [] /\ ad_in (ad x) = [] /\ stopped (job x) = true /\
    o_answer (out x) = Some AnsError /\ deliver x = DError.
Proof.
  exists (cfg_demo true), (evs_demo [EvRead [TIcapHead 200 HRes true false; TPartial]; EvEof]).
  split; [reflexivity|]. vm_compute. repeat split.
Qed.

Definition akeep (x y : xs) : Prop := o_answer (out y) = o_answer (out x) /\ initiator (job y) = initiator (job x).
Lemma fr_akeep x y : fr x y -> akeep x y.
Proof. intros (_ & Fo & Fj & _). unfold akeep. rewrite Fo, Fj. auto. Qed.
Lemma akeep_trans x y z : akeep x y -> akeep y z -> akeep x z.
Proof. unfold akeep; intuition congruence. Qed.
Lemma stopSending_akeep n x : akeep x (st_of (stopSending n x)).
Proof. unfold stopSending, checkConsuming, must, bind, akeep. brk; cbn; auto. Qed.
Lemma echoMore_akeep x : akeep x (st_of (echoMore x)).
Proof.
  apply echoMore_ind; clear x; [split; reflexivity|apply akeep_trans|apply fr_akeep|split; reflexivity|intros; apply stopSending_akeep].
Qed.

Lemma makeAdaptedBodyPipe_ok z :
  ad_pipe (ad z) = false -> o_end (out z) = None -> makeAdaptedBodyPipe z = Ok (with_ad_pipe true z).
Proof. intros A B. unfold makeAdaptedBodyPipe, must, bind. rewrite A, B. reflexivity. Qed.

Lemma prepEchoing_ok x :
  ad_header (ad x) = None -> ad_pipe (ad x) = false ->
  (vb_expected (cfg x) = true ->
     (active (s_st (vs x)) = true \/ (is_disabled (s_st (vs x)) = false /\ s_off (vs x) = 0)) /\ o_end (out x) = None) ->
  exists y, prepEchoing x = Ok y /\ akeep x y /\ ad_header (ad y) = Some SrcVirgin.
Proof.
  intros Hh Hp Hb. unfold prepEchoing. cbv zeta.
  set (x1 := disableBypass true (disableRepeats x)).
  assert (E1 : ad_header (ad x1) = None) by exact Hh.
  unfold must at 1. rewrite E1. cbn [bind].
  set (x2 := with_ad_isreply _ (with_ad_header (Some SrcVirgin) x1)).
  assert (K2 : akeep x x2) by (split; reflexivity).
  assert (P2 : ad_pipe (ad x2) = false) by exact Hp.
  assert (H2 : ad_header (ad x2) = Some SrcVirgin) by reflexivity.
  change (vb_expected (cfg x2)) with (vb_expected (cfg x)).
  destruct (vb_expected (cfg x)) eqn:Ev.
  - destruct (Hb eq_refl) as (Hs & He).
    assert (E2 : o_end (out x2) = None) by exact He.
    set (r := if active (s_st (vs x2)) then Ok x2 else _).
    assert (Hr : exists x3, r = Ok x3 /\ akeep x x3 /\ ad_pipe (ad x3) = false /\ o_end (out x3) = None /\ ad_header (ad x3) = Some SrcVirgin).
    { subst r. change (s_st (vs x2)) with (s_st (vs x)). change (s_off (vs x2)) with (s_off (vs x)).
      destruct (active (s_st (vs x))) eqn:Ea; [exists x2; auto|].
      destruct Hs as [Hs|(Hs1 & Hs2)]; [congruence|]. rewrite Hs1, Hs2. cbn [negb andb N.eqb must bind].
      eexists; split; [reflexivity|]. repeat split; auto. }
    destruct Hr as (x3 & -> & K3 & P3 & E3 & H3). cbn [bind].
    set (z := checkConsuming (with_sending SVirgin x3)).
    pose proof (checkConsuming_fr (with_sending SVirgin x3)) as F. fold z in F.
    destruct F as (Fa & Fo & Fj & _).
    rewrite (makeAdaptedBodyPipe_ok z); [|rewrite Fa; exact P3|rewrite Fo; exact E3]. cbn [bind].
    assert (Kz : akeep x z) by (unfold akeep in *; rewrite Fo, Fj; exact K3).
    assert (Hz : ad_header (ad z) = Some SrcVirgin) by (rewrite Fa; exact H3).
    destruct (vb_known (cfg (with_ad_pipe true z))); eexists; (split; [reflexivity|split; [exact Kz|exact Hz]]).
  - pose proof (stopSending_akeep true x2) as KS. pose proof (stopSending_keeps true x2) as (FH & _).
    assert (OK : exists y, stopSending true x2 = Ok y).
    { unfold stopSending. destruct (sending (st x2)); try (eexists; reflexivity).
      unfold must, bind. rewrite P2. cbn [negb]. eexists; reflexivity. }
    destruct OK as (y & Ey). rewrite Ey in *. cbn [st_of] in *. exists y. split; [reflexivity|split].
    + eapply akeep_trans; [exact K2|exact KS].
    + rewrite FH. exact H2.
Qed.

(* With bypass enabled, an exception thrown while the virgin body backup is still usable and no adapted head exists
   makes the transaction forward the virgin message. *)
Theorem bypass_partial x :
  can_bypass (fl x) = true -> retriable (fl x) = false ->
  ad_header (ad x) = None -> ad_pipe (ad x) = false -> initiator (job x) = true ->
  (vb_expected (cfg x) = true ->
     (active (s_st (vs x)) = true \/ (is_disabled (s_st (vs x)) = false /\ s_off (vs x) = 0)) /\ o_end (out x) = None) ->
  o_answer (out (callException x)) = Some (Fwd SrcVirgin).
Proof.
  intros Hc Hr Hh Hp Hi Hb. unfold callException. rewrite Hc, Hr. cbn [negb orb].
  unfold bypassFailure. cbv zeta.
  set (x0 := disableBypass false x).
  assert (E0 : retriable (fl x0) = false) by exact Hr.
  unfold must at 1. rewrite E0. cbn [negb bind].
  destruct (prepEchoing_ok x0) as (y & Ey & Ky & Hyh); [exact Hh|exact Hp|exact Hb|].
  rewrite Ey. cbn [bind].
  assert (Hyi : initiator (job y) = true) by (destruct Ky as (_ & Ki); rewrite Ki; exact Hi).
  (* startSending sends the answer, the rest keeps it *)
  unfold startSending at 1. cbv zeta.
  change (ad_header (ad (disableBypass true (disableRepeats y)))) with (ad_header (ad y)). rewrite Hyh.
  unfold sendAnswer. change (initiator (job (disableBypass true (disableRepeats y)))) with (initiator (job y)). rewrite Hyi.
  set (z := with_initiator false (with_o_answer (Some (Fwd SrcVirgin)) (disableBypass true (disableRepeats y)))).
  assert (Hz : o_answer (out z) = Some (Fwd SrcVirgin)) by reflexivity.
  set (r := if is_sending SVirgin z then echoMore z else Ok z).
  assert (Hrr : o_answer (out (st_of r)) = Some (Fwd SrcVirgin)).
  { subst r. destruct (is_sending SVirgin z); [|exact Hz]. destruct (echoMore_akeep z) as (A & _). rewrite A. exact Hz. }
  clearbody r. destruct r as [w|w]; cbn [bind st_of] in *; [|exact Hrr].
  pose proof (stopParsing_out false w) as So.
  destruct (stopParsing false w) as [v|v]; cbn [bind st_of] in *; [|cbn; rewrite So; exact Hrr].
  pose proof (stopWriting_fr true v) as (_ & Fo & _).
  destruct (stopWriting true v) as [u|u]; cbn [bind st_of] in *.
  - destruct (conn (io u)); cbn; rewrite Fo, So; exact Hrr.
  - cbn. rewrite Fo, So. exact Hrr.
Qed.
