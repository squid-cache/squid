(* Properties_C22.v — C22: request-line acceptance matches the HTTP grammar.
   Statements, closed by `exact` or by the few lines that assemble them; proofs live in ReqparseGrammar.v (on top of ReqparseProofs.v / TokProofs.v;
   C22_request_line_ends_at_first_LF is ReqparseProofs.first_line_of_line).

   [parse_line relaxed s line] is the part of RequestParser::parseRequestFirstLine() that runs on the isolated
   line (the bytes before the first LF; C22_request_line_ends_at_first_LF): (s', true) = all fields parsed.
   Character sets are the tables regenerated from the code (CharSets_gen.v): cs_TCHAR, cs_DIGIT, cs_CR,
   Parser::DelimiterCharacters() and RequestParser::RequestTargetCharacters() in strict / relaxed mode.
   Scope (DESIGN.md C22): request-target is taken at the lexical level of the first-line parser (1*URI characters);
   its four forms and the authority are AnyP::Uri's business (C30). 32 = SP, 13 = CR, 46 = ".". *)
Require Import SquidV.Bytes SquidV.TokModel SquidV.Incremental SquidV.ReqparseModel SquidV.ReqparseProofs SquidV.ReqparseGrammar.
Require Import SquidV.gen.CharSets_gen SquidV.gen.ReqTabs_gen.
Local Open Scope N_scope.

(* --- strict mode, grammar => accept, with the grammar's fields ---
   RFC 9112: request-line = method SP request-target SP "HTTP/" DIGIT "." DIGIT (CR LF); method = 1*tchar (at most
   maxMethodLength), request-target = 1*URI-char (at most the URI limit). Major version 0 is excluded: see the
   refutation below. *)
Theorem C22_strict_grammar_implies_accept : forall s line m t d1 d2,
  lenN line <= npos ->
  (line = m ++ [32] ++ t ++ [32] ++ http_slash ++ [d1; 46; d2] ++ [13] /\
   (m <> [] /\ forallb cs_TCHAR m = true /\ lenN m <= req_max_method) /\
   (t <> [] /\ forallb cs_strict_RequestTarget t = true /\ lenN t <= req_max_uri) /\
   cs_DIGIT d1 = true /\ cs_DIGIT d2 = true) ->
  d1 <> 48 ->
  exists s', parse_line false s line = (s', true) /\
    r_mimg s' = snd (method_of false m) /\ r_mid s' = fst (method_of false m) /\ r_uri s' = t /\
    r_http s' = true /\ r_major s' = d1 - 48 /\ r_minor s' = d2 - 48.
Proof. exact rfc_request_line_accepted. Qed.

(* in strict mode the reported method image is the method token itself *)
Theorem C22_strict_method_image_is_token : forall m, m <> [] -> snd (method_of false m) = m.
Proof. exact method_of_strict_image. Qed.

(* --- strict mode, accept => grammar (partial: HTTP versions with major >= 1; for major 0 / multi-digit
       version tokens the full statement is false, next theorem) --- *)
Theorem C22_strict_accept_implies_grammar_partial : forall s line s',
  lenN line <= npos ->
  parse_line false s line = (s', true) -> r_major s' <> 0 ->
  exists m t d1 d2,
    (line = m ++ [32] ++ t ++ [32] ++ http_slash ++ [d1; 46; d2] ++ [13] /\
     (m <> [] /\ forallb cs_TCHAR m = true /\ lenN m <= req_max_method) /\
     (t <> [] /\ forallb cs_strict_RequestTarget t = true /\ lenN t <= req_max_uri) /\
     cs_DIGIT d1 = true /\ cs_DIGIT d2 = true) /\
    r_mimg s' = m /\ r_uri s' = t /\ r_major s' = d1 - 48 /\ r_minor s' = d2 - 48.
Proof. intros s line s' _. apply strict_accepted_1x_is_rfc_line. Qed.

(* --- the full statement is refuted: "POST /xHTTP/0.9" CR LF is accepted in strict mode as POST, target "/x",
       HTTP/0.9 although it is neither an RFC 9112 request-line nor an HTTP/0.9 simple request ("GET" SP target);
       the delimiter before an HTTP/0.x (or multi-digit) version token is not checked (http0() is true) --- *)
Theorem C22_strict_accept_iff_grammar_refuted :
  exists line s', parse_line false rst0 line = (s', true) /\
    r_uri s' = [47;120] /\ r_major s' = 0 /\ r_minor s' = 9 /\
    (forall m t d1 d2,
       ~ (line = m ++ [32] ++ t ++ [32] ++ http_slash ++ [d1; 46; d2] ++ [13] /\
          (m <> [] /\ forallb cs_TCHAR m = true /\ lenN m <= req_max_method) /\
          (t <> [] /\ forallb cs_strict_RequestTarget t = true /\ lenN t <= req_max_uri) /\
          cs_DIGIT d1 = true /\ cs_DIGIT d2 = true)) /\
    (forall t, line <> [71;69;84;32] ++ t ++ [13]).
Proof. exact strict_accept_iff_grammar_refuted. Qed.

(* --- both modes: what an accepted line with major >= 1 looks like. In relaxed mode this is the list of
       tolerances: 1*delimiter (from the relaxed set) between the fields, any number of CRs before the LF, the
       relaxed target characters, known methods matched case-insensitively (method_of true) --- *)
Theorem C22_accepted_shape_both_modes_partial : forall relaxed s line s',
  lenN line <= npos ->
  parse_line relaxed s line = (s', true) -> r_major s' <> 0 ->
  exists m t d1 d2,
    (exists ds1 ds2 crs,
       line = m ++ ds1 ++ t ++ ds2 ++ http_slash ++ [d1; 46; d2] ++ crs /\
       (m <> [] /\ forallb cs_TCHAR m = true /\ lenN m <= req_max_method) /\
       (ds1 <> [] /\ forallb (delim relaxed) ds1 = true /\ (relaxed = false -> lenN ds1 = 1)) /\
       (t <> [] /\ forallb (target_chars relaxed) t = true /\ lenN t <= req_max_uri) /\
       (ds2 <> [] /\ forallb (delim relaxed) ds2 = true /\ (relaxed = false -> lenN ds2 = 1)) /\
       cs_DIGIT d1 = true /\ cs_DIGIT d2 = true /\
       (forallb cs_CR crs = true /\ (relaxed = false -> lenN crs = 1))) /\
    (r_mid s', r_mimg s') = method_of relaxed m /\ r_uri s' = t /\
    r_http s' = true /\ r_major s' = d1 - 48 /\ r_minor s' = d2 - 48.
Proof. intros relaxed s line s' _. apply parse_line_sound_1x. Qed.

(* the delimiter and target sets behind the tolerances (bound: all 256 byte values of the regenerated tables) *)
Theorem C22_delimiter_and_target_sets : forall c, c < 256 ->
  cs_relaxed_Delimiter c = ((c =? 32) || (c =? 9) || (c =? 11) || (c =? 12) || (c =? 13)) /\
  cs_strict_Delimiter c = (c =? 32) /\
  (cs_strict_RequestTarget c = true -> cs_relaxed_RequestTarget c = true) /\
  (cs_relaxed_Delimiter c = true -> cs_relaxed_RequestTarget c = true) /\
  (cs_strict_RequestTarget c = true -> 33 <= c <= 126) /\
  (cs_relaxed_RequestTarget c = true -> c <> 10 /\ c <> 0 /\ c <> 127).
Proof. exact relaxed_tables. Qed.

(* --- the request line is what precedes the first LF (both modes) --- *)
Theorem C22_request_line_ends_at_first_LF : forall relaxed limit s line rest,
  lenN (line ++ 10 :: rest) <= npos -> line <> [] -> forallb (fun c => negb (c =? 10)) line = true -> lenN line < limit ->
  first_line relaxed limit s (line ++ 10 :: rest) =
  match parse_line relaxed s line with
  | (s1, true) => (FLok, s1, rest)
  | (s1, false) => (FLbad, s1, line ++ 10 :: rest)
  end.
Proof. exact first_line_of_line. Qed.

(* non-vacuity *)
(* "GET / HTTP/1.1" CR satisfies the grammar hypotheses *)
Example C22_example_grammar :
  [71;69;84;32;47;32;72;84;84;80;47;49;46;49;13] = [71;69;84] ++ [32] ++ [47] ++ [32] ++ http_slash ++ [49; 46; 49] ++ [13] /\
  forallb cs_TCHAR [71;69;84] = true /\ forallb cs_strict_RequestTarget [47] = true /\ cs_DIGIT 49 = true /\ 49 <> 48.
Proof. vm_compute. repeat split; discriminate. Qed.
(* relaxed: "get" HT "/a b" SP SP "HTTP/1.0" CR CR is accepted as GET, target "/a b", 1.0 *)
Example C22_example_relaxed : exists s',
  parse_line true rst0 [103;101;116;9;47;97;32;98;32;32;72;84;84;80;47;49;46;48;13;13] = (s', true) /\
  r_mimg s' = [71;69;84] /\ r_uri s' = [47;97;32;98] /\ r_major s' = 1 /\ r_minor s' = 0.
Proof. eexists. vm_compute. repeat split; reflexivity. Qed.
(* strict rejects that line *)
Example C22_example_strict_rejects : exists s',
  parse_line false rst0 [103;101;116;9;47;97;32;98;32;32;72;84;84;80;47;49;46;48;13;13] = (s', false).
Proof. eexists. vm_compute. reflexivity. Qed.

Print Assumptions C22_strict_grammar_implies_accept.
Print Assumptions C22_strict_method_image_is_token.
Print Assumptions C22_strict_accept_implies_grammar_partial.
Print Assumptions C22_strict_accept_iff_grammar_refuted.
Print Assumptions C22_accepted_shape_both_modes_partial.
Print Assumptions C22_delimiter_and_target_sets.
Print Assumptions C22_request_line_ends_at_first_LF.
