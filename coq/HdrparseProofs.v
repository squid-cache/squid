(* HdrparseProofs.v — proofs about HdrparseModel (C25). *)
Require Import SquidV.Bytes SquidV.ClenModel SquidV.ClenProofs SquidV.HdrparseModel.
Require Import SquidV.gen.CharSets_gen SquidV.gen.HdrTable_gen.
Require Import ZifyBool ZifyN.
Local Open Scope N_scope.

Lemma frev_rev l : frev l = rev l.
Proof. unfold frev. symmetry. apply rev_alt. Qed.
Lemma h_rtrim_by_eq p l : h_rtrim_by p l = rtrim_by p l.
Proof. unfold h_rtrim_by, rtrim_by. now rewrite !frev_rev. Qed.
Lemma h_rtrim_eq l : h_rtrim l = rtrim l.
Proof. unfold h_rtrim. apply h_rtrim_by_eq. Qed.
Lemma rtrim_is_by l : rtrim l = rtrim_by c_isspace l.
Proof. reflexivity. Qed.
Lemma ltrim_is_by l : ltrim l = ltrim_by c_isspace l.
Proof. reflexivity. Qed.
Lemma h_last_is_eq p l : h_last_is p l = last_is p l.
Proof. unfold h_last_is, last_is. now rewrite frev_rev. Qed.
Lemma h_strip_last_eq l : h_strip_last l = strip_last l.
Proof. unfold h_strip_last, strip_last. now rewrite !frev_rev. Qed.
Lemma h_proc_line_eq relaxed req ln cont : h_proc_line relaxed req ln cont = proc_line relaxed req ln cont.
Proof. unfold h_proc_line, proc_line. now rewrite h_last_is_eq, h_strip_last_eq. Qed.

Definition nolf (l : bytes) : Prop := forallb (fun c => negb (c =? 10)) l = true.
Definition join_lines (ls : list bytes) : bytes := concat (map (fun l => l ++ [10]) ls).

Lemma ref_cut_split : forall l cur,
  ref_cut cur l = (match fst (split_lines l) with
                   | [] => []
                   | x :: xs => (rev cur ++ x) :: xs
                   end,
                   match fst (split_lines l) with [] => rev cur ++ snd (split_lines l) | _ => snd (split_lines l) end).
Proof.
  induction l as [|c r IH]; intros cur; cbn [ref_cut split_lines fst snd].
  - now rewrite app_nil_r.
  - destruct (c =? 10) eqn:E.
    + rewrite (IH []). destruct (split_lines r) as [ls rem]. cbn [fst snd rev app].
      rewrite app_nil_r. destruct ls; reflexivity.
    + rewrite (IH (c :: cur)). destruct (split_lines r) as [ls rem]. cbn [fst snd rev].
      destruct ls as [|x xs]; cbn [fst snd]; rewrite <- app_assoc; reflexivity.
Qed.

Lemma ref_cut_is_split l : ref_cut [] l = split_lines l.
Proof.
  rewrite ref_cut_split. destruct (split_lines l) as [ls rem]. cbn [fst snd rev app]. destruct ls; reflexivity.
Qed.

(* the lines are exactly the LF-separated pieces: they contain no LF and re-join to the block *)
Lemma split_lines_join : forall l ls rem, split_lines l = (ls, rem) ->
  l = join_lines ls ++ rem /\ Forall nolf ls /\ nolf rem.
Proof.
  induction l as [|c r IH]; intros ls rem; cbn [split_lines].
  - intros [= <- <-]. repeat split; constructor.
  - destruct (split_lines r) as [ls' rem'] eqn:E. destruct (IH _ _ eq_refl) as (-> & Hf & Hr).
    unfold nolf in *. destruct (c =? 10) eqn:Ec.
    + intros [= <- <-]. apply N.eqb_eq in Ec. subst c. repeat split; [constructor; [reflexivity|exact Hf]|exact Hr].
    + destruct ls' as [|x xs]; intros [= <- <-].
      * repeat split; [constructor|]. cbn [forallb]. now rewrite Ec, Hr.
      * repeat split; [|exact Hr]. constructor; [|exact (Forall_inv_tail Hf)].
        cbn [forallb]. now rewrite Ec, (Forall_inv Hf).
Qed.

Lemma split_lines_nolf l : nolf l -> split_lines l = ([], l).
Proof.
  induction l as [|c r IH]; intros H; cbn [split_lines]; [reflexivity|].
  unfold nolf in *. cbn [forallb] in H. apply andb_prop in H as [Hc Hr]. rewrite (IH Hr).
  destruct (c =? 10); [discriminate|reflexivity].
Qed.

Lemma split_lines_app_line x : nolf x -> forall l,
  split_lines (x ++ 10 :: l) = (x :: fst (split_lines l), snd (split_lines l)).
Proof.
  induction x as [|c r IH]; intros H l; cbn [app split_lines].
  - destruct (split_lines l); reflexivity.
  - unfold nolf in *. cbn [forallb] in H. apply andb_prop in H as [Hc Hr]. rewrite (IH Hr).
    destruct (c =? 10); [discriminate|reflexivity].
Qed.

(* ... and conversely: joining LF-free lines and splitting again returns them (the reading is unique) *)
Lemma split_lines_of_join : forall ls rem, Forall nolf ls -> nolf rem ->
  split_lines (join_lines ls ++ rem) = (ls, rem).
Proof.
  induction ls as [|x xs IH]; intros rem Hf Hr.
  - cbn. now apply split_lines_nolf.
  - inversion Hf as [|? ? Hx Hxs]; subst. unfold join_lines. cbn [map concat].
    rewrite <- !app_assoc. cbn [app]. rewrite (split_lines_app_line x Hx).
    fold (join_lines xs). now rewrite (IH rem Hxs Hr).
Qed.

Theorem ref_lines_exact block ls :
  ref_lines block = Some ls <-> (block = join_lines ls /\ Forall nolf ls).
Proof.
  unfold ref_lines. rewrite ref_cut_is_split. split.
  - destruct (split_lines block) as [ls' rem] eqn:E. destruct rem; [|discriminate]. intros [= <-].
    destruct (split_lines_join _ _ _ E) as (A & B & _). rewrite app_nil_r in A. now split.
  - intros [-> Hf]. rewrite <- (app_nil_r (join_lines ls)).
    now rewrite (split_lines_of_join ls [] Hf eq_refl).
Qed.

Lemma ref_groups_nil ls : ref_groups ls = [] <-> ls = [].
Proof.
  destruct ls as [|l r]; cbn [ref_groups]; [tauto|].
  split; [|discriminate]. destruct (ref_groups r); [discriminate|]. destruct (ref_next_is_cont r); discriminate.
Qed.

Lemma ref_groups_cons l r :
  ref_groups (l :: r) = match ref_groups r with
                        | g :: gs => if ref_next_is_cont r then (l :: g) :: gs else [l] :: g :: gs
                        | [] => [[l]]
                        end.
Proof. reflexivity. Qed.

Lemma ref_groups_concat ls : concat (ref_groups ls) = ls.
Proof.
  induction ls as [|l r IH]; cbn [ref_groups]; [reflexivity|].
  destruct (ref_groups r) as [|g gs] eqn:E.
  - apply ref_groups_nil in E. now subst r.
  - destruct (ref_next_is_cont r); cbn [concat app] in *; now rewrite IH.
Qed.

(* shape of one group: a head line followed by continuation lines only *)
Definition group_shape (g : list bytes) : Prop :=
  match g with [] => False | _ :: conts => Forall (fun l => ref_is_cont l = true) conts end.
(* the line after a group's end (the next group's head) is not a continuation line *)
Fixpoint heads_ok (gs : list (list bytes)) : Prop :=
  match gs with
  | [] => True
  | g :: rest => match rest with (h :: _) :: _ => ref_is_cont h = false | _ => True end /\ heads_ok rest
  end.

Lemma ref_groups_shape ls : Forall group_shape (ref_groups ls) /\ heads_ok (ref_groups ls) /\
  match ref_groups ls, ls with (h :: _) :: _, l :: _ => h = l | [], [] => True | _, _ => False end.
Proof.
  induction ls as [|l r IH]; cbn [ref_groups].
  - split; [constructor|]. split; exact I.
  - destruct IH as (Hs & Hh & Hd). destruct (ref_groups r) as [|g gs] eqn:E.
    + split; [constructor; [cbn; constructor|constructor]|]. split; [cbn; tauto|reflexivity].
    + destruct r as [|n r']; [destruct g; contradiction|]. destruct g as [|h g']; [contradiction|]. subst h.
      cbn [ref_next_is_cont]. pose proof (Forall_inv Hs) as Hg. pose proof (Forall_inv_tail Hs) as Hgs.
      destruct (ref_is_cont n) eqn:En.
      * split; [|split; [exact Hh|reflexivity]].
        constructor; [|exact Hgs]. cbn [group_shape] in *. constructor; [exact En|exact Hg].
      * split; [constructor; [cbn; constructor|exact Hs]|]. split; [|reflexivity].
        cbn [heads_ok]. split; [exact En|exact Hh].
Qed.

Lemma cr_map_id fe : existsb is_cr fe = false -> map cr_to_sp fe = fe.
Proof.
  induction fe as [|c r IH]; cbn [existsb map]; [reflexivity|]. intros H.
  apply orb_false_elim in H as [Hc Hr]. unfold cr_to_sp at 1. now rewrite Hc, (IH Hr).
Qed.

Lemma proc_line_ref relaxed req ln cont :
  proc_line relaxed req ln cont =
  if ref_line_ok relaxed req (negb cont) ln
  then Some (ref_line_text relaxed ln, ref_ends_cr ln, ref_has_bare_cr ln) else None.
Proof.
  unfold proc_line, ref_line_ok, ref_line_text, ref_has_bare_cr. fold (ref_ends_cr ln). fold (ref_body ln).
  change (fun c : N => if is_cr c then 32 else c) with cr_to_sp.
  set (crlf := ref_ends_cr ln). set (fe := ref_body ln).
  destruct (crlf && req && negb (lenN fe =? 0) && forallb is_cr fe) eqn:E1.
  - replace (req && crlf && negb (lenN fe =? 0) && forallb is_cr fe) with true
      by (rewrite <- E1; destruct crlf, req; reflexivity). reflexivity.
  - replace (req && crlf && negb (lenN fe =? 0) && forallb is_cr fe) with false
      by (rewrite <- E1; destruct crlf, req; reflexivity). cbn [negb andb].
    destruct (existsb is_cr fe) eqn:Eb.
    + destruct relaxed; cbn [negb andb orb]; [|reflexivity].
      rewrite lenN_map. destruct (lenN fe =? 1), cont; reflexivity.
    + cbn [andb negb]. rewrite orb_true_r. cbn [andb].
      rewrite (cr_map_id fe Eb).
      destruct relaxed, (lenN fe =? 1), cont; reflexivity.
Qed.

Lemma span_ows l : span ref_ows l = span c_isspace l.
Proof. apply span_ext. intros c. unfold ref_ows, c_isspace. lia. Qed.

Lemma trim_left_by ws l : ref_trim_left ws l = ltrim_by ws l.
Proof.
  unfold ltrim_by. induction l as [|c r IH]; cbn [ref_trim_left span]; [reflexivity|].
  destruct (ws c); [|reflexivity]. rewrite IH. destruct (span ws r); reflexivity.
Qed.
Lemma trim_right_by ws l : ref_trim_right ws l = rtrim_by ws l.
Proof. unfold ref_trim_right, rtrim_by. rewrite trim_left_by. reflexivity. Qed.
Lemma ref_trim_by ws l : ref_trim ws l = rtrim_by ws (ltrim_by ws l).
Proof. unfold ref_trim. now rewrite trim_right_by, trim_left_by. Qed.

Lemma trim_right_rtrim l : ref_trim_right ref_ows l = rtrim l.
Proof. rewrite trim_right_by. unfold rtrim_by, rtrim. now rewrite span_ows. Qed.

(* the model's choice of trimmable bytes is the reference's *)
Lemma model_trim_eq nm id n0 after : canon_name nm = (id, n0) ->
  h_rtrim_by (value_ws id) (ltrim_by (value_ws id) after) = ref_trim (ref_value_ws nm) after.
Proof.
  intros Hc. rewrite h_rtrim_by_eq, ref_trim_by. unfold value_ws, ref_value_ws, ref_is_framing_name, framing_id.
  rewrite Hc. cbn [fst]. destruct ((id =? ID_CL) || (id =? ID_TE)); [reflexivity|].
  unfold rtrim_by, ltrim_by. now rewrite !span_ows.
Qed.

Lemma before_colon_span l :
  ref_before_colon l =
  match snd (span (fun c => negb (c =? 58)) l) with
  | [] => None
  | _ :: after => Some (fst (span (fun c => negb (c =? 58)) l), after)
  end.
Proof.
  induction l as [|c r IH]; cbn [ref_before_colon span]; [reflexivity|].
  destruct (c =? 58); cbn [negb fst snd]; [reflexivity|].
  rewrite IH. destruct (span (fun c0 : N => negb (c0 =? 58)) r) as [a b]. cbn [fst snd].
  destruct b; reflexivity.
Qed.

Definition tchar_check (c : N) : bool := implb (cs_TCHAR c) (negb (c_isspace c) && negb (c =? 58) && negb (c =? 0)).
Lemma tchar_facts c : cs_TCHAR c = true -> c_isspace c = false /\ (c =? 58) = false /\ (c =? 0) = false.
Proof.
  intros H. assert (G : tchar_check c = true).
  { destruct (N.ltb_spec c 256) as [Hc|Hc].
    - exact (forallb_bytes tchar_check ltac:(vm_compute; reflexivity) c Hc).
    - unfold tchar_check, cs_TCHAR, mem_tbl. rewrite tbl_get_default by (vm_compute lenN; exact Hc). reflexivity. }
  unfold tchar_check in G. rewrite H in G. cbn [implb] in G.
  destruct (c_isspace c), (c =? 58), (c =? 0); try discriminate. auto.
Qed.

Lemma last_is_snoc p l c : last_is p (l ++ [c]) = p c.
Proof. unfold last_is. now rewrite rev_unit. Qed.
Lemma last_is_nil p : last_is p [] = false.
Proof. reflexivity. Qed.

Lemma list_snoc_cases {A} (l : list A) : l = [] \/ exists a c, l = a ++ [c].
Proof.
  destruct l as [|x r]; [now left|right]. destruct (exists_last (l := x :: r) ltac:(discriminate)) as (a & c & E).
  eauto.
Qed.

Lemma last_is_forall p q l : forallb p l = true -> last_is q l = true -> exists c, p c = true /\ q c = true.
Proof.
  destruct (list_snoc_cases l) as [->|(a & c & ->)]; [discriminate|].
  rewrite last_is_snoc, forallb_app. cbn [forallb]. intros H Hq.
  apply andb_prop in H as [_ H]. apply andb_prop in H as [H _]. eauto.
Qed.

(* a token does not end in white space *)
Lemma tchar_last_nonspace name : last_is c_isspace name = true -> forallb cs_TCHAR name = false.
Proof.
  intros El. destruct (forallb cs_TCHAR name) eqn:Ht; [|reflexivity].
  destruct (last_is_forall _ _ _ Ht El) as (c & Hc & Hs). destruct (tchar_facts c Hc) as (A & _). congruence.
Qed.

Lemma rtrim_by_no_trail p l : last_is p l = false -> rtrim_by p l = l.
Proof.
  destruct (list_snoc_cases l) as [->|(a & c & ->)]; [reflexivity|].
  rewrite last_is_snoc. intros H. unfold rtrim_by. rewrite rev_unit. cbn [span]. rewrite H. cbn [snd].
  rewrite <- (rev_unit a c). apply rev_involutive.
Qed.
Lemma rtrim_no_trail l : last_is c_isspace l = false -> rtrim l = l.
Proof. apply rtrim_by_no_trail. Qed.

(* HttpHeaderEntry::parse is the reference field-line split followed by the table lookup *)
Lemma entry_parse_ref req text :
  h_entry_parse req text =
  match ref_split req text with
  | None => None
  | Some (name, value) =>
    Some {| he_id := fst (canon_name name); he_name := snd (canon_name name); he_value := c_str value |}
  end.
Proof.
  unfold h_entry_parse, ref_split. rewrite before_colon_span.
  destruct (span (fun c => negb (c =? 58)) text) as [name rest]. cbn [fst snd].
  destruct rest as [|colon after]; [reflexivity|].
  rewrite h_last_is_eq, !h_rtrim_eq, trim_right_rtrim.
  (* the model goes on with the reference's name, except that it drops a request name that ends in
     white space at once; the reference rejects that name because it is not a token *)
  remember (if req return bytes then name else rtrim name) as nm eqn:Hnm.
  replace (if last_is c_isspace name then if req then [] else rtrim name else name)
    with (if req && last_is c_isspace name then [] else nm)
    by (subst nm; destruct req, (last_is c_isspace name) eqn:El; cbn [andb]; try reflexivity;
        now rewrite rtrim_no_trail).
  destruct (lenN name =? 0) eqn:E0.
  { replace name with (@nil N) in * by (destruct name; [reflexivity|cbn [lenN] in E0; lia]).
    subst nm. destruct req; reflexivity. }
  destruct (65534 <? lenN name); [now rewrite orb_true_r|]. rewrite orb_false_r.
  destruct (req && last_is c_isspace name) eqn:Ew.
  - apply andb_prop in Ew as [-> El]. subst nm. rewrite E0, (tchar_last_nonspace _ El). reflexivity.
  - destruct nm as [|x xs]; [reflexivity|].
    replace (lenN (x :: xs) =? 0) with false by (cbn [lenN]; lia). cbn [orb].
    destruct (negb (forallb cs_TCHAR (x :: xs))); [reflexivity|].
    destruct (canon_name (x :: xs)) as [id n0] eqn:Ec. cbv zeta.
    rewrite (model_trim_eq (x :: xs) id n0 after Ec).
    destruct (65534 <? lenN (ref_trim (ref_value_ws (x :: xs)) after)); [reflexivity|].
    now rewrite Ec.
Qed.

Definition NN (l : bytes) : Prop := forallb (fun c => negb (c =? 0)) l = true.

Lemma NN_app a b : NN (a ++ b) <-> NN a /\ NN b.
Proof. unfold NN. rewrite forallb_app. split; [apply andb_prop|intros [-> ->]; reflexivity]. Qed.
Lemma NN_rev l : NN l -> NN (rev l).
Proof.
  unfold NN. rewrite !forallb_forall. intros H x Hx. apply H. now apply in_rev.
Qed.
Lemma NN_tl l : NN l -> NN (tl l).
Proof. destruct l; [auto|]. unfold NN. cbn [forallb tl]. intros H. now apply andb_prop in H as [_ H]. Qed.
Lemma NN_span_snd p l : NN l -> NN (snd (span p l)).
Proof. intros H. rewrite <- (span_app p l) in H. now apply NN_app in H as [_ H]. Qed.
Lemma NN_span_fst p l : NN l -> NN (fst (span p l)).
Proof. intros H. rewrite <- (span_app p l) in H. now apply NN_app in H as [H _]. Qed.
Lemma NN_trim ws l : NN l -> NN (ref_trim ws l).
Proof. intros H. rewrite ref_trim_by. unfold rtrim_by, ltrim_by. now apply NN_rev, NN_span_snd, NN_rev, NN_span_snd. Qed.
Lemma NN_ltrim l : NN l -> NN (ltrim l).
Proof. apply NN_span_snd. Qed.
Lemma NN_rtrim l : NN l -> NN (rtrim l).
Proof. intros H. unfold rtrim. now apply NN_rev, NN_span_snd, NN_rev. Qed.
Lemma NN_body l : NN l -> NN (ref_body l).
Proof. intros H. unfold ref_body, strip_last. destruct (ref_ends_cr l); [|exact H]. now apply NN_rev, NN_tl, NN_rev. Qed.
Lemma NN_map_cr l : NN l -> NN (map cr_to_sp l).
Proof.
  unfold NN. induction l as [|c r IH]; cbn [map forallb]; [auto|]. intros H.
  apply andb_prop in H as [Hc Hr]. rewrite (IH Hr). unfold cr_to_sp, is_cr. destruct (c =? 13); [reflexivity|now rewrite Hc].
Qed.
Lemma NN_text relaxed l : NN l -> NN (ref_line_text relaxed l).
Proof. intros H. unfold ref_line_text. destruct relaxed; [apply NN_map_cr|]; now apply NN_body. Qed.
Lemma NN_eol l : NN (ref_eol l).
Proof. unfold ref_eol. destruct (ref_ends_cr l); reflexivity. Qed.
Lemma NN_group_text relaxed g : Forall NN g -> NN (ref_group_text relaxed g).
Proof.
  induction g as [|l r IH]; intros H; [reflexivity|]. inversion H as [|? ? Hl Hr]; subst.
  cbn [ref_group_text]. destruct r as [|l2 r2]; [now apply NN_text|].
  apply NN_app; split; [now apply NN_text|]. apply NN_app; split; [apply NN_eol|now apply IH].
Qed.
Lemma before_colon_parts l n v : ref_before_colon l = Some (n, v) -> l = n ++ 58 :: v.
Proof.
  revert n v; induction l as [|c r IH]; intros n v; cbn [ref_before_colon]; [discriminate|].
  destruct (c =? 58) eqn:E.
  - intros [= <- <-]. apply N.eqb_eq in E. now subst c.
  - destruct (ref_before_colon r) as [[n' v']|]; [|discriminate]. intros [= <- <-].
    cbn [app]. now rewrite (IH _ _ eq_refl).
Qed.

Lemma ref_split_NN req text name value : NN text -> ref_split req text = Some (name, value) -> NN value.
Proof.
  unfold ref_split. intros H. destruct (ref_before_colon text) as [[rn rv]|] eqn:E; [|discriminate].
  apply before_colon_parts in E. subst text. apply NN_app in H as [_ H].
  assert (Hv : NN rv) by (unfold NN in *; cbn [forallb] in H; now apply andb_prop in H as [_ H]).
  destruct (_ || _); [discriminate|]. destruct (65534 <? _); [discriminate|]. intros [= <- <-].
  now apply NN_trim.
Qed.

(* accumulated state of the lines already read into the current field *)
Definition acc_of (relaxed : bool) (pre : list bytes) : bytes :=
  concat (map (fun l => ref_line_text relaxed l ++ ref_eol l) pre).
Definition bare_of (pre : list bytes) : bool := existsb ref_has_bare_cr pre.
Definition isnil {A} (l : list A) : bool := match l with [] => true | _ => false end.
Definition pend (pre : list bytes) (gs : list (list bytes)) : list (list bytes) :=
  match gs with
  | [] => match pre with [] => [] | _ => [pre] end
  | g :: r => (pre ++ g) :: r
  end.

Lemma lines_ok_app relaxed req : forall a first b,
  ref_lines_ok relaxed req first (a ++ b) =
  ref_lines_ok relaxed req first a && ref_lines_ok relaxed req (first && isnil a) b.
Proof.
  induction a as [|x a IH]; intros first b; cbn [app ref_lines_ok isnil].
  - now rewrite andb_true_r.
  - rewrite IH. rewrite andb_false_r. cbn [andb]. now rewrite andb_assoc.
Qed.

Lemma group_text_snoc relaxed : forall pre ln,
  ref_group_text relaxed (pre ++ [ln]) = acc_of relaxed pre ++ ref_line_text relaxed ln.
Proof.
  induction pre as [|x pre IH]; intros ln; [reflexivity|].
  cbn [app]. unfold acc_of. cbn [map concat]. fold (acc_of relaxed pre).
  change (ref_group_text relaxed (x :: pre ++ [ln])) with
    (match pre ++ [ln] with [] => ref_line_text relaxed x
     | _ :: _ => ref_line_text relaxed x ++ ref_eol x ++ ref_group_text relaxed (pre ++ [ln]) end).
  destruct (pre ++ [ln]) eqn:E; [destruct pre; discriminate|]. rewrite <- E, IH. now rewrite <- !app_assoc.
Qed.

Lemma acc_of_snoc relaxed pre ln :
  acc_of relaxed (pre ++ [ln]) = acc_of relaxed pre ++ ref_line_text relaxed ln ++ ref_eol ln.
Proof. unfold acc_of. rewrite map_app, concat_app. cbn [map concat]. now rewrite app_nil_r. Qed.

Lemma lenN_pos_isnil {A} (l : list A) : (0 <? lenN l) = negb (isnil l).
Proof. destruct l; cbn [lenN isnil negb]; lia. Qed.

Lemma loop_rem relaxed req : forall lines rem acc nl bare, rem <> [] ->
  h_fields_loop relaxed req lines rem acc nl bare = None.
Proof.
  induction lines as [|ln rest IH]; intros rem acc nl bare Hr; cbn [h_fields_loop].
  - destruct rem; [contradiction|reflexivity].
  - destruct (h_proc_line relaxed req ln (0 <? nl)) as [[[fe cr] b1]|]; [|reflexivity].
    match goal with |- (if ?c then _ else _) = _ => destruct c end.
    + destruct rest; [reflexivity|]. now apply IH.
    + destruct (acc ++ fe) as [|b l].
      * destruct rest; [destruct rem; [contradiction|reflexivity]|reflexivity].
      * destruct (h_entry_parse req (b :: l)); [|reflexivity].
        match goal with |- (if ?c then _ else _) = _ => destruct c end; [reflexivity|].
        now rewrite IH.
Qed.

Lemma next_cont_eq (rest : list bytes) :
  match (match rest with [] => [] | x :: _ => x ++ [10] end) with
  | c :: _ => (c =? 32) || (c =? 9) | [] => false end = ref_next_is_cont rest.
Proof. destruct rest as [|x r]; [reflexivity|]. destruct x; reflexivity. Qed.

Lemma ref_field_snoc relaxed req pre ln :
  Forall NN (pre ++ [ln]) ->
  ref_field relaxed req (pre ++ [ln]) =
  match h_entry_parse req (acc_of relaxed pre ++ ref_line_text relaxed ln) with
  | None => None
  | Some e => if ((0 <? lenN pre) || bare_of pre || ref_has_bare_cr ln) && h_is_framing e then None else Some e
  end.
Proof.
  intros Hnn. unfold ref_field. rewrite group_text_snoc, entry_parse_ref.
  assert (Ht : NN (acc_of relaxed pre ++ ref_line_text relaxed ln)).
  { rewrite <- group_text_snoc. now apply NN_group_text. }
  destruct (ref_split req (acc_of relaxed pre ++ ref_line_text relaxed ln)) as [[name value]|] eqn:E; [|reflexivity].
  rewrite (c_str_nonul value (ref_split_NN _ _ _ _ Ht E)).
  destruct (canon_name name) as [id nm]. cbn [fst snd].
  rewrite lenN_snoc. unfold bare_of. rewrite existsb_app. cbn [existsb]. rewrite orb_false_r.
  replace (1 <? lenN pre + 1) with (0 <? lenN pre) by lia. rewrite orb_assoc. reflexivity.
Qed.

Theorem loop_is_pipeline relaxed req : forall lines pre,
  Forall NN lines -> Forall NN pre ->
  ref_lines_ok relaxed req true pre = true ->
  (pre = [] \/ ref_next_is_cont lines = true) ->
  h_fields_loop relaxed req lines [] (acc_of relaxed pre) (lenN pre) (bare_of pre) =
  ref_process relaxed req (pend pre (ref_groups lines)).
Proof.
  induction lines as [|ln rest IH]; intros pre Hnl Hnp Hok Hpre.
  - destruct Hpre as [->|Hc]; [reflexivity|discriminate].
  - inversion Hnl as [|? ? Hln Hrest]; subst.
    cbn [h_fields_loop]. rewrite h_proc_line_eq, proc_line_ref, next_cont_eq, lenN_pos_isnil, negb_involutive.
    assert (Hnp' : Forall NN (pre ++ [ln])) by (apply Forall_app; split; [exact Hnp|now constructor]).
    assert (Hok' : ref_lines_ok relaxed req true (pre ++ [ln]) = ref_line_ok relaxed req (isnil pre) ln).
    { rewrite lines_ok_app, Hok. cbn [andb ref_lines_ok]. now rewrite andb_true_r. }
    rewrite ref_groups_cons.
    destruct (ref_next_is_cont rest) eqn:Ec.
    + (* the next line continues this field *)
      destruct rest as [|n rest']; [discriminate|].
      destruct (ref_groups (n :: rest')) as [|g gs] eqn:Eg; [apply ref_groups_nil in Eg; discriminate|].
      cbn [pend].
      destruct (ref_line_ok relaxed req (isnil pre) ln) eqn:El.
      * rewrite <- acc_of_snoc. replace (N.succ (lenN pre)) with (lenN (pre ++ [ln])) by (rewrite lenN_snoc; lia).
        replace (bare_of pre || ref_has_bare_cr ln) with (bare_of (pre ++ [ln]))
          by (unfold bare_of; rewrite existsb_app; cbn [existsb]; now rewrite orb_false_r).
        rewrite (IH (pre ++ [ln]) Hrest Hnp'); [|now rewrite Hok'|now right].
        cbn [pend]. now rewrite <- app_assoc.
      * cbn [ref_process].
        replace (pre ++ ln :: g) with ((pre ++ [ln]) ++ g) by now rewrite <- app_assoc.
        rewrite lines_ok_app, Hok'. reflexivity.
    + (* this line ends the field *)
      assert (Hgs : pend pre (match ref_groups rest with
                              | [] => [[ln]]
                              | g :: gs => [ln] :: g :: gs end) = (pre ++ [ln]) :: ref_groups rest).
      { destruct (ref_groups rest); reflexivity. }
      rewrite Hgs. cbn [ref_process]. rewrite Hok'.
      destruct (ref_line_ok relaxed req (isnil pre) ln) eqn:El; [|reflexivity]. cbn [negb].
      rewrite group_text_snoc.
      assert (Hrec : h_fields_loop relaxed req rest [] [] 0 false = ref_process relaxed req (ref_groups rest)).
      { change [] with (acc_of relaxed []) at 2. change 0 with (lenN (@nil bytes)). change false with (bare_of []).
        rewrite (IH [] Hrest ltac:(constructor) eq_refl ltac:(now left)).
        destruct (ref_groups rest); reflexivity. }
      destruct (acc_of relaxed pre ++ ref_line_text relaxed ln) as [|b l] eqn:Et.
      * destruct rest as [|n rest']; [reflexivity|].
        destruct (ref_groups (n :: rest')) eqn:Eg; [apply ref_groups_nil in Eg; discriminate|reflexivity].
      * rewrite <- Et. rewrite (ref_field_snoc relaxed req pre ln Hnp').
        destruct (h_entry_parse req (acc_of relaxed pre ++ ref_line_text relaxed ln)) as [e|]; [|reflexivity].
        rewrite lenN_pos_isnil.
        replace (0 <? lenN pre) with (negb (isnil pre)) by now rewrite lenN_pos_isnil.
        match goal with |- (if ?c then _ else _) = _ => destruct c end; [reflexivity|].
        now rewrite Hrec.
Qed.

Lemma NN_join ls : NN (join_lines ls) <-> Forall NN ls.
Proof.
  induction ls as [|x xs IH]; [split; constructor|]. unfold join_lines. cbn [map concat]. fold (join_lines xs).
  rewrite !NN_app, Forall_cons_iff, IH. split; [intros [[Hx _] Hxs]|intros [Hx Hxs]]; repeat split; assumption.
Qed.

Lemma NN_lines block ls rem : NN block -> split_lines block = (ls, rem) -> Forall NN ls.
Proof.
  intros H E. destruct (split_lines_join _ _ _ E) as (-> & _). apply NN_app in H as [H _]. now apply NN_join.
Qed.

Lemma NN_iff_nonul l : NN l <-> existsb (N.eqb 0) l = false.
Proof.
  unfold NN. induction l as [|c r IH]; cbn [forallb existsb]; [tauto|]. rewrite (N.eqb_sym 0 c).
  destruct (c =? 0); cbn [negb andb orb]; [split; discriminate|exact IH].
Qed.

(* the field loop of HttpHeader::parse computes exactly the reference reading, accept and reject alike *)
Theorem block_fields_is_reference relaxed req block :
  h_block_fields relaxed req block = ref_fields relaxed req block.
Proof.
  unfold h_block_fields, ref_fields, ref_lines, has_nul. rewrite ref_cut_is_split.
  destruct (existsb (N.eqb 0) block) eqn:En; [reflexivity|].
  pose proof (proj2 (NN_iff_nonul _) En) as Hnn.
  destruct (split_lines block) as [ls rem] eqn:Es.
  destruct rem as [|r0 rem].
  - change [] with (acc_of relaxed []) at 2. change 0 with (lenN (@nil bytes)). change false with (bare_of []).
    rewrite (loop_is_pipeline relaxed req ls [] (NN_lines _ _ _ Hnn Es) ltac:(constructor) eq_refl ltac:(now left)).
    destruct (ref_groups ls); reflexivity.
  - now apply loop_rem.
Qed.

Lemma ltrim_by_exact p l : exists a, l = a ++ ltrim_by p l /\ forallb p a = true /\
  match ltrim_by p l with c :: _ => p c = false | [] => True end.
Proof.
  exists (fst (span p l)). unfold ltrim_by. split; [symmetry; apply span_app|].
  split; [apply span_all|apply span_stop].
Qed.

Lemma rtrim_by_exact p l : exists b, l = rtrim_by p l ++ b /\ forallb p b = true /\
  last_is p (rtrim_by p l) = false.
Proof.
  destruct (ltrim_by_exact p (rev l)) as (a & Ha & Hs & Hf). exists (rev a). unfold rtrim_by. fold (ltrim_by p (rev l)).
  split; [|split].
  - rewrite <- rev_app_distr, <- Ha. symmetry; apply rev_involutive.
  - rewrite forallb_forall in *. intros x Hx. apply Hs. now apply in_rev.
  - unfold last_is. rewrite rev_involutive. destruct (ltrim_by p (rev l)); [reflexivity|exact Hf].
Qed.

(* the stored value is the maximal infix without trimmable bytes at its ends *)
Theorem ref_trim_exact ws l : exists a b, l = a ++ ref_trim ws l ++ b /\
  forallb ws a = true /\ forallb ws b = true /\
  match ref_trim ws l with c :: _ => ws c = false | [] => True end /\
  last_is ws (ref_trim ws l) = false.
Proof.
  rewrite ref_trim_by.
  destruct (ltrim_by_exact ws l) as (a & Ha & Hsa & Hfa).
  destruct (rtrim_by_exact ws (ltrim_by ws l)) as (b & Hb & Hsb & Hlb).
  exists a, b. split; [now rewrite <- Hb|]. split; [exact Hsa|]. split; [exact Hsb|]. split; [|exact Hlb].
  destruct (rtrim_by ws (ltrim_by ws l)) as [|c r] eqn:E; [exact I|]. rewrite Hb in Hfa. cbn [app] in Hfa. exact Hfa.
Qed.

Lemma tbl_find_spec tbl name :
  match tbl_find tbl name with
  | Some (id, nm) => ci_eqb name nm = true /\ exists fl, In (id, nm, fl) tbl
  | None => forall id nm fl, In (id, nm, fl) tbl -> ci_eqb name nm = false
  end.
Proof.
  induction tbl as [|[[id nm] fl] r IH]; cbn [tbl_find].
  - intros ? ? ? [].
  - destruct (ci_eqb name nm) eqn:E.
    + split; [exact E|]. exists fl. now left.
    + destruct (tbl_find r name) as [[id' nm']|].
      * destruct IH as (A & fl' & B). split; [exact A|]. exists fl'. now right.
      * intros i n f [[= <- <- <-]|H]; [exact E|]. exact (IH _ _ _ H).
Qed.

Lemma ci_eqb_refl a : ci_eqb a a = true.
Proof. unfold ci_eqb. induction (map lower a) as [|x l IH]; cbn [list_eqb]; [reflexivity|]. now rewrite N.eqb_refl. Qed.

(* stored id and spelling: the registered record with the same name up to ASCII case, else (OTHER, as written) *)
Theorem canon_name_exact name :
  ci_eqb name (snd (canon_name name)) = true /\
  ((exists fl, In (fst (canon_name name), snd (canon_name name), fl) hdr_table) \/
   (canon_name name = (hdr_OTHER, name) /\ forall id nm fl, In (id, nm, fl) hdr_table -> ci_eqb name nm = false)).
Proof.
  unfold canon_name. pose proof (tbl_find_spec hdr_table name) as H.
  destruct (tbl_find hdr_table name) as [[id nm]|]; cbn [fst snd].
  - destruct H as (A & B). split; [exact A|now left].
  - split; [apply ci_eqb_refl|right]. split; [reflexivity|exact H].
Qed.

Definition not_cl (e : hentry) : bool := negb (he_id e =? ID_CL).
Definition not_fr (e : hentry) : bool := negb (h_is_framing e).

Lemma not_fr_not_cl e : not_fr e = true -> not_cl e = true.
Proof. unfold not_fr, not_cl, h_is_framing. destruct (he_id e =? ID_CL); [discriminate|reflexivity]. Qed.

Definition h_is_cl (e : hentry) : bool := he_id e =? ID_CL.

Lemma h_loop_kept relaxed es st k s :
  h_entries_loop relaxed es st = Some (k, s) <-> kept_of h_is_cl he_value relaxed es st k s.
Proof.
  split.
  - revert st k s. induction es as [|e es IH]; intros st k s; cbn [h_entries_loop]; [intros [= <- <-]; constructor|].
    destruct (he_id e =? ID_CL) eqn:Hc.
    + destruct (check_field relaxed st (he_value e)) as [keep st1] eqn:Ec. destruct keep.
      * destruct (h_entries_loop relaxed es st1) as [[k' s']|] eqn:K; [|discriminate].
        intros [= <- <-]. exact (kept_field h_is_cl _ _ _ _ _ true _ _ _ Hc Ec eq_refl (IH _ _ _ K)).
      * destruct relaxed; [|discriminate]. intros K.
        exact (kept_field h_is_cl _ _ _ _ _ false _ _ _ Hc Ec eq_refl (IH _ _ _ K)).
    + destruct (h_entries_loop relaxed es st) as [[k' s']|] eqn:K; [|discriminate].
      intros [= <- <-]. exact (kept_other h_is_cl _ _ _ _ _ _ _ Hc (IH _ _ _ K)).
  - induction 1 as [st|e es st k s Hc _ IH|e es st keep st1 k s Hc Ec Hk _ IH]; cbn [h_entries_loop];
      [reflexivity| |]; unfold h_is_cl in Hc; rewrite Hc, ?Ec, IH; [reflexivity|].
    destruct keep; [reflexivity|]. cbn [orb] in Hk. now rewrite Hk.
Qed.

Lemma loop_nocl relaxed es st : forallb not_cl es = true -> h_entries_loop relaxed es st = Some (es, st).
Proof.
  intros H. apply h_loop_kept. rewrite <- (app_nil_r es).
  exact (kept_app_others _ _ _ es [] st [] st H (kept_nil _ _ _ st)).
Qed.

Lemma del_cl_is_filter l : h_del_id ID_CL l = filter not_cl l.
Proof. reflexivity. Qed.

Lemma cl_entry_is_cl v : not_cl (h_cl_entry v) = false.
Proof. unfold not_cl, h_cl_entry. cbn [he_id]. now rewrite N.eqb_refl. Qed.

Lemma post_process_keeps proh kept st :
  filter not_fr (hr_entries (h_post_process proh kept st)) = filter not_fr kept /\
  (proh = false -> filter not_cl (hr_entries (h_post_process proh kept st)) = filter not_cl kept) /\
  (proh = false -> forallb not_cl kept = true -> st = cl_init -> hr_entries (h_post_process proh kept st) = kept).
Proof.
  unfold h_post_process. destruct proh.
  - cbn [hr_entries]. split; [|split; discriminate].
    unfold h_del_id. rewrite !filter_filter_imp; [reflexivity| |].
    + intros x. apply not_fr_not_cl.
    + intros x. unfold not_fr, h_is_framing. destruct (he_id x =? ID_TE); [rewrite orb_true_r; discriminate|reflexivity].
  - destruct (h_has_id ID_TE kept); [|destruct (cl_sawBad st) eqn:Eb; [|destruct (cl_needsSan st) eqn:Es]];
      cbn [hr_entries]; rewrite ?del_cl_is_filter.
    1, 2: split; [apply filter_filter_imp, not_fr_not_cl|]; split; intros _;
          [apply filter_filter_imp; auto|intros H _; now apply filter_all, forallb_forall].
    + assert (Hx : forall f : hentry -> bool, (forall v, f (h_cl_entry v) = false) ->
                filter f (filter not_cl kept ++ (if cl_sawGood st then [h_cl_entry (cl_value st)] else [])) =
                filter f (filter not_cl kept)).
      { intros f Hf. rewrite filter_app. destruct (cl_sawGood st); cbn [filter]; [rewrite Hf|]; apply app_nil_r. }
      split; [|split; intros _].
      * rewrite Hx; [apply filter_filter_imp, not_fr_not_cl|].
        intros v. unfold not_fr. destruct (not_cl (h_cl_entry v)) eqn:E; [now rewrite cl_entry_is_cl in E|].
        unfold not_cl in E. unfold h_is_framing. destruct (he_id (h_cl_entry v) =? ID_CL); [reflexivity|discriminate].
      * rewrite Hx; [apply filter_filter_imp; auto|apply cl_entry_is_cl].
      * intros _ ->. discriminate.
    + split; [reflexivity|]. split; reflexivity.
Qed.

(* the stored entries of an accepted block are the reference fields, except for what HttpHeader::parse
   does to Content-Length (drop / sanitise: property C26) and, for 1xx/204/trailers, Transfer-Encoding *)
Theorem stored_fields relaxed req proh block r :
  h_parse relaxed req proh block = Some r ->
  exists fs, ref_fields relaxed req block = Some fs /\
    filter not_fr (hr_entries r) = filter not_fr fs /\
    (proh = false -> filter not_cl (hr_entries r) = filter not_cl fs) /\
    (proh = false -> forallb not_cl fs = true -> hr_entries r = fs).
Proof.
  unfold h_parse. rewrite block_fields_is_reference.
  destruct (ref_fields relaxed req block) as [fs|]; [|discriminate].
  destruct (h_entries_loop relaxed fs cl_init) as [[kept st]|] eqn:E; [|discriminate].
  intros [= <-]. exists fs. split; [reflexivity|].
  pose proof (kept_others _ _ _ _ _ _ _ (proj1 (h_loop_kept _ _ _ _ _) E) : filter not_cl kept = filter not_cl fs) as A.
  destruct (post_process_keeps proh kept st) as (P1 & P2 & P3).
  split; [|split].
  - rewrite P1. rewrite <- (filter_filter_imp not_fr not_cl kept not_fr_not_cl), A.
    apply filter_filter_imp, not_fr_not_cl.
  - intros Hp. now rewrite (P2 Hp).
  - intros Hp Hf. rewrite (loop_nocl _ _ _ Hf) in E. injection E as <- <-. now apply P3.
Qed.

Lemma process_groups_ok relaxed req : forall gs es, ref_process relaxed req gs = Some es ->
  forall g, In g gs -> ref_lines_ok relaxed req true g = true /\
    (ref_group_text relaxed g = [] \/ exists e, ref_field relaxed req g = Some e).
Proof.
  induction gs as [|g0 rest IH]; intros es H g Hin; [destruct Hin|].
  cbn [ref_process] in H. destruct (ref_lines_ok relaxed req true g0) eqn:Eo; [|discriminate]. cbn [negb] in H.
  destruct (ref_group_text relaxed g0) as [|b l] eqn:Et.
  - destruct rest; [|discriminate]. destruct Hin as [<-|[]]. split; [exact Eo|now left].
  - destruct (ref_field relaxed req g0) as [e|] eqn:Ef; [|discriminate].
    destruct (ref_process relaxed req rest) as [es'|] eqn:Er; [|discriminate].
    destruct Hin as [<-|Hin].
    + split; [exact Eo|]. right. eauto.
    + exact (IH _ eq_refl g Hin).
Qed.

Lemma accepted_groups relaxed req proh block r :
  h_parse relaxed req proh block = Some r ->
  exists ls, ref_lines block = Some ls /\
    forall g, In g (ref_groups ls) -> ref_lines_ok relaxed req true g = true /\
      (ref_group_text relaxed g = [] \/ exists e, ref_field relaxed req g = Some e).
Proof.
  unfold h_parse. rewrite block_fields_is_reference. unfold ref_fields.
  destruct (existsb (N.eqb 0) block); [discriminate|].
  destruct (ref_lines block) as [ls|]; [|discriminate].
  destruct (ref_process relaxed req (ref_groups ls)) as [es|] eqn:E; [|discriminate].
  intros _. exists ls. split; [reflexivity|]. exact (process_groups_ok _ _ _ _ E).
Qed.

Lemma lines_ok_in relaxed req : forall g first ln, ref_lines_ok relaxed req first g = true -> In ln g ->
  exists f, ref_line_ok relaxed req f ln = true.
Proof.
  induction g as [|x g IH]; intros first ln H Hin; [destruct Hin|].
  cbn [ref_lines_ok] in H. apply andb_prop in H as [Hx Hg]. destruct Hin as [<-|Hin]; [eauto|eauto].
Qed.

Lemma in_concat_groups ls ln : In ln ls -> exists g, In g (ref_groups ls) /\ In ln g.
Proof. intros H. rewrite <- (ref_groups_concat ls) in H. apply in_concat in H as (g & A & B). eauto. Qed.

Lemma strip_last_snoc a (c : N) : strip_last (a ++ [c]) = a.
Proof. unfold strip_last. rewrite rev_unit. cbn [tl]. apply rev_involutive. Qed.

(* a request line made of CRs only (CR CR+ LF) is never accepted *)
Theorem rejects_cr_only_line relaxed proh block ls ln :
  ref_lines block = Some ls -> In ln ls -> forallb is_cr ln = true -> 2 <= lenN ln ->
  h_parse relaxed true proh block = None.
Proof.
  intros Hl Hin Hcr Hlen. destruct (h_parse relaxed true proh block) as [r|] eqn:E; [|reflexivity]. exfalso.
  destruct (accepted_groups _ _ _ _ _ E) as (ls' & Hl' & Hg). rewrite Hl in Hl'. injection Hl' as <-.
  destruct (in_concat_groups ls ln Hin) as (g & Hgin & Hlg).
  destruct (Hg g Hgin) as [Hok _]. destruct (lines_ok_in _ _ _ _ _ Hok Hlg) as (f & Hf).
  destruct (list_snoc_cases ln) as [->|(a & c & ->)]; [cbn [lenN] in Hlen; lia|].
  rewrite forallb_app in Hcr. apply andb_prop in Hcr as [Ha Hc]. cbn [forallb] in Hc. rewrite andb_true_r in Hc.
  unfold ref_line_ok, ref_body, ref_ends_cr in Hf. rewrite last_is_snoc, Hc, strip_last_snoc, Ha in Hf.
  rewrite lenN_snoc in Hlen. replace (lenN a =? 0) with false in Hf by lia. discriminate.
Qed.

(* white space between field name and colon: the field-line (lines of the group joined) is not accepted in a request *)
Lemma req_split_ws text rn rv : ref_before_colon text = Some (rn, rv) -> last_is c_isspace rn = true ->
  ref_split true text = None.
Proof.
  intros Hb Hl. unfold ref_split. now rewrite Hb, (tchar_last_nonspace _ Hl), !orb_true_r.
Qed.

Theorem rejects_ws_before_colon relaxed proh block ls g rn rv :
  ref_lines block = Some ls -> In g (ref_groups ls) ->
  ref_before_colon (ref_group_text relaxed g) = Some (rn, rv) -> last_is c_isspace rn = true ->
  h_parse relaxed true proh block = None.
Proof.
  intros Hl Hin Hb Hws. destruct (h_parse relaxed true proh block) as [r|] eqn:E; [|reflexivity]. exfalso.
  destruct (accepted_groups _ _ _ _ _ E) as (ls' & Hl' & Hg). rewrite Hl in Hl'. injection Hl' as <-.
  destruct (Hg g Hin) as [_ [Ht|(e & He)]].
  - rewrite Ht in Hb. discriminate.
  - unfold ref_field in He. rewrite (req_split_ws _ _ _ Hb Hws) in He. discriminate.
Qed.

(* the same at the level of HttpHeaderEntry::parse *)
Theorem entry_rejects_ws_before_colon name w rest :
  forallb (fun c => negb (c =? 58)) name = true -> c_isspace w = true ->
  h_entry_parse true (name ++ w :: 58 :: rest) = None.
Proof.
  intros Hn Hw. rewrite entry_parse_ref.
  assert (Hb : ref_before_colon (name ++ w :: 58 :: rest) = Some (name ++ [w], rest)).
  { induction name as [|c r IH]; cbn [app ref_before_colon].
    - destruct (w =? 58) eqn:E; [apply N.eqb_eq in E; subst w; discriminate|]. now rewrite N.eqb_refl.
    - cbn [forallb] in Hn. apply andb_prop in Hn as [Hc Hr]. destruct (c =? 58); [discriminate|].
      now rewrite (IH Hr). }
  rewrite (req_split_ws _ _ _ Hb); [reflexivity|]. now rewrite last_is_snoc.
Qed.

(* obs-fold or bare CR in Content-Length / Transfer-Encoding *)
Theorem rejects_suspicious_framing relaxed req proh block r :
  h_parse relaxed req proh block = Some r ->
  exists ls, ref_lines block = Some ls /\
    forall g name value, In g (ref_groups ls) ->
      (1 <? lenN g) || existsb ref_has_bare_cr g = true ->
      ref_split req (ref_group_text relaxed g) = Some (name, value) ->
      fst (canon_name name) <> ID_CL /\ fst (canon_name name) <> ID_TE.
Proof.
  intros E. destruct (accepted_groups _ _ _ _ _ E) as (ls & Hl & Hg). exists ls. split; [exact Hl|].
  intros g name value Hin Hs Hsp. destruct (Hg g Hin) as [_ [Ht|(e & He)]].
  - rewrite Ht in Hsp. discriminate.
  - unfold ref_field in He. rewrite Hsp, Hs in He. destruct (canon_name name) as [id nm]. cbn [fst].
    unfold h_is_framing in He. cbn [he_id andb] in He.
    destruct (id =? ID_CL) eqn:E1, (id =? ID_TE) eqn:E2; cbn [orb] in He; try discriminate. split; lia.
Qed.

Theorem rejects_nul relaxed req proh block : In 0 block -> h_parse relaxed req proh block = None.
Proof.
  intros H. unfold h_parse, h_block_fields.
  assert (E : has_nul block = true).
  { unfold has_nul. apply existsb_exists. exists 0. split; [exact H|reflexivity]. }
  now rewrite E.
Qed.

Theorem groups_exact ls :
  concat (ref_groups ls) = ls /\ Forall group_shape (ref_groups ls) /\ heads_ok (ref_groups ls).
Proof. split; [apply ref_groups_concat|]. split; apply (ref_groups_shape ls). Qed.

(* what the regenerated table must satisfy for stored names to be re-readable: token names, short,
   and no two records with the same name up to case (each name finds its own record) *)
Definition tbl_entry_ok (r : N * list N * (bool * bool * bool * bool * bool)) : bool :=
  let '(id, nm, _) := r in
  forallb cs_TCHAR nm && negb (isnil nm) && (lenN nm <=? 65534) &&
  match tbl_find hdr_table nm with Some (i, n) => (i =? id) && list_eqb n nm | None => false end.
Lemma table_ok : forallb tbl_entry_ok hdr_table = true.
Proof. vm_compute. reflexivity. Qed.

(* an entry as HttpHeader stores it *)
Definition stor (e : hentry) : Prop :=
  he_name e <> [] /\ forallb cs_TCHAR (he_name e) = true /\ lenN (he_name e) <= 65534 /\
  canon_name (he_name e) = (he_id e, he_name e) /\ NN (he_value e) /\ lenN (he_value e) <= 65534 /\
  ltrim_by (value_ws (he_id e)) (he_value e) = he_value e /\ rtrim_by (value_ws (he_id e)) (he_value e) = he_value e.
(* its value has no line structure left (always the case for messages that went through the unfolding pass) *)
Definition single_line (v : bytes) : Prop := forallb (fun c => negb (c =? 13) && negb (c =? 10)) v = true.

Lemma canon_stor name id nm : canon_name name = (id, nm) ->
  name <> [] -> forallb cs_TCHAR name = true -> lenN name <= 65534 ->
  nm <> [] /\ forallb cs_TCHAR nm = true /\ lenN nm <= 65534 /\ canon_name nm = (id, nm).
Proof.
  intros Hc Hne Ht Hl. unfold canon_name in Hc. pose proof (tbl_find_spec hdr_table name) as H.
  destruct (tbl_find hdr_table name) as [[id' nm']|] eqn:E.
  - injection Hc as <- <-. destruct H as (_ & fl & Hin). pose proof table_ok as T. rewrite forallb_forall in T.
    specialize (T _ Hin). cbn [tbl_entry_ok] in T. apply andb_prop in T as [T T4]. apply andb_prop in T as [T T3].
    apply andb_prop in T as [T1 T2]. unfold canon_name.
    destruct (tbl_find hdr_table nm') as [[i n]|]; [|discriminate]. apply andb_prop in T4 as [Ta Tb].
    apply list_eqb_eq in Tb. apply N.eqb_eq in Ta. subst.
    split; [destruct nm'; discriminate|]. split; [exact T1|]. split; [lia|reflexivity].
  - injection Hc as <- <-. split; [exact Hne|]. split; [exact Ht|]. split; [exact Hl|].
    unfold canon_name. now rewrite E.
Qed.

Lemma lenN_rtrim_by p l : lenN (rtrim_by p l) <= lenN l.
Proof. destruct (rtrim_by_exact p l) as (b & Hb & _). rewrite Hb at 2. rewrite lenN_app. lia. Qed.

Lemma rtrim_by_idem p l : rtrim_by p (rtrim_by p l) = rtrim_by p l.
Proof. destruct (rtrim_by_exact p l) as (_ & _ & _ & H). now apply rtrim_by_no_trail. Qed.

Lemma ltrim_by_non p c r : p c = false -> ltrim_by p (c :: r) = c :: r.
Proof. intros H. unfold ltrim_by. cbn [span]. now rewrite H. Qed.

Lemma ltrim_rtrim_ltrim_by p x : ltrim_by p (rtrim_by p (ltrim_by p x)) = rtrim_by p (ltrim_by p x).
Proof.
  destruct (ltrim_by_exact p x) as (a & _ & _ & Hf). destruct (rtrim_by_exact p (ltrim_by p x)) as (b & Hb & _).
  destruct (rtrim_by p (ltrim_by p x)) as [|c r]; [reflexivity|]. rewrite Hb in Hf. cbn [app] in Hf. now apply ltrim_by_non.
Qed.

Lemma ref_split_stor req text name value : NN text -> ref_split req text = Some (name, value) ->
  stor {| he_id := fst (canon_name name); he_name := snd (canon_name name); he_value := value |}.
Proof.
  intros Hnn H. pose proof (ref_split_NN _ _ _ _ Hnn H) as Hv. unfold ref_split in H.
  destruct (ref_before_colon text) as [[rn rv]|]; [|discriminate].
  set (nm0 := if req then rn else ref_trim_right ref_ows rn) in *.
  destruct (lenN nm0 =? 0) eqn:E0; [discriminate|]. destruct (65534 <? lenN rn) eqn:E1; [discriminate|].
  destruct (forallb cs_TCHAR nm0) eqn:Et; [|discriminate]. cbn [orb negb] in H.
  destruct (65534 <? lenN (ref_trim (ref_value_ws nm0) rv)) eqn:E2; [discriminate|]. injection H as <- <-.
  assert (Hl : lenN nm0 <= 65534).
  { subst nm0. destruct req; [lia|]. rewrite trim_right_by. pose proof (lenN_rtrim_by ref_ows rn). lia. }
  assert (Hne : nm0 <> []) by (intros ->; cbn [lenN] in E0; lia).
  destruct (canon_name nm0) as [id nm] eqn:Ec. cbn [fst snd].
  destruct (canon_stor nm0 id nm Ec Hne Et Hl) as (A & B & C & D).
  unfold stor. cbn [he_id he_name he_value]. repeat split; try assumption; [lia| |].
  - rewrite <- (model_trim_eq nm0 id nm rv Ec), h_rtrim_by_eq. apply ltrim_rtrim_ltrim_by.
  - rewrite <- (model_trim_eq nm0 id nm rv Ec), h_rtrim_by_eq. apply rtrim_by_idem.
Qed.

Lemma process_stor relaxed req : forall gs es, Forall (Forall NN) gs -> ref_process relaxed req gs = Some es ->
  Forall stor es.
Proof.
  induction gs as [|g rest IH]; intros es Hnn H; cbn [ref_process] in H.
  - injection H as <-. constructor.
  - destruct (negb (ref_lines_ok relaxed req true g)); [discriminate|].
    pose proof (Forall_inv Hnn) as Hg. pose proof (Forall_inv_tail Hnn) as Hr.
    destruct (ref_group_text relaxed g) as [|b l] eqn:Et.
    + destruct rest; [|discriminate]. injection H as <-. constructor.
    + destruct (ref_field relaxed req g) as [e|] eqn:Ef; [|discriminate].
      destruct (ref_process relaxed req rest) as [es'|] eqn:Er; [|discriminate]. injection H as <-.
      constructor; [|exact (IH _ Hr eq_refl)].
      unfold ref_field in Ef.
      destruct (ref_split req (ref_group_text relaxed g)) as [[name value]|] eqn:Es; [|discriminate].
      pose proof (ref_split_stor req _ name value (NN_group_text relaxed g Hg) Es) as S.
      destruct (canon_name name) as [id nm]. cbn [fst snd] in S.
      match type of Ef with (if ?c then _ else _) = _ => destruct c end; [discriminate|]. injection Ef as <-. exact S.
Qed.

Lemma NN_groups ls : Forall NN ls -> Forall (Forall NN) (ref_groups ls).
Proof.
  intros H. apply Forall_forall. intros g Hg. apply Forall_forall. intros l Hl.
  rewrite Forall_forall in H. apply H. rewrite <- (ref_groups_concat ls). apply in_concat. eauto.
Qed.

Lemma ref_fields_stor relaxed req block fs : ref_fields relaxed req block = Some fs -> Forall stor fs.
Proof.
  unfold ref_fields. destruct (existsb (N.eqb 0) block) eqn:En; [discriminate|].
  unfold ref_lines. rewrite ref_cut_is_split. destruct (split_lines block) as [ls rem] eqn:Es.
  destruct rem; [|discriminate]. apply process_stor, NN_groups. exact (NN_lines _ _ _ (proj2 (NN_iff_nonul _) En) Es).
Qed.

Definition line_of (e : hentry) : bytes := (he_name e ++ [58; 32] ++ he_value e) ++ [13].

Lemma pack_is_join es : h_pack es = join_lines (map line_of es).
Proof.
  unfold h_pack, join_lines. rewrite map_map. f_equal. apply map_ext. intros e.
  unfold pack_entry, line_of. now rewrite <- !app_assoc.
Qed.

Lemma single_line_nolf v : single_line v -> nolf v.
Proof. apply forallb_impl. intros c H. now apply andb_prop in H as [_ H]. Qed.
Lemma single_line_nocr v : single_line v -> existsb is_cr v = false.
Proof.
  induction v as [|c r IH]; intros H; [reflexivity|]. unfold single_line in *. cbn [forallb existsb] in *.
  apply andb_prop in H as [Hc Hr]. rewrite (IH Hr). apply andb_prop in Hc as [Hc _]. unfold is_cr.
  destruct (c =? 13); [discriminate|reflexivity].
Qed.

Lemma tchar_not c : cs_TCHAR c = true -> (c =? 10) = false /\ (c =? 13) = false /\ (c =? 32) = false /\ (c =? 9) = false.
Proof. intros H. destruct (tchar_facts c H) as (A & _). unfold c_isspace in A. lia. Qed.

Lemma name_nocr nm : forallb cs_TCHAR nm = true -> existsb is_cr nm = false.
Proof.
  induction nm as [|c r IH]; intros H; [reflexivity|]. cbn [forallb existsb] in *. apply andb_prop in H as [Hc Hr].
  rewrite (IH Hr). destruct (tchar_not c Hc) as (_ & A & _). unfold is_cr. now rewrite A.
Qed.

Lemma before_colon_name nm rest : forallb cs_TCHAR nm = true ->
  ref_before_colon (nm ++ 58 :: rest) = Some (nm, rest).
Proof.
  induction nm as [|c r IH]; intros H; cbn [app ref_before_colon]; [reflexivity|].
  cbn [forallb] in H. apply andb_prop in H as [Hc Hr]. destruct (tchar_facts c Hc) as (_ & A & _).
  now rewrite A, (IH Hr).
Qed.

Lemma reread_entry relaxed req e : stor e -> single_line (he_value e) ->
  ref_lines_ok relaxed req true [line_of e] = true /\
  ref_group_text relaxed [line_of e] = he_name e ++ [58; 32] ++ he_value e /\
  ref_field relaxed req [line_of e] = Some e.
Proof.
  intros (Hne & Ht & Hl & Hc & Hnn & Hvl & Hlt & Hrt) Hs.
  set (body := he_name e ++ [58; 32] ++ he_value e).
  assert (Hec : ref_ends_cr (line_of e) = true) by (unfold ref_ends_cr, line_of; now rewrite last_is_snoc).
  assert (Hb : ref_body (line_of e) = body).
  { unfold ref_body. rewrite Hec. unfold line_of. apply strip_last_snoc. }
  assert (Hnc : existsb is_cr body = false).
  { unfold body. rewrite !existsb_app. rewrite (name_nocr _ Ht), (single_line_nocr _ Hs). reflexivity. }
  assert (Hnotcr : forallb is_cr body = false).
  { unfold body. destruct (he_name e) as [|c r]; [contradiction|]. cbn [app forallb].
    cbn [forallb] in Ht. apply andb_prop in Ht as [Hc0 _]. destruct (tchar_not c Hc0) as (_ & A & _).
    unfold is_cr. now rewrite A. }
  assert (Htext : ref_line_text relaxed (line_of e) = body).
  { unfold ref_line_text. rewrite Hb. destruct relaxed; [now apply cr_map_id|reflexivity]. }
  split; [|split].
  - cbn [ref_lines_ok]. unfold ref_line_ok, ref_has_bare_cr. rewrite Hb, Hnc, Hnotcr.
    rewrite !andb_false_r. cbn [negb andb orb]. now rewrite orb_true_r.
  - cbn [ref_group_text]. exact Htext.
  - unfold ref_field. cbn [ref_group_text]. rewrite Htext. unfold ref_split, body. cbn [app].
    rewrite (before_colon_name _ _ Ht).
    assert (Hlast : last_is c_isspace (he_name e) = false).
    { destruct (last_is c_isspace (he_name e)) eqn:El; [|reflexivity].
      rewrite (tchar_last_nonspace _ El) in Ht. discriminate. }
    replace (if req then he_name e else ref_trim_right ref_ows (he_name e)) with (he_name e)
      by (destruct req; [reflexivity|rewrite trim_right_rtrim; symmetry; now apply rtrim_no_trail]).
    replace (lenN (he_name e) =? 0) with false by (destruct (he_name e); [contradiction|cbn [lenN]; lia]).
    replace (65534 <? lenN (he_name e)) with false by lia. rewrite Ht. cbn [orb negb].
    assert (Hv : ref_trim (ref_value_ws (he_name e)) (32 :: he_value e) = he_value e).
    { rewrite <- (model_trim_eq (he_name e) (he_id e) (he_name e) _ Hc), h_rtrim_by_eq.
      replace (ltrim_by (value_ws (he_id e)) (32 :: he_value e)) with (ltrim_by (value_ws (he_id e)) (he_value e)).
      - now rewrite Hlt, Hrt.
      - unfold ltrim_by. cbn [span]. replace (value_ws (he_id e) 32) with true
          by (unfold value_ws; destruct (framing_id (he_id e)); reflexivity).
        destruct (span (value_ws (he_id e)) (he_value e)); reflexivity. }
    rewrite Hv. replace (65534 <? lenN (he_value e)) with false by lia.
    rewrite Hc. cbn [lenN existsb]. unfold ref_has_bare_cr. rewrite Hb, Hnc. cbn [orb andb N.ltb].
    destruct e; reflexivity.
Qed.

Lemma line_of_not_cont e : stor e -> ref_is_cont (line_of e) = false.
Proof.
  intros (Hne & Ht & _). unfold line_of. destruct (he_name e) as [|c r]; [contradiction|].
  cbn [app ref_is_cont]. cbn [forallb] in Ht. apply andb_prop in Ht as [Hc _].
  destruct (tchar_not c Hc) as (_ & _ & A & B). now rewrite A, B.
Qed.

Lemma groups_of_lines es : Forall stor es -> ref_groups (map line_of es) = map (fun e => [line_of e]) es.
Proof.
  induction es as [|e es IH]; intros H; [reflexivity|]. pose proof (Forall_inv_tail H) as Ht.
  cbn [map]. rewrite ref_groups_cons, (IH Ht). destruct es as [|e2 es']; [reflexivity|].
  cbn [map ref_next_is_cont]. now rewrite (line_of_not_cont e2 (Forall_inv Ht)).
Qed.

Lemma process_of_entries relaxed req : forall es, Forall stor es -> Forall (fun e => single_line (he_value e)) es ->
  ref_process relaxed req (map (fun e => [line_of e]) es) = Some es.
Proof.
  induction es as [|e es IH]; intros Hs Hl; [reflexivity|]. cbn [map ref_process].
  destruct (reread_entry relaxed req e (Forall_inv Hs) (Forall_inv Hl)) as (A & B & C).
  rewrite A, B, C. cbn [negb]. rewrite (IH (Forall_inv_tail Hs) (Forall_inv_tail Hl)).
  destruct (Forall_inv Hs) as (Hne & _). destruct (he_name e); [contradiction|reflexivity].
Qed.

Lemma line_of_nolf e : stor e -> single_line (he_value e) -> nolf (line_of e).
Proof.
  intros (_ & Ht & _) Hs. unfold nolf, line_of. rewrite !forallb_app. cbn [forallb].
  rewrite (single_line_nolf _ Hs), andb_true_r. cbn [andb].
  rewrite (forallb_impl cs_TCHAR (fun c => negb (c =? 10)) _ ltac:(intros c H; destruct (tchar_not c H) as (A & _); now rewrite A) Ht).
  reflexivity.
Qed.

Lemma line_of_NN e : stor e -> NN (line_of e).
Proof.
  intros (_ & Ht & _ & _ & Hv & _). unfold line_of. apply NN_app; split; [|reflexivity].
  apply NN_app; split; [|apply NN_app; split; [reflexivity|exact Hv]].
  apply (forallb_impl cs_TCHAR (fun c => negb (c =? 0))); [|exact Ht].
  intros c H. destruct (tchar_facts c H) as (_ & _ & A). now rewrite A.
Qed.

(* packing single-line stored entries and reading the bytes again returns the entries *)
Theorem reread_pack relaxed req es : Forall stor es -> Forall (fun e => single_line (he_value e)) es ->
  h_block_fields relaxed req (h_pack es) = Some es.
Proof.
  intros Hs Hl. rewrite block_fields_is_reference. unfold ref_fields. rewrite pack_is_join.
  assert (Hnn : Forall NN (map line_of es)).
  { apply Forall_forall. intros x Hx. apply in_map_iff in Hx as (e & <- & He). apply line_of_NN.
    rewrite Forall_forall in Hs. now apply Hs. }
  rewrite (proj1 (NN_iff_nonul _) (proj2 (NN_join _) Hnn)).
  assert (Hlines : ref_lines (join_lines (map line_of es)) = Some (map line_of es)).
  { apply ref_lines_exact. split; [reflexivity|]. apply Forall_forall. intros x Hx.
    apply in_map_iff in Hx as (e & <- & He). rewrite Forall_forall in Hs, Hl. apply line_of_nolf; auto. }
  rewrite Hlines, (groups_of_lines es Hs). now apply process_of_entries.
Qed.

Definition flag (st : clst) : bool := cl_sawBad st || cl_needsSan st.

Lemma cv_flag relaxed st item :
  (flag st = true -> flag (snd (check_value relaxed st item)) = true) /\
  (fst (check_value relaxed st item) = false -> flag (snd (check_value relaxed st item)) = true).
Proof.
  rewrite check_value_unfold. unfold flag. destruct (cv_parse relaxed item) as [v|]; cbn [fst snd].
  - destruct (cl_sawGood st); cbn [fst snd cv_dup cv_first cl_sawBad cl_needsSan].
    + split; intros _; apply orb_true_r.
    + split; [auto|discriminate].
  - cbn [set_bad cl_sawBad]. split; reflexivity.
Qed.

Lemma ci_flag relaxed : forall items st, flag st = true -> flag (check_items relaxed st items) = true.
Proof.
  induction items as [|raw more IH]; intros st H; cbn [check_items]; [exact H|].
  destruct (rtrim raw) as [|x xs]; [exact H|].
  pose proof (proj1 (cv_flag relaxed st (x :: xs)) H) as H1.
  destruct (check_value relaxed st (x :: xs)) as [ok st']. cbn [snd] in H1.
  destruct (negb ok && cl_sawBad st'); [exact H1|now apply IH].
Qed.

Lemma flag_set_san st : flag (set_san st) = true.
Proof. unfold flag, set_san. cbn. apply orb_true_r. Qed.

Lemma cf_flag relaxed st v :
  (flag st = true -> flag (snd (check_field relaxed st v)) = true) /\
  (fst (check_field relaxed st v) = false -> flag (snd (check_field relaxed st v)) = true).
Proof.
  unfold check_field. destruct (cl_sawBad st) eqn:Eb.
  - cbn [fst snd]. unfold flag. rewrite Eb. split; reflexivity.
  - destruct (has_comma v).
    + unfold check_list. destruct relaxed; cbn [negb fst snd].
      * split; intros _; apply ci_flag, flag_set_san.
      * unfold flag, set_bad. cbn. split; reflexivity.
    + apply cv_flag.
Qed.

Lemma kept_flag {E} (cl : E -> bool) val relaxed es st k s : kept_of cl val relaxed es st k s ->
  flag st = true -> flag s = true.
Proof.
  induction 1 as [st|e es st k s _ _ IH|e es st keep st1 k s _ Ec _ _ IH]; intros F; auto.
  apply IH. pose proof (proj1 (cf_flag relaxed st (val e)) F) as F1. now rewrite Ec in F1.
Qed.

(* nothing flagged at the end: no entry was dropped on the way *)
Lemma kept_unflagged {E} (cl : E -> bool) val relaxed es st k s : kept_of cl val relaxed es st k s ->
  flag s = false -> k = es.
Proof.
  induction 1 as [st|e es st k s _ _ IH|e es st keep st1 k s _ Ec _ K IH]; intros F;
    [reflexivity|now rewrite IH|].
  destruct keep; [now rewrite IH|]. pose proof (proj2 (cf_flag relaxed st (val e))) as F1. rewrite Ec in F1.
  rewrite (kept_flag _ _ _ _ _ _ _ K (F1 eq_refl)) in F. discriminate.
Qed.

Lemma cf_digits relaxed v : (0 <= v < two63)%Z ->
  check_field relaxed cl_init (int64_to_a v) = (true, cv_first cl_init v).
Proof.
  intros Hv. pose proof (digits_token relaxed v Hv) as T. unfold check_field. cbn [cl_init cl_sawBad].
  rewrite (token_no_comma _ _ _ T), check_value_unfold. apply cv_parse_token in T. now rewrite T.
Qed.

Lemma forallb_filter_self {A} (f : A -> bool) l : forallb f (filter f l) = true.
Proof. apply forallb_forall. intros x Hx. now apply filter_In in Hx as [_ Hx]. Qed.

Lemma ids_differ : (ID_CL =? ID_TE) = false.
Proof. vm_compute. reflexivity. Qed.

Lemma has_te_filter_cl l : h_has_id ID_TE (filter not_cl l) = h_has_id ID_TE l.
Proof.
  apply existsb_filter_imp. intros e H. apply N.eqb_eq in H. unfold not_cl. now rewrite H, N.eqb_sym, ids_differ.
Qed.

Definition not_te (e : hentry) : bool := negb (he_id e =? ID_TE).

(* the entries stored by one parse are re-accepted unchanged by the Content-Length stage of a second parse *)
Lemma reinterpret relaxed proh fs kept st :
  h_entries_loop relaxed fs cl_init = Some (kept, st) ->
  exists kept2 st2,
    h_entries_loop relaxed (hr_entries (h_post_process proh kept st)) cl_init = Some (kept2, st2) /\
    hr_entries (h_post_process proh kept2 st2) = hr_entries (h_post_process proh kept st).
Proof.
  intros E. apply h_loop_kept in E.
  assert (Hplain : forall es, forallb not_cl es = true -> proh = false ->
            exists kept2 st2, h_entries_loop relaxed es cl_init = Some (kept2, st2) /\
              hr_entries (h_post_process proh kept2 st2) = es).
  { intros es Hc Hp. exists es, cl_init. split; [now apply loop_nocl|]. now apply post_process_keeps. }
  unfold h_post_process at 1 3. destruct proh.
  - cbn [hr_entries]. set (es' := h_del_id ID_TE (h_del_id ID_CL kept)).
    assert (Hc : forallb not_cl es' = true) by (apply forallb_filter, forallb_filter_self).
    exists es', cl_init. split; [now apply loop_nocl|]. unfold h_post_process. cbn [hr_entries].
    rewrite del_cl_is_filter, (filter_all _ _ (proj1 (forallb_forall _ _) Hc)). unfold es', h_del_id at 1.
    apply filter_all, forallb_forall, forallb_filter_self.
  - destruct (h_has_id ID_TE kept) eqn:Ete; [|destruct (cl_sawBad st) eqn:Eb; [|destruct (cl_needsSan st) eqn:Es]];
      cbn [hr_entries]; rewrite ?del_cl_is_filter.
    1, 2: apply Hplain; [apply forallb_filter_self|reflexivity].
    + destruct (cl_sawGood st) eqn:Eg; [|rewrite app_nil_r; apply Hplain; [apply forallb_filter_self|reflexivity]].
      set (l := filter not_cl kept). set (v := cl_value st).
      exists (l ++ [h_cl_entry v]), (cv_first cl_init v). split.
      * apply h_loop_kept, kept_app_others; [apply forallb_filter_self|].
        apply (kept_field h_is_cl he_value _ (h_cl_entry v) [] _ true (cv_first cl_init v));
          [apply N.eqb_refl|exact (cf_digits relaxed v (kept_range _ _ _ _ _ _ E Eb Eg))|reflexivity|constructor].
      * unfold h_post_process.
        replace (h_has_id ID_TE (l ++ [h_cl_entry v])) with false; [reflexivity|].
        unfold h_has_id. rewrite existsb_app. fold (h_has_id ID_TE l). unfold l. rewrite has_te_filter_cl, Ete.
        cbn [existsb h_cl_entry he_id orb]. now rewrite ids_differ.
    + exists kept, st. assert (F : flag st = false) by (unfold flag; now rewrite Eb, Es).
      split; [|unfold h_post_process; now rewrite Ete, Eb, Es].
      apply h_loop_kept. now rewrite (kept_unflagged _ _ _ _ _ _ _ E F) at 1.
Qed.

Lemma lenN_dec_digits : forall fuel n, lenN (dec_digits fuel n) <= N.of_nat fuel.
Proof.
  induction fuel as [|k IH]; intros n; [cbn; lia|]. rewrite dec_digits_S. destruct (n <? 10).
  - cbn [lenN]. lia.
  - rewrite lenN_snoc. specialize (IH (n / 10)). lia.
Qed.

Lemma digits_nonspace ds : forallb c_isdigit ds = true -> forallb (fun c => negb (c_isspace c) && negb (c =? 0)) ds = true.
Proof. apply forallb_impl. intros c H. unfold c_isdigit, c_isspace in *. lia. Qed.

Lemma value_ws_space id c : value_ws id c = true -> c_isspace c = true.
Proof. unfold value_ws. destruct (framing_id id); [|auto]. unfold is_wsp, c_isspace. lia. Qed.

Lemma nonspace_trimmed id v : forallb (fun c => negb (c_isspace c) && negb (c =? 0)) v = true ->
  NN v /\ ltrim_by (value_ws id) v = v /\ rtrim_by (value_ws id) v = v.
Proof.
  intros H. split; [|split].
  - revert H. apply forallb_impl. intros c Hc. now apply andb_prop in Hc as [_ Hc].
  - destruct v as [|c r]; [reflexivity|]. cbn [forallb] in H. apply andb_prop in H as [Hc _].
    apply andb_prop in Hc as [Hc _]. apply ltrim_by_non.
    destruct (value_ws id c) eqn:E; [|reflexivity]. rewrite (value_ws_space _ _ E) in Hc. discriminate.
  - apply rtrim_by_no_trail. destruct (last_is (value_ws id) v) eqn:El; [|reflexivity].
    destruct (last_is_forall _ _ _ H El) as (c & Hc & Hs). rewrite (value_ws_space _ _ Hs) in Hc. discriminate.
Qed.
Lemma cl_entry_stor v : (0 <= v < two63)%Z -> stor (h_cl_entry v) /\ single_line (he_value (h_cl_entry v)).
Proof.
  intros Hv. destruct (int64_to_a_digits v Hv) as (_ & Hd & _).
  destruct (nonspace_trimmed ID_CL _ (digits_nonspace _ Hd)) as (A & B & C).
  assert (Hname : name_content_length <> [] /\ forallb cs_TCHAR name_content_length = true /\ lenN name_content_length <= 65534)
    by (vm_compute; repeat split; discriminate).
  destruct Hname as (N1 & N2 & N3).
  destruct (canon_stor name_content_length ID_CL (snd (canon_name name_content_length)) ltac:(vm_compute; reflexivity) N1 N2 N3) as (S1 & S2 & S3 & S4).
  split.
  - unfold stor, h_cl_entry. cbn [he_id he_name he_value].
    repeat split; try assumption. unfold int64_to_a. pose proof (lenN_dec_digits 20 (Z.to_N v)). lia.
  - unfold single_line, h_cl_entry. cbn [he_value]. revert Hd. apply forallb_impl.
    intros c H. unfold c_isdigit in H. lia.
Qed.

(* every entry list one parse stores consists of storable entries *)
Lemma parsed_entries_stor relaxed req proh block r : h_parse relaxed req proh block = Some r ->
  Forall stor (hr_entries r).
Proof.
  unfold h_parse. rewrite block_fields_is_reference.
  destruct (ref_fields relaxed req block) as [fs|] eqn:Ef; [|discriminate].
  destruct (h_entries_loop relaxed fs cl_init) as [[kept st]|] eqn:E; [|discriminate]. intros [= <-].
  pose proof (ref_fields_stor _ _ _ _ Ef) as Sfs.
  apply h_loop_kept in E. pose proof (incl_Forall (kept_incl _ _ _ _ _ _ _ E) Sfs) as Sk.
  assert (Sf : forall f, Forall stor (filter f kept)) by (intros f; exact (incl_Forall (incl_filter f kept) Sk)).
  unfold h_post_process. destruct proh; cbn [hr_entries].
  - exact (incl_Forall (incl_filter _ _) (Sf _)).
  - destruct (h_has_id ID_TE kept); [|destruct (cl_sawBad st) eqn:Eb; [|destruct (cl_needsSan st)]]; cbn [hr_entries];
      try apply Sf; [|exact Sk].
    apply Forall_app. split; [apply Sf|]. destruct (cl_sawGood st) eqn:Eg; [|constructor].
    constructor; [|constructor]. exact (proj1 (cl_entry_stor _ (kept_range _ _ _ _ _ _ E Eb Eg))).
Qed.

(* parse (pack (parse block)) = parse block on the stored entries, for results whose values are single lines *)
Theorem pack_parse_roundtrip relaxed req proh block r :
  h_parse relaxed req proh block = Some r ->
  Forall (fun e => single_line (he_value e)) (hr_entries r) ->
  exists r', h_parse relaxed req proh (h_pack (hr_entries r)) = Some r' /\ hr_entries r' = hr_entries r.
Proof.
  intros H Hl. pose proof (parsed_entries_stor _ _ _ _ _ H) as Hs.
  unfold h_parse at 1. rewrite (reread_pack relaxed req _ Hs Hl).
  unfold h_parse in H. destruct (h_block_fields relaxed req block) as [fs|]; [|discriminate].
  destruct (h_entries_loop relaxed fs cl_init) as [[kept st]|] eqn:E; [|discriminate]. injection H as <-.
  destruct (reinterpret relaxed proh fs kept st E) as (kept2 & st2 & E2 & R2).
  rewrite E2. eexists. split; [reflexivity|exact R2].
Qed.
