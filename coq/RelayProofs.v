(* RelayProofs.v — proofs about RelayModel.v (C01, C02). *)
Require Import SquidV.Bytes SquidV.RelayModel.
Require Import SquidV.gen.Relay_gen.
Require Import ZifyBool ZifyN ZifyNat.
Local Open Scope N_scope.

(* the framing decision functions agree with HttpReply.cc on the regenerated table *)
Definition enc_size (o : option N) : N := match o with None => 0 | Some n => n + 1 end.
Definition row_ok (r : (N * bool * bool * bool) * (bool * N * N)) : bool :=
  let '((st, hd, cl, ch), (eb, sz, bs)) := r in
  let h := {| h_status := st; h_head := hd; h_clen := if cl then Some 5 else None; h_chunked := ch |} in
  Bool.eqb (expecting_body h) eb &&
  (if eb then enc_size (expected_size h) =? sz else true) &&
  (enc_size (body_size h) =? bs).

Definition nonempty (l : bytes) : Prop := l <> [].

Lemma dropN_app {A} k (a b : list A) : dropN k (a ++ b) = dropN k a ++ dropN (k - lenN a) b.
Proof. apply Bytes.dropN_app. Qed.

Lemma crun_final s l : cst_final s = true -> crun s l = (s, [], l).
Proof. intros H. destruct l; cbn [crun]; [reflexivity| now rewrite H]. Qed.

Lemma crun_cons s c r : cst_final s = false ->
  crun s (c :: r) = let '(s1, o1) := cstep s c in let '(s2, o2, rest) := crun s1 r in (s2, o1 ++ o2, rest).
Proof. intros H. cbn [crun]. now rewrite H. Qed.

(* reading is independent of how the input is cut *)
Lemma crun_app s a b :
  crun s (a ++ b) =
  let '(s1, o1, r1) := crun s a in
  let '(s2, o2, r2) := crun s1 (r1 ++ b) in (s2, o1 ++ o2, r2).
Proof.
  revert s; induction a as [|c a IH]; intros s.
  - cbn [app crun]. destruct (crun s b) as [[s2 o2] r2]. reflexivity.
  - destruct (cst_final s) eqn:F.
    + rewrite (crun_final s (c :: a) F). cbv beta iota.
      rewrite !(crun_final s ((c :: a) ++ b) F). reflexivity.
    + change ((c :: a) ++ b) with (c :: (a ++ b)). rewrite !crun_cons by exact F.
      destruct (cstep s c) as [s1 o1]. rewrite IH.
      destruct (crun s1 a) as [[sa oa] ra]. destruct (crun sa (ra ++ b)) as [[s2 o2] r2].
      now rewrite app_assoc.
Qed.

(* the reader stops early only in a final state *)
Lemma crun_rest s l st o r : crun s l = (st, o, r) -> cst_final st = false -> r = [].
Proof.
  revert s st o r; induction l as [|c l IH]; intros s st o r H F.
  - cbn [crun] in H. now inversion H.
  - destruct (cst_final s) eqn:Fs.
    + rewrite crun_final in H by exact Fs. inversion H; subst. congruence.
    + rewrite crun_cons in H by exact Fs. destruct (cstep s c) as [s1 o1].
      destruct (crun s1 l) as [[s2 o2] r2] eqn:E. inversion H; subst. eapply IH; eauto.
Qed.

Lemma crun_step s c r s1 : cst_final s = false -> cstep s c = (s1, []) -> crun s (c :: r) = crun s1 r.
Proof.
  intros F H. rewrite crun_cons by exact F. rewrite H. destruct (crun s1 r) as [[s2 o2] r2]. reflexivity.
Qed.

Lemma hexdig_ok u n : n < 16 -> is_hex (hexdig u n) = true /\ hexval (hexdig u n) = n.
Proof.
  intros H. unfold hexdig. destruct (N.ltb_spec n 10) as [L|L]; [|destruct u];
    unfold is_hex, hexval, is_digit, is_uhex, is_lhex;
    repeat match goal with |- context[if ?b then _ else _] => let E := fresh in destruct b eqn:E end; lia.
Qed.

Lemma pow16_succ (k : nat) : 16 ^ N.of_nat (S k) = 16 * 16 ^ N.of_nat k.
Proof. rewrite Nat2N.inj_succ. now rewrite N.pow_succ_r'. Qed.

Lemma hex_digits_S k u n :
  hex_digits (S k) u n = if n <? 16 then [hexdig u n] else hex_digits k u (n / 16) ++ [hexdig u (n mod 16)].
Proof. reflexivity. Qed.

Lemma hex_run u : forall (k : nat) n rest,
  n < 16 ^ N.of_nat (S k) -> crun CSize0 (hex_digits (S k) u n ++ rest) = crun (CSize n) rest.
Proof.
  induction k as [|k IH]; intros n rest Hn; rewrite hex_digits_S; destruct (N.ltb_spec n 16) as [E|E].
  1, 3: destruct (hexdig_ok u n E) as [Hh Hv]; apply crun_step; [reflexivity|cbn [cstep]; now rewrite Hh, Hv].
  - cbn in Hn. lia.
  - rewrite pow16_succ in Hn. assert (Hm : n mod 16 < 16) by (apply N.mod_lt; lia).
    destruct (hexdig_ok u (n mod 16) Hm) as [Hh Hv].
    rewrite <- app_assoc, IH by (apply N.div_lt_upper_bound; lia). cbn [app].
    rewrite (crun_step (CSize (n / 16)) _ _ (CSize n)); [reflexivity|reflexivity|].
    cbn [cstep]. rewrite Hh, Hv. do 2 f_equal. lia.
Qed.

Lemma lt_pow16 (k : nat) : N.of_nat k < 16 ^ N.of_nat (S k).
Proof.
  induction k as [|k IH]; [cbn; lia|].
  rewrite pow16_succ. rewrite Nat2N.inj_succ in *. lia.
Qed.

Lemma no_crlf_eqb c : no_crlf c = true -> (c =? 13) = false /\ (c =? 10) = false.
Proof. unfold no_crlf. destruct (c =? 13), (c =? 10); intros H; try discriminate H; auto. Qed.

(* chunk-ext and trailer field lines: a state that swallows everything but CR and LF *)
Lemma skip_run s l rest :
  cst_final s = false -> (forall c, no_crlf c = true -> cstep s c = (s, [])) -> forallb no_crlf l = true ->
  crun s (l ++ rest) = crun s rest.
Proof.
  intros F Hs. induction l as [|c l IH]; intros H; [reflexivity|].
  cbn [forallb] in H. apply andb_prop in H. destruct H as [Hc Hl].
  cbn [app]. rewrite (crun_step s c _ s F (Hs c Hc)). now apply IH.
Qed.

Lemma ext_run n e rest : ext_ok e = true ->
  crun (CSize n) (e ++ 13 :: rest) = crun (CSizeLF n) rest.
Proof.
  destruct e as [|c e]; intros H.
  - cbn [app]. apply crun_step; reflexivity.
  - cbn [ext_ok] in H. apply andb_prop in H. destruct H as [Hc He].
    cbn [forallb] in He. apply andb_prop in He. destruct He as [Hn He].
    cbn [app]. rewrite (crun_step (CSize n) c _ (CExt n)); [|reflexivity|].
    + rewrite skip_run; [apply crun_step; reflexivity|reflexivity| |exact He].
      intros x Hx. destruct (no_crlf_eqb x Hx) as [E13 E10]. cbn [cstep]. now rewrite E13, E10.
    + destruct (no_crlf_eqb c Hn) as [E13 _]. cbn [cstep]. rewrite E13, Hc.
      replace (is_hex c) with false; [reflexivity|]. unfold is_hex, is_digit, is_uhex, is_lhex. lia.
Qed.

Lemma data_run : forall (d : bytes) n rest s o r,
  lenN d = n -> 1 <= n -> crun CDataCR rest = (s, o, r) ->
  crun (CData n) (d ++ rest) = (s, d ++ o, r).
Proof.
  induction d as [|c d IH]; intros n rest s o r Hl Hn Hc.
  - cbn [lenN] in Hl. lia.
  - cbn [lenN] in Hl. cbn [app]. rewrite crun_cons by reflexivity. cbn [cstep].
    destruct (n =? 1) eqn:E.
    + apply N.eqb_eq in E. assert (d = []) by (apply lenN_nil_iff; lia). subst d. cbn [app].
      rewrite Hc. reflexivity.
    + apply N.eqb_neq in E. rewrite (IH (n - 1) rest s o r); [reflexivity|lia|lia|exact Hc].
Qed.

Lemma chunk_run u ext d rest s o r :
  ext_ok ext = true -> d <> [] -> crun CSize0 rest = (s, o, r) ->
  crun CSize0 (enc_chunk u ext d ++ rest) = (s, d ++ o, r).
Proof.
  intros He Hd Hc. unfold enc_chunk. rewrite <- !app_assoc.
  rewrite hex_run by (rewrite lenN_length; apply lt_pow16).
  unfold crlf. cbn [app]. rewrite ext_run by exact He.
  assert (Hl : 1 <= lenN d) by now apply lenN_pos.
  rewrite (crun_step (CSizeLF (lenN d)) 10 _ (CData (lenN d))); [|reflexivity|].
  2:{ cbn [cstep]. destruct (lenN d =? 0) eqn:E; [apply N.eqb_eq in E; lia|reflexivity]. }
  apply data_run; [reflexivity|exact Hl|].
  rewrite (crun_step CDataCR 13 _ CDataLF) by reflexivity.
  rewrite (crun_step CDataLF 10 _ CSize0) by reflexivity. exact Hc.
Qed.

Lemma trailer_line_run l rest : line_ok l = true ->
  crun CTr0 (l ++ crlf ++ rest) = crun CTr0 rest.
Proof.
  unfold line_ok. intros H. apply andb_prop in H. destruct H as [Hne Hall].
  destruct l as [|c l]; [discriminate|]. cbn [forallb] in Hall. apply andb_prop in Hall. destruct Hall as [Hc Hl].
  assert (S : forall s x, s = CTr0 \/ s = CTr -> no_crlf x = true -> cstep s x = (CTr, [])).
  { intros s x Hs Hx. destruct (no_crlf_eqb x Hx) as [E13 E10]. destruct Hs as [-> | ->]; cbn [cstep]; now rewrite E13, E10. }
  cbn [app]. rewrite (crun_step CTr0 c _ CTr) by (auto using S).
  rewrite skip_run by (auto using S). unfold crlf. cbn [app].
  rewrite (crun_step CTr 13 _ CTrLF) by reflexivity. now rewrite (crun_step CTrLF 10 _ CTr0) by reflexivity.
Qed.

Lemma trailer_run ls rest : forallb line_ok ls = true ->
  crun CTr0 (enc_trailer ls ++ rest) = crun CTr0 rest.
Proof.
  induction ls as [|l ls IH]; intros H; [reflexivity|].
  cbn [forallb] in H. apply andb_prop in H. destruct H as [Hl Hls].
  unfold enc_trailer. cbn [map concat]. rewrite <- !app_assoc. rewrite trailer_line_run by exact Hl.
  now apply IH.
Qed.

Lemma last_run ext ls rest :
  ext_ok ext = true -> forallb line_ok ls = true ->
  crun CSize0 (enc_last ext (enc_trailer ls) ++ rest) = (CDone, [], rest).
Proof.
  intros He Hl. unfold enc_last, crlf. rewrite <- !app_assoc. cbn [app].
  rewrite (crun_step CSize0 48 _ (CSize 0)) by reflexivity.
  rewrite ext_run by exact He.
  rewrite (crun_step (CSizeLF 0) 10 _ CTr0) by reflexivity.
  rewrite trailer_run by exact Hl. cbn [app].
  rewrite (crun_step CTr0 13 _ CEndLF) by reflexivity.
  rewrite (crun_step CEndLF 10 _ CDone) by reflexivity.
  apply crun_final. reflexivity.
Qed.

Lemma chunks_run u ext ds rest s o r :
  ext_ok ext = true -> Forall nonempty ds -> crun CSize0 rest = (s, o, r) ->
  crun CSize0 (concat (map (enc_chunk u ext) ds) ++ rest) = (s, concat ds ++ o, r).
Proof.
  intros He Hd Hc. induction Hd as [|d ds Hne Hds IH]; [exact Hc|].
  cbn [map concat]. rewrite <- !app_assoc. now apply chunk_run.
Qed.

Theorem chunked_roundtrip u ext ds tr rest :
  ext_ok ext = true -> Forall nonempty ds -> forallb line_ok tr = true ->
  crun CSize0 (enc_chunked u ext ds tr ++ rest) = (CDone, concat ds, rest).
Proof.
  intros He Hd Ht. unfold enc_chunked. rewrite <- app_assoc.
  rewrite (chunks_run u ext ds _ CDone [] rest He Hd); [now rewrite app_nil_r|].
  now apply last_run.
Qed.

Theorem chunks_without_last u ext ds :
  ext_ok ext = true -> Forall nonempty ds ->
  crun CSize0 (concat (map (enc_chunk u ext) ds)) = (CSize0, concat ds, []).
Proof.
  intros He Hd. rewrite <- (app_nil_r (concat (map (enc_chunk u ext) ds))).
  rewrite (chunks_run u ext ds [] CSize0 [] [] He Hd); [now rewrite app_nil_r|reflexivity].
Qed.

Lemma pack_chunk_nil : pack_chunk [] = last_chunk.
Proof. reflexivity. Qed.
Lemma last_chunk_enc : last_chunk = enc_last [] (enc_trailer []).
Proof. reflexivity. Qed.

(* origin side: what reaches the store, for every segmentation *)
Definition srv_from (f : oframing) (s : srv) (evs : list oev) : srv := fold_left (srv_step f) evs s.

Lemma srv_from_app f s a b : srv_from f s (a ++ b) = srv_from f (srv_from f s a) b.
Proof. unfold srv_from. apply fold_left_app. Qed.

Lemma srv_done_stays f evs : forall s, sv_done s = true -> srv_from f s evs = s.
Proof.
  induction evs as [|e evs IH]; intros s H; [reflexivity|].
  change (srv_from f s (e :: evs)) with (srv_from f (srv_step f s e) evs).
  assert (E : srv_step f s e = s) by (unfold srv_step; now rewrite H). rewrite E. now apply IH.
Qed.

Lemma srv_from_cons f s e evs : srv_from f s (e :: evs) = srv_from f (srv_step f s e) evs.
Proof. reflexivity. Qed.
Lemma srv_from_nil f s : srv_from f s [] = s.
Proof. reflexivity. Qed.

Lemma srv_run_from f evs : srv_run f evs = srv_from f srv_init evs.
Proof. reflexivity. Qed.

(* the end of the connection ends the transaction: what follows is not looked at *)
Lemma srv_eof_ends f s evs tail : srv_from f s (evs ++ OEof :: tail) = srv_step f (srv_from f s evs) OEof.
Proof.
  rewrite srv_from_app, srv_from_cons. apply srv_done_stays. unfold srv_step.
  destruct (sv_done (srv_from f s evs)) eqn:D; [exact D|destruct f; reflexivity].
Qed.

(* the state after any number of reads, in closed form *)
Lemma srv_len_run n : forall segs s,
  sv_done s = false -> sv_seen s <= n ->
  let fin := srv_from (OLen n) s (map OSeg segs) in
  let got := takeN (n - sv_seen s) (concat segs) in
  sv_body fin = sv_body s ++ got /\ sv_seen fin = sv_seen s + lenN got /\
  sv_done fin = match segs with [] => false | _ => sv_seen fin =? n end /\
  (sv_done fin = true -> sv_whole fin = true).
Proof.
  induction segs as [|b segs IH]; intros s Hd Hs.
  - cbn [map concat srv_from fold_left takeN lenN]. rewrite app_nil_r, N.add_0_r. repeat split; [exact Hd|congruence].
  - cbn [map concat]. rewrite srv_from_cons. unfold srv_step. rewrite Hd.
    pose proof (lenN_takeN (n - sv_seen s) b) as Hlt. set (take := takeN (n - sv_seen s) b) in *.
    destruct (sv_seen s + lenN take =? n) eqn:E.
    + rewrite srv_done_stays by reflexivity. cbn [sv_body sv_seen sv_whole sv_done]. rewrite E.
      apply N.eqb_eq in E. rewrite takeN_app_le by (clear - E Hs Hlt; lia). auto.
    + apply N.eqb_neq in E. assert (Hb : lenN b <= n - sv_seen s) by (clear - E Hs Hlt; lia).
      assert (Ht : take = b) by (apply takeN_all, Hb). rewrite Ht in *. clear take Ht Hlt.
      match goal with |- context [srv_from _ ?s1 _] =>
        destruct (IH s1) as (I1 & I2 & I3 & I4); [reflexivity|cbn [sv_seen]; clear - Hb Hs; lia|] end.
      cbn [sv_body sv_seen] in I1, I2, I3. rewrite N.sub_add_distr in I1, I2.
      rewrite takeN_app_ge, lenN_app, N.add_assoc, app_assoc by exact Hb.
      refine (conj I1 (conj I2 (conj _ I4))).
      destruct segs; [|exact I3]. cbn [map srv_from fold_left sv_done sv_seen]. symmetry. now apply N.eqb_neq.
Qed.

Lemma srv_len_segs n segs tail :
  let fin := srv_run (OLen n) (map OSeg segs ++ OEof :: tail) in
  sv_body fin = takeN n (concat segs) /\ sv_whole fin = (n <=? lenN (concat segs)) /\ sv_done fin = true.
Proof.
  rewrite srv_run_from, srv_eof_ends.
  destruct (srv_len_run n segs srv_init eq_refl (N.le_0_l n)) as (I1 & I2 & I3 & I4).
  cbn [srv_init sv_body sv_seen app] in I1, I2. rewrite N.sub_0_r in *. rewrite lenN_takeN in I2.
  set (fin := srv_from (OLen n) srv_init (map OSeg segs)) in *. unfold srv_step.
  destruct (sv_done fin) eqn:D; cbn [sv_body sv_whole sv_done]; (split; [exact I1|split; [|exact D || reflexivity]]).
  - rewrite I4 by reflexivity. destruct segs; [discriminate|]. symmetry in I3. apply N.eqb_eq in I3.
    symmetry. apply N.leb_le. clear - I2 I3. lia.
  - clear - I2. destruct (N.leb_spec n (lenN (concat segs))); [apply N.eqb_eq|apply N.eqb_neq]; lia.
Qed.

(* enough data: complete without waiting for EOF (persistent connection), whatever follows *)
Lemma srv_len_enough n segs tail : segs <> [] -> n <= lenN (concat segs) ->
  let fin := srv_run (OLen n) (map OSeg segs ++ tail) in
  sv_body fin = takeN n (concat segs) /\ sv_whole fin = true /\ sv_done fin = true.
Proof.
  intros Hne Hl. rewrite srv_run_from, srv_from_app.
  destruct (srv_len_run n segs srv_init eq_refl (N.le_0_l n)) as (I1 & I2 & I3 & I4).
  cbn [srv_init sv_body sv_seen app] in I1, I2. rewrite N.sub_0_r in *.
  assert (D : sv_done (srv_from (OLen n) srv_init (map OSeg segs)) = true).
  { rewrite I3, I2, lenN_takeN. destruct segs; [congruence|]. apply N.eqb_eq. clear - Hl. lia. }
  rewrite srv_done_stays by exact D. auto.
Qed.

Lemma srv_close_segs : forall segs s tail,
  sv_done s = false ->
  let fin := srv_from OClose s (map OSeg segs ++ OEof :: tail) in
  sv_body fin = sv_body s ++ concat segs /\ sv_whole fin = true /\ sv_done fin = true.
Proof.
  induction segs as [|b segs IH]; intros s tail Hd.
  - cbn [map app concat]. rewrite srv_from_cons. unfold srv_step. rewrite Hd.
    rewrite srv_done_stays by reflexivity. cbn [sv_body sv_whole sv_done]. now rewrite app_nil_r.
  - cbn [map app concat]. rewrite srv_from_cons. unfold srv_step. rewrite Hd.
    match goal with |- context [srv_from OClose ?x _] => destruct (IH x tail) as [I1 [I2 I3]]; [reflexivity|] end.
    rewrite I1, I2, I3. cbn [sv_body]. now rewrite <- app_assoc.
Qed.

Lemma not_final s : cst_final s = false -> cst_done s = false /\ cst_err s = false.
Proof. destruct s; auto; discriminate. Qed.

(* after any number of reads: done exactly when the reference reader is in a final state, whole when that state is
   CDone; the store has what the reader decoded, except that an exception loses what the failing call decoded *)
Lemma srv_chunked_run : forall segs s d out rest,
  sv_done s = false -> sv_whole s = false -> cst_final (sv_dec s) = false ->
  crun (sv_dec s) (concat segs) = (d, out, rest) ->
  let fin := srv_from OChunked s (map OSeg segs) in
  sv_done fin = cst_final d /\ sv_whole fin = cst_done d /\
  exists o1 o2, out = o1 ++ o2 /\ sv_body fin = sv_body s ++ o1 /\ (cst_err d = false -> o2 = []).
Proof.
  induction segs as [|b segs IH]; intros s d out rest Hd Hw Hf Hc.
  - cbn [concat crun] in Hc. inversion Hc; subst d out rest. cbn [map]. rewrite srv_from_nil, Hd, Hw, Hf.
    destruct (not_final _ Hf) as [-> _]. repeat split. exists [], []. now rewrite !app_nil_r.
  - cbn [concat] in Hc. rewrite crun_app in Hc.
    destruct (crun (sv_dec s) b) as [[s1 o1] r1] eqn:E1.
    destruct (crun s1 (r1 ++ concat segs)) as [[s2 o2] r2] eqn:E2. inversion Hc; subst d out rest. clear Hc.
    cbn [map]. rewrite srv_from_cons. unfold srv_step. rewrite Hd, E1.
    destruct (cst_final s1) eqn:F1.
    + rewrite crun_final in E2 by exact F1. inversion E2; subst s2 o2 r2.
      destruct s1; try discriminate; cbn [cst_err cst_done cst_final]; rewrite srv_done_stays by reflexivity;
        cbn [sv_body sv_whole sv_done]; repeat split.
      * exists o1, []. now rewrite app_nil_r.
      * exists [], o1. rewrite !app_nil_r. repeat split. discriminate.
    + assert (r1 = []) by (eapply crun_rest; eauto). subst r1. cbn [app] in E2.
      destruct (not_final s1 F1) as [-> ->].
      match goal with |- context [srv_from OChunked ?x _] =>
        destruct (IH x s2 o2 r2 eq_refl eq_refl F1 E2) as (I1 & I2 & p1 & p2 & Hp & I3 & I4) end.
      cbn [sv_body] in I3.
      split; [exact I1|split; [exact I2|]]. exists (o1 ++ p1), p2. rewrite I3, Hp, !app_assoc. auto.
Qed.

Lemma srv_chunked_segs segs tail d out rest :
  crun CSize0 (concat segs) = (d, out, rest) ->
  let fin := srv_run OChunked (map OSeg segs ++ OEof :: tail) in
  sv_done fin = true /\ sv_whole fin = cst_done d /\
  exists o1 o2, out = o1 ++ o2 /\ sv_body fin = o1 /\ (cst_err d = false -> o2 = []).
Proof.
  intros Hc. rewrite srv_run_from, srv_eof_ends.
  destruct (srv_chunked_run segs srv_init d out rest eq_refl eq_refl eq_refl Hc) as (D & W & I).
  set (fin := srv_from OChunked srv_init (map OSeg segs)) in *. unfold srv_step.
  destruct (sv_done fin) eqn:E; cbn [sv_body sv_whole sv_done]; (split; [exact E || reflexivity|split; [|exact I]]).
  - exact W.
  - symmetry in D. now destruct (not_final d D) as [-> _].
Qed.

(* the same without EOF when the message is complete (persistent connection) *)
Lemma srv_chunked_enough segs tail out rest :
  crun CSize0 (concat segs) = (CDone, out, rest) ->
  let fin := srv_run OChunked (map OSeg segs ++ tail) in
  sv_done fin = true /\ sv_body fin = out /\ sv_whole fin = true.
Proof.
  intros Hc. rewrite srv_run_from, srv_from_app.
  destruct (srv_chunked_run segs srv_init CDone out rest eq_refl eq_refl eq_refl Hc) as (D & W & o1 & o2 & Ho & B & E).
  rewrite srv_done_stays by exact D. rewrite (E eq_refl), app_nil_r in Ho. subst o1. auto.
Qed.

(* a strict prefix of a complete chunked body is neither complete nor malformed, and decodes to a prefix *)
Lemma crun_strict_prefix s pre post out :
  crun s (pre ++ post) = (CDone, out, []) -> post <> [] ->
  exists s1 o1 o2, crun s pre = (s1, o1, []) /\ cst_final s1 = false /\ out = o1 ++ o2.
Proof.
  intros H Hp. rewrite crun_app in H.
  destruct (crun s pre) as [[s1 o1] r1] eqn:E1.
  destruct (crun s1 (r1 ++ post)) as [[s2 o2] r2] eqn:E2. inversion H; subst s2 out r2. clear H.
  destruct (cst_final s1) eqn:F.
  - rewrite crun_final in E2 by exact F. injection E2 as _ _ Hr. apply app_eq_nil in Hr. now destruct Hr.
  - exists s1, o1, o2. assert (r1 = []) by (eapply crun_rest; eauto). subst r1. auto.
Qed.

Lemma length_dropN_lt {A} k (l : list A) : l <> [] -> 1 <= k -> (length (dropN k l) < length l)%nat.
Proof.
  intros Hl Hk. assert (H := lenN_dropN k l). rewrite !lenN_length in H.
  assert (1 <= lenN l) by (destruct l; [congruence|cbn [lenN]; lia]). rewrite lenN_length in H0. lia.
Qed.

Lemma chop_aux_ok : forall (fuel : nat) k l, 1 <= k -> (length l <= fuel)%nat ->
  concat (chop_aux fuel k l) = l /\ Forall nonempty (chop_aux fuel k l).
Proof.
  induction fuel as [|f IH]; intros k l Hk Hl.
  - destruct l; [cbn; auto|cbn in Hl; lia].
  - cbn [chop_aux]. destruct l as [|x l]; [cbn; auto|].
    assert (Hd : (length (dropN k (x :: l)) < length (x :: l))%nat) by (apply length_dropN_lt; [discriminate|exact Hk]).
    destruct (IH k (dropN k (x :: l)) Hk) as [I1 I2]; [lia|].
    split.
    + cbn [concat]. rewrite I1. apply takeN_dropN.
    + constructor; [|exact I2]. unfold nonempty. cbn [takeN].
      destruct (k =? 0) eqn:E; [apply N.eqb_eq in E; lia|discriminate].
Qed.

Lemma chop_ok k l : concat (chop k l) = l /\ Forall nonempty (chop k l).
Proof. unfold chop. apply chop_aux_ok; lia. Qed.

Lemma view_len n w ps : lenN (concat ps) <= n ->
  client_view (CLen n) w ps = (concat ps, n <=? lenN (concat ps), []).
Proof. intros H. unfold client_view, client_stream, ref_read. now rewrite takeN_all, dropN_all by lia. Qed.

(* an HTTP/1.1 client finds the message complete exactly when the last-chunk was sent *)
Lemma view_chunked w ps : Forall nonempty ps -> client_view CChunked w ps = (concat ps, w, []).
Proof.
  intros H. unfold client_view, client_stream, ref_read. destruct w.
  - rewrite pack_chunk_nil, last_chunk_enc. assert (R := chunked_roundtrip true [] ps [] [] eq_refl H eq_refl).
    unfold enc_chunked in R. rewrite app_nil_r in R. unfold pack_chunk. now rewrite R.
  - rewrite app_nil_r. unfold pack_chunk. now rewrite (chunks_without_last true [] ps eq_refl H).
Qed.

Lemma view_close w ps : client_view CCloseDelim w ps = (concat ps, true, []).
Proof. reflexivity. Qed.

Lemma expecting_facts h : expecting_body h = true ->
  h_head h = false /\ body_size h = eff_clen h.
Proof.
  unfold expecting_body, body_size. intros H.
  destruct (h_head h); [discriminate|]. split; [reflexivity|].
  destruct (h_status h =? sc_no_content); [discriminate|].
  destruct (h_status h =? sc_not_modified); [discriminate|].
  destruct (h_status h <? sc_okay); [discriminate|].
  destruct (h_status h =? sc_okay); reflexivity.
Qed.

(* how both sides frame a reply that announces a body *)
Lemma framing h c11 ch cl : expecting_body h = true -> h_chunked h = ch -> h_clen h = cl ->
  origin_framing h = (if ch then OChunked else match cl with Some n => OLen n | None => OClose end) /\
  client_framing h c11 =
    match (if ch then None else cl) with Some n => CLen n | None => if c11 then CChunked else CCloseDelim end.
Proof.
  intros He <- <-. destruct (expecting_facts h He) as [Hh Hbs].
  unfold origin_framing, client_framing. rewrite Hh, Hbs, He. unfold eff_clen. now destruct (h_chunked h).
Qed.

Theorem relay_exact_len h c11 n body extra segs tail ps :
  h_chunked h = false -> expecting_body h = true -> h_clen h = Some n ->
  lenN body = n -> segs <> [] -> concat segs = body ++ extra ->
  let s := srv_run (origin_framing h) (map OSeg segs ++ tail) in
  concat ps = sv_body s -> Forall nonempty ps ->
  sv_body s = body /\ sv_whole s = true /\
  client_view (client_framing h c11) (sv_whole s) ps = (body, true, []).
Proof.
  intros Hc He Hl Hb Hs Hcat s Hps Hne. subst n.
  destruct (framing h c11 _ _ He Hc Hl) as [Hf Hcf]. cbv iota in Hf, Hcf.
  subst s. rewrite Hf, Hcf in *.
  destruct (srv_len_enough (lenN body) segs tail Hs) as [I1 [I2 I3]]; [rewrite Hcat, lenN_app; lia|].
  rewrite Hcat, takeN_app_exact in I1.
  rewrite I1 in *. rewrite I2. repeat split; try reflexivity.
  rewrite <- Hps, view_len, Hps, N.leb_refl by lia. reflexivity.
Qed.

Theorem relay_exact_chunked h c11 u ext ds tr extra segs tail ps :
  h_chunked h = true -> expecting_body h = true ->
  ext_ok ext = true -> Forall nonempty ds -> forallb line_ok tr = true ->
  concat segs = enc_chunked u ext ds tr ++ extra ->
  let s := srv_run (origin_framing h) (map OSeg segs ++ tail) in
  concat ps = sv_body s -> Forall nonempty ps ->
  sv_body s = concat ds /\ sv_whole s = true /\
  client_view (client_framing h c11) (sv_whole s) ps = (concat ds, true, []).
Proof.
  intros Hc He Hx Hd Ht Hcat s Hps Hne.
  destruct (framing h c11 _ _ He Hc eq_refl) as [Hf Hcf]. cbv iota in Hf, Hcf.
  subst s. rewrite Hf, Hcf in *.
  assert (R := chunked_roundtrip u ext ds tr extra Hx Hd Ht). rewrite <- Hcat in R.
  destruct (srv_chunked_enough segs tail (concat ds) extra R) as [I1 [I2 I3]].
  rewrite I2 in *. rewrite I3.
  repeat split; try reflexivity. rewrite <- Hps.
  destruct c11; [now apply view_chunked|apply view_close].
Qed.

Theorem relay_exact_close h c11 segs tail ps :
  h_chunked h = false -> expecting_body h = true -> h_clen h = None ->
  let s := srv_run (origin_framing h) (map OSeg segs ++ OEof :: tail) in
  concat ps = sv_body s -> Forall nonempty ps ->
  sv_body s = concat segs /\ sv_whole s = true /\
  client_view (client_framing h c11) (sv_whole s) ps = (concat segs, true, []).
Proof.
  intros Hc He Hl s Hps Hne.
  destruct (framing h c11 _ _ He Hc Hl) as [Hf Hcf]. cbv iota in Hf, Hcf.
  subst s. rewrite Hf, Hcf in *. rewrite srv_run_from in *.
  destruct (srv_close_segs segs srv_init tail eq_refl) as [I1 [I2 I3]].
  cbn [sv_body srv_init app] in I1. rewrite I1 in *. rewrite I2.
  repeat split; try reflexivity. rewrite <- Hps.
  destruct c11; [now apply view_chunked|apply view_close].
Qed.

(* the origin closes before Content-Length bytes arrived *)
Theorem truncation_visible_len h c11 n segs tail ps :
  h_chunked h = false -> expecting_body h = true -> h_clen h = Some n ->
  lenN (concat segs) < n ->
  let s := srv_run (origin_framing h) (map OSeg segs ++ OEof :: tail) in
  concat ps = sv_body s -> Forall nonempty ps ->
  sv_body s = concat segs /\ sv_whole s = false /\
  client_view (client_framing h c11) (sv_whole s) ps = (concat segs, false, []).
Proof.
  intros Hc He Hl Hlt s Hps Hne.
  destruct (framing h c11 _ _ He Hc Hl) as [Hf Hcf]. cbv iota in Hf, Hcf.
  subst s. rewrite Hf, Hcf in *.
  destruct (srv_len_segs n segs tail) as [I1 [I2 I3]].
  rewrite takeN_all in I1 by lia.
  assert (Hw : (n <=? lenN (concat segs)) = false) by (apply N.leb_gt; lia).
  rewrite Hw in I2. rewrite I1 in *. rewrite I2. repeat split; try reflexivity.
  rewrite <- Hps, view_len by (rewrite Hps; lia). now rewrite Hps, Hw.
Qed.

(* the origin closes inside a chunked body: an HTTP/1.1 client gets chunks without last-chunk *)
Theorem truncation_visible_chunked11 h u ext ds tr pre post segs tail ps :
  h_chunked h = true -> expecting_body h = true ->
  ext_ok ext = true -> Forall nonempty ds -> forallb line_ok tr = true ->
  enc_chunked u ext ds tr = pre ++ post -> post <> [] -> concat segs = pre ->
  let s := srv_run (origin_framing h) (map OSeg segs ++ OEof :: tail) in
  concat ps = sv_body s -> Forall nonempty ps ->
  sv_whole s = false /\ (exists rest, concat ds = sv_body s ++ rest) /\
  client_view (client_framing h true) (sv_whole s) ps = (sv_body s, false, []).
Proof.
  intros Hc He Hx Hd Ht Henc Hpost Hcat s Hps Hne.
  destruct (framing h true _ _ He Hc eq_refl) as [Hf Hcf]. cbv iota in Hf, Hcf.
  subst s. rewrite Hf, Hcf in *.
  assert (R := chunked_roundtrip u ext ds tr [] Hx Hd Ht). rewrite app_nil_r, Henc in R.
  destruct (crun_strict_prefix CSize0 pre post (concat ds) R Hpost) as [s1 [o1 [o2 [E1 [F1 Ho]]]]].
  rewrite <- Hcat in E1.
  destruct (not_final s1 F1) as [Fd Fe].
  destruct (srv_chunked_segs segs tail s1 o1 [] E1) as (_ & Iw & p1 & p2 & Hp & Ib & Ie).
  rewrite (Ie Fe), app_nil_r in Hp. subst p1. rewrite Ib in *. rewrite Iw, Fd.
  split; [reflexivity|]. split; [now exists o2|]. rewrite <- Hps. now apply view_chunked.
Qed.

(* malformed chunk framing from the origin never produces a complete message for an HTTP/1.1 client *)
Theorem malformed_chunked_incomplete h segs tail out rest ps :
  h_chunked h = true -> expecting_body h = true ->
  crun CSize0 (concat segs) = (CErr, out, rest) ->
  let s := srv_run (origin_framing h) (map OSeg segs ++ OEof :: tail) in
  concat ps = sv_body s -> Forall nonempty ps ->
  sv_whole s = false /\ snd (fst (client_view (client_framing h true) (sv_whole s) ps)) = false.
Proof.
  intros Hc He E1 s Hps Hne.
  destruct (framing h true _ _ He Hc eq_refl) as [Hf Hcf]. cbv iota in Hf, Hcf.
  subst s. rewrite Hf, Hcf in *.
  destruct (srv_chunked_segs segs tail CErr out rest E1) as [_ [I2 _]].
  cbn [cst_done] in I2. rewrite I2. split; [reflexivity|].
  rewrite (view_chunked false ps Hne). reflexivity.
Qed.

Theorem head_reply_no_body h c11 evs k :
  h_head h = true -> relay h c11 evs k = (CHeadOnly, ([], false)).
Proof. intros H. unfold relay, client_framing. now rewrite H. Qed.

Lemma srv_nobody_body_empty evs : forall s, sv_body s = [] -> sv_body (srv_from ONoBody s evs) = [].
Proof.
  induction evs as [|e evs IH]; intros s H; [exact H|].
  rewrite srv_from_cons. apply IH. unfold srv_step. destruct (sv_done s); [exact H|]. destruct e; exact H.
Qed.

(* 204 / 304 / 1xx-class status: nothing follows the head, whatever the origin sends and however it is segmented *)
Theorem bodiless_reply_clean h c11 evs k :
  h_head h = false -> h_chunked h = false -> expecting_body h = false ->
  relay h c11 evs k = (CNoBody, ([], false)).
Proof.
  intros Hh Hc He. unfold relay.
  assert (Hf : origin_framing h = ONoBody) by (unfold origin_framing; now rewrite Hc, He).
  assert (Hcf : client_framing h c11 = CNoBody).
  { unfold client_framing. rewrite Hh, He. unfold body_size. rewrite Hh.
    unfold expecting_body in He. rewrite Hh in He.
    destruct (h_status h =? sc_okay) eqn:E.
    - apply N.eqb_eq in E. rewrite E in He. vm_compute in He. discriminate.
    - destruct (h_status h =? sc_no_content); [reflexivity|].
      destruct (h_status h =? sc_not_modified); [reflexivity|].
      destruct (h_status h <? sc_okay); [reflexivity|discriminate]. }
  rewrite Hf, Hcf. rewrite srv_run_from, (srv_nobody_body_empty evs srv_init eq_refl). reflexivity.
Qed.

(* refutations (witnesses are replayed against the running proxy: corpus/C01/known.jsonl) *)
Definition w_head (st : N) (chunked : bool) : rhead :=
  {| h_status := st; h_head := false; h_clen := None; h_chunked := chunked |}.
(* "3\r\nabc\r\n4\r\ndefg\r\n0\r\n\r\n" cut after "3\r\nabc\r\n4\r\nde" *)
Definition w_pre : bytes := [51;13;10;97;98;99;13;10;52;13;10;100;101].
Definition w_post : bytes := [102;103;13;10;48;13;10;13;10].
Definition w_ds : list bytes := [[97;98;99];[100;101;102;103]].

Theorem truncation_http10_refuted :
  enc_chunked false [] w_ds [] = w_pre ++ w_post /\ w_post <> [] /\
  let '(cf, (stream, closed)) := relay (w_head 200 true) false [OSeg w_pre; OEof] 4096 in
  ref_read cf stream closed = ([97;98;99;100;101], true, []) /\ [97;98;99;100;101] <> concat w_ds.
Proof. vm_compute. repeat split; discriminate. Qed.

Definition produced (q : rq) : bytes := concat (q_pieces q) ++ q_buf q.

(* bytes the client connection has delivered so far *)
Definition fed_of (evs : list qev) : bytes :=
  concat (map (fun e => match e with QSeg b => b | _ => [] end) evs).

Definition rq_from (cap : N) (up : upmode) (q : rq) (evs : list qev) : rq := fold_left (rq_step cap up) evs q.

Record invA (q : rq) : Prop := {
  a_get : lenN (concat (q_pieces q)) = q_get q;
  a_put : q_get q + lenN (q_buf q) = q_put q;
  a_ne : Forall nonempty (q_pieces q);
  a_whole : q_whole q = true -> q_prod q = false /\ q_size q = Some (q_put q);
  a_abort : q_abort q = true -> q_prod q = false /\ q_size q <> Some (q_put q);
  a_last : q_last q = true -> q_whole q = true /\ q_buf q = [] }.

Lemma invA_init clen : invA (rq_init clen).
Proof. constructor; cbn; try discriminate; auto. Qed.

Lemma intake_prod_false cap q : q_prod q = false -> intake cap q = q.
Proof. intros H. unfold intake. now rewrite H. Qed.

(* while the client is still producing, no end of body has been noted *)
Lemma invA_producing q : invA q -> q_prod q = true -> q_whole q = false /\ q_abort q = false /\ q_last q = false.
Proof.
  intros [_ _ _ Hw Ha Hl] P. rewrite P in Hw, Ha.
  destruct (q_whole q); [destruct (Hw eq_refl); discriminate|].
  destruct (q_abort q); [destruct (Ha eq_refl); discriminate|].
  destruct (q_last q); [destruct (Hl eq_refl); discriminate|]. auto.
Qed.

Lemma intake_invA cap q : invA q -> invA (intake cap q).
Proof.
  intros I. destruct (q_prod q) eqn:P; [|now rewrite intake_prod_false].
  destruct (invA_producing q I P) as (W & Ab & L).
  unfold intake. rewrite P. cbn [negb].
  destruct (q_chunked_in q).
  - destruct (q_inbuf q) as [|c r] eqn:Ein; [exact I|]. rewrite <- Ein.
    destruct (crun_cap (pipe_space cap (q_buf q)) (q_dec q) (q_inbuf q)) as [[d out] rest].
    destruct (cst_err d).
    + constructor; cbn; try (rewrite ?W, ?Ab, ?L; discriminate); try apply I.
    + constructor; cbn; try (rewrite ?W, ?Ab, ?L; discriminate); try apply I.
      rewrite lenN_app. destruct I as [_ Hp _ _ _ _]. lia.
  - constructor; cbn; try (rewrite ?W, ?Ab, ?L; discriminate); try apply I.
    rewrite lenN_app, lenN_takeN. destruct I as [_ Hp _ _ _ _].
    set (sz := N.min (N.min (lenN (q_inbuf q)) match q_size q with Some n => n - q_put q | None => 0 end)
                     (pipe_space cap (q_buf q))). lia.
Qed.

Lemma step_invA cap up q e : invA q -> invA (rq_step cap up q e).
Proof.
  intros I. destruct e; cbn [rq_step].
  - apply intake_invA. destruct I; constructor; cbn; auto.
  - now apply intake_invA.
  - destruct (q_prod q) eqn:P; [|exact I].
    destruct (invA_producing q I P) as (W & Ab & L).
    constructor; cbn; try (rewrite ?W, ?Ab, ?L; discriminate); try apply I.
  - destruct (q_prod q) eqn:P; [exact I|].
    constructor; cbn; try apply I.
    + intros H. split; [reflexivity|]. apply orb_prop in H. destruct H as [H|H]; [now apply (a_whole q I)|].
      destruct (q_size q) as [n|]; [|discriminate]. apply N.eqb_eq in H. now subst.
    + intros H. split; [reflexivity|]. apply orb_prop in H. destruct H as [H|H]; [now apply (a_abort q I)|].
      destruct (q_size q) as [n|]; [|discriminate]. intros E. inversion E; subst. rewrite N.eqb_refl in H. discriminate.
    + intros H. destruct (a_last q I H) as [H1 H2]. now rewrite H1.
  - destruct (q_abort q) eqn:Ab; [exact I|].
    destruct (q_buf q) as [|c r] eqn:B.
    + destruct up; [exact I|]. destruct (q_whole q && negb (q_last q)) eqn:E; [|exact I].
      apply andb_prop in E. destruct E as [W _].
      constructor; cbn; try apply I; try discriminate; try (rewrite Ab; discriminate).
      * destruct I as [_ Hp _ _ _ _]. now rewrite B in Hp.
      * auto.
    + constructor; cbn [q_pieces q_get q_buf q_put q_whole q_prod q_size q_abort q_last].
      * rewrite (concat_snoc (A:=N)), lenN_app. destruct I as [Hg _ _ _ _ _]. now rewrite Hg.
      * destruct I as [_ Hp _ _ _ _]. rewrite B in Hp. cbn [lenN] in *. lia.
      * apply Forall_app. split; [apply I|]. constructor; [discriminate|constructor].
      * apply I.
      * discriminate.
      * intros H. split; [|reflexivity]. destruct up; [now apply (a_last q I)|].
        apply orb_prop in H. destruct H as [H|H]; [now apply (a_last q I)|exact H].
Qed.

Lemma run_invA cap up evs : forall q, invA q -> invA (rq_from cap up q evs).
Proof.
  induction evs as [|e evs IH]; intros q I; [exact I|].
  unfold rq_from in *. cbn [fold_left]. apply IH. now apply step_invA.
Qed.

(* FIFO: at every moment of every schedule, what the server side took out of the pipe followed by what is still
   buffered is exactly what was put in, and the counters are the lengths *)
Theorem bodypipe_fifo cap up clen evs :
  let q := rq_run cap up clen evs in
  lenN (concat (q_pieces q)) = q_get q /\ lenN (produced q) = q_put q /\ q_get q <= q_put q /\
  Forall nonempty (q_pieces q).
Proof.
  intros q. assert (I : invA q) by (apply run_invA, invA_init).
  destruct I as [Hg Hp Hn _ _ _]. unfold produced. rewrite lenN_app, Hg. repeat split; auto; lia.
Qed.

(* the upstream byte stream is validly framed at every moment *)
Theorem upstream_framing_valid cap up clen evs :
  let q := rq_run cap up clen evs in
  match up with
  | UpChunked => crun CSize0 (up_stream UpChunked q) = (if q_last q then CDone else CSize0, concat (q_pieces q), [])
  | UpLen n => up_stream (UpLen n) q = concat (q_pieces q)
  end.
Proof.
  intros q. assert (I : invA q) by (apply run_invA, invA_init).
  destruct up; [reflexivity|]. unfold up_stream, up_chunk. destruct (q_last q).
  - rewrite last_chunk_enc.
    assert (R := chunked_roundtrip false [] (q_pieces q) [] [] eq_refl (a_ne q I) eq_refl).
    unfold enc_chunked in R. now rewrite app_nil_r in R.
  - rewrite app_nil_r. apply chunks_without_last; [reflexivity|apply I].
Qed.

(* last-chunk goes out only after the end notification, with nothing left in the pipe *)
Theorem last_chunk_only_when_whole cap up clen evs :
  let q := rq_run cap up clen evs in
  q_last q = true -> q_whole q = true /\ q_buf q = [] /\ q_prod q = false /\ q_size q = Some (q_put q) /\
                     lenN (concat (q_pieces q)) = q_put q.
Proof.
  intros q H. assert (I : invA q) by (apply run_invA, invA_init).
  destruct (a_last q I H) as [W B]. destruct (a_whole q I W) as [P S].
  repeat split; auto. destruct I as [Hg Hp _ _ _ _]. rewrite B in Hp. cbn [lenN] in Hp. lia.
Qed.

(* what was produced is a prefix of the client's body as the reference reader decodes it *)
Lemma crun_cap_split : forall l cap s s' out rest,
  crun_cap cap s l = (s', out, rest) -> exists used, l = used ++ rest /\ crun s used = (s', out, []).
Proof.
  induction l as [|c r IH]; intros cap s s' out rest H.
  - cbn [crun_cap] in H. inversion H; subst. exists []. auto.
  - cbn [crun_cap] in H. destruct (cst_final s) eqn:F.
    + inversion H; subst. exists []. auto.
    + assert (G : forall cap', (let '(s1, o1) := cstep s c in
                                let '(s2, o2, rest0) := crun_cap cap' s1 r in (s2, o1 ++ o2, rest0)) = (s', out, rest) ->
                  exists used, c :: r = used ++ rest /\ crun s used = (s', out, [])).
      { intros cap' H'. destruct (cstep s c) as [s1 o1] eqn:Es.
        destruct (crun_cap cap' s1 r) as [[s2 o2] rest0] eqn:Ec. inversion H'; subst.
        destruct (IH _ _ _ _ _ Ec) as [used [Hu Hr]]. exists (c :: used). split; [cbn; now rewrite <- Hu|].
        rewrite crun_cons by exact F. rewrite Es, Hr. reflexivity. }
      destruct s; try (now apply (G cap)); try discriminate.
      destruct (cap =? 0); [inversion H; subst; exists []; auto|now apply (G (cap - 1))].
Qed.

Definition invB (clen : option N) (q : rq) (fed : bytes) : Prop :=
  match clen with
  | Some n =>
      q_chunked_in q = false /\ q_size q = Some n /\ q_put q <= n /\
      exists rest, fed = produced q ++ rest /\ (q_prod q = true -> rest = q_inbuf q /\ q_put q < n)
  | None =>
      q_chunked_in q = true /\
      exists consumed rest dd, fed = consumed ++ rest /\ crun CSize0 consumed = (dd, produced q, []) /\
        (q_prod q = true -> rest = q_inbuf q /\ dd = q_dec q /\ cst_final dd = false /\ q_size q = None) /\
        (q_prod q = false -> (q_size q = Some (q_put q) /\ dd = CDone) \/ q_size q = None)
  end.

Lemma invB_ext clen q q' fed :
  q_chunked_in q' = q_chunked_in q -> q_size q' = q_size q -> q_put q' = q_put q -> produced q' = produced q ->
  q_prod q' = q_prod q -> q_inbuf q' = q_inbuf q -> q_dec q' = q_dec q -> invB clen q fed -> invB clen q' fed.
Proof. intros E1 E2 E3 E4 E5 E6 E7. unfold invB. rewrite E1, E2, E3, E4, E5, E6, E7. auto. Qed.

Definition clen_ok (clen : option N) : Prop := match clen with Some n => 1 <= n | None => True end.

Lemma invB_init clen : clen_ok clen -> invB clen (rq_init clen) [].
Proof.
  destruct clen as [n|]; intros H; cbn in *.
  - split; [reflexivity|]. split; [reflexivity|]. split; [lia|]. exists []. split; [reflexivity|].
    intros _. split; [reflexivity|lia].
  - split; [reflexivity|]. exists [], [], CSize0. split; [reflexivity|]. split; [reflexivity|].
    split; [auto|discriminate].
Qed.

Lemma intake_invB cap clen q fed : invB clen q fed -> invB clen (intake cap q) fed.
Proof.
  intros IB. destruct (q_prod q) eqn:P; [|now rewrite intake_prod_false].
  unfold intake. rewrite P. cbn [negb]. destruct clen as [n|]; cbn [invB] in *.
  - destruct IB as [Hm [Hs [Hle [rest [Hf Hp]]]]]. rewrite Hm. destruct (Hp P) as [Hr Hlt]. subst rest.
    rewrite Hs. set (sz := N.min (N.min (lenN (q_inbuf q)) (n - q_put q)) (pipe_space cap (q_buf q))).
    cbn [q_chunked_in q_size q_put q_prod q_inbuf]. repeat split; try lia.
    exists (dropN sz (q_inbuf q)). split.
    + unfold produced. cbn [q_pieces q_buf]. rewrite Hf. unfold produced.
      rewrite <- !app_assoc. now rewrite takeN_dropN.
    + intros Hprod. split; [reflexivity|]. destruct (sz =? 0) eqn:E; lia.
  - destruct IB as [Hm [consumed [rest [dd [Hf [Hc [Hp Hnp]]]]]]]. rewrite Hm.
    destruct (Hp P) as [Hr [Hd [Hfin Hsz]]]. subst rest dd.
    destruct (q_inbuf q) as [|c r] eqn:Ein.
    + split; [exact Hm|]. exists consumed, [], (q_dec q). rewrite Ein in *. repeat split; auto.
    + rewrite <- Ein in *.
      destruct (crun_cap (pipe_space cap (q_buf q)) (q_dec q) (q_inbuf q)) as [[d out] rest'] eqn:Ecap.
      destruct (crun_cap_split _ _ _ _ _ _ Ecap) as [used [Hu Hrun]].
      destruct (cst_err d) eqn:Eerr.
      * cbn [invB q_chunked_in]. split; [reflexivity|]. exists consumed, (q_inbuf q), (q_dec q).
        unfold produced. cbn [q_pieces q_buf q_prod q_size q_put]. repeat split; auto; try discriminate.
      * cbn [q_chunked_in]. split; [reflexivity|]. exists (consumed ++ used), rest', d.
        unfold produced. cbn [q_pieces q_buf q_prod q_size q_put q_inbuf q_dec]. split; [|split; [|split]].
        -- rewrite Hf, Hu. now rewrite app_assoc.
        -- rewrite crun_app, Hc. cbn [app]. rewrite Hrun. unfold produced. now rewrite app_assoc.
        -- intros Hprod. apply negb_true_iff in Hprod. rewrite Hprod. repeat split; auto.
           destruct d; try discriminate; reflexivity.
        -- intros Hprod. apply negb_false_iff in Hprod. rewrite Hprod. left. split; [reflexivity|].
           destruct d; try discriminate; reflexivity.
Qed.

Definition ev_bytes (e : qev) : bytes := match e with QSeg b => b | _ => [] end.

Lemma step_invB cap up clen q fed e :
  invB clen q fed -> invB clen (rq_step cap up q e) (fed ++ ev_bytes e).
Proof.
  intros IB. destruct e; cbn [rq_step ev_bytes]; rewrite ?app_nil_r.
  - apply intake_invB. destruct clen as [n|]; cbn [invB] in *.
    + destruct IB as [Hm [Hs [Hle [rest [Hf Hp]]]]]. cbn [q_chunked_in q_size q_put q_prod q_inbuf].
      repeat split; auto. exists (rest ++ b). split; [unfold produced in *; cbn [q_pieces q_buf]; rewrite Hf; now rewrite app_assoc|].
      intros Hprod. destruct (Hp Hprod) as [Hr Hlt]. now subst.
    + destruct IB as [Hm [consumed [rest [dd [Hf [Hc [Hp Hnp]]]]]]]. cbn [q_chunked_in]. split; [exact Hm|].
      exists consumed, (rest ++ b), dd. unfold produced in *. cbn [q_pieces q_buf q_prod q_inbuf q_dec q_size q_put].
      split; [rewrite Hf; now rewrite app_assoc|]. split; [exact Hc|]. split; [|exact Hnp].
      intros Hprod. destruct (Hp Hprod) as [Hr [Hd [Hfin Hsz]]]. subst. auto.
  - now apply intake_invB.
  - destruct (q_prod q) eqn:P; [|exact IB]. destruct clen as [n|]; cbn [invB] in *.
    + destruct IB as [Hm [Hs [Hle [rest [Hf Hp]]]]]. cbn [q_chunked_in q_size q_put q_prod]. repeat split; auto.
      exists rest. split; [exact Hf|discriminate].
    + destruct IB as [Hm [consumed [rest [dd [Hf [Hc [Hp Hnp]]]]]]]. cbn [q_chunked_in]. split; [exact Hm|].
      exists consumed, rest, dd. unfold produced in *. cbn [q_pieces q_buf q_prod q_size q_put].
      repeat split; auto; try discriminate. intros _. right. now destruct (Hp P) as [_ [_ [_ Hsz]]].
  - destruct (q_prod q) eqn:P; [exact IB|]. eapply invB_ext; [..|exact IB]; try reflexivity. cbn [q_prod]. now rewrite P.
  - (* QGet: what leaves the buffer goes to the pieces *)
    destruct (q_abort q); [exact IB|]. destruct (q_buf q) as [|c r] eqn:B.
    + destruct up; [exact IB|]. destruct (q_whole q && negb (q_last q)); [|exact IB].
      eapply invB_ext; [..|exact IB]; try reflexivity. unfold produced. cbn [q_pieces q_buf]. now rewrite B.
    + eapply invB_ext; [..|exact IB]; try reflexivity. unfold produced. cbn [q_pieces q_buf]. now rewrite B, (concat_snoc (A:=N)), app_nil_r.
Qed.

Lemma fed_of_cons e evs : fed_of (e :: evs) = ev_bytes e ++ fed_of evs.
Proof. reflexivity. Qed.

Lemma run_invB cap up clen evs : forall q fed,
  invB clen q fed -> invB clen (rq_from cap up q evs) (fed ++ fed_of evs).
Proof.
  induction evs as [|e evs IH]; intros q fed IB.
  - cbn. now rewrite app_nil_r.
  - unfold rq_from in *. cbn [fold_left]. rewrite fed_of_cons, app_assoc. now apply IH, step_invB.
Qed.

Lemma run_inv cap up clen evs : clen_ok clen ->
  invA (rq_run cap up clen evs) /\ invB clen (rq_run cap up clen evs) (fed_of evs).
Proof.
  intros H. split; [apply run_invA, invA_init|].
  change (fed_of evs) with ([] ++ fed_of evs). now apply run_invB, invB_init.
Qed.

(* Content-Length client body: produced bytes are a prefix of the first n bytes the client sent; whole => all n *)
Theorem produced_prefix_len cap up n evs : 1 <= n ->
  let q := rq_run cap up (Some n) evs in
  (exists rest, takeN n (fed_of evs) = produced q ++ rest) /\
  (q_whole q = true -> produced q = takeN n (fed_of evs) /\ n <= lenN (fed_of evs)).
Proof.
  intros Hn q. destruct (run_inv cap up (Some n) evs Hn) as [IA IB]. fold q in IA, IB.
  cbn [invB] in IB. destruct IB as [Hm [Hs [Hle [rest [Hf Hp]]]]].
  assert (Hl : lenN (produced q) = q_put q) by apply (bodypipe_fifo cap up (Some n) evs).
  split.
  - exists (takeN (n - q_put q) rest). rewrite Hf, takeN_app, takeN_all by lia. now rewrite Hl.
  - intros W. destruct (a_whole q IA W) as [_ Hsz]. rewrite Hs in Hsz. inversion Hsz as [Hn'].
    rewrite Hf, takeN_app, takeN_all by lia. rewrite Hl, <- Hn', N.sub_diag, takeN_0, app_nil_r.
    split; [reflexivity|]. rewrite lenN_app. lia.
Qed.

(* chunked client body: produced bytes are a prefix of what the reference reader decodes from the client's bytes;
   whole => the reference reader finds the message complete with exactly that body *)
Theorem produced_prefix_chunked cap up evs :
  let q := rq_run cap up None evs in
  (exists d o2 r, crun CSize0 (fed_of evs) = (d, produced q ++ o2, r)) /\
  (q_whole q = true -> exists r, crun CSize0 (fed_of evs) = (CDone, produced q, r)).
Proof.
  intros q. destruct (run_inv cap up None evs I) as [IA IB]. fold q in IA, IB.
  cbn [invB] in IB. destruct IB as [Hm [consumed [rest [dd [Hf [Hc [Hp Hnp]]]]]]].
  split.
  - rewrite Hf, crun_app, Hc. cbn [app]. destruct (crun dd rest) as [[s2 o2] r2]. now exists s2, o2, r2.
  - intros W. destruct (a_whole q IA W) as [Hprod Hsz]. destruct (Hnp Hprod) as [[_ Hd]|Hnone]; [|congruence].
    subst dd. rewrite Hf, crun_app, Hc. cbn [app]. rewrite crun_final by reflexivity. exists rest. now rewrite app_nil_r.
Qed.

(* upstream completeness is exactness. Chunked upstream: once last-chunk is out, the reference reader decodes the
   upstream stream, complete, to exactly the client's body *)
Theorem upstream_complete_exact_chunked cap evs clen : clen_ok clen ->
  let q := rq_run cap UpChunked clen evs in
  q_last q = true ->
  exists body, crun CSize0 (up_stream UpChunked q) = (CDone, body, []) /\
    match clen with
    | Some n => body = takeN n (fed_of evs) /\ n <= lenN (fed_of evs)
    | None => exists r, crun CSize0 (fed_of evs) = (CDone, body, r)
    end.
Proof.
  intros Hok q HL. assert (F := upstream_framing_valid cap UpChunked clen evs). cbn zeta in F. fold q in F.
  rewrite HL in F. exists (concat (q_pieces q)). split; [exact F|].
  destruct (last_chunk_only_when_whole cap UpChunked clen evs HL) as [W [B _]]. fold q in W, B.
  assert (Hpr : produced q = concat (q_pieces q)) by (unfold produced; rewrite B; apply app_nil_r).
  destruct clen as [n|].
  - destruct (produced_prefix_len cap UpChunked n evs Hok) as [_ H]. fold q in H. rewrite <- Hpr. now apply H.
  - destruct (produced_prefix_chunked cap UpChunked evs) as [_ H]. fold q in H. rewrite <- Hpr. now apply H.
Qed.

(* Content-Length upstream (Content-Length client): the stream is always a prefix of the client's first n bytes and
   reaches the declared length only as exactly those n bytes *)
Theorem upstream_len_exact cap n evs : 1 <= n ->
  let q := rq_run cap (UpLen n) (Some n) evs in
  (exists rest, takeN n (fed_of evs) = up_stream (UpLen n) q ++ rest) /\
  (lenN (up_stream (UpLen n) q) = n -> up_stream (UpLen n) q = takeN n (fed_of evs) /\ n <= lenN (fed_of evs)).
Proof.
  intros Hn q. destruct (produced_prefix_len cap (UpLen n) n evs Hn) as [[rest Hr] _]. fold q in Hr.
  unfold up_stream. unfold produced in Hr. split.
  - exists (q_buf q ++ rest). now rewrite Hr, app_assoc.
  - intros Hl. assert (Ht := lenN_takeN n (fed_of evs)).
    rewrite Hr, !lenN_app in Ht.
    assert (Hb : q_buf q = []) by (apply lenN_nil_iff; lia).
    assert (Hrest : rest = []) by (apply lenN_nil_iff; lia).
    rewrite Hr, Hb, Hrest, !app_nil_r. split; [reflexivity|lia].
Qed.

(* a client body that never completes (abort, or malformed chunking) never completes upstream *)
Theorem upstream_abort_visible cap up clen evs : clen_ok clen ->
  match clen with
  | Some n => lenN (fed_of evs) < n
  | None => cst_done (fst (fst (crun CSize0 (fed_of evs)))) = false
  end ->
  let q := rq_run cap up clen evs in
  q_whole q = false /\ q_last q = false /\
  match up with UpLen m => clen = Some m -> lenN (up_stream up q) < m | UpChunked => True end.
Proof.
  intros Hok Hshort q.
  assert (W : q_whole q = false).
  { destruct (q_whole q) eqn:W; [|reflexivity]. destruct clen as [n|].
    - destruct (produced_prefix_len cap up n evs Hok) as [_ H]. fold q in H. destruct (H W). lia.
    - destruct (produced_prefix_chunked cap up evs) as [_ H]. fold q in H. destruct (H W) as [r Hr].
      rewrite Hr in Hshort. discriminate. }
  split; [exact W|].
  assert (IA : invA q) by (apply run_invA, invA_init).
  split.
  - destruct (q_last q) eqn:L; [|reflexivity]. destruct (a_last q IA L). congruence.
  - destruct up as [m|]; [|exact I]. intros ->.
    destruct (upstream_len_exact cap m evs Hok) as [[rest Hr] _]. fold q in Hr.
    assert (Ht := lenN_takeN m (fed_of evs)). rewrite Hr, lenN_app in Ht. lia.
Qed.

(* once the client's body has been produced completely, end notification + two consumer turns flush everything *)
Theorem end_of_body_is_flushed cap up clen evs :
  let q := rq_run cap up clen evs in
  q_prod q = false -> q_size q = Some (q_put q) -> q_abort q = false ->
  let q' := rq_from cap up q [QNote; QGet; QGet] in
  q_buf q' = [] /\ concat (q_pieces q') = produced q /\ q_whole q' = true /\
  match up with UpChunked => q_last q' = true | UpLen _ => True end.
Proof.
  intros q P S Ab. assert (IA : invA q) by (apply run_invA, invA_init).
  assert (Hl : q_last q = true -> q_buf q = []) by (intros L; now destruct (a_last q IA L)).
  clearbody q. clear IA. destruct q as [ci inb dec buf put get size prod whole abort pieces last].
  cbn [q_prod q_size q_put q_abort q_last q_buf] in P, S, Ab, Hl. subst prod size abort.
  unfold rq_from, produced. cbn [fold_left rq_step q_prod q_size q_put q_abort q_buf q_whole q_last q_pieces
                                 q_chunked_in q_inbuf q_dec q_get negb].
  rewrite N.eqb_refl. cbn [negb orb]. rewrite !orb_true_r. cbn [orb].
  destruct buf as [|c r].
  - destruct up as [m|]; cbn [q_abort q_buf q_whole q_last q_pieces andb negb].
    + rewrite app_nil_r. auto.
    + destruct last; cbn [negb andb q_abort q_buf q_whole q_last q_pieces]; rewrite app_nil_r; auto.
  - assert (last = false) by (destruct last; [specialize (Hl eq_refl); discriminate|reflexivity]). subst last.
    destruct up as [m|]; cbn [q_abort q_buf q_whole q_last q_pieces andb negb orb];
      rewrite (concat_snoc (A:=N)); auto.
Qed.
