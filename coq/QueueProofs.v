(* QueueProofs.v — proofs about QueueModel.v (C56: Ipc::OneToOneUniQueue + QueueReader).

   Method. Two invariants over all interleavings of the producer and the consumer:
   Inv1 (no hypothesis on the indices): theSize = items copied in and counted - items
   popped, it never exceeds theCapacity nor wraps; a consumer committed to a pop has an
   item; the reader flags: blocked is set whenever the consumer is past block(); signal
   implies a notification that is pending, about to be sent, or being cleared; an idle
   consumer facing a non-empty queue has a notification pending or the push in flight
   will answer "notify".
   Inv2 (needs: capacity divides 2^32, or the cursors do not pass 2^32): theIn/theOut are
   i0 + counts modulo 2^32; the ring holds, for every item copied in and not yet popped,
   its value at position ((i0 + j) mod 2^32) mod capacity — distinct positions because
   fewer than capacity such items exist; popped = the first items copied in.
   lia is kept away from `mod`: wrap32/sidx stay folded (simpl never) and W32 is opaque. *)
Require Import SquidV.Bytes SquidV.QueueModel.
Require Import ZifyBool ZifyN ZifyNat.
Local Open Scope N_scope.

Lemma nthN_ge_none {A} (l : list A) : forall j, lenN l <= j -> nthN j l = None.
Proof. apply Bytes.nthN_none. Qed.

Lemma dropN_nth {A} (l : list A) : forall n x, nthN n l = Some x -> dropN n l = x :: dropN (n + 1) l.
Proof.
  intros n x H. destruct (nthN_split _ _ _ H) as [E L]. rewrite E at 1.
  rewrite dropN_app_ge, L, N.sub_diag by lia. reflexivity.
Qed.

Lemma takeN_succ {A} (l : list A) : forall n x, nthN n l = Some x -> takeN (n + 1) l = takeN n l ++ [x].
Proof. intros n x H. rewrite takeN_add, (dropN_nth _ _ _ H). cbn. rewrite takeN_0. reflexivity. Qed.

Lemma lenN_map {A B} (f : A -> B) l : lenN (map f l) = lenN l.
Proof. apply Bytes.lenN_map. Qed.

Lemma lenN_setN {A} (l : list A) : forall n x, lenN (setN n x l) = lenN l.
Proof.
  induction l as [|y l IH]; intros n x; cbn [setN lenN]. { reflexivity. }
  destruct (n =? 0); cbn [lenN]; [reflexivity|]. rewrite IH. reflexivity.
Qed.

Lemma nthN_setN_same {A} (l : list A) : forall n x, n < lenN l -> nthN n (setN n x l) = Some x.
Proof.
  induction l as [|y l IH]; intros n x Hn; cbn [lenN] in Hn. { lia. }
  cbn [setN]. destruct (n =? 0) eqn:E; cbn [nthN]; rewrite E; [reflexivity|]. apply IH. lia.
Qed.

Lemma nthN_setN_other {A} (l : list A) : forall p q x, p <> q -> nthN p (setN q x l) = nthN p l.
Proof.
  induction l as [|y l IH]; intros p q x Hpq; cbn [setN]. { reflexivity. }
  destruct (q =? 0) eqn:Eq; cbn [nthN]; destruct (p =? 0) eqn:Ep; try reflexivity.
  - lia.
  - apply IH. lia.
Qed.

Lemma mod_distinct c x y : 0 < c -> x < y -> y - x < c -> x mod c <> y mod c.
Proof.
  intros Hc Hxy Hd E.
  pose proof (N.div_mod x c ltac:(lia)) as Hx. pose proof (N.div_mod y c ltac:(lia)) as Hy.
  pose proof (N.mod_lt x c ltac:(lia)). pose proof (N.mod_lt y c ltac:(lia)).
  rewrite E in Hx.
  assert (Hq : x / c < y / c \/ y / c <= x / c) by lia.
  destruct Hq as [Hq|Hq]; nia.
Qed.

Lemma mod_mod_dividing W c x : 0 < c -> W mod c = 0 -> (x mod W) mod c = x mod c.
Proof.
  intros Hc HW.
  assert (W = c * (W / c)) as HWc. { pose proof (N.div_mod W c ltac:(lia)). lia. }
  destruct (N.eq_dec (W / c) 0) as [Hz|Hz].
  - rewrite Hz, N.mul_0_r in HWc. subst W. destruct x; cbn; reflexivity.
  - rewrite HWc at 1. rewrite N.mod_mul_r by lia.
    rewrite (N.mul_comm c). rewrite N.mod_add by lia. apply N.mod_mod. lia.
Qed.

Arguments N.modulo : simpl never.
Arguments N.sub : simpl never.
Arguments N.add : simpl never.
Arguments N.mul : simpl never.
Arguments N.ltb : simpl never.
Arguments N.eqb : simpl never.
Arguments wrap32 : simpl never.
Arguments sidx : simpl never.

Definition wp (p : ppc) : N := match p with PPush3 _ => 1 | _ => 0 end.
Definition tp (p : ppc) : N := match p with PPush2 _ _ => 1 | _ => 0 end.
Definition cc (c : cpc) : N := match c with CPop4 | CPop5 _ | CPop6 _ => 1 | _ => 0 end.
Definition tc (c : cpc) : N := match c with CPop5 _ | CPop6 _ => 1 | _ => 0 end.
Definition cblocked (c : cpc) : bool := match c with CPop3 | CIdle | CDone => true | _ => false end.
Definition cclearing (c : cpc) : bool := match c with CClr1 | CClr2 => true | _ => false end.
Definition cidle (c : cpc) : bool := match c with CIdle | CDone => true | _ => false end.
Definition is_notify (p : ppc) : bool := match p with PNotify => true | _ => false end.
Definition is_pdone (p : ppc) : bool := match p with PDone => true | _ => false end.
Definition is_cdone (c : cpc) : bool := match c with CDone => true | _ => false end.

Record Inv1 (s : state) : Prop := mkInv1 {
  i_cap : 0 < cap s < W32;
  i_size : size s + wp (pp s) + lenN (popped s) = lenN (acc s);
  i_room : size s + tp (pp s) + wp (pp s) <= cap s;
  i_comm : cc (cp s) <= size s;
  i_blk : cblocked (cp s) = true -> blocked s = true;
  i_sig : signal s = true -> 0 < notifs s \/ is_notify (pp s) = true \/ cclearing (cp s) = true;
  i_wake : cidle (cp s) = true -> 0 < size s -> 0 < notifs s \/ will_notify s = true;
  i_done : is_cdone (cp s) = true -> is_pdone (pp s) = true /\ notifs s = 0
}.

Lemma W32_pos : 0 < W32. Proof. reflexivity. Qed.
Lemma wrap32_small x : x < W32 -> wrap32 x = x.
Proof. intros. unfold wrap32. apply N.mod_small. assumption. Qed.
Lemma wrap32_dec x : 0 < x -> x < W32 -> wrap32 (x + (W32 - 1)) = x - 1.
Proof.
  intros. unfold wrap32. replace (x + (W32 - 1)) with ((x - 1) + 1 * W32) by lia.
  rewrite N.mod_add by (pose proof W32_pos; lia). apply N.mod_small. lia.
Qed.
Global Opaque W32.

(* lia on the arithmetic hypotheses only: it is slow on the clauses about flags and pcs (implications), and has no use for them *)
Ltac nlia :=
  repeat match goal with
         | H : forall _, _ |- _ => clear H
         | H : @eq (list _) _ _ |- _ => clear H
         | H : @eq cpc _ _ |- _ => clear H
         | H : @eq ppc _ _ |- _ => clear H
         | H : @eq (option _) _ _ |- _ => clear H
         end; lia.
Ltac flags := first [assumption | solve [intuition (discriminate || nlia)] | idtac].
(* the state after a step satisfies Inv1: four counting clauses, four clauses about flags *)
Ltac fin := rewrite ?wrap32_small by nlia; rewrite ?wrap32_dec by nlia; constructor; cbn; rewrite ?lenN_app; cbn [lenN];
  [nlia | nlia | nlia | nlia | flags | flags | flags | flags].

Lemma pstep_inv1 s : Inv1 s -> Inv1 (fst (pstep s)).
Proof.
  destruct s as [cap0 i00 tin0 tout0 size0 blocked0 signal0 buf0 notifs0 polls0 pp0 items0 cp0 acc0 pushed0 popped0].
  intros [Hcap Hsize Hroom Hcomm Hblk Hsig Hwake Hdone]; cbn in *.
  unfold pstep, finish_push, advance; cbn.
  destruct pp0; cbn in *.
  - destruct (size0 =? cap0) eqn:E; [destruct items0|]; fin.
  - fin.
  - destruct (size0 =? 0) eqn:E.
    + (* the queue becomes non-empty: a sleeping consumer has left blocked set and signal clear, or a notification is pending *)
      fin. intros Hi _. destruct cp0; try discriminate Hi; cbn in *; rewrite Hblk by reflexivity;
        destruct signal0; auto; destruct Hsig as [?|[?|?]]; auto; discriminate.
    + assert (0 < size0) by nlia. destruct items0; fin.
  - destruct blocked0; [|destruct items0]; fin.
  - destruct signal0; [destruct items0|]; fin.
  - destruct items0; fin.
  - fin.
Qed.

Lemma cstep_inv1 s : Inv1 s -> Inv1 (fst (cstep s)).
Proof.
  destruct s as [cap0 i00 tin0 tout0 size0 blocked0 signal0 buf0 notifs0 polls0 pp0 items0 cp0 acc0 pushed0 popped0].
  intros [Hcap Hsize Hroom Hcomm Hblk Hsig Hwake Hdone]; cbn in *.
  unfold cstep; cbn.
  destruct cp0; cbn in *.
  - fin.
  - fin.
  - destruct (size0 =? 0) eqn:E; fin.
  - fin.
  - destruct (size0 =? 0) eqn:E; fin.
  - fin.
  - fin.
  - fin.
  - destruct (0 <? notifs0) eqn:E1; [|destruct (0 <? polls0) eqn:E2; [|destruct pp0; cbn in *]]; fin.
  - fin.
Qed.

Definition pend (p : ppc) : N := match p with PPush1 _ | PPush2 _ _ => 1 | _ => 0 end.
Definition bound (s : state) : N := lenN (acc s) + pend (pp s) + lenN (items s).
Definition divides_W (c : N) : Prop := W32 mod c = 0.
Definition wrap_ok (s : state) : Prop := divides_W (cap s) \/ i0 s + bound s <= W32.
Definition inflight (p : ppc) : list N := match p with PPush3 v | PPush4 v | PPush5 v => [v] | _ => [] end.

Record Inv2 (s : state) : Prop := mkInv2 {
  j_i0 : i0 s < W32;
  j_len : lenN (buf s) = cap s;
  j_wrap : wrap_ok s;
  j_tin : tin s = wrap32 (i0 s + lenN (acc s) + tp (pp s));
  j_tout : tout s = wrap32 (i0 s + lenN (popped s) + tc (cp s));
  j_ppos : forall v pos, pp s = PPush2 v pos -> pos = slotidx s (lenN (acc s));
  j_cpos : forall pos, cp s = CPop5 pos -> pos = slotidx s (lenN (popped s));
  j_cval : forall v, cp s = CPop6 v -> v = nthN (lenN (popped s)) (acc s);
  j_buf : forall j, lenN (popped s) <= j < lenN (acc s) -> slot (slotidx s j) (buf s) = nthN j (acc s);
  j_popped : popped s = map Some (takeN (lenN (popped s)) (acc s));
  j_pushed : acc s = pushed s ++ inflight (pp s)
}.

Lemma sidx_distinct c i j1 j2 :
  0 < c -> (divides_W c \/ i + j2 < W32) -> j1 < j2 -> j2 - j1 < c -> sidx c i j1 <> sidx c i j2.
Proof.
  unfold sidx, wrap32, divides_W. intros Hc [Hd|Hs] H12 Hlt.
  - rewrite !mod_mod_dividing by assumption. apply mod_distinct; lia.
  - rewrite (N.mod_small (i + j1)) by lia. rewrite (N.mod_small (i + j2)) by lia. apply mod_distinct; lia.
Qed.

Lemma sidx_lt c i j : 0 < c -> sidx c i j < c.
Proof. intros. unfold sidx. apply N.mod_lt. lia. Qed.

Lemma one_lt_W32 : 1 < W32. Proof. Transparent W32. reflexivity. Qed.
Opaque W32.
Lemma wrap32_succ x : wrap32 (wrap32 x + 1) = wrap32 (x + 1).
Proof.
  unfold wrap32. pose proof one_lt_W32. rewrite (N.add_mod x 1 W32) by lia. rewrite (N.mod_small 1 W32) by lia. reflexivity.
Qed.

Ltac inv2 := constructor; unfold wrap_ok, bound, slotidx; cbn; rewrite ?lenN_app, ?lenN_setN; cbn [lenN];
  try assumption; try discriminate.

Lemma pstep_inv2 s : Inv1 s -> Inv2 s -> Inv2 (fst (pstep s)).
Proof.
  destruct s as [cap0 i00 tin0 tout0 size0 blocked0 signal0 buf0 notifs0 polls0 pp0 items0 cp0 acc0 pushed0 popped0].
  intros [Hcap Hsize Hroom Hcomm Hblk Hsig Hwake Hdone] [Hi0 Hlen Hwrap Htin Htout Hppos Hcpos Hcval Hbuf Hpopped Hpushed].
  unfold wrap_ok, bound, slotidx in *; cbn in *.
  unfold pstep, finish_push, advance; cbn.
  destruct pp0; cbn in *.
  - destruct (size0 =? cap0) eqn:E; [destruct items0 as [|v' r]|]; cbn.
    + inv2. destruct Hwrap; [left; assumption|right; nlia].
    + inv2. cbn [lenN] in *. destruct Hwrap; [left; assumption|right; nlia].
    + inv2.
      * rewrite Htin. rewrite wrap32_succ. f_equal. nlia.
      * intros v0 pos H; inversion H; subst. unfold sidx. rewrite N.add_0_r. reflexivity.
  - (* PPush2: the copy *)
    specialize (Hppos v pos eq_refl). subst pos.
    assert (Hpos : sidx cap0 i00 (lenN acc0) < lenN buf0) by (rewrite Hlen; apply sidx_lt; nlia).
    inv2.
    + destruct Hwrap; [left; assumption|right; nlia].
    + rewrite Htin. f_equal. nlia.
    + intros w Hw. rewrite (Hcval w Hw). symmetry. apply nthN_app_l. rewrite Hw in Hcomm. cbn in Hcomm. nlia.
    + intros j Hj. assert (Hc : j = lenN acc0 \/ j < lenN acc0) by nlia. destruct Hc as [Hc|Hc].
      * subst j. unfold slot. rewrite nthN_setN_same by assumption. rewrite nthN_app_r, N.sub_diag by nlia. reflexivity.
      * unfold slot. rewrite nthN_setN_other.
        -- rewrite nthN_app_l by assumption. apply Hbuf. nlia.
        -- apply sidx_distinct; try nlia. destruct Hwrap as [Hw|Hw]; [left; assumption|right; nlia].
    + rewrite takeN_app_le by nlia. assumption.
    + rewrite Hpushed. rewrite app_nil_r. reflexivity.
  - destruct (size0 =? 0) eqn:E; [|destruct items0 as [|v' r]]; cbn; inv2; cbn [lenN] in *.
    all: try (destruct Hwrap; [left; assumption|right; nlia]).
    all: rewrite Hpushed, ?app_nil_r; reflexivity.
  - destruct blocked0; [|destruct items0 as [|v' r]]; cbn; inv2; cbn [lenN] in *.
    all: try (destruct Hwrap; [left; assumption|right; nlia]).
    all: rewrite Hpushed, ?app_nil_r; reflexivity.
  - destruct signal0; [destruct items0 as [|v' r]|]; cbn; inv2; cbn [lenN] in *.
    all: try (destruct Hwrap; [left; assumption|right; nlia]).
    all: rewrite Hpushed, ?app_nil_r; reflexivity.
  - destruct items0 as [|v' r]; cbn; inv2; cbn [lenN] in *.
    all: try (destruct Hwrap; [left; assumption|right; nlia]).
  - inv2.
Qed.

Lemma cstep_inv2 s : Inv1 s -> Inv2 s -> Inv2 (fst (cstep s)).
Proof.
  destruct s as [cap0 i00 tin0 tout0 size0 blocked0 signal0 buf0 notifs0 polls0 pp0 items0 cp0 acc0 pushed0 popped0].
  intros [Hcap Hsize Hroom Hcomm Hblk Hsig Hwake Hdone] [Hi0 Hlen Hwrap Htin Htout Hppos Hcpos Hcval Hbuf Hpopped Hpushed].
  unfold wrap_ok, bound, slotidx in *; cbn in *.
  unfold cstep; cbn.
  destruct cp0; cbn in *.
  - inv2.
  - inv2.
  - destruct (size0 =? 0) eqn:E; inv2.
  - inv2.
  - destruct (size0 =? 0) eqn:E; inv2.
  - inv2.
    + rewrite Htout. rewrite wrap32_succ. f_equal. nlia.
    + intros pos H; inversion H; subst. unfold sidx. rewrite N.add_0_r. reflexivity.
  - (* CPop5: the copy out *) inv2.
    intros w Hw; inversion Hw; subst. rewrite (Hcpos pos eq_refl). apply Hbuf. nlia.
  - specialize (Hcval v eq_refl).
    assert (HR : lenN popped0 < lenN acc0) by nlia.
    destruct (nthN_some acc0 _ HR) as [x Hx].
    inv2.
    + rewrite Htout. f_equal. change (N.succ 0) with 1. nlia.
    + intros j Hj. apply Hbuf. change (N.succ 0) with 1 in Hj. nlia.
    + change (N.succ 0) with 1. rewrite (takeN_succ _ _ _ Hx). rewrite map_app. cbn [map]. rewrite <- Hpopped. rewrite Hcval, Hx. reflexivity.
  - destruct (0 <? notifs0) eqn:E1; [|destruct (0 <? polls0) eqn:E2; [|destruct pp0; cbn in *]]; inv2.
  - inv2.
Qed.

Definition Inv (s : state) : Prop := Inv1 s /\ Inv2 s.

(* the configurations the theorems speak about *)
Definition valid_cfg (c i : N) : Prop := 0 < c < W32 /\ i < W32.
Definition no_wrap_or_dividing (c i : N) (its : list N) : Prop := divides_W c \/ i + lenN its <= W32.

Lemma init_inv1 c i p its : valid_cfg c i -> Inv1 (init c i p its).
Proof.
  intros [Hc Hi]. unfold init, advance; cbn. destruct its as [|v r]; constructor; cbn; try lia; try discriminate; try tauto.
Qed.

Lemma wrap32_small' x : x < W32 -> wrap32 x = x.
Proof. apply wrap32_small. Qed.

Lemma slot_repeat_none n pos : slot pos (repeat None n) = None.
Proof.
  unfold slot. revert pos. induction n as [|n IH]; intros pos; cbn [repeat nthN]. { reflexivity. }
  destruct (pos =? 0); [reflexivity|]. apply IH.
Qed.

Lemma init_inv2 c i p its : valid_cfg c i -> no_wrap_or_dividing c i its -> Inv2 (init c i p its).
Proof.
  intros [Hc Hi] Hw. unfold init, advance; cbn.
  destruct its as [|v r]; constructor; unfold wrap_ok, bound, slotidx; cbn; try discriminate; try assumption; try reflexivity.
  all: try (rewrite lenN_repeat; lia).
  all: try (rewrite !N.add_0_r; symmetry; apply wrap32_small; assumption).
  all: try (intros j Hj; cbn [lenN] in Hj; lia).
  all: unfold no_wrap_or_dividing in Hw; cbn [lenN] in *; destruct Hw; [left; assumption|right; lia].
Qed.

Lemma step_preserves (P : state -> Prop) :
  (forall s, P s -> P (fst (pstep s))) -> (forall s, P s -> P (fst (cstep s))) ->
  forall s t, P s -> P (fst (fst (step s t))).
Proof.
  intros Hp Hc s t H. unfold step.
  destruct (t =? 0).
  - destruct (pdone s); cbn [fst]. { exact H. }
    specialize (Hp s H). destruct (pstep s). exact Hp.
  - destruct (t =? 1); cbn [fst]; [|exact H].
    destruct (cdone s); cbn [fst]. { exact H. }
    specialize (Hc s H). destruct (cstep s). exact Hc.
Qed.

Lemma exec_preserves (P : state -> Prop) :
  (forall s, P s -> P (fst (pstep s))) -> (forall s, P s -> P (fst (cstep s))) ->
  forall sched s, P s -> P (fst (fst (exec s sched))).
Proof.
  intros Hp Hc. induction sched as [|t r IH]; intros s H; cbn [exec]. { exact H. }
  pose proof (step_preserves P Hp Hc s t H) as H'. destruct (step s t) as [[s1 e1] b]. cbn [fst] in H'.
  specialize (IH s1 H'). destruct (exec s1 r) as [[s2 e2] n]. exact IH.
Qed.

Lemma exec_inv1 sched s : Inv1 s -> Inv1 (fst (fst (exec s sched))).
Proof. apply exec_preserves; [exact pstep_inv1 | exact cstep_inv1]. Qed.

Lemma exec_inv sched s : Inv s -> Inv (fst (fst (exec s sched))).
Proof.
  apply exec_preserves; intros s0 [H1 H2]; split;
    [apply pstep_inv1 | apply pstep_inv2 | apply cstep_inv1 | apply cstep_inv2]; assumption.
Qed.

Lemma reach_inv1 c i p its sched : valid_cfg c i -> Inv1 (reach c i p its sched).
Proof. intros H. unfold reach. apply exec_inv1. apply init_inv1. exact H. Qed.

Lemma reach_inv c i p its sched : valid_cfg c i -> no_wrap_or_dividing c i its -> Inv (reach c i p its sched).
Proof. intros H Hw. unfold reach. apply exec_inv. split; [apply init_inv1|apply init_inv2]; assumption. Qed.

Lemma range_nth_drop (l : list N) : forall n R, R + N.of_nat n = lenN l ->
  map (fun j => nthN j l) (rangeN R n) = map Some (dropN R l).
Proof.
  induction n as [|n IH]; intros R HR; cbn [rangeN map].
  - rewrite dropN_all by lia. reflexivity.
  - destruct (nthN_some l R ltac:(lia)) as [x Hx].
    rewrite (dropN_nth _ _ _ Hx). cbn [map]. rewrite Hx. f_equal.
    replace (R + 1) with (N.succ R) by lia. apply IH. lia.
Qed.

Lemma rangeN_in n : forall from j, In j (rangeN from n) -> from <= j < from + N.of_nat n.
Proof.
  induction n as [|n IH]; intros from j H; cbn [rangeN] in H. { destruct H. }
  destruct H as [H|H]. { lia. } apply IH in H. lia.
Qed.

Lemma inv_fifo s : Inv s -> map Some (acc s) = popped s ++ queued s.
Proof.
  intros [H1 H2]. unfold queued.
  assert (HR : lenN (popped s) <= lenN (acc s)) by (pose proof (i_size s H1); lia).
  rewrite <- (takeN_dropN (lenN (popped s)) (acc s)) at 1. rewrite map_app. rewrite <- (j_popped s H2). f_equal.
  rewrite <- (range_nth_drop (acc s) (N.to_nat (lenN (acc s) - lenN (popped s)))) by lia.
  apply map_ext_in. intros j Hj. apply rangeN_in in Hj. symmetry. apply (j_buf s H2). lia.
Qed.

Lemma inv_popped_written s : Inv s -> forall v, In v (popped s) -> exists x, v = Some x.
Proof.
  intros [H1 H2] v Hv. rewrite (j_popped s H2) in Hv. apply in_map_iff in Hv. destruct Hv as [x [Hx _]]. eauto.
Qed.

Lemma inv_popped_prefix s : Inv s -> popped s = map Some (takeN (lenN (popped s)) (acc s)) /\ lenN (popped s) <= lenN (acc s).
Proof. intros [H1 H2]. split; [apply (j_popped s H2) | pose proof (i_size s H1); lia]. Qed.

Lemma inv1_idle_flags s : Inv1 s ->
  cidle (cp s) = true -> notifs s = 0 -> is_notify (pp s) = false -> blocked s = true /\ signal s = false.
Proof.
  intros H Hidle Hn Hp. split.
  - apply (i_blk s H). destruct (cp s); cbn in *; congruence.
  - destruct (signal s) eqn:Es; [|reflexivity]. destruct (i_sig s H Es) as [?|[?|?]]; try lia; try congruence.
    destruct (cp s); cbn in *; congruence.
Qed.

(* the push that finds the consumer asleep on an empty queue asks for the notification *)
Arguments N.eqb : simpl nomatch.
Lemma next_push_from_idle s v :
  Inv1 s -> cp s = CIdle -> size s = 0 -> notifs s = 0 -> pp s = PPush1 v ->
  exists s', exec s [0; 0; 0; 0; 0] = (s', [EvPush v true], 5) /\ pp s' = PNotify /\ signal s' = true.
Proof.
  destruct s as [cap0 i00 tin0 tout0 size0 blocked0 signal0 buf0 notifs0 polls0 pp0 items0 cp0 acc0 pushed0 popped0].
  intros [Hcap Hsize Hroom Hcomm Hblk Hsig Hwake Hdone]; cbn in *. intros -> -> -> ->. cbn in *.
  assert (blocked0 = true) by auto. subst blocked0.
  assert (signal0 = false). { destruct signal0; [|reflexivity]. destruct (Hsig eq_refl) as [?|[?|?]]; [lia|discriminate|discriminate]. }
  subst signal0.
  assert (E : (0 =? cap0) = false) by lia.
  unfold exec, step, pstep, pdone, finish_push, advance.
  change (0 =? 0) with true.
  lazy beta iota zeta delta [fst snd pp size cap blocked signal set_pp set_tin set_buf_acc set_size set_signal set_pushed
    i0 tin tout buf notifs polls items cp acc pushed popped app].
  rewrite E.
  lazy beta iota zeta delta [N.eqb fst snd pp size cap blocked signal set_pp set_tin set_buf_acc set_size set_signal set_pushed
    i0 tin tout buf notifs polls items cp acc pushed popped app N.succ Pos.succ].
  eexists. split; [reflexivity|]. split; reflexivity.
Qed.

Arguments N.eqb : simpl never.

(* Full is thrown only when theCapacity items are queued *)
Lemma inv1_full_only_when_full s v : Inv1 s ->
  pp s = PPush1 v -> snd (pstep s) = [EvFull v] -> lenN (acc s) = lenN (popped s) + cap s.
Proof.
  intros H Hp. pose proof (i_size s H) as Hs. rewrite Hp in Hs. cbn in Hs.
  unfold pstep. rewrite Hp. destruct (size s =? cap s) eqn:E; cbn; [intros _; lia|discriminate].
Qed.

Lemma drain_empty s : size s = 0 -> drain_all s = [].
Proof.
  intros Hs. unfold drain_all. destruct (N.to_nat (cap s + 2)) eqn:En; [reflexivity|].
  cbn [drain]. unfold pop1.
  destruct s as [cap0 i00 tin0 tout0 size0 blocked0 signal0 buf0 notifs0 polls0 pp0 items0 cp0 acc0 pushed0 popped0].
  cbn in Hs. subst size0.
  lazy beta iota zeta delta [cpop cstep set_cp set_blocked N.eqb fst snd pp size cap blocked signal
    i0 tin tout buf notifs polls items cp acc pushed popped].
  reflexivity.
Qed.

(* nothing is left when both ended; this half needs no hypothesis on the indices *)
Lemma inv1_all_done s : Inv1 s -> all_done s = true ->
  size s = 0 /\ notifs s = 0 /\ blocked s = true /\ signal s = false /\ drain_all s = [].
Proof.
  intros H1 Hd. unfold all_done, pdone, cdone in Hd.
  destruct (pp s) eqn:Ep; try discriminate. destruct (cp s) eqn:Ec; try discriminate.
  pose proof (i_done s H1) as Hdone. rewrite Ec, Ep in Hdone. destruct (Hdone eq_refl) as [_ Hn].
  assert (Hsz : size s = 0).
  { destruct (N.eq_dec (size s) 0) as [|Hnz]; [assumption|]. pose proof (i_wake s H1) as Hw. rewrite Ec in Hw.
    unfold will_notify in Hw. rewrite Ep in Hw. destruct (Hw eq_refl ltac:(lia)); [lia|discriminate]. }
  pose proof (i_blk s H1) as Hb. rewrite Ec in Hb.
  assert (Hsig : signal s = false).
  { destruct (signal s) eqn:Es; [|reflexivity]. destruct (i_sig s H1 Es) as [?|[Hx|Hx]]; [lia| |]; rewrite ?Ep, ?Ec in Hx; discriminate. }
  repeat split; auto. apply drain_empty. exact Hsz.
Qed.

Lemma inv_all_done s : Inv s -> all_done s = true ->
  size s = 0 /\ notifs s = 0 /\ blocked s = true /\ signal s = false /\
  acc s = pushed s /\ popped s = map Some (pushed s) /\ drain_all s = [].
Proof.
  intros [H1 H2] Hd. destruct (inv1_all_done s H1 Hd) as (Hsz & Hn & Hb & Hsig & Hdr).
  unfold all_done, pdone in Hd. destruct (pp s) eqn:Ep; try discriminate.
  pose proof (j_pushed s H2) as Hp. rewrite Ep in Hp. cbn in Hp. rewrite app_nil_r in Hp.
  pose proof (i_size s H1) as Hs. rewrite Ep, Hsz in Hs. cbn in Hs.
  pose proof (j_popped s H2) as Hpop. rewrite takeN_all in Hpop by lia.
  repeat split; auto. rewrite <- Hp. exact Hpop.
Qed.

(* the ghost lists are what the events say *)
Lemma pstep_trace s :
  popped (fst (pstep s)) = popped s ++ pops_of (snd (pstep s)) /\
  pushed (fst (pstep s)) = pushed s ++ pushes_of (snd (pstep s)).
Proof.
  destruct s as [cap0 i00 tin0 tout0 size0 blocked0 signal0 buf0 notifs0 polls0 pp0 items0 cp0 acc0 pushed0 popped0].
  unfold pstep, finish_push, advance; cbn. destruct pp0; cbn.
  - destruct (size0 =? cap0); [destruct items0|]; cbn; rewrite ?app_nil_r; auto.
  - rewrite !app_nil_r; auto.
  - destruct (size0 =? 0); [|destruct items0]; cbn; rewrite ?app_nil_r; auto.
  - destruct blocked0; [|destruct items0]; cbn; rewrite ?app_nil_r; auto.
  - destruct signal0; [destruct items0|]; cbn; rewrite ?app_nil_r; auto.
  - destruct items0; cbn; rewrite ?app_nil_r; auto.
  - rewrite !app_nil_r; auto.
Qed.

Lemma cstep_trace s :
  popped (fst (cstep s)) = popped s ++ pops_of (snd (cstep s)) /\
  pushed (fst (cstep s)) = pushed s ++ pushes_of (snd (cstep s)).
Proof.
  destruct s as [cap0 i00 tin0 tout0 size0 blocked0 signal0 buf0 notifs0 polls0 pp0 items0 cp0 acc0 pushed0 popped0].
  unfold cstep; cbn. destruct cp0; cbn; rewrite ?app_nil_r; auto.
  - destruct (size0 =? 0); cbn; rewrite ?app_nil_r; auto.
  - destruct (size0 =? 0); cbn; rewrite ?app_nil_r; auto.
  - destruct (0 <? notifs0); [|destruct (0 <? polls0); [|destruct (pdone _)]]; cbn; rewrite ?app_nil_r; auto.
Qed.

Lemma pops_of_app a b : pops_of (a ++ b) = pops_of a ++ pops_of b.
Proof. unfold pops_of. apply flat_map_app. Qed.
Lemma pushes_of_app a b : pushes_of (a ++ b) = pushes_of a ++ pushes_of b.
Proof. unfold pushes_of. apply flat_map_app. Qed.

Lemma step_trace s t :
  popped (fst (fst (step s t))) = popped s ++ pops_of (snd (fst (step s t))) /\
  pushed (fst (fst (step s t))) = pushed s ++ pushes_of (snd (fst (step s t))).
Proof.
  unfold step.
  destruct (t =? 0); [destruct (pdone s) | destruct (t =? 1); [destruct (cdone s)|]];
    cbn [fst snd pops_of pushes_of flat_map]; rewrite ?app_nil_r; auto.
  - pose proof (pstep_trace s) as H. destruct (pstep s). exact H.
  - pose proof (cstep_trace s) as H. destruct (cstep s). exact H.
Qed.

Lemma exec_trace sched : forall s,
  popped (fst (fst (exec s sched))) = popped s ++ pops_of (snd (fst (exec s sched))) /\
  pushed (fst (fst (exec s sched))) = pushed s ++ pushes_of (snd (fst (exec s sched))).
Proof.
  induction sched as [|t r IH]; intros s; cbn [exec].
  - cbn. rewrite !app_nil_r. auto.
  - pose proof (step_trace s t) as Hs. destruct (step s t) as [[s1 e1] b]. cbn [fst snd] in Hs.
    specialize (IH s1). destruct (exec s1 r) as [[s2 e2] n]. cbn [fst snd] in *.
    destruct Hs as [Hs1 Hs2]. destruct IH as [IH1 IH2].
    rewrite pops_of_app, pushes_of_app, !app_assoc, <- Hs1, <- Hs2. auto.
Qed.

Lemma init_ghosts c i p its : popped (init c i p its) = [] /\ pushed (init c i p its) = [].
Proof. unfold init, advance; cbn. destruct its; cbn; auto. Qed.

(* observable statement: in a completed run the values returned by pop() are exactly the values whose push() returned, in order *)
Theorem completed_run_events c i p its sched s evs n :
  valid_cfg c i -> no_wrap_or_dividing c i its ->
  exec (init c i p its) sched = (s, evs, n) -> all_done s = true ->
  pops_of evs = map Some (pushes_of evs).
Proof.
  intros Hv Hw He Hd.
  pose proof (reach_inv c i p its sched Hv Hw) as H. unfold reach in H. rewrite He in H. cbn [fst] in H.
  destruct (inv_all_done s H Hd) as (_ & _ & _ & _ & _ & Hpop & _).
  pose proof (exec_trace sched (init c i p its)) as Ht. rewrite He in Ht. cbn [fst snd] in Ht.
  destruct (init_ghosts c i p its) as [G1 G2]. rewrite G1, G2 in Ht. cbn [app] in Ht. destruct Ht as [T1 T2].
  rewrite <- T1, <- T2. exact Hpop.
Qed.

(* at every moment the values returned by pop() so far are a prefix of the values copied in so far *)
Theorem run_events_prefix c i p its sched s evs n :
  valid_cfg c i -> no_wrap_or_dividing c i its ->
  exec (init c i p its) sched = (s, evs, n) ->
  pops_of evs = map Some (takeN (lenN (pops_of evs)) (acc s)).
Proof.
  intros Hv Hw He.
  pose proof (reach_inv c i p its sched Hv Hw) as H. unfold reach in H. rewrite He in H. cbn [fst] in H.
  apply inv_popped_prefix in H.
  pose proof (exec_trace sched (init c i p its)) as Ht. rewrite He in Ht. cbn [fst snd] in Ht.
  destruct (init_ghosts c i p its) as [G1 G2]. rewrite G1 in Ht. cbn [app] in Ht. destruct Ht as [T1 _].
  rewrite <- T1. apply H.
Qed.

(* the index wrap with a capacity that does not divide 2^32 *)
(* capacity 3, both cursors at 2^32-1: push 1 lands in slot (2^32-1) mod 3 = 0, push 2 in slot 0 mod 3 = 0 again;
   the two pops then read slot 0 twice *)
Definition wrap_witness_sched : list N := [0;0;0;0;0;0;0; 1;1;1;1;1;1;1;1;1;1;1;1;1;1].
Lemma fifo_refuted_witness :
  let s := reach 3 4294967295 0 [1; 2] wrap_witness_sched in
  valid_cfg 3 4294967295 /\ ~ no_wrap_or_dividing 3 4294967295 [1; 2] /\
  all_done s = true /\ pushed s = [1; 2] /\ popped s = [Some 2; Some 2] /\
  map Some (acc s) <> popped s ++ queued s.
Proof.
  Transparent W32.
  unfold valid_cfg, no_wrap_or_dividing, divides_W. vm_compute.
  repeat split; try reflexivity; try discriminate.
  intros [H|H]; [discriminate H|apply H; reflexivity].
Qed.
Opaque W32.

Lemma fifo_exact_refuted :
  exists c i p its sched, valid_cfg c i /\
    let s := reach c i p its sched in
    all_done s = true /\ pushed s = [1; 2] /\ popped s = [Some 2; Some 2] /\ map Some (acc s) <> popped s ++ queued s.
Proof.
  exists 3, 4294967295, 0, [1; 2], wrap_witness_sched.
  destruct fifo_refuted_witness as (Hv & _ & H). split; [exact Hv|exact H].
Qed.

(* every power-of-two capacity up to 2^31 (squid uses 1024) satisfies the hypothesis, whatever the cursors *)
Lemma pow2_divides k : (k <= 32)%N -> divides_W (2 ^ k).
Proof.
  Transparent W32.
  intros Hk. unfold divides_W, W32. change 4294967296 with (2 ^ 32). replace 32 with ((32 - k) + k) at 1 by lia.
  rewrite N.pow_add_r. apply N.mod_mul. apply N.pow_nonzero. lia.
Qed.
Opaque W32.
Lemma pow2_capacity_ok k i its : (k <= 32)%N -> no_wrap_or_dividing (2 ^ k) i its.
Proof. intros H. left. exact (pow2_divides k H). Qed.

(* every run completes: the round-robin completion ends with both processes ended *)
Definition rank_p (p : ppc) : N :=
  match p with PPush1 _ => 6 | PPush2 _ _ => 5 | PPush3 _ => 4 | PPush4 _ => 3 | PPush5 _ => 2 | PNotify => 1 | PDone => 0 end.
Definition rank_c (c : cpc) : N :=
  match c with CClr1 => 9 | CClr2 => 8 | CPop1 => 7 | CPop2 => 6 | CPop3 => 5 | CPop4 => 4 | CPop5 _ => 3 | CPop6 _ => 2
             | CIdle => 1 | CDone => 0 end.
(* the current item may still be counted into theSize / the push in flight may still produce a notification *)
Definition fut (p : ppc) : N := match p with PPush1 _ | PPush2 _ _ | PPush3 _ => 1 | _ => 0 end.
Definition sig_ind (p : ppc) : N := match p with PPush4 _ | PPush5 _ | PNotify => 1 | _ => 0 end.
Definition work (s : state) : N :=
  rank_p (pp s) + 7 * lenN (items s) + rank_c (cp s) + 10 * size s + 20 * (fut (pp s) + lenN (items s))
  + 10 * (notifs s + sig_ind (pp s) + polls s).

Ltac wk := unfold work; cbn; rewrite ?wrap32_small by nlia; rewrite ?wrap32_dec by nlia; cbn [lenN]; try nlia.

Lemma pstep_work s : Inv1 s -> pdone s = false -> work (fst (pstep s)) < work s.
Proof.
  destruct s as [cap0 i00 tin0 tout0 size0 blocked0 signal0 buf0 notifs0 polls0 pp0 items0 cp0 acc0 pushed0 popped0].
  intros [Hcap Hsize Hroom Hcomm Hblk Hsig Hwake Hdone]; cbn in *.
  unfold pdone, pstep, finish_push, advance; cbn.
  destruct pp0; cbn in *; intros Hp; try discriminate.
  - destruct (size0 =? cap0) eqn:E; [destruct items0|]; wk.
  - wk.
  - destruct (size0 =? 0) eqn:E; [|destruct items0]; wk.
  - destruct blocked0; [|destruct items0]; wk.
  - destruct signal0; [destruct items0|]; wk.
  - destruct items0; wk.
Qed.

Lemma cstep_work s : Inv1 s -> cdone s = false ->
  work (fst (cstep s)) < work s \/ (fst (cstep s) = s /\ pdone s = false).
Proof.
  destruct s as [cap0 i00 tin0 tout0 size0 blocked0 signal0 buf0 notifs0 polls0 pp0 items0 cp0 acc0 pushed0 popped0].
  intros [Hcap Hsize Hroom Hcomm Hblk Hsig Hwake Hdone]; cbn in *.
  unfold cdone, cstep; cbn.
  destruct cp0; cbn in *; intros Hc; try discriminate.
  - left; wk.
  - left; wk.
  - left; destruct (size0 =? 0) eqn:E; wk.
  - left; wk.
  - left; destruct (size0 =? 0) eqn:E; wk.
  - left; wk.
  - left; wk.
  - left; wk.
  - destruct (0 <? notifs0) eqn:E1; [left; wk|destruct (0 <? polls0) eqn:E2; [left; wk|]].
    unfold pdone; cbn. destruct pp0; cbn; try (right; split; reflexivity). left; wk.
Qed.

Lemma exec2 s : fst (fst (exec s [0; 1])) = fst (fst (step (fst (fst (step s 0))) 1)).
Proof.
  cbn [exec]. destruct (step s 0) as [[a b] c]. cbn [fst]. destruct (step a 1) as [[d e] f]. reflexivity.
Qed.
Lemma step0_state s : fst (fst (step s 0)) = if pdone s then s else fst (pstep s).
Proof. unfold step. change (0 =? 0) with true. cbv iota. destruct (pdone s); [reflexivity|]. destruct (pstep s); reflexivity. Qed.
Lemma step1_state s : fst (fst (step s 1)) = if cdone s then s else fst (cstep s).
Proof.
  unfold step. change (1 =? 0) with false. change (1 =? 1) with true. cbv iota.
  destruct (cdone s); [reflexivity|]. destruct (cstep s); reflexivity.
Qed.

Lemma round_work s : Inv1 s -> all_done s = false ->
  Inv1 (fst (fst (exec s [0; 1]))) /\ work (fst (fst (exec s [0; 1]))) < work s.
Proof.
  intros H1 Hnd. rewrite exec2, step0_state.
  destruct (pdone s) eqn:Ep.
  - (* producer ended: the consumer makes progress *)
    rewrite step1_state. unfold all_done in Hnd. rewrite Ep in Hnd. cbn in Hnd. rewrite Hnd.
    pose proof (cstep_inv1 s H1) as Hi. pose proof (cstep_work s H1 Hnd) as Hw.
    split; [exact Hi|]. destruct Hw as [Hw|[_ Hw]]; [exact Hw|congruence].
  - pose proof (pstep_inv1 s H1) as Hi. pose proof (pstep_work s H1 Ep) as Hw.
    rewrite step1_state. destruct (cdone (fst (pstep s))) eqn:Ec.
    + split; assumption.
    + pose proof (cstep_inv1 _ Hi) as Hi2. pose proof (cstep_work _ Hi Ec) as Hw2.
      split; [exact Hi2|]. destruct Hw2 as [Hw2|[Hw2 _]]; [lia|rewrite Hw2; exact Hw].
Qed.

Lemma rr_completes fuel : forall s, Inv1 s -> work s < N.of_nat fuel ->
  exists s' evs n, run_rr fuel s = Some (s', evs, n) /\ all_done s' = true.
Proof.
  induction fuel as [|f IH]; intros s H1 Hw. { lia. }
  cbn [run_rr]. destruct (all_done s) eqn:Ed. { eauto 6. }
  destruct (round_work s H1 Ed) as [Hi Hlt].
  destruct (exec s [0; 1]) as [[s1 e1] n1]. cbn [fst] in *.
  destruct (IH s1 Hi ltac:(lia)) as (s' & evs & n & Hr & Hd).
  rewrite Hr. eauto 8.
Qed.

Lemma rounds_enough s : work s < N.of_nat (rounds s).
Proof.
  unfold rounds. rewrite N2Nat.id. unfold work.
  assert (rank_p (pp s) <= 6) by (destruct (pp s); cbn; lia).
  assert (rank_c (cp s) <= 9) by (destruct (cp s); cbn; lia).
  assert (fut (pp s) <= 1) by (destruct (pp s); cbn; lia).
  assert (sig_ind (pp s) <= 1) by (destruct (pp s); cbn; lia).
  lia.
Qed.

Theorem run_case_completes c i p its sched : valid_cfg c i ->
  exists s evs n, run_case c i p its sched = Some (s, evs, n) /\ all_done s = true.
Proof.
  intros Hv. unfold run_case.
  pose proof (exec_inv1 sched (init c i p its) (init_inv1 c i p its Hv)) as H1.
  destruct (exec (init c i p its) sched) as [[s1 e1] n1]. cbn [fst] in H1.
  destruct (rr_completes (rounds s1) s1 H1 (rounds_enough s1)) as (s' & evs & n & Hr & Hd).
  rewrite Hr. eauto 8.
Qed.

(* the completion is itself a schedule: whatever run_case reports is a reachable state with its events *)
Lemma exec_app a : forall b s,
  exec s (a ++ b) =
  let '(s1, e1, n1) := exec s a in let '(s2, e2, n2) := exec s1 b in (s2, e1 ++ e2, n1 + n2).
Proof.
  induction a as [|t r IH]; intros b s; cbn [app exec].
  - destruct (exec s b) as [[s2 e2] n2]. cbn. reflexivity.
  - destruct (step s t) as [[s1 e1] bb]. rewrite IH.
    destruct (exec s1 r) as [[s2 e2] n2]. destruct (exec s2 b) as [[s3 e3] n3].
    rewrite app_assoc. f_equal. destruct bb; lia.
Qed.

Lemma rr_is_schedule fuel : forall s s' evs n, run_rr fuel s = Some (s', evs, n) -> exists sched, exec s sched = (s', evs, n).
Proof.
  induction fuel as [|f IH]; intros s s' evs n H; cbn [run_rr] in H.
  - destruct (all_done s); [|discriminate]. inversion H; subst. exists []. reflexivity.
  - destruct (all_done s). { inversion H; subst. exists []. reflexivity. }
    destruct (exec s [0; 1]) as [[s1 e1] n1] eqn:E1.
    destruct (run_rr f s1) as [[[s2 e2] n2]|] eqn:E2; [|discriminate]. inversion H; subst.
    destruct (IH _ _ _ _ E2) as [sch Hs]. exists ([0; 1] ++ sch). rewrite exec_app, E1, Hs. reflexivity.
Qed.

Lemma run_case_is_schedule c i p its sched s evs n :
  run_case c i p its sched = Some (s, evs, n) -> exists sched', exec (init c i p its) sched' = (s, evs, n).
Proof.
  unfold run_case. destruct (exec (init c i p its) sched) as [[s1 e1] n1] eqn:E1.
  destruct (run_rr (rounds s1) s1) as [[[s2 e2] n2]|] eqn:E2; [|discriminate]. intros H; inversion H; subst.
  destruct (rr_is_schedule _ _ _ _ _ E2) as [sch Hs]. exists (sched ++ sch). rewrite exec_app, E1, Hs. reflexivity.
Qed.

(* what the model runner (and, by correspondence, the harness) prints for every case: the run completes, both ended,
   the popped values are the pushed values, the final drain finds nothing *)
Theorem run_case_completes_and_delivers c i p its sched :
  valid_cfg c i -> no_wrap_or_dividing c i its ->
  exists s evs n, run_case c i p its sched = Some (s, evs, n) /\ all_done s = true /\
    pops_of evs = map Some (pushes_of evs) /\ drain_all s = [] /\ notifs s = 0 /\ blocked s = true /\ signal s = false.
Proof.
  intros Hv Hw. destruct (run_case_completes c i p its sched Hv) as (s & evs & n & Hr & Hd).
  exists s, evs, n. destruct (run_case_is_schedule _ _ _ _ _ _ _ _ Hr) as [sch Hs].
  pose proof (completed_run_events c i p its sch s evs n Hv Hw Hs Hd) as He.
  pose proof (reach_inv1 c i p its sch Hv) as H1. unfold reach in H1. rewrite Hs in H1. cbn [fst] in H1.
  destruct (inv1_all_done s H1 Hd) as (_ & Hn & Hb & Hsg & Hdr). repeat split; assumption.
Qed.
