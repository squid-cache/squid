(* Proofs about the rock rebuild model (C57): the fuel of the three link-following loops always suffices; an
   invariant (Inv) of the whole job gives every readable entry a sound chain, for any image; a second one (Own)
   ties mapped slots and anchors to the cells of the image, for the partial results about keys and versions. *)
Require Import SquidV.Bytes SquidV.RockrebuildModel.
Require Import SquidV.gen.RockRebuild_gen.
Require Import ZifyBool.
Local Open Scope Z_scope.

(* number of slot ids k < n whose LoadingSlot/slice satisfies p *)
Fixpoint cnt (p : sl -> bool) (g : Z -> sl) (n : nat) : nat :=
  match n with
  | O => O
  | S k => (if p (g (Z.of_nat k)) then 1 else 0) + cnt p g k
  end.

Lemma cnt_le : forall p g n, (cnt p g n <= n)%nat.
Proof. induction n; cbn [cnt]; [lia|]. destruct (p (g (Z.of_nat n))); lia. Qed.

Lemma cnt_upd_out : forall p g n i x, ~ (0 <= i < Z.of_nat n) -> cnt p (upd g i x) n = cnt p g n.
Proof.
  induction n; intros i x Hi; cbn [cnt]; [reflexivity|].
  unfold upd at 1. destruct (Z.of_nat n =? i) eqn:E; [lia|].
  rewrite IHn by lia. reflexivity.
Qed.

(* turning one p-slot inside the range into a non-p slot lowers the count, so one unit of fuel pays for it *)
Lemma cnt_upd_dec : forall p g n i x fuel, 0 <= i < Z.of_nat n -> p (g i) = true -> p x = false ->
  (cnt p g n < S fuel)%nat -> (cnt p (upd g i x) n < fuel)%nat.
Proof.
  intros p g n i x fuel Hi Hp Hx Hc. enough (cnt p (upd g i x) n < cnt p g n)%nat by lia. clear fuel Hc.
  induction n; [lia|]. cbn [cnt]. unfold upd at 1. destruct (Z.of_nat n =? i) eqn:E.
  - assert (Z.of_nat n = i) by lia. subst i. rewrite Hx, Hp, cnt_upd_out by lia. lia.
  - destruct (p (g (Z.of_nat n))); lia.
Qed.

(* each of the three link-following loops turns, at every step, one slot with property p into one without: the
   fuel S N outlasts any count over N slots *)
Lemma fuel_of_enough : forall p g N, (cnt p g (Z.to_nat N) < fuel_of N)%nat.
Proof. intros. unfold fuel_of. pose proof (cnt_le p g (Z.to_nat N)). lia. Qed.

Definition nonfinal (x : sl) : bool := negb (s_final x).
Definition unfreed (x : sl) : bool := negb (s_freed x).
Definition linked (x : sl) : bool := 0 <=? s_next x.

Lemma bind_total : forall r k, r <> NoFuel -> (forall s, r = Ok s -> k s <> NoFuel) -> bind r k <> NoFuel.
Proof. intros [s| s | |] k Hr Hk; cbn; [apply Hk; reflexivity | discriminate | discriminate | exact Hr]. Qed.

Lemma push_free_nofuel : forall i s, push_free i s <> NoFuel.
Proof. intros i s. unfold push_free. destruct (memZ i (free s)); discriminate. Qed.

Lemma push_free_sls : forall i s s', push_free i s = Ok s' -> sls s' = sls s /\ ents s' = ents s.
Proof. intros i s s'. unfold push_free. destruct (memZ i (free s)); [discriminate|]. intros H; inversion H; auto. Qed.

Lemma free_slot_nofuel : forall N pos inv i s, free_slot N pos inv i s <> NoFuel.
Proof.
  intros. unfold free_slot. destruct (negb (ls_ok N pos i)); [discriminate|].
  destruct (s_freed (sls s i)); [discriminate|]. apply push_free_nofuel.
Qed.

Lemma free_slot_sls : forall N pos inv i s s', free_slot N pos inv i s = Ok s' ->
  ls_ok N pos i = true /\ s_freed (sls s i) = false /\
  sls s' = upd (sls s) i (s_set_freed (sls s i) true) /\ ents s' = ents s.
Proof.
  intros N pos inv i s s'. unfold free_slot.
  destruct (ls_ok N pos i) eqn:L; cbn [negb]; [|discriminate].
  destruct (s_freed (sls s i)) eqn:F; [discriminate|].
  intros H. apply push_free_sls in H. destruct H as [H1 H2].
  destruct inv; cbn in H1, H2; auto.
Qed.

Lemma free_more_chain_fuel : forall N pos fuel i s,
  (cnt unfreed (sls s) (Z.to_nat N) < fuel)%nat -> free_more_chain N pos fuel i s <> NoFuel.
Proof.
  induction fuel; intros i s Hc; [lia|].
  cbn [free_more_chain]. destruct (i <? 0); [discriminate|].
  destruct (ls_ok N pos i) eqn:L; cbn [negb]; [|discriminate].
  apply bind_total; [apply free_slot_nofuel|]. intros s1 H1.
  apply free_slot_sls in H1. destruct H1 as (_ & F & S1 & _).
  apply IHfuel. rewrite S1. unfold ls_ok in L.
  apply cnt_upd_dec; [lia| unfold unfreed; rewrite F; reflexivity | reflexivity | exact Hc].
Qed.

Lemma forget_writing_nofuel : forall f s, forget_writing f s <> NoFuel.
Proof. intros. unfold forget_writing. destruct (negb (a_writing (ents s f))); discriminate. Qed.

Lemma free_bad_entry_total : forall N pos f s, free_bad_entry N pos f s <> NoFuel.
Proof.
  intros N pos f s. unfold free_bad_entry.
  destruct (negb (a_writing _)); [discriminate|]. destruct (negb (_ || _)); [discriminate|].
  apply bind_total; [apply free_more_chain_fuel, fuel_of_enough | intros; apply forget_writing_nofuel].
Qed.

Lemma fin_walk_fuel : forall N pos f lesz fuel i msz s,
  (cnt nonfinal (sls s) (Z.to_nat N) < fuel)%nat -> fin_walk N pos f lesz fuel i msz s <> WNoFuel.
Proof.
  induction fuel; intros i msz s Hc; [lia|].
  cbn [fin_walk]. destruct ((0 <=? i) && (msz <? lesz)); [|discriminate].
  destruct (ls_ok N pos i) eqn:L; cbn [negb]; [|discriminate].
  destruct (s_final (sls s i)) eqn:F; [discriminate|].
  destruct (negb (s_mapped (sls s i))); [discriminate|].
  destruct (s_freed (sls s i)); [discriminate|].
  destruct (negb (a_writing _)); [discriminate|].
  destruct (negb (0 <? s_size (sls s i))); [discriminate|].
  apply IHfuel. cbn [sls set_sl]. unfold ls_ok in L.
  apply cnt_upd_dec; [lia| unfold nonfinal; rewrite F; reflexivity | reflexivity | exact Hc].
Qed.

Lemma finalize_or_throw_total : forall N pos f s, finalize_or_throw N pos f s <> NoFuel.
Proof.
  intros N pos f s. unfold finalize_or_throw.
  destruct (negb (a_writing (ents s f))); [discriminate|].
  destruct (negb (0 <? e_size (ents s f))); [discriminate|].
  destruct (negb (e_anch (ents s f))); [discriminate|].
  destruct (fin_walk N pos f (e_size (ents s f)) (fuel_of N) (a_start (ents s f)) 0 s) eqn:W; try discriminate.
  - destruct (negb (slotId <? 0)); [discriminate|].
    destruct (negb (mapped =? e_size (ents s f))); [discriminate|].
    destruct (negb (_ || _)); [discriminate|]. destruct (negb (a_writing _)); discriminate.
  - exfalso. revert W. apply fin_walk_fuel, fuel_of_enough.
Qed.

Lemma finalize_or_free_total : forall N pos f s, finalize_or_free N pos f s <> NoFuel.
Proof.
  intros N pos f s. unfold finalize_or_free.
  destruct (finalize_or_throw N pos f s) eqn:E; try discriminate.
  - apply free_bad_entry_total.
  - exfalso. revert E. apply finalize_or_throw_total.
Qed.

(* freeChainAt: every continuing step clears a slice that was still linked *)
Lemma free_chain_at_fuel : forall N fuel i s,
  (cnt linked (sls s) (Z.to_nat N) < fuel)%nat -> free_chain_at N fuel i s <> NoFuel.
Proof.
  induction fuel; intros i s Hc; [lia|].
  cbn [free_chain_at]. destruct (i <? 0) eqn:I0; [discriminate|].
  destruct ((0 <=? i) && (i <? N)) eqn:R; cbn [negb]; [|discriminate].
  apply bind_total; [apply push_free_nofuel|]. intros s1 H1.
  apply push_free_sls in H1. destruct H1 as [S1 _]. cbn [sls set_sl] in S1.
  destruct (0 <=? s_next (sls s i)) eqn:Lk.
  - apply IHfuel. rewrite S1. apply cnt_upd_dec; [lia| exact Lk | reflexivity | exact Hc].
  - (* the chain ends here: the next call returns at once *)
    destruct fuel; cbn [free_chain_at]; (destruct (s_next (sls s i) <? 0) eqn:Q; [discriminate| lia]).
Qed.

Lemma free_chain_total : forall N f k s, free_chain N f k s <> NoFuel.
Proof.
  intros N f k s. unfold free_chain. apply bind_total; [|discriminate].
  destruct (a_empty (ents s f)); [discriminate|]. apply free_chain_at_fuel, fuel_of_enough.
Qed.

Lemma free_entry_total : forall N f s, free_entry N f s <> NoFuel.
Proof.
  intros N f s. unfold free_entry. destruct (a_writing (ents s f)); [discriminate|]. apply free_chain_total.
Qed.

Lemma free_unused_slot_nofuel : forall N pos inv i s, free_unused_slot N pos inv i s <> NoFuel.
Proof.
  intros. unfold free_unused_slot. destruct (negb (ls_ok N pos i)); [discriminate|].
  destruct (s_mapped (sls s i)); [discriminate|]. apply free_slot_nofuel.
Qed.

Lemma map_slot_nofuel : forall N pos i h s, map_slot N pos i h s <> NoFuel.
Proof.
  intros. unfold map_slot. destruct (negb (ls_ok N pos i)); [discriminate|].
  destruct (s_mapped (sls s i)); [discriminate|]. destruct (s_freed (sls s i)); discriminate.
Qed.

Lemma add_tail_total : forall N pos f i h s, add_tail N pos f i h s <> NoFuel.
Proof.
  intros N pos f i h s. unfold add_tail.
  destruct (_ && _); [apply free_bad_entry_total|].
  apply bind_total; [apply map_slot_nofuel|]. intros s1 _.
  destruct (_ && _); [apply finalize_or_free_total | discriminate].
Qed.

Lemma add_slot_to_entry_total : forall N pos f i h m s, add_slot_to_entry N pos f i h m s <> NoFuel.
Proof.
  intros N pos f i h m s. unfold add_slot_to_entry.
  destruct (negb (a_writing (ents s f))); [discriminate|].
  apply bind_total.
  - destruct (e_anch (ents s f)); [destruct (negb (ls_ok N pos (a_start (ents s f)))); [discriminate|]|];
      (destruct (negb (ls_ok N pos i)); [discriminate|]); destruct (negb (s_more (sls s i) <? 0)); discriminate.
  - intros s2 _. cbv zeta. destruct (h_first h =? i); [|apply add_tail_total].
    destruct (e_anch _).
    + apply bind_total; [apply free_bad_entry_total | discriminate].
    + destruct (import_entry _ _ _); [apply free_bad_entry_total|].
      destruct (negb (h_esz h =? 0)); [|apply add_tail_total].
      destruct (h_esz h =? rr_entry_size_max); [apply free_bad_entry_total|].
      destruct (a_swapsz e =? 0); [apply add_tail_total|].
      destruct (negb (h_esz h =? a_swapsz e)); [apply free_bad_entry_total | apply add_tail_total].
Qed.

Lemma start_new_entry_total : forall N pos f i h m s, start_new_entry N pos f i h m s <> NoFuel.
Proof.
  intros N pos f i h m s. unfold start_new_entry.
  destruct (a_writing (ents s f)); [apply free_unused_slot_nofuel|].
  destruct (negb (a_wtbf (ents s f)) && negb (a_empty (ents s f))); [apply free_unused_slot_nofuel|].
  apply bind_total.
  - destruct (a_wtbf (ents s f) || negb (a_empty (ents s f))); [|discriminate].
    apply free_chain_total.
  - intros s1 _. cbv zeta. destruct (negb (a_empty (ents s1 f))); [discriminate|].
    destruct (_ =? rr_entry_size_max); [discriminate|].
    apply bind_total; [apply add_slot_to_entry_total|].
    intros s3 _. destruct (_ =? rr_entry_size_max); discriminate.
Qed.

Lemma use_new_slot_total : forall N pos i h m s, use_new_slot N pos i h m s <> NoFuel.
Proof.
  intros N pos i h m s. unfold use_new_slot. cbv zeta.
  assert (Hdup : forall s1, bind (free_unused_slot N pos true i s1) (fun s2 => Ok (inc_dup s2)) <> NoFuel)
    by (intros; apply bind_total; [apply free_unused_slot_nofuel | discriminate]).
  destruct (negb (_ && _)); [discriminate|].
  destruct (e_state _).
  - apply start_new_entry_total.
  - destruct (negb (a_writing _)); [discriminate|].
    destruct (_ && _); [apply add_slot_to_entry_total|].
    apply bind_total; [apply free_bad_entry_total | intros; apply Hdup].
  - apply bind_total; [apply free_entry_total | intros; apply Hdup].
  - apply free_unused_slot_nofuel.
  - apply free_unused_slot_nofuel.
Qed.

Lemma load_one_slot_total : forall ssz N pos d s, load_one_slot ssz N pos d s <> NoFuel.
Proof.
  intros ssz N pos d s. unfold load_one_slot. destruct d as [|h m].
  - apply free_unused_slot_nofuel.
  - destruct (hdr_empty h); [apply free_unused_slot_nofuel|].
    destruct (negb (hdr_sane ssz N h)); [apply free_unused_slot_nofuel|].
    apply use_new_slot_total.
Qed.

Lemma load_all_total : forall ssz N img pos s, load_all ssz N pos img s <> NoFuel.
Proof.
  induction img as [|d r IH]; intros pos s; cbn [load_all]; [discriminate|].
  apply bind_total; [apply load_one_slot_total | intros; apply IH].
Qed.

Lemma for_range_total : forall step, (forall k s, step k s <> NoFuel) ->
  forall n k s, for_range n k step s <> NoFuel.
Proof.
  intros step Hs. induction n; intros k s; cbn [for_range]; [discriminate|].
  apply bind_total; [apply Hs | intros; apply IHn].
Qed.

Lemma validate_one_entry_total : forall N f s, validate_one_entry N f s <> NoFuel.
Proof.
  intros N f s. unfold validate_one_entry. cbv zeta.
  destruct (e_state _); try discriminate. apply finalize_or_free_total.
Qed.

Lemma validate_one_slot_total : forall N i s, validate_one_slot N i s <> NoFuel.
Proof.
  intros. unfold validate_one_slot. cbv zeta. destruct (negb (ls_ok N N i)); [discriminate|].
  destruct (_ || _); discriminate.
Qed.

(* the rebuild of ANY image ends: the fuel given to the three link-following loops always suffices *)
Theorem rebuild_terminates : forall slotSize doublecheck img, rebuild slotSize doublecheck img <> NoFuel.
Proof.
  intros ssz dbl img. unfold rebuild. cbv zeta.
  apply bind_total; [apply load_all_total|]. intros s1 _.
  apply bind_total; [apply for_range_total, validate_one_entry_total|]. intros s2 _.
  destruct dbl; [|discriminate]. apply for_range_total, validate_one_slot_total.
Qed.

(* StoreMap::openForReadingAt succeeds: nobody writes, not marked for removal, a key is present *)
Definition readable (e : entry) : bool := negb (a_writing e) && negb (a_wtbf e) && negb (a_empty e).

(* l is the list of slots visited from slot id i through the map's slice links, ending at a negative id *)
Fixpoint chain_of (s : st) (i : Z) (l : list Z) : Prop :=
  match l with
  | [] => i < 0
  | x :: r => i = x /\ 0 <= x /\ chain_of s (s_next (sls s x)) r
  end.

Fixpoint sumsz (s : st) (l : list Z) : Z :=
  match l with [] => 0 | x :: r => s_size (sls s x) + sumsz s r end.

Definition holds_after (slotSize : Z) (dbl : bool) (img : list dslot) (P : st -> Prop) : Prop :=
  match rebuild slotSize dbl img with Ok s => P s | _ => False end.

Definition dE : dslot := DHdr (mkHdr 0 0 0 0 0 0 0) MZero.

Lemma holds_after_ok : forall ssz dbl img s (P : st -> Prop), rebuild ssz dbl img = Ok s -> P s -> holds_after ssz dbl img P.
Proof. intros ssz dbl img s P H HP. unfold holds_after. rewrite H. exact HP. Qed.

(* witnesses, each confirmed against the real code through the harness (corpus/C57/known.txt) *)

(* repaired in /repo (e9a49c7): a cell whose entrySize field, or whose swap metadata size, is all ones is
   dropped instead of tripping an assert; nothing is indexed *)
Lemma allones_entry_size_regress :
  holds_after 131072 false
    [DHdr (mkHdr 5 7 rr_entry_size_max 200 1 0 (-1)) (MOk true 5 7 0 false 75); dE; dE; dE; dE; dE; dE]
    (fun s => forall f, 0 <= f < 7 -> readable (ents s f) = false).
Proof.
  eapply holds_after_ok; [vm_compute; reflexivity|].
  intros f Hf. assert (f = 0 \/ f = 1 \/ f = 2 \/ f = 3 \/ f = 4 \/ f = 5 \/ f = 6) as X by lia.
  destruct X as [->|[->|[->|[->|[->|[->| ->]]]]]]; reflexivity.
Qed.

Lemma allones_meta_size_regress :
  holds_after 131072 false
    [DHdr (mkHdr 5 7 0 100 1 0 (-1)) (MOk true 5 7 rr_entry_size_max false 75); dE; dE; dE; dE; dE; dE]
    (fun s => forall f, 0 <= f < 7 -> readable (ents s f) = false).
Proof.
  eapply holds_after_ok; [vm_compute; reflexivity|].
  intros f Hf. assert (f = 0 \/ f = 1 \/ f = 2 \/ f = 3 \/ f = 4 \/ f = 5 \/ f = 6) as X by lia.
  destruct X as [->|[->|[->|[->|[->|[->| ->]]]]]]; reflexivity.
Qed.

(* cross-linked chains: entry A absorbs slot 0 of entry B, B's later validation failure frees slot 0, a third
   cell of A's key then frees A's chain again: the free-slot index asserts on the second push of slot 0 *)
Definition img_double_free : list dslot :=
  [DHdr (mkHdr 2 0 0 100 1 4 (-1)) MBad;
   DHdr (mkHdr 1 0 200 100 1 1 0) (MOk true 1 0 0 false 75);
   DHdr (mkHdr 1 0 0 100 1 1 (-1)) MBad;
   dE;
   DHdr (mkHdr 2 0 200 100 1 4 0) (MOk true 2 0 0 false 75);
   DHdr (mkHdr 1 0 0 100 1 1 (-1)) MBad;
   dE].

Lemma crash_double_free_witness : rebuild 131072 false img_double_free = Abort.
Proof. vm_compute. reflexivity. Qed.

(* the same image without the sixth cell: entry 1 stays readable although its slot 0 is in the free-slot index *)
Definition img_freed_slot_in_use : list dslot :=
  [DHdr (mkHdr 2 0 0 100 1 4 (-1)) MBad;
   DHdr (mkHdr 1 0 200 100 1 1 0) (MOk true 1 0 0 false 75);
   DHdr (mkHdr 1 0 0 100 1 1 (-1)) MBad;
   dE;
   DHdr (mkHdr 2 0 200 100 1 4 0) (MOk true 2 0 0 false 75);
   dE; dE].

Lemma freed_slot_in_use_witness :
  holds_after 131072 false img_freed_slot_in_use (fun s =>
    readable (ents s 1) = true /\ chain_of s (a_start (ents s 1)) [1; 0] /\ In 0 (free s)).
Proof.
  eapply holds_after_ok; [vm_compute; reflexivity|].
  split; [reflexivity|]. split; [cbn; lia|]. cbn. tauto.
Qed.

(* with squid -S the leftover slot 2 of that image makes validateOneSlot throw out of the job *)
Lemma crash_doublecheck_witness : exists s, rebuild 131072 true img_freed_slot_in_use = Thrown s.
Proof. eexists. vm_compute. reflexivity. Qed.

(* two chains with swapped nextSlot links: both entries end up readable, each with a slot of the other key *)
Definition img_hodgepodge : list dslot :=
  [DHdr (mkHdr 2 0 0 100 1 4 (-1)) MBad;
   DHdr (mkHdr 1 0 200 100 1 1 0) (MOk true 1 0 0 false 75);
   DHdr (mkHdr 1 0 0 100 1 1 (-1)) MBad;
   dE;
   DHdr (mkHdr 2 0 200 100 1 4 2) (MOk true 2 0 0 false 75);
   dE; dE].

Lemma hodgepodge_witness :
  holds_after 131072 false img_hodgepodge (fun s =>
    readable (ents s 1) = true /\ a_k0 (ents s 1) = 1 /\ chain_of s (a_start (ents s 1)) [1; 0] /\
    readable (ents s 2) = true /\ a_k0 (ents s 2) = 2 /\ chain_of s (a_start (ents s 2)) [4; 2]).
Proof.
  eapply holds_after_ok; [vm_compute; reflexivity|].
  repeat split; cbn; lia.
Qed.

(* same key, two versions (an old tail cell, version 1, left where the new chain's link points) *)
Lemma version_mix_witness :
  holds_after 131072 false
    [DHdr (mkHdr 5 7 0 100 2 0 1) (MOk true 5 7 0 false 75); DHdr (mkHdr 5 7 0 100 1 0 (-1)) MBad; dE; dE; dE; dE; dE]
    (fun s => readable (ents s 5) = true /\ chain_of s (a_start (ents s 5)) [0; 1] /\ a_swapsz (ents s 5) = 200).
Proof.
  eapply holds_after_ok; [vm_compute; reflexivity|].
  repeat split; cbn; lia.
Qed.

(* y is x, except that the finalized flag (and more/freed, which no chain property mentions) may have been set *)
Definition core_le (x y : sl) : Prop :=
  s_mapped y = s_mapped x /\ s_size y = s_size x /\ s_next y = s_next x /\ (s_final x = true -> s_final y = true).

Lemma core_le_refl : forall x, core_le x x.
Proof. intros; unfold core_le; auto. Qed.

Lemma core_le_trans : forall x y z, core_le x y -> core_le y z -> core_le x z.
Proof. unfold core_le; intros x y z (A1&A2&A3&A4) (B1&B2&B3&B4); repeat split; try congruence; auto. Qed.

(* core_le, or y is x with its slice cleared (freeChainAt) *)
Definition slot_ok (x y : sl) : Prop :=
  core_le x y \/ (s_mapped y = s_mapped x /\ s_size y = 0).

Lemma slot_ok_trans : forall x y z, slot_ok x y -> slot_ok y z -> slot_ok x z.
Proof.
  unfold slot_ok, core_le. intros x y z [(A1&A2&A3&A4)|(A1&A2)] [(B1&B2&B3&B4)|(B1&B2)].
  - left. repeat split; try congruence. auto.
  - right. split; congruence.
  - right. split; congruence.
  - right. split; congruence.
Qed.

Definition member_ok (N : Z) (s : st) (x : Z) : Prop :=
  0 <= x < N /\ s_mapped (sls s x) = true /\ s_final (sls s x) = true /\ 0 < s_size (sls s x).

Definition good_chain (N : Z) (s : st) (f : Z) (l : list Z) : Prop :=
  chain_of s (a_start (ents s f)) l /\ NoDup l /\ (forall x, In x l -> member_ok N s x) /\
  sumsz s l = e_size (ents s f).

Definition loaded (s : st) (f : Z) : Prop := e_state (ents s f) = LeLoaded.

Definition ent_ok (e : entry) : Prop :=
  match e_state e with
  | LeEmpty => e = entry0
  | LeLoading => a_writing e = true
  | LeLoaded => a_writing e = false /\ e_anch e = true /\ a_swapsz e = e_size e
  | LeCorrupted => a_writing e = false /\ a_empty e = true
  | LeIgnored => False
  end.

Record Inv (N : Z) (s : st) : Prop := mkInv {
  iv_ent : forall f, ent_ok (ents s f);
  iv_chain : forall f, loaded s f -> exists l, good_chain N s f l;
  iv_disj : forall f g l1 l2 x, f <> g -> loaded s f -> loaded s g ->
            good_chain N s f l1 -> good_chain N s g l2 -> In x l1 -> In x l2 -> False }.

Lemma chain_of_det : forall s l1 l2 i, chain_of s i l1 -> chain_of s i l2 -> l1 = l2.
Proof.
  induction l1 as [|x r IH]; intros l2 i H1 H2; destruct l2 as [|y r2]; cbn in *; try reflexivity; try lia.
  destruct H1 as (E1 & P1 & C1). destruct H2 as (E2 & P2 & C2). subst x y. f_equal. eapply IH; eauto.
Qed.

Lemma good_chain_det : forall N s f l1 l2, good_chain N s f l1 -> good_chain N s f l2 -> l1 = l2.
Proof. intros N s f l1 l2 (C1&_) (C2&_). eapply chain_of_det; eauto. Qed.

Lemma chain_of_frame : forall s s' l i,
  (forall x, In x l -> s_next (sls s' x) = s_next (sls s x)) -> chain_of s i l -> chain_of s' i l.
Proof.
  induction l as [|x r IH]; intros i Hn H; cbn in *; [assumption|].
  destruct H as (E & P & C). repeat split; try assumption.
  rewrite (Hn x) by auto. apply IH; auto.
Qed.

Lemma sumsz_frame : forall s s' l,
  (forall x, In x l -> s_size (sls s' x) = s_size (sls s x)) -> sumsz s' l = sumsz s l.
Proof.
  induction l as [|x r IH]; intros Hn; cbn; [reflexivity|].
  rewrite (Hn x) by (cbn; auto). rewrite IH; [reflexivity|]. intros; apply Hn; cbn; auto.
Qed.

Lemma good_chain_frame : forall N s s' f l,
  ents s' f = ents s f -> (forall x, In x l -> core_le (sls s x) (sls s' x)) ->
  good_chain N s f l -> good_chain N s' f l.
Proof.
  intros N s s' f l He Hc (C & ND & M & S). unfold good_chain. rewrite He.
  split; [|split; [assumption|split]].
  - eapply chain_of_frame; [|eassumption]. intros x Hx. apply Hc in Hx. destruct Hx as (_&_&Hx&_). exact Hx.
  - intros x Hx. specialize (M x Hx). specialize (Hc x Hx). destruct M as (R&M1&M2&M3).
    destruct Hc as (C1&C2&C3&C4). unfold member_ok. rewrite C1, C2. auto.
  - rewrite <- S. apply sumsz_frame. intros x Hx. apply Hc in Hx. destruct Hx as (_&Hx&_). exact Hx.
Qed.

(* the master preservation lemma: entry f and the slots in P may change arbitrarily *)
Lemma Inv_step : forall N s s' f (P : Z -> Prop),
  Inv N s ->
  (forall g, g <> f -> ents s' g = ents s g) ->
  (forall x, P x \/ core_le (sls s x) (sls s' x)) ->
  (forall g l x, g <> f -> loaded s g -> good_chain N s g l -> In x l -> ~ P x) ->
  ent_ok (ents s' f) ->
  (loaded s' f -> exists l, good_chain N s' f l /\
      forall g l2 x, g <> f -> loaded s g -> good_chain N s g l2 -> In x l -> In x l2 -> False) ->
  Inv N s'.
Proof.
  intros N s s' f P I He Hs HP Hf Hl.
  assert (T : forall g l, g <> f -> loaded s g -> good_chain N s g l -> good_chain N s' g l).
  { intros g l Hg Lg G. eapply good_chain_frame; [apply He; assumption| |exact G].
    intros x Hx. destruct (Hs x) as [Px|C]; [|exact C]. exfalso. eapply HP; eauto. }
  assert (B : forall g l, g <> f -> loaded s' g -> good_chain N s' g l -> loaded s g /\ good_chain N s g l).
  { intros g l Hg Lg G. assert (Lg' : loaded s g) by (unfold loaded in *; rewrite <- (He g Hg); exact Lg).
    split; [exact Lg'|]. destruct (iv_chain N s I g Lg') as [l0 G0].
    rewrite (good_chain_det N s' g l l0 G (T g l0 Hg Lg' G0)). exact G0. }
  constructor.
  - intros g. destruct (Z.eq_dec g f) as [->|Hg]; [exact Hf|]. rewrite He by assumption. apply (iv_ent N s I).
  - intros g Lg. destruct (Z.eq_dec g f) as [->|Hg].
    + destruct (Hl Lg) as [l [G _]]. eauto.
    + assert (Lg' : loaded s g) by (unfold loaded in *; rewrite <- (He g Hg); exact Lg).
      destruct (iv_chain N s I g Lg') as [l0 G0]. exists l0. apply T; assumption.
  - intros g1 g2 l1 l2 x Hne L1 L2 G1 G2 X1 X2.
    destruct (Z.eq_dec g1 f) as [E1|N1]; destruct (Z.eq_dec g2 f) as [E2|N2].
    + congruence.
    + subst g1. destruct (Hl L1) as [l [G D]]. rewrite (good_chain_det _ _ _ _ _ G1 G) in X1.
      destruct (B g2 l2 N2 L2 G2) as [L2' G2']. eapply D; eauto.
    + subst g2. destruct (Hl L2) as [l [G D]]. rewrite (good_chain_det _ _ _ _ _ G2 G) in X2.
      destruct (B g1 l1 N1 L1 G1) as [L1' G1']. eapply D; eauto.
    + destruct (B g1 l1 N1 L1 G1) as [L1' G1']. destruct (B g2 l2 N2 L2 G2) as [L2' G2'].
      eapply (iv_disj N s I g1 g2); eauto.
Qed.

(* entry f changes but is not (and does not become) loaded; no slice, mapped or finalized flag is taken back *)
Lemma Inv_keep : forall N s s' f,
  Inv N s ->
  (forall g, g <> f -> ents s' g = ents s g) ->
  (forall x, core_le (sls s x) (sls s' x)) ->
  ent_ok (ents s' f) -> e_state (ents s' f) <> LeLoaded ->
  Inv N s'.
Proof.
  intros N s s' f I He Hs Hf Hn.
  apply (Inv_step N s s' f (fun _ => False)); auto.
  intros L. exfalso. apply Hn. exact L.
Qed.

Ltac st_simp := cbn [ents sls free acount c_scan c_obj c_invalid c_clash c_dup c_badflags c_valid
                     set_ent set_sl set_free set_acount inc_scan inc_obj inc_invalid inc_clash inc_dup
                     inc_badflags inc_valid] in *.

Lemma upd_same : forall A (g : Z -> A) k v, upd g k v k = v.
Proof. intros. unfold upd. rewrite Z.eqb_refl. reflexivity. Qed.

Lemma upd_other : forall A (g : Z -> A) k v x, x <> k -> upd g k v x = g x.
Proof. intros. unfold upd. destruct (x =? k) eqn:E; [lia|reflexivity]. Qed.

Lemma core_le_upd : forall (g : Z -> sl) i y x, core_le (g i) y -> core_le (g x) (upd g i y x).
Proof.
  intros g i y x H. unfold upd. destruct (x =? i) eqn:E; [|apply core_le_refl].
  assert (x = i) by lia. subst x. exact H.
Qed.

(* footprint of the slot-level helpers: entries untouched, slices/mapped/finalized untouched *)
Definition quiet (s s' : st) : Prop :=
  ents s' = ents s /\ forall x, core_le (sls s x) (sls s' x).

Lemma quiet_refl : forall s, quiet s s.
Proof. intros; split; [reflexivity|intros; apply core_le_refl]. Qed.

Lemma quiet_inc : forall s s', ents s' = ents s -> sls s' = sls s -> quiet s s'.
Proof. intros s s' E S. split; [exact E|]. intros x; rewrite S; apply core_le_refl. Qed.

Lemma quiet_trans : forall a b c, quiet a b -> quiet b c -> quiet a c.
Proof. intros a b c [E1 C1] [E2 C2]. split; [congruence|]. intros x. eapply core_le_trans; eauto. Qed.

Lemma push_free_quiet : forall i s s', push_free i s = Ok s' -> quiet s s'.
Proof. intros i s s' H. apply push_free_sls in H. destruct H as [A B]. split; [exact B|]. intros x. rewrite A. apply core_le_refl. Qed.

Lemma free_slot_quiet : forall N pos inv i s s', free_slot N pos inv i s = Ok s' -> quiet s s'.
Proof.
  intros N pos inv i s s' H. apply free_slot_sls in H. destruct H as (_&_&A&B). split; [exact B|].
  intros x. rewrite A. apply core_le_upd. unfold core_le; cbn; auto.
Qed.

Lemma free_unused_slot_quiet : forall N pos inv i s s', free_unused_slot N pos inv i s = Ok s' -> quiet s s'.
Proof.
  intros N pos inv i s s'. unfold free_unused_slot. destruct (negb (ls_ok N pos i)); [discriminate|].
  destruct (s_mapped (sls s i)); [discriminate|]. apply free_slot_quiet.
Qed.

Lemma bind_ok : forall r k s', bind r k = Ok s' -> exists s1, r = Ok s1 /\ k s1 = Ok s'.
Proof. intros [s| s | |] k s' H; cbn in H; try discriminate; eauto. Qed.

Lemma free_more_chain_quiet : forall N pos fuel i s s', free_more_chain N pos fuel i s = Ok s' -> quiet s s'.
Proof.
  induction fuel; intros i s s' H; cbn [free_more_chain] in H.
  - destruct (i <? 0); [|discriminate]. inversion H; subst. apply quiet_refl.
  - destruct (i <? 0); [inversion H; subst; apply quiet_refl|].
    destruct (negb (ls_ok N pos i)); [discriminate|].
    apply bind_ok in H. destruct H as [s1 [H1 H2]].
    eapply quiet_trans; [eapply free_slot_quiet; eauto|eapply IHfuel; eauto].
Qed.

Lemma for_range_pres : forall (P : st -> Prop) step, (forall k s s', P s -> step k s = Ok s' -> P s') ->
  forall n k s s', P s -> for_range n k step s = Ok s' -> P s'.
Proof.
  intros P step Hs. induction n; intros k s s' I H; cbn [for_range] in H.
  - inversion H; subst; exact I.
  - apply bind_ok in H. destruct H as [s1 [H1 H2]]. eapply IHn; [|exact H2]. eapply Hs; eauto.
Qed.

Lemma drop_dup_quiet : forall N pos b i s s',
  bind (free_unused_slot N pos b i s) (fun s2 => Ok (inc_dup s2)) = Ok s' -> quiet s s'.
Proof.
  intros N pos b i s s' H. apply bind_ok in H. destruct H as [s2 [H2 H3]]. inversion H3; subst s'.
  eapply quiet_trans; [eapply free_unused_slot_quiet; exact H2 | apply quiet_inc; reflexivity].
Qed.

(* loadOneSlot either only drops the slot or hands a used, sane cell to useNewSlot *)
Lemma load_one_slot_cases : forall ssz N pos d s s', load_one_slot ssz N pos d s = Ok s' ->
  quiet s s' \/ exists h m, d = DHdr h m /\ hdr_empty h = false /\ hdr_sane ssz N h = true /\
                             use_new_slot N pos pos h m (inc_scan s) = Ok s'.
Proof.
  intros ssz N pos d s s' H. unfold load_one_slot in H. cbv zeta in H.
  assert (Unused : forall b, free_unused_slot N pos b pos (inc_scan s) = Ok s' -> quiet s s')
    by (intros b Hb; apply (quiet_trans s (inc_scan s)); [apply quiet_inc; reflexivity | eapply free_unused_slot_quiet; exact Hb]).
  destruct d as [|h m]; [left; eapply Unused; exact H|].
  destruct (hdr_empty h) eqn:Em; [left; eapply Unused; exact H|].
  destruct (hdr_sane ssz N h) eqn:Sa; cbn [negb] in H; [|left; eapply Unused; exact H].
  right. exists h, m. auto.
Qed.

(* validateOneEntry acts only on an entry that is still loading *)
Lemma validate_one_entry_cases : forall N f s s', validate_one_entry N f s = Ok s' ->
  quiet s s' \/ (e_state (ents s f) = LeLoading /\ finalize_or_free N N f (inc_valid s) = Ok s').
Proof.
  intros N f s s' H. unfold validate_one_entry in H. cbv zeta in H. st_simp.
  destruct (e_state (ents s f)); try (inversion H; subst; left; apply quiet_inc; reflexivity). auto.
Qed.

Lemma validate_one_slot_quiet : forall N i s s', validate_one_slot N i s = Ok s' -> quiet s s'.
Proof.
  intros N i s s' H. unfold validate_one_slot in H. cbv zeta in H.
  destruct (negb (ls_ok N N i)); [discriminate|].
  match type of H with context [if ?c then Ok _ else _] => destruct c end; [|discriminate].
  inversion H; subst. apply quiet_inc; reflexivity.
Qed.

(* the validation passes keep whatever survives quiet steps and finalizeOrFree of a loading entry *)
Lemma validation_pres : forall (P : st -> Prop) N (dbl : bool) n s1 s,
  (forall a b, P a -> quiet a b -> P b) ->
  (forall f a b, P a -> e_state (ents a f) = LeLoading -> finalize_or_free N N f a = Ok b -> P b) ->
  P s1 ->
  bind (for_range n 0 (validate_one_entry N) s1)
       (fun s2 => if dbl then for_range n 0 (validate_one_slot N) s2 else Ok s2) = Ok s -> P s.
Proof.
  intros P N dbl n s1 s Hq Hf P1 H. apply bind_ok in H. destruct H as [s2 [H2 H3]].
  assert (P2 : P s2).
  { eapply for_range_pres; [|exact P1|exact H2]. intros k a b Pa Hk.
    destruct (validate_one_entry_cases N k a b Hk) as [Q|[L F]]; [eapply Hq; eauto|].
    apply (Hf k (inc_valid a) b); [|exact L|exact F]. eapply Hq; [exact Pa|apply quiet_inc; reflexivity]. }
  destruct dbl; [|inversion H3; subst; exact P2].
  eapply for_range_pres; [|exact P2|exact H3]. intros k a b Pa Hk.
  eapply Hq; [exact Pa|eapply validate_one_slot_quiet; exact Hk].
Qed.

(* freeBadEntry: entry f ends up Corrupted, unlocked, keyless; nothing else that matters changes *)
Lemma free_bad_entry_ok : forall N pos f s s', free_bad_entry N pos f s = Ok s' ->
  (forall x, core_le (sls s x) (sls s' x)) /\ (forall g, g <> f -> ents s' g = ents s g) /\
  ents s' f = e_set_writing (rewind (e_set_state (ents s f) LeCorrupted)) false.
Proof.
  intros N pos f s s' H. unfold free_bad_entry in H. st_simp. rewrite upd_same in H.
  cbn [a_writing e_set_state a_start e_size] in H.
  destruct (negb (a_writing (ents s f))); [discriminate|].
  match type of H with context [if negb ?c then Abort else _] => destruct (negb c) end; [discriminate|].
  apply bind_ok in H. destruct H as [s1 [H1 H2]].
  apply free_more_chain_quiet in H1. destruct H1 as [E1 C1]. st_simp.
  unfold forget_writing in H2. destruct (negb (a_writing (ents s1 f))); [discriminate|].
  inversion H2; subst s'; clear H2. st_simp. split; [exact C1|]. rewrite E1. split.
  - intros g Hg. rewrite !upd_other by assumption. reflexivity.
  - rewrite !upd_same. reflexivity.
Qed.

Lemma free_bad_entry_inv : forall N pos f s s',
  Inv N s -> e_state (ents s f) <> LeLoaded -> free_bad_entry N pos f s = Ok s' -> Inv N s'.
Proof.
  intros N pos f s s' I NL H. destruct (free_bad_entry_ok N pos f s s' H) as (C & E & Ef).
  apply (Inv_keep N s s' f I E C); rewrite Ef; [unfold ent_ok; cbn; auto| discriminate].
Qed.

(* slots that are not mapped belong to no loaded chain and may change freely *)
Lemma Inv_slots : forall N s s', Inv N s -> ents s' = ents s ->
  (forall x, s_mapped (sls s x) = false \/ core_le (sls s x) (sls s' x)) -> Inv N s'.
Proof.
  intros N s s' I E C.
  apply (Inv_step N s s' 0 (fun x => s_mapped (sls s x) = false)); auto.
  - intros; rewrite E; reflexivity.
  - intros g l x Hg Lg (_&_&M&_) Hx Hm. destruct (M x Hx) as (_&Mx&_). congruence.
  - rewrite E. apply (iv_ent N s I).
  - intros L. assert (L0 : loaded s 0) by (unfold loaded in *; rewrite <- E; exact L).
    destruct (iv_chain N s I 0 L0) as [l G]. exists l. split.
    + eapply good_chain_frame; [rewrite E; reflexivity| |exact G].
      intros x Hx. destruct (C x) as [Mf|Cx]; [|exact Cx].
      destruct G as (_&_&M&_). destruct (M x Hx) as (_&Mx&_). congruence.
    + intros g l2 x Hg Lg G2 X1 X2. eapply (iv_disj N s I 0 g); eauto.
Qed.

Lemma Inv_quiet : forall N s s', Inv N s -> quiet s s' -> Inv N s'.
Proof. intros N s s' I [E C]. apply (Inv_slots N s s' I E). intros x. right. apply C. Qed.

(* the slots visited from i through the slice links up to (not including) j *)
Fixpoint path (s : st) (i : Z) (l : list Z) (j : Z) : Prop :=
  match l with
  | [] => i = j
  | x :: r => i = x /\ 0 <= x /\ path s (s_next (sls s x)) r j
  end.

Lemma path_chain : forall s l i j, path s i l j -> j < 0 -> chain_of s i l.
Proof. induction l as [|x r IH]; intros i j H Hj; cbn in *; [lia|]. destruct H as (A&B&C). eauto. Qed.

Lemma path_frame : forall s s' l i j,
  (forall x, In x l -> s_next (sls s' x) = s_next (sls s x)) -> path s i l j -> path s' i l j.
Proof.
  induction l as [|x r IH]; intros i j Hn H; cbn in *; [assumption|].
  destruct H as (E & P & C). repeat split; try assumption.
  rewrite (Hn x) by auto. apply IH; auto.
Qed.

Definition walk_post (N : Z) (s : st) (i msz : Z) (s' : st) (j m : Z) : Prop :=
  exists l, path s i l j /\ NoDup l /\
    (forall x, In x l -> 0 <= x < N /\ s_final (sls s x) = false /\ s_mapped (sls s x) = true /\ 0 < s_size (sls s x)) /\
    m = msz + sumsz s l /\ ents s' = ents s /\
    (forall x, In x l -> sls s' x = s_set_final (sls s x) true) /\
    (forall x, ~ In x l -> sls s' x = sls s x).

Lemma fin_walk_spec : forall N pos f lesz fuel i msz s,
  match fin_walk N pos f lesz fuel i msz s with
  | WOk s' j m => walk_post N s i msz s' j m
  | WThrown s' => quiet s s'
  | _ => True
  end.
Proof.
  induction fuel; intros i msz s; cbn [fin_walk].
  - destruct ((0 <=? i) && (msz <? lesz)); [exact I|].
    exists []. cbn. repeat split; auto; try lia. constructor.
  - destruct ((0 <=? i) && (msz <? lesz)) eqn:G.
    2:{ exists []. cbn. repeat split; auto; try lia. constructor. }
    destruct (ls_ok N pos i) eqn:L; cbn [negb]; [|apply quiet_refl].
    destruct (s_final (sls s i)) eqn:F; [apply quiet_refl|].
    destruct (s_mapped (sls s i)) eqn:M; cbn [negb]; [|apply quiet_refl].
    destruct (s_freed (sls s i)) eqn:Fr; [apply quiet_refl|].
    set (s1 := set_sl s i (s_set_final (sls s i) true)).
    assert (Q1 : quiet s s1).
    { split; [reflexivity|]. intros x. apply (core_le_upd (sls s)). unfold core_le; cbn; auto. }
    destruct (negb (a_writing (ents s1 f))); [exact I|].
    destruct (0 <? s_size (sls s i)) eqn:Sz; cbn [negb]; [|exact Q1].
    specialize (IHfuel (s_next (sls s i)) (msz + s_size (sls s i)) s1).
    destruct (fin_walk N pos f lesz fuel (s_next (sls s i)) (msz + s_size (sls s i)) s1) as [s' j m|s'| |]; auto.
    + destruct IHfuel as (l & P & ND & Mem & Sum & En & In1 & Out1).
      assert (NI : ~ In i l).
      { intros Hi. destruct (Mem i Hi) as (_&Fi&_). subst s1. st_simp. rewrite upd_same in Fi. cbn in Fi. discriminate. }
      assert (Same : forall x, In x l -> sls s1 x = sls s x).
      { intros x Hx. subst s1. st_simp. apply upd_other. intros ->. contradiction. }
      exists (i :: l). unfold ls_ok in L.
      split. { cbn [path]. split; [reflexivity|]. split; [lia|].
               eapply path_frame; [|exact P]. intros x Hx. rewrite Same by assumption. reflexivity. }
      split. { constructor; assumption. }
      split. { intros x [<-|Hx]; [repeat split; try assumption; lia|].
               rewrite <- (Same x Hx). apply Mem; assumption. }
      split. { cbn [sumsz]. rewrite Sum. rewrite (sumsz_frame s s1 l); [lia|].
               intros x Hx. rewrite Same by assumption. reflexivity. }
      split. { rewrite En. reflexivity. }
      split. { intros x [<-|Hx].
               - rewrite Out1 by assumption. subst s1. st_simp. apply upd_same.
               - rewrite In1 by assumption. rewrite Same by assumption. reflexivity. }
      intros x Hx. rewrite Out1 by (intros Hc; apply Hx; right; exact Hc).
      subst s1. st_simp. apply upd_other. intros ->. apply Hx. left; reflexivity.
    + eapply quiet_trans; eauto.
Qed.

Lemma walk_post_quiet : forall N s i msz s' j m, walk_post N s i msz s' j m -> quiet s s'.
Proof.
  intros N s i msz s' j m (l & P & ND & Mem & Sum & En & In1 & Out1). split; [exact En|].
  intros x. destruct (in_dec Z.eq_dec x l) as [Hx|Hx].
  - rewrite In1 by assumption. unfold core_le; cbn; auto.
  - rewrite Out1 by assumption. apply core_le_refl.
Qed.

Lemma e_set_swapsz_id : forall e, e_set_swapsz e (a_swapsz e) = e.
Proof. intros []; reflexivity. Qed.

(* finalizeOrThrow succeeds only after a walk from the anchored start to the end of the chain that saw exactly
   the entry's bytes; the entry is then stored with that size, validated, loaded and unlocked. An exception
   leaves everything that matters as it was. *)
Lemma finalize_or_throw_cases : forall N pos f s,
  match finalize_or_throw N pos f s with
  | Ok s' => exists s1 j, e_anch (ents s f) = true /\ j < 0 /\
      walk_post N s (a_start (ents s f)) 0 s1 j (e_size (ents s f)) /\
      s' = inc_obj (set_ent s1 f (e_set_writing (e_set_state (e_set_valid
             (e_set_swapsz (ents s f) (e_size (ents s f))) true) LeLoaded) false))
  | Thrown s' => quiet s s'
  | _ => True
  end.
Proof.
  intros N pos f s. unfold finalize_or_throw.
  destruct (a_writing (ents s f)) eqn:W; cbn [negb]; [|exact I].
  destruct (negb (0 <? e_size (ents s f))); [apply quiet_refl|].
  destruct (e_anch (ents s f)) eqn:An; cbn [negb]; [|apply quiet_refl].
  pose proof (fin_walk_spec N pos f (e_size (ents s f)) (fuel_of N) (a_start (ents s f)) 0 s) as WS.
  destruct (fin_walk N pos f (e_size (ents s f)) (fuel_of N) (a_start (ents s f)) 0 s) as [s1 j m|s1| |]; auto.
  pose proof (walk_post_quiet _ _ _ _ _ _ _ WS) as Q.
  destruct (j <? 0) eqn:J; cbn [negb]; [|exact Q].
  destruct (m =? e_size (ents s f)) eqn:Mq; cbn [negb]; [|exact Q].
  rewrite (proj1 Q).
  destruct ((a_swapsz (ents s f) =? 0) || (a_swapsz (ents s f) =? e_size (ents s f))) eqn:Szq; cbn [negb]; [|exact Q].
  match goal with |- context [negb (a_writing ?e)] => destruct (negb (a_writing e)) end; [exact I|].
  exists s1, j. assert (m = e_size (ents s f)) as -> by lia. repeat split; [lia|exact WS|].
  destruct (a_swapsz (ents s f) =? 0) eqn:Z0; [reflexivity|].
  replace (e_size (ents s f)) with (a_swapsz (ents s f)) by lia. rewrite e_set_swapsz_id. reflexivity.
Qed.

(* success makes f a loaded entry with a sound chain that no other loaded entry uses *)
Lemma finalize_or_throw_inv : forall N pos f s,
  Inv N s ->
  match finalize_or_throw N pos f s with
  | Ok s' => Inv N s'
  | Thrown s' => quiet s s'
  | _ => True
  end.
Proof.
  intros N pos f s I. pose proof (finalize_or_throw_cases N pos f s) as F.
  destruct (finalize_or_throw N pos f s) as [s'|s'| |]; auto.
  destruct F as (s1 & j & An & J & WS & ->).
  destruct (walk_post_quiet _ _ _ _ _ _ _ WS) as [_ C].
  destruct WS as (l & P & ND & Mem & Sum & En & In1 & Out1).
  apply (Inv_step N s _ f (fun _ => False)); st_simp; auto.
  - intros g Hg. rewrite upd_other by assumption. rewrite En. reflexivity.
  - rewrite upd_same. unfold ent_ok. cbn. auto.
  - intros _. exists l. split.
    + unfold good_chain. st_simp. rewrite upd_same. cbn. split; [|split; [exact ND|split]].
      * eapply chain_of_frame; [|eapply path_chain; [exact P|lia]].
        intros x Hx. st_simp. rewrite In1 by assumption. reflexivity.
      * intros x Hx. destruct (Mem x Hx) as (R&Fi&Ma&Si). unfold member_ok. st_simp. rewrite In1 by assumption. cbn. auto.
      * rewrite (sumsz_frame s _ l); [lia|]. intros x Hx. st_simp. rewrite In1 by assumption. reflexivity.
    + intros g l2 x Hg Lg G2 X1 X2. destruct (Mem x X1) as (_&Fi&_).
      destruct G2 as (_&_&M2&_). destruct (M2 x X2) as (_&_&Fi2&_). congruence.
Qed.

Lemma finalize_or_free_inv : forall N pos f s s',
  Inv N s -> e_state (ents s f) <> LeLoaded -> finalize_or_free N pos f s = Ok s' -> Inv N s'.
Proof.
  intros N pos f s s' I NL H. unfold finalize_or_free in H.
  pose proof (finalize_or_throw_inv N pos f s I) as F.
  destruct (finalize_or_throw N pos f s) as [s1|s1| |]; try discriminate.
  - inversion H; subst; exact F.
  - eapply free_bad_entry_inv; [eapply Inv_quiet; eauto| |exact H].
    destruct F as [E _]. rewrite E. exact NL.
Qed.

Lemma map_slot_inv : forall N pos i h s s', Inv N s -> map_slot N pos i h s = Ok s' ->
  Inv N s' /\ ents s' = ents s.
Proof.
  intros N pos i h s s' I H. unfold map_slot in H.
  destruct (negb (ls_ok N pos i)); [discriminate|].
  destruct (s_mapped (sls s i)) eqn:M; [discriminate|].
  destruct (s_freed (sls s i)); [discriminate|]. inversion H; subst s'; clear H.
  split; [|reflexivity]. apply (Inv_slots N s); [exact I|reflexivity|].
  intros x. st_simp. unfold upd. destruct (x =? i) eqn:E; [left; assert (x = i) by lia; subst; exact M|right; apply core_le_refl].
Qed.

(* "f is being loaded, and compared with s only entry f and bookkeeping fields of slots differ" *)
Definition tw (f : Z) (s s' : st) : Prop :=
  (forall x, core_le (sls s x) (sls s' x)) /\ (forall g, g <> f -> ents s' g = ents s g) /\
  e_state (ents s' f) = LeLoading /\ a_writing (ents s' f) = true.

Lemma tw_refl : forall f s, e_state (ents s f) = LeLoading -> a_writing (ents s f) = true -> tw f s s.
Proof. intros f s L W. split; [intros; apply core_le_refl|]. split; [reflexivity|split; assumption]. Qed.

Lemma Inv_tw : forall N f s s', Inv N s -> tw f s s' -> Inv N s'.
Proof.
  intros N f s s' I (C&E&St&W). apply (Inv_keep N s s' f); auto.
  - unfold ent_ok. rewrite St. exact W.
  - rewrite St. discriminate.
Qed.

Lemma tw_set_ent : forall f s s' e, tw f s s' ->
  e_state e = e_state (ents s' f) -> a_writing e = a_writing (ents s' f) -> tw f s (set_ent s' f e).
Proof.
  intros f s s' e (C&E&St&W) Se We. unfold tw. st_simp. rewrite upd_same.
  split; [exact C|]. split; [|split; congruence].
  intros g Hg. rewrite upd_other by assumption. auto.
Qed.

Lemma tw_set_more : forall f s s' i v, tw f s s' -> tw f s (set_sl s' i (s_set_more (sls s' i) v)).
Proof.
  intros f s s' i v (C&E&St&W). unfold tw. st_simp.
  split; [|split; [exact E|split; assumption]].
  intros x. eapply core_le_trans; [apply C|]. apply core_le_upd. unfold core_le; cbn; auto.
Qed.

(* what importEntry accepts, and what it then stores: the key of the swap metadata and a size that is not all ones *)
Lemma import_entry_ok : forall h m e e5, import_entry h m e = ImpOk e5 ->
  exists mk0 mk1 sz hl z, m = MOk true mk0 mk1 sz false hl /\ z <> rr_entry_size_max /\
    e5 = e_set_valid (e_set_swapsz (e_set_wtbf (e_set_key e mk0 mk1) false) z) false.
Proof.
  intros h m e e5 H. unfold import_entry in H. destruct m as [| |hk mk0 mk1 ssz pr hl]; try discriminate.
  destruct hk; cbn [negb] in H; [|discriminate].
  match type of H with context [match ?o with Some _ => _ | None => _ end] => destruct o as [z|] end; [|discriminate].
  destruct pr; [discriminate|]. destruct (z =? rr_entry_size_max) eqn:Z; [discriminate|].
  inversion H; subst. exists mk0, mk1, ssz, hl, z. repeat split. lia.
Qed.

Lemma add_tail_inv : forall N pos f i h s s',
  Inv N s -> e_state (ents s f) = LeLoading -> add_tail N pos f i h s = Ok s' -> Inv N s'.
Proof.
  intros N pos f i h s s' I L H. unfold add_tail in H.
  match type of H with context [if ?c then free_bad_entry _ _ _ _ else _] => destruct c end.
  - eapply free_bad_entry_inv; [exact I| |exact H]. rewrite L; discriminate.
  - apply bind_ok in H. destruct H as [s1 [H1 H2]].
    apply map_slot_inv in H1; [|exact I]. destruct H1 as [I1 E1].
    match type of H2 with context [if ?c then _ else _] => destruct c end.
    + eapply finalize_or_free_inv; [exact I1| |exact H2]. rewrite E1, L. discriminate.
    + inversion H2; subst; exact I1.
Qed.

(* the two ways addSlotToEntry ends, from a state reached by such updates *)
Lemma free_bad_entry_tw : forall N pos f s s1 s',
  Inv N s -> free_bad_entry N pos f s1 = Ok s' -> tw f s s1 -> Inv N s'.
Proof.
  intros N pos f s s1 s' I H T. eapply free_bad_entry_inv; [eapply Inv_tw; eassumption| |exact H].
  destruct T as (_&_&L&_). rewrite L. discriminate.
Qed.

Lemma add_tail_tw : forall N pos f i h s s1 s',
  Inv N s -> add_tail N pos f i h s1 = Ok s' -> tw f s s1 -> Inv N s'.
Proof. intros N pos f i h s s1 s' I H T. eapply add_tail_inv; [eapply Inv_tw; eassumption| apply T| exact H]. Qed.

Lemma add_slot_to_entry_inv : forall N pos f i h m s s',
  Inv N s -> e_state (ents s f) = LeLoading -> add_slot_to_entry N pos f i h m s = Ok s' -> Inv N s'.
Proof.
  intros N pos f i h m s s' I L H. unfold add_slot_to_entry in H.
  destruct (a_writing (ents s f)) eqn:W; cbn [negb] in H; [|discriminate].
  pose proof (tw_refl f s L W) as T0.
  apply bind_ok in H. destruct H as [s2 [Hc H]].
  assert (T2 : tw f s s2).
  { destruct (e_anch (ents s f)).
    - destruct (negb (ls_ok N pos (a_start (ents s f)))); [discriminate|].
      destruct (negb (ls_ok N pos i)); [discriminate|].
      destruct (negb (s_more (sls s i) <? 0)); [discriminate|]. inversion Hc; subst s2.
      apply tw_set_more, tw_set_more, T0.
    - destruct (negb (ls_ok N pos i)); [discriminate|].
      destruct (negb (s_more (sls s i) <? 0)); [discriminate|]. inversion Hc; subst s2.
      apply tw_set_ent; [apply tw_set_more, T0| reflexivity| reflexivity]. }
  clear Hc. cbv zeta in H.
  pose proof (tw_set_ent f s s2 (e_set_size (ents s2 f) (e_size (ents s2 f) + h_psz h)) T2 eq_refl eq_refl) as T3.
  set (s3 := set_ent s2 f _) in *.
  destruct (h_first h =? i); [|eapply add_tail_tw; eassumption].
  destruct (e_anch (ents s3 f)).
  - apply bind_ok in H. destruct H as [s4 [H4 H5]]. inversion H5; subst s'.
    apply (Inv_quiet N s4); [eapply free_bad_entry_tw; eassumption| apply quiet_inc; reflexivity].
  - pose proof (tw_set_ent f s s3 (e_set_anch (ents s3 f) true) T3 eq_refl eq_refl) as T4.
    set (s4 := set_ent s3 f _) in *.
    destruct (import_entry h m (ents s4 f)) as [bf|e5] eqn:Imp.
    + eapply free_bad_entry_tw; [exact I| exact H|]. destruct bf; exact T4.
    + apply import_entry_ok in Imp. destruct Imp as (mk0&mk1&sz&hl&z&_&_&E5).
      assert (T5 : tw f s (set_ent s4 f e5)) by (apply tw_set_ent; [exact T4| |]; rewrite E5; reflexivity).
      assert (T6 : tw f s (set_ent (set_ent s4 f e5) f (e_set_swapsz e5 (h_esz h))))
        by (apply tw_set_ent; [exact T5| |]; st_simp; rewrite upd_same; reflexivity).
      destruct (negb (h_esz h =? 0)); [|eapply add_tail_tw; eassumption].
      destruct (h_esz h =? rr_entry_size_max); [eapply free_bad_entry_tw; eassumption|].
      destruct (a_swapsz e5 =? 0); [eapply add_tail_tw; eassumption|].
      destruct (negb (h_esz h =? a_swapsz e5)); [eapply free_bad_entry_tw| eapply add_tail_tw]; eassumption.
Qed.

(* freeChainAt keeps every slot or clears it, and over a duplicate-free chain touches the slots of that chain only *)
Lemma free_chain_at_spec : forall N fuel i s s', free_chain_at N fuel i s = Ok s' ->
  ents s' = ents s /\ (forall x, slot_ok (sls s x) (sls s' x)) /\
  forall l, chain_of s i l -> NoDup l -> forall x, ~ In x l -> sls s' x = sls s x.
Proof.
  induction fuel; intros i s s' H; cbn [free_chain_at] in H.
  - destruct (i <? 0); [|discriminate]. inversion H; subst. repeat split. intros; left; apply core_le_refl.
  - destruct (i <? 0) eqn:I0; [inversion H; subst; repeat split; intros; left; apply core_le_refl|].
    destruct (negb ((0 <=? i) && (i <? N))); [discriminate|].
    apply bind_ok in H. destruct H as [s1 [H1 H2]].
    apply push_free_sls in H1. destruct H1 as [S1 E1]. st_simp.
    destruct (IHfuel _ _ _ H2) as (E2 & C2 & O2). split; [congruence|]. split.
    + intros x. eapply slot_ok_trans; [|apply C2]. rewrite S1. unfold upd. destruct (x =? i) eqn:E; [|left; apply core_le_refl].
      assert (x = i) by lia. subst. right. cbn. auto.
    + intros l C ND y Hy. destruct l as [|x r]; cbn in C; [lia|]. destruct C as (E & P & C). subst x.
      inversion ND as [|? ? NI ND']; subst.
      rewrite (O2 r); [| |exact ND'|intros Hc; apply Hy; right; exact Hc].
      * rewrite S1. apply upd_other. intros ->. apply Hy. left; reflexivity.
      * eapply chain_of_frame; [|exact C]. intros z Hz. rewrite S1. rewrite upd_other; [reflexivity|].
        intros ->. contradiction.
Qed.

(* a further cell for an already loaded entry: the entry is dropped from the index *)
Lemma loaded_dup_inv : forall N f s s',
  Inv N s -> e_state (ents s f) = LeLoaded ->
  free_entry N f (set_ent s f (e_set_state (ents s f) LeCorrupted)) = Ok s' -> Inv N s'.
Proof.
  intros N f s s' I L H.
  pose proof (iv_ent N s I f) as Ef. unfold ent_ok in Ef. rewrite L in Ef. destruct Ef as [Ef _].
  destruct (iv_chain N s I f L) as [l G].
  unfold free_entry in H. st_simp. rewrite upd_same in H. cbn [a_writing e_set_state] in H. rewrite Ef in H.
  unfold free_chain in H. st_simp. rewrite upd_same in H.
  apply bind_ok in H. destruct H as [s1 [H1 H2]]. inversion H2; subst s'; clear H2.
  set (s0 := set_ent (set_ent s f (e_set_state (ents s f) LeCorrupted)) f
                 (e_set_writing (e_set_state (ents s f) LeCorrupted) true)) in *.
  assert (F1 : ents s1 = ents s0 /\ forall x, ~ In x l -> sls s1 x = sls s x).
  { destruct (a_empty (e_set_writing (e_set_state (ents s f) LeCorrupted) true)).
    - inversion H1; subst s1. split; [reflexivity|]. intros; reflexivity.
    - destruct G as (C&ND&_&_).
      assert (C0 : chain_of s0 (a_start (e_set_writing (e_set_state (ents s f) LeCorrupted) true)) l).
      { eapply chain_of_frame; [|exact C]. intros; reflexivity. }
      destruct (free_chain_at_spec N _ _ s0 s1 H1) as (A & _ & B). split; [exact A|exact (B l C0 ND)]. }
  destruct F1 as [E1 O1].
  apply (Inv_step N s _ f (fun x => In x l)); st_simp; auto.
  - intros g Hg. rewrite upd_other by assumption. rewrite E1. subst s0. st_simp.
    rewrite upd_other by assumption. rewrite upd_other by assumption. reflexivity.
  - intros x. destruct (in_dec Z.eq_dec x l) as [Hx|Hx]; [left; exact Hx|right].
    rewrite O1 by assumption. apply core_le_refl.
  - intros g l2 x Hg Lg G2 X2 X1. eapply (iv_disj N s I f g); eauto.
  - rewrite upd_same. rewrite E1. subst s0. st_simp. rewrite upd_same. unfold ent_ok. cbn. auto.
  - unfold loaded. st_simp. rewrite upd_same. rewrite E1. subst s0. st_simp. rewrite upd_same. cbn. discriminate.
Qed.

(* startNewEntry at an unused position: addSlotToEntry on a fresh, locked, unanchored entry keyed from the cell *)
Lemma start_new_entry_fresh : forall N pos f i h m s s',
  ents s f = entry0 -> start_new_entry N pos f i h m s = Ok s' ->
  exists s0, sls s0 = sls s /\ (forall g, g <> f -> ents s0 g = ents s g) /\
    ents s0 f = mkEntry LeLoading false 0 (h_ver h) true false (h_k0 h) (h_k1 h) (-1) 0 false /\
    add_slot_to_entry N pos f i h m s0 = Ok s'.
Proof.
  intros N pos f i h m s s' Ef H.
  unfold start_new_entry in H. rewrite Ef in H. cbn [a_writing a_wtbf a_empty entry0 a_k0 a_k1 negb andb orb Z.eqb] in H.
  cbv zeta in H. apply bind_ok in H. destruct H as [s1 [H1 H]]. inversion H1; subst s1; clear H1.
  st_simp. rewrite upd_same in H. cbn [a_empty e_set_writing a_k0 a_k1 entry0 Z.eqb andb negb] in H.
  match type of H with context [if ?c then Abort else _] => destruct c end; [discriminate|].
  apply bind_ok in H. destruct H as [s3 [H3 H4]].
  match type of H4 with context [if ?c then Abort else _] => destruct c end; [discriminate|]. inversion H4; subst s'; clear H4.
  eexists. split; [|split; [|split; [|exact H3]]]; st_simp.
  - reflexivity.
  - intros g Hg. repeat rewrite upd_other by assumption. reflexivity.
  - repeat rewrite upd_same. reflexivity.
Qed.

Lemma start_new_entry_inv : forall N pos f i h m s s',
  Inv N s -> e_state (ents s f) = LeEmpty -> start_new_entry N pos f i h m s = Ok s' -> Inv N s'.
Proof.
  intros N pos f i h m s s' I L H.
  pose proof (iv_ent N s I f) as Ef. unfold ent_ok in Ef. rewrite L in Ef.
  destruct (start_new_entry_fresh N pos f i h m s s' Ef H) as (s0 & S0 & E0 & F0 & H0).
  eapply add_slot_to_entry_inv; [| |exact H0]; [|rewrite F0; reflexivity].
  apply (Inv_keep N s s0 f I E0); rewrite ?S0, ?F0; [intros; apply core_le_refl|reflexivity|discriminate].
Qed.

Lemma use_new_slot_inv : forall N pos i h m s s',
  Inv N s -> use_new_slot N pos i h m s = Ok s' -> Inv N s'.
Proof.
  intros N pos i h m s s' I H. unfold use_new_slot in H. cbv zeta in H.
  match type of H with context [if negb ?c then Abort else _] => destruct (negb c) end; [discriminate|].
  set (f := fileno_of N (h_k0 h) (h_k1 h)) in *.
  destruct (e_state (ents s f)) eqn:St.
  - eapply start_new_entry_inv; eauto.
  - destruct (negb (a_writing (ents s f))); [discriminate|].
    match type of H with context [if ?c then add_slot_to_entry _ _ _ _ _ _ _ else _] => destruct c end.
    + eapply add_slot_to_entry_inv; eauto.
    + apply bind_ok in H. destruct H as [s1 [H1 H]]. apply (Inv_quiet N s1); [|eapply drop_dup_quiet; exact H].
      eapply free_bad_entry_inv; [exact I| |exact H1]. rewrite St; discriminate.
  - apply bind_ok in H. destruct H as [s1 [H1 H]]. apply (Inv_quiet N s1); [|eapply drop_dup_quiet; exact H].
    eapply loaded_dup_inv; eauto.
  - eapply Inv_quiet; [exact I|eapply free_unused_slot_quiet; eauto].
  - eapply Inv_quiet; [exact I|eapply free_unused_slot_quiet; eauto].
Qed.

Lemma load_one_slot_inv : forall ssz N pos d s s',
  Inv N s -> load_one_slot ssz N pos d s = Ok s' -> Inv N s'.
Proof.
  intros ssz N pos d s s' I H.
  destruct (load_one_slot_cases ssz N pos d s s' H) as [Q|(h&m&_&_&_&U)]; [eapply Inv_quiet; eauto|].
  eapply use_new_slot_inv; [|exact U]. eapply Inv_quiet; [exact I|apply quiet_inc; reflexivity].
Qed.

Lemma load_all_inv : forall ssz N img pos s s', Inv N s -> load_all ssz N pos img s = Ok s' -> Inv N s'.
Proof.
  induction img as [|d r IH]; intros pos s s' I H; cbn [load_all] in H.
  - inversion H; subst; exact I.
  - apply bind_ok in H. destruct H as [s1 [H1 H2]]. eapply IH; [|exact H2]. eapply load_one_slot_inv; eauto.
Qed.

Lemma Inv_st0 : forall N, Inv N st0.
Proof.
  intros N. constructor.
  - intros f. unfold ent_ok. cbn. reflexivity.
  - intros f L. unfold loaded in L. cbn in L. discriminate.
  - intros f g l1 l2 x _ L. unfold loaded in L. cbn in L. discriminate.
Qed.

Lemma rebuild_inv : forall ssz dbl img s, rebuild ssz dbl img = Ok s -> Inv (Z.of_nat (length img)) s.
Proof.
  intros ssz dbl img s H. unfold rebuild in H. cbv zeta in H. apply bind_ok in H. destruct H as [s1 [H1 H]].
  eapply validation_pres; [apply Inv_quiet| |eapply load_all_inv; [apply Inv_st0|exact H1]|exact H].
  intros f a b Ia L F. eapply finalize_or_free_inv; [exact Ia| rewrite L; discriminate |exact F].
Qed.

Lemma readable_loaded : forall e, ent_ok e -> readable e = true -> e_state e = LeLoaded.
Proof.
  intros e Ok R. unfold readable in R. unfold ent_ok in Ok.
  destruct (e_state e); try reflexivity.
  - subst e. cbn in R. discriminate.
  - rewrite Ok in R. cbn in R. discriminate.
  - destruct Ok as [_ Em]. rewrite Em in R. cbn in R. rewrite andb_false_r in R. discriminate.
  - contradiction.
Qed.

(* whatever the image, every entry the finished rebuild leaves readable has a chain (the slots reached
   from its first slot through the index's links) that ends, visits no slot twice, consists of loaded
   (mapped, finalized) slots of the db with positive payload sizes adding up to the bytes recorded for the
   entry, and shares no slot with the chain of any other readable entry. *)
Theorem readable_chains_sound : forall slotSize dbl img s,
  rebuild slotSize dbl img = Ok s ->
  (forall f, readable (ents s f) = true ->
     exists l, chain_of s (a_start (ents s f)) l /\ NoDup l /\
       (forall x, In x l -> 0 <= x < Z.of_nat (length img) /\ s_mapped (sls s x) = true /\
                             s_final (sls s x) = true /\ 0 < s_size (sls s x)) /\
       sumsz s l = e_size (ents s f)) /\
  (forall f g l1 l2 x, f <> g -> readable (ents s f) = true -> readable (ents s g) = true ->
     chain_of s (a_start (ents s f)) l1 -> chain_of s (a_start (ents s g)) l2 -> In x l1 -> In x l2 -> False).
Proof.
  intros ssz dbl img s H. apply rebuild_inv in H. split.
  - intros f R. apply readable_loaded in R; [|apply (iv_ent _ s H)].
    destruct (iv_chain _ s H f R) as [l (C&ND&M&S)]. exists l. auto.
  - intros f g l1 l2 x Hne Rf Rg C1 C2 X1 X2.
    apply readable_loaded in Rf; [|apply (iv_ent _ s H)]. apply readable_loaded in Rg; [|apply (iv_ent _ s H)].
    destruct (iv_chain _ s H f Rf) as [k1 G1]. destruct (iv_chain _ s H g Rg) as [k2 G2].
    assert (l1 = k1) by (eapply chain_of_det; [eassumption|apply G1]).
    assert (l2 = k2) by (eapply chain_of_det; [eassumption|apply G2]). subst.
    eapply (iv_disj _ s H f g); eauto.
Qed.

Lemma readable_chain_acyclic_loaded : forall slotSize dbl img s f,
  rebuild slotSize dbl img = Ok s -> readable (ents s f) = true ->
  exists l, chain_of s (a_start (ents s f)) l /\ NoDup l /\
    forall x, In x l -> 0 <= x < Z.of_nat (length img) /\ s_mapped (sls s x) = true /\
                        s_final (sls s x) = true /\ 0 < s_size (sls s x).
Proof.
  intros ssz dbl img s f H R. destruct (readable_chains_sound ssz dbl img s H) as [A _].
  destruct (A f R) as [l (C&ND&M&_)]. exists l. auto.
Qed.

Lemma readable_chains_disjoint : forall slotSize dbl img s f g l1 l2 x,
  rebuild slotSize dbl img = Ok s -> f <> g ->
  readable (ents s f) = true -> readable (ents s g) = true ->
  chain_of s (a_start (ents s f)) l1 -> chain_of s (a_start (ents s g)) l2 -> In x l1 -> In x l2 -> False.
Proof.
  intros ssz dbl img s f g l1 l2 x H. destruct (readable_chains_sound ssz dbl img s H) as [_ B].
  intros; eapply B; eauto.
Qed.

Lemma nothing_left_locked : forall slotSize dbl img s f,
  rebuild slotSize dbl img = Ok s -> e_state (ents s f) <> LeLoading ->  a_writing (ents s f) = false.
Proof.
  intros ssz dbl img s f H NL. apply rebuild_inv in H. pose proof (iv_ent _ s H f) as E. unfold ent_ok in E.
  destruct (e_state (ents s f)); try tauto.
  rewrite E. reflexivity.
Qed.

(* an intact single-cell entry in an otherwise empty db of seven slots is indexed (hypotheses are satisfiable) *)
Lemma plain_entry_example :
  holds_after 131072 false
    [dE; dE; dE; DHdr (mkHdr 5 7 200 200 1 3 (-1)) (MOk true 5 7 0 false 75); dE; dE; dE] (fun s =>
    readable (ents s 5) = true /\ chain_of s (a_start (ents s 5)) [3] /\ sumsz s [3] = 200 /\
    a_swapsz (ents s 5) = 200).
Proof.
  eapply holds_after_ok; [vm_compute; reflexivity|].
  repeat split; cbn; lia.
Qed.

(* two intact two-cell entries: both indexed, chains disjoint *)
Lemma two_entries_example :
  holds_after 131072 false
    [DHdr (mkHdr 1 0 300 100 1 0 2) (MOk true 1 0 0 false 75);
     DHdr (mkHdr 2 0 0 50 4 1 3) (MOk true 2 0 0 false 75);
     DHdr (mkHdr 1 0 0 200 1 0 (-1)) MBad;
     DHdr (mkHdr 2 0 0 60 4 1 (-1)) MBad; dE; dE; dE] (fun s =>
    readable (ents s 1) = true /\ chain_of s (a_start (ents s 1)) [0; 2] /\
    readable (ents s 2) = true /\ chain_of s (a_start (ents s 2)) [1; 3] /\ a_swapsz (ents s 2) = 110).
Proof.
  eapply holds_after_ok; [vm_compute; reflexivity|].
  repeat split; cbn; lia.
Qed.

(* since the repair of e9a49c7 *)
Lemma readable_anchored : forall slotSize dbl img s f,
  rebuild slotSize dbl img = Ok s -> readable (ents s f) = true -> e_anch (ents s f) = true.
Proof.
  intros ssz dbl img s f H R. apply rebuild_inv in H. pose proof (iv_ent _ s H f) as E.
  pose proof (readable_loaded _ E R) as L. unfold ent_ok in E. rewrite L in E. tauto.
Qed.

Lemma readable_chain_sizes : forall slotSize dbl img s f l,
  rebuild slotSize dbl img = Ok s -> readable (ents s f) = true ->
  chain_of s (a_start (ents s f)) l -> sumsz s l = a_swapsz (ents s f).
Proof.
  intros ssz dbl img s f l H R C. destruct (readable_chains_sound ssz dbl img s H) as [A _].
  destruct (A f R) as [l0 (C0&_&_&S)]. assert (l = l0) by (eapply chain_of_det; eauto). subst l0. rewrite S.
  apply rebuild_inv in H. pose proof (iv_ent _ s H f) as E.
  pose proof (readable_loaded _ E R) as L. unfold ent_ok in E. rewrite L in E. destruct E as (_&_&E). congruence.
Qed.

Lemma import_never_allones : forall h m e e', import_entry h m e = ImpOk e' -> a_swapsz e' <> rr_entry_size_max.
Proof. intros h m e e' H. apply import_entry_ok in H. destruct H as (mk0&mk1&sz&hl&z&_&Z&->). exact Z. Qed.

Definition cell (img : list dslot) (x : Z) : option dslot :=
  if x <? 0 then None else nth_error img (Z.to_nat x).

(* slot x of the image holds a cell that the rebuild uses (not empty, sane) *)
Definition live (ssz : Z) (img : list dslot) (x : Z) (h : hdr) (m : meta) : Prop :=
  cell img x = Some (DHdr h m) /\ hdr_empty h = false /\ hdr_sane ssz (Z.of_nat (length img)) h = true.

Definition meta_keys_match (img : list dslot) : Prop :=
  forall x h mk0 mk1 sz pr hl, cell img x = Some (DHdr h (MOk true mk0 mk1 sz pr hl)) -> mk0 = h_k0 h /\ mk1 = h_k1 h.

Record Own (ssz : Z) (img : list dslot) (s : st) : Prop := mkOwn {
  own_slot : forall x, s_mapped (sls s x) = true ->
     exists h m, live ssz img x h m /\ (0 < s_size (sls s x) -> s_next (sls s x) = h_next h);
  own_start : forall f, e_anch (ents s f) = true -> a_empty (ents s f) = false ->
     exists h m, live ssz img (a_start (ents s f)) h m /\ a_k0 (ents s f) = h_k0 h /\ a_k1 (ents s f) = h_k1 h }.

Definition keep (e e' : entry) : Prop :=
  e_anch e' = e_anch e /\ a_start e' = a_start e /\ a_k0 e' = a_k0 e /\ a_k1 e' = a_k1 e.

(* footprint: slots keep (mapped,size,next) or are cleared; entry f keeps (anchored,start,key) or loses its key *)
Definition fp (f : Z) (s s' : st) : Prop :=
  (forall x, slot_ok (sls s x) (sls s' x)) /\ (forall g, g <> f -> ents s' g = ents s g) /\
  (keep (ents s f) (ents s' f) \/ a_empty (ents s' f) = true).

Lemma fp_refl : forall f s, fp f s s.
Proof. intros. split; [intros; left; apply core_le_refl|]. split; [reflexivity|]. left. unfold keep; auto. Qed.

Lemma fp_trans : forall f a b c, fp f a b -> fp f b c -> fp f a c.
Proof.
  intros f a b c (S1&E1&K1) (S2&E2&K2). split; [intros x; eapply slot_ok_trans; eauto|]. split.
  - intros g Hg. rewrite E2, E1 by assumption. reflexivity.
  - destruct K2 as [K2|K2]; [|right; exact K2]. destruct K1 as [K1|K1].
    + left. unfold keep in *. destruct K1 as (?&?&?&?). destruct K2 as (?&?&?&?). repeat split; congruence.
    + right. unfold a_empty in *. destruct K2 as (_&_&A&B). rewrite A, B. exact K1.
Qed.

Lemma Own_fp : forall ssz img f s s', Own ssz img s -> fp f s s' -> Own ssz img s'.
Proof.
  intros ssz img f s s' O (S&E&K). constructor.
  - intros x Mx. destruct (S x) as [(A1&A2&A3&_)|(A1&A2)].
    + rewrite A1 in Mx. destruct (own_slot _ _ _ O x Mx) as (h&m&L&Nx). exists h, m. split; [exact L|]. rewrite A2, A3. exact Nx.
    + rewrite A1 in Mx. destruct (own_slot _ _ _ O x Mx) as (h&m&L&_). exists h, m. split; [exact L|]. lia.
  - intros g An Em. destruct (Z.eq_dec g f) as [->|Hg].
    + destruct K as [(K1&K2&K3&K4)|K]; [|congruence].
      rewrite K1 in An. assert (Em' : a_empty (ents s f) = false) by (unfold a_empty in *; rewrite <- K3, <- K4; exact Em).
      destruct (own_start _ _ _ O f An Em') as (h&m&L&A&B). exists h, m. rewrite K2, K3, K4. auto.
    + rewrite E in * by assumption. apply (own_start _ _ _ O g An Em).
Qed.

Lemma quiet_fp : forall f s s', quiet s s' -> fp f s s'.
Proof.
  intros f s s' [E C]. split; [intros; left; apply C|]. split; [intros; rewrite E; reflexivity|].
  left. rewrite E. unfold keep; auto.
Qed.

Lemma free_bad_entry_fp : forall N pos f s s', free_bad_entry N pos f s = Ok s' -> fp f s s'.
Proof.
  intros N pos f s s' H. destruct (free_bad_entry_ok N pos f s s' H) as (C & E & Ef).
  split; [intros; left; apply C|]. split; [exact E|]. right. rewrite Ef. reflexivity.
Qed.

Lemma Own_quiet : forall ssz img s s', Own ssz img s -> quiet s s' -> Own ssz img s'.
Proof. intros ssz img s s' O Q. exact (Own_fp ssz img 0 s s' O (quiet_fp 0 s s' Q)). Qed.

Lemma free_bad_entry_own : forall ssz img pos f s s',
  free_bad_entry (Z.of_nat (length img)) pos f s = Ok s' -> Own ssz img s -> Own ssz img s'.
Proof. intros ssz img pos f s s' H O. exact (Own_fp ssz img f s s' O (free_bad_entry_fp _ pos f s s' H)). Qed.

Lemma finalize_or_throw_fp : forall N pos f s,
  match finalize_or_throw N pos f s with
  | Ok s' => fp f s s'
  | Thrown s' => quiet s s'
  | _ => True
  end.
Proof.
  intros N pos f s. pose proof (finalize_or_throw_cases N pos f s) as F.
  destruct (finalize_or_throw N pos f s) as [s'|s'| |]; auto.
  destruct F as (s1 & j & _ & _ & WS & ->). apply walk_post_quiet in WS. destruct WS as [En C].
  split; st_simp; [intros; left; apply C|]. split.
  - intros g Hg. rewrite upd_other by assumption. rewrite En. reflexivity.
  - left. rewrite upd_same. unfold keep. cbn. auto.
Qed.

Lemma finalize_or_free_fp : forall N pos f s s', finalize_or_free N pos f s = Ok s' -> fp f s s'.
Proof.
  intros N pos f s s' H. unfold finalize_or_free in H. pose proof (finalize_or_throw_fp N pos f s) as F.
  destruct (finalize_or_throw N pos f s) as [s1|s1| |]; try discriminate.
  - inversion H; subst; exact F.
  - eapply fp_trans; [apply quiet_fp; exact F|eapply free_bad_entry_fp; eauto].
Qed.

Lemma map_slot_own : forall ssz img pos i h m s s',
  Own ssz img s -> live ssz img i h m -> map_slot (Z.of_nat (length img)) pos i h s = Ok s' -> Own ssz img s' /\ ents s' = ents s.
Proof.
  intros ssz img pos i h m s s' O L H. unfold map_slot in H.
  destruct (negb (ls_ok _ pos i)); [discriminate|]. destruct (s_mapped (sls s i)); [discriminate|].
  destruct (s_freed (sls s i)); [discriminate|]. inversion H; subst s'; clear H. split; [|reflexivity].
  constructor; st_simp.
  - intros x Mx. unfold upd in *. destruct (x =? i) eqn:E.
    + assert (x = i) by lia. subst x. exists h, m. split; [exact L|]. cbn. auto.
    + apply (own_slot _ _ _ O x Mx).
  - apply (own_start _ _ _ O).
Qed.

Lemma add_tail_own : forall ssz img pos f i h m s s',
  add_tail (Z.of_nat (length img)) pos f i h s = Ok s' -> live ssz img i h m -> Own ssz img s -> Own ssz img s'.
Proof.
  intros ssz img pos f i h m s s' H L O. unfold add_tail in H.
  match type of H with context [if ?c then free_bad_entry _ _ _ _ else _] => destruct c end.
  - eapply free_bad_entry_own; eassumption.
  - apply bind_ok in H. destruct H as [s1 [H1 H2]].
    eapply map_slot_own in H1; eauto. destruct H1 as [O1 E1].
    match type of H2 with context [if ?c then _ else _] => destruct c end.
    + eapply Own_fp; [exact O1|eapply finalize_or_free_fp; eauto].
    + inversion H2; subst; exact O1.
Qed.

Lemma fp_set_ent : forall f s e, keep (ents s f) e -> fp f s (set_ent s f e).
Proof.
  intros f s e K. split; st_simp; [intros; left; apply core_le_refl|]. split.
  - intros g Hg. apply upd_other; assumption.
  - left. rewrite upd_same. exact K.
Qed.

Lemma Own_set_keep : forall ssz img f s e, Own ssz img s -> keep (ents s f) e -> Own ssz img (set_ent s f e).
Proof. intros ssz img f s e O K. exact (Own_fp ssz img f s _ O (fp_set_ent f s e K)). Qed.

Lemma Own_set_more : forall ssz img s i v, Own ssz img s -> Own ssz img (set_sl s i (s_set_more (sls s i) v)).
Proof.
  intros ssz img s i v O. apply (Own_quiet ssz img s); [exact O|]. split; [reflexivity|].
  intros x. apply (core_le_upd (sls s)). unfold core_le; cbn; auto.
Qed.

Lemma add_slot_to_entry_own : forall ssz img pos f i h m s s',
  Own ssz img s -> meta_keys_match img -> live ssz img i h m ->
  a_k0 (ents s f) = h_k0 h -> a_k1 (ents s f) = h_k1 h ->
  add_slot_to_entry (Z.of_nat (length img)) pos f i h m s = Ok s' -> Own ssz img s'.
Proof.
  intros ssz img pos f i h m s s' O HK L K0 K1 H. unfold add_slot_to_entry in H.
  destruct (negb (a_writing (ents s f))); [discriminate|].
  apply bind_ok in H. destruct H as [s2 [Hc H]].
  (* after chaining: Own, key unchanged, and if not yet anchored the start is i *)
  assert (T2 : Own ssz img s2 /\ a_k0 (ents s2 f) = h_k0 h /\ a_k1 (ents s2 f) = h_k1 h /\
               e_anch (ents s2 f) = e_anch (ents s f) /\ (e_anch (ents s f) = false -> a_start (ents s2 f) = i)).
  { destruct (e_anch (ents s f)) eqn:An.
    - destruct (negb (ls_ok _ pos (a_start (ents s f)))); [discriminate|].
      destruct (negb (ls_ok _ pos i)); [discriminate|].
      destruct (negb (s_more (sls s i) <? 0)); [discriminate|]. inversion Hc; subst s2; clear Hc.
      split; [apply Own_set_more; apply Own_set_more; exact O|]. st_simp. repeat split; auto. discriminate.
    - destruct (negb (ls_ok _ pos i)); [discriminate|].
      destruct (negb (s_more (sls s i) <? 0)); [discriminate|]. inversion Hc; subst s2; clear Hc.
      split.
      + pose proof (Own_set_more ssz img s i (a_start (ents s f)) O) as O1. constructor; st_simp.
        * apply (own_slot _ _ _ O1).
        * intros g Ag Eg. unfold upd in *. destruct (g =? f) eqn:E.
          -- cbn in Ag. congruence.
          -- apply (own_start _ _ _ O g Ag Eg).
      + st_simp. rewrite upd_same. cbn. auto. }
  clear Hc. destruct T2 as (O2&A0&A1&An2&St2). cbv zeta in H.
  set (s3 := set_ent s2 f (e_set_size (ents s2 f) (e_size (ents s2 f) + h_psz h))) in *.
  assert (O3 : Own ssz img s3) by (apply Own_set_keep; [exact O2|unfold keep; cbn; auto]).
  assert (E3 : ents s3 f = e_set_size (ents s2 f) (e_size (ents s2 f) + h_psz h)) by (subst s3; st_simp; apply upd_same).
  destruct (h_first h =? i); [|eapply add_tail_own; eassumption].
  destruct (e_anch (ents s3 f)) eqn:An3.
  - apply bind_ok in H. destruct H as [s4 [H4 H5]]. inversion H5; subst s'; clear H5.
    apply (Own_quiet ssz img s4); [eapply free_bad_entry_own; eassumption| apply quiet_inc; reflexivity].
  - (* the inode: becomes the anchored start *)
    assert (NA : e_anch (ents s f) = false) by (rewrite E3 in An3; cbn in An3; congruence).
    specialize (St2 NA).
    set (s4 := set_ent s3 f (e_set_anch (ents s3 f) true)) in *.
    assert (O4 : Own ssz img s4).
    { constructor; subst s4; st_simp.
      - apply (own_slot _ _ _ O3).
      - intros g Ag Eg. unfold upd in *. destruct (g =? f) eqn:E.
        + exists h, m. rewrite E3. cbn. rewrite St2. auto.
        + apply (own_start _ _ _ O3 g Ag Eg). }
    assert (E4 : ents s4 f = e_set_anch (ents s3 f) true) by (subst s4; st_simp; apply upd_same).
    destruct (import_entry h m (ents s4 f)) as [bf|e5] eqn:Imp.
    + eapply free_bad_entry_own; [exact H|]. destruct bf; [|exact O4].
      apply (Own_quiet ssz img s4); [exact O4| apply quiet_inc; reflexivity].
    + apply import_entry_ok in Imp. destruct Imp as (mk0&mk1&sz&hl&z&->&_&E5).
      destruct (HK i h mk0 mk1 sz false hl (proj1 L)) as [M0 M1].
      assert (K5 : keep (ents s4 f) e5).
      { unfold keep. rewrite E5, M0, M1, E4, E3. cbn. auto. }
      assert (O5 : Own ssz img (set_ent s4 f e5)) by (apply Own_set_keep; assumption).
      assert (O6 : Own ssz img (set_ent (set_ent s4 f e5) f (e_set_swapsz e5 (h_esz h)))).
      { apply Own_set_keep; [exact O5|]. st_simp. rewrite upd_same. unfold keep; cbn; auto. }
      destruct (negb (h_esz h =? 0)); [|eapply add_tail_own; eassumption].
      destruct (h_esz h =? rr_entry_size_max); [eapply free_bad_entry_own; eassumption|].
      destruct (a_swapsz e5 =? 0); [eapply add_tail_own; eassumption|].
      destruct (negb (h_esz h =? a_swapsz e5)); [eapply free_bad_entry_own| eapply add_tail_own]; eassumption.
Qed.

Lemma free_chain_fp : forall N f k s s', free_chain N f k s = Ok s' -> fp f s s'.
Proof.
  intros N f k s s' H. unfold free_chain in H. apply bind_ok in H. destruct H as [s1 [H1 H2]].
  inversion H2; subst s'; clear H2.
  assert (F : ents s1 = ents s /\ forall x, slot_ok (sls s x) (sls s1 x)).
  { destruct (a_empty (ents s f)); [inversion H1; subst; split; [reflexivity|intros; left; apply core_le_refl]|].
    destruct (free_chain_at_spec _ _ _ _ _ H1) as (E & C & _). auto. }
  destruct F as [E C]. split; st_simp; [exact C|]. split.
  - intros g Hg. rewrite upd_other by assumption. rewrite E. reflexivity.
  - right. rewrite upd_same. destruct k; reflexivity.
Qed.

Lemma free_entry_fp : forall N f s s', free_entry N f s = Ok s' -> fp f s s'.
Proof.
  intros N f s s' H. unfold free_entry in H. destruct (a_writing (ents s f)).
  - inversion H; subst. apply fp_set_ent. unfold keep; cbn; auto.
  - eapply fp_trans; [|eapply free_chain_fp; exact H]. apply fp_set_ent. unfold keep; cbn; auto.
Qed.

Lemma start_new_entry_own : forall ssz img pos f i h m s s',
  Own ssz img s -> meta_keys_match img -> live ssz img i h m -> ents s f = entry0 ->
  start_new_entry (Z.of_nat (length img)) pos f i h m s = Ok s' -> Own ssz img s'.
Proof.
  intros ssz img pos f i h m s s' O HK L Ef H.
  destruct (start_new_entry_fresh _ pos f i h m s s' Ef H) as (s0 & S0 & E0 & F0 & H0).
  eapply add_slot_to_entry_own; [|exact HK|exact L| | |exact H0]; [|rewrite F0; reflexivity..].
  constructor.
  - rewrite S0. apply (own_slot _ _ _ O).
  - intros g Ag Eg. destruct (Z.eq_dec g f) as [->|Hg]; [rewrite F0 in Ag; discriminate|].
    rewrite E0 in * by assumption. apply (own_start _ _ _ O g Ag Eg).
Qed.

Lemma use_new_slot_own : forall ssz img pos h m s s',
  Inv (Z.of_nat (length img)) s -> Own ssz img s -> meta_keys_match img -> live ssz img pos h m ->
  use_new_slot (Z.of_nat (length img)) pos pos h m s = Ok s' -> Own ssz img s'.
Proof.
  intros ssz img pos h m s s' I O HK L H. unfold use_new_slot in H. cbv zeta in H.
  match type of H with context [if negb ?c then Abort else _] => destruct (negb c) end; [discriminate|].
  set (f := fileno_of (Z.of_nat (length img)) (h_k0 h) (h_k1 h)) in *.
  destruct (e_state (ents s f)) eqn:St.
  - eapply start_new_entry_own; eauto. pose proof (iv_ent _ s I f) as E. unfold ent_ok in E. rewrite St in E. exact E.
  - destruct (negb (a_writing (ents s f))); [discriminate|].
    destruct ((h_k0 h =? a_k0 (ents s f)) && (h_k1 h =? a_k1 (ents s f))) eqn:K.
    + eapply add_slot_to_entry_own; [exact O|exact HK|exact L| | |exact H]; lia.
    + apply bind_ok in H. destruct H as [s1 [H1 H]]. apply (Own_quiet ssz img s1); [|eapply drop_dup_quiet; exact H].
      eapply free_bad_entry_own; eassumption.
  - apply bind_ok in H. destruct H as [s1 [H1 H]]. apply (Own_quiet ssz img s1); [|eapply drop_dup_quiet; exact H].
    apply (Own_fp ssz img f (set_ent s f (e_set_state (ents s f) LeCorrupted))); [|eapply free_entry_fp; eauto].
    apply Own_set_keep; [exact O|unfold keep; cbn; auto].
  - apply (Own_quiet ssz img s); [exact O| eapply free_unused_slot_quiet; eauto].
  - apply (Own_quiet ssz img s); [exact O| eapply free_unused_slot_quiet; eauto].
Qed.

Lemma load_one_slot_own : forall ssz img pos d s s',
  Inv (Z.of_nat (length img)) s -> Own ssz img s -> meta_keys_match img -> cell img pos = Some d ->
  load_one_slot ssz (Z.of_nat (length img)) pos d s = Ok s' -> Own ssz img s'.
Proof.
  intros ssz img pos d s s' I O HK Cd H.
  destruct (load_one_slot_cases ssz _ pos d s s' H) as [Q|(h&m&->&Em&Sa&U)]; [eapply Own_quiet; eauto|].
  eapply use_new_slot_own; [| |exact HK|split; [exact Cd|split; assumption]|exact U].
  - eapply Inv_quiet; [exact I|apply quiet_inc; reflexivity].
  - eapply Own_quiet; [exact O|apply quiet_inc; reflexivity].
Qed.

Lemma cell_app : forall (pre : list dslot) d r, cell (pre ++ d :: r) (Z.of_nat (length pre)) = Some d.
Proof.
  intros. unfold cell. destruct (Z.of_nat (length pre) <? 0) eqn:E; [lia|].
  rewrite Nat2Z.id. rewrite nth_error_app2 by lia. rewrite Nat.sub_diag. reflexivity.
Qed.

Lemma load_all_both : forall ssz img rest pre s s',
  img = pre ++ rest -> meta_keys_match img ->
  Inv (Z.of_nat (length img)) s -> Own ssz img s ->
  load_all ssz (Z.of_nat (length img)) (Z.of_nat (length pre)) rest s = Ok s' ->
  Inv (Z.of_nat (length img)) s' /\ Own ssz img s'.
Proof.
  intros ssz img. induction rest as [|d r IH]; intros pre s s' E HK I O H; cbn [load_all] in H.
  - inversion H; subst; auto.
  - apply bind_ok in H. destruct H as [s1 [H1 H2]].
    assert (I1 : Inv (Z.of_nat (length img)) s1) by (eapply load_one_slot_inv; eauto).
    assert (O1 : Own ssz img s1).
    { eapply load_one_slot_own; [exact I|exact O|exact HK| |exact H1]. rewrite E. apply cell_app. }
    apply (IH (pre ++ [d]) s1 s'); auto.
    + rewrite <- app_assoc. exact E.
    + rewrite app_length. cbn [length]. replace (Z.of_nat (length pre + 1)) with (Z.of_nat (length pre) + 1) by lia. exact H2.
Qed.

Lemma Own_st0 : forall ssz img, Own ssz img st0.
Proof. intros. constructor; cbn; intros; discriminate. Qed.

Lemma rebuild_own : forall ssz dbl img s, meta_keys_match img -> rebuild ssz dbl img = Ok s -> Own ssz img s.
Proof.
  intros ssz dbl img s HK H. unfold rebuild in H. cbv zeta in H. apply bind_ok in H. destruct H as [s1 [H1 H]].
  destruct (load_all_both ssz img img [] st0 s1 eq_refl HK (Inv_st0 _) (Own_st0 _ _) H1) as [_ O1].
  eapply validation_pres; [apply Own_quiet| |exact O1|exact H].
  intros f a b Oa _ F. eapply Own_fp; [exact Oa|eapply finalize_or_free_fp; exact F].
Qed.

(* no used cell links to a used cell of another key *)
Definition no_cross_key_links (ssz : Z) (img : list dslot) : Prop :=
  forall x y hx mx hy my, live ssz img x hx mx -> live ssz img y hy my -> h_next hx = y ->
    h_k0 hy = h_k0 hx /\ h_k1 hy = h_k1 hx.

Lemma live_det : forall ssz img x h m h' m', live ssz img x h m -> live ssz img x h' m' -> h = h'.
Proof. intros ssz img x h m h' m' (A&_) (B&_). congruence. Qed.

Lemma chain_one_key : forall ssz img s k0 k1, Own ssz img s -> no_cross_key_links ssz img ->
  forall l i, chain_of s i l ->
  (forall x, In x l -> s_mapped (sls s x) = true /\ 0 < s_size (sls s x)) ->
  (forall h m, live ssz img i h m -> h_k0 h = k0 /\ h_k1 h = k1) ->
  forall x, In x l -> exists h m, live ssz img x h m /\ h_k0 h = k0 /\ h_k1 h = k1.
Proof.
  intros ssz img s k0 k1 O NC. induction l as [|y r IH]; intros i C M K x Hx; [contradiction|].
  cbn in C. destruct C as (E&P&C). subst y.
  destruct (M i (or_introl eq_refl)) as [Mi Si].
  destruct (own_slot _ _ _ O i Mi) as (h&m&L&Nx). specialize (Nx Si). destruct (K h m L) as [K0 K1].
  destruct Hx as [<-|Hx]; [exists h, m; auto|].
  apply (IH (s_next (sls s i))); auto.
  - intros z Hz. apply M. right; exact Hz.
  - intros h2 m2 L2. rewrite Nx in L2. destruct (NC i (h_next h) h m h2 m2 L L2 eq_refl) as [A B]. split; congruence.
Qed.

(* PARTIAL (one key per chain): in an image without links across keys and whose swap metadata keys equal the
   cell keys, every slot of a readable entry's chain holds a cell stamped with the entry's key *)
Theorem readable_chain_one_key_partial : forall ssz dbl img s f l,
  rebuild ssz dbl img = Ok s -> no_cross_key_links ssz img -> meta_keys_match img ->
  readable (ents s f) = true -> chain_of s (a_start (ents s f)) l ->
  forall x, In x l -> exists h m, live ssz img x h m /\ h_k0 h = a_k0 (ents s f) /\ h_k1 h = a_k1 (ents s f).
Proof.
  intros ssz dbl img s f l H NC HK R C.
  pose proof (rebuild_own ssz dbl img s HK H) as O.
  pose proof (readable_anchored ssz dbl img s f H R) as An.
  destruct (readable_chain_acyclic_loaded ssz dbl img s f H R) as (l0&C0&_&M0).
  assert (l = l0) by (eapply chain_of_det; eauto). subst l0.
  assert (Em : a_empty (ents s f) = false).
  { unfold readable in R. destruct (a_empty (ents s f)); [rewrite andb_false_r in R; discriminate|reflexivity]. }
  destruct (own_start _ _ _ O f An Em) as (h0&m0&L0&A0&A1).
  eapply chain_one_key; [exact O|exact NC|exact C| |].
  - intros x Hx. destruct (M0 x Hx) as (_&Mx&_&Sx). auto.
  - intros h m L. rewrite (live_det _ _ _ _ _ _ _ L L0). auto.
Qed.

(* PARTIAL (one version per chain): if moreover cells of one key carry one version *)
Theorem readable_chain_one_version_partial : forall ssz dbl img s f l,
  rebuild ssz dbl img = Ok s -> no_cross_key_links ssz img -> meta_keys_match img ->
  (forall x y hx mx hy my, live ssz img x hx mx -> live ssz img y hy my ->
      h_k0 hx = h_k0 hy -> h_k1 hx = h_k1 hy -> h_ver hx = h_ver hy) ->
  readable (ents s f) = true -> chain_of s (a_start (ents s f)) l ->
  forall x y hx mx hy my, In x l -> In y l -> live ssz img x hx mx -> live ssz img y hy my -> h_ver hx = h_ver hy.
Proof.
  intros ssz dbl img s f l H NC HK SV R C x y hx mx hy my Hx Hy Lx Ly.
  destruct (readable_chain_one_key_partial ssz dbl img s f l H NC HK R C x Hx) as (h1&m1&L1&A1&B1).
  destruct (readable_chain_one_key_partial ssz dbl img s f l H NC HK R C y Hy) as (h2&m2&L2&A2&B2).
  rewrite (live_det _ _ _ _ _ _ _ Lx L1). rewrite (live_det _ _ _ _ _ _ _ Ly L2).
  eapply SV; eauto; congruence.
Qed.

(* the hypotheses of the partial theorems are met by a concrete image: two intact two-cell entries *)
Definition img_two : list dslot :=
  [DHdr (mkHdr 1 0 300 100 1 0 2) (MOk true 1 0 0 false 75);
   DHdr (mkHdr 2 0 0 50 4 1 3) (MOk true 2 0 0 false 75);
   DHdr (mkHdr 1 0 0 200 1 0 (-1)) MBad;
   DHdr (mkHdr 2 0 0 60 4 1 (-1)) MBad].

Lemma cell_img_two : forall x d, cell img_two x = Some d ->
  (x = 0 /\ d = DHdr (mkHdr 1 0 300 100 1 0 2) (MOk true 1 0 0 false 75)) \/
  (x = 1 /\ d = DHdr (mkHdr 2 0 0 50 4 1 3) (MOk true 2 0 0 false 75)) \/
  (x = 2 /\ d = DHdr (mkHdr 1 0 0 200 1 0 (-1)) MBad) \/
  (x = 3 /\ d = DHdr (mkHdr 2 0 0 60 4 1 (-1)) MBad).
Proof.
  intros x d H. unfold cell in H. destruct (x <? 0) eqn:E; [discriminate|].
  assert (X : x = 0 \/ x = 1 \/ x = 2 \/ x = 3 \/ 4 <= x) by lia.
  destruct X as [->|[->|[->|[->|X]]]]; cbn in H; try (inversion H; subst; tauto).
  exfalso. assert (N : (length img_two <= Z.to_nat x)%nat) by (cbn; lia).
  apply nth_error_None in N. congruence.
Qed.

Lemma img_two_hypotheses : no_cross_key_links 262144 img_two /\ meta_keys_match img_two /\
  holds_after 262144 false img_two (fun s =>
    readable (ents s 1) = true /\ chain_of s (a_start (ents s 1)) [0; 2] /\
    readable (ents s 2) = true /\ chain_of s (a_start (ents s 2)) [1; 3] /\ a_swapsz (ents s 2) = 110).
Proof.
  split; [|split].
  - intros x y hx mx hy my (Cx&_) (Cy&_) Nx.
    apply cell_img_two in Cx. apply cell_img_two in Cy.
    destruct Cx as [(->&Dx)|[(->&Dx)|[(->&Dx)|(->&Dx)]]]; inversion Dx; subst; cbn in *;
    destruct Cy as [(Ey&Dy)|[(Ey&Dy)|[(Ey&Dy)|(Ey&Dy)]]]; inversion Dy; subst; cbn; try lia; auto.
  - intros x h mk0 mk1 sz pr hl C. apply cell_img_two in C.
    destruct C as [(->&D)|[(->&D)|[(->&D)|(->&D)]]]; inversion D; subst; cbn; auto.
  - eapply holds_after_ok; [vm_compute; reflexivity|].
    repeat split; cbn; lia.
Qed.
