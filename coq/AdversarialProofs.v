(* AdversarialProofs.v -- proofs about the bounds-checked decoder models (C39).

   Method: a Hoare-style postcondition [post r Q] that holds when [r] is [Ok a] with [Q a] or [Fail], and is False
   for [OOB] and [NoFuel]; every reader gets a specification under the invariant
       0 <= cursor, 0 <= remaining, cursor + remaining <= received length,
   and the specifications are chained through the message decoders. *)
Require Import SquidV.Bytes SquidV.gen.Adversarial_gen SquidV.gen.Udpbufs_gen SquidV.AdversarialModel.
From Coq Require Import ZArith Lia ZifyBool.
Local Open Scope Z_scope.

Definition post {A} (r : res A) (Q : A -> Prop) : Prop :=
  match r with Ok a => Q a | Fail => True | OOB => False | NoFuel => False end.

Definition safe {A} (r : res A) : Prop := r <> OOB /\ r <> NoFuel.

Lemma post_safe {A} (r : res A) Q : post r Q -> safe r.
Proof. destruct r; cbn [post]; intros H; split; congruence || contradiction. Qed.

Lemma safe_post {A} (r : res A) : safe r -> post r (fun _ => True).
Proof. destruct r; cbn [post]; intros [H1 H2]; congruence || exact I. Qed.

Lemma post_bind {A B} (r : res A) (f : A -> res B) (P : A -> Prop) (Q : B -> Prop) :
  post r P -> (forall a, P a -> post (f a) Q) -> post (bind r f) Q.
Proof. destruct r; cbn [post bind]; intros H HF; auto. Qed.

Lemma post_mono {A} (r : res A) (P Q : A -> Prop) : post r P -> (forall a, P a -> Q a) -> post r Q.
Proof. destruct r; cbn [post]; auto. Qed.

Lemma post_ok {A} (r : res A) Q a : post r Q -> r = Ok a -> Q a.
Proof. intros H E; subst; exact H. Qed.

Definition bytes_ok (b : buf) : Prop := forall i, 0 <= bget b i < 256.

Lemma post_rd b i : 0 <= i < bsize b -> post (rd b i) (fun v => v = bget b i).
Proof.
  intros H. unfold rd, in_obj.
  destruct ((0 <=? i) && (i <? bsize b)) eqn:E; cbn [post]; [reflexivity | lia].
Qed.

(* a read inside the object goes on with the byte that is there *)
Lemma post_rd_bind {B} b i (k : Z -> res B) Q :
  0 <= i < bsize b -> (forall v, v = bget b i -> post (k v) Q) -> post (do v <- rd b i; k v) Q.
Proof. intros H HK. eapply post_bind; [apply post_rd; exact H | exact HK]. Qed.
Lemma post_rd_byte_bind {B} b i (k : Z -> res B) Q :
  bytes_ok b -> 0 <= i < bsize b -> (forall v, 0 <= v < 256 -> post (k v) Q) -> post (do v <- rd b i; k v) Q.
Proof. intros HB H HK. apply post_rd_bind; [exact H | intros v ->; apply HK, HB]. Qed.

Lemma post_idx cap i : 0 <= i < cap -> post (idx_ok cap i) (fun _ => True).
Proof. intros H. unfold idx_ok. destruct ((0 <=? i) && (i <? cap)) eqn:E; cbn [post]; [exact I | lia]. Qed.
Lemma post_idx_bind {B} cap i (r : res B) Q : 0 <= i < cap -> post r Q -> post (do _ <- idx_ok cap i; r) Q.
Proof. intros H HR. eapply post_bind; [apply post_idx; exact H | intros _ _; exact HR]. Qed.

Lemma post_be16 b p : bytes_ok b -> 0 <= p -> p + 1 < bsize b -> post (be16 b p) (fun v => 0 <= v < 65536).
Proof.
  intros HB H0 H1. unfold be16.
  apply post_rd_byte_bind; [exact HB | lia | intros x Hx].
  apply post_rd_byte_bind; [exact HB | lia | intros y Hy].
  cbn [post]. lia.
Qed.

Lemma post_be32 b p : bytes_ok b -> 0 <= p -> p + 3 < bsize b -> post (be32 b p) (fun v => 0 <= v < 4294967296).
Proof.
  intros HB H0 H1. unfold be32.
  apply post_rd_byte_bind; [exact HB | lia | intros x Hx].
  apply post_rd_byte_bind; [exact HB | lia | intros y Hy].
  apply post_rd_byte_bind; [exact HB | lia | intros z Hz].
  apply post_rd_byte_bind; [exact HB | lia | intros w Hw].
  cbn [post]. lia.
Qed.

Lemma post_rd_range b p n : 0 <= p -> p + n <= bsize b -> post (rd_range b p n) (fun _ => True).
Proof.
  intros H0 H1. unfold rd_range. destruct (n <=? 0) eqn:E; [exact I|].
  apply post_rd_bind; [lia | intros x _].
  apply post_rd_bind; [lia | intros y _]. exact I.
Qed.

Lemma post_rd_bytes b n : forall p, 0 <= p -> p + Z.of_nat n <= bsize b ->
  post (rd_bytes b p n) (fun l => lenZ l = Z.of_nat n).
Proof.
  induction n as [|n IH]; intros p H0 H1; cbn [rd_bytes].
  - reflexivity.
  - apply post_rd_bind; [lia | intros x _].
    eapply post_bind; [apply IH; lia|]; cbv beta. intros r Hr. cbn [post lenZ]. lia.
Qed.

Lemma post_int_bytes b n : forall p v, 0 <= p -> p + Z.of_nat n <= bsize b ->
  post (int_bytes b p n v) (fun _ => True).
Proof.
  induction n as [|n IH]; intros p v H0 H1; cbn [int_bytes].
  - exact I.
  - apply post_rd_bind; [lia | intros x _]. apply IH; lia.
Qed.

(* strlen stays inside the object when a NUL lies ahead *)
Lemma post_cstrlen_from b fuel : forall p acc q,
  0 <= p -> p <= q < bsize b -> bget b q = 0 -> (Z.of_nat fuel > q - p) ->
  post (cstrlen_from b fuel p acc) (fun n => acc <= n /\ p + (n - acc) <= q).
Proof.
  induction fuel as [|f IH]; intros p acc q H0 Hq Hz Hf; cbn [cstrlen_from].
  - lia.
  - apply post_rd_bind; [lia | intros x ->].
    destruct (bget b p =? 0) eqn:E.
    + cbn [post]. lia.
    + assert (p <> q) by (intros ->; lia).
      eapply post_mono; [apply (IH (p + 1) (acc + 1) q); lia|].
      intros n Hn. cbn beta iota in Hn. lia.
Qed.

Lemma post_cstrlen b p q : 0 <= p -> p <= q < bsize b -> bget b q = 0 ->
  post (cstrlen b p) (fun n => 0 <= n /\ p + n <= q).
Proof.
  intros H0 Hq Hz. unfold cstrlen.
  eapply post_mono; [apply (post_cstrlen_from b _ p 0 q); try assumption; lia|].
  intros n Hn. cbn beta iota in Hn. lia.
Qed.

Lemma land_127 x : 0 <= Z.land x 127 <= 127.
Proof. change 127 with (Z.ones 7) at 1 2. rewrite Z.land_ones by lia. pose proof (Z.mod_pos_bound x (2 ^ 7)). lia. Qed.

Lemma post_rd_be b n : forall p acc, bytes_ok b -> 0 <= p -> p + Z.of_nat n <= bsize b -> 0 <= acc ->
  post (rd_be b p n acc) (fun v => 0 <= v < (acc + 1) * 256 ^ Z.of_nat n).
Proof.
  induction n as [|n IH]; intros p acc HB H0 H1 Ha; cbn [rd_be].
  - cbn [post]. change (256 ^ Z.of_nat 0) with 1. lia.
  - apply post_rd_byte_bind; [exact HB | lia | intros x Hx].
    eapply post_mono; [apply IH; try assumption; lia|]; cbv beta. intros v Hv.
    assert (Hp : 256 ^ Z.of_nat (S n) = 256 * 256 ^ Z.of_nat n)
      by (rewrite Nat2Z.inj_succ, Z.pow_succ_r by lia; reflexivity).
    assert (Hq : 0 < 256 ^ Z.of_nat n) by (apply Z.pow_pos_nonneg; lia).
    rewrite Hp. nia.
Qed.

Lemma pow256_le n : (n <= 4)%nat -> 256 ^ Z.of_nat n <= 4294967296.
Proof.
  intros H. do 5 (destruct n as [|n]; [vm_compute; congruence|]). lia.
Qed.

(* bytes the length field starting with octet [x] occupies after that octet *)
Definition lenfield_extra (x : Z) : Z := if Z.land x 128 =? 0 then 0 else Z.land x 127.

(* the length field at [p] is read inside [p, hi) when it fits there; the length is a u_int *)
Lemma post_asn_parse_length b p hi :
  bytes_ok b -> 0 <= p -> hi <= bsize b -> p + 1 + lenfield_extra (bget b p) <= hi ->
  post (asn_parse_length b p) (fun '(p', alen) => p < p' <= hi /\ 0 <= alen < 4294967296).
Proof.
  intros HB H0 H1 H2. unfold asn_parse_length. unfold lenfield_extra in H2.
  pose proof (land_127 (bget b p)) as Hn0.
  apply post_rd_bind; [destruct (Z.land (bget b p) 128 =? 0); lia | intros lb ->].
  pose proof (HB p) as Hlb.
  change asn_long_len with 128. change (255 - 128) with 127.
  destruct (Z.land (bget b p) 128 =? 0) eqn:E1; cbn [negb]; [cbn [post]; lia|].
  destruct (Z.land (bget b p) 127 =? 0) eqn:E2; [exact I|].
  change sizeof_int with 4.
  destruct (4 <? Z.land (bget b p) 127) eqn:E3; [exact I|].
  set (n := Z.land (bget b p) 127) in *.
  eapply post_bind; [apply post_rd_be; [exact HB | lia | rewrite Z2Nat.id by lia; lia | lia]|]; cbv beta.
  intros v Hv. cbn [post].
  assert (Hle : 256 ^ Z.of_nat (Z.to_nat n) <= 4294967296) by (apply pow256_le; lia).
  lia.
Qed.

(* The invariant of all readers: cursor [p], remaining length [dl], inside the received [len] bytes of an object
   that has at least one byte after them. *)
Definition inv (b : buf) (len p dl : Z) : Prop :=
  0 <= p /\ 0 <= dl /\ p + dl <= len /\ len + 1 <= bsize b /\ len < 2147483648.

Lemma u32_small z : 0 <= z < 4294967296 -> u32 z = z.
Proof. intros H. unfold u32. apply Z.mod_small. exact H. Qed.

(* asn_header_fits: when it says yes, identifier octet and length field lie inside the remaining bytes *)
Lemma post_asn_header_fits b len p dl :
  inv b len p dl ->
  post (asn_header_fits b p dl)
       (fun ok => ok = true -> 2 <= dl /\ p + 2 + lenfield_extra (bget b (p + 1)) <= p + dl).
Proof.
  intros (H0 & H1 & H2 & H3 & H4). unfold asn_header_fits, lenfield_extra.
  destruct (dl <? 2) eqn:E; [cbn [post]; discriminate|].
  apply post_rd_bind; [lia | intros x ->].
  change asn_long_len with 128. change (255 - 128) with 127.
  destruct (Z.land (bget b (p + 1)) 128 =? 0) eqn:E1; cbn [negb post]; intros Hok; lia.
Qed.

(* common prologue of the four value readers: guard, identifier octet, length field, and the contents fit *)
Lemma post_reader_prologue b len p dl {A} (k : Z -> Z -> Z -> res A) (Q : A -> Prop) :
  bytes_ok b -> inv b len p dl ->
  (forall t p' alen, p + 1 < p' -> 0 <= alen -> p' + alen <= p + dl -> post (k t p' alen) Q) ->
  post (do fits <- asn_header_fits b p dl; if negb fits then Fail else
        do t <- rd b p; do '(p', alen) <- asn_parse_length b (p + 1);
        if dl <? alen + (p' - p) then Fail else k t p' alen) Q.
Proof.
  intros HB HI HK. pose proof HI as (H0 & H1 & H2 & H3 & H4).
  eapply post_bind; [apply (post_asn_header_fits b len); exact HI|].
  intros fits Hf. destruct fits; cbn [negb]; [|exact I].
  destruct (Hf eq_refl) as [Hd Hx].
  apply post_rd_bind; [lia | intros t _].
  eapply post_bind; [apply (post_asn_parse_length b (p + 1) (p + dl)); [exact HB | lia | lia | lia]|].
  intros [p' alen] [Hp Ha]. destruct (dl <? alen + (p' - p)) eqn:E; [exact I | apply HK; lia].
Qed.

Lemma post_asn_parse_header b len p dl :
  bytes_ok b -> inv b len p dl ->
  post (asn_parse_header b p dl) (fun '(p', dl', t) => inv b len p' dl' /\ p < p' /\ p' + dl' <= p + dl).
Proof.
  intros HB HI. pose proof HI as (H0 & H1 & H2 & H3 & H4). unfold asn_parse_header.
  eapply post_bind; [apply (post_asn_header_fits b len); exact HI|].
  intros fits Hf. destruct fits; cbn [negb]; [|exact I].
  destruct (Hf eq_refl) as [Hd Hx].
  apply post_rd_bind; [lia | intros t _].
  destruct (Z.land t asn_extension_id =? asn_extension_id); [exact I|].
  eapply post_bind; [apply (post_asn_parse_length b (p + 1) (p + dl)); [exact HB | lia | lia | lia]|].
  intros [p' alen] [Hp Ha].
  change asn_max_len with 524288.
  destruct ((u32 dl <? u32 (p' - p + alen)) || (524288 <? alen)) eqn:E; [exact I|].
  apply Bool.orb_false_iff in E. destruct E as [E1 E2].
  rewrite (u32_small dl) in E1 by lia.
  rewrite (u32_small (p' - p + alen)) in E1 by lia.
  cbn [post]. unfold inv. lia.
Qed.

Lemma post_asn_parse_int b len p dl :
  bytes_ok b -> inv b len p dl ->
  post (asn_parse_int b p dl) (fun '(p', dl', t, v) => inv b len p' dl' /\ p < p' /\ p' + dl' <= p + dl).
Proof.
  intros HB HI. pose proof HI as (H0 & H1 & H2 & H3 & H4). unfold asn_parse_int.
  apply (post_reader_prologue b len p dl); [exact HB | exact HI|].
  intros t p' alen Hp Ha Hfit.
  change sizeof_int with 4.
  destruct (4 <? alen) eqn:E2; [exact I|].
  apply post_rd_bind; [lia | intros b0 _].
  eapply post_bind; [apply post_int_bytes; lia|]. intros v _.
  cbn [post]. unfold inv. lia.
Qed.

Lemma post_asn_parse_unsigned_int b len p dl :
  bytes_ok b -> inv b len p dl ->
  post (asn_parse_unsigned_int b p dl) (fun '(p', dl', t, v) => inv b len p' dl' /\ p < p' /\ p' + dl' <= p + dl).
Proof.
  intros HB HI. pose proof HI as (H0 & H1 & H2 & H3 & H4). unfold asn_parse_unsigned_int.
  apply (post_reader_prologue b len p dl); [exact HB | exact HI|].
  intros t p' alen Hp Ha Hfit.
  change sizeof_int with 4.
  destruct (4 + 1 <? alen) eqn:E2; [exact I|].
  eapply (post_bind _ _ (fun _ => True)).
  { destruct (alen =? 4 + 1); [|exact I].
    apply post_rd_bind; [lia | intros x _]. exact I. }
  intros bad _. destruct bad; [exact I|].
  apply post_rd_bind; [lia | intros b0 _].
  eapply post_bind; [apply post_int_bytes; lia|]. intros v _.
  cbn [post]. unfold inv. lia.
Qed.

Lemma post_asn_parse_string keep b len p dl cap dcap :
  bytes_ok b -> inv b len p dl -> 0 <= cap <= dcap -> cap < 4294967296 ->
  post (asn_parse_string keep b p dl cap dcap)
       (fun '(p', dl', t, n, s) => inv b len p' dl' /\ p < p' /\ p' + dl' <= p + dl /\ 0 <= n <= cap /\
                                    (keep = true -> lenZ s = n)).
Proof.
  intros HB HI Hc Hc2. pose proof HI as (H0 & H1 & H2 & H3 & H4). unfold asn_parse_string.
  apply (post_reader_prologue b len p dl); [exact HB | exact HI|].
  intros t p' alen Hp Ha Hfit.
  rewrite (u32_small cap) by lia.
  destruct (cap <? alen) eqn:E2; [exact I|].
  eapply (post_bind _ _ (fun _ => True)).
  { destruct (alen =? 0) eqn:E3; [exact I|]. apply post_idx. lia. }
  intros _ _.
  eapply post_bind; [apply post_rd_range; lia|]. intros _ _.
  eapply (post_bind _ _ (fun s => keep = true -> lenZ s = alen)).
  { destruct keep; [|cbn [post]; discriminate].
    eapply post_mono; [apply post_rd_bytes; lia|]. intros l Hl _. rewrite Hl. lia. }
  intros s Hs. cbn [post]. unfold inv. lia.
Qed.

(* sub-identifier loop: consumes at least one byte, never more than [length] *)
Lemma post_objid_sub b len fuel : forall p length sub,
  0 <= p -> 0 <= length -> p + length <= len -> len < bsize b -> (Z.of_nat fuel > length) ->
  post (objid_sub b fuel p length sub)
       (fun '(p', length', sub') => p < p' /\ 0 <= length' /\ p' + length' = p + length).
Proof.
  induction fuel as [|f IH]; intros p length sub H0 Hl H1 H2 Hf; cbn [objid_sub].
  - cbn [post]. lia.
  - destruct (length <=? 0) eqn:E; [exact I|].
    apply post_rd_bind; [lia | intros x _].
    destruct (negb (Z.land x asn_bit8 =? 0)).
    + eapply post_mono; [apply IH; try assumption; lia|].
      intros [[p' l'] s'] Hq. lia.
    + cbn [post]. lia.
Qed.

Lemma post_objid_loop b len ocap fuel : forall p length objlen oidx acc,
  0 <= p -> 0 <= length -> p + length <= len -> len < bsize b -> (Z.of_nat fuel > length) ->
  0 <= oidx <= ocap -> oidx + objlen <= ocap ->
  post (objid_loop b fuel p length objlen oidx ocap acc)
       (fun '(pe, n, acc') => p <= pe <= p + length /\ oidx <= n <= ocap).
Proof.
  induction fuel as [|f IH]; intros p length objlen oidx acc H0 Hl H1 H2 Hf Ho Hc; cbn [objid_loop].
  - lia.
  - destruct (0 <? length) eqn:E1; [|cbn [post]; lia].
    destruct (0 <? objlen) eqn:E2; [|cbn [post]; lia].
    eapply post_bind; [apply (post_objid_sub b len); try assumption; lia|].
    intros [[p' l'] s'] (Hq1 & Hq2 & Hq3).
    destruct (max_subid <? s'); [exact I|].
    apply post_idx_bind; [lia |].
    eapply post_mono; [apply IH; try assumption; lia|].
    intros [[pe n] acc'] Hq. lia.
Qed.

Lemma post_asn_parse_objid b len p dl objlen ocap :
  bytes_ok b -> inv b len p dl -> 2 <= ocap -> objlen <= ocap ->
  post (asn_parse_objid b p dl objlen ocap)
       (fun '(p', dl', t, ids, n) => inv b len p' dl' /\ p < p' /\ p' + dl' <= p + dl /\ 1 <= n <= ocap).
Proof.
  intros HB HI Hc Ho. pose proof HI as (H0 & H1 & H2 & H3 & H4). unfold asn_parse_objid.
  apply (post_reader_prologue b len p dl); [exact HB | exact HI|].
  intros t p' alen Hp Ha Hfit.
  eapply (post_bind _ _ (fun _ => True)).
  { destruct (alen =? 0); [|exact I].
    apply post_idx_bind; [lia |]. apply post_idx; lia. }
  intros _ _.
  eapply post_bind; [apply (post_objid_loop b len ocap); try assumption; lia|].
  intros [[pe n] acc] (Hq1 & Hq2).
  apply post_idx_bind; [lia |].
  apply post_idx_bind; [lia |].
  destruct (match rev acc with [] => 0 | x :: _ => x end =? 43); cbn [post]; unfold inv; lia.
Qed.

Lemma post_snmp_pdu_decode b len p dl :
  bytes_ok b -> inv b len p dl ->
  post (snmp_pdu_decode b p dl) (fun '(p', dl', _, _, _, _) => inv b len p' dl').
Proof.
  intros HB HI. unfold snmp_pdu_decode.
  eapply post_bind; [apply (post_asn_parse_header b len); assumption|].
  intros [[p1 d1] cmd] (I1 & _).
  eapply post_bind; [apply (post_asn_parse_int b len); assumption|].
  intros [[[p2 d2] t2] v2] (I2 & _).
  eapply post_bind; [apply (post_asn_parse_int b len); assumption|].
  intros [[[p3 d3] t3] v3] (I3 & _).
  eapply post_bind; [apply (post_asn_parse_int b len); assumption|].
  intros [[[p4 d4] t4] v4] (I4 & _).
  cbn [post]. exact I4.
Qed.

(* one variable: the cursor stays inside the list, the remaining list length strictly decreases *)
Lemma post_varbind_one b len p all :
  bytes_ok b -> inv b len p all ->
  post (varbind_one b p all) (fun '(p', all', _) => inv b len p' all' /\ all' < all).
Proof.
  intros HB HI. unfold varbind_one.
  eapply post_bind; [apply (post_asn_parse_header b len); assumption|].
  intros [[tmp this] t] (I1 & L1 & M1).
  destruct (negb (t =? asn_seq_con)); [exact I|].
  eapply post_bind; [apply (post_asn_parse_objid b len); [assumption | assumption | vm_compute; congruence | lia]|].
  intros [[[[p2 this2] t2] ids] nl] (I2 & L2 & M2 & N2).
  destruct (negb (t2 =? asn_object_id)); [exact I|].
  eapply post_bind; [apply (post_asn_parse_header b len); assumption|].
  intros [[p3 d3] vt] (I3 & L3 & M3).
  assert (HA : inv b len p3 (all - (this + (tmp - p))) /\ all - (this + (tmp - p)) < all)
    by (unfold inv in *; lia).
  assert (HB' : forall q dq, inv b len q dq -> q + dq <= p2 + this2 ->
                 inv b len q (all - (this + (tmp - p))) /\ all - (this + (tmp - p)) < all)
    by (intros q dq Hq Hle; unfold inv in *; lia).
  destruct (vt =? asn_integer).
  { eapply post_bind; [apply (post_asn_parse_int b len); assumption|].
    intros [[[q dq] tq] vq] (Iq & Lq & Mq). cbn [post]. apply (HB' q dq); assumption. }
  destruct (is_in vt [smi_counter32; smi_gauge32; smi_timeticks]).
  { eapply post_bind; [apply (post_asn_parse_unsigned_int b len); assumption|].
    intros [[[q dq] tq] vq] (Iq & Lq & Mq). cbn [post]. apply (HB' q dq); assumption. }
  destruct (is_in vt [asn_octet_str; smi_ipaddress; smi_opaque]).
  { assert (Hthis2 : 0 <= this2 < 2147483648) by (unfold inv in *; lia).
    replace (if 0 <=? this2 then this2 else 0) with this2 by (destruct (0 <=? this2) eqn:E; lia).
    pose proof (post_asn_parse_string false b len p2 this2 this2 (this2 + 1) HB I2) as HS.
    destruct (asn_parse_string false b p2 this2 this2 (this2 + 1)) as [[[[[q dq] tq] n] s]| | |] eqn:ES.
    - destruct HS as (Iq & Lq & Mq & Nq & _); [lia | lia |].
      apply post_idx_bind; [lia |].
      cbn [post]. apply (HB' q dq); assumption.
    - apply post_idx_bind; [lia |]. exact I.
    - apply HS; lia.
    - apply HS; lia. }
  destruct (vt =? asn_object_id).
  { eapply post_bind; [apply (post_asn_parse_objid b len); [assumption | assumption | vm_compute; congruence | lia]|].
    intros [[[[q dq] tq] ids2] n2] (Iq & Lq & Mq & Nq). cbn [post]. apply (HB' q dq); assumption. }
  destruct (is_in vt [asn_null; smi_nosuchinstance; smi_nosuchobject; smi_endofmibview]); [|exact I].
  cbn [post]. apply (HB' p3 d3); [assumption | lia].
Qed.

Lemma post_varbind_loop b len fuel : forall p all acc,
  bytes_ok b -> inv b len p all -> (Z.of_nat fuel > all) ->
  post (varbind_loop b fuel p all acc) (fun _ => True).
Proof.
  induction fuel as [|f IH]; intros p all acc HB HI Hf; cbn [varbind_loop].
  - unfold inv in HI. cbn [post]. lia.
  - destruct (0 <? all) eqn:E; [|exact I].
    eapply post_bind; [apply (post_varbind_one b len); assumption|].
    intros [[p' all'] v] (I1 & L1).
    apply IH; [assumption | assumption | lia].
Qed.

Lemma post_snmp_var_decode b len p dl :
  bytes_ok b -> inv b len p dl -> post (snmp_var_decode b p dl) (fun _ => True).
Proof.
  intros HB HI. unfold snmp_var_decode.
  eapply post_bind; [apply (post_asn_parse_header b len); assumption|].
  intros [[p1 d1] t] (I1 & _).
  destruct (negb (t =? asn_seq_con)); [exact I|].
  apply (post_varbind_loop b len); [assumption | assumption |].
  unfold inv in I1. rewrite Nat2Z.inj_succ, Z2Nat.id; lia.
Qed.

(* THE bounds theorem for the SNMP decoder: with one byte after the bytes it is asked to decode (asn_parse_int looks at
   the octet after an empty integer) no reader leaves the object and no loop budget is exhausted *)
Lemma snmp_msg_decode_safe b len :
  bytes_ok b -> 0 <= len -> len + 1 <= bsize b -> len < 2147483648 ->
  safe (snmp_msg_decode b len).
Proof.
  intros HB H0 H1 H2. apply (post_safe _ (fun _ => True)). unfold snmp_msg_decode.
  assert (HI : inv b len 0 len) by (unfold inv; lia).
  eapply post_bind; [apply (post_asn_parse_header b len); assumption|].
  intros [[p1 d1] t] (I1 & _).
  destruct (negb (t =? asn_seq_con)); [exact I|].
  eapply post_bind; [apply (post_asn_parse_int b len); assumption|].
  intros [[[p2 d2] t2] ver] (I2 & _).
  eapply post_bind; [apply (post_asn_parse_string true b len); [assumption | assumption | vm_compute; split; congruence | reflexivity]|].
  intros [[[[p3 d3] t3] clen] comm] (I3 & _ & _ & N3 & _).
  destruct (clen =? snmp_comm_len0) eqn:E; [exact I|].
  apply post_idx_bind; [change snmp_comm_cap with 128; change snmp_comm_len0 with 128 in *; lia |].
  destruct (is_in 0 comm); [exact I|].
  eapply post_bind; [apply (post_snmp_pdu_decode b len); assumption|].
  intros [[[[[p4 d4] cmd] rq] es] ei] I4.
  eapply post_bind; [apply (post_snmp_var_decode b len); assumption|].
  intros [p5 vars] _. exact I.
Qed.

Definition is_byte (x : Z) : Prop := 0 <= x < 256.

Lemma nthZ_byte d : Forall is_byte d -> forall i, 0 <= nthZ d i < 256.
Proof.
  induction 1 as [|x r Hx Hr IH]; intros i; cbn [nthZ]; [lia|].
  destruct (i =? 0); [exact Hx | apply IH].
Qed.

Lemma recv_buf_bytes size stale d len :
  Forall is_byte d -> (forall i, is_byte (stale i)) -> bytes_ok (recv_buf size stale d len).
Proof.
  intros Hd Hs i. cbn [recv_buf bget]. destruct (i <? len); [apply nthZ_byte; exact Hd | apply Hs].
Qed.

Lemma lenZ_nonneg (l : list Z) : 0 <= lenZ l.
Proof. induction l; cbn [lenZ]; lia. Qed.

Definition upost {A} (u : udp_out A) (Q : A -> Prop) : Prop := match u with Empty => True | Got r => post r Q end.

Lemma upost_safe {A} (u : udp_out A) Q : upost u Q -> u <> Got OOB /\ u <> Got NoFuel.
Proof.
  destruct u as [|r]; cbn [upost]; [split; congruence|].
  intros H. apply post_safe in H. destruct H as [H1 H2]. split; intros HC; injection HC; auto.
Qed.

Lemma snmp_udp_safe size recvmax stale d :
  Forall is_byte d -> (forall i, is_byte (stale i)) ->
  Z.min (lenZ d) recvmax + 1 <= size -> size < 2147483648 ->
  snmp_udp size recvmax stale d <> Got OOB /\ snmp_udp size recvmax stale d <> Got NoFuel.
Proof.
  intros Hd Hs Hl Hsz. apply (upost_safe _ (fun _ => True)). unfold snmp_udp.
  destruct (Z.min (lenZ d) recvmax <=? 0) eqn:E; [exact I|].
  apply safe_post, snmp_msg_decode_safe; [|lia|cbn [recv_buf bsize]; lia|lia].
  apply recv_buf_bytes; [exact Hd|]. destruct snmp_buf_zeroed; [intros i; unfold is_byte; lia | exact Hs].
Qed.

(* a well-formed GET of exactly 4095 bytes: one OCTET STRING variable of 4050 bytes followed by the empty variable
   `30 00` in the last two bytes. Before /repo 71f8893 (asn_header_fits) the object identifier of that last variable was
   looked for at offsets 4095, 4096 of the 4096-byte buffer; now the reader refuses it without looking. *)
Definition snmp_witness : list Z :=
  [48; 130; 15; 251; 2; 1; 0; 4; 6; 112; 117; 98; 108; 105; 99; 160; 130; 15; 236; 2; 1; 1; 2; 1; 0; 2; 1; 0;
   48; 130; 15; 223; 48; 130; 15; 217; 6; 1; 43; 4; 130; 15; 210] ++ Z.iter 4050 (cons 65) [48; 0].

Definition is_byteb (x : Z) : bool := (0 <=? x) && (x <? 256).
Lemma Forall_is_byte d : forallb is_byteb d = true -> Forall is_byte d.
Proof.
  induction d as [|x r IH]; cbn [forallb]; intros H; [constructor|].
  apply andb_prop in H. destruct H as [Hx Hr]. constructor; [unfold is_byteb, is_byte in *; lia | apply IH; exact Hr].
Qed.

Lemma post_wr b i v : 0 <= i < bsize b ->
  post (wr b i v) (fun b' => bsize b' = bsize b /\ forall j, bget b' j = if j =? i then v else bget b j).
Proof.
  intros H. unfold wr, in_obj. destruct ((0 <=? i) && (i <? bsize b)) eqn:E; cbn [post]; [|lia].
  split; [reflexivity | intros j; reflexivity].
Qed.

Lemma bytes_ok_upd b b' i v : bytes_ok b -> 0 <= v < 256 ->
  (forall j, bget b' j = if j =? i then v else bget b j) -> bytes_ok b'.
Proof. intros HB Hv H j. rewrite H. destruct (j =? i); [exact Hv | apply HB]. Qed.

Ltac icp_consts := unfold icp_hdr_size, icp_off_opcode, icp_off_version, icp_off_length, icp_off_reqnum, icp_off_flags,
  icp_off_pad, icp_sizeof_length, icp_query_prefix, icp_end, icp_invalid, icp_query, icp_hit, icp_miss, icp_err,
  icp_decho, icp_miss_nofetch, icp_denied, icp_version_2, icp_version_3 in *.

Lemma post_icp_header b len :
  bytes_ok b -> (icp_hdr_size <= len -> icp_hdr_size <= bsize b) ->
  post (icp_header b len) (fun h => 0 <= i_length h < 65536 /\ 0 <= i_opcode h < 256).
Proof.
  intros HB H1. unfold icp_header.
  destruct (len <? icp_hdr_size) eqn:E.
  - cbn [post i_length i_opcode]. icp_consts. change (2 ^ (8 * 2)) with 65536.
    pose proof (Z.mod_pos_bound (len + 1) 65536). lia.
  - assert (Hs : icp_hdr_size <= bsize b) by (apply H1; lia). icp_consts.
    apply post_rd_bind; [lia | intros _ _].
    apply post_rd_byte_bind; [exact HB | lia | intros op Hop].
    apply post_rd_byte_bind; [exact HB | lia | intros ver Hver].
    eapply post_bind; [apply post_be16; [exact HB | lia | lia]|]; cbv beta. intros l Hl.
    eapply post_bind; [apply post_be32; [exact HB | lia | lia]|]; cbv beta. intros rq _.
    eapply post_bind; [apply post_be32; [exact HB | lia | lia]|]; cbv beta. intros fl _.
    eapply post_bind; [apply post_be32; [exact HB | lia | lia]|]; cbv beta. intros pd _.
    cbn [post i_length i_opcode]. lia.
Qed.

Definition url_inside (len : Z) (u : option (Z * Z)) : Prop :=
  match u with Some (o, n) => icp_hdr_size <= o /\ 0 <= n /\ o + n + 1 = len | None => True end.

Lemma post_icp_get_url b h :
  0 <= i_length h <= bsize b -> post (icp_get_url b h) (url_inside (i_length h)).
Proof.
  intros Hl. unfold icp_get_url.
  set (uo := icp_hdr_size + (if i_opcode h =? icp_query then icp_query_prefix else 0)).
  assert (Huo : icp_hdr_size <= uo) by (subst uo; destruct (i_opcode h =? icp_query); icp_consts; lia).
  destruct (i_length h <=? uo) eqn:E1; [exact I|].
  assert (H20 : 0 <= icp_hdr_size) by (icp_consts; lia).
  apply post_rd_bind; [lia | intros last ->].
  destruct (negb (bget b (i_length h - 1) =? 0)) eqn:E2; [exact I|].
  eapply post_bind; [apply (post_cstrlen b uo (i_length h - 1)); lia|]. intros n Hn.
  destruct (uo + n + 1 =? i_length h) eqn:E3; cbn [post url_inside]; [lia | exact I].
Qed.

Definition class_inside (len : Z) (c : icp_class) : Prop :=
  match c with IcpQuery u => url_inside len u | IcpReply u => url_inside len u | _ => True end.

Lemma post_icp_dispatch b len :
  bytes_ok b -> 0 <= len <= bsize b -> post (icp_dispatch b len) (class_inside len).
Proof.
  intros HB Hl. unfold icp_dispatch.
  destruct (len <=? 0) eqn:E0; [exact I|].
  eapply post_bind; [apply post_icp_header; [exact HB | icp_consts; lia]|].
  intros h (Hh1 & Hh2).
  destruct (negb (len =? i_length h)) eqn:E1; [exact I|].
  assert (Hlen : len = i_length h) by lia.
  apply post_idx_bind; [unfold icp_get_opcode; destruct (icp_end <? i_opcode h) eqn:E; icp_consts; lia |].
  destruct (i_opcode h =? icp_query).
  { eapply post_bind; [apply post_icp_get_url; lia|]. intros u Hu.
    cbn [post class_inside]. rewrite Hlen. exact Hu. }
  destruct (is_in (i_opcode h) [icp_hit; icp_decho; icp_miss; icp_denied; icp_miss_nofetch]) eqn:E2.
  { apply post_idx_bind; [unfold is_in in E2; cbn [existsb] in E2; icp_consts; lia |].
    eapply post_bind; [apply post_icp_get_url; lia|]. intros u Hu.
    cbn [post class_inside]. rewrite Hlen. exact Hu. }
  destruct (is_in (i_opcode h) [icp_invalid; icp_err]); exact I.
Qed.

(* THE bounds theorem for ICP: whatever is received and whatever the static buffer held before, icpHandleUdp and the
   functions it calls stay inside the buffer, and an extracted URL lies inside the received bytes *)
Lemma icp_udp_spec size recvmax stale d :
  Forall is_byte d -> (forall i, is_byte (stale i)) -> 0 <= recvmax < size ->
  upost (icp_udp size recvmax stale d) (class_inside (Z.min (lenZ d) recvmax)).
Proof.
  intros Hd Hs Hr. unfold icp_udp.
  set (len := Z.min (lenZ d) recvmax).
  destruct (len <=? 0) eqn:E0; [exact I|]. cbn [upost].
  set (b0 := recv_buf size stale d len).
  assert (HB0 : bytes_ok b0) by (apply recv_buf_bytes; assumption).
  assert (Hsz : bsize b0 = size) by reflexivity.
  assert (Hlen : 0 < len <= recvmax) by (subst len; lia).
  eapply (post_bind _ _ (fun _ => True)).
  { destruct (icp_hdr_size <=? len) eqn:E; [|exact I].
    eapply post_mono; [apply post_rd; icp_consts; lia|]. intros; exact I. }
  intros _ _.
  eapply (post_bind _ _ (fun b => bytes_ok b /\ bsize b = size)).
  { destruct icp_terminates; [|cbn [post]; auto].
    eapply post_mono; [apply post_wr; lia|]. intros b' (Hb1 & Hb2).
    split; [eapply bytes_ok_upd; [exact HB0 | | exact Hb2]; lia | lia]. }
  intros b (HB & Hbs).
  destruct (len <? icp_hdr_size) eqn:E1; [exact I|].
  apply post_rd_bind; [icp_consts; lia | intros ver _].
  destruct ((ver =? icp_version_2) || (ver =? icp_version_3)); [|exact I].
  apply post_icp_dispatch; [exact HB | lia].
Qed.

Lemma icp_unit_safe size recvmax stale d :
  Forall is_byte d -> (forall i, is_byte (stale i)) -> 0 <= recvmax < size ->
  safe (icp_unit size recvmax stale d).
Proof.
  intros Hd Hs Hr. apply (post_safe _ (fun _ => True)). unfold icp_unit.
  set (len := Z.min (lenZ d) recvmax).
  pose proof (lenZ_nonneg d) as Hn.
  set (b0 := recv_buf size stale d len).
  assert (HB0 : bytes_ok b0) by (apply recv_buf_bytes; assumption).
  assert (Hsz : bsize b0 = size) by reflexivity.
  eapply post_bind; [apply post_wr; lia|]. intros b (Hb1 & Hb2).
  assert (HB : bytes_ok b) by (eapply bytes_ok_upd; [exact HB0 | | exact Hb2]; lia).
  eapply post_bind; [apply post_icp_header; [exact HB | icp_consts; lia]|].
  intros h (Hh1 & Hh2).
  destruct ((0 <? len) && (icp_hdr_size <=? len) && (len =? i_length h)) eqn:E; [|exact I].
  eapply post_bind; [apply post_icp_get_url; lia|]. intros u _. exact I.
Qed.

Definition good (size : Z) (s : hst) : Prop := bytes_ok (hb s) /\ bsize (hb s) = size.
(* NUL bytes are never un-written (every write of the unpackers stores 0) *)
Definition ext (s s' : hst) : Prop := forall j, bget (hb s) j = 0 -> bget (hb s') j = 0.
Definition wrange (lo hi : Z) (s : hst) : Prop := Forall (fun i => lo <= i <= hi) (hw s).

Lemma post_hwr size lo hi s i :
  good size s -> wrange lo hi s -> 0 <= i < size -> lo <= i <= hi ->
  post (hwr s i) (fun s' => good size s' /\ wrange lo hi s' /\ ext s s' /\ bget (hb s') i = 0).
Proof.
  intros (HB & Hs) Hw Hi Hr. unfold hwr.
  eapply post_bind; [apply post_wr; lia|]. intros b' (Hb1 & Hb2).
  unfold good, wrange, ext. cbn [post hb hw]. split; [split | split; [|split]].
  - eapply bytes_ok_upd; [exact HB | | exact Hb2]; lia.
  - lia.
  - constructor; [exact Hr | exact Hw].
  - intros j Hj. rewrite Hb2. destruct (j =? i); [reflexivity | exact Hj].
  - rewrite Hb2. rewrite Z.eqb_refl. reflexivity.
Qed.

Definition opt_inside {A} (P : A -> Prop) (o : option A) : Prop := match o with Some a => P a | None => True end.

(* what an unpacker hands back, also when it refuses: a good state, written only inside [lo, hi], fields inside *)
Definition unpacked {A} (size lo hi : Z) (P : A -> Prop) (r : hst * option A) : Prop :=
  good size (fst r) /\ wrange lo hi (fst r) /\ opt_inside P (snd r).

(* a counted field: its 16-bit length at [p] is read and checked against the [sz] bytes that are left *)
Lemma post_counted_field {A} size lo hi (P : A -> Prop) s p sz (K : Z -> res (hst * option A)) :
  good size s -> wrange lo hi s -> 0 <= p -> p + sz <= size ->
  (forall l, 0 <= l -> 2 + l <= sz -> post (K l) (unpacked size lo hi P)) ->
  post (match parse_uint16 (hb s) p sz with
        | Ok l => if sz - 2 <? l then Ok (s, None) else K l
        | Fail => Ok (s, None) | OOB => OOB | NoFuel => NoFuel
        end) (unpacked size lo hi P).
Proof.
  intros HG HW H0 H1 HK. pose proof HG as (HB & HS).
  assert (HR : post (Ok (s, @None A)) (unpacked size lo hi P)) by exact (conj HG (conj HW I)).
  unfold parse_uint16. destruct (sz <? 2) eqn:E; [exact HR|].
  pose proof (post_be16 (hb s) p HB H0) as H.
  destruct (be16 (hb s) p) as [l| | |]; cbn [post] in H; [|exact HR|apply H; lia|apply H; lia].
  destruct (sz - 2 <? l) eqn:E1; [exact HR|apply HK; lia].
Qed.

Definition spec_inside (lo hi : Z) (sp : htcp_spec) : Prop :=
  match sp_lens sp with
  | [ml; ul; vl; hl] =>
    lo <= sp_method sp /\ sp_method sp + ml <= hi /\ lo <= sp_uri sp /\ sp_uri sp + ul <= hi /\
    lo <= sp_version sp /\ sp_version sp + vl <= hi /\ lo <= sp_hdrs sp /\ sp_hdrs sp + hl <= hi /\
    0 <= sp_hdrs_sz sp /\ sp_hdrs sp + sp_hdrs_sz sp <= hi /\ 0 <= ml /\ 0 <= ul /\ 0 <= vl /\ 0 <= hl
  | _ => False
  end.

(* htcpUnpackSpecifier on [p, p+sz) inside [lo, hi] of a buffer with at least one more byte after hi.
   Each field is NUL-terminated in place before the next length is read, and the terminators stay in place, so the
   four C-string scans at the end stop inside the datagram. *)
Lemma post_htcp_unpack_specifier size lo hi s p sz :
  good size s -> wrange lo hi s -> 0 <= lo <= p -> p + sz <= hi -> hi < size ->
  post (htcp_unpack_specifier s p sz) (unpacked size lo hi (spec_inside lo hi)).
Proof.
  intros HG HW H0 Hhi Hlt. unfold htcp_unpack_specifier. cbv zeta.
  apply (post_counted_field size lo hi); [exact HG | exact HW | lia | lia |]. intros l1 Hl1 Hs1.
  apply (post_counted_field size lo hi); [exact HG | exact HW | lia | lia |]. intros l2 Hl2 Hs2.
  eapply post_bind; [apply (post_hwr size lo hi); [exact HG | exact HW | lia | lia]|].
  intros s1 (G1 & W1 & X1 & Z1).
  apply (post_counted_field size lo hi); [exact G1 | exact W1 | lia | lia |]. intros l3 Hl3 Hs3.
  eapply post_bind; [apply (post_hwr size lo hi); [exact G1 | exact W1 | lia | lia]|].
  intros s2 (G2 & W2 & X2 & Z2).
  apply (post_counted_field size lo hi); [exact G2 | exact W2 | lia | lia |]. intros l4 Hl4 Hs4.
  eapply post_bind; [apply (post_hwr size lo hi); [exact G2 | exact W2 | lia | lia]|].
  intros s3 (G3 & W3 & X3 & Z3).
  eapply post_bind; [apply (post_hwr size lo hi); [exact G3 | exact W3 | lia | lia]|].
  intros s4 (G4 & W4 & X4 & Z4). pose proof G4 as (_ & S4).
  assert (T1 : bget (hb s4) (p + 2 + l1) = 0) by (apply X4, X3, X2, Z1).
  assert (T2 : bget (hb s4) (p + 2 + l1 + 2 + l2) = 0) by (apply X4, X3, Z2).
  assert (T3 : bget (hb s4) (p + 2 + l1 + 2 + l2 + 2 + l3) = 0) by (apply X4, Z3).
  eapply post_bind; [eapply post_cstrlen; [| | exact T1]; lia|]; cbv beta. intros ml Hml.
  eapply post_bind; [eapply post_cstrlen; [| | exact T2]; lia|]; cbv beta. intros ul Hul.
  eapply post_bind; [eapply post_cstrlen; [| | exact T3]; lia|]; cbv beta. intros vl Hvl.
  eapply post_bind; [eapply post_cstrlen; [| | exact Z4]; lia|]; cbv beta. intros hl Hhl.
  split; [exact G4 | split; [exact W4|]].
  unfold spec_inside. cbn [snd opt_inside sp_lens sp_method sp_uri sp_version sp_hdrs sp_hdrs_sz]. lia.
Qed.

Definition detail_inside (lo hi : Z) (d : htcp_detail) : Prop :=
  match d_lens d with
  | [a; e; c] =>
    lo <= d_resp d /\ d_resp d + a <= hi /\ 0 <= d_resp_sz d /\ d_resp d + d_resp_sz d <= hi /\
    lo <= d_entity d /\ d_entity d + e <= hi /\ 0 <= d_entity_sz d /\ d_entity d + d_entity_sz d <= hi /\
    lo <= d_cache d /\ d_cache d + c <= hi /\ 0 <= d_cache_sz d /\ d_cache d + d_cache_sz d <= hi /\
    0 <= a /\ 0 <= e /\ 0 <= c
  | _ => False
  end.

Lemma post_htcp_unpack_detail size lo hi s p sz :
  good size s -> wrange lo hi s -> 0 <= lo <= p -> p + sz <= hi -> hi < size ->
  post (htcp_unpack_detail s p sz) (unpacked size lo hi (detail_inside lo hi)).
Proof.
  intros HG HW H0 Hhi Hlt. unfold htcp_unpack_detail. cbv zeta.
  apply (post_counted_field size lo hi); [exact HG | exact HW | lia | lia |]. intros l1 Hl1 Hs1.
  apply (post_counted_field size lo hi); [exact HG | exact HW | lia | lia |]. intros l2 Hl2 Hs2.
  eapply post_bind; [apply (post_hwr size lo hi); [exact HG | exact HW | lia | lia]|].
  intros s1 (G1 & W1 & X1 & Z1).
  apply (post_counted_field size lo hi); [exact G1 | exact W1 | lia | lia |]. intros l3 Hl3 Hs3.
  eapply post_bind; [apply (post_hwr size lo hi); [exact G1 | exact W1 | lia | lia]|].
  intros s2 (G2 & W2 & X2 & Z2).
  eapply post_bind; [apply (post_hwr size lo hi); [exact G2 | exact W2 | lia | lia]|].
  intros s3 (G3 & W3 & X3 & Z3). pose proof G3 as (_ & S3).
  assert (T1 : bget (hb s3) (p + 2 + l1) = 0) by (apply X3, X2, Z1).
  assert (T2 : bget (hb s3) (p + 2 + l1 + 2 + l2) = 0) by (apply X3, Z2).
  eapply post_bind; [eapply post_cstrlen; [| | exact T1]; lia|]; cbv beta. intros a Ha.
  eapply post_bind; [eapply post_cstrlen; [| | exact T2]; lia|]; cbv beta. intros e He.
  eapply post_bind; [eapply post_cstrlen; [| | exact Z3]; lia|]; cbv beta. intros c Hc.
  split; [exact G3 | split; [exact W3|]].
  unfold detail_inside. cbn [snd opt_inside d_lens d_resp d_resp_sz d_entity d_entity_sz d_cache d_cache_sz]. lia.
Qed.

(* what htcpHandleMsg hands on lies inside the received bytes *)
Definition hclass_inside (len : Z) (c : htcp_class) : Prop :=
  match c with
  | HtcpTstReq sp => opt_inside (spec_inside 0 len) sp
  | HtcpClr (Some sp) => opt_inside (spec_inside 0 len) sp
  | HtcpTstRsp (Some d) => opt_inside (detail_inside 0 len) d
  | _ => True
  end.

Lemma tbl_nonneg t : forallb (fun y => 0 <=? y) t = true -> forall i, 0 <= tbl t i.
Proof.
  unfold tbl. induction t as [|x r IH]; cbn [forallb nthZ]; intros H i; [lia|].
  apply andb_prop in H. destruct H as [Hx Hr]. destruct (i =? 0); [lia | apply IH; exact Hr].
Qed.

(* THE bounds theorem for HTCP: for a message of [sz] received bytes in a buffer with at least one more byte,
   htcpHandleMsg and the unpackers it calls read and write only inside the buffer -- in fact only inside the received
   bytes and the byte after them -- whatever the sender wrote and whatever queries are outstanding *)
Lemma post_htcp_handle_msg pending size s sz :
  good size s -> hw s = [] -> 0 <= sz < size ->
  post (htcp_handle_msg pending s sz)
       (fun r => good size (hr_state r) /\ wrange 0 sz (hr_state r) /\ hclass_inside sz (hr_class r)).
Proof.
  intros HG HW Hsz. unfold htcp_handle_msg.
  assert (HW0 : forall lo hi, wrange lo hi s) by (intros; unfold wrange; rewrite HW; constructor).
  assert (HD : forall o c, c = HtcpDropped \/ c = HtcpNoOp \/ c = HtcpTstRsp None \/ c = HtcpClr None ->
             post (Ok (mkhres o c s)) (fun r => good size (hr_state r) /\ wrange 0 sz (hr_state r) /\ hclass_inside sz (hr_class r))).
  { intros o c Hc. cbn [post hr_state hr_class]. split; [exact HG | split; [apply HW0|]].
    destruct Hc as [-> | [-> | [-> | ->]]]; exact I. }
  destruct (HG) as (HB & HS).
  destruct ((sz <? 0) || (sz <? htcp_hdr_size)) eqn:E0; [apply HD; auto|].
  unfold htcp_hdr_size, htcp_dhdr_size, htcp_dhdr_squid_size, htcp_off_major, htcp_off_minor,
    htcp_op_end, htcp_op_tst, htcp_op_clr, htcp_rr_request, htcp_n_queried in *.
  apply post_rd_bind; [lia | intros _ _].
  eapply post_bind; [apply post_be16; [exact HB | lia | lia]|]. intros hlen Hhlen.
  apply post_rd_bind; [lia | intros major _].
  apply post_rd_bind; [lia | intros minor _].
  destruct (negb (sz =? hlen)); [apply HD; auto|].
  destruct (negb (major =? 0)); [apply HD; auto|].
  destruct (sz - 4 <? 8) eqn:E1; [apply HD; auto|].
  eapply post_bind.
  { apply post_rd. destruct (minor =? 0); [destruct (8 <=? sz - 4) eqn:E|]; lia. }
  cbv beta. intros _ _.
  eapply post_bind; [apply post_be16; [exact HB | lia | lia]|]. intros dlen Hdlen.
  apply post_rd_bind; [lia | intros b2 _].
  apply post_rd_bind; [lia | intros b3 _].
  eapply post_bind; [apply post_be32; [exact HB | lia | lia]|]. intros msg_id Hmsg.
  set (opcode := tbl (if minor =? 0 then htcp_old_opcode else htcp_new_opcode) b2).
  set (f1 := tbl (if minor =? 0 then htcp_old_f1 else htcp_new_f1) b3).
  set (rr := tbl (if minor =? 0 then htcp_old_rr else htcp_new_rr) b3).
  destruct (5 <=? opcode) eqn:E2; [apply HD; auto|].
  assert (Hop : 0 <= opcode).
  { subst opcode. destruct (minor =? 0); apply tbl_nonneg; vm_compute; reflexivity. }
  apply post_idx_bind; [lia |].
  destruct (dlen <? 8) eqn:E3; [apply HD; auto|].
  destruct (sz - 4 <? dlen) eqn:E4; [apply HD; auto|].
  destruct (opcode =? 1).
  - destruct (rr =? 0).
    + destruct (dlen - 8 =? 0); [apply HD; auto|].
      destruct (f1 =? 0); [apply HD; auto|].
      eapply post_bind; [apply (post_htcp_unpack_specifier size 0 sz); [exact HG | apply HW0 | lia | lia | lia]|].
      intros [s' sp] (G1 & W1 & O1). cbn [post hr_state hr_class hclass_inside]. auto.
    + apply post_idx_bind; [pose proof (Z.mod_pos_bound msg_id 8192); lia |].
      destruct (negb (pending msg_id)); [apply HD; auto|].
      destruct (f1 =? 1); [apply HD; auto|].
      eapply post_bind; [apply (post_htcp_unpack_detail size 0 sz); [exact HG | apply HW0 | lia | lia | lia]|].
      intros [s' d] (G1 & W1 & O1). cbn [post hr_state hr_class hclass_inside]. auto.
  - destruct (opcode =? 4); [|apply HD; auto].
    destruct (dlen - 8 <? 2) eqn:E5; [apply HD; auto|].
    apply post_rd_bind; [lia | intros _ _].
    eapply post_bind; [apply (post_htcp_unpack_specifier size 0 sz); [exact HG | apply HW0 | lia | lia | lia]|].
    intros [s' sp] (G1 & W1 & O1). cbn [post hr_state hr_class hclass_inside]. auto.
Qed.

Lemma recv_state_good size stale d len :
  Forall is_byte d -> (forall i, is_byte (stale i)) -> good size (mkhst (recv_buf size stale d len) []).
Proof. intros Hd Hs. split; [apply recv_buf_bytes; assumption | reflexivity]. Qed.

Lemma htcp_udp_spec pending size recvmax stale d :
  Forall is_byte d -> (forall i, is_byte (stale i)) -> 0 <= recvmax < size ->
  post (htcp_udp pending size recvmax stale d)
       (fun r => good size (hr_state r) /\ wrange 0 (Z.min (lenZ d) recvmax) (hr_state r) /\
                 hclass_inside (Z.min (lenZ d) recvmax) (hr_class r)).
Proof.
  intros Hd Hs Hr. pose proof (lenZ_nonneg d) as Hn.
  apply post_htcp_handle_msg; [apply recv_state_good; assumption | reflexivity | lia].
Qed.

Lemma htcp_spec_unit_spec size recvmax stale d :
  Forall is_byte d -> (forall i, is_byte (stale i)) -> 0 <= recvmax < size ->
  post (htcp_spec_unit size recvmax stale d)
       (unpacked size 0 (Z.min (lenZ d) recvmax) (spec_inside 0 (Z.min (lenZ d) recvmax))).
Proof.
  intros Hd Hs Hr. pose proof (lenZ_nonneg d) as Hn.
  apply post_htcp_unpack_specifier; [apply recv_state_good; assumption | constructor | lia | lia | lia].
Qed.

Lemma htcp_detail_unit_spec size recvmax stale d :
  Forall is_byte d -> (forall i, is_byte (stale i)) -> 0 <= recvmax < size ->
  post (htcp_detail_unit size recvmax stale d)
       (unpacked size 0 (Z.min (lenZ d) recvmax) (detail_inside 0 (Z.min (lenZ d) recvmax))).
Proof.
  intros Hd Hs Hr. pose proof (lenZ_nonneg d) as Hn.
  apply post_htcp_unpack_detail; [apply recv_state_good; assumption | constructor | lia | lia | lia].
Qed.

Lemma nthZ_nth_error (l : list Z) : forall i, 0 <= i ->
  (i < lenZ l -> nth_error l (Z.to_nat i) = Some (nthZ l i)) /\ (lenZ l <= i -> nth_error l (Z.to_nat i) = None).
Proof.
  induction l as [|x r IH]; intros i Hi; cbn [lenZ nthZ].
  - split; [lia|]. intros _. destruct (Z.to_nat i); reflexivity.
  - pose proof (lenZ_nonneg r) as Hn. destruct (i =? 0) eqn:E0.
    + assert (i = 0) by lia. subst i. split; [reflexivity | lia].
    + replace (Z.to_nat i) with (S (Z.to_nat (i - 1))) by lia. cbn [nth_error].
      destruct (IH (i - 1)) as [I1 I2]; [lia|]. split; intros H; [apply I1 | apply I2]; lia.
Qed.

Lemma rd_list_is_nth_error (l : list Z) (i : Z) :
  rd (buf_of_list l) i = if i <? 0 then OOB else match nth_error l (Z.to_nat i) with Some x => Ok x | None => OOB end.
Proof.
  unfold rd, in_obj, buf_of_list. cbn [bsize bget].
  destruct (Z.ltb_spec i 0) as [Hneg | Hpos].
  - destruct (Z.leb_spec 0 i); [lia | reflexivity].
  - destruct (nthZ_nth_error l i Hpos) as [I1 I2].
    destruct (Z.ltb_spec i (lenZ l)) as [Hin | Hout].
    + rewrite I1 by exact Hin. destruct (Z.leb_spec 0 i); [reflexivity | lia].
    + rewrite I2 by exact Hout. destruct (Z.leb_spec 0 i); reflexivity.
Qed.
