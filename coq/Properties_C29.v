(* Properties_C29.v — C29: Cache-Control directives parse and re-serialise faithfully.
   Statements, closed by `exact` or by the few lines that assemble them; proofs live in CcProofs.v. *)
Require Import SquidV.Bytes SquidV.HopModel SquidV.HopProofs SquidV.TokModel SquidV.Int64Proofs.
Require Import SquidV.gen.CcNames_gen SquidV.CcModel SquidV.CcProofs.
Local Open Scope N_scope.

(* the parse loop never runs out of fuel and is a left fold of the loop body over the (element, tail)
   pairs whose elements are exactly the strListGetItem(',') elements of the value *)
Theorem C29_parse_is_fold_over_list_elements : forall st v,
  cc_parse_from st v = Some (fold_left step_pair (pairs_of v) st) /\
  map fst (pairs_of v) = list_items 44 v.
Proof. intros st v. split; [apply cc_parse_from_fold|apply pairs_of_items]. Qed.
Print Assumptions C29_parse_is_fold_over_list_elements.

(* on quote-free text the elements are the comma-split, OWS-trimmed, non-empty pieces (HopProofs) *)
Theorem C29_elements_are_comma_split : forall v, simple v = true -> list_items 44 v = ref_items v.
Proof. exact list_items_is_ref. Qed.
Print Assumptions C29_elements_are_comma_split.

(* httpHeaderParseInt(p) and httpHeaderParseQuotedString(p, len) get a pointer into the whole value; what
   they compute depends on the element only *)
Theorem C29_argument_reads_are_local : forall v, Forall (fun p => forall st,
  cc_step st (fst p) (snd p) = cc_step st (fst p) (fst p)) (pairs_of v).
Proof.
  intros v. eapply Forall_impl; [|apply pairs_of_wf]. intros [it tl] Hp st. exact (cc_step_local st it tl Hp).
Qed.
Print Assumptions C29_argument_reads_are_local.

(* MAIN 1: for ALL values, the parsed object is the first-match specification over the elements:
   mask = directives present; numeric members = first non-negative int that fits; max-stale = first occurrence
   (valueless form when its argument is not such an int); private / no-cache texts = first (valid) occurrence;
   other = unknown elements joined by ", " *)
Theorem C29_parse_exact : forall v, cc_parse v = Some (spec_cc (list_items 44 v)).
Proof. exact cc_parse_exact. Qed.
Print Assumptions C29_parse_exact.

(* a numeric directive is only ever stored with a non-negative value that fits an int *)
Theorem C29_numeric_value_fits : forall it n, d_num it = Some n -> (0 <= n < 2147483648)%Z.
Proof. exact d_num_range. Qed.
Print Assumptions C29_numeric_value_fits.

(* MAIN 2: invalid numeric values are treated as absent *)
Theorem C29_invalid_numeric_absent : forall v F st,
  cc_parse v = Some st -> strict_numeric F ->
  (forall it, In it (list_items 44 v) -> d_type it = F -> d_num it = None) ->
  isSet st F = false /\ get_num st F = (-1)%Z.
Proof. exact cc_invalid_numeric_absent. Qed.
Print Assumptions C29_invalid_numeric_absent.

(* max-stale: the first occurrence decides; an invalid argument leaves the valueless form *)
Theorem C29_max_stale_invalid_is_valueless : forall v st it,
  cc_parse v = Some st ->
  find (fun i => d_type i =? CC_MAX_STALE) (list_items 44 v) = Some it ->
  isSet st CC_MAX_STALE = true /\
  max_stale st = match d_num it with Some n => n | None => MAX_STALE_ANY end.
Proof. exact cc_max_stale_first. Qed.
Print Assumptions C29_max_stale_invalid_is_valueless.

(* MAIN (quoted arguments): for ALL inputs httpHeaderParseQuotedString over the whole argument is RFC 9110
   quoted-string decoding -- qdtext incl. HTAB, quoted-pairs unescaped to the escaped octet (also DQUOTE and
   backslash) -- with the two documented leniencies written into rfc_unquote: LWS folding reads as one SP and
   whatever follows the closing DQUOTE is ignored; anything else is rejected *)
Theorem C29_quoted_string_is_rfc : forall arg,
  parse_quoted_string arg (lenN arg) = qres_of (rfc_unquote arg).
Proof. exact pqs_is_rfc. Qed.
Print Assumptions C29_quoted_string_is_rfc.

(* decode (encode X) = X: what httpHeaderQuoteString writes (DQUOTE and backslash escaped) reads back as X,
   for every text of HTAB / SP / VCHAR / obs-text octets, whatever follows the closing quote *)
Theorem C29_quote_then_unquote : forall X junk, forallb txt_char X = true ->
  rfc_unquote (quote_string X ++ junk) = Some X /\
  parse_quoted_string (quote_string X) (lenN (quote_string X)) = QOk X.
Proof. intros X junk H. split; [now apply quote_unquote|now apply pqs_quote_string]. Qed.
Print Assumptions C29_quote_then_unquote.

(* what parse() produces is well formed: numeric members of present directives are non-negative ints, the quoted
   texts contain no DQUOTE / backslash / CTL, absent directives hold their defaults, no bit at or above CC_OTHER *)
Theorem C29_parsed_object_wellformed : forall v st, cc_parse v = Some st -> cc_wf st.
Proof. intros v st H. rewrite cc_parse_exact in H. injection H as <-. apply spec_cc_wf. Qed.
Print Assumptions C29_parsed_object_wellformed.

(* "%d" of a non-negative int is read back by httpHeaderParseInt *)
Theorem C29_decimal_reads_back : forall n, (0 <= n < 2147483648)%Z -> parse_int (dec_of_Z n) = Some n.
Proof. exact parse_int_dec. Qed.
Print Assumptions C29_decimal_reads_back.

(* strListGetItem re-splits elements joined by ", " into exactly those elements (elements that end outside
   a quoted string, do not start with a delimiter, do not end with white space) *)
Theorem C29_joined_elements_resplit : forall l, Forall good_item l -> list_items 44 (joinr l) = l.
Proof. exact list_items_joinr. Qed.
Print Assumptions C29_joined_elements_resplit.

(* packInto writes the present known directives, in id order, joined by ", "; reading those elements back
   through the specification gives the object *)
Theorem C29_pack_is_joined_elements : forall st, cc_wf st -> cc_ok st = true -> other st = [] ->
  cc_pack st = joinr (known st) /\ Forall good_item (known st) /\ spec_cc (known st) = st.
Proof. intros st Hwf Hok Ho. split; [now apply cc_pack_known|]. split; [now apply known_good|now apply spec_known]. Qed.
Print Assumptions C29_pack_is_joined_elements.

(* MAIN 3 (partial): parse (pack (parse v)) = parse v for every value whose parse succeeds and holds no unknown
   directive. NOT covered by the proof: objects with a non-empty `other` (unknown directives are appended
   verbatim after the known ones; that case rests on the correspondence run and the round-trip oracle). *)
Theorem C29_pack_parse_roundtrip_partial : forall v st,
  cc_parse v = Some st -> cc_ok st = true -> other st = [] -> cc_parse (cc_pack st) = Some st.
Proof. exact cc_roundtrip_known. Qed.
Print Assumptions C29_pack_parse_roundtrip_partial.

(* ---- hypotheses are satisfiable / statements are not vacuous ---- *)
Example ex_parse_exact :
  spec_cc (list_items 44 ex_value) =
  mkcc 138 5 (-1) (-1) (-1) (-1) [83;101;116;45;67;111;111;107;105;101] [] [102;111;111].
Proof. vm_compute. reflexivity. Qed.
Example ex_invalid_hyp : forall F, strict_numeric F ->
  forall it, In it (list_items 44 ex_invalid) -> d_type it = F -> d_num it = None.
Proof.
  intros F _ it Hin _.
  assert (E : forallb (fun i => match d_num i with None => true | Some _ => false end) (list_items 44 ex_invalid) = true)
    by (vm_compute; reflexivity).
  rewrite forallb_forall in E. specialize (E it Hin). destruct (d_num it); [discriminate|reflexivity].
Qed.
Example ex_invalid_items : map d_type (list_items 44 ex_invalid) = [CC_MAX_AGE; CC_S_MAXAGE].
Proof. vm_compute. reflexivity. Qed.
(* max-stale=abc *)
Example ex_max_stale :
  match find (fun i => d_type i =? CC_MAX_STALE) (list_items 44 [109;97;120;45;115;116;97;108;101;61;97;98;99]) with
  | Some it => match d_num it with None => true | Some _ => false end
  | None => false
  end = true.
Proof. vm_compute. reflexivity. Qed.
(* the former counterexamples: DQUOTE a BACKSLASH DQUOTE b DQUOTE / a BACKSLASH BACKSLASH b / A , HTAB B *)
Example ex_quoted_pairs :
  parse_quoted_string wit_qpair (lenN wit_qpair) = QOk [97; 34; 98] /\
  parse_quoted_string wit_qback (lenN wit_qback) = QOk [97; 92; 98] /\
  parse_quoted_string wit_htab (lenN wit_htab) = QOk [65; 44; 9; 66].
Proof. vm_compute. repeat split; reflexivity. Qed.
(* private=DQUOTE a BACKSLASH DQUOTE b DQUOTE parses to a DQUOTE b and is packed re-quoted *)
Example ex_requoted :
  match cc_parse ([112;114;105;118;97;116;101;61] ++ wit_qpair) with
  | Some st => list_eqb (private_ st) [97; 34; 98] &&
               list_eqb (cc_pack st) ([112;114;105;118;97;116;101;61] ++ wit_qpair)
  | None => false
  end = true.
Proof. vm_compute. reflexivity. Qed.
Example ex_txt : forallb txt_char [97; 34; 92; 9; 98; 200] = true.
Proof. vm_compute. reflexivity. Qed.
Example ex_simple : simple [109;97;120;45;97;103;101;61;53;44;32;110;111;45;115;116;111;114;101] = true.
Proof. vm_compute. reflexivity. Qed.
Example ex_roundtrip_hyp :
  match cc_parse ex_known with
  | Some st => cc_ok st && (lenN (other st) =? 0) && (cmask st =? 646) && (max_age st =? 60)%Z &&
               (max_stale st =? MAX_STALE_ANY)%Z && negb (lenN (no_cache st) =? 0) &&
               negb (list_eqb (cc_pack st) ex_known)
  | None => false
  end = true.
Proof. vm_compute. reflexivity. Qed.
