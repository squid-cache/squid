(* Properties_C27.v — C27: integer parsing is exact and overflow-safe.
   Statements, closed by `exact` or by the few lines that assemble them; proofs live in Int64Proofs.v. *)
Require Import SquidV.Bytes SquidV.TokModel SquidV.Int64Proofs.
Local Open Scope Z_scope.

(* Parser::Tokenizer::int64 (cutoff/cutlim test, uint64_t accumulation with explicit wrap
   "mod 2^64" in the model) equals the arbitrary-precision reading of the same characters,
   for every base selector 0 or 2..36, sign setting, length limit and input *)
Theorem C27_int64_equals_unbounded_reading : forall base0 allowSign limit buf,
  base_ok base0 -> tok_int64 base0 allowSign limit buf = ref_int64 base0 allowSign limit buf.
Proof. exact tok_int64_exact. Qed.
Print Assumptions C27_int64_equals_unbounded_reading.

(* after sign/prefix handling: success returns exactly the value of the maximal digit run,
   consumes exactly those digits, and the value fits int64_t *)
Theorem C27_int64_value_is_the_consumed_digits : forall base neg r2 n2 v n,
  2 <= base -> int64_core base neg r2 n2 = Some (v, n) ->
  let ds := digit_run base r2 in
  ds <> [] /\ n = (n2 + lenN ds)%N /\
  v = (if neg then - digits_value base ds 0 else digits_value base ds 0) /\
  - two63 <= v < two63.
Proof. exact int64_core_sound. Qed.
Print Assumptions C27_int64_value_is_the_consumed_digits.

(* failure happens only without digits or when the digits' value does not fit *)
Theorem C27_int64_fails_only_when_unrepresentable : forall base neg r2 n2,
  2 <= base -> int64_core base neg r2 n2 = None ->
  digit_run base r2 = [] \/ digits_value base (digit_run base r2) 0 > (if neg then two63 else two63 - 1).
Proof. exact int64_core_none. Qed.
Print Assumptions C27_int64_fails_only_when_unrepresentable.

(* the form used by the HTTP parsers, stated against the raw input *)
Theorem C27_int64_decimal_unsigned_spec : forall limit buf,
  tok_int64 10 false limit buf =
  match digit_run 10 (takeN limit buf) with
  | [] => None
  | ds => let v := digits_value 10 ds 0 in if v >? two63 - 1 then None else Some (v, lenN ds)
  end.
Proof. exact tok_int64_dec_unsigned. Qed.
Print Assumptions C27_int64_decimal_unsigned_spec.

(* header offsets (strtoll semantics): an accepted value fits, something was consumed *)
Theorem C27_parse_offset_in_range : forall s v n,
  parse_offset s = Some (v, n) -> - two63 <= v < two63 /\ (0 < n)%N.
Proof. exact parse_offset_sound. Qed.
Print Assumptions C27_parse_offset_in_range.

(* header ints never wrap into the int range (the F3 repair) *)
Theorem C27_parse_int_never_wraps : forall s v, parse_int s = Some v -> - two31 <= v < two31.
Proof. exact parse_int_in_int_range. Qed.
Print Assumptions C27_parse_int_never_wraps.

(* non-vacuity: INT64_MIN in base 16 with sign is accepted with its exact value; one more is rejected *)
Example C27_int64_min_hex :
  tok_int64 16 true 4294967295%N (map N.of_nat [45;48;120;56;48;48;48;48;48;48;48;48;48;48;48;48;48;48;48]%nat)
  = Some (- two63, 19%N).
Proof. vm_compute. reflexivity. Qed.
Example C27_int64_min_minus_one_rejected :
  tok_int64 10 true 4294967295%N (map N.of_nat [45;57;50;50;51;51;55;50;48;51;54;56;53;52;55;55;53;56;48;57]%nat) = None.
Proof. vm_compute. reflexivity. Qed.
