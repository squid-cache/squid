(* Properties_C50.v — C50: character sets and tokenizers follow set semantics.
   Statements, closed by `exact` or by the few lines that assemble them; proofs live in CharSetProofs.v / TokProofs.v. *)
Require Import SquidV.Bytes SquidV.CharSetModel SquidV.CharSetProofs SquidV.TokModel SquidV.TokProofs.
Require Import SquidV.gen.CharSets_gen.
Local Open Scope N_scope.

(* --- set operations are the operations on sets of byte values --- *)
Theorem C50_union_is_union : forall d s c, lenN d = lenN s ->
  cs_mem (cs_plus d s) c = cs_mem d c || cs_mem s c.
Proof. exact mem_plus. Qed.

Theorem C50_difference_is_difference : forall d s c, lenN d = lenN s ->
  cs_mem (cs_minus d s) c = cs_mem d c && negb (cs_mem s c).
Proof. exact mem_minus. Qed.

Theorem C50_complement_is_complement : forall s c, c < lenN s ->
  cs_mem (cs_complement s) c = negb (cs_mem s c).
Proof. exact mem_complement. Qed.

Theorem C50_add_remove_membership : forall s c v d, c < lenN s ->
  cs_mem (cs_set s c v) d = if d =? c then v else cs_mem s d.
Proof. exact mem_set. Qed.

Theorem C50_addRange_is_interval : forall s low high d,
  lenN s = 256 -> low < 256 -> high < 256 ->
  cs_mem (cs_addRange s low high) d = cs_mem s d || ((low <=? d) && (d <=? high)) || (d =? high).
Proof. exact mem_addRange. Qed.

(* --- tokenizer operations consume exactly the maximal/limited runs --- *)
Theorem C50_prefix_maximal_or_limited : forall set limit buf t r,
  tok_prefix set limit buf = Some (t, r) ->
  t ++ r = buf /\ t <> [] /\ forallb set t = true /\ lenN t <= limit /\
  (lenN t = limit \/ match r with [] => True | y :: _ => set y = false end).
Proof. exact tok_prefix_sound. Qed.

Theorem C50_prefix_fails_only_without_run : forall set limit buf,
  tok_prefix set limit buf = None ->
  buf = [] \/ limit = 0 \/ match buf with y :: _ => set y = false | [] => True end.
Proof. exact tok_prefix_none. Qed.

Theorem C50_skipAll_is_maximal_run : forall set buf,
  tok_skipAll set buf = (lenN (fst (span set buf)), snd (span set buf)).
Proof. exact tok_skipAll_spec. Qed.

Theorem C50_skipAllTrailing_is_maximal_tail : forall set buf,
  tok_skipAllTrailing set buf = (lenN (tail_run set buf), tail_rest set buf).
Proof. exact tok_skipAllTrailing_spec. Qed.

Theorem C50_suffix_limited_tail_run : forall set limit buf t r,
  tok_suffix set limit buf = Some (t, r) ->
  r ++ t = buf /\ t <> [] /\ forallb set t = true /\ lenN t <= limit.
Proof. exact tok_suffix_sound. Qed.

Theorem C50_suffix_unlimited_is_maximal : forall set limit buf, lenN buf <= limit ->
  tok_suffix set limit buf =
  match tail_run set buf with [] => None | _ :: _ => Some (tail_run set buf, tail_rest set buf) end.
Proof. exact tok_suffix_spec_nolimit. Qed.

Theorem C50_token_between_delimiters : forall delims buf t r,
  tok_token delims buf = Some (t, r) ->
  exists d1 d2, buf = d1 ++ t ++ d2 ++ r /\
    forallb delims d1 = true /\ forallb delims d2 = true /\ d2 <> [] /\
    forallb (fun c => negb (delims c)) t = true /\ t <> [] /\
    match r with [] => True | y :: _ => delims y = false end.
Proof. exact tok_token_sound. Qed.

(* --- the named sets, regenerated from the code, are their RFC 5234 / 9110 definitions --- *)
Definition in_range (lo hi c : N) : bool := (lo <=? c) && (c <=? hi).
Definition C50_named_check (c : N) : bool :=
    Bool.eqb (cs_DIGIT c) (in_range 48 57 c) &&
    Bool.eqb (cs_ALPHA c) (in_range 65 90 c || in_range 97 122 c) &&
    Bool.eqb (cs_HEXDIG c) (in_range 48 57 c || in_range 65 70 c || in_range 97 102 c) &&
    Bool.eqb (cs_VCHAR c) (in_range 33 126 c) &&
    Bool.eqb (cs_WSP c) ((c =? 32) || (c =? 9)) &&
    Bool.eqb (cs_CTL c) (in_range 1 31 c || (c =? 127)) &&
    Bool.eqb (cs_OBSTEXT c) (in_range 128 255 c) &&
    Bool.eqb (cs_TCHAR c) (cs_ALPHA c || cs_DIGIT c ||
                existsb (N.eqb c) [33;35;36;37;38;39;42;43;45;46;94;95;96;124;126]) &&
    Bool.eqb (cs_QDTEXT c) ((c =? 9) || (c =? 32) || (c =? 33) || in_range 35 91 c || in_range 93 126 c || in_range 128 255 c).
Theorem C50_named_sets_match_rfc : forall c, c < 256 ->
  cs_DIGIT c = in_range 48 57 c /\
  cs_ALPHA c = (in_range 65 90 c || in_range 97 122 c) /\
  cs_HEXDIG c = (in_range 48 57 c || in_range 65 70 c || in_range 97 102 c) /\
  cs_VCHAR c = in_range 33 126 c /\
  cs_WSP c = ((c =? 32) || (c =? 9)) /\
  cs_CTL c = (in_range 1 31 c || (c =? 127)) /\
  cs_OBSTEXT c = in_range 128 255 c /\
  cs_TCHAR c = (cs_ALPHA c || cs_DIGIT c ||
                existsb (N.eqb c) [33;35;36;37;38;39;42;43;45;46;94;95;96;124;126]) /\
  cs_QDTEXT c = ((c =? 9) || (c =? 32) || (c =? 33) || in_range 35 91 c || in_range 93 126 c || in_range 128 255 c).
Proof.
  intros c Hc.
  pose proof (forallb_bytes C50_named_check ltac:(vm_compute; reflexivity) c Hc) as H.
  unfold C50_named_check in H.
  repeat (apply andb_prop in H; let H' := fresh "H" in destruct H as [H H']).
  repeat match goal with E : Bool.eqb _ _ = true |- _ => apply Bool.eqb_prop in E end.
  repeat split; assumption.
Qed.

(* non-vacuity: concrete instances of the hypotheses *)
Example C50_prefix_example :
  tok_prefix cs_DIGIT 2 [49; 50; 51; 120] = Some ([49; 50], [51; 120]).
Proof. vm_compute. reflexivity. Qed.
Example C50_token_example :
  tok_token cs_WSP [32; 97; 98; 9; 32; 99] = Some ([97; 98], [99]).
Proof. vm_compute. reflexivity. Qed.

Print Assumptions C50_union_is_union.
Print Assumptions C50_difference_is_difference.
Print Assumptions C50_complement_is_complement.
Print Assumptions C50_add_remove_membership.
Print Assumptions C50_addRange_is_interval.
Print Assumptions C50_prefix_maximal_or_limited.
Print Assumptions C50_prefix_fails_only_without_run.
Print Assumptions C50_skipAll_is_maximal_run.
Print Assumptions C50_skipAllTrailing_is_maximal_tail.
Print Assumptions C50_suffix_limited_tail_run.
Print Assumptions C50_suffix_unlimited_is_maximal.
Print Assumptions C50_token_between_delimiters.
Print Assumptions C50_named_sets_match_rfc.
