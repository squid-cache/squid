(* DateProofs.v — proofs about DateModel.v (C35).
   The calendar: civil-from-days / days-from-civil are inverse for ALL integers (linear arithmetic within one
   400-year cycle of 146097 days + periodicity), the day count advances by one per calendar day.
   The text: tokenizer, atoi and classification lemmas, the closed-form answer of the parser on every string
   of the three HTTP-date forms, the format/parse round trip. *)
Require Import SquidV.Bytes SquidV.DateModel.
Require Import SquidV.gen.DateTabs_gen.
Require Import ZifyBool ZifyN ZifyNat Znumtheory.
Local Open Scope Z_scope.
Ltac lia_div := Z.div_mod_to_equations; lia.

Lemma is_leap_period y e : is_leap (y + e * 400) = is_leap y.
Proof. unfold is_leap. lia_div. Qed.

Definition yD (ys : Z) : Z := (ys / 400) * 146097 + (ys mod 400) * 365 + (ys mod 400) / 4 - (ys mod 400) / 100.

Lemma yearstep y : yD y = yD (y - 1) + 365 + (if is_leap y then 1 else 0).
Proof. unfold yD, is_leap. destruct ((y mod 4 =? 0) && negb (y mod 100 =? 0) || (y mod 400 =? 0)) eqn:E; lia_div. Qed.

(* civil_of_doe is the usual computation of year-of-era, day-of-year and month from a day of the 400-year era;
   all of its divisions are by constants, so what it promises is linear arithmetic over the quotients *)
Lemma yoe_doy doe : 0 <= doe < 146097 ->
  let yoe := (doe - doe / 1460 + doe / 36524 - doe / 146096) / 365 in
  let doy := doe - (365 * yoe + yoe / 4 - yoe / 100) in
  0 <= yoe <= 399 /\ 0 <= doy <= 365 /\
  (doy = 365 -> is_leap (yoe + 1) = true).
Proof. intros H. cbv zeta. unfold is_leap. lia_div. Qed.

Lemma month_day doy leap : 0 <= doy <= 365 -> (doy = 365 -> leap = true) ->
  let mp := (5 * doy + 2) / 153 in
  let d := doy - (153 * mp + 2) / 5 + 1 in
  let m := if mp <? 10 then mp + 3 else mp - 9 in
  1 <= m <= 12 /\ (if m >? 2 then m - 3 else m + 9) = mp /\
  1 <= d <= (if m =? 2 then (if leap then 29 else 28)
             else if (m =? 4) || (m =? 6) || (m =? 9) || (m =? 11) then 30 else 31).
Proof.
  intros H L. cbv zeta.
  assert (M : 0 <= (5 * doy + 2) / 153 <= 11) by lia_div.
  set (mp := (5 * doy + 2) / 153) in *.
  assert (C : mp = 0 \/ mp = 1 \/ mp = 2 \/ mp = 3 \/ mp = 4 \/ mp = 5 \/ mp = 6 \/ mp = 7 \/ mp = 8 \/ mp = 9 \/ mp = 10 \/ mp = 11) by lia.
  repeat (destruct C as [C|C]); subst mp; rewrite C; simpl;
    (destruct leap; [|assert (doy <> 365) by (intros ->; now specialize (L eq_refl))]);
    lia_div.
Qed.

Lemma doe_facts doe : 0 <= doe < 146097 ->
  forall ye m d, civil_of_doe doe = (ye, m, d) ->
  let yoe := if m <=? 2 then ye - 1 else ye in
  0 <= yoe <= 399 /\ doe_of_civil yoe m d = doe /\ valid_date ye m d = true.
Proof.
  intros Hd ye m d E. unfold civil_of_doe in E. cbv zeta in E.
  destruct (yoe_doy doe Hd) as (Hy & Hdoy & Hleap). cbv zeta in Hy, Hdoy, Hleap.
  set (yoe := (doe - doe / 1460 + doe / 36524 - doe / 146096) / 365) in *.
  set (doy := doe - (365 * yoe + yoe / 4 - yoe / 100)) in *.
  destruct (month_day doy (is_leap (yoe + 1)) Hdoy Hleap) as (Hm & Hmp & Hday).
  cbv zeta in Hm, Hmp, Hday.
  set (mp := (5 * doy + 2) / 153) in *. set (m' := if mp <? 10 then mp + 3 else mp - 9) in *.
  assert (Edoy : doe = 365 * yoe + yoe / 4 - yoe / 100 + doy) by (unfold doy; lia).
  clearbody m'. clearbody mp. clearbody doy. clearbody yoe.
  apply pair_equal_spec in E as [E <-]. apply pair_equal_spec in E as [<- <-].
  unfold doe_of_civil, valid_date, month_len, in_range. cbv zeta. rewrite Hmp. clear Hd Hleap.
  destruct (Z.leb_spec m' 2) as [J|J].
  - replace (yoe + 1 - 1) with yoe by lia. repeat split; lia.
  - repeat split; try lia.
    destruct (Z.eqb_spec m' 2) as [->|_]; [lia|]. destruct ((m' =? 4) || (m' =? 6) || (m' =? 9) || (m' =? 11)); lia.
Qed.

Lemma valid_date_period y m d e : valid_date (y + e * 400) m d = valid_date y m d.
Proof. unfold valid_date, month_len. rewrite is_leap_period. reflexivity. Qed.

Lemma civil_from_days_spec z y m d : civil_from_days z = (y, m, d) ->
  exists era doe ye, z + 719468 = era * 146097 + doe /\ 0 <= doe < 146097 /\
                     civil_of_doe doe = (ye, m, d) /\ y = ye + era * 400.
Proof.
  unfold civil_from_days. cbv zeta. intros H.
  exists ((z + 719468) / 146097), ((z + 719468) mod 146097).
  destruct (civil_of_doe ((z + 719468) mod 146097)) as [[ye m'] d'].
  injection H as <- <- <-. exists ye. repeat split; try reflexivity; lia_div.
Qed.

Theorem civil_roundtrip z : forall y m d, civil_from_days z = (y, m, d) -> days_from_civil y m d = z.
Proof.
  intros y m d H. destruct (civil_from_days_spec z y m d H) as (era & doe & ye & Hz & Hb & E & ->).
  destruct (doe_facts doe Hb ye m d E) as (Hyoe & Hdoe & _).
  unfold days_from_civil.
  replace (if m <=? 2 then ye + era * 400 - 1 else ye + era * 400) with ((if m <=? 2 then ye - 1 else ye) + era * 400)
    by (destruct (m <=? 2); lia).
  rewrite Z.div_add, Z.mod_add, Z.div_small, Z.mod_small by lia.
  rewrite Hdoe. lia.
Qed.

Theorem civil_from_days_valid z : forall y m d, civil_from_days z = (y, m, d) -> valid_date y m d = true.
Proof.
  intros y m d H. destruct (civil_from_days_spec z y m d H) as (era & doe & ye & Hz & Hb & E & ->).
  rewrite valid_date_period. apply (doe_facts doe Hb ye m d E).
Qed.

Lemma dfc_yD y m d : days_from_civil y m d =
  yD (if m <=? 2 then y - 1 else y) + (153 * (if m >? 2 then m - 3 else m + 9) + 2) / 5 + d - 1 - 719468.
Proof. unfold days_from_civil, doe_of_civil, yD. lia. Qed.

Lemma month_len_le31 y m : month_len y m <= 31.
Proof. unfold month_len. destruct (m =? 2); [destruct (is_leap y); lia|]. destruct ((m =? 4) || (m =? 6) || (m =? 9) || (m =? 11)); lia. Qed.

(* the day count grows with the date: before 1 Jan 1970 it is negative, after 31 Dec 9999 at least 2932897 *)
Theorem civil_from_days_year_range z : 0 <= z < 2932897 ->
  forall y m d, civil_from_days z = (y, m, d) -> 1970 <= y <= 9999.
Proof.
  intros Hz y m d H. pose proof (civil_from_days_valid z y m d H) as Hv. apply civil_roundtrip in H.
  pose proof (month_len_le31 y m) as H31. unfold valid_date, in_range in Hv.
  rewrite dfc_yD in H. unfold yD in H. destruct (m <=? 2) eqn:E1; destruct (m >? 2) eqn:E2; lia_div.
Qed.

Theorem dfc_epoch : days_from_civil 1970 1 1 = 0.
Proof. vm_compute. reflexivity. Qed.

Theorem dfc_next_day y m d : valid_date y m d = true ->
  forall y' m' d', next_day (y, m, d) = (y', m', d') -> days_from_civil y' m' d' = days_from_civil y m d + 1.
Proof.
  unfold valid_date, in_range, next_day. intros Hv y' m' d'.
  assert (Hm : m = 1 \/ m = 2 \/ m = 3 \/ m = 4 \/ m = 5 \/ m = 6 \/ m = 7 \/ m = 8 \/ m = 9 \/ m = 10 \/ m = 11 \/ m = 12) by lia.
  destruct (d <? month_len y m) eqn:Ed.
  - intros H. injection H as <- <- <-. rewrite !dfc_yD. lia.
  - assert (Hd : d = month_len y m) by lia. clear Ed.
    pose proof (yearstep y) as Hy.
    rewrite !dfc_yD.
    repeat (destruct Hm as [Hm|Hm]); subst m; cbn [Z.ltb Z.compare Pos.compare Pos.compare_cont] in *;
      intros H; injection H as <- <- <-; subst d; unfold month_len;
      cbn -[yD is_leap Z.add Z.sub Z.mul];
      try (replace (y + 1 - 1) with y by lia); try (destruct (is_leap y)); lia.
Qed.

Definition nz (l : bytes) : bool := forallb (fun c => negb (c =? 0)%N) l.
Definition nodelim (l : bytes) : bool := forallb (fun c => negb (is_delim c)) l.
(* what strtok returns as one token when it stands between delimiters *)
Definition clean (l : bytes) : bool :=
  match l with [] => false | _ :: _ => true end && nz l && nodelim l.

Lemma cstr_id l : nz l = true -> cstr l = l.
Proof.
  induction l as [|c l IH]; cbn [cstr nz forallb]; [reflexivity|]. intros H.
  apply andb_prop in H. destruct H as [H1 H2]. destruct (c =? 0)%N; [discriminate|]. f_equal. apply IH, H2.
Qed.

Lemma clean_spec l : clean l = true -> l <> [] /\ nz l = true /\ nodelim l = true.
Proof.
  unfold clean. intros H. apply andb_prop in H. destruct H as [H H3]. apply andb_prop in H. destruct H as [H1 H2].
  repeat split; try assumption. destruct l; discriminate.
Qed.

Lemma clean_intro l : l <> [] -> nz l = true -> nodelim l = true -> clean l = true.
Proof. intros H1 H2 H3. unfold clean. rewrite H2, H3. destruct l; [congruence|reflexivity]. Qed.

Lemma clean_app a b : clean a = true -> clean b = true -> clean (a ++ b) = true.
Proof.
  intros Ha Hb. destruct (clean_spec a Ha) as (Na & A1 & A2), (clean_spec b Hb) as (_ & B1 & B2).
  apply clean_intro.
  - destruct a; [congruence|discriminate].
  - unfold nz. rewrite forallb_app. fold (nz a) (nz b). rewrite A1, B1. reflexivity.
  - unfold nodelim. rewrite forallb_app. fold (nodelim a) (nodelim b). rewrite A2, B2. reflexivity.
Qed.

Lemma toks2_app a b : nodelim a = true -> toks2 (a ++ b) = (a ++ fst (toks2 b), snd (toks2 b)).
Proof.
  induction a as [|c a IH]; cbn [app nodelim forallb]; intros H.
  - destruct (toks2 b); reflexivity.
  - apply andb_prop in H. destruct H as [H1 H2]. cbn [toks2]. rewrite (IH H2).
    destruct (is_delim c); [discriminate|]. reflexivity.
Qed.

Lemma st_skip c r : is_delim c = true -> split_tokens (c :: r) = split_tokens r.
Proof. intros H. unfold split_tokens. cbn [toks2]. destruct (toks2 r) as [cur ts]. rewrite H. reflexivity. Qed.

Lemma st_tok a c r : clean a = true -> is_delim c = true -> split_tokens (a ++ c :: r) = a :: split_tokens r.
Proof.
  intros Ha Hc. destruct (clean_spec a Ha) as (Hne & _ & Hnd).
  unfold split_tokens. rewrite (toks2_app a (c :: r) Hnd). cbn [toks2].
  destruct (toks2 r) as [cur ts]. rewrite Hc. cbn [fst snd]. rewrite app_nil_r.
  destruct a; [congruence|reflexivity].
Qed.

Lemma st_last a : clean a = true -> split_tokens a = [a].
Proof.
  intros Ha. destruct (clean_spec a Ha) as (Hne & _ & Hnd).
  unfold split_tokens. rewrite <- (app_nil_r a) at 1. rewrite (toks2_app a [] Hnd). cbn [toks2 fst snd].
  rewrite app_nil_r. destruct a; [congruence|reflexivity].
Qed.

(* s is made of the tokens ts: a delimiter after each but the last, further delimiters before any *)
Inductive tokens : bytes -> list bytes -> Prop :=
| tokens_last a : clean a = true -> tokens a [a]
| tokens_cons a c r ts : clean a = true -> is_delim c = true -> tokens r ts -> tokens (a ++ c :: r) (a :: ts)
| tokens_skip c r ts : is_delim c = true -> tokens r ts -> tokens (c :: r) ts.

Lemma tokens_split s ts : tokens s ts -> nz s = true /\ split_tokens s = ts.
Proof.
  assert (D : forall c r, is_delim c = true -> nz r = true -> nz (c :: r) = true).
  { intros c r Hc Hr. unfold nz in *. cbn [forallb]. rewrite Hr. unfold is_delim in Hc. lia. }
  induction 1 as [a Ha|a c r ts Ha Hc _ [IH1 IH2]|c r ts Hc _ [IH1 IH2]].
  - split; [apply (clean_spec a Ha)|apply st_last, Ha].
  - split; [|rewrite st_tok, IH2 by assumption; reflexivity].
    unfold nz. rewrite forallb_app. fold (nz a) (nz (c :: r)). rewrite (D c r Hc IH1).
    destruct (clean_spec a Ha) as (_ & -> & _). reflexivity.
  - split; [exact (D c r Hc IH1)|rewrite st_skip, IH2 by assumption; reflexivity].
Qed.

Lemma parse_of_tokens s ts st :
  tokens s ts -> (lenN s <= 63)%N -> pd_loop pd0 ts = Some st ->
  ParseRfc1123 s = match parse_date_elements (p_day st) (p_month st) (p_year st) (p_time st) (p_zone st) with
                   | None => -1 | Some g => timegm g end.
Proof.
  intros H1 H2 H4. destruct (tokens_split s ts H1) as [Hn H3]. unfold ParseRfc1123, parse_date.
  rewrite (cstr_id s Hn), (takeN_all 63 s H2), H3, H4. reflexivity.
Qed.

(* the classification loop of parse_date on the token lists of the three forms *)
Ltac pd_run :=
  unfold pd0; cbn [pd_loop]; unfold pd_step;
  repeat match goal with H : _ = _ |- _ => rewrite H end;
  cbn [p_wday p_day p_month p_year p_time p_zone is_some negb]; try reflexivity.

Lemma loop_imf w dd mn yy tt zz :
  first_is_digit w = false -> first_is_digit dd = true -> split_at 45 dd = None ->
  first_is_digit mn = false -> first_is_digit yy = true -> is_some (split_at 58 yy) = false ->
  first_is_digit tt = true -> is_some (split_at 58 tt) = true -> first_is_digit zz = false ->
  pd_loop pd0 [w; dd; mn; yy; tt; zz] = Some (mkPd true (Some dd) (Some mn) (Some yy) (Some tt) (Some zz)).
Proof. intros. pd_run. Qed.

Lemma loop_850 w dmy dd rest mn yy tt zz :
  first_is_digit w = false -> first_is_digit dmy = true -> split_at 45 dmy = Some (dd, rest) ->
  split_at 45 rest = Some (mn, yy) ->
  first_is_digit tt = true -> is_some (split_at 58 tt) = true -> first_is_digit zz = false ->
  pd_loop pd0 [w; dmy; tt; zz] = Some (mkPd true (Some dd) (Some mn) (Some yy) (Some tt) (Some zz)).
Proof. intros. pd_run. Qed.

Lemma loop_asc w mn dd tt yy :
  first_is_digit w = false -> first_is_digit mn = false -> first_is_digit dd = true -> split_at 45 dd = None ->
  first_is_digit tt = true -> is_some (split_at 58 tt) = true ->
  first_is_digit yy = true -> is_some (split_at 58 yy) = false ->
  pd_loop pd0 [w; mn; dd; tt; yy] = Some (mkPd true (Some dd) (Some mn) (Some yy) (Some tt) None).
Proof. intros. pd_run. Qed.

Lemma split_at_app ch a b : split_at ch a = None -> split_at ch (a ++ ch :: b) = Some (a, b).
Proof.
  induction a as [|c a IH]; cbn [app split_at].
  - intros _. rewrite N.eqb_refl. reflexivity.
  - destruct (c =? ch)%N; [discriminate|]. destruct (split_at ch a) as [[x y]|]; [discriminate|].
    intros _. rewrite IH by reflexivity. reflexivity.
Qed.

(* decimal numerals: the characters of a list of digit values *)
Definition digit (v : Z) : Prop := 0 <= v < 10.

Lemma dig_facts v : digit v ->
  is_digit (dig v) = true /\ Z.of_N (dig v) - 48 = v /\ schar (dig v) = 48 + v /\
  is_delim (dig v) = false /\ (dig v =? 0)%N = false /\ (dig v =? 58)%N = false /\
  (dig v =? 45)%N = false /\ (dig v =? 43)%N = false /\ is_space (dig v) = false.
Proof.
  unfold digit. intros H. unfold is_digit, schar, is_delim, is_space, dig.
  destruct (Z.to_N (48 + v) <? 128)%N eqn:E; lia.
Qed.

Lemma first_digit_dig v r : digit v -> first_is_digit (dig v :: r) = true.
Proof. intros H. exact (proj1 (dig_facts v H)). Qed.

Lemma digits_plain ds : Forall digit ds ->
  nz (map dig ds) = true /\ nodelim (map dig ds) = true /\
  split_at 45 (map dig ds) = None /\ split_at 58 (map dig ds) = None.
Proof.
  induction 1 as [|v ds Hv _ (I1 & I2 & I3 & I4)]; [repeat split; reflexivity|].
  destruct (dig_facts v Hv) as (_ & _ & _ & A4 & A5 & A6 & A7 & _).
  unfold nz, nodelim in *. cbn [map forallb split_at]. rewrite A4, A5, A6, A7, I1, I2, I3, I4.
  repeat split; reflexivity.
Qed.

Lemma digits_clean v ds : Forall digit (v :: ds) -> clean (map dig (v :: ds)) = true.
Proof. intros H. destruct (digits_plain _ H) as (N & D & _). apply clean_intro; [discriminate|exact N|exact D]. Qed.

Lemma to_int_small v : 0 <= v < 2147483648 -> to_int v = v.
Proof. intros H. unfold to_int. rewrite Z.mod_small by lia. destruct (v <? 2147483648) eqn:E; lia. Qed.

Lemma atoi_digits_stop acc rest : first_is_digit rest = false -> atoi_digits acc rest = acc.
Proof.
  destruct rest as [|c r]; [reflexivity|]. unfold first_is_digit, byte_at. cbn [nthN N.eqb atoi_digits].
  intros H. rewrite H. reflexivity.
Qed.

Lemma atoi_digits_horner ds : forall acc rest, Forall digit ds -> first_is_digit rest = false ->
  atoi_digits acc (map dig ds ++ rest) = fold_left (fun a v => a * 10 + v) ds acc.
Proof.
  induction ds as [|v ds IH]; intros acc rest Hd Hr; cbn [map app fold_left].
  - apply atoi_digits_stop, Hr.
  - inversion_clear Hd as [|? ? Hv Hds]. destruct (dig_facts v Hv) as (D & V & _).
    cbn [atoi_digits]. rewrite D, V. apply IH; assumption.
Qed.

(* atoi reads a numeral back as its Horner value, as long as that fits an int *)
Lemma atoi_numeral v ds rest n : Forall digit (v :: ds) -> first_is_digit rest = false ->
  fold_left (fun a v => a * 10 + v) ds v = n -> 0 <= n < 2147483648 -> atoi (map dig (v :: ds) ++ rest) = n.
Proof.
  intros Hd Hr Hn Hb. destruct (dig_facts v (Forall_inv Hd)) as (_ & _ & _ & _ & _ & _ & A7 & A8 & A9).
  unfold atoi, strtol10. cbn [map app skip_space]. rewrite A9, A7, A8.
  change (dig v :: map dig ds ++ rest) with (map dig (v :: ds) ++ rest).
  rewrite (atoi_digits_horner (v :: ds) 0 rest Hd Hr). cbn [fold_left]. change (0 * 10 + v) with v. rewrite Hn.
  unfold LONG_MAX. rewrite Z.min_l by lia. apply to_int_small, Hb.
Qed.

Lemma dec2_digits n : 0 <= n < 100 -> Forall digit [n / 10; n mod 10].
Proof. intros H. repeat apply Forall_cons; try apply Forall_nil; unfold digit; lia_div. Qed.

Lemma dec4_digits y : 0 <= y < 10000 -> Forall digit [y / 1000; y / 100 mod 10; y / 10 mod 10; y mod 10].
Proof. intros H. repeat apply Forall_cons; try apply Forall_nil; unfold digit; lia_div. Qed.

Lemma atoi_dec2 n rest : 0 <= n < 100 -> first_is_digit rest = false -> atoi (dec2 n ++ rest) = n.
Proof.
  intros H Hr. apply (atoi_numeral (n / 10) [n mod 10] rest n (dec2_digits n H) Hr); cbn [fold_left]; lia_div.
Qed.

Lemma dec2_clean n : 0 <= n < 100 -> clean (dec2 n) = true.
Proof. intros H. exact (digits_clean _ _ (dec2_digits n H)). Qed.

Lemma first_digit_dec2 n rest : 0 <= n < 100 -> first_is_digit (dec2 n ++ rest) = true.
Proof. intros H. exact (first_digit_dig _ _ (Forall_inv (dec2_digits n H))). Qed.

Lemma split_none_dec2 n ch : 0 <= n < 100 -> ch = 45%N \/ ch = 58%N -> split_at ch (dec2 n) = None.
Proof. intros H [->| ->]; apply (digits_plain _ (dec2_digits n H)). Qed.

Lemma make_num_dec2 n rest : 0 <= n < 100 -> make_num (dec2 n ++ rest) = n.
Proof.
  intros Hn. pose proof (dec2_digits n Hn) as D.
  destruct (dig_facts _ (Forall_inv D)) as (A1 & _ & A3 & _).
  destruct (dig_facts _ (Forall_inv (Forall_inv_tail D))) as (_ & _ & B3 & _).
  unfold dec2, make_num, byte_at. cbn [app nthN N.eqb N.pred Pos.pred_N]. rewrite A1, A3, B3. lia_div.
Qed.

Lemma tod_facts hh mm ss : 0 <= hh < 100 -> 0 <= mm < 100 -> 0 <= ss < 100 ->
  let tt := time_of_day hh mm ss in
  make_num tt = hh /\
  split_at 58 tt = Some (dec2 hh, dec2 mm ++ 58%N :: dec2 ss) /\ atoi (dec2 mm ++ 58%N :: dec2 ss) = mm /\
  split_at 58 (dec2 mm ++ 58%N :: dec2 ss) = Some (dec2 mm, dec2 ss) /\ atoi (dec2 ss) = ss.
Proof.
  intros Hh Hm Hs. unfold time_of_day. cbn [app]. cbv zeta.
  repeat split.
  - apply make_num_dec2, Hh.
  - apply split_at_app, split_none_dec2; [exact Hh|right; reflexivity].
  - apply atoi_dec2; [exact Hm|reflexivity].
  - apply split_at_app, split_none_dec2; [exact Hm|right; reflexivity].
  - apply (atoi_dec2 ss []); [exact Hs|reflexivity].
Qed.

(* the time of day is one token, and the one the loop takes for the time *)
Lemma tod_token hh mm ss : 0 <= hh < 100 -> 0 <= mm < 100 -> 0 <= ss < 100 ->
  clean (time_of_day hh mm ss) = true /\ is_some (split_at 58 (time_of_day hh mm ss)) = true /\
  first_is_digit (time_of_day hh mm ss) = true /\ lenN (time_of_day hh mm ss) = 8%N.
Proof.
  intros Hh Hm Hs. destruct (tod_facts hh mm ss Hh Hm Hs) as (_ & T & _). split; [|split; [|split]].
  - unfold time_of_day. repeat apply clean_app; try reflexivity; apply dec2_clean; assumption.
  - rewrite T. reflexivity.
  - apply first_digit_dec2, Hh.
  - reflexivity.
Qed.

(* the day and month names are the tables of DateTabs_gen: seven and twelve cases *)
Lemma wd_facts wd : 0 <= wd < 7 ->
  clean (day_name wd) = true /\ first_is_digit (day_name wd) = false /\ lenN (day_name wd) = 3%N /\
  clean (day_name_l wd) = true /\ first_is_digit (day_name_l wd) = false /\ (lenN (day_name_l wd) <= 9)%N.
Proof.
  intros H. assert (C : wd = 0 \/ wd = 1 \/ wd = 2 \/ wd = 3 \/ wd = 4 \/ wd = 5 \/ wd = 6) by lia.
  repeat (destruct C as [C|C]); subst wd; repeat split; first [reflexivity|discriminate].
Qed.

Lemma mon_facts mon : 0 <= mon < 12 ->
  clean (mon_name mon) = true /\ first_is_digit (mon_name mon) = false /\ lenN (mon_name mon) = 3%N /\
  make_month (mon_name mon) = mon /\ split_at 45 (mon_name mon) = None.
Proof.
  intros H. assert (C : mon = 0 \/ mon = 1 \/ mon = 2 \/ mon = 3 \/ mon = 4 \/ mon = 5 \/ mon = 6 \/ mon = 7 \/
                       mon = 8 \/ mon = 9 \/ mon = 10 \/ mon = 11) by lia.
  repeat (destruct C as [C|C]); subst mon; repeat split; reflexivity.
Qed.

(* what strftime's %Y prints for a four-digit year is the 4DIGIT numeral *)
Lemma dec_aux_more f v acc : 10 <= v -> dec_aux (S f) v acc = dec_aux f (v / 10) (dig (v mod 10) :: acc).
Proof. intros H. cbn [dec_aux]. destruct (Z.ltb_spec v 10); [lia|reflexivity]. Qed.

Lemma dec_aux_last f v acc : v < 10 -> dec_aux (S f) v acc = dig (v mod 10) :: acc.
Proof. intros H. cbn [dec_aux]. destruct (Z.ltb_spec v 10); [reflexivity|lia]. Qed.

Lemma dec_z_dec4 y : 1000 <= y < 10000 -> dec_z y = dec4 y.
Proof.
  intros H. unfold dec_z, dec4. destruct (Z.ltb_spec y 0); [lia|].
  rewrite 3 dec_aux_more, dec_aux_last by lia_div.
  replace (y / 10 / 10 / 10 mod 10) with (y / 1000) by lia_div. replace (y / 10 / 10) with (y / 100) by lia_div.
  reflexivity.
Qed.

Lemma dec4_facts y : 0 <= y < 10000 ->
  clean (dec4 y) = true /\ first_is_digit (dec4 y) = true /\ is_some (split_at 58 (dec4 y)) = false /\
  atoi (dec4 y) = y.
Proof.
  intros H. pose proof (dec4_digits y H) as D. destruct (digits_plain _ D) as (_ & _ & _ & S).
  repeat split.
  - exact (digits_clean _ _ D).
  - exact (first_digit_dig _ _ (Forall_inv D)).
  - exact (f_equal is_some S).
  - apply (atoi_numeral _ _ [] y D eq_refl); cbn [fold_left]; lia_div.
Qed.

Lemma year_rule_dec4 y : 0 <= y < 10000 -> year_rule (dec4 y) = y - 1900.
Proof.
  intros H. destruct (dec4_facts y H) as (_ & _ & _ & Ha). unfold year_rule. rewrite Ha. reflexivity.
Qed.

Lemma year_rule_dec2 yy : 0 <= yy < 100 -> year_rule (dec2 yy) = yy_year yy - 1900.
Proof.
  intros H. unfold year_rule, yy_year. rewrite (atoi_dec2 yy [] H eq_refl : atoi (dec2 yy) = yy).
  change (lenN (dec2 yy) =? 4)%N with false. cbv iota.
  destruct (yy <? 70) eqn:E1; [lia|]. destruct (yy >? 19000) eqn:E2; lia.
Qed.

Lemma c_leap_eq y : c_leap y = is_leap y.
Proof. unfold c_leap, is_leap. lia_div. Qed.

Lemma sane_eq y mon d hh mm ss w : 0 <= mon < 12 ->
  tm_sane (mkTm (y - 1900) mon d hh mm ss w) =
  valid_date y (mon + 1) d && in_range 0 23 hh && in_range 0 59 mm && in_range 0 59 ss.
Proof.
  intros Hm. unfold tm_sane. cbn [tm_year tm_mon tm_mday tm_hour tm_min tm_sec].
  replace (1900 + (y - 1900)) with y by lia. rewrite c_leap_eq.
  assert (Hc : mon = 0 \/ mon = 1 \/ mon = 2 \/ mon = 3 \/ mon = 4 \/ mon = 5 \/ mon = 6 \/ mon = 7 \/
               mon = 8 \/ mon = 9 \/ mon = 10 \/ mon = 11) by lia.
  unfold valid_date, month_len, in_range.
  repeat (destruct Hc as [Hc|Hc]); subst mon; vm_compute nth_z;
    cbn [Z.add Z.eqb Pos.add Pos.succ Pos.eqb orb]; destruct (is_leap y); lia.
Qed.

Lemma finish dd mn yy zone y mon d hh mm ss :
  match zone with Some z => z = GMT | None => True end ->
  atoi dd = d -> make_month mn = mon -> 0 <= mon < 12 -> year_rule yy = y - 1900 ->
  0 <= hh < 100 -> 0 <= mm < 100 -> 0 <= ss < 100 ->
  match parse_date_elements (Some dd) (Some mn) (Some yy) (Some (time_of_day hh mm ss)) zone with
  | None => -1 | Some g => timegm g end = form_answer y (mon + 1) d hh mm ss.
Proof.
  intros Hz Hd Hm Hmr Hy Hh Hmm Hs.
  destruct (tod_facts hh mm ss Hh Hmm Hs) as (T2 & T3 & T4 & T5 & T6).
  assert (Ez : match zone with Some z => negb (list_eqb z GMT) | None => false end = false).
  { destruct zone as [z|]; [|reflexivity]. subst z. rewrite list_eqb_refl. reflexivity. }
  unfold parse_date_elements. rewrite Ez, Hd, Hm, Hy, T2, T3, T4, T5, T6.
  destruct (Z.ltb_spec mon 0) as [L|_]; [lia|].
  rewrite (sane_eq y mon d hh mm ss 0 Hmr).
  unfold form_answer, denoted_time.
  destruct (valid_date y (mon + 1) d && in_range 0 23 hh && in_range 0 59 mm && in_range 0 59 ss); [|reflexivity].
  unfold timegm. cbn [tm_year tm_mon tm_mday tm_hour tm_min tm_sec].
  replace (y - 1900 + 1900) with y by ring. reflexivity.
Qed.

Theorem imf_answer wd d mon y hh mm ss :
  0 <= wd < 7 -> 0 <= d < 100 -> 0 <= mon < 12 -> 0 <= y < 10000 ->
  0 <= hh < 100 -> 0 <= mm < 100 -> 0 <= ss < 100 ->
  ParseRfc1123 (imf_fixdate wd d mon y hh mm ss) = form_answer y (mon + 1) d hh mm ss.
Proof.
  intros Hwd Hd Hmon Hy Hh Hm Hs.
  destruct (wd_facts wd Hwd) as (W1 & W2 & W3 & _).
  destruct (mon_facts mon Hmon) as (M1 & M2 & M3 & M4 & _).
  destruct (dec4_facts y Hy) as (Y1 & Y2 & Y3 & _).
  pose proof (dec2_clean d Hd) as D1. destruct (tod_token hh mm ss Hh Hm Hs) as (T1 & T2 & T3 & T4).
  unfold imf_fixdate.
  rewrite (parse_of_tokens _ [day_name wd; dec2 d; mon_name mon; dec4 y; time_of_day hh mm ss; GMT]
             (mkPd true (Some (dec2 d)) (Some (mon_name mon)) (Some (dec4 y)) (Some (time_of_day hh mm ss)) (Some GMT))).
  - cbn [p_day p_month p_year p_time p_zone].
    apply finish; try assumption; try reflexivity. apply (atoi_dec2 d []); [exact Hd|reflexivity]. apply year_rule_dec4, Hy.
  - cbn [app]. apply tokens_cons; [exact W1|reflexivity|]. apply tokens_skip; [reflexivity|].
    apply tokens_cons; [exact D1|reflexivity|]. apply tokens_cons; [exact M1|reflexivity|].
    apply tokens_cons; [exact Y1|reflexivity|]. apply tokens_cons; [exact T1|reflexivity|].
    apply tokens_last. reflexivity.
  - rewrite !lenN_app, W3, M3, T4. cbn [lenN dec2 dec4 GMT]. clear. lia.
  - apply loop_imf; try assumption; try reflexivity.
    + apply (first_digit_dec2 d []), Hd.
    + apply split_none_dec2; [exact Hd|left; reflexivity].
Qed.

Theorem rfc850_answer wd d mon yy hh mm ss :
  0 <= wd < 7 -> 0 <= d < 100 -> 0 <= mon < 12 -> 0 <= yy < 100 ->
  0 <= hh < 100 -> 0 <= mm < 100 -> 0 <= ss < 100 ->
  ParseRfc1123 (rfc850_date wd d mon yy hh mm ss) = form_answer (yy_year yy) (mon + 1) d hh mm ss.
Proof.
  intros Hwd Hd Hmon Hy Hh Hm Hs.
  destruct (wd_facts wd Hwd) as (_ & _ & _ & W1 & W2 & W3).
  destruct (mon_facts mon Hmon) as (M1 & M2 & M3 & M4 & M6).
  pose proof (dec2_clean d Hd) as D1. pose proof (dec2_clean yy Hy) as Y1.
  destruct (tod_token hh mm ss Hh Hm Hs) as (T1 & T2 & T3 & T4).
  set (dmy := dec2 d ++ [45%N] ++ mon_name mon ++ [45%N] ++ dec2 yy).
  assert (Cdmy : clean dmy = true) by (unfold dmy; repeat apply clean_app; try assumption; reflexivity).
  assert (Es : rfc850_date wd d mon yy hh mm ss =
               day_name_l wd ++ [44; 32]%N ++ dmy ++ [32%N] ++ time_of_day hh mm ss ++ [32%N] ++ GMT).
  { unfold rfc850_date, dmy. rewrite <- !app_assoc. reflexivity. }
  rewrite Es.
  rewrite (parse_of_tokens _ [day_name_l wd; dmy; time_of_day hh mm ss; GMT]
             (mkPd true (Some (dec2 d)) (Some (mon_name mon)) (Some (dec2 yy)) (Some (time_of_day hh mm ss)) (Some GMT))).
  - cbn [p_day p_month p_year p_time p_zone].
    apply finish; try assumption; try reflexivity. apply (atoi_dec2 d []); [exact Hd|reflexivity].
    rewrite year_rule_dec2 by exact Hy. reflexivity.
  - cbn [app]. apply tokens_cons; [exact W1|reflexivity|]. apply tokens_skip; [reflexivity|].
    apply tokens_cons; [exact Cdmy|reflexivity|]. apply tokens_cons; [exact T1|reflexivity|].
    apply tokens_last. reflexivity.
  - rewrite !lenN_app. unfold dmy. rewrite !lenN_app, M3, T4. cbn [lenN dec2 GMT]. clear - W3. lia.
  - apply (loop_850 _ dmy (dec2 d) (mon_name mon ++ [45%N] ++ dec2 yy)); try assumption; try reflexivity.
    + unfold dmy. apply first_digit_dec2, Hd.
    + unfold dmy. cbn [app]. apply split_at_app. apply split_none_dec2; [exact Hd|left; reflexivity].
    + cbn [app]. apply split_at_app. exact M6.
Qed.

Theorem asctime_answer wd mon d two hh mm ss y :
  0 <= wd < 7 -> 0 <= mon < 12 -> (if two : bool then 0 <= d < 100 else 0 <= d < 10) -> 0 <= y < 10000 ->
  0 <= hh < 100 -> 0 <= mm < 100 -> 0 <= ss < 100 ->
  ParseRfc1123 (asctime_date wd mon d two hh mm ss y) = form_answer y (mon + 1) d hh mm ss.
Proof.
  intros Hwd Hmon Hd Hy Hh Hm Hs.
  destruct (wd_facts wd Hwd) as (W1 & W2 & W3 & _).
  destruct (mon_facts mon Hmon) as (M1 & M2 & M3 & M4 & _).
  destruct (dec4_facts y Hy) as (Y1 & Y2 & Y3 & _).
  destruct (tod_token hh mm ss Hh Hm Hs) as (T1 & T2 & T3 & T4).
  (* the day of the month is a numeral of two digits, or of one digit after a second space *)
  assert (D : exists tok, (asctime_day d two = tok \/ asctime_day d two = 32%N :: tok) /\ (lenN tok <= 2)%N /\
              clean tok = true /\ first_is_digit tok = true /\ split_at 45 tok = None /\ atoi tok = d).
  { destruct two; unfold asctime_day.
    - exists (dec2 d). split; [left; reflexivity|]. split; [discriminate|].
      split; [apply dec2_clean, Hd|]. split; [apply (first_digit_dec2 d []), Hd|].
      split; [apply split_none_dec2; [exact Hd|left; reflexivity]|]. apply (atoi_dec2 d []); [exact Hd|reflexivity].
    - pose proof (Forall_cons d Hd (Forall_nil digit)) as Dd.
      exists [dig d]. split; [right; reflexivity|]. split; [discriminate|].
      split; [exact (digits_clean d [] Dd)|]. split; [exact (first_digit_dig d [] Hd)|].
      split; [apply (digits_plain [d] Dd)|]. apply (atoi_numeral d [] [] d Dd eq_refl eq_refl). clear - Hd. lia. }
  destruct D as (tok & Etok & Ltok & D1 & D2 & D3 & D4).
  unfold asctime_date.
  rewrite (parse_of_tokens _ [day_name wd; mon_name mon; tok; time_of_day hh mm ss; dec4 y]
             (mkPd true (Some tok) (Some (mon_name mon)) (Some (dec4 y)) (Some (time_of_day hh mm ss)) None)).
  - cbn [p_day p_month p_year p_time p_zone].
    apply finish; try assumption; try exact I. apply year_rule_dec4, Hy.
  - cbn [app]. apply tokens_cons; [exact W1|reflexivity|]. apply tokens_cons; [exact M1|reflexivity|].
    assert (T : tokens (tok ++ 32%N :: time_of_day hh mm ss ++ 32%N :: dec4 y) [tok; time_of_day hh mm ss; dec4 y]).
    { apply tokens_cons; [exact D1|reflexivity|]. apply tokens_cons; [exact T1|reflexivity|]. apply tokens_last, Y1. }
    destruct Etok as [-> | ->]; [exact T|apply tokens_skip; [reflexivity|exact T]].
  - rewrite !lenN_app, W3, M3, T4. destruct Etok as [-> | ->]; cbn [lenN dec4]; clear - Ltok; lia.
  - apply loop_asc; try assumption; reflexivity.
Qed.

Lemma format_is_imf t g : g = gmtime t -> 1000 <= tm_year g + 1900 < 10000 ->
  FormatRfc1123 t = imf_fixdate (tm_wday g) (tm_mday g) (tm_mon g) (tm_year g + 1900) (tm_hour g) (tm_min g) (tm_sec g).
Proof.
  intros Hg Hy. unfold FormatRfc1123. rewrite <- Hg. clear Hg.
  unfold rfc1123_strftime. cbn [strftime conv N.eqb Pos.eqb app]. rewrite (dec_z_dec4 _ Hy).
  unfold imf_fixdate, day_name, mon_name, time_of_day, GMT.
  repeat (rewrite <- app_assoc; cbn [app]). reflexivity.
Qed.

Lemma gmtime_fields t y m d : civil_from_days (t / 86400) = (y, m, d) ->
  gmtime t = mkTm (y - 1900) (m - 1) d (t mod 86400 / 3600) ((t mod 86400) mod 3600 / 60) ((t mod 86400) mod 60)
                  ((4 + t / 86400) mod 7).
Proof. intros E. unfold gmtime. rewrite E. reflexivity. Qed.

Lemma clock_fields s : 0 <= s < 86400 ->
  0 <= s / 3600 < 24 /\ 0 <= s mod 3600 / 60 < 60 /\ 0 <= s mod 60 < 60 /\
  s / 3600 * 3600 + s mod 3600 / 60 * 60 + s mod 60 = s.
Proof. intros H. lia_div. Qed.

Theorem format_denotes t : 0 <= t < 253402300800 ->
  exists wd d mon y hh mm ss,
    (0 <= wd < 7 /\ 0 <= d < 100 /\ 0 <= mon < 12 /\ 1970 <= y < 10000 /\ 0 <= hh < 100 /\ 0 <= mm < 100 /\ 0 <= ss < 100) /\
    FormatRfc1123 t = imf_fixdate wd d mon y hh mm ss /\
    wd = (4 + t / 86400) mod 7 /\
    denoted_time y (mon + 1) d hh mm ss = Some t.
Proof.
  intros Ht.
  assert (Hdays : 0 <= t / 86400 < 2932897 /\ 0 <= t mod 86400 < 86400 /\ t / 86400 * 86400 + t mod 86400 = t) by lia_div.
  destruct Hdays as (Hdays & Hrem & Et). destruct (clock_fields _ Hrem) as (Hh & Hm & Hs & Ec).
  pose proof (Z.mod_pos_bound (4 + t / 86400) 7 eq_refl) as Hw.
  destruct (civil_from_days (t / 86400)) as [[y m] d] eqn:E.
  pose proof (civil_from_days_year_range _ Hdays y m d E) as Hy.
  pose proof (civil_from_days_valid _ y m d E) as Hv.
  pose proof (civil_roundtrip _ y m d E) as Hr.
  pose proof (month_len_le31 y m) as H31.
  assert (Hv' := Hv). unfold valid_date, in_range in Hv'.
  exists ((4 + t / 86400) mod 7), d, (m - 1), y, (t mod 86400 / 3600), ((t mod 86400) mod 3600 / 60), ((t mod 86400) mod 60).
  split; [|split; [|split]].
  - clear - Hw Hh Hm Hs Hy Hv' H31. lia.
  - rewrite (format_is_imf t _ (eq_sym (gmtime_fields t y m d E))); cbn [tm_year tm_mon tm_mday tm_hour tm_min tm_sec tm_wday].
    + replace (y - 1900 + 1900) with y by ring. reflexivity.
    + clear - Hy. lia.
  - reflexivity.
  - unfold denoted_time. replace (m - 1 + 1) with m by ring. rewrite Hv, Hr. cbn [andb].
    replace (in_range 0 23 _ && in_range 0 59 _ && in_range 0 59 _) with true by (clear - Hh Hm Hs; unfold in_range; lia).
    f_equal. clear - Et Ec. lia.
Qed.

Lemma denoted_accepted y m d hh mm ss t :
  denoted_time y m d hh mm ss = Some t -> form_answer y m d hh mm ss = t.
Proof. intros H. unfold form_answer. rewrite H. reflexivity. Qed.

Lemma answer_denotes y m d hh mm ss t :
  form_answer y m d hh mm ss = t -> t <> -1 ->
  valid_date y m d = true /\ denoted_time y m d hh mm ss = Some t.
Proof.
  unfold form_answer. intros H Hne.
  destruct (denoted_time y m d hh mm ss) as [t'|] eqn:E; [|congruence].
  subst t'. split; [|reflexivity]. unfold denoted_time in E. destruct (valid_date y m d); [reflexivity|discriminate].
Qed.

Lemma answer_rejects y m d hh mm ss : valid_date y m d = false -> form_answer y m d hh mm ss = -1.
Proof. intros H. unfold form_answer, denoted_time. rewrite H. reflexivity. Qed.

Theorem format_parse_roundtrip t : 0 <= t < 253402300800 -> ParseRfc1123 (FormatRfc1123 t) = t.
Proof.
  intros Ht. destruct (format_denotes t Ht) as (wd & d & mon & y & hh & mm & ss & (R1 & R2 & R3 & R4 & R5 & R6 & R7) & Hf & _ & Hd).
  rewrite Hf, imf_answer by lia. apply denoted_accepted, Hd.
Qed.
