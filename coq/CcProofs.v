Require Import SquidV.Bytes SquidV.HopModel SquidV.HopProofs SquidV.TokModel SquidV.Int64Proofs.
Require Import SquidV.gen.CcNames_gen SquidV.CcModel.
Require Import ZifyBool ZifyN ZifyNat.
Local Open Scope N_scope.

(* The parse loop is a fold over the (item, tail) pairs of the strListGetItem iteration, never runs out of
   fuel, and the items are HopModel.list_items. *)

Lemma rtrim_nil : rtrim [] = [].
Proof. reflexivity. Qed.

Fixpoint cc_pairs (fuel : nat) (l : bytes) : list (bytes * bytes) :=
  match fuel with
  | O => []
  | S f =>
      let l1 := drop_while (is_delim2 44) l in
      let '(raw, rest) := scan_item 44 false l1 [] in
      match rtrim raw with
      | [] => []
      | it => (it, l1) :: cc_pairs f rest
      end
  end.

Definition step_pair (st : cc) (p : bytes * bytes) : cc := cc_step st (fst p) (snd p).

Lemma cc_loop_fold : forall fuel l st, (length l < fuel)%nat ->
  cc_loop fuel l st = Some (fold_left step_pair (cc_pairs fuel l) st).
Proof.
  induction fuel as [|f IH]; intros l st Hlen; [lia|].
  cbn [cc_loop cc_pairs].
  pose proof (drop_while_length (is_delim2 44) l) as Hd.
  destruct (scan_item 44 false (drop_while (is_delim2 44) l) []) as [raw rest] eqn:Es.
  destruct (rtrim raw) as [|i0 it] eqn:Er; [reflexivity|].
  pose proof (scan_item_shorter _ _ _ _ Es ltac:(rewrite Er; discriminate)) as Hlt.
  cbn [fold_left]. unfold step_pair at 2. cbn [fst snd]. apply IH. lia.
Qed.

Lemma cc_pairs_items : forall fuel l, map fst (cc_pairs fuel l) = items_fuel fuel 44 l.
Proof.
  induction fuel as [|f IH]; intros l; [reflexivity|].
  cbn [cc_pairs items_fuel].
  destruct (scan_item 44 false (drop_while (is_delim2 44) l) []) as [raw rest].
  destruct (rtrim raw) as [|i0 it]; [reflexivity|]. cbn [map fst]. now rewrite IH.
Qed.

Lemma cc_items_items : forall fuel l, cc_items fuel l = items_fuel fuel 44 l.
Proof.
  induction fuel as [|f IH]; intros l; [reflexivity|].
  cbn [cc_items items_fuel].
  destruct (scan_item 44 false (drop_while (is_delim2 44) l) []) as [raw rest].
  destruct (rtrim raw) as [|i0 it]; [reflexivity|]. now rewrite IH.
Qed.

Definition pairs_of (v : bytes) : list (bytes * bytes) := cc_pairs (S (length (c_str v))) (c_str v).

Lemma cc_parse_from_fold st v : cc_parse_from st v = Some (fold_left step_pair (pairs_of v) st).
Proof. unfold cc_parse_from, pairs_of. apply cc_loop_fold. lia. Qed.

Lemma pairs_of_items v : map fst (pairs_of v) = list_items 44 v.
Proof.
  unfold pairs_of, list_items. rewrite cc_pairs_items.
  pose proof (c_str_length v). apply items_fuel_enough; lia.
Qed.

(* Shape of the (item, tail) pairs, and locality of the reads past the item *)

Definition no_nul (l : bytes) : Prop := forallb (fun c => negb (c =? 0)) l = true.
Definition ends_nonspace (it : bytes) : Prop := exists b c, it = b ++ [c] /\ is_xspace c = false.
Definition comma_or_end (rest : bytes) : Prop := rest = [] \/ exists r, rest = 44 :: r.

(* tail = it ++ (white space) ++ (end of value | ',' ...) *)
Definition wf_pair (p : bytes * bytes) : Prop :=
  let '(it, tail) := p in
  ends_nonspace it /\ is_delim2 44 (hdz it) = false /\
  exists ws rest, tail = it ++ ws ++ rest /\ forallb is_xspace ws = true /\ comma_or_end rest /\ no_nul tail.

Lemma drop_while_split p l :
  exists a, l = a ++ drop_while p l /\ forallb p a = true /\
            match drop_while p l with [] => True | c :: _ => p c = false end.
Proof.
  induction l as [|c r IH]; cbn [drop_while].
  - exists []. repeat split.
  - destruct (p c) eqn:E.
    + destruct IH as (a & H1 & H2 & H3). exists (c :: a). cbn [app forallb]. rewrite E, H2. split; [now f_equal|]. split; [reflexivity|exact H3].
    + exists []. cbn. rewrite E. repeat split.
Qed.


Lemma rtrim_split l :
  exists ws, l = rtrim l ++ ws /\ forallb is_xspace ws = true /\ (rtrim l = [] \/ ends_nonspace (rtrim l)).
Proof.
  unfold rtrim. destruct (drop_while_split is_xspace (rev l)) as (a & H1 & H2 & H3).
  exists (rev a). split.
  - rewrite <- rev_app_distr, <- H1. now rewrite rev_involutive.
  - split; [now rewrite forallb_rev|].
    destruct (drop_while is_xspace (rev l)) as [|c r]; [now left|]. right.
    exists (rev r), c. cbn [rev]. split; [reflexivity|exact H3].
Qed.

Lemma scan_item_rest : forall l q acc it rest,
  scan_item 44 q l acc = (it, rest) -> comma_or_end rest.
Proof.
  fix IH 1. intros l q acc it rest H. destruct l as [|c r].
  - cbn in H. injection H as <- <-. now left.
  - cbn [scan_item] in H. destruct q.
    + destruct (c =? 34); [exact (IH _ _ _ _ _ H)|].
      destruct (c =? 92).
      * destruct r as [|d r']; [injection H as <- <-; now left| exact (IH _ _ _ _ _ H)].
      * exact (IH _ _ _ _ _ H).
    + destruct (c =? 34); [exact (IH _ _ _ _ _ H)|].
      destruct ((c =? 44) || (c =? 44)) eqn:Ed.
      * injection H as <- <-. right. exists r. f_equal. clear IH. lia.
      * exact (IH _ _ _ _ _ H).
Qed.

Lemma no_nul_app a b : no_nul (a ++ b) <-> no_nul a /\ no_nul b.
Proof. unfold no_nul. rewrite forallb_app, andb_true_iff. tauto. Qed.

Lemma drop_while_head p l : match drop_while p l with [] => True | c :: _ => p c = false end.
Proof. exact (drop_while_stops p l). Qed.

Lemma cc_pairs_wf : forall fuel l, no_nul l -> Forall wf_pair (cc_pairs fuel l).
Proof.
  induction fuel as [|f IH]; intros l Hn; [constructor|].
  cbn [cc_pairs].
  destruct (drop_while_split (is_delim2 44) l) as (pre & Hl & _ & Hhd).
  set (l1 := drop_while (is_delim2 44) l) in *.
  assert (Hn1 : no_nul l1) by (rewrite Hl in Hn; apply no_nul_app in Hn; tauto).
  destruct (scan_item 44 false l1 []) as [raw rest] eqn:Es.
  destruct (scan_item_split _ _ _ _ _ _ Es) as (used & Hl1 & Hraw). cbn [rev app] in Hraw. subst used.
  pose proof (scan_item_rest _ _ _ _ _ Es) as Hrest.
  destruct (rtrim_split raw) as (ws & Hr & Hws & Hends).
  destruct (rtrim raw) as [|i0 it] eqn:Er; [constructor|].
  constructor.
  - unfold wf_pair. destruct Hends as [Hc|Hends]; [discriminate|].
    split; [exact Hends|]. split.
    { rewrite Hl1, Hr in Hhd. cbn [app hdz] in *. exact Hhd. }
    exists ws, rest. split; [|split; [exact Hws|split; [exact Hrest|exact Hn1]]].
    rewrite Hl1, Hr at 1. now rewrite <- app_assoc.
  - apply IH. rewrite Hl1 in Hn1. apply no_nul_app in Hn1. tauto.
Qed.

Lemma c_str_no_nul v : no_nul (c_str v).
Proof. unfold c_str, no_nul. apply span_all. Qed.

Lemma pairs_of_wf v : Forall wf_pair (pairs_of v).
Proof. apply cc_pairs_wf, c_str_no_nul. Qed.

(* strtol never reads a digit past the item *)
Lemma c_string_no_nul l : no_nul l -> c_string l = l.
Proof.
  unfold no_nul. induction l as [|c r IH]; intros H; [reflexivity|].
  cbn [forallb] in H. apply andb_prop in H. destruct H as [Hc Hr].
  cbn [c_string]. destruct (c =? 0); [discriminate|]. now rewrite IH.
Qed.


Definition nondigit_head (y : bytes) : Prop := match y with [] => True | d :: _ => is_digit d = false end.

Lemma digit_run_app x y : nondigit_head y -> digit_run 10 (x ++ y) = digit_run 10 x.
Proof.
  intros Hy. induction x as [|c r IH]; cbn [app digit_run].
  - destruct y as [|d y']; [reflexivity|]. cbn [digit_run]. now rewrite digit_of_10, Hy.
  - destruct (digit_of 10 c); [now rewrite IH|reflexivity].
Qed.

Lemma xspace_nondigit c : is_xspace c = true -> is_digit c = false.
Proof. unfold is_xspace, is_digit. lia. Qed.

Lemma skip_space_app : forall x y n, (exists c, In c x /\ is_c_space c = false) ->
  skip_space (x ++ y) n = (fst (skip_space x n) ++ y, snd (skip_space x n)) /\ fst (skip_space x n) <> [].
Proof.
  induction x as [|c r IH]; intros y n (d & Hin & Hd); [destruct Hin|].
  cbn [app skip_space]. destruct (is_c_space c) eqn:E.
  - destruct Hin as [->|Hin]; [congruence|]. apply IH. now exists d.
  - cbn [fst snd app]. split; [reflexivity|discriminate].
Qed.

Lemma skip_space_all : forall ws rest n, forallb is_xspace ws = true -> comma_or_end rest ->
  fst (skip_space (ws ++ rest) n) = rest.
Proof.
  induction ws as [|c r IH]; intros rest n Hws Hrest; cbn [app].
  - destruct Hrest as [->|(r & ->)]; reflexivity.
  - cbn [forallb] in Hws. apply andb_prop in Hws. destruct Hws as [Hc Hr]. cbn [skip_space].
    change (is_c_space c) with (is_xspace c). rewrite Hc. now apply IH.
Qed.

Definition after_item (more : bytes) : Prop :=
  exists ws rest, more = ws ++ rest /\ forallb is_xspace ws = true /\ comma_or_end rest.

Lemma after_item_nondigit more : after_item more -> nondigit_head more.
Proof.
  intros (ws & rest & -> & Hws & Hrest). destruct ws as [|c r]; cbn [app].
  - destruct Hrest as [->|(r & ->)]; [exact I|reflexivity].
  - cbn [forallb] in Hws. apply andb_prop in Hws. apply xspace_nondigit. tauto.
Qed.

Definition sign_split (l1 : bytes) (n1 : N) : bool * bytes * N :=
  match l1 with
  | 45%N :: r => (true, r, N.succ n1)
  | 43%N :: r => (false, r, N.succ n1)
  | _ => (false, l1, n1)
  end.
Definition strtoll10_tail (neg : bool) (l2 : bytes) (n2 : N) : Z * N * bool :=
  let ds := digit_run 10 l2 in
  match ds with
  | [] => (0%Z, 0%N, false)
  | _ =>
    let v := digits_value 10 ds 0 in
    if neg then (if (v >? two63)%Z then ((- two63)%Z, (n2 + lenN ds)%N, true) else ((- v)%Z, (n2 + lenN ds)%N, false))
    else (if (v >? two63 - 1)%Z then ((two63 - 1)%Z, (n2 + lenN ds)%N, true) else (v, (n2 + lenN ds)%N, false))
  end.
Lemma strtoll10_unfold s :
  strtoll10 s = let '(l1, n1) := skip_space (c_string s) 0%N in
                let '(neg, l2, n2) := sign_split l1 n1 in strtoll10_tail neg l2 n2.
Proof. reflexivity. Qed.

Lemma sign_split_app l more n : l <> [] ->
  sign_split (l ++ more) n = let '(neg, l2, n2) := sign_split l n in (neg, l2 ++ more, n2).
Proof.
  intros Hl. destruct l as [|h t]; [contradiction|]. cbn [app]. unfold sign_split.
  destruct h as [|p]; [reflexivity|].
  destruct p as [p|p|]; try reflexivity;
  repeat (destruct p as [p|p|]; try reflexivity).
Qed.

Lemma strtoll10_tail_app neg l2 more n2 : nondigit_head more ->
  strtoll10_tail neg (l2 ++ more) n2 = strtoll10_tail neg l2 n2.
Proof. intros H. unfold strtoll10_tail. now rewrite (digit_run_app l2 more H). Qed.

Lemma strtoll10_local arg more :
  no_nul (arg ++ more) -> (arg = [] \/ ends_nonspace arg) -> after_item more ->
  strtoll10 (arg ++ more) = strtoll10 arg.
Proof.
  intros Hn Harg Hmore.
  pose proof (after_item_nondigit more Hmore) as Hnd.
  assert (Hna : no_nul arg) by (apply no_nul_app in Hn; tauto).
  rewrite !strtoll10_unfold. rewrite (c_string_no_nul _ Hn), (c_string_no_nul _ Hna).
  destruct Harg as [->|(b & c & -> & Hc)].
  - cbn [app skip_space]. destruct Hmore as (ws & rest & -> & Hws & Hrest).
    pose proof (skip_space_all ws rest 0 Hws Hrest) as Hs.
    destruct (skip_space (ws ++ rest) 0) as [l1 n1]. cbn [fst] in Hs. subst l1.
    destruct Hrest as [->|(r & ->)]; reflexivity.
  - destruct (skip_space_app (b ++ [c]) more 0) as [Hs Hne].
    { exists c. split; [apply in_or_app; right; now left| exact Hc]. }
    rewrite Hs. destruct (skip_space (b ++ [c]) 0) as [l1 n1]. cbn [fst snd] in *.
    rewrite (sign_split_app l1 more n1 Hne).
    destruct (sign_split l1 n1) as [[neg l2] n2].
    apply strtoll10_tail_app, Hnd.
Qed.

Lemma parse_int_local arg more :
  no_nul (arg ++ more) -> (arg = [] \/ ends_nonspace arg) -> after_item more ->
  parse_int (arg ++ more) = parse_int arg.
Proof.
  intros Hn Harg Hmore. unfold parse_int.
  rewrite (strtoll10_local arg more Hn Harg Hmore).
  assert (Hna : no_nul arg) by (apply no_nul_app in Hn; tauto).
  rewrite (c_string_no_nul _ Hn), (c_string_no_nul _ Hna).
  destruct arg as [|a0 ar]; [|reflexivity].
  cbn [app]. destruct (strtoll10 []) as [[v n] e] eqn:Es. cbn in Es. injection Es as <- <- <-.
  cbn. destruct more as [|m0 mr]; [reflexivity|].
  pose proof (after_item_nondigit _ Hmore) as Hnd. cbn in Hnd. now rewrite Hnd.
Qed.

(* httpHeaderParseQuotedString(p, len) on a window of a longer text *)
Lemma qd_run_app x after :
  qd_run (lenN x) (x ++ after) = (fst (qd_run (lenN x) x), snd (qd_run (lenN x) x) ++ after).
Proof.
  induction x as [|c r IH]; cbn [lenN app].
  - destruct after as [|a af]; reflexivity.
  - cbn [qd_run]. replace (0 <? N.succ (lenN r)) with true by lia. rewrite N.pred_succ. cbn [andb].
    destruct (qd_char c); [|reflexivity].
    rewrite IH. destruct (qd_run (lenN r) r) as [a b]. reflexivity.
Qed.

Lemma qd_run_split : forall l room, let '(run, e) := qd_run room l in l = run ++ e.
Proof.
  induction l as [|c r IH]; intros room; cbn [qd_run]; [reflexivity|].
  destruct ((0 <? room) && qd_char c); [|reflexivity].
  specialize (IH (N.pred room)). destruct (qd_run (N.pred room) r) as [a b]. cbn [app]. now f_equal.
Qed.

Lemma qd_run_chars : forall l room, forallb qd_char (fst (qd_run room l)) = true.
Proof.
  induction l as [|c r IH]; intros room; cbn [qd_run]; [reflexivity|].
  destruct ((0 <? room) && qd_char c) eqn:E; [|reflexivity].
  specialize (IH (N.pred room)). destruct (qd_run (N.pred room) r) as [a b]. cbn [fst forallb] in *.
  apply andb_prop in E. destruct E as [_ ->]. exact IH.
Qed.

Lemma qd_run_progress c r room : 0 < room -> qd_char c = true ->
  exists a b, qd_run room (c :: r) = (c :: a, b).
Proof.
  intros Hr Hc. cbn [qd_run]. replace (0 <? room) with true by lia. rewrite Hc. cbn [andb].
  destruct (qd_run (N.pred room) r) as [a b]. now exists a, b.
Qed.

Lemma ends_suffix x e : (x ++ e = [] \/ ends_nonspace (x ++ e)) -> (e = [] \/ ends_nonspace e).
Proof.
  intros [H|(b & c & H & Hc)].
  - apply app_eq_nil in H. tauto.
  - destruct e as [|e0 er]; [now left|]. right.
    destruct (@exists_last _ (e0 :: er)) as (b' & c' & He); [discriminate|].
    rewrite He in H. rewrite app_assoc in H. apply app_inj_tail in H. destruct H as [_ ->].
    now exists b', c.
Qed.

Lemma ends_not_single_space c : is_xspace c = true -> ~ ends_nonspace [c].
Proof.
  intros Hc (b & d & H & Hd). destruct b as [|b0 b']; cbn in H.
  - injection H as ->. congruence.
  - injection H as _ H. destruct b'; discriminate.
Qed.

Lemma bad_ctl_not_qd c : qd_char c = false -> (c =? 34) = false -> (c =? 92) = false ->
  (c =? 13) = false -> (c =? 10) = false -> bad_ctl c = true.
Proof. unfold qd_char, bad_ctl. lia. Qed.

Lemma pqs_iter_end after len val : (hdz after =? 34) = false ->
  pqs_iter after len len val = QDone QFail.
Proof. intros H. unfold pqs_iter. rewrite H, N.ltb_irrefl. reflexivity. Qed.

(* httpHeaderParseQuotedString = RFC quoted-string decoding, for ALL inputs *)

(* RFC 9110 5.6.4: quoted-string = DQUOTE *( qdtext / quoted-pair ) DQUOTE
     qdtext = HTAB / SP / %x21 / %x23-5B / %x5D-7E / obs-text ; quoted-pair = BACKSLASH ( HTAB / SP / VCHAR / obs-text )
   plus the two documented leniencies of the code: LWS folding inside the string ([CR] LF (SP / HTAB), RFC 2616 2.2)
   reads as one SP, and whatever follows the closing DQUOTE is ignored. Character-at-a-time reference decoder. *)
Definition rfc_qdtext (c : N) : bool :=
  (c =? 9) || (c =? 32) || (c =? 33) || ((35 <=? c) && (c <=? 91)) || ((93 <=? c) && (c <=? 126)) || (128 <=? c).
Definition rfc_pairable (c : N) : bool := (c =? 9) || ((32 <=? c) && negb (c =? 127)).
Definition is_ht_sp (c : N) : bool := (c =? 32) || (c =? 9).
Fixpoint rfc_body (l acc : bytes) : option bytes :=
  match l with
  | [] => None
  | c :: r =>
      if c =? 34 then Some acc
      else if c =? 92 then
        match r with d :: r' => if rfc_pairable d then rfc_body r' (acc ++ [d]) else None | [] => None end
      else if c =? 13 then
        match r with d :: e :: r' => if (d =? 10) && is_ht_sp e then rfc_body r' (acc ++ [32]) else None | _ => None end
      else if c =? 10 then
        match r with e :: r' => if is_ht_sp e then rfc_body r' (acc ++ [32]) else None | [] => None end
      else if rfc_qdtext c then rfc_body r (acc ++ [c]) else None
  end.
Definition rfc_unquote (arg : bytes) : option bytes :=
  match arg with c :: l => if c =? 34 then rfc_body l [] else None | [] => None end.
Definition qres_of (o : option bytes) : qres := match o with Some t => QOk t | None => QFail end.

Lemma qd_char_is_qdtext c : qd_char c = rfc_qdtext c.
Proof. unfold qd_char, rfc_qdtext. lia. Qed.
Lemma bad_escaped_is_unpairable c : bad_escaped c = negb (rfc_pairable c).
Proof. unfold bad_escaped, rfc_pairable. lia. Qed.

Lemma rfc_body_run : forall run e acc, forallb qd_char run = true ->
  rfc_body (run ++ e) acc = rfc_body e (acc ++ run).
Proof.
  induction run as [|c r IH]; intros e acc H; cbn [app]; [now rewrite app_nil_r|].
  cbn [forallb] in H. apply andb_prop in H. destruct H as [Hc Hr]. cbn [rfc_body].
  assert (Hq : rfc_qdtext c = true) by (now rewrite <- qd_char_is_qdtext).
  replace (c =? 34) with false by (unfold qd_char in Hc; lia).
  replace (c =? 92) with false by (unfold qd_char in Hc; lia).
  replace (c =? 13) with false by (unfold qd_char in Hc; lia).
  replace (c =? 10) with false by (unfold qd_char in Hc; lia).
  rewrite Hq, (IH e (acc ++ [c]) Hr), <- app_assoc. reflexivity.
Qed.

Lemma rfc_body_bad_ctl c r acc : bad_ctl c = true -> rfc_body (c :: r) acc = None.
Proof.
  unfold bad_ctl. intros H. cbn [rfc_body].
  replace (c =? 34) with false by lia. replace (c =? 92) with false by lia.
  replace (c =? 13) with false by lia. replace (c =? 10) with false by lia.
  replace (rfc_qdtext c) with false by (unfold rfc_qdtext; lia). reflexivity.
Qed.

(* what follows the window [pos, start+len) matters at three places only: after a final CR, CR LF or LF (the code
   reads one octet past the window there) -- excluded when the window does not end in white space *)
Definition tail_ok (after pos : bytes) : Prop := after = [] \/ pos = [] \/ ends_nonspace pos.

Lemma tail_ok_suffix after x e : tail_ok after (x ++ e) -> tail_ok after e.
Proof. intros [H|H]; [now left|right]. now apply (ends_suffix x e). Qed.

Lemma tail_ok_space after b c : tail_ok after (b ++ [c]) -> is_xspace c = true -> after = [].
Proof.
  intros [H|[H|H]] Hc; [exact H|now destruct b|].
  destruct (ends_suffix b [c] (or_intror H)) as [H'|H']; [discriminate|]. now apply ends_not_single_space in H'.
Qed.

Lemma pqs_loop_rfc : forall fuel pos after k len val,
  k + lenN pos = len -> (hdz after =? 34) = false -> tail_ok after pos -> (length pos + 1 < fuel)%nat ->
  pqs_loop fuel (pos ++ after) k len val = qres_of (rfc_body pos val).
Proof.
  induction fuel as [|f IH]; intros pos after k len val Hk Ha Hends Hf; [lia|].
  (* after a run of qdtext that leaves e of the window *)
  assert (Hcont : forall e k' acc, k' + lenN e = len -> tail_ok after e -> (length e + 1 < f)%nat ->
            match (if bad_ctl (hdz (e ++ after)) then QDone QFail else QNext (e ++ after) k' acc) with
            | QDone r => r
            | QNext p k2 v => pqs_loop f p k2 len v
            end = qres_of (rfc_body e acc)).
  { intros [|e0 er] k' acc Hk' He Hl.
    - (* the run ends with the window: the next iteration, if any, finds the window empty *)
      cbn [app lenN] in *. destruct (bad_ctl (hdz after)); [reflexivity|].
      replace k' with len by lia. destruct f as [|f']; [lia|]. cbn [pqs_loop]. now rewrite (pqs_iter_end after len _ Ha).
    - cbn [app hdz]. destruct (bad_ctl e0) eqn:Eb; [now rewrite (rfc_body_bad_ctl e0 er _ Eb)|].
      now apply (IH (e0 :: er) after). }
  cbn [pqs_loop]. destruct pos as [|c r].
  { cbn [lenN app] in *. assert (k = len) by lia. subst k. now rewrite (pqs_iter_end after len val Ha). }
  cbn [lenN length app] in *. unfold pqs_iter. cbn [hdz tlz]. replace (k <? len) with true by lia.
  cbn [rfc_body]. destruct (c =? 34) eqn:E34; cbn [negb andb]; [reflexivity|].
  destruct (c =? 13) eqn:E13.
  - (* CR LF (SP | HT) *)
    replace (c =? 92) with false by lia.
    replace (len <? k + 1) with false by lia. cbn [orb].
    destruct r as [|d r2].
    { rewrite (tail_ok_space after [] c Hends) by (unfold is_xspace; lia). reflexivity. }
    cbn [hdz tlz lenN length app] in *.
    destruct (d =? 10) eqn:Ed; cbn [negb andb]; [|now destruct r2].
    destruct r2 as [|e r3].
    { rewrite (tail_ok_space after [c] d Hends) by (unfold is_xspace; lia). cbn [app hdz tlz].
      replace (len <? k + 1 + 1) with false by lia. reflexivity. }
    cbn [hdz tlz lenN length app] in *.
    replace (len <? k + 1 + 1) with false by lia. cbn [orb]. unfold is_ht_sp.
    destruct (e =? 32) eqn:E32; destruct (e =? 9) eqn:E9; cbn [negb andb orb]; try reflexivity;
      (apply IH; [lia|exact Ha|exact (tail_ok_suffix after [c; d; e] r3 Hends)|lia]).
  - cbn [hdz tlz]. destruct (c =? 10) eqn:E10.
    + (* LF (SP | HT) *)
      replace (c =? 92) with false by lia.
      destruct r as [|e r3].
      { rewrite (tail_ok_space after [] c Hends) by (unfold is_xspace; lia). cbn [app hdz tlz].
        replace (len <? k + 1) with false by lia. reflexivity. }
      cbn [hdz tlz lenN length app] in *. replace (len <? k + 1) with false by lia. cbn [orb]. unfold is_ht_sp.
      destruct (e =? 32) eqn:E32; destruct (e =? 9) eqn:E9; cbn [negb andb orb]; try reflexivity;
        (apply IH; [lia|exact Ha|exact (tail_ok_suffix after [c; e] r3 Hends)|lia]).
    + destruct (c =? 92) eqn:E92; cbn [andb].
      * (* quoted-pair *)
        destruct r as [|d r'].
        { (* the backslash is the last octet of the window: (pos-start) >= len *)
          cbn [lenN app] in *. replace (len <=? k + 1) with true by lia. now rewrite orb_true_r. }
        cbn [hdz tlz lenN length app] in *.
        replace (len <=? k + 1) with false by lia. rewrite orb_false_r, bad_escaped_is_unpairable.
        destruct (rfc_pairable d) eqn:Ep; cbn [negb]; [|reflexivity].
        replace (len - (k + 1 + 1)) with (lenN r') by lia. rewrite (qd_run_app r' after).
        pose proof (qd_run_split r' (lenN r')) as Hr'. pose proof (qd_run_chars r' (lenN r')) as Hrun.
        destruct (qd_run (lenN r') r') as [run e]. cbn [fst snd] in *.
        rewrite Hr' in Hends |- *. rewrite (rfc_body_run run e (val ++ [d]) Hrun).
        assert (Hlen : lenN r' = lenN run + lenN e) by (rewrite Hr'; apply lenN_app).
        assert (Hlen' : length r' = (length run + length e)%nat) by (rewrite Hr'; apply app_length).
        rewrite <- (app_assoc val).
        apply Hcont; [lia|exact (tail_ok_suffix after (c :: d :: run) e Hends)|lia].
      * (* qdtext run *)
        cbn [app]. replace (len - k) with (lenN (c :: r)) by (cbn [lenN]; lia).
        change (c :: r ++ after) with ((c :: r) ++ after). rewrite (qd_run_app (c :: r) after).
        pose proof (qd_run_split (c :: r) (lenN (c :: r))) as Hr'. pose proof (qd_run_chars (c :: r) (lenN (c :: r))) as Hrun.
        destruct (qd_run (lenN (c :: r)) (c :: r)) as [run e] eqn:Er. cbn [fst snd] in *.
        destruct (qd_char c) eqn:Eq.
        -- destruct (qd_run_progress c r (lenN (c :: r)) ltac:(cbn [lenN]; lia) Eq) as (a & b & Hrp).
           rewrite Hrp in Er. injection Er as <- <-.
           assert (Hsp : rfc_body (c :: r) val = rfc_body b (val ++ c :: a)).
           { rewrite Hr'. apply rfc_body_run. exact Hrun. }
           cbn [rfc_body] in Hsp. rewrite E34, E92, E13, E10 in Hsp. rewrite Hsp.
           assert (Hlen : lenN (c :: r) = lenN (c :: a) + lenN b) by (rewrite Hr' at 1; apply lenN_app).
           assert (Hlen' : length (c :: r) = (length (c :: a) + length b)%nat) by (rewrite Hr' at 1; apply app_length).
           rewrite Hr' in Hends. cbn [lenN length app] in *.
           apply Hcont; [lia|exact (tail_ok_suffix after (c :: a) b Hends)|lia].
        -- assert (Hrn : qd_run (lenN (c :: r)) (c :: r) = ([], c :: r)).
           { cbn [qd_run]. rewrite Eq. now rewrite andb_false_r. }
           rewrite Hrn in Er. injection Er as <- <-. cbn [hdz app].
           rewrite (bad_ctl_not_qd c Eq E34 E92 E13 E10). rewrite <- qd_char_is_qdtext, Eq. reflexivity.
Qed.

(* C29: quoted-string decoding = RFC quoted-string with quoted-pairs, for all inputs *)
Theorem pqs_is_rfc arg : parse_quoted_string arg (lenN arg) = qres_of (rfc_unquote arg).
Proof.
  unfold parse_quoted_string, rfc_unquote. destruct arg as [|c l]; [reflexivity|]. cbn [hdz tlz].
  destruct (c =? 34); cbn [negb]; [|reflexivity].
  pose proof (pqs_loop_rfc (S (S (length (c :: l)))) l [] 1 (lenN (c :: l)) []) as H. rewrite app_nil_r in H.
  apply H; [cbn [lenN]; lia|reflexivity|now left|cbn [length]; lia].
Qed.

Lemma after_item_noquote more : after_item more -> (hdz more =? 34) = false.
Proof.
  intros (ws & rest & -> & Hws & Hrest). destruct ws as [|c r]; cbn [app hdz].
  - destruct Hrest as [->|(r & ->)]; reflexivity.
  - cbn [forallb] in Hws. apply andb_prop in Hws. destruct Hws as [Hc _]. unfold is_xspace in Hc. lia.
Qed.

(* ... so httpHeaderParseQuotedString(p, len) gives the same answer whatever follows the item *)
Lemma pqs_local arg more :
  (arg = [] \/ ends_nonspace arg) -> after_item more ->
  parse_quoted_string (arg ++ more) (lenN arg) = parse_quoted_string arg (lenN arg).
Proof.
  intros Harg Hmore. pose proof (after_item_noquote more Hmore) as Hq. rewrite pqs_is_rfc.
  unfold parse_quoted_string, rfc_unquote. destruct arg as [|c a].
  - cbn [app hdz]. now rewrite Hq.
  - cbn [app hdz tlz]. destruct (c =? 34); cbn [negb]; [|reflexivity].
    apply pqs_loop_rfc; [cbn [lenN]; lia|exact Hq| |cbn [length]; rewrite app_length; lia].
    right. apply (ends_suffix [c] a). exact Harg.
Qed.

(* the loop body depends on the item only *)
Lemma dropN_app_exact {A} (a b : list A) : dropN (lenN a) (a ++ b) = b.
Proof. exact (Bytes.dropN_app_exact a b). Qed.


Definition step_item (st : cc) (it : bytes) : cc := cc_step st it it.

Lemma cc_step_local st it tail : wf_pair (it, tail) -> cc_step st it tail = step_item st it.
Proof.
  intros (Hends & _ & ws & rest & -> & Hws & Hrest & Hn).
  unfold step_item, cc_step, split_eq.
  pose proof (span_app (fun c => negb (c =? 61)) it) as Hsp.
  destruct (span (fun c => negb (c =? 61)) it) as [nm r] eqn:Es. cbn [fst snd] in Hsp.
  destruct r as [|e arg]; [reflexivity|].
  pose proof (span_stop (fun c => negb (c =? 61)) it) as Hst. rewrite Es in Hst. cbn [snd] in Hst.
  assert (He : e = 61) by lia. subst e. clear Hst.
  assert (Hmore : after_item (ws ++ rest)) by (exists ws, rest; tauto).
  assert (Harg : arg = [] \/ ends_nonspace arg).
  { apply (ends_suffix (nm ++ [61]) arg). right. rewrite <- app_assoc. cbn [app]. now rewrite Hsp. }
  clear Es. subst it.
  assert (Hn' : no_nul (arg ++ ws ++ rest)).
  { rewrite <- !app_assoc in Hn. apply no_nul_app in Hn. destruct Hn as [_ Hn].
    cbn [app] in Hn. unfold no_nul in *. cbn [forallb] in Hn. apply andb_prop in Hn. tauto. }
  replace ((nm ++ 61 :: arg) ++ ws ++ rest) with (nm ++ 61 :: (arg ++ ws ++ rest))
    by (rewrite <- !app_assoc; reflexivity).
  rewrite !dropN_app_len.
  assert (Hlen : lenN (nm ++ 61 :: arg) - lenN nm - 1 = lenN arg).
  { rewrite lenN_app. cbn [lenN]. lia. }
  rewrite Hlen.
  rewrite (parse_int_local arg (ws ++ rest) Hn' Harg Hmore).
  rewrite (pqs_local arg (ws ++ rest) Harg Hmore).
  reflexivity.
Qed.

Lemma fold_step_local : forall ps st, Forall wf_pair ps ->
  fold_left step_pair ps st = fold_left step_item (map fst ps) st.
Proof.
  induction ps as [|[it tl] ps IH]; intros st H; [reflexivity|].
  inversion H as [|? ? Hp Hps]; subst. cbn [fold_left map fst].
  unfold step_pair at 2. cbn [fst snd]. rewrite (cc_step_local st it tl Hp). now apply IH.
Qed.

(* HttpHdrCc::parse = fold of the item-local loop body over strListGetItem's items *)
Theorem cc_parse_from_items st v :
  cc_parse_from st v = Some (fold_left step_item (list_items 44 v) st).
Proof.
  rewrite cc_parse_from_fold, (fold_step_local _ _ (pairs_of_wf v)), pairs_of_items. reflexivity.
Qed.

(* The parsed object is the first-match specification over the items *)

(* what an item says (independent of the parser state) *)
Definition d_name (it : bytes) : bytes := fst (span (fun c => negb (c =? 61)) it).
Definition d_arg (it : bytes) : option bytes :=
  match snd (span (fun c => negb (c =? 61)) it) with [] => None | _ :: a => Some a end.
Definition d_type (it : bytes) : N := cc_type_by_name (d_name it).
(* a non-negative int that fits *)
Definition d_num (it : bytes) : option Z :=
  match d_arg it with
  | Some a => match parse_int a with Some v => if (v <? 0)%Z then None else Some v | None => None end
  | None => None
  end.
(* the quoted-string reading of the argument, if there is an argument *)
Definition d_qs (it : bytes) : option qres :=
  match d_arg it with Some a => Some (parse_quoted_string a (lenN a)) | None => None end.
Definition qs_text (q : option qres) : bytes := match q with Some (QOk t) => t | _ => [] end.

Definition join2 (o it : bytes) : bytes := (match o with [] => [] | a :: l => (a :: l) ++ [44; 32] end) ++ it.

Definition step_spec (st : cc) (it : bytes) : cc :=
  let ty := d_type it in
  if isSet st ty && negb (ty =? CC_OTHER) then st
  else if is_numeric_type ty then
    match d_num it with
    | Some v => setMask (put_num st ty v) ty true
    | None => if ty =? CC_MAX_STALE then setValue st ty MAX_STALE_ANY true else clear_num st ty
    end
  else if ty =? CC_PRIVATE then
    setMask (match d_qs it with
             | None => with_private st []
             | Some (QOk t) => with_private st (private_ st ++ t)
             | Some _ => st end) ty true
  else if ty =? CC_NO_CACHE then
    match d_qs it with
    | None => with_no_cache (setMask st ty true) []
    | Some (QOk t) => with_no_cache (setMask st ty true) (no_cache st ++ t)
    | Some _ => st
    end
  else if is_flag_type ty then setMask st ty true
  else if ty =? CC_OTHER then with_other st (join2 (other st) it)
  else st.

Lemma step_item_spec st it : step_item st it = step_spec st it.
Proof.
  unfold step_item, cc_step, step_spec, d_type, d_num, d_qs, d_arg, d_name, split_eq, join2.
  pose proof (span_app (fun c => negb (c =? 61)) it) as Hsp.
  destruct (span (fun c => negb (c =? 61)) it) as [nm r] eqn:Es. cbn [fst snd] in *.
  destruct r as [|e arg]; [reflexivity|].
  assert (He : e = 61).
  { pose proof (span_stop (fun c => negb (c =? 61)) it) as Hst. rewrite Es in Hst. cbn [snd] in Hst. lia. }
  subst e. clear Es. subst it. rewrite !dropN_app_len.
  assert (Hlen : lenN (nm ++ 61 :: arg) - lenN nm - 1 = lenN arg).
  { rewrite lenN_app. cbn [lenN]. lia. }
  rewrite Hlen. cbn [negb]. reflexivity.
Qed.

Lemma isSet_setMask st id b F : isSet (setMask st id b) F = if F =? id then b else isSet st F.
Proof.
  unfold isSet, setMask, with_mask. cbn [cmask]. destruct b.
  - rewrite N.setbit_eqb. rewrite (N.eqb_sym id F). destruct (F =? id); reflexivity.
  - rewrite N.clearbit_eqb. rewrite (N.eqb_sym id F). destruct (F =? id); cbn [negb]; [apply andb_false_r|apply andb_true_r].
Qed.
(* put_num writes one of the five numeric members and nothing else *)
Lemma put_num_frame st id v : exists a b c d e,
  put_num st id v = mkcc (cmask st) a b c d e (private_ st) (no_cache st) (other st).
Proof. unfold put_num. repeat match goal with |- context [if ?c then _ else _] => destruct c end; destruct st; repeat eexists. Qed.
Lemma isSet_put_num st id v F : isSet (put_num st id v) F = isSet st F.
Proof. unfold isSet. destruct (put_num_frame st id v) as (a & b & c & d & e & ->). reflexivity. Qed.
Lemma private_put_num st id v : private_ (put_num st id v) = private_ st.
Proof. destruct (put_num_frame st id v) as (a & b & c & d & e & ->). reflexivity. Qed.
Lemma no_cache_put_num st id v : no_cache (put_num st id v) = no_cache st.
Proof. destruct (put_num_frame st id v) as (a & b & c & d & e & ->). reflexivity. Qed.
Lemma other_put_num st id v : other (put_num st id v) = other st.
Proof. destruct (put_num_frame st id v) as (a & b & c & d & e & ->). reflexivity. Qed.
Lemma get_num_put_num st id v F : is_numeric_type id = true ->
  get_num (put_num st id v) F = if F =? id then v else get_num st F.
Proof.
  unfold is_numeric_type. intros H.
  repeat (apply orb_prop in H; destruct H as [H|H]); apply N.eqb_eq in H; subst id;
    cbv [get_num put_num CC_MAX_AGE CC_S_MAXAGE CC_MAX_STALE CC_MIN_FRESH CC_STALE_IF_ERROR];
    cbn [N.eqb Pos.eqb max_age s_maxage max_stale stale_if_error min_fresh];
    repeat (destruct (F =? _) eqn:E; [apply N.eqb_eq in E; subst F; reflexivity|clear E]); reflexivity.
Qed.
Lemma get_num_setMask st id b F : get_num (setMask st id b) F = get_num st F. Proof. reflexivity. Qed.
Lemma get_num_with_private st v F : get_num (with_private st v) F = get_num st F. Proof. reflexivity. Qed.
Lemma get_num_with_no_cache st v F : get_num (with_no_cache st v) F = get_num st F. Proof. reflexivity. Qed.
Lemma get_num_with_other st v F : get_num (with_other st v) F = get_num st F. Proof. reflexivity. Qed.
Lemma isSet_with_private st v F : isSet (with_private st v) F = isSet st F. Proof. reflexivity. Qed.
Lemma isSet_with_no_cache st v F : isSet (with_no_cache st v) F = isSet st F. Proof. reflexivity. Qed.
Lemma isSet_with_other st v F : isSet (with_other st v) F = isSet st F. Proof. reflexivity. Qed.
Lemma private_setMask st id b : private_ (setMask st id b) = private_ st. Proof. reflexivity. Qed.
Lemma no_cache_setMask st id b : no_cache (setMask st id b) = no_cache st. Proof. reflexivity. Qed.
Lemma other_setMask st id b : other (setMask st id b) = other st. Proof. reflexivity. Qed.
Lemma setValue_any st ty : setValue st ty MAX_STALE_ANY true = setMask (put_num st ty MAX_STALE_ANY) ty true.
Proof. reflexivity. Qed.
Lemma clear_num_eq st ty : clear_num st ty = setMask (put_num st ty (-1)%Z) ty false.
Proof. reflexivity. Qed.
#[local] Hint Rewrite setValue_any clear_num_eq isSet_setMask isSet_put_num isSet_with_private isSet_with_no_cache
  isSet_with_other get_num_setMask get_num_with_private get_num_with_no_cache get_num_with_other private_put_num
  private_setMask no_cache_setMask other_setMask no_cache_put_num other_put_num N.eqb_refl : cc_proj.

Lemma lookup_cc_in tbl name id : lookup_cc tbl name = Some id -> In id (map fst tbl).
Proof.
  induction tbl as [|[i n] r IH]; cbn [lookup_cc map fst]; [discriminate|].
  destruct (lookup_cc r name) as [x|].
  - intros H. injection H as ->. right. now apply IH.
  - destruct (ci_eqb n name); [|discriminate]. intros H. injection H as ->. now left.
Qed.
Lemma type_lt_end nm : cc_type_by_name nm < CC_ENUM_END.
Proof.
  unfold cc_type_by_name. destruct (lookup_cc cc_table nm) as [id|] eqn:E; [|reflexivity].
  apply lookup_cc_in in E. cbn in E. unfold CC_ENUM_END. lia.
Qed.

(* does the item set the bit of its own type (when that bit is not yet set)? *)
Definition eff (it : bytes) : bool :=
  let ty := d_type it in
  if is_numeric_type ty then (ty =? CC_MAX_STALE) || (match d_num it with Some _ => true | None => false end)
  else if ty =? CC_PRIVATE then true
  else if ty =? CC_NO_CACHE then match d_qs it with Some QFail => false | Some QFuel => false | _ => true end
  else is_flag_type ty.
(* the numeric value it stores then *)
Definition num_of (it : bytes) : Z := match d_num it with Some v => v | None => MAX_STALE_ANY end.

(* one case per leaf of step_spec's cascade; at each leaf the state is a stack of setters, which cc_proj projects *)
Ltac step_cases :=
  repeat match goal with
  | |- context [match d_num ?x with _ => _ end] => destruct (d_num x) eqn:?
  | |- context [match d_qs ?x with _ => _ end] => destruct (d_qs x) as [[?| |]|] eqn:?
  | |- context [if ?c then _ else _] => destruct c eqn:?
  end;
  autorewrite with cc_proj.

Lemma step_dup st it : isSet st (d_type it) = true -> d_type it <> CC_OTHER -> step_spec st it = st.
Proof.
  intros H Hn. apply N.eqb_neq in Hn. unfold step_spec. now rewrite H, Hn.
Qed.

Lemma step_at_other st it : d_type it = CC_OTHER -> step_spec st it = with_other st (join2 (other st) it).
Proof. intros E. unfold step_spec. rewrite E. change (negb (CC_OTHER =? CC_OTHER)) with false. now rewrite andb_false_r. Qed.

Lemma step_bit_own st it : isSet st (d_type it) = false -> isSet (step_spec st it) (d_type it) = eff it.
Proof.
  intros H. unfold step_spec, eff. rewrite H. cbn [andb]. destruct (d_num it); rewrite ?orb_true_r, ?orb_false_r.
  all: step_cases; rewrite ?H; reflexivity.
Qed.

Lemma step_bit_frame st it F : F <> d_type it -> isSet (step_spec st it) F = isSet st F.
Proof.
  intros H. apply N.eqb_neq in H. unfold step_spec. step_cases; rewrite ?H; reflexivity.
Qed.

Lemma step_num_own st it : isSet st (d_type it) = false -> is_numeric_type (d_type it) = true ->
  get_num (step_spec st it) (d_type it) = if eff it then num_of it else (-1)%Z.
Proof.
  intros H Hn. unfold step_spec, eff, num_of. rewrite H, Hn. cbn [andb].
  destruct (d_num it); rewrite ?orb_true_r, ?orb_false_r.
  all: step_cases; rewrite (get_num_put_num _ _ _ _ Hn), N.eqb_refl; reflexivity.
Qed.

Lemma step_num_frame st it F : F <> d_type it -> get_num (step_spec st it) F = get_num st F.
Proof.
  intros H. apply N.eqb_neq in H. unfold step_spec. step_cases; try reflexivity.
  all: match goal with Hn : is_numeric_type _ = true |- _ => rewrite (get_num_put_num _ _ _ _ Hn), H end; reflexivity.
Qed.

Lemma step_priv_own st it : d_type it = CC_PRIVATE -> isSet st CC_PRIVATE = false -> private_ st = [] ->
  private_ (step_spec st it) = qs_text (d_qs it).
Proof.
  intros Ht H Hp. unfold step_spec. rewrite Ht, H. cbn [andb].
  change (is_numeric_type CC_PRIVATE) with false. change (CC_PRIVATE =? CC_PRIVATE) with true. cbv iota.
  destruct (d_qs it) as [[v| |]|]; cbn [private_ setMask with_mask with_private qs_text]; try assumption; try reflexivity.
  now rewrite Hp.
Qed.

Lemma step_priv_frame st it : d_type it <> CC_PRIVATE -> private_ (step_spec st it) = private_ st.
Proof.
  intros H. apply N.eqb_neq in H. unfold step_spec. rewrite H. step_cases; reflexivity.
Qed.

Lemma step_nc_own st it : d_type it = CC_NO_CACHE -> isSet st CC_NO_CACHE = false -> no_cache st = [] ->
  no_cache (step_spec st it) = qs_text (d_qs it).
Proof.
  intros Ht H Hp. unfold step_spec. rewrite Ht, H. cbn [andb].
  change (is_numeric_type CC_NO_CACHE) with false. change (CC_NO_CACHE =? CC_PRIVATE) with false.
  change (CC_NO_CACHE =? CC_NO_CACHE) with true. cbv iota.
  destruct (d_qs it) as [[v| |]|]; cbn [no_cache setMask with_mask with_no_cache qs_text]; try assumption; try reflexivity.
  now rewrite Hp.
Qed.

Lemma step_nc_frame st it : d_type it <> CC_NO_CACHE -> no_cache (step_spec st it) = no_cache st.
Proof.
  intros H. apply N.eqb_neq in H. unfold step_spec. rewrite H. step_cases; reflexivity.
Qed.

Lemma step_other st it :
  other (step_spec st it) = if d_type it =? CC_OTHER then join2 (other st) it else other st.
Proof.
  destruct (d_type it =? CC_OTHER) eqn:E; [apply N.eqb_eq in E; now rewrite step_at_other|].
  unfold step_spec. rewrite E. step_cases; reflexivity.
Qed.

(* invariant of the object during parsing: an unset directive holds its default *)
Definition cc_inv (st : cc) : Prop :=
  (forall F, is_numeric_type F = true -> isSet st F = false -> get_num st F = (-1)%Z) /\
  (isSet st CC_PRIVATE = false -> private_ st = []) /\
  (isSet st CC_NO_CACHE = false -> no_cache st = []).

Lemma cc_inv_init : cc_inv cc_init.
Proof.
  split; [|split]; try reflexivity.
  intros F HF _. unfold is_numeric_type, get_num, cc_init in *. cbn [max_age s_maxage max_stale stale_if_error min_fresh].
  repeat match goal with |- context [if ?c then _ else _] => destruct c end; reflexivity.
Qed.

Lemma eff_numeric_false_type it : eff it = false -> is_numeric_type (d_type it) = true -> d_num it = None.
Proof.
  unfold eff. intros H Hn. rewrite Hn in H. destruct (d_num it); [|reflexivity].
  rewrite orb_true_r in H. discriminate.
Qed.

Lemma cc_inv_step st it : cc_inv st -> cc_inv (step_spec st it).
Proof.
  intros (Hnum & Hp & Hc).
  destruct (isSet st (d_type it)) eqn:Eset.
  { destruct (N.eq_dec (d_type it) CC_OTHER) as [Eo|Eo].
    - (* OTHER: only `other` changes *)
      rewrite (step_at_other st it Eo). now repeat split.
    - rewrite (step_dup st it Eset Eo). now repeat split. }
  split; [|split].
  - intros F HF HS. destruct (N.eq_dec F (d_type it)) as [->|Hne].
    + rewrite (step_bit_own st it Eset) in HS. rewrite (step_num_own st it Eset HF), HS. reflexivity.
    + rewrite (step_num_frame st it F Hne). rewrite (step_bit_frame st it F Hne) in HS. now apply Hnum.
  - intros HS. destruct (N.eq_dec (d_type it) CC_PRIVATE) as [Et|Hne].
    + rewrite <- Et in HS. rewrite (step_bit_own st it Eset) in HS. unfold eff in HS. rewrite Et in HS. discriminate.
    + rewrite (step_priv_frame st it Hne).
      rewrite (step_bit_frame st it CC_PRIVATE) in HS by congruence. now apply Hp.
  - intros HS. destruct (N.eq_dec (d_type it) CC_NO_CACHE) as [Et|Hne].
    + rewrite Et in Eset. rewrite (step_nc_own st it Et Eset (Hc Eset)).
      rewrite <- Et in HS. rewrite (step_bit_own st it) in HS by (now rewrite Et). unfold eff in HS. rewrite Et in HS.
      change (is_numeric_type CC_NO_CACHE) with false in HS. change (CC_NO_CACHE =? CC_PRIVATE) with false in HS.
      change (CC_NO_CACHE =? CC_NO_CACHE) with true in HS. cbv iota in HS.
      destruct (d_qs it) as [[v| |]|]; try discriminate; reflexivity.
    + rewrite (step_nc_frame st it Hne).
      rewrite (step_bit_frame st it CC_NO_CACHE) in HS by congruence. now apply Hc.
Qed.

(* the specification: first effective occurrence decides *)
Definition sel (F : N) (it : bytes) : bool := (d_type it =? F) && eff it.
Definition spec_bit (its : list bytes) (F : N) : bool := existsb (sel F) its.
Definition spec_num (its : list bytes) (F : N) : Z :=
  match find (sel F) its with Some it => num_of it | None => (-1)%Z end.
Definition spec_text (its : list bytes) (F : N) : bytes :=
  match find (sel F) its with Some it => qs_text (d_qs it) | None => [] end.
Definition spec_other (its : list bytes) : bytes :=
  fold_left join2 (filter (fun it => d_type it =? CC_OTHER) its) [].

Definition fold_items (its : list bytes) (st : cc) : cc := fold_left step_spec its st.

Lemma fold_bit : forall its st F,
  isSet (fold_items its st) F = isSet st F || spec_bit its F.
Proof.
  induction its as [|it its IH]; intros st F; cbn [fold_items fold_left spec_bit existsb]; [now rewrite orb_false_r|].
  fold (fold_items its (step_spec st it)). rewrite IH. fold (spec_bit its F). unfold sel at 1.
  destruct (N.eq_dec F (d_type it)) as [->|Hne].
  - rewrite N.eqb_refl. cbn [andb]. destruct (isSet st (d_type it)) eqn:Es.
    + destruct (N.eq_dec (d_type it) CC_OTHER) as [Eo|Eo].
      * (* bit CC_OTHER is never set by the parser, but the statement holds for any st *)
        now rewrite (step_at_other st it Eo), isSet_with_other, Es.
      * rewrite (step_dup st it Es Eo), Es. reflexivity.
    + rewrite (step_bit_own st it Es). cbn [orb]. reflexivity.
  - rewrite (step_bit_frame st it F Hne). replace (d_type it =? F) with false by lia. reflexivity.
Qed.

Lemma sel_same it : sel (d_type it) it = eff it.
Proof. unfold sel. now rewrite N.eqb_refl. Qed.
Lemma sel_other F it : F <> d_type it -> sel F it = false.
Proof. intros H. unfold sel. replace (d_type it =? F) with false by lia. reflexivity. Qed.

Lemma find_sel_cons F it its : find (sel F) (it :: its) = if sel F it then Some it else find (sel F) its.
Proof. reflexivity. Qed.

(* a member written only by items of type F: the first effective occurrence leaves its value, later ones are duplicates *)
Lemma fold_first {A} (proj : cc -> A) (val : bytes -> A) (dflt : A) F :
  (forall st it, d_type it = F -> isSet st F = false -> proj st = dflt -> eff it = true -> proj (step_spec st it) = val it) ->
  (forall st it, d_type it <> F -> proj (step_spec st it) = proj st) ->
  (forall st, cc_inv st -> isSet st F = false -> proj st = dflt) -> F <> CC_OTHER ->
  forall its st, cc_inv st ->
  proj (fold_items its st) =
  if isSet st F then proj st else match find (sel F) its with Some it => val it | None => dflt end.
Proof.
  intros Hown Hframe Hdef HF.
  induction its as [|it its IH]; intros st Hinv; cbn [fold_items fold_left].
  - cbn [find]. destruct (isSet st F) eqn:Es; [reflexivity|]. now apply Hdef.
  - fold (fold_items its (step_spec st it)). rewrite (IH _ (cc_inv_step st it Hinv)), find_sel_cons.
    destruct (N.eq_dec (d_type it) F) as [Et|Hne].
    + rewrite <- Et in *. rewrite sel_same. destruct (isSet st (d_type it)) eqn:Es.
      * now rewrite (step_dup st it Es HF), Es.
      * rewrite (step_bit_own st it Es). destruct (eff it) eqn:Ee; [|reflexivity].
        exact (Hown st it eq_refl Es (Hdef st Hinv Es) Ee).
    + rewrite (step_bit_frame st it F) by congruence. rewrite (Hframe st it Hne).
      now rewrite (sel_other F it) by congruence.
Qed.

Lemma fold_other : forall its st,
  other (fold_items its st) = fold_left join2 (filter (fun it => d_type it =? CC_OTHER) its) (other st).
Proof.
  induction its as [|it its IH]; intros st; cbn [fold_items fold_left filter]; [reflexivity|].
  fold (fold_items its (step_spec st it)). rewrite IH, step_other.
  destruct (d_type it =? CC_OTHER); reflexivity.
Qed.

Definition mask_of (f : N -> bool) : N :=
  fold_left (fun m F => if f F then N.setbit m F else m) (seqN 0 (N.to_nat CC_ENUM_END)) 0.

Definition spec_cc (its : list bytes) : cc :=
  mkcc (mask_of (spec_bit its))
       (spec_num its CC_MAX_AGE) (spec_num its CC_S_MAXAGE) (spec_num its CC_MAX_STALE)
       (spec_num its CC_STALE_IF_ERROR) (spec_num its CC_MIN_FRESH)
       (spec_text its CC_PRIVATE) (spec_text its CC_NO_CACHE) (spec_other its).

Lemma testbit_fold_setbit (f : N -> bool) : forall ids m n,
  N.testbit (fold_left (fun m F => if f F then N.setbit m F else m) ids m) n =
  N.testbit m n || existsb (fun F => (F =? n) && f F) ids.
Proof.
  induction ids as [|F ids IH]; intros m n; cbn [fold_left existsb]; [now rewrite orb_false_r|].
  rewrite IH. destruct (f F).
  - rewrite N.setbit_eqb. rewrite andb_true_r. now rewrite orb_assoc, (orb_comm (F =? n)).
  - rewrite andb_false_r. reflexivity.
Qed.

Lemma in_seqN F : forall k s, s <= F < s + N.of_nat k -> In F (seqN s k).
Proof.
  induction k as [|k IH]; intros s H; [lia|]. cbn [seqN].
  destruct (N.eq_dec s F) as [->|Hne]; [now left|]. right. apply IH. lia.
Qed.

Lemma in_seqN_inv F : forall k s, In F (seqN s k) -> s <= F < s + N.of_nat k.
Proof.
  induction k as [|k IH]; intros s H; [destruct H|]. cbn [seqN] in H.
  destruct H as [->|H]; [lia|]. apply IH in H. lia.
Qed.

Lemma testbit_mask_of f n : N.testbit (mask_of f) n = f n && (n <? CC_ENUM_END).
Proof.
  unfold mask_of. rewrite testbit_fold_setbit, N.bits_0. cbn [orb].
  destruct (n <? CC_ENUM_END) eqn:E.
  - rewrite andb_true_r. destruct (f n) eqn:Ef.
    + apply existsb_exists. exists n. rewrite N.eqb_refl, Ef. split; [apply in_seqN; lia|reflexivity].
    + destruct (existsb _ _) eqn:Ex; [|reflexivity]. apply existsb_exists in Ex. destruct Ex as (F & _ & HF).
      apply andb_prop in HF. destruct HF as [HF1 HF2]. apply N.eqb_eq in HF1. congruence.
  - rewrite andb_false_r. destruct (existsb _ _) eqn:Ex; [|reflexivity]. apply existsb_exists in Ex.
    destruct Ex as (F & Hin & HF). apply in_seqN_inv in Hin. apply andb_prop in HF. destruct HF as [HF1 _]. lia.
Qed.

Lemma spec_bit_high its n : CC_OTHER <= n -> spec_bit its n = false.
Proof.
  intros H. unfold spec_bit. induction its as [|it its IH]; cbn [existsb]; [reflexivity|].
  rewrite IH, orb_false_r. unfold sel. destruct (d_type it =? n) eqn:Et; [|reflexivity].
  pose proof (type_lt_end (d_name it)) as Hlt. fold (d_type it) in Hlt.
  assert (Ht : d_type it = CC_OTHER) by (unfold CC_OTHER, CC_ENUM_END in *; lia). unfold eff. now rewrite Ht.
Qed.

Lemma isSet_spec its F : isSet (spec_cc its) F = spec_bit its F.
Proof.
  unfold isSet, spec_cc. cbn [cmask]. rewrite testbit_mask_of. destruct (F <? CC_ENUM_END) eqn:E; [apply andb_true_r|].
  rewrite andb_false_r. symmetry. apply spec_bit_high. unfold CC_OTHER, CC_ENUM_END in *. lia.
Qed.

Lemma get_num_spec its F : is_numeric_type F = true -> get_num (spec_cc its) F = spec_num its F.
Proof.
  unfold is_numeric_type. intros HF.
  assert (Hc : F = CC_MAX_AGE \/ F = CC_S_MAXAGE \/ F = CC_MAX_STALE \/ F = CC_MIN_FRESH \/ F = CC_STALE_IF_ERROR) by lia.
  destruct Hc as [-> | [-> | [-> | [-> | ->]]]]; reflexivity.
Qed.

Lemma cc_ext a b :
  (forall n, isSet a n = isSet b n) -> (forall F, is_numeric_type F = true -> get_num a F = get_num b F) ->
  private_ a = private_ b -> no_cache a = no_cache b -> other a = other b -> a = b.
Proof.
  intros Hm Hn. apply N.bits_inj in Hm.
  pose proof (Hn CC_MAX_AGE eq_refl). pose proof (Hn CC_S_MAXAGE eq_refl). pose proof (Hn CC_MAX_STALE eq_refl).
  pose proof (Hn CC_STALE_IF_ERROR eq_refl). pose proof (Hn CC_MIN_FRESH eq_refl).
  destruct a, b. cbn in *. intros. subst. reflexivity.
Qed.

Lemma isSet_init F : isSet cc_init F = false.
Proof. unfold isSet, cc_init. cbn [cmask]. apply N.bits_0. Qed.

Theorem fold_items_spec its : fold_items its cc_init = spec_cc its.
Proof.
  apply cc_ext.
  - intros n. now rewrite fold_bit, isSet_init, isSet_spec.
  - intros F HF.
    rewrite (get_num_spec its F HF), (fold_first (fun st => get_num st F) num_of (-1)%Z F);
      [now rewrite isSet_init| | | | |exact cc_inv_init].
    + intros st it <- Hs _ He. now rewrite (step_num_own st it Hs HF), He.
    + intros st it Hne. apply step_num_frame. congruence.
    + intros st H. now apply H.
    + now intros ->.
  - rewrite (fold_first private_ (fun it => qs_text (d_qs it)) [] CC_PRIVATE
               (fun st it Ht Hs Hp _ => step_priv_own st it Ht Hs Hp) step_priv_frame (fun st H => proj1 (proj2 H))
               ltac:(discriminate) its cc_init cc_inv_init).
    now rewrite isSet_init.
  - rewrite (fold_first no_cache (fun it => qs_text (d_qs it)) [] CC_NO_CACHE
               (fun st it Ht Hs Hp _ => step_nc_own st it Ht Hs Hp) step_nc_frame (fun st H => proj2 (proj2 H))
               ltac:(discriminate) its cc_init cc_inv_init).
    now rewrite isSet_init.
  - apply fold_other.
Qed.

Lemma existsb_find {A} (p : A -> bool) l : existsb p l = match find p l with Some _ => true | None => false end.
Proof. induction l as [|x l IH]; [reflexivity|]. cbn [existsb find]. destruct (p x); [reflexivity|exact IH]. Qed.


Lemma cc_parse_from_fold_items st v : cc_parse_from st v = Some (fold_items (list_items 44 v) st).
Proof.
  rewrite cc_parse_from_items. unfold fold_items. f_equal. apply fold_left_ext. apply step_item_spec.
Qed.

(* C29 main theorem 1: parse = the first-match specification over the list elements *)
Theorem cc_parse_exact v : cc_parse v = Some (spec_cc (list_items 44 v)).
Proof. unfold cc_parse. rewrite cc_parse_from_fold_items. f_equal. apply fold_items_spec. Qed.

(* Corollaries: invalid numeric arguments, max-stale *)

Definition strict_numeric (F : N) : Prop :=
  F = CC_MAX_AGE \/ F = CC_S_MAXAGE \/ F = CC_MIN_FRESH \/ F = CC_STALE_IF_ERROR.

Lemma d_num_range it v : d_num it = Some v -> (0 <= v < 2147483648)%Z.
Proof.
  unfold d_num. destruct (d_arg it) as [a|]; [|discriminate].
  destruct (parse_int a) as [w|] eqn:E; [|discriminate].
  destruct (w <? 0)%Z eqn:Ew; [discriminate|]. intros H. injection H as <-.
  pose proof (parse_int_in_int_range a w E) as Hr. unfold two31 in Hr. lia.
Qed.

Theorem cc_invalid_numeric_absent v F st :
  cc_parse v = Some st -> strict_numeric F ->
  (forall it, In it (list_items 44 v) -> d_type it = F -> d_num it = None) ->
  isSet st F = false /\ get_num st F = (-1)%Z.
Proof.
  intros Hp HF Hall. rewrite cc_parse_exact in Hp. injection Hp as <-.
  set (its := list_items 44 v) in *.
  assert (Hsel : forall it, In it its -> sel F it = false).
  { intros it Hin. unfold sel. destruct (d_type it =? F) eqn:E; [|reflexivity]. cbn [andb].
    assert (Et : d_type it = F) by lia. unfold eff. rewrite Et, (Hall it Hin Et).
    destruct HF as [-> | [-> | [-> | ->]]]; reflexivity. }
  assert (Hfind : find (sel F) its = None).
  { destruct (find (sel F) its) as [it|] eqn:E; [|reflexivity]. apply find_some in E. destruct E as [Hin Hs].
    now rewrite (Hsel it Hin) in Hs. }
  split.
  - rewrite isSet_spec. unfold spec_bit. now rewrite existsb_find, Hfind.
  - rewrite get_num_spec by (destruct HF as [-> | [-> | [-> | ->]]]; reflexivity). unfold spec_num. now rewrite Hfind.
Qed.

(* max-stale: the first occurrence decides; an invalid argument means the valueless form *)
Theorem cc_max_stale_first v st it :
  cc_parse v = Some st ->
  find (fun i => d_type i =? CC_MAX_STALE) (list_items 44 v) = Some it ->
  isSet st CC_MAX_STALE = true /\
  max_stale st = match d_num it with Some n => n | None => MAX_STALE_ANY end.
Proof.
  intros Hp Hf. rewrite cc_parse_exact in Hp. injection Hp as <-.
  set (its := list_items 44 v) in *.
  assert (Hs : forall i, sel CC_MAX_STALE i = (d_type i =? CC_MAX_STALE)).
  { intros i. unfold sel. destruct (d_type i =? CC_MAX_STALE) eqn:E; [|reflexivity].
    assert (Et : d_type i = CC_MAX_STALE) by lia. unfold eff. rewrite Et. reflexivity. }
  assert (Hf' : find (sel CC_MAX_STALE) its = Some it).
  { rewrite <- Hf. clear -Hs. induction its as [|i its IH]; [reflexivity|]. cbn [find]. now rewrite Hs, IH. }
  split.
  - rewrite isSet_spec. unfold spec_bit. now rewrite existsb_find, Hf'.
  - unfold spec_cc. cbn [max_stale]. unfold spec_num. rewrite Hf'. reflexivity.
Qed.

(* decode (encode X) = X : httpHeaderQuoteString output reads back, whatever follows *)
Definition txt_char (c : N) : bool := rfc_pairable c.
Definition esc (X : bytes) : bytes := flat_map (fun c => if is_special c then [92; c] else [c]) X.

Lemma esc_id X : existsb is_special X = false -> esc X = X.
Proof.
  unfold esc. induction X as [|c r IH]; [reflexivity|]. cbn [existsb flat_map]. intros H.
  apply orb_false_elim in H. destruct H as [Hc Hr]. rewrite Hc. cbn [app]. now rewrite IH.
Qed.

Lemma txt_no_nul X : forallb txt_char X = true -> no_nul X.
Proof. apply forallb_impl. unfold txt_char, rfc_pairable. lia. Qed.

Lemma quote_string_eq X : forallb txt_char X = true -> quote_string X = 34 :: esc X ++ [34].
Proof.
  intros H. unfold quote_string. rewrite (c_str_id X (txt_no_nul X H)).
  destruct (existsb is_special X) eqn:E; [reflexivity|]. now rewrite (esc_id X E).
Qed.

Lemma rfc_body_esc : forall X junk acc, forallb txt_char X = true ->
  rfc_body (esc X ++ 34 :: junk) acc = Some (acc ++ X).
Proof.
  induction X as [|c r IH]; intros junk acc H.
  - cbn. now rewrite app_nil_r.
  - cbn [forallb] in H. apply andb_prop in H. destruct H as [Hc Hr].
    unfold esc. cbn [flat_map]. fold (esc r). destruct (is_special c) eqn:Es.
    + cbn [app rfc_body]. unfold is_special in Es.
      assert (Hcs : c = 34 \/ c = 92) by lia.
      replace (92 =? 34) with false by reflexivity. replace (92 =? 92) with true by reflexivity.
      unfold txt_char in Hc. rewrite Hc, (IH junk (acc ++ [c]) Hr), <- app_assoc. reflexivity.
    + cbn [app rfc_body]. unfold is_special in Es. unfold txt_char, rfc_pairable in Hc.
      replace (c =? 34) with false by lia. replace (c =? 92) with false by lia.
      replace (c =? 13) with false by lia. replace (c =? 10) with false by lia.
      replace (rfc_qdtext c) with true by (unfold rfc_qdtext; lia).
      rewrite (IH junk (acc ++ [c]) Hr), <- app_assoc. reflexivity.
Qed.

Theorem quote_unquote X junk : forallb txt_char X = true -> rfc_unquote (quote_string X ++ junk) = Some X.
Proof.
  intros H. rewrite (quote_string_eq X H). cbn [app rfc_unquote N.eqb Pos.eqb].
  rewrite <- app_assoc. cbn [app]. now rewrite (rfc_body_esc X junk [] H).
Qed.

Theorem pqs_quote_string X : forallb txt_char X = true ->
  parse_quoted_string (quote_string X) (lenN (quote_string X)) = QOk X.
Proof.
  intros H. rewrite pqs_is_rfc. rewrite <- (app_nil_r (quote_string X)). now rewrite (quote_unquote X [] H).
Qed.

(* the former counterexamples, now decoded as RFC 9110 says *)
Definition wit_qpair : bytes := [34; 97; 92; 34; 98; 34].      (* DQUOTE a BACKSLASH DQUOTE b DQUOTE *)
Definition wit_qback : bytes := [34; 97; 92; 92; 98; 34].      (* DQUOTE a BACKSLASH BACKSLASH b DQUOTE *)
Definition wit_htab : bytes := [34; 65; 44; 9; 66; 34].        (* DQUOTE A , HTAB B DQUOTE *)

(* state after scanning all of l without meeting an unquoted ',' or ending inside an escape *)
Fixpoint scan_q (q : bool) (l : bytes) : option bool :=
  match l with
  | [] => Some q
  | c :: r =>
      if q then
        if c =? 34 then scan_q false r
        else if c =? 92 then match r with [] => None | _ :: r' => scan_q true r' end
        else scan_q true r
      else
        if c =? 34 then scan_q true r
        else if c =? 44 then None
        else scan_q false r
  end.

Lemma scan_item_app : forall a q q' b acc, scan_q q a = Some q' ->
  scan_item 44 q (a ++ b) acc = scan_item 44 q' b (rev a ++ acc).
Proof.
  fix IH 1. intros a q q' b acc H. destruct a as [|c r].
  - cbn in H. injection H as <-. reflexivity.
  - cbn [scan_q] in H. cbn [app scan_item]. destruct q.
    + destruct (c =? 34).
      * rewrite (IH r false q' b (c :: acc) H). cbn [rev]. now rewrite <- app_assoc.
      * destruct (c =? 92).
        -- destruct r as [|d r']; [discriminate|]. cbn [app].
           rewrite (IH r' true q' b (d :: c :: acc) H). cbn [rev]. now rewrite <- !app_assoc.
        -- rewrite (IH r true q' b (c :: acc) H). cbn [rev]. now rewrite <- app_assoc.
    + destruct (c =? 34).
      * rewrite (IH r true q' b (c :: acc) H). cbn [rev]. now rewrite <- app_assoc.
      * destruct (c =? 44) eqn:E44; [discriminate|]. rewrite orb_diag.
        rewrite (IH r false q' b (c :: acc) H). cbn [rev]. now rewrite <- app_assoc.
Qed.

Lemma scan_q_app : forall a q q' b, scan_q q a = Some q' -> scan_q q (a ++ b) = scan_q q' b.
Proof.
  fix IH 1. intros a q q' b H. destruct a as [|c r].
  - cbn in H. injection H as <-. reflexivity.
  - cbn [scan_q] in H. cbn [app scan_q]. destruct q.
    + destruct (c =? 34); [exact (IH r false q' b H)|].
      destruct (c =? 92); [|exact (IH r true q' b H)].
      destruct r as [|d r']; [discriminate|]. cbn [app]. exact (IH r' true q' b H).
    + destruct (c =? 34); [exact (IH r true q' b H)|].
      destruct (c =? 44); [discriminate|]. exact (IH r false q' b H).
Qed.

Definition closed (i : bytes) : Prop := scan_q false i = Some false.
Definition good_item (i : bytes) : Prop :=
  is_delim2 44 (hdz i) = false /\ ends_nonspace i /\ no_nul i /\ closed i.

(* items joined by ", " *)
Fixpoint joinr (its : list bytes) : bytes :=
  match its with
  | [] => []
  | x :: r => match r with [] => x | _ => x ++ [44; 32] ++ joinr r end
  end.

Lemma rtrim_ends i : ends_nonspace i -> rtrim i = i.
Proof.
  intros (b & c & -> & Hc). unfold rtrim. rewrite rev_app_distr. cbn [rev app drop_while]. rewrite Hc.
  cbn [rev]. now rewrite rev_involutive.
Qed.

Lemma drop_while_head_false p l : p (hdz l) = false -> l <> [] -> drop_while p l = l.
Proof. destruct l as [|c r]; [contradiction|]. cbn [hdz drop_while]. now intros ->. Qed.

Lemma ends_nonnil i : ends_nonspace i -> i <> [].
Proof. intros (b & c & -> & _). destruct b; discriminate. Qed.

Lemma items_joinr : forall its, Forall good_item its -> items 44 (joinr its) = its.
Proof.
  induction its as [|x r IH]; intros Hg; [reflexivity|].
  inversion Hg as [|? ? (Hhd & Hends & Hn & Hcl) Hr]; subst.
  pose proof (ends_nonnil x Hends) as Hne.
  set (tail := match r with [] => [] | _ => [44; 32] ++ joinr r end).
  assert (Hj : joinr (x :: r) = x ++ tail) by (subst tail; destruct r; [now rewrite app_nil_r|reflexivity]).
  assert (Hstop : scan_item 44 false tail (rev x ++ []) = (x, tail))
    by (subst tail; destruct r; cbn; now rewrite app_nil_r, rev_involutive).
  rewrite items_eq, Hj, drop_while_head_false; [|destruct x; [contradiction|exact Hhd]|destruct x; [contradiction|discriminate]].
  rewrite (scan_item_app x false false tail [] Hcl), Hstop, (rtrim_ends x Hends).
  destruct x as [|x0 xr]; [contradiction|]. f_equal.
  subst tail. destruct r as [|y r']; [reflexivity|].
  (* the next iteration starts at ", " ++ joinr (y :: r'): the leading delimiters are skipped *)
  rewrite <- (IH Hr) at 2. now rewrite (items_eq 44 (_ ++ _)), (items_eq 44 (joinr _)).
Qed.

(* "%d" of a non-negative int reads back through httpHeaderParseInt *)
Lemma dec_digits_S k n :
  dec_digits (S k) n = if n <? 10 then [48 + n] else dec_digits k (n / 10) ++ [48 + n mod 10].
Proof. reflexivity. Qed.

Lemma digits_value_snoc ds d : digits_value 10 (ds ++ [d]) 0 = (digits_value 10 ds 0 * 10 + d)%Z.
Proof. unfold digits_value. rewrite fold_left_app. reflexivity. Qed.

Lemma dec_digits_spec : forall fuel n, n < 10 ^ N.of_nat (S fuel) ->
  digits_value 10 (map dval (dec_digits (S fuel) n)) 0 = Z.of_N n /\
  forallb is_digit (dec_digits (S fuel) n) = true /\ dec_digits (S fuel) n <> [].
Proof.
  induction fuel as [|k IH]; intros n Hn; rewrite dec_digits_S; destruct (n <? 10) eqn:E.
  - repeat split; [unfold digits_value, dval; cbn [map fold_left]; lia| cbn [forallb]; unfold is_digit; lia| discriminate].
  - change (10 ^ N.of_nat 1) with 10 in Hn. lia.
  - repeat split; [unfold digits_value, dval; cbn [map fold_left]; lia| cbn [forallb]; unfold is_digit; lia| discriminate].
  - assert (Hk : n / 10 < 10 ^ N.of_nat (S k)).
    { rewrite (Nat2N.inj_succ (S k)), N.pow_succ_r' in Hn. apply N.div_lt_upper_bound; lia. }
    destruct (IH _ Hk) as (Hv & Hd & Hne). repeat split.
    + rewrite map_app. cbn [map]. rewrite digits_value_snoc, Hv. unfold dval. pose proof (N.div_mod n 10). lia.
    + rewrite forallb_app, Hd. cbn [forallb]. unfold is_digit. pose proof (N.mod_lt n 10). lia.
    + intros H. apply app_eq_nil in H as [_ H]. discriminate.
Qed.

Lemma digit_run_digits ds : forallb is_digit ds = true -> digit_run 10 ds = map dval ds.
Proof. intros H. now rewrite digit_run_span, (span_forall _ _ H). Qed.

Lemma parse_int_dec v : (0 <= v < 2147483648)%Z -> parse_int (dec_of_Z v) = Some v.
Proof.
  intros Hv. unfold dec_of_Z. replace (v <? 0)%Z with false by lia.
  assert (Hn : Z.to_N v < 10 ^ N.of_nat 12) by (change (10 ^ N.of_nat 12) with 1000000000000; lia).
  destruct (dec_digits_spec 11 _ Hn) as (Hval & Hd & Hne).
  set (ds := dec_digits 12 (Z.to_N v)) in *.
  assert (Hnn : no_nul ds) by (revert Hd; apply forallb_impl; unfold is_digit; lia).
  unfold parse_int. rewrite strtoll10_unfold, (c_string_no_nul ds Hnn).
  destruct ds as [|c r] eqn:Eds; [contradiction|].
  pose proof Hd as Hd0. cbn [forallb] in Hd. apply andb_prop in Hd. destruct Hd as [Hc _].
  assert (Hsp : skip_space (c :: r) 0 = (c :: r, 0)).
  { cbn [skip_space]. replace (is_c_space c) with false by (unfold is_c_space, is_digit in *; lia). reflexivity. }
  rewrite Hsp.
  assert (Hss : sign_split (c :: r) 0 = (false, c :: r, 0)).
  { unfold sign_split. destruct c as [|p]; [reflexivity|].
    unfold is_digit in Hc.
    destruct p as [p|p|]; try reflexivity; repeat (destruct p as [p|p|]; try reflexivity; try lia). }
  rewrite Hss. unfold strtoll10_tail. rewrite (digit_run_digits (c :: r) Hd0).
  cbn [map]. change (dval c :: map dval r) with (map dval (c :: r)). rewrite Hval.
  rewrite Z2N.id by lia. unfold two63, two31.
  repeat match goal with |- context [if ?c then _ else _] => destruct c eqn:? end; try reflexivity; try (rewrite Hc in *; cbn [negb] in *); lia.
Qed.

(* well-formed objects (what parse() produces) *)
Definition cc_wf (st : cc) : Prop :=
  (forall F, is_numeric_type F = true -> isSet st F = true -> (0 <= get_num st F < 2147483648)%Z) /\
  forallb txt_char (private_ st) = true /\ forallb txt_char (no_cache st) = true /\
  cc_inv st /\ (forall n, CC_OTHER <= n -> isSet st n = false).

(* the text httpHeaderParseQuotedString returns never contains DQUOTE, backslash or a CTL *)
Lemma qd_txt c : qd_char c = true -> txt_char c = true.
Proof. unfold qd_char, txt_char, rfc_pairable. lia. Qed.
Lemma forallb_qd_txt l : forallb qd_char l = true -> forallb txt_char l = true.
Proof. apply forallb_impl, qd_txt. Qed.

Lemma pqs_iter_chars pos k len val : forallb txt_char val = true ->
  match pqs_iter pos k len val with
  | QDone (QOk t) => forallb txt_char t = true
  | QNext _ _ v => forallb txt_char v = true
  | _ => True
  end.
Proof.
  intros Hv. unfold pqs_iter.
  repeat match goal with
  | |- context [qd_run ?a ?b] =>
      let H := fresh "Hrun" in pose proof (forallb_qd_txt _ (qd_run_chars b a)) as H;
      destruct (qd_run a b) as [? ?]; cbn [fst] in H
  | |- context [if ?c then _ else _] => destruct c eqn:?
  end; try exact I; try exact Hv.
  all: rewrite ?forallb_app; cbn [forallb]; rewrite ?Hv, ?Hrun; cbn [andb]; try reflexivity.
  all: rewrite ?andb_true_r.
  all: match goal with H : true && (bad_escaped _ || _) = false |- _ =>
         cbn [andb] in H; apply orb_false_elim in H; destruct H as [H _];
         rewrite bad_escaped_is_unpairable in H; unfold txt_char end.
  all: match goal with H : negb (rfc_pairable ?x) = false |- rfc_pairable ?x = true =>
         destruct (rfc_pairable x); [reflexivity|discriminate] end.
Qed.

Lemma pqs_loop_chars : forall fuel pos k len val t, forallb txt_char val = true ->
  pqs_loop fuel pos k len val = QOk t -> forallb txt_char t = true.
Proof.
  induction fuel as [|f IH]; intros pos k len val t Hv H; [discriminate|].
  cbn [pqs_loop] in H. pose proof (pqs_iter_chars pos k len val Hv) as Hi.
  destruct (pqs_iter pos k len val) as [[t'| |]|p k' v]; try discriminate.
  - injection H as <-. exact Hi.
  - exact (IH _ _ _ _ _ Hi H).
Qed.

Lemma pqs_chars s len t : parse_quoted_string s len = QOk t -> forallb txt_char t = true.
Proof.
  unfold parse_quoted_string. destruct (negb (hdz s =? 34)); [discriminate|].
  apply pqs_loop_chars. reflexivity.
Qed.

Lemma qs_text_chars it : forallb txt_char (qs_text (d_qs it)) = true.
Proof.
  unfold d_qs. destruct (d_arg it) as [a|]; [|reflexivity]. cbn [qs_text].
  destruct (parse_quoted_string a (lenN a)) as [t| |] eqn:E; try reflexivity. exact (pqs_chars _ _ _ E).
Qed.

Lemma fold_inv : forall its st, cc_inv st -> cc_inv (fold_items its st).
Proof.
  induction its as [|it its IH]; intros st H; [exact H|]. cbn [fold_items fold_left].
  apply IH. now apply cc_inv_step.
Qed.

Lemma find_sel_some F its it : find (sel F) its = Some it -> d_type it = F /\ eff it = true.
Proof.
  intros H. apply find_some in H. destruct H as [_ H]. unfold sel in H. apply andb_prop in H.
  destruct H as [H1 H2]. split; [lia|exact H2].
Qed.

Lemma spec_cc_wf its : cc_wf (spec_cc its).
Proof.
  split; [|split; [|split; [|split]]].
  - intros F HF HS. rewrite (get_num_spec its F HF). unfold spec_num. destruct (find (sel F) its) as [it|] eqn:E.
    2:{ rewrite isSet_spec in HS. unfold spec_bit in HS. rewrite existsb_find, E in HS. discriminate HS. }
    unfold num_of. destruct (d_num it) as [n|] eqn:En; [exact (d_num_range it n En)|]. unfold MAX_STALE_ANY. lia.
  - unfold spec_cc. cbn [private_]. unfold spec_text. destruct (find _ its); [apply qs_text_chars|reflexivity].
  - unfold spec_cc. cbn [no_cache]. unfold spec_text. destruct (find _ its); [apply qs_text_chars|reflexivity].
  - rewrite <- fold_items_spec. apply fold_inv, cc_inv_init.
  - intros n Hn. rewrite isSet_spec. now apply spec_bit_high.
Qed.

Definition kn (st : cc) (F : N) : list bytes :=
  if isSet st F && negb (F =? CC_OTHER) then [pack_one st F] else [].
Definition all_flags : list N := seqN CC_PUBLIC (N.to_nat CC_ENUM_END).
Definition known (st : cc) : list bytes := flat_map (kn st) all_flags.

Definition name_char (c : N) : bool := is_lower c || (c =? 45).
Definition nm (F : N) : bytes := name_of cc_table F.

(* facts about the regenerated names of the known directives, by computation over the table *)
Definition known_ids : list N := seqN CC_PUBLIC (N.to_nat CC_OTHER).
Lemma names_ok : forallb (fun F => forallb name_char (nm F) && negb (lenN (nm F) =? 0) &&
                                   (cc_type_by_name (nm F) =? F)) known_ids = true.
Proof. vm_compute. reflexivity. Qed.

Lemma in_known_ids F : F < CC_OTHER -> In F known_ids.
Proof. intros H. apply in_seqN. unfold CC_PUBLIC. lia. Qed.

Lemma nm_facts F : F < CC_OTHER ->
  forallb name_char (nm F) = true /\ nm F <> [] /\ cc_type_by_name (nm F) = F.
Proof.
  intros H. pose proof names_ok as Hall. rewrite forallb_forall in Hall.
  specialize (Hall F (in_known_ids F H)). apply andb_prop in Hall. destruct Hall as [Hall H3].
  apply andb_prop in Hall. destruct Hall as [H1 H2]. split; [exact H1|]. split; [|lia].
  intros E. rewrite E in H2. discriminate.
Qed.

Lemma name_char_no_eq c : name_char c = true -> (c =? 61) = false.
Proof. unfold name_char, is_lower. lia. Qed.

(* splitting name=argument when the name has no '=' *)
Lemma span_name : forall n x, forallb name_char n = true ->
  span (fun c => negb (c =? 61)) (n ++ x) = (n ++ fst (span (fun c => negb (c =? 61)) x), snd (span (fun c => negb (c =? 61)) x)).
Proof.
  induction n as [|c r IH]; intros x H; cbn [app].
  - destruct (span _ x); reflexivity.
  - cbn [forallb] in H. apply andb_prop in H. destruct H as [Hc Hr]. cbn [span].
    rewrite (name_char_no_eq c Hc). cbn [negb].
    rewrite (IH x Hr). reflexivity.
Qed.

Lemma d_name_plain n : forallb name_char n = true -> d_name n = n /\ d_arg n = None.
Proof.
  intros H. unfold d_name, d_arg. rewrite <- (app_nil_r n) at 1 3. rewrite (span_name n [] H). cbn [span fst snd].
  now rewrite app_nil_r.
Qed.
Lemma d_name_eq n a : forallb name_char n = true -> d_name (n ++ 61 :: a) = n /\ d_arg (n ++ 61 :: a) = Some a.
Proof.
  intros H. unfold d_name, d_arg. rewrite (span_name n (61 :: a) H). cbn [span N.eqb Pos.eqb negb fst snd].
  now rewrite app_nil_r.
Qed.

(* scanning names, digits and plain quoted text *)
Lemma scan_q_unq : forall l, forallb (fun c => negb (c =? 34) && negb (c =? 44)) l = true -> scan_q false l = Some false.
Proof.
  induction l as [|c r IH]; intros H; [reflexivity|].
  cbn [forallb] in H. apply andb_prop in H. destruct H as [Hc Hr]. cbn [scan_q].
  replace (c =? 34) with false by lia. replace (c =? 44) with false by lia. now apply IH.
Qed.
Lemma scan_q_quoted : forall X, forallb txt_char X = true -> scan_q true (esc X ++ [34]) = Some false.
Proof.
  induction X as [|c r IH]; intros H; [reflexivity|].
  cbn [forallb] in H. apply andb_prop in H. destruct H as [Hc Hr].
  unfold esc. cbn [flat_map]. fold (esc r). destruct (is_special c) eqn:Es.
  - cbn [app scan_q N.eqb Pos.eqb]. now apply IH.
  - cbn [app scan_q]. unfold is_special in Es.
    replace (c =? 34) with false by lia. replace (c =? 92) with false by lia. now apply IH.
Qed.
Lemma esc_no_nul X : forallb txt_char X = true -> no_nul (esc X).
Proof.
  unfold no_nul. induction X as [|c r IH]; intros H; [reflexivity|].
  cbn [forallb] in H. apply andb_prop in H. destruct H as [Hc Hr].
  unfold esc. cbn [flat_map]. fold (esc r). rewrite forallb_app, (IH Hr), andb_true_r.
  unfold txt_char, rfc_pairable in Hc. destruct (is_special c); cbn [forallb]; lia.
Qed.

Lemma ends_of_last l c : is_xspace c = false -> ends_nonspace (l ++ [c]).
Proof. intros H. now exists l, c. Qed.

Definition arg_ok (a : bytes) : Prop :=
  a = [] \/ (exists ds, a = 61 :: ds /\ ds <> [] /\ forallb is_digit ds = true) \/
  (exists X, a = 61 :: 34 :: esc X ++ [34] /\ forallb txt_char X = true).

(* names, '=' and digits: no white space, NUL, DQUOTE or comma *)
Definition plain (c : N) : bool := negb (is_xspace c) && negb (c =? 0) && negb (c =? 34) && negb (c =? 44).
Lemma name_plain c : name_char c = true -> plain c = true.
Proof. unfold name_char, is_lower, plain, is_xspace. lia. Qed.
Lemma digit_plain c : is_digit c = true -> plain c = true.
Proof. unfold is_digit, plain, is_xspace. lia. Qed.
Lemma plain_good l : l <> [] -> forallb plain l = true -> ends_nonspace l /\ no_nul l /\ closed l.
Proof.
  intros Hne H. split; [|split].
  - destruct (@exists_last _ l Hne) as (b & c & ->). apply ends_of_last.
    rewrite forallb_app in H. apply andb_prop in H. destruct H as [_ H]. cbn [forallb] in H.
    revert H. unfold plain. destruct (is_xspace c); [discriminate|reflexivity].
  - revert H. apply forallb_impl. unfold plain. lia.
  - apply scan_q_unq. revert H. apply forallb_impl. unfold plain. lia.
Qed.

Lemma good_name_arg F a : F < CC_OTHER -> arg_ok a -> good_item (nm F ++ a).
Proof.
  intros HF Ha. destruct (nm_facts F HF) as (Hn & Hne & _).
  apply (forallb_impl _ _ _ name_plain) in Hn.
  destruct (nm F) as [|n0 nr]; [contradiction|].
  split. { cbn [forallb app hdz] in *. apply andb_prop in Hn. destruct Hn as [Hn _]. revert Hn. unfold plain, is_delim2, is_xspace. lia. }
  destruct Ha as [->|[(ds & -> & Hdne & Hds)|(X & -> & HX)]].
  - rewrite app_nil_r. now apply plain_good.
  - apply plain_good; [discriminate|]. rewrite forallb_app, Hn. exact (forallb_impl _ _ _ digit_plain Hds).
  - destruct (plain_good ((n0 :: nr) ++ [61])) as (_ & Hnn & Hcl); [discriminate|now rewrite forallb_app, Hn|].
    replace ((n0 :: nr) ++ 61 :: 34 :: esc X ++ [34]) with (((n0 :: nr) ++ [61]) ++ 34 :: esc X ++ [34])
      by (rewrite <- app_assoc; reflexivity).
    split; [|split].
    + rewrite app_comm_cons, app_assoc. now apply ends_of_last.
    + apply no_nul_app. split; [exact Hnn|]. change (no_nul (esc X ++ [34])). apply no_nul_app. split; [exact (esc_no_nul X HX)|reflexivity].
    + unfold closed. rewrite (scan_q_app _ false false _ Hcl). now apply scan_q_quoted.
Qed.

(* each packed element, read back as an item *)
Definition qarg (v : bytes) : bytes := match v with [] => [] | c :: r => 61 :: quote_string (c :: r) end.
(* what pack_one writes after the name, by kind of directive *)
Definition pk_arg (st : cc) (F : N) : bytes :=
  if is_numeric_type F then
    if (F =? CC_MAX_STALE) && (get_num st F =? MAX_STALE_ANY)%Z then [] else 61 :: dec_of_Z (get_num st F)
  else if F =? CC_PRIVATE then qarg (private_ st)
  else if F =? CC_NO_CACHE then qarg (no_cache st)
  else [].
Lemma pack_one_eq st F : pack_one st F = nm F ++ pk_arg st F.
Proof.
  unfold pack_one, pk_arg, nm, is_numeric_type. f_equal.
  repeat (destruct (F =? _) eqn:E; [apply N.eqb_eq in E; subst F; reflexivity|clear E]). reflexivity.
Qed.
Lemma kinds_ok :
  forallb (fun F => is_numeric_type F || (F =? CC_PRIVATE) || (F =? CC_NO_CACHE) || is_flag_type F) known_ids = true.
Proof. reflexivity. Qed.

Lemma dec_of_Z_digits v : (0 <= v < 2147483648)%Z -> dec_of_Z v <> [] /\ forallb is_digit (dec_of_Z v) = true.
Proof.
  intros Hv. unfold dec_of_Z. replace (v <? 0)%Z with false by lia.
  assert (Hn : Z.to_N v < 10 ^ N.of_nat 12) by (change (10 ^ N.of_nat 12) with 1000000000000; lia).
  destruct (dec_digits_spec 11 _ Hn) as (_ & Hd & Hne). now split.
Qed.

(* what the item says, for every possible argument shape *)
Inductive item_view (st : cc) (F : N) : Prop :=
| IV : arg_ok (pk_arg st F) ->
       d_type (pack_one st F) = F -> eff (pack_one st F) = true ->
       (is_numeric_type F = true -> num_of (pack_one st F) = get_num st F) ->
       (F = CC_PRIVATE -> qs_text (d_qs (pack_one st F)) = private_ st) ->
       (F = CC_NO_CACHE -> qs_text (d_qs (pack_one st F)) = no_cache st) -> item_view st F.

Lemma d_qs_quoted F X : F < CC_OTHER -> forallb txt_char X = true ->
  d_qs (nm F ++ 61 :: quote_string X) = Some (QOk X).
Proof.
  intros HF HX. destruct (nm_facts F HF) as (Hn & _ & _).
  unfold d_qs. destruct (d_name_eq (nm F) (quote_string X) Hn) as [_ ->].
  f_equal. now apply pqs_quote_string.
Qed.

Lemma d_num_dec F v : F < CC_OTHER -> (0 <= v < 2147483648)%Z -> d_num (nm F ++ 61 :: dec_of_Z v) = Some v.
Proof.
  intros HF Hv. destruct (nm_facts F HF) as (Hn & _ & _).
  unfold d_num. destruct (d_name_eq (nm F) (dec_of_Z v) Hn) as [_ ->].
  rewrite (parse_int_dec v Hv). replace (v <? 0)%Z with false by lia. reflexivity.
Qed.

Lemma d_type_name_arg F a : F < CC_OTHER -> (a = [] \/ exists x, a = 61 :: x) -> d_type (nm F ++ a) = F.
Proof.
  intros HF Ha. destruct (nm_facts F HF) as (Hn & _ & Ht). unfold d_type.
  destruct Ha as [->|(x & ->)].
  - rewrite app_nil_r. destruct (d_name_plain (nm F) Hn) as [-> _]. exact Ht.
  - destruct (d_name_eq (nm F) x Hn) as [-> _]. exact Ht.
Qed.

Lemma d_plain F : F < CC_OTHER -> d_num (nm F) = None /\ d_qs (nm F) = None.
Proof.
  intros HF. destruct (nm_facts F HF) as (Hn & _ & _). unfold d_num, d_qs.
  destruct (d_name_plain (nm F) Hn) as [_ ->]. split; reflexivity.
Qed.

Lemma wf_set_known st F : cc_wf st -> isSet st F = true -> F < CC_OTHER.
Proof.
  intros (_ & _ & _ & _ & Hhigh) HS. destruct (F <? CC_OTHER) eqn:E; [lia|].
  rewrite (Hhigh F) in HS by lia. discriminate.
Qed.

Lemma qarg_reads F v : F < CC_OTHER -> forallb txt_char v = true ->
  arg_ok (qarg v) /\ d_qs (nm F ++ qarg v) = match v with [] => None | _ => Some (QOk v) end.
Proof.
  intros HF Hv. destruct v as [|c r]; cbn [qarg].
  - split; [now left|]. rewrite app_nil_r. now apply d_plain.
  - split; [|now apply d_qs_quoted]. right. right. exists (c :: r). now rewrite (quote_string_eq _ Hv).
Qed.

Lemma item_view_ok st F : cc_wf st -> isSet st F = true -> item_view st F.
Proof.
  intros Hwf HS. pose proof (wf_set_known st F Hwf HS) as HF. destruct Hwf as (Hrange & Hpv & Hnc & _ & _).
  destruct (qarg_reads F _ HF Hpv) as [Hpa Hpq]. destruct (qarg_reads F _ HF Hnc) as [Hca Hcq].
  assert (Hnum : is_numeric_type F = true -> d_num (nm F ++ 61 :: dec_of_Z (get_num st F)) = Some (get_num st F)).
  { intros En. exact (d_num_dec F _ HF (Hrange F En HS)). }
  assert (Ha : arg_ok (pk_arg st F)).
  { unfold pk_arg. destruct (is_numeric_type F) eqn:En.
    - destruct (_ && _); [now left|]. right. left. destruct (dec_of_Z_digits _ (Hrange F En HS)). eauto.
    - destruct (F =? CC_PRIVATE); [exact Hpa|]. destruct (F =? CC_NO_CACHE); [exact Hca|now left]. }
  assert (Ht : d_type (pack_one st F) = F).
  { rewrite pack_one_eq. apply d_type_name_arg; [exact HF|]. destruct Ha as [->|[(ds & -> & _)|(X & -> & _)]]; eauto. }
  constructor; [exact Ha|exact Ht| | | |].
  - unfold eff. rewrite Ht, pack_one_eq. unfold pk_arg. destruct (is_numeric_type F) eqn:En.
    + destruct (F =? CC_MAX_STALE); [reflexivity|]. cbn [andb orb]. now rewrite Hnum.
    + destruct (F =? CC_PRIVATE) eqn:Ep; [reflexivity|]. destruct (F =? CC_NO_CACHE) eqn:Ec.
      * rewrite Hcq. now destruct (no_cache st).
      * pose proof kinds_ok as Hk. rewrite forallb_forall in Hk. specialize (Hk F (in_known_ids F HF)).
        now rewrite En, Ep, Ec in Hk.
  - intros En. unfold num_of. rewrite pack_one_eq. unfold pk_arg. rewrite En.
    destruct ((F =? CC_MAX_STALE) && (get_num st F =? MAX_STALE_ANY)%Z) eqn:Eany; [|now rewrite Hnum].
    (* max-stale is written without a value when it holds MAX_STALE_ANY *)
    rewrite app_nil_r. destruct (d_plain F HF) as [-> _]. lia.
  - intros ->. rewrite pack_one_eq. change (pk_arg st CC_PRIVATE) with (qarg (private_ st)). rewrite Hpq.
    now destruct (private_ st).
  - intros ->. rewrite pack_one_eq. change (pk_arg st CC_NO_CACHE) with (qarg (no_cache st)). rewrite Hcq.
    now destruct (no_cache st).
Qed.

(* the specification of the packed elements is the object itself *)
Lemma find_known st : cc_wf st -> forall ids F,
  find (sel F) (flat_map (kn st) ids) =
  if existsb (N.eqb F) ids && isSet st F && negb (F =? CC_OTHER) then Some (pack_one st F) else None.
Proof.
  intros Hwf. induction ids as [|G r IH]; intros F; [reflexivity|].
  cbn [flat_map existsb]. unfold kn at 1.
  destruct (isSet st G && negb (G =? CC_OTHER)) eqn:EG.
  - apply andb_prop in EG. destruct EG as [HS HG].
    destruct (item_view_ok st G Hwf HS) as [_ Ht He _ _ _].
    cbn [app find]. unfold sel at 1. rewrite Ht, He, andb_true_r.
    destruct (G =? F) eqn:E.
    + assert (G = F) by lia. subst G. rewrite N.eqb_refl, HS, HG. reflexivity.
    + rewrite IH. replace (F =? G) with false by lia. reflexivity.
  - cbn [app]. rewrite IH. destruct (F =? G) eqn:E; [|reflexivity].
    assert (F = G) by lia. subst G. cbn [orb andb].
    rewrite <- andb_assoc, EG, andb_false_r. reflexivity.
Qed.

Lemma in_all_flags F : F < CC_ENUM_END -> existsb (N.eqb F) all_flags = true.
Proof.
  intros H. apply existsb_exists. exists F. split; [|apply N.eqb_refl]. apply in_seqN. unfold CC_PUBLIC. lia.
Qed.

Lemma find_known_all st F : cc_wf st ->
  find (sel F) (known st) = if isSet st F then Some (pack_one st F) else None.
Proof.
  intros Hwf. unfold known. rewrite (find_known st Hwf). destruct (isSet st F) eqn:ES; [|now rewrite andb_false_r].
  pose proof (wf_set_known st F Hwf ES) as HF. rewrite in_all_flags by (unfold CC_OTHER, CC_ENUM_END in *; lia).
  now replace (F =? CC_OTHER) with false by lia.
Qed.

Lemma known_forall st (P : bytes -> Prop) :
  (forall F, isSet st F = true -> P (pack_one st F)) -> Forall P (known st).
Proof.
  intros H. apply Forall_forall. intros it Hin. apply in_flat_map in Hin. destruct Hin as (F & _ & Hin).
  unfold kn in Hin. destruct (isSet st F && negb (F =? CC_OTHER)) eqn:E; [|destruct Hin].
  destruct Hin as [<-|[]]. apply andb_prop in E. now apply H.
Qed.

Lemma known_types st : cc_wf st -> Forall (fun it => d_type it <> CC_OTHER) (known st).
Proof.
  intros Hwf. apply known_forall. intros F HS. pose proof (wf_set_known st F Hwf HS).
  destruct (item_view_ok st F Hwf HS) as [_ Ht _ _ _ _]. rewrite Ht. lia.
Qed.

Lemma pack_one_good st F : cc_wf st -> isSet st F = true -> good_item (pack_one st F).
Proof.
  intros Hwf HS. destruct (item_view_ok st F Hwf HS) as [Ha _ _ _ _ _]. rewrite pack_one_eq.
  exact (good_name_arg F _ (wf_set_known st F Hwf HS) Ha).
Qed.

Lemma known_good st : cc_wf st -> Forall good_item (known st).
Proof. intros Hwf. apply known_forall. intros F. now apply pack_one_good. Qed.

Theorem spec_known st : cc_wf st -> other st = [] -> spec_cc (known st) = st.
Proof.
  intros Hwf Hoth. pose proof Hwf as (_ & _ & _ & (Hinum & Hipv & Hinc) & _).
  symmetry. apply cc_ext.
  - intros n. rewrite isSet_spec. unfold spec_bit. rewrite existsb_find, (find_known_all st n Hwf).
    now destruct (isSet st n).
  - intros F HFn. rewrite (get_num_spec _ F HFn). unfold spec_num. rewrite (find_known_all st F Hwf).
    destruct (isSet st F) eqn:ES; [|now apply Hinum].
    destruct (item_view_ok st F Hwf ES) as [_ _ _ Hn _ _]. now rewrite Hn.
  - change (private_ st = spec_text (known st) CC_PRIVATE). unfold spec_text. rewrite (find_known_all st CC_PRIVATE Hwf).
    destruct (isSet st CC_PRIVATE) eqn:ES; [|now apply Hipv].
    destruct (item_view_ok st CC_PRIVATE Hwf ES) as [_ _ _ _ Hp _]. now rewrite Hp.
  - change (no_cache st = spec_text (known st) CC_NO_CACHE). unfold spec_text. rewrite (find_known_all st CC_NO_CACHE Hwf).
    destruct (isSet st CC_NO_CACHE) eqn:ES; [|now apply Hinc].
    destruct (item_view_ok st CC_NO_CACHE Hwf ES) as [_ _ _ _ _ Hp]. now rewrite Hp.
  - rewrite Hoth. change (other (spec_cc (known st))) with (spec_other (known st)). unfold spec_other.
    pose proof (known_types st Hwf) as Hk.
    induction (known st) as [|x l IHl]; [reflexivity|]. inversion Hk; subst. cbn [filter].
    replace (d_type x =? CC_OTHER) with false by lia. now apply IHl.
Qed.

(* packInto writes the packed elements joined by ", " *)
Lemma fold_join2 : forall l out, Forall (fun x => x <> []) l ->
  fold_left join2 l out =
  match out, l with
  | [], _ => joinr l
  | _, [] => out
  | _, _ => out ++ [44; 32] ++ joinr l
  end.
Proof.
  induction l as [|x r IH]; intros out Hl; cbn [fold_left].
  - destruct out; reflexivity.
  - inversion Hl as [|? ? Hx Hr]; subst. rewrite (IH _ Hr).
    assert (Hj : join2 out x <> []).
    { unfold join2. destruct out; cbn [app]; [exact Hx|discriminate]. }
    destruct (join2 out x) as [|j0 jr] eqn:Ej; [contradiction|]. rewrite <- Ej. clear Hj.
    unfold join2. destruct out as [|o0 orest].
    + cbn [app joinr]. destruct r; [reflexivity|]. reflexivity.
    + cbn [joinr]. destruct r as [|y r'].
      * now rewrite <- app_assoc.
      * rewrite <- !app_assoc. reflexivity.
Qed.

Lemma pack_flags_known st : forall flags pcount out,
  (pcount = 0 <-> out = []) ->
  (forall F, In F flags -> isSet st F && negb (F =? CC_OTHER) = true -> pack_one st F <> []) ->
  pack_flags st flags pcount out =
  (fold_left join2 (flat_map (kn st) flags) out, pcount + lenN (flat_map (kn st) flags)).
Proof.
  induction flags as [|F r IH]; intros pcount out Hinv Hne; cbn [pack_flags flat_map].
  - cbn [fold_left lenN]. f_equal. lia.
  - unfold kn at 1 3. destruct (isSet st F && negb (F =? CC_OTHER)) eqn:EF.
    + pose proof (Hne F (or_introl eq_refl) EF) as Hx.
      rewrite IH.
      * cbn [app fold_left lenN]. f_equal; [|lia].
        f_equal. unfold join2, sep. destruct out as [|o0 orest].
        -- replace (pcount =? 0) with true by (destruct Hinv as [_ Hi]; rewrite (Hi eq_refl); reflexivity). reflexivity.
        -- replace (pcount =? 0) with false by (destruct Hinv as [Hi _]; destruct (pcount =? 0) eqn:E; [|reflexivity];
                                                 assert (pcount = 0) by lia; specialize (Hi H); discriminate).
           now rewrite <- app_assoc.
      * split; [lia|]. intros E. apply app_eq_nil in E. destruct E as [_ E]. apply app_eq_nil in E. destruct E as [_ E]. contradiction.
      * intros G HG. apply Hne. now right.
    + cbn [app]. apply IH; [exact Hinv|]. intros G HG. apply Hne. now right.
Qed.

Lemma cc_pack_known st : cc_wf st -> cc_ok st = true -> other st = [] -> cc_pack st = joinr (known st).
Proof.
  intros Hwf Hok Hoth. unfold cc_pack. unfold cc_ok in Hok. destruct (cmask st =? 0); [discriminate|].
  pose proof (known_good st Hwf) as Hg.
  assert (Hne : Forall (fun x => x <> []) (known st)).
  { clear -Hg. induction Hg as [|x l (_ & He & _) _ IH]; constructor; [now apply ends_nonnil|exact IH]. }
  fold all_flags. rewrite (pack_flags_known st all_flags 0 []).
  - fold (known st). rewrite Hoth. rewrite (fold_join2 _ [] Hne). reflexivity.
  - tauto.
  - intros F _ HF. apply andb_prop in HF. destruct HF as [HS _].
    destruct (pack_one_good st F Hwf HS) as (_ & He & _). now apply ends_nonnil.
Qed.

Lemma joinr_no_nul : forall l, Forall good_item l -> no_nul (joinr l).
Proof.
  induction l as [|x r IH]; intros H; [reflexivity|]. inversion H as [|? ? (_ & _ & Hn & _) Hr]; subst.
  cbn [joinr]. destruct r as [|y r']; [exact Hn|].
  apply no_nul_app. split; [exact Hn|]. apply no_nul_app. split; [reflexivity|]. now apply IH.
Qed.

Lemma list_items_joinr l : Forall good_item l -> list_items 44 (joinr l) = l.
Proof.
  intros H. rewrite list_items_items, (c_str_id _ (joinr_no_nul l H)). now apply items_joinr.
Qed.

(* C29 main theorem 3 (partial: objects without unknown directives):
   parse (pack (parse v)) = parse v *)
Theorem cc_roundtrip_known v st :
  cc_parse v = Some st -> cc_ok st = true -> other st = [] -> cc_parse (cc_pack st) = Some st.
Proof.
  intros Hp Hok Hoth. pose proof Hp as Hp0. rewrite cc_parse_exact in Hp. injection Hp as Hst.
  assert (Hwf : cc_wf st) by (rewrite <- Hst; apply spec_cc_wf).
  rewrite (cc_pack_known st Hwf Hok Hoth), cc_parse_exact.
  rewrite (list_items_joinr _ (known_good st Hwf)). f_equal. now apply spec_known.
Qed.

(* concrete values used by the Examples of Properties_C29.v *)
(* max-age=5, private="Set-Cookie", no-store, foo, MAX-AGE=7 *)
Definition ex_value : bytes :=
  [109;97;120;45;97;103;101;61;53;44;32;112;114;105;118;97;116;101;61;34;83;101;116;45;67;111;111;107;105;101;34;44;32;
   110;111;45;115;116;111;114;101;44;32;102;111;111;44;32;77;65;88;45;65;71;69;61;55].
(* max-age=4294967396, s-maxage=-1 : both invalid, both absent *)
Definition ex_invalid : bytes :=
  [109;97;120;45;97;103;101;61;52;50;57;52;57;54;55;51;57;54;44;32;115;45;109;97;120;97;103;101;61;45;49].
(* Max-Age=60 , no-cache="Set-Cookie, Age",private, max-stale : no unknown directive *)
Definition ex_known : bytes :=
  [77;97;120;45;65;103;101;61;54;48;32;44;32;110;111;45;99;97;99;104;101;61;34;83;101;116;45;67;111;111;107;105;101;44;32;65;103;101;34;
   44;112;114;105;118;97;116;101;44;32;109;97;120;45;115;116;97;108;101].
