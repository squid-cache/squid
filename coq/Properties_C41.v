(* Properties_C41.v — C41: domain-name ACLs match exactly the configured domain sets.
   Statements, closed by `exact` or by the few lines that assemble them; proofs live in SplayProofs.v (shared splay-tree library) and AcldomProofs.v. *)
Require Import SquidV.Bytes SquidV.SplayModel SquidV.SplayProofs SquidV.AcldomModel SquidV.AcldomProofs.
Require Import SquidV.gen.AclDom_gen.
Local Open Scope Z_scope.

(* ===== include/splay.h, for every value type and every comparator ===== *)

(* splay() keeps the in-order sequence *)
Theorem C41_splay_preserves_inorder : forall (V : Type) (cmp : V -> Z) (t : tree V),
  t <> Leaf -> inorder (fst (splay cmp t)) = inorder t.
Proof. exact @splay_inorder. Qed.

(* ... leaves compare(query, new root) in splayLastResult and stops at a boundary: a root that
   compares "less" has an in-order predecessor that compares "greater", and symmetrically *)
Theorem C41_splay_root_and_boundary : forall (V : Type) (cmp : V -> Z) (t : tree V), t <> Leaf ->
  exists a z b, splay cmp t = (Node a z b, cmp z) /\
    inorder t = inorder a ++ z :: inorder b /\
    (cmp z < 0 -> last_pos cmp (inorder a)) /\
    (cmp z > 0 -> first_neg cmp (inorder b)).
Proof. exact @splay_spec. Qed.

(* find() never changes the stored sequence *)
Theorem C41_find_preserves_inorder : forall (V : Type) (cmp : V -> Z) (h : tree V),
  inorder (fst (sp_find cmp h)) = inorder h.
Proof. exact @sp_find_inorder. Qed.

(* find() succeeds iff some stored element compares equal, provided the sign of
   compare(query, .) never increases along the in-order sequence *)
Theorem C41_find_iff_equal_element : forall (V : Type) (cmp : V -> Z) (h : tree V),
  mono cmp (inorder h) ->
  ((exists x, snd (sp_find cmp h) = Some x) <-> (exists x, In x (inorder h) /\ cmp x = 0)).
Proof. exact @sp_find_iff. Qed.

(* what find() returns compares equal and is stored (no condition on the comparator) *)
Theorem C41_find_returns_equal_element : forall (V : Type) (cmp : V -> Z) (h : tree V) (x : V),
  snd (sp_find cmp h) = Some x -> cmp x = 0 /\ In x (inorder h).
Proof. exact @sp_find_some. Qed.

(* insert(): a stored element that compares equal is returned and nothing changes ... *)
Theorem C41_insert_duplicate_unchanged : forall (V : Type) (cmp : V -> Z) (v : V) (h h' : tree V) (old : V),
  sp_insert cmp v h = (h', Some old) ->
  inorder h' = inorder h /\ cmp old = 0 /\ In old (inorder h).
Proof. exact @sp_insert_found. Qed.

(* ... otherwise the value goes exactly between the "greater" and the "less" elements *)
Theorem C41_insert_new_in_order : forall (V : Type) (cmp : V -> Z) (v : V) (h h' : tree V),
  mono cmp (inorder h) -> sp_insert cmp v h = (h', None) ->
  exists A B, inorder h = A ++ B /\ inorder h' = A ++ v :: B /\
    Forall (fun y => cmp y > 0) A /\ Forall (fun y => cmp y < 0) B.
Proof. exact @sp_insert_new. Qed.

(* remove() deletes exactly the element that compares equal (and loses nothing else) *)
Theorem C41_remove_deletes_equal_element : forall (V : Type) (cmp : V -> Z) (h : tree V) (A : list V) (x : V) (B : list V),
  inorder h = A ++ x :: B -> cmp x = 0 ->
  Forall (fun y => cmp y > 0) A -> Forall (fun y => cmp y < 0) B ->
  exists h', sp_remove cmp h = (h', true) /\ inorder h' = A ++ B.
Proof. exact @sp_remove_spec. Qed.

(* ===== matchDomainName and the insertion rules ===== *)

(* the regenerated xtolower table is idempotent and maps exactly '.' to '.' *)
Theorem C41_xtolower_table : forall c : N,
  lower (lower c) = lower c /\ (lower c = dot <-> c = dot).
Proof. intros c. split; [apply lower_idem| apply lower_dot]. Qed.

(* one value, ANY non-empty value: the comparison used by match() is 0 exactly for the names the
   value stands for ('.x' = x and every name ending in '.x'; otherwise the name itself; ignoring case) *)
Theorem C41_single_value_semantics : forall host v : bytes, v <> [] ->
  (matchDomainName host v = 0 <-> dom_match v host).
Proof. exact mdn_zero_iff. Qed.

(* matchDomainName(h, d) is the position of h (read from its end, '.' smallest, case folded)
   relative to the interval [lo d, hi d) that d denotes in the lexicographic order *)
Theorem C41_matchDomainName_is_interval_position : forall h d : bytes, d <> [] -> strip_dots h <> [] ->
  sign_is (vpos (rk (strip_dots h)) d) (matchDomainName h d).
Proof. exact mdn_pos. Qed.

(* leading dots of the looked-up name are ignored *)
Theorem C41_host_leading_dot_ignored : forall host d : bytes,
  matchDomainName (dot :: host) d = matchDomainName host d.
Proof. exact mdn_leading_dot. Qed.

(* Compare(a, b) orders disjoint intervals and answers 0 only for overlapping ones. The values
   that reach it are well-formed (a non-empty name not starting with '.', optionally preceded by
   one '.') or the value "."; the single pair it does not treat as duplicates is (".", "."). *)
Theorem C41_compare_orders_disjoint_sets : forall a b : bytes, wfx a -> wfx b -> ~ (a = dotv /\ b = dotv) ->
  (dcompare a b < 0 <-> before a b) /\ (dcompare a b > 0 <-> before b a) /\
  (dcompare a b = 0 -> inI (lo b) a \/ inI (lo a) b).
Proof.
  intros a b Ha Hb Hn. split; [apply dcompare_neg| split; [apply dcompare_pos| apply dcompare_zero]]; assumption.
Qed.

(* both comparators have monotone sign along a sequence sorted by "entirely before"
   (in which only copies of "." may repeat) *)
Theorem C41_compare_sign_monotone : forall (a : bytes) (l : list bytes),
  wfx a -> Forall wfx l -> sd l -> mono (dcompare a) l.
Proof. exact mono_dcompare. Qed.

Theorem C41_lookup_sign_monotone : forall (host : bytes) (l : list bytes),
  Forall wfx l -> sd l -> mono (host_cmp host) l.
Proof. exact mono_host. Qed.

(* IsSubset(a, b) is right about overlapping sets (any two values), and one of the two directions
   always holds, so MakeCombinedValue() is never reached *)
Theorem C41_issubset_sound : forall a b : bytes, (inI (lo b) a \/ inI (lo a) b) ->
  is_subset a b = true -> forall q, inI q a -> inI q b.
Proof. exact subset_sound. Qed.

Theorem C41_issubset_total : forall a b : bytes, is_subset a b = false -> is_subset b a = true.
Proof. exact subset_total. Qed.

(* parse() hands Merge() a well-formed value or "." for every non-empty token, and skipping
   redundant dots changes nothing else *)
Theorem C41_normalised_token_shape : forall t : bytes, t <> [] -> wfx (collapse_dots t).
Proof. exact collapse_wfx. Qed.

Theorem C41_normalisation_only_redundant_dots : forall tok : bytes,
  (forall r, tok <> dot :: dot :: r) -> norm tok = tok.
Proof. exact norm_id. Qed.

(* Merge(): terminates normally (never frees a stored value, never reaches MakeCombinedValue()),
   keeps the stored sets sorted and pairwise disjoint, and the union of the stored sets grows by
   exactly the new value's set *)
Theorem C41_merge_keeps_disjoint_same_union : forall (fuel : nat) (t : tree bytes) (n : Z) (v : bytes),
  inv t -> wfx v -> (tree_size t < fuel)%nat ->
  exists t' n', merge fuel t n v = MOk t' n' /\ inv t' /\
    (forall q, covered q (inorder t') <-> covered q (inorder t) \/ inI q v).
Proof. exact merge_spec. Qed.

(* ===== the property ===== *)

(* For EVERY list of non-empty tokens (the configuration parser never yields an empty one), in any
   order, with duplicates and overlaps, in any letter case: parse() ends normally and match(host)
   is true exactly when some token matches the host, where a token stands for its value with
   redundant leading dots skipped ([norm]; "..x" is ".x"), a value beginning with a dot matches
   that domain and all its sub-domains and any other value matches only itself ([dom_match]). *)
Theorem C41_acl_match_iff_some_value_matches : forall toks : list bytes, Forall nonempty toks ->
  exists t n, acl_parse toks = MOk t n /\
    forall host, snd (acl_match t host) = true <-> exists tok, In tok toks /\ dom_match (norm tok) host.
Proof. exact acl_correct. Qed.

(* the same for every later lookup: lookups re-shape the tree but never change an answer *)
Theorem C41_acl_match_sequence : forall toks : list bytes, Forall nonempty toks ->
  forall (hosts : list bytes) (t : tree bytes), acl_holds toks t ->
  Forall2 (fun host b => b = true <-> exists tok, In tok toks /\ dom_match (norm tok) host)
          hosts (snd (acl_match_seq t hosts)).
Proof. exact acl_match_seq_correct. Qed.

Theorem C41_acl_parse_establishes_invariant : forall toks : list bytes, Forall nonempty toks ->
  exists t n, acl_parse toks = MOk t n /\ acl_holds toks t.
Proof. exact acl_parse_ok. Qed.

(* non-vacuity: concrete instances of the hypotheses *)
Example C41_wfx_example : Forall wfx [s_da; s_a; [120; 46; 97]%N; [65; 46; 98]%N; dotv].
Proof.
  repeat (apply Forall_cons;
          [first [left; split; cbn; first [discriminate | reflexivity] | right; reflexivity]|]).
  constructor.
Qed.
Example C41_inv_example : inv (Node (Node Leaf dotv Leaf) s_a (Node Leaf [120; 46; 97]%N Leaf)).
Proof.
  split.
  - cbn [inorder app].
    repeat (apply Forall_cons;
            [first [left; split; cbn; first [discriminate | reflexivity] | right; reflexivity]|]).
    constructor.
  - cbn [inorder app sd].
    repeat split; repeat (apply Forall_cons; [left; unfold before, lle; vm_compute; discriminate|]); constructor.
Qed.
Example C41_mono_example : mono (fun b : Z => 3 - b) [1; 3; 5].
Proof. cbn [mono]. repeat split; repeat (constructor; [vm_compute; discriminate|]); constructor. Qed.
Example C41_parse_example :
  acl_parse [s_da; [120; 46; 97]%N; [66; 46; 99]%N] =
  MOk (Node (Node Leaf s_da Leaf) [98; 46; 99]%N Leaf) 2.
Proof. vm_compute. reflexivity. Qed.
Example C41_dom_match_example : dom_match s_da [88; 46; 65]%N /\ ~ dom_match s_a [120; 46; 97]%N.
Proof.
  split.
  - unfold dom_match. cbn. split; [discriminate|]. right. exists [120%N]. reflexivity.
  - unfold dom_match. cbn. intros [_ H]. discriminate.
Qed.
(* the two inputs that broke the code before the repair of parse() (lost value; freed stored value) *)
Example C41_former_counterexamples :
  (exists t n, acl_parse [s_dda; s_a] = MOk t n /\ snd (acl_match t s_a) = true) /\
  acl_parse [s_dda; s_da] = MOk (Node Leaf s_da Leaf) 1.
Proof. split; [eexists; eexists; split; vm_compute; reflexivity| vm_compute; reflexivity]. Qed.
(* "." is the one value that is not its own duplicate; it is merely stored twice *)
Example C41_dot_value_stored_twice :
  dcompare dotv dotv = -1 /\ acl_parse [dotv; dotv] = MOk (Node Leaf dotv (Node Leaf dotv Leaf)) 2.
Proof. split; vm_compute; reflexivity. Qed.

Print Assumptions C41_splay_preserves_inorder.
Print Assumptions C41_splay_root_and_boundary.
Print Assumptions C41_find_preserves_inorder.
Print Assumptions C41_find_iff_equal_element.
Print Assumptions C41_find_returns_equal_element.
Print Assumptions C41_insert_duplicate_unchanged.
Print Assumptions C41_insert_new_in_order.
Print Assumptions C41_remove_deletes_equal_element.
Print Assumptions C41_xtolower_table.
Print Assumptions C41_single_value_semantics.
Print Assumptions C41_matchDomainName_is_interval_position.
Print Assumptions C41_host_leading_dot_ignored.
Print Assumptions C41_compare_orders_disjoint_sets.
Print Assumptions C41_compare_sign_monotone.
Print Assumptions C41_lookup_sign_monotone.
Print Assumptions C41_issubset_sound.
Print Assumptions C41_issubset_total.
Print Assumptions C41_normalised_token_shape.
Print Assumptions C41_normalisation_only_redundant_dots.
Print Assumptions C41_merge_keeps_disjoint_same_union.
Print Assumptions C41_acl_match_iff_some_value_matches.
Print Assumptions C41_acl_match_sequence.
Print Assumptions C41_acl_parse_establishes_invariant.
