(* Properties_C33.v — C33: error pages never reflect client input unescaped.
   Statements, closed by `exact` or by the few lines that assemble them; proofs live in PagelogProofs.v.
   Model (PagelogModel.v): ErrorState::compile / compileLegacyCode / compileLogformatCode / Dump of
   src/errorpage.cc.  compile fuel st deny allowRecursion in_signature template = Some pieces: the expansion as a
   list of pieces (PLit = a template byte copied verbatim, PMac letter out = the bytes appended for one macro,
   PLog = output of an @Squid logformat sequence, PTail = unparsed rest after a bad one); the bytes sent are
   flatten pieces.  deny = compiling a deny_info URL.  Which switch case clears do_quote / sets no_urlescape /
   breaks early for deny_info URLs, the initial flag values and the presence and order of the two epilogue
   statements are regenerated from src/errorpage.cc (gen/ErrMacros_gen.v); html_quote and
   rfc1738_escape_part are the per-byte tables regenerated from the functions (gen/ByteMaps_gen.v).
   markup_free b: b contains none of the four characters less-than, greater-than, double quote, apostrophe,
   and b is a concatenation of items that are either one byte that is not a markup metacharacter (those four
   and the ampersand) or a well-formed entity reference (PagelogProofs.html_item, the C32 notion).
   is_client letter: the hand-assigned source class of the macro is Client (PagelogModel.class_table). *)
Require Import SquidV.Bytes SquidV.QuoteModel SquidV.PagelogModel SquidV.PagelogProofs.
Require Import SquidV.gen.ErrMacros_gen.
Local Open Scope N_scope.

(* the regenerated table against the source classes: the flags start as do_quote = 1, no_urlescape = 0, the
   epilogue still html_quote()s when do_quote is set and URL-escapes deny_info values afterwards, and no case
   of a client-controlled letter ( a B f F H m M o P R s U u z Z ) assigns do_quote.
   A macro edited to clear do_quote makes this fail. *)
Theorem C33_client_macro_cases_keep_do_quote :
  em_init_do_quote = true /\ em_init_no_urlescape = false /\
  em_epilogue_html_quote = true /\ em_epilogue_urlescape = true /\
  client_letters = [97; 66; 102; 70; 72; 109; 77; 111; 80; 82; 115; 85; 117; 122; 90] /\
  forall l, is_client l = true -> dq_kind l = 0.
Proof. repeat split; try reflexivity. exact client_dq. Qed.

(* one macro: for EVERY ErrorState content, both modes, any recursion function: what a client-controlled
   macro appends is a single piece that is markup-free *)
Theorem C33_client_macro_is_neutralised : forall rec st deny allowRec insig l two ps,
  is_client l = true -> legacy_code rec st deny allowRec insig l two = Some ps ->
  exists out, ps = [PMac l out] /\ markup_free out.
Proof. exact client_macro_quoted. Qed.

(* the whole expansion, for ALL templates (including the recursively compiled detail and signature templates),
   ALL ErrorState contents, both modes: every piece that comes from a client-controlled macro is markup-free;
   the mailto data of W contains none of the four quote/angle characters; g is markup-free unless the FTP
   directory listing (HTML assembled outside the anchored code) is present *)
Theorem C33_expansion_neutralises_client_data : forall fuel st deny allowRec insig template pieces,
  compile fuel st deny allowRec insig template = Some pieces -> Forall (piece_ok st) pieces.
Proof. exact compile_ok. Qed.

(* spelled out for the two entry points: the body of an error page and the Location of a deny_info redirect *)
Theorem C33_error_page_body : forall st template,
  exists pieces, build_body st template = Some (flatten pieces) /\ Forall (piece_ok st) pieces.
Proof.
  intros st template. unfold build_body. destruct (compile_top st false template) as [ps [-> H]].
  exists ps. split; [reflexivity|exact H].
Qed.

Theorem C33_deny_info_location : forall st template,
  exists pieces, build_deny_info_url st template = Some (flatten pieces) /\ Forall (piece_ok st) pieces.
Proof.
  intros st template. unfold build_deny_info_url. destruct (compile_top st true template) as [ps [-> H]].
  exists ps. split; [reflexivity|exact H].
Qed.

(* the recursion through the detail and signature macros is bounded (depth at most 3): the model never runs out of fuel *)
Theorem C33_recursion_is_bounded : forall fuel st deny allowRec insig template,
  (depth allowRec insig < fuel)%nat -> compile fuel st deny allowRec insig template <> None.
Proof. exact compile_total. Qed.

(* the two quoting steps themselves, for arbitrary input *)
Theorem C33_html_quote_output_is_markup_free : forall p, markup_free (html_q p).
Proof. exact html_q_markup_free. Qed.
Theorem C33_url_escape_output_has_no_metacharacter : forall p, forallb plain (escape_part p) = true.
Proof. exact escape_part_plain. Qed.
Theorem C33_mailto_dump_has_no_quote_or_angle : forall st, no_qmeta (dump st).
Proof. exact dump_no_qmeta. Qed.

(* non-vacuity: a concrete state (request for http://h/<x>'& with method M&, user a-doublequote-b, detail template %M!,
   signature template: by %h %S) expanded through every kind of piece: template text, client macros, the recursive D and S *)
Example C33_example_page :
  build_body sample_state [60; 37; 85; 62; 37; 77; 37; 97; 37; 68; 37; 83; 37; 113] =
  Some ([60] ++ [104;116;116;112;58;47;47;104;47; 38;108;116;59; 120; 38;103;116;59; 38;97;112;111;115;59; 38;97;109;112;59] ++ [62]
        ++ [77; 38;97;109;112;59] ++ [97; 38;113;117;111;116;59; 98] ++ [77; 38;97;109;112;59; 33]
        ++ [98;121;32; 104; 32; 91;37;83;93] ++ [37; 113]).
Proof. vm_compute. reflexivity. Qed.
Example C33_example_deny_info :
  build_deny_info_url sample_state [63; 117; 61; 37; 77; 38; 37; 82; 38; 37; 66] =
  Some ([63; 117; 61] ++ [77; 37;50;54; 97;109;112; 37;51;66] ++ [38]
        ++ [47; 38;108;116;59; 120; 38;103;116;59; 38;97;112;111;115;59; 38;97;109;112;59] ++ [38]).
Proof. vm_compute. reflexivity. Qed.
Example C33_example_classes : is_client 85 = true /\ is_client 77 = true /\ is_client 104 = false /\ is_client 79 = false /\
  dq_kind 79 = 1 /\ dq_kind 108 = 2 /\ dq_kind 113 = 2 /\ depth true false = 3%nat.
Proof. repeat split. Qed.
Example C33_example_markup_free : markup_free [97; 38; 108; 116; 59] /\ ~ markup_free [60] /\ ~ no_qmeta [39].
Proof.
  split; [|split].
  - split; [reflexivity|]. exists [[97]; [38; 108; 116; 59]]. split; [reflexivity|].
    constructor; [apply html_item_b_sound; reflexivity|constructor; [apply html_item_b_sound; reflexivity|constructor]].
  - intros [H _]. discriminate H.
  - intros H. discriminate H.
Qed.

Print Assumptions C33_client_macro_cases_keep_do_quote.
Print Assumptions C33_client_macro_is_neutralised.
Print Assumptions C33_expansion_neutralises_client_data.
Print Assumptions C33_error_page_body.
Print Assumptions C33_deny_info_location.
Print Assumptions C33_recursion_is_bounded.
Print Assumptions C33_html_quote_output_is_markup_free.
Print Assumptions C33_url_escape_output_has_no_metacharacter.
Print Assumptions C33_mailto_dump_has_no_quote_or_angle.
