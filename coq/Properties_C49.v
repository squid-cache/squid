(* Properties_C49.v — C49: in-memory object data (mem_hdr, src/stmem.cc) returns exactly what was written.
   Statements, closed by `exact` or by the few lines that assemble them; proofs live in MemhdrProofs.v (over SplayProofs.v).

   Vocabulary (MemhdrProofs.v): [cont h z] = the byte the header h stores at offset z (None = missing);
   [spec_write m off data] = the partial map m with data put at off..; [read_spec m off n] = the stored bytes
   from off on, at most n, up to the first missing one; [Inv h] = stored nodes sorted by offset, pairwise
   disjoint, 1..SM_PAGE_SIZE bytes each with an exact length field, Splay::elements = number of nodes,
   inmem_hi = end of the last node; [spec_step m o r m'] = what the partial-map specification allows operation o
   to answer (r) and to leave behind (m') on the map m; [spec_trace] = the same for a whole history, which ends
   at the first failed assert() / fatal_dump(). *)
Require Import SquidV.Bytes SquidV.SplayModel SquidV.SplayProofs SquidV.MemhdrModel SquidV.MemhdrProofs.
Require Import SquidV.gen.Memhdr_gen.
Local Open Scope Z_scope.

(* --- NodeCompare ("overlap => equal") is a monotone comparator on what mem_hdr stores, so the splay theorems apply --- *)
Theorem C49_nodecompare_monotone_on_stored_nodes : forall qs qe lo l,
  wf_from lo l -> mono (node_compare qs qe) l.
Proof. exact wf_mono. Qed.
Print Assumptions C49_nodecompare_monotone_on_stored_nodes.

(* --- constants regenerated from the code --- *)
Theorem C49_page_fits_data_array : (0 < sm_page_size)%N /\ (sm_page_size <= mem_node_data_capacity)%N.
Proof. exact (conj page_size_positive data_capacity_ok). Qed.
Print Assumptions C49_page_fits_data_array.

(* --- a fresh mem_hdr is the empty map --- *)
Theorem C49_fresh_header_is_empty_map : Inv mh_empty /\ forall z, cont mh_empty z = None.
Proof. exact (conj inv_empty cont_empty). Qed.
Print Assumptions C49_fresh_header_is_empty_map.

(* --- write: fatal_dump exactly when a byte of the range is already stored (assert exactly when the offset is
       negative); otherwise exactly the written bytes are added, at arbitrary (sparse) offsets --- *)
Theorem C49_write_adds_exactly_the_written_bytes : forall h off data, Inv h ->
  match mh_write h off data with
  | AssertFail => off < 0
  | FatalDump => 0 <= off /\ exists z, off <= z < off + Z.of_N (lenN data) /\ cont h z <> None
  | Ok h' => 0 <= off /\ (forall z, off <= z < off + Z.of_N (lenN data) -> cont h z = None) /\
             Inv h' /\ forall z, cont h' z = spec_write (cont h) off data z
  | Stuck => False
  end.
Proof. exact mh_write_spec. Qed.
Print Assumptions C49_write_adds_exactly_the_written_bytes.

(* --- copy: exactly the stored bytes from the offset up to the first missing byte (at most the requested
       number); fatal_dump exactly when the first byte is missing; the content is unchanged --- *)
Theorem C49_copy_returns_written_bytes_up_to_first_hole : forall h off len, Inv h ->
  match mh_copy h off len with
  | AssertFail => len = 0%N \/ inorder (h_nodes h) = [] \/ off < 0
  | FatalDump => (0 < len)%N /\ 0 <= off /\ inorder (h_nodes h) <> [] /\ cont h off = None
  | Ok (h', got) => (0 < len)%N /\ cont h off <> None /\
                    got = read_spec (cont h) off (N.to_nat len) /\
                    Inv h' /\ forall z, cont h' z = cont h z
  | Stuck => False
  end.
Proof. exact mh_copy_spec. Qed.
Print Assumptions C49_copy_returns_written_bytes_up_to_first_hole.

(* --- contiguity queries agree with the written ranges --- *)
Theorem C49_contiguity_agrees_with_written_ranges : forall h a b, Inv h ->
  match mh_hasContig h a b with
  | AssertFail => a < 0 /\ inorder (h_nodes h) <> []
  | Ok (h', r) => (0 <= a \/ inorder (h_nodes h) = []) /\
                  (r = true <-> forall z, a <= z < b -> cont h z <> None) /\
                  Inv h' /\ forall z, cont h' z = cont h z
  | FatalDump => False
  | Stuck => False
  end.
Proof. exact mh_hasContig_spec. Qed.
Print Assumptions C49_contiguity_agrees_with_written_ranges.

(* --- releasing never removes or changes a byte at or above the release offset, never alters what remains,
       removes only whole leading nodes ending at or below the target, keeps the last node and inmem_hi, and
       answers the lowest stored offset --- *)
Theorem C49_release_keeps_everything_at_or_above_target : forall h target, Inv h ->
  match mh_free h target with
  | Ok (h', lo) =>
      Inv h' /\
      (forall z, target <= z -> cont h' z = cont h z) /\
      (forall z b, cont h' z = Some b -> cont h z = Some b) /\
      (exists d, inorder (h_nodes h) = d ++ inorder (h_nodes h') /\ forall n, In n d -> n_end n <= target) /\
      (inorder (h_nodes h) <> [] -> inorder (h_nodes h') <> []) /\
      h_hi h' = h_hi h /\
      (forall z, z < lo -> cont h' z = None) /\
      (inorder (h_nodes h) <> [] -> cont h' lo <> None) /\
      (inorder (h_nodes h) = [] -> lo = 0)
  | AssertFail => False
  | FatalDump => False
  | Stuck => False
  end.
Proof. exact mh_free_spec. Qed.
Print Assumptions C49_release_keeps_everything_at_or_above_target.

(* --- endOffset: one past the highest stored byte; its assert (result == inmem_hi) never fires --- *)
Theorem C49_endOffset_is_one_past_highest_byte : forall h, Inv h ->
  exists e, mh_endOffset h = Ok e /\
    (forall z, e <= z -> cont h z = None) /\
    (inorder (h_nodes h) <> [] -> cont h (e - 1) <> None) /\
    (inorder (h_nodes h) = [] -> e = 0).
Proof. exact mh_endOffset_spec. Qed.
Print Assumptions C49_endOffset_is_one_past_highest_byte.

(* --- one operation, any operation: the invariant is kept and answer + effect are what the partial-map
       specification allows --- *)
Theorem C49_every_operation_refines_the_map : forall h o, Inv h ->
  Inv (fst (mh_step h o)) /\ spec_step (cont h) o (snd (mh_step h o)) (cont (fst (mh_step h o))).
Proof. exact step_refines. Qed.
Print Assumptions C49_every_operation_refines_the_map.

(* --- ALL histories on a fresh mem_hdr (writes at any offsets incl. sparse ones, releases, reads, contiguity
       queries, in any order; the history ends at the first failed assert / fatal_dump, which happen exactly where
       spec_step says): the answers are a trace of the partial-map specification started from the empty map, the
       invariant holds at the end, and no loop bound / uncovered pointer situation is ever met --- *)
Theorem C49_all_histories_refine_partial_map : forall ops,
  Inv (snd (mh_run mh_empty ops)) /\
  spec_trace (fun _ => None) ops (fst (mh_run mh_empty ops)) (cont (snd (mh_run mh_empty ops))) /\
  ~ In RStuck (fst (mh_run mh_empty ops)).
Proof. exact histories_refine. Qed.
Print Assumptions C49_all_histories_refine_partial_map.

(* --- every node of every reachable header fits the data[] array and has an exact length field --- *)
Theorem C49_reachable_nodes_fit_data_array : forall ops n,
  In n (inorder (h_nodes (snd (mh_run mh_empty ops)))) ->
  n_length n = lenN (n_data n) /\ (0 < n_length n <= mem_node_data_capacity)%N /\ 0 <= n_off n.
Proof. exact reachable_nodes_fit. Qed.
Print Assumptions C49_reachable_nodes_fit_data_array.

(* --- the hypotheses are satisfiable / the statements are not vacuous: a concrete sparse history --- *)
Example C49_example_history :
  fst (mh_run mh_empty
         [OWrite 100 [65%N]; OWrite 10 [66%N; 67%N]; OWrite 12 [68%N]; OCopy 10 5%N; OHas 10 13; OHas 10 101;
          OFree 50; OLow; OEnd; OCopy 100 1%N]) =
  [RWrite; RWrite; RWrite; RCopy [66%N; 67%N; 68%N]; RHas true; RHas false; RFree 100; RLow 100; REnd 101; RCopy [65%N]].
Proof. vm_compute. reflexivity. Qed.

Example C49_example_overlap_is_fatal :
  fst (mh_run mh_empty [OWrite 5 [1%N; 2%N]; OWrite 6 [3%N]; OEnd]) = [RWrite; RFatal].
Proof. vm_compute. reflexivity. Qed.

Example C49_example_invariant_nontrivial :
  Inv (snd (mh_run mh_empty [OWrite 100 [65%N]; OWrite 10 [66%N; 67%N]])) /\
  inorder (h_nodes (snd (mh_run mh_empty [OWrite 100 [65%N]; OWrite 10 [66%N; 67%N]]))) =
    [mkNode 10 2%N [66%N; 67%N]; mkNode 100 1%N [65%N]].
Proof. split; [exact (proj1 (histories_refine _))| vm_compute; reflexivity]. Qed.

Example C49_example_wf_premise : wf_from 0 [mkNode 10 2%N [66%N; 67%N]; mkNode 100 1%N [65%N]].
Proof. cbn [wf_from]. unfold node_ok, n_end, n_len, PAGE. cbn [n_off n_length n_data lenN]. vm_compute. intuition discriminate. Qed.
