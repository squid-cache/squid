(* ReqparseProofs.v — proofs about ReqparseModel.v (C21, C62; the grammar side, C22, is in ReqparseGrammar.v).

   One parse() call is analysed stage by stage, from the last stage upwards: [mime_cases] says what stage 3
   returns and that a definitive answer survives any extension of the buffer, [first_cases] reduces stage 2 to a
   rejection, a wait or stage 3 on the bytes after the request line, [step_none] does the same for stage 1.
   [step_extends] puts them together; segmentation independence is then Incremental.drive_oneshot. *)
Require Import SquidV.Bytes SquidV.TokModel SquidV.TokProofs SquidV.Incremental SquidV.ReqparseModel.
Require Import SquidV.gen.CharSets_gen SquidV.gen.ReqTabs_gen.
Require Import ZifyBool ZifyN ZifyNat.
Local Open Scope N_scope.

Lemma lenN_nonneg {A} (l : list A) : 0 <= lenN l.
Proof. lia. Qed.

Lemma lenN_dropN {A} n (l : list A) : lenN (dropN n l) = lenN l - n.
Proof. apply Bytes.lenN_dropN. Qed.

Lemma span_nil_r {A} (p : A -> bool) l a : span p l = (a, []) -> a = l.
Proof.
  intros H. pose proof (span_app p l) as G. rewrite H in G. cbn [fst snd] in G.
  rewrite app_nil_r in G. exact G.
Qed.

Lemma cs_LF_is_10 c : cs_LF c = (c =? 10).
Proof.
  destruct (N.eqb_spec c 10) as [->|Hne]; [reflexivity|].
  destruct (cs_LF c) eqn:H; [|reflexivity].
  apply (mem_tbl_sweep _ (fun c => c =? 10)) in H; [lia | now vm_compute | now vm_compute].
Qed.

Lemma not_lf_spec c : not_lf c = negb (c =? 10).
Proof. unfold not_lf. now rewrite cs_LF_is_10. Qed.

Lemma forallb_not_lf l : forallb (fun c => negb (c =? 10)) l = true -> forallb not_lf l = true.
Proof. apply forallb_impl. intros c H. now rewrite not_lf_spec. Qed.

(* inputs an SBuf can hold are shorter than npos (SBuf::maxSize = 0x0fffffff) *)
Definition fits (b : bytes) : Prop := lenN b <= npos.

Lemma fits_app_l a b : fits (a ++ b) -> fits a.
Proof. unfold fits. rewrite lenN_app. lia. Qed.

Lemma fits_app_r a b : fits (a ++ b) -> fits b.
Proof. unfold fits. rewrite lenN_app. lia. Qed.

Lemma fits_keep (b x keep : bytes) : fits (b ++ x) -> lenN keep <= lenN b -> fits (keep ++ x).
Proof. unfold fits. rewrite !lenN_app. lia. Qed.

(* find_line: the request line is what precedes the first LF *)
Lemma find_line_spec b : fits b ->
  find_line b =
  match span not_lf b with
  | ((_ :: _) as line, c :: rest) => Some (line, rest)
  | _ => None
  end.
Proof.
  intros Hf. unfold find_line. rewrite tok_prefix_eq_spec. unfold prefix_spec.
  rewrite takeN_all by exact Hf.
  pose proof (span_app not_lf b) as Happ. pose proof (span_stop not_lf b) as Hstop.
  destruct (span not_lf b) as [line r] eqn:S. cbn [fst snd] in *.
  destruct line as [|l0 line]; [reflexivity|].
  assert (Hd : dropN (lenN (l0 :: line)) b = r).
  { rewrite <- Happ at 1. apply dropN_app_exact. }
  rewrite Hd. destruct r as [|c rest]; cbn [tok_skipChar]; [reflexivity|].
  rewrite not_lf_spec in Hstop. destruct (c =? 10); [reflexivity|discriminate].
Qed.

Lemma find_line_split b line rest : find_line b = Some (line, rest) ->
  b = line ++ 10 :: rest /\ line <> [] /\ forallb (fun c => negb (c =? 10)) line = true.
Proof.
  unfold find_line. destruct (tok_prefix not_lf npos b) as [[l r]|] eqn:P; [|discriminate].
  apply tok_prefix_sound in P as (Hb & Hne & Hall & _).
  destruct r as [|c r]; cbn [tok_skipChar]; [discriminate|].
  destruct (N.eqb_spec c 10) as [->|]; intros [= <- <-]. split; [now symmetry|]. split; [exact Hne|].
  revert Hall. apply forallb_impl. intros c H. now rewrite <- not_lf_spec.
Qed.

Lemma find_line_lf line rest : fits (line ++ 10 :: rest) -> line <> [] ->
  forallb (fun c => negb (c =? 10)) line = true -> find_line (line ++ 10 :: rest) = Some (line, rest).
Proof.
  intros Hf Hne Hall. rewrite find_line_spec by exact Hf.
  rewrite span_app_forall by (apply forallb_not_lf, Hall).
  cbn [span]. rewrite not_lf_spec. cbn [N.eqb Pos.eqb negb fst snd]. rewrite app_nil_r.
  destruct line; [congruence|reflexivity].
Qed.

Lemma find_line_ext b x line rest :
  find_line b = Some (line, rest) -> find_line (b ++ x) = Some (line, rest ++ x).
Proof.
  unfold find_line. destruct (tok_prefix not_lf npos b) as [[l r]|] eqn:P; [|discriminate].
  destruct r as [|c r]; [discriminate|]. rewrite (tok_prefix_ext_some _ _ _ x _ _ P) by discriminate.
  cbn [app tok_skipChar]. destruct (c =? 10); [|discriminate]. now intros [= <- <-].
Qed.

(* without a complete line in b, any line found after extension contains all of b *)
Lemma find_line_none_ext b x line rest : fits (b ++ x) ->
  find_line b = None -> find_line (b ++ x) = Some (line, rest) -> lenN b <= lenN line.
Proof.
  intros Hf H G. rewrite find_line_spec in H by (eapply fits_app_l; exact Hf).
  rewrite find_line_spec in G by exact Hf.
  pose proof (span_all not_lf b) as Hall.
  destruct (span not_lf b) as [l r] eqn:S. destruct r as [|c r].
  - apply span_nil_r in S as ->. cbn [fst] in Hall. rewrite (span_app_forall _ _ x Hall) in G.
    destruct (b ++ fst (span not_lf x)) as [|l0 l'] eqn:E; [discriminate|].
    destruct (snd (span not_lf x)); [discriminate|]. injection G as <- _.
    rewrite <- E, lenN_app. lia.
  - rewrite (span_stable _ _ x _ _ _ S) in G. destruct l; discriminate.
Qed.

(* the blame rule looks at no more than maxMethodLength + 2 bytes *)
Lemma skip_delimiter_many relaxed n : 2 <= n -> skip_delimiter relaxed n = relaxed.
Proof.
  intros H. unfold skip_delimiter.
  replace (n =? 0) with false by lia. replace (1 <? n) with true by lia. now destruct relaxed.
Qed.

(* skipDelimiter tells 0, 1 and more apart: the first two bytes decide *)
Lemma skip_delimiter_ext relaxed set t x : 2 <= lenN t ->
  skip_delimiter relaxed (fst (tok_skipAll set (t ++ x))) = skip_delimiter relaxed (fst (tok_skipAll set t)).
Proof.
  intros H. rewrite !tok_skipAll_spec. cbn [fst].
  destruct t as [|a [|b r]]; cbn [lenN] in H; try lia.
  cbn [app span]. destruct (set a); [|reflexivity]. destruct (set b); [|reflexivity].
  destruct (span set (r ++ x)), (span set r). cbn [fst lenN]. now rewrite !skip_delimiter_many by lia.
Qed.

Lemma blame_ext relaxed s b x : req_max_method + 2 <= lenN b ->
  blame relaxed s (b ++ x) = blame relaxed s b.
Proof.
  intros H. unfold blame, parse_method.
  destruct (tok_prefix cs_TCHAR req_max_method b) as [[m t1]|] eqn:P.
  - pose proof (tok_prefix_sound _ _ _ _ _ P) as (Hb & _ & _ & Hm & _).
    assert (Ht : 2 <= lenN t1) by (rewrite <- Hb, lenN_app in H; lia).
    rewrite (tok_prefix_ext_some _ _ _ x _ _ P) by (intros ->; cbn [lenN] in Ht; lia).
    pose proof (skip_delimiter_ext relaxed (delim relaxed) t1 x Ht) as G.
    destruct (tok_skipAll (delim relaxed) (t1 ++ x)) as [cnt t2].
    destruct (tok_skipAll (delim relaxed) t1) as [cnt' t2']. cbn [fst] in G. rewrite G.
    destruct (skip_delimiter relaxed cnt'); reflexivity.
  - rewrite tok_prefix_ext_none; [reflexivity|exact P|]. intros ->. cbn [lenN] in H. lia.
Qed.

Lemma parse_method_bad_code relaxed s t s1 : parse_method relaxed s t = (s1, None) -> r_code s1 = rq_sc_bad_request.
Proof.
  unfold parse_method. destruct (tok_prefix cs_TCHAR req_max_method t) as [[m t1]|].
  - destruct (tok_skipAll (delim relaxed) t1) as [cnt t2].
    destruct (skip_delimiter relaxed cnt); intros [= <-]. reflexivity.
  - intros [= <-]. reflexivity.
Qed.

Lemma skip_trailing_crs_bad_code relaxed s t s1 :
  skip_trailing_crs relaxed s t = (s1, None) -> r_code s1 = rq_sc_bad_request.
Proof.
  unfold skip_trailing_crs. destruct relaxed; [discriminate|].
  destruct (tok_skipOneTrailing cs_CR t) as [[] t1]; intros [= <-]. reflexivity.
Qed.

Lemma parse_version_bad_code s t s1 : parse_version s t = (s1, None) -> r_code s1 = rq_sc_bad_request.
Proof.
  unfold parse_version.
  destruct (tok_skipSuffix http1p1 t) as [[] t11]; [discriminate|].
  destruct (tok_skipSuffix http1p0 t) as [[] t10]; [discriminate|].
  destruct (version_suffix t) as [[[majorD minorD] td]|]; [discriminate|].
  destruct (r_mid s =? req_m_get); intros [= <-]. reflexivity.
Qed.

Lemma parse_uri_bad_code relaxed s t s1 : parse_uri relaxed s t = (s1, None) ->
  r_code s1 = rq_sc_bad_request \/ r_code s1 = rq_sc_uri_too_long.
Proof.
  unfold parse_uri. destruct (tok_prefix (target_chars relaxed) npos t) as [[u t1]|].
  - destruct (req_max_uri <? lenN u); intros [= <-]. right; reflexivity.
  - intros [= <-]. left; reflexivity.
Qed.

Lemma parse_line_code relaxed s line s1 ok : parse_line relaxed s line = (s1, ok) ->
  if ok then r_code s1 = rq_sc_okay else r_code s1 = rq_sc_bad_request \/ r_code s1 = rq_sc_uri_too_long.
Proof.
  unfold parse_line.
  destruct (parse_method relaxed s line) as [sa [t1|]] eqn:PM;
    [|intros [= <- <-]; left; exact (parse_method_bad_code _ _ _ _ PM)].
  destruct (skip_trailing_crs relaxed sa t1) as [sb [t2|]] eqn:TC;
    [|intros [= <- <-]; left; exact (skip_trailing_crs_bad_code _ _ _ _ TC)].
  destruct (parse_version sb t2) as [sc [t3|]] eqn:PV;
    [|intros [= <- <-]; left; exact (parse_version_bad_code _ _ _ PV)].
  destruct (if r_major sc =? 0 then (true, sc, t3)
            else let '(cnt, t) := tok_skipAllTrailing (delim relaxed) t3 in
                 if skip_delimiter relaxed cnt then (true, sc, t)
                 else (false, set_code sc rq_sc_bad_request, t)) as [[[] s4] t4] eqn:D.
  - destruct (parse_uri relaxed s4 t4) as [s5 [t5|]] eqn:PU;
      [|intros [= <- <-]; exact (parse_uri_bad_code _ _ _ _ PU)].
    destruct t5; intros [= <- <-]; [reflexivity|left; reflexivity].
  - intros [= <- <-]. left. destruct (r_major sc =? 0); [discriminate|].
    destruct (tok_skipAllTrailing (delim relaxed) t3) as [cnt t].
    destruct (skip_delimiter relaxed cnt); [discriminate|]. injection D as <- _. reflexivity.
Qed.

Lemma blame_code relaxed s b :
  r_code (blame relaxed s b) = rq_sc_bad_request \/ r_code (blame relaxed s b) = rq_sc_uri_too_long.
Proof.
  unfold blame. destruct (parse_method relaxed s b) as [s1 [t|]] eqn:PM.
  - right. reflexivity.
  - left. eapply parse_method_bad_code; exact PM.
Qed.

Lemma first_line_cases relaxed limit s b :
  match first_line relaxed limit s b with
  | (FLok, s1, rest) => exists line, b = line ++ 10 :: rest /\ line <> [] /\
      forallb (fun c => negb (c =? 10)) line = true /\ lenN line < limit /\ parse_line relaxed s line = (s1, true)
  | (FLbad, s1, b1) => b1 = b /\ (r_code s1 = rq_sc_bad_request \/ r_code s1 = rq_sc_uri_too_long)
  | (FLmore, s1, b1) => s1 = s /\ b1 = b /\ lenN b < limit
  end.
Proof.
  unfold first_line. destruct (find_line b) as [[line rest]|] eqn:FL.
  - apply find_line_split in FL as (Hb & Hne & Hall). destruct (limit <=? lenN line) eqn:LL.
    + destruct (limit <=? lenN b) eqn:LB; [split; [reflexivity|apply blame_code]|].
      rewrite Hb, lenN_app in LB. lia.
    + destruct (parse_line relaxed s line) as [s1 []] eqn:PL.
      * exists line. repeat split; try assumption. lia.
      * split; [reflexivity|]. exact (parse_line_code _ _ _ _ _ PL).
  - destruct (limit <=? lenN b) eqn:LB; [split; [reflexivity|apply blame_code]|].
    repeat split. lia.
Qed.

Theorem first_line_of_line relaxed limit s line rest :
  fits (line ++ 10 :: rest) -> line <> [] -> forallb (fun c => negb (c =? 10)) line = true -> lenN line < limit ->
  first_line relaxed limit s (line ++ 10 :: rest) =
  match parse_line relaxed s line with
  | (s1, true) => (FLok, s1, rest)
  | (s1, false) => (FLbad, s1, line ++ 10 :: rest)
  end.
Proof.
  intros Hf Hne Hall Hlen. unfold first_line. rewrite find_line_lf by assumption.
  replace (limit <=? lenN line) with false by lia. reflexivity.
Qed.

Lemma first_line_ok_ext relaxed limit s b x s1 rest : fits (b ++ x) ->
  first_line relaxed limit s b = (FLok, s1, rest) ->
  first_line relaxed limit s (b ++ x) = (FLok, s1, rest ++ x).
Proof.
  intros Hf H. pose proof (first_line_cases relaxed limit s b) as C. rewrite H in C.
  destruct C as (line & -> & Hne & Hall & Hlen & PL). rewrite <- app_assoc in *. cbn [app] in *.
  rewrite first_line_of_line by assumption. now rewrite PL.
Qed.

Lemma first_line_overlong relaxed limit s p tail :
  find_line p = None -> limit <= lenN p -> fits (p ++ tail) ->
  first_line relaxed limit s (p ++ tail) = (FLbad, blame relaxed s (p ++ tail), p ++ tail).
Proof.
  intros Hp Hbig Hf. unfold first_line.
  replace (limit <=? lenN (p ++ tail)) with true by (rewrite lenN_app; lia).
  destruct (find_line (p ++ tail)) as [[line rest]|] eqn:FL; [|reflexivity].
  pose proof (find_line_none_ext _ _ _ _ Hf Hp FL). now replace (limit <=? lenN line) with true by lia.
Qed.

Lemma first_line_bad_ext relaxed limit s b x s1 b1 : req_max_method + 2 <= limit -> fits (b ++ x) ->
  first_line relaxed limit s b = (FLbad, s1, b1) ->
  first_line relaxed limit s (b ++ x) = (FLbad, s1, b ++ x).
Proof.
  intros Hlimit Hf. unfold first_line at 1.
  destruct (find_line b) as [[line rest]|] eqn:FL.
  - unfold first_line. rewrite (find_line_ext _ x _ _ FL). apply find_line_split in FL as (Hb & _).
    destruct (limit <=? lenN line) eqn:LL.
    + destruct (limit <=? lenN b) eqn:LB; [|discriminate]. intros [= <- _].
      replace (limit <=? lenN (b ++ x)) with true by (rewrite lenN_app; lia). now rewrite blame_ext by lia.
    + destruct (parse_line relaxed s line) as [s' []]; [discriminate|]. now intros [= <- _].
  - destruct (limit <=? lenN b) eqn:LB; [|discriminate]. intros [= <- _].
    rewrite first_line_overlong, blame_ext by (assumption || lia). reflexivity.
Qed.

(* scanning l ++ x: a terminator inside l is found at the same place; otherwise the scan goes on into x from
   the state reached at the end of l *)
Lemma headers_end_go_app l x : forall st e f,
  let (n, f') := headers_end_go l st e f in
  if n =? 0 then exists st', headers_end_go (l ++ x) st e f = headers_end_go x st' (e + lenN l) f'
  else e < n <= e + lenN l /\ headers_end_go (l ++ x) st e f = (n, f').
Proof.
  induction l as [|c l IH]; intros st e f.
  - cbn [headers_end_go app lenN N.eqb]. exists st. now rewrite N.add_0_r.
  - cbn [app headers_end_go lenN].
    assert (Hstop : N.succ e =? 0 = false) by lia.
    assert (Hrec : forall st1 f1,
      let (n, f') := headers_end_go l st1 (N.succ e) f1 in
      if n =? 0
      then exists st', headers_end_go (l ++ x) st1 (N.succ e) f1 = headers_end_go x st' (e + N.succ (lenN l)) f'
      else e < n <= e + N.succ (lenN l) /\ headers_end_go (l ++ x) st1 (N.succ e) f1 = (n, f')).
    { intros st1 f1. specialize (IH st1 (N.succ e) f1).
      destruct (headers_end_go l st1 (N.succ e) f1) as [n f'].
      replace (e + N.succ (lenN l)) with (N.succ e + lenN l) by lia.
      destruct (n =? 0); [exact IH|]. split; [lia|apply IH]. }
    destruct (st =? 0); [apply Hrec|]. destruct (st =? 1).
    + destruct (c =? 13); [apply Hrec|]. destruct (c =? 10); [rewrite Hstop; split; [lia|reflexivity]|].
      destruct ((c =? 32) || (c =? 9)); apply Hrec.
    + destruct (c =? 10); [rewrite Hstop; split; [lia|reflexivity]|apply Hrec].
Qed.

Lemma headers_end_found b x n f : headers_end b = (n, f) -> n <> 0 ->
  headers_end (b ++ x) = (n, f) /\ n <= lenN b.
Proof.
  unfold headers_end. intros H Hn. pose proof (headers_end_go_app b x 1 0 false) as G. rewrite H in G.
  replace (n =? 0) with false in G by lia. split; [apply G|lia].
Qed.

Lemma headers_end_later b x f n f' : headers_end b = (0, f) -> headers_end (b ++ x) = (n, f') ->
  n = 0 \/ lenN b < n.
Proof.
  unfold headers_end. intros H G. pose proof (headers_end_go_app b x 1 0 false) as A. rewrite H in A.
  destruct A as [st' A]. rewrite A in G.
  pose proof (headers_end_go_app x [] st' (0 + lenN b) f) as B. rewrite G in B. destruct (n =? 0) eqn:E; lia.
Qed.

Lemma stage_set_stage s x : r_stage (set_stage s x) = x.
Proof. reflexivity. Qed.

(* the block is the first e bytes (none when no field block is expected); a rejection and an accepted block
   stay what they are when bytes are appended; otherwise nothing has changed *)
Lemma grab_mime_cases limit s b :
  match grab_mime limit s b with
  | (true, s1, rest) => exists e m, s1 = set_stage (set_mime s m) SDone /\ rest = dropN e b /\ e <= lenN b /\
      (if r_http s && (r_major s =? 1)
       then (exists fold, headers_end b = (e, fold)) /\ e <> 0 /\ first_line_size s + e < limit else e = 0) /\
      forall x, grab_mime limit s (b ++ x) = (true, s1, rest ++ x)
  | (false, s1, b1) =>
      (s1 = set_stage (set_code s rq_sc_header_too_large) SDone /\
       forall x, exists b2, grab_mime limit s (b ++ x) = (false, s1, b2)) \/
      (s1 = s /\ b1 = b /\ lenN b + first_line_size s < limit)
  end.
Proof.
  unfold grab_mime. destruct (r_http s && (r_major s =? 1)).
  2:{ exists 0, (r_mime s). rewrite dropN_0. repeat split; try reflexivity. lia. }
  destruct (headers_end b) as [e fold] eqn:HE. destruct (e =? 0) eqn:E0.
  - destruct (limit <=? lenN b + first_line_size s) eqn:L; [left|right; repeat split; lia].
    split; [reflexivity|]. intros x. assert (e = 0) by lia; subst e.
    destruct (headers_end (b ++ x)) as [e' fold'] eqn:HE'.
    destruct (headers_end_later b x fold e' fold' HE HE') as [->|K].
    + cbn [N.eqb]. rewrite lenN_app.
      replace (limit <=? lenN b + lenN x + first_line_size s) with true by lia. eauto.
    + replace (e' =? 0) with false by lia. replace (limit <=? first_line_size s + e') with true by lia. eauto.
  - assert (Hx : forall x, headers_end (b ++ x) = (e, fold) /\ e <= lenN b)
      by (intros x; apply headers_end_found; [exact HE|lia]).
    destruct (Hx []) as [_ Hle].
    destruct (limit <=? first_line_size s + e) eqn:L.
    + left. split; [reflexivity|]. intros x. destruct (Hx x) as [-> _]. rewrite E0, L. eauto.
    + eexists e, _. split; [reflexivity|]. split; [reflexivity|]. split; [exact Hle|].
      split; [split; [eauto|lia]|]. intros x. destruct (Hx x) as [-> _].
      rewrite E0, L, takeN_app_le, dropN_app_le by exact Hle. reflexivity.
Qed.

(* one parse() call, classified as the caller sees it *)
Definition classify (r : bool * rst * bytes) : outcome :=
  let '(ok, s1, rest) := r in
  if needs_more s1 then More s1 rest
  else if ok then Done (fields_of s1) rest
  else Bad (r_code s1, fields_of s1).

(* the parser never re-enters a call with the internal "header too large" code pending *)
Definition inv (s : rst) : Prop := r_code s <> rq_sc_header_too_large.

Lemma inv_rst0 : inv rst0.
Proof. unfold inv. vm_compute. discriminate. Qed.

Lemma step_first relaxed limit s b : r_stage s = SFirst ->
  step relaxed limit s b = classify (do_first relaxed limit s b).
Proof. intros H. unfold step, do_parse. now rewrite H. Qed.

Lemma step_mime relaxed limit s b : r_stage s = SMime -> step relaxed limit s b = classify (do_mime limit s b).
Proof. intros H. unfold step, do_parse, do_first. now rewrite H. Qed.

Lemma step_done relaxed limit s b : r_stage s = SDone -> step relaxed limit s b = Done (fields_of s) b.
Proof. intros H. unfold step, do_parse, do_first, do_mime, needs_more. rewrite H. cbn [stage_eqb negb]. now rewrite H. Qed.

(* stage 3: accepted with the block of [grab_mime_cases], rejected with 431, or waiting with nothing changed *)
Lemma mime_cases limit s b : r_stage s = SMime ->
  match classify (do_mime limit s b) with
  | Done f rest => exists e m, f = fields_of (set_mime s m) /\ rest = dropN e b /\ e <= lenN b /\
      (if r_http s && (r_major s =? 1)
       then (exists fold, headers_end b = (e, fold)) /\ e <> 0 /\ first_line_size s + e < limit else e = 0) /\
      forall x, classify (do_mime limit s (b ++ x)) = Done f (rest ++ x)
  | Bad (c, f) => c = rq_sc_fields_too_large /\ forall x, classify (do_mime limit s (b ++ x)) = Bad (c, f)
  | More s' keep => keep = b /\ lenN b + first_line_size s < limit /\ (inv s -> s' = s)
  end.
Proof.
  intros Hst.
  assert (E : forall b, classify (do_mime limit s b) =
    match grab_mime limit s b with
    | (true, s1, rest) => classify (negb (needs_more s1), s1, rest)
    | (false, s1, b1) =>
        classify (false, if r_code s1 =? rq_sc_header_too_large then set_code s1 rq_sc_fields_too_large else s1, b1)
    end).
  { intros b0. unfold do_mime. rewrite Hst. cbn [stage_eqb]. now destruct (grab_mime limit s b0) as [[[] s1] b1]. }
  rewrite E. pose proof (grab_mime_cases limit s b) as G. destruct (grab_mime limit s b) as [[[] s1] b1].
  - destruct G as (e & m & -> & -> & Hle & Hx & Hext). exists e, m. repeat split; try assumption.
    intros x. now rewrite E, Hext.
  - destruct G as [[-> Hext] | (-> & -> & Hlt)].
    + cbn [r_code set_stage set_code]. rewrite N.eqb_refl. split; [reflexivity|].
      intros x. rewrite E. destruct (Hext x) as [b2 ->]. cbn [r_code set_stage set_code]. now rewrite N.eqb_refl.
    + unfold classify, needs_more.
      destruct (r_code s =? rq_sc_header_too_large) eqn:C; cbn [r_stage set_code]; rewrite Hst;
        (split; [reflexivity|split; [exact Hlt|]]); unfold inv; [lia|reflexivity].
Qed.

(* stage 2 ends in stage 3 on the bytes after the request line, in a rejection with 400 or 414, or waits *)
Lemma first_cases relaxed limit s b : r_stage s = SFirst ->
  (exists line r s1, b = line ++ 10 :: r /\ line <> [] /\ forallb (fun c => negb (c =? 10)) line = true /\
     lenN line < limit /\ parse_line relaxed s line = (s1, true) /\ inv (set_stage s1 SMime) /\
     classify (do_first relaxed limit s b) = classify (do_mime limit (set_stage s1 SMime) r) /\
     forall x, fits (b ++ x) ->
       classify (do_first relaxed limit s (b ++ x)) = classify (do_mime limit (set_stage s1 SMime) (r ++ x))) \/
  (exists c f, (c = rq_sc_bad_request \/ c = rq_sc_uri_too_long) /\
     classify (do_first relaxed limit s b) = Bad (c, f) /\
     (req_max_method + 2 <= limit -> forall x, fits (b ++ x) ->
        classify (do_first relaxed limit s (b ++ x)) = Bad (c, f))) \/
  (classify (do_first relaxed limit s b) = More s b /\ lenN b < limit).
Proof.
  intros Hst.
  assert (E : forall b, classify (do_first relaxed limit s b) =
    match first_line relaxed limit s b with
    | (FLok, s1, rest) => classify (do_mime limit (set_stage s1 SMime) rest)
    | (FLmore, s1, b1) => classify (do_mime limit s1 b1)
    | (FLbad, s1, b1) => Bad (r_code s1, fields_of s1)
    end).
  { intros b0. unfold do_first. rewrite Hst. cbn [stage_eqb]. now destruct (first_line relaxed limit s b0) as [[[] s1] b1]. }
  pose proof (first_line_cases relaxed limit s b) as C.
  destruct (first_line relaxed limit s b) as [[[] s1] b1] eqn:FL.
  - left. destruct C as (line & Hb & Hne & Hall & Hlen & PL). exists line, b1, s1.
    repeat split; try assumption.
    + unfold inv. cbn [r_code set_stage]. rewrite (parse_line_code _ _ _ _ _ PL). vm_compute. discriminate.
    + now rewrite E, FL.
    + intros x Hf. now rewrite E, (first_line_ok_ext _ _ _ _ x _ _ Hf FL).
  - right; right. destruct C as (-> & -> & Hlt). split; [|exact Hlt].
    rewrite E, FL. unfold do_mime. rewrite Hst. cbn [stage_eqb]. unfold classify, needs_more. now rewrite Hst.
  - right; left. destruct C as (-> & Hc). exists (r_code s1), (fields_of s1). split; [exact Hc|].
    split; [now rewrite E, FL|]. intros Hl x Hf. now rewrite E, (first_line_bad_ext _ _ _ _ x _ _ Hl Hf FL).
Qed.

(* stage 1: leading empty lines *)
Definition none_view (relaxed : bool) (b : bytes) : bytes := if relaxed then skip_garbage b else b.

(* nothing is left, or only a CR that may begin a tolerated empty line *)
Definition waits (relaxed : bool) (v : bytes) : bool :=
  (relaxed && list_eqb v [13]) || match v with [] => true | _ :: _ => false end.

Lemma step_none relaxed limit s b : r_stage s = SNone ->
  step relaxed limit s b =
  if waits relaxed (none_view relaxed b) then More s (none_view relaxed b)
  else classify (do_first relaxed limit (set_stage s SFirst) (none_view relaxed b)).
Proof.
  intros H. unfold step, do_parse, waits. rewrite H. cbn [stage_eqb]. fold (none_view relaxed b).
  destruct (relaxed && list_eqb (none_view relaxed b) [13]); cbn [orb].
  - unfold needs_more. now rewrite H.
  - destruct (none_view relaxed b); [|reflexivity]. unfold needs_more. now rewrite H.
Qed.

Lemma waits_len relaxed v : waits relaxed v = true -> lenN v <= 1.
Proof.
  unfold waits. destruct v as [|c [|d r]]; cbn [lenN list_eqb]; [lia|lia|].
  rewrite !andb_false_r. discriminate.
Qed.

Lemma skip_garbage_len b : lenN (skip_garbage b) <= lenN b.
Proof.
  induction b as [|c r IH]; cbn [skip_garbage lenN]; [lia|].
  destruct (c =? 10); [lia|]. destruct (c =? 13); [|cbn [lenN]; lia].
  destruct r as [|d r']; [cbn [lenN]; lia|]. destruct (d =? 10); [lia|cbn [lenN]; lia].
Qed.

Lemma none_view_len relaxed b : lenN (none_view relaxed b) <= lenN b.
Proof. unfold none_view. destruct relaxed; [apply skip_garbage_len|lia]. Qed.

(* while stage 1 waits, new bytes are looked at from what it kept; once it has handed a buffer to stage 2,
   appended bytes follow that buffer *)
Lemma none_view_ext relaxed b x :
  if waits relaxed (none_view relaxed b)
  then none_view relaxed (b ++ x) = none_view relaxed (none_view relaxed b ++ x)
  else none_view relaxed (b ++ x) = none_view relaxed b ++ x /\ waits relaxed (none_view relaxed b ++ x) = false.
Proof.
  unfold none_view, waits. destruct relaxed; cbn [andb orb]; [|now destruct b].
  induction b as [|c r IH]; [reflexivity|]. cbn [app skip_garbage].
  destruct (c =? 10) eqn:C10; [exact IH|]. destruct (c =? 13) eqn:C13.
  - destruct r as [|d r']; [cbn [list_eqb app skip_garbage]; now rewrite C10, C13|]. cbn [app].
    destruct (d =? 10) eqn:D10; [exact IH|].
    cbn [list_eqb app skip_garbage]. rewrite C10, C13, D10, andb_false_r. now split.
  - cbn [list_eqb app skip_garbage]. rewrite C10, C13. now split.
Qed.

(* the three properties of one parse() call, for every parser state *)
Section Main.
  Variables (relaxed : bool) (limit : N).
  Hypothesis Hlimit : req_max_method + 2 <= limit.

  Notation P := (step relaxed limit).

  (* what appending x to the buffer of a call with outcome o does: o' is the outcome on the longer buffer *)
  Definition extends (x : bytes) (o o' : outcome) : Prop :=
    match o with
    | Done f rest => o' = Done f (rest ++ x)
    | Bad e => o' = Bad e
    | More s' keep => o' = P s' (keep ++ x) /\ inv s' /\ fits (keep ++ x)
    end.

  Lemma mime_extends s b x : r_stage s = SMime -> inv s -> fits (b ++ x) ->
    extends x (classify (do_mime limit s b)) (classify (do_mime limit s (b ++ x))).
  Proof.
    intros Hst Hi Hf. pose proof (mime_cases limit s b Hst) as C. unfold extends.
    destruct (classify (do_mime limit s b)) as [f rest|[c f]|s' keep].
    - destruct C as (e & m & _ & _ & _ & _ & Hx). apply Hx.
    - apply C.
    - destruct C as (-> & _ & C). rewrite (C Hi). split; [|split; assumption].
      now rewrite step_mime.
  Qed.

  Lemma first_extends s b x : r_stage s = SFirst -> inv s -> fits (b ++ x) ->
    extends x (classify (do_first relaxed limit s b)) (classify (do_first relaxed limit s (b ++ x))).
  Proof.
    intros Hst Hi Hf.
    destruct (first_cases relaxed limit s b Hst)
      as [(line & r & s1 & Hb & _ & _ & _ & _ & Hi1 & E & Hx) | [(c & f & _ & E & Hx) | [E _]]]; rewrite E.
    - rewrite (Hx x Hf). apply mime_extends; [reflexivity|exact Hi1|].
      apply (fits_keep b); [exact Hf|]. rewrite Hb, lenN_app. cbn [lenN]. lia.
    - exact (Hx Hlimit x Hf).
    - split; [|split; assumption]. now rewrite step_first.
  Qed.

  Theorem step_extends s b x : inv s -> fits (b ++ x) -> extends x (P s b) (P s (b ++ x)).
  Proof.
    intros Hi Hf. destruct (r_stage s) eqn:Hst.
    - rewrite !step_none by exact Hst. pose proof (none_view_ext relaxed b x) as V.
      pose proof (fits_keep b x _ Hf (none_view_len relaxed b)) as Hfv.
      destruct (waits relaxed (none_view relaxed b)).
      + split; [|split; assumption]. now rewrite V, step_none.
      + destruct V as [-> ->]. now apply first_extends.
    - rewrite !step_first by exact Hst. now apply first_extends.
    - rewrite !step_mime by exact Hst. now apply mime_extends.
    - now rewrite !step_done by exact Hst.
  Qed.

  Theorem step_stable_done : stable_done rst fields (N * fields) P inv fits.
  Proof. intros s b f rest x Hi Hf H. pose proof (step_extends s b x Hi Hf) as E. now rewrite H in E. Qed.

  Theorem step_stable_bad : stable_bad rst fields (N * fields) P inv fits.
  Proof. intros s b e x Hi Hf H. pose proof (step_extends s b x Hi Hf) as E. now rewrite H in E. Qed.

  Theorem step_checkpoint_commutes : checkpoint_commutes rst fields (N * fields) P inv fits.
  Proof. intros s b s' keep x Hi Hf H. pose proof (step_extends s b x Hi Hf) as E. now rewrite H in E. Qed.

  (* C21: every segmentation of every input gives the outcome of the one-shot parse *)
  Theorem req_parse_segmentation_independent : forall segs,
    segs <> [] -> fits (concat segs) ->
    parse_segments relaxed limit segs = parse_whole relaxed limit (concat segs).
  Proof.
    intros segs Hne Hf.
    exact (drive_oneshot rst fields (N * fields) P inv fits
             step_stable_done step_stable_bad step_checkpoint_commutes segs rst0 [] Hne inv_rst0 Hf).
  Qed.

  (* from any reachable checkpoint as well *)
  Theorem req_parse_segmentation_independent_from : forall segs s keep,
    segs <> [] -> inv s -> fits (keep ++ concat segs) ->
    drive relaxed limit s keep segs = step relaxed limit s (keep ++ concat segs).
  Proof.
    exact (drive_oneshot rst fields (N * fields) P inv fits
             step_stable_done step_stable_bad step_checkpoint_commutes).
  Qed.

  Theorem req_parse_two_segmentations : forall segs1 segs2,
    segs1 <> [] -> segs2 <> [] -> concat segs1 = concat segs2 -> fits (concat segs1) ->
    parse_segments relaxed limit segs1 = parse_segments relaxed limit segs2.
  Proof.
    intros segs1 segs2 H1 H2 Hc Hf.
    exact (drive_segmentation_irrelevant rst fields (N * fields) P inv fits
             step_stable_done step_stable_bad step_checkpoint_commutes segs1 segs2 rst0 [] H1 H2 Hc inv_rst0 Hf).
  Qed.
End Main.

(* limit 10: "GETGETGETG" | " /" -- whole: method + 1 delimiter => blame the URI (414);
   in pieces the first read already reaches the limit, no delimiter seen => 400 *)
Theorem req_parse_small_limit_refuted : exists relaxed limit segs,
  limit < req_max_method + 2 /\ segs <> [] /\
  parse_segments relaxed limit segs <> parse_whole relaxed limit (concat segs).
Proof.
  exists false, 10, [[71;69;84;71;69;84;71;69;84;71]; [32;47]].
  split; [vm_compute; reflexivity|]. split; [discriminate|].
  vm_compute. discriminate.
Qed.

Definition is_crlf (c : N) : bool := (c =? 13) || (c =? 10).

Lemma skip_garbage_split b : exists lead, b = lead ++ skip_garbage b /\ forallb is_crlf lead = true.
Proof.
  induction b as [|c r IH].
  - exists []. split; reflexivity.
  - cbn [skip_garbage]. destruct (c =? 10) eqn:E10.
    + destruct IH as (lead & Hb & Hl). exists (c :: lead). split; [cbn [app]; congruence|].
      cbn [forallb]. unfold is_crlf at 1. rewrite E10, Hl. destruct (c =? 13); reflexivity.
    + destruct (c =? 13) eqn:E13; [|exists []; split; reflexivity].
      destruct r as [|d r']; [exists []; split; reflexivity|].
      destruct (d =? 10) eqn:D10; [|exists []; split; reflexivity].
      destruct IH as (lead & Hb & Hl). exists (c :: lead). split; [cbn [app]; congruence|].
      cbn [forallb]. unfold is_crlf at 1. rewrite E13, Hl. reflexivity.
Qed.

(* what "within the limits" means for an accepted request, stated on the raw input bytes:
   input = tolerated empty lines ++ request line ++ LF ++ header block ++ unconsumed rest *)
Definition accepted_within (limit : N) (input : bytes) (f : fields) (rest : bytes) : Prop :=
  exists lead line block,
    input = lead ++ line ++ [10] ++ block ++ rest /\
    forallb is_crlf lead = true /\
    forallb (fun c => negb (c =? 10)) line = true /\
    lenN line < limit /\
    (if f_http f && (f_major f =? 1)
     then lenN (f_mimg f) + lenN (f_uri f) + req_fls_extra + lenN block < limit
     else block = []).

Theorem accepted_request_within_limits relaxed limit input f rest :
  parse_whole relaxed limit input = Done f rest -> accepted_within limit input f rest.
Proof.
  unfold parse_whole. rewrite step_none by reflexivity.
  destruct (waits relaxed (none_view relaxed input)); [discriminate|]. intros K.
  assert (Hlead : exists lead, input = lead ++ none_view relaxed input /\ forallb is_crlf lead = true).
  { unfold none_view. destruct relaxed; [apply skip_garbage_split|now exists []]. }
  destruct Hlead as (lead & Hin & Hlead).
  destruct (first_cases relaxed limit (set_stage rst0 SFirst) (none_view relaxed input) eq_refl)
    as [(line & r & s1 & Hb & _ & Hall & Hlen & _ & _ & E & _) | [(c & f0 & _ & E & _) | [E _]]];
    rewrite E in K; try discriminate.
  pose proof (mime_cases limit (set_stage s1 SMime) r eq_refl) as M. rewrite K in M.
  destruct M as (e & m & -> & -> & Hle & Hx & _).
  exists lead, line, (takeN e r). split; [now rewrite takeN_dropN, Hin at 1; rewrite Hb|].
  repeat split; try assumption.
  cbn [f_http f_major f_mimg f_uri fields_of r_http r_major r_mimg r_uri set_mime set_stage] in *.
  unfold first_line_size in Hx. cbn [r_mimg r_uri set_stage] in Hx.
  destruct (r_http s1 && (r_major s1 =? 1)).
  - rewrite lenN_takeN. lia.
  - subst e. apply takeN_0.
Qed.

(* rejections carry 400, 414 or 431 *)
Definition reject_code (c : N) : Prop :=
  c = rq_sc_bad_request \/ c = rq_sc_uri_too_long \/ c = rq_sc_fields_too_large.

(* what a call that does not accept leaves: one of the three codes, or fewer than limit bytes to keep *)
Definition bounded (limit : N) (o : outcome) : Prop :=
  match o with
  | Done _ _ => True
  | Bad (c, _) => reject_code c
  | More _ keep => lenN keep < limit
  end.

Theorem step_bounded relaxed limit s b : req_max_method + 2 <= limit -> bounded limit (step relaxed limit s b).
Proof.
  intros Hlimit.
  assert (Hm : forall s0 b0, r_stage s0 = SMime -> bounded limit (classify (do_mime limit s0 b0))).
  { intros s0 b0 Hst. pose proof (mime_cases limit s0 b0 Hst) as M.
    destruct (classify (do_mime limit s0 b0)) as [f rest|[c f]|s' keep]; cbn [bounded].
    - exact I.
    - right; right. apply M.
    - destruct M as (-> & M & _). lia. }
  assert (Hfst : forall s0 b0, r_stage s0 = SFirst -> bounded limit (classify (do_first relaxed limit s0 b0))).
  { intros s0 b0 Hst.
    destruct (first_cases relaxed limit s0 b0 Hst)
      as [(line & r & s1 & _ & _ & _ & _ & _ & _ & E & _) | [(c & f & Hc & E & _) | [E Hlt]]]; rewrite E.
    - now apply Hm.
    - unfold bounded, reject_code. tauto.
    - exact Hlt. }
  destruct (r_stage s) eqn:Hst.
  - rewrite step_none by exact Hst. destruct (waits relaxed (none_view relaxed b)) eqn:W; [|now apply Hfst].
    apply waits_len in W. cbn [bounded]. lia.
  - rewrite step_first by exact Hst. now apply Hfst.
  - rewrite step_mime by exact Hst. now apply Hm.
  - now rewrite step_done by exact Hst.
Qed.

(* once the request line has been accepted (the parser waits in stage MIME), the only possible
   rejection is "header fields too large" *)
Theorem header_block_rejection_is_431 relaxed limit : req_max_method + 2 <= limit ->
  forall head s keep x c f, fits (head ++ x) ->
  parse_whole relaxed limit head = More s keep -> r_stage s = SMime ->
  parse_whole relaxed limit (head ++ x) = Bad (c, f) -> c = rq_sc_fields_too_large.
Proof.
  intros Hl head s keep x c f Hf Hm Hst Hb. unfold parse_whole in *.
  destruct (step_checkpoint_commutes relaxed limit Hl rst0 head s keep x inv_rst0 Hf Hm) as (E & _ & _).
  rewrite E, step_mime in Hb by exact Hst.
  pose proof (mime_cases limit s (keep ++ x) Hst) as M. rewrite Hb in M. apply M.
Qed.

Theorem accepted_segments_within_limits relaxed limit : req_max_method + 2 <= limit ->
  forall segs f rest, segs <> [] -> lenN (concat segs) <= npos ->
  parse_segments relaxed limit segs = Done f rest -> accepted_within limit (concat segs) f rest.
Proof.
  intros Hl segs f rest Hne Hf H.
  rewrite (req_parse_segmentation_independent relaxed limit Hl segs Hne Hf) in H.
  exact (accepted_request_within_limits _ _ _ _ _ H).
Qed.

(* rejections and waits in every segmentation.  The bound on a waiting parser is
   ConnStateData::parseRequests()'s Must(inBuf.length() < Config.maxRequestHeaderSize) *)
Theorem segments_bounded relaxed limit segs : req_max_method + 2 <= limit -> segs <> [] -> fits (concat segs) ->
  bounded limit (parse_segments relaxed limit segs).
Proof.
  intros Hl Hne Hf. rewrite (req_parse_segmentation_independent relaxed limit Hl segs Hne Hf). now apply step_bounded.
Qed.

(* reply half: the reply_header_max_size decision *)
Theorem resp_relay_within_limit limit fls buf n :
  resp_head_decision limit fls buf = RHrelay n -> fls + n < limit /\ 0 < n /\ n <= lenN buf.
Proof.
  unfold resp_head_decision. destruct (headers_end buf) as [e fold] eqn:HE.
  destruct (e =? 0) eqn:E0.
  - destruct (limit <=? lenN buf + fls); discriminate.
  - destruct (headers_end_found buf [] e fold HE ltac:(lia)) as [_ Hle].
    destruct (limit <=? fls + e) eqn:L; intros [= <-]. lia.
Qed.

Theorem resp_decision_stable limit fls buf x :
  (forall n, resp_head_decision limit fls buf = RHrelay n -> resp_head_decision limit fls (buf ++ x) = RHrelay n) /\
  (resp_head_decision limit fls buf = RHtoobig -> resp_head_decision limit fls (buf ++ x) = RHtoobig) /\
  (resp_head_decision limit fls buf = RHmore -> lenN buf + fls < limit).
Proof.
  unfold resp_head_decision. destruct (headers_end buf) as [e fold] eqn:HE.
  destruct (e =? 0) eqn:E0.
  - assert (e = 0) by lia. subst e.
    destruct (limit <=? lenN buf + fls) eqn:L; (split; [discriminate|split]); try discriminate; [|lia].
    intros _. destruct (headers_end (buf ++ x)) as [e' fold'] eqn:HE'.
    destruct (headers_end_later buf x fold e' fold' HE HE') as [->|K].
    + cbn [N.eqb]. rewrite lenN_app. now replace (limit <=? lenN buf + lenN x + fls) with true by lia.
    + replace (e' =? 0) with false by lia. now replace (limit <=? fls + e') with true by lia.
  - destruct (headers_end_found buf x e fold HE ltac:(lia)) as [-> _]. rewrite E0.
    destruct (limit <=? fls + e); (split; [easy|split]); easy.
Qed.

(* an over-long request line with a well-formed method is answered 414 *)
Lemma tchar_facts c : cs_TCHAR c = true -> c <> 10 /\ c <> 13 /\ c <> 32.
Proof.
  intros H. apply (mem_tbl_sweep _ (fun c => negb (c =? 10) && negb (c =? 13) && negb (c =? 32))) in H;
    [lia | now vm_compute | now vm_compute].
Qed.

Lemma delim_sp relaxed : delim relaxed 32 = true.
Proof. destruct relaxed; vm_compute; reflexivity. Qed.

Lemma skip_delimiter_1 relaxed : skip_delimiter relaxed (N.succ 0) = true.
Proof. destruct relaxed; reflexivity. Qed.

(* a buffer that starts with a byte other than CR and LF goes to stage 2 as it is *)
Lemma step_start relaxed limit s b : r_stage s = SNone ->
  match b with c :: _ => c <> 10 /\ c <> 13 | [] => False end ->
  step relaxed limit s b = classify (do_first relaxed limit (set_stage s SFirst) b).
Proof.
  intros Hst Hb. rewrite step_none by exact Hst. destruct b as [|c r]; [easy|].
  assert (E10 : c =? 10 = false) by lia. assert (E13 : c =? 13 = false) by lia.
  unfold none_view, waits. destruct relaxed; cbn [skip_garbage]; rewrite ?E10, ?E13; cbn [list_eqb];
    now rewrite ?E13.
Qed.

Lemma parse_method_sp relaxed s m c r :
  m <> [] -> forallb cs_TCHAR m = true -> lenN m <= req_max_method -> delim relaxed c = false ->
  parse_method relaxed s (m ++ 32 :: c :: r) = (set_method s (method_of relaxed m), Some (c :: r)).
Proof.
  intros Hne Hm Hlen Hc. unfold parse_method.
  rewrite tok_prefix_complete by first [assumption | right; now vm_compute].
  rewrite tok_skipAll_spec. cbn [span]. rewrite delim_sp, Hc. cbn [fst snd lenN].
  now rewrite skip_delimiter_1.
Qed.

Theorem overlong_line_414 relaxed limit m c u tail :
  req_max_method + 2 <= limit ->
  m <> [] -> forallb cs_TCHAR m = true -> lenN m <= req_max_method ->
  delim relaxed c = false ->
  forallb (fun b => negb (b =? 10)) (m ++ 32 :: c :: u) = true ->
  limit <= lenN (m ++ 32 :: c :: u) -> fits ((m ++ 32 :: c :: u) ++ tail) ->
  exists f, parse_whole relaxed limit ((m ++ 32 :: c :: u) ++ tail) = Bad (rq_sc_uri_too_long, f).
Proof.
  intros Hl Hne Hm Hlen Hc Hnolf Hbig Hf. unfold parse_whole.
  rewrite step_start; [|reflexivity|].
  2:{ destruct m as [|a m']; [congruence|]. cbn [app forallb] in *.
      apply andb_true_iff in Hm as [Ha _]. apply tchar_facts in Ha. tauto. }
  assert (Hp : find_line (m ++ 32 :: c :: u) = None).
  { rewrite find_line_spec by exact (fits_app_l _ _ Hf).
    rewrite (span_forall _ _ (forallb_not_lf _ Hnolf)). now destruct m. }
  unfold do_first. cbn [r_stage set_stage stage_eqb]. rewrite first_line_overlong by assumption.
  unfold classify, needs_more, blame. cbn [r_stage r_code set_stage stage_eqb negb].
  (* the blame rule: a method and exactly one delimiter are there, so the URI is taken to be too long *)
  rewrite <- app_assoc. cbn [app]. rewrite parse_method_sp by assumption. eexists. reflexivity.
Qed.
