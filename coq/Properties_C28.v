(* Properties_C28.v — C28: Range canonicalisation preserves the requested byte set.
   Statements, closed by `exact` or by the few lines that assemble them; proofs live in RangeProofs.v.
   Specification side (RangeProofs.v): pos_value (1*DIGIT <= INT64_MAX), spec_of_text (the byte-range-spec grammar),
   elements (comma split, white-space trim, empty elements skipped), header_specs (what a header value requests),
   wants clen s p (byte p of a clen-byte representation is selected by spec s), canon_of (one exact canonical range
   per satisfiable spec, in order). *)
Require Import SquidV.Bytes SquidV.TokModel SquidV.HopModel SquidV.HopProofs SquidV.RangeModel SquidV.RangeProofs.
Local Open Scope Z_scope.

(* --- the grammar the specification uses --- *)
Theorem C28_byte_position_is_digits_fitting_int64 : forall ds v,
  pos_value ds = Some v <-> ds <> [] /\ forallb is_digit ds = true /\ v = dec_value ds /\ v <= int64_max.
Proof. exact pos_value_meaning. Qed.
Print Assumptions C28_byte_position_is_digits_fitting_int64.

Theorem C28_spec_text_is_the_byte_range_grammar : forall el s,
  spec_of_text el = Some s <->
  (exists ds n, el = 45%N :: ds /\ pos_value ds = Some n /\ s = RSuffix n) \/
  (exists d1 a, el = d1 ++ [45%N] /\ pos_value d1 = Some a /\ s = RFrom a) \/
  (exists d1 d2 a b, el = d1 ++ 45%N :: d2 /\ pos_value d1 = Some a /\ pos_value d2 = Some b /\ a <= b /\ s = RRange a b).
Proof. exact spec_of_text_meaning. Qed.
Print Assumptions C28_spec_text_is_the_byte_range_grammar.

(* --- strListGetItem against the comma split: equal on DQUOTE-free text, equally invalid otherwise --- *)
Theorem C28_item_loop_is_comma_split_without_quotes : forall l, nonul l = true -> noq l = true ->
  list_items 44 l = elements l.
Proof. exact list_items_noq. Qed.
Print Assumptions C28_item_loop_is_comma_split_without_quotes.

Theorem C28_item_loop_and_comma_split_agree_on_specs : forall l, nonul l = true ->
  all_some (map spec_of_text (list_items 44 l)) = all_some (map spec_of_text (elements l)).
Proof. exact items_vs_elements. Qed.
Print Assumptions C28_item_loop_and_comma_split_agree_on_specs.

(* --- parsing: accepted exactly when every element is a valid spec (and there is one); nothing overflows --- *)
Theorem C28_parse_accepts_exactly_the_valid_headers : forall value,
  range_parse value = (match header_specs value with Some l => Some (map repr l) | None => None end, false).
Proof. exact range_parse_spec. Qed.
Print Assumptions C28_parse_accepts_exactly_the_valid_headers.

Theorem C28_invalid_spec_ignores_header : forall value clen el,
  ci_eqb (takeN 6 (c_str value)) bytes_eq = true ->
  In el (elements (dropN 6 (c_str value))) -> spec_of_text el = None ->
  range_run value clen = (None, false).
Proof. exact invalid_spec_ignores_header. Qed.
Print Assumptions C28_invalid_spec_ignores_header.

(* --- canonize on one spec: kept iff it selects a byte; then exactly its byte set, inside [0,clen) --- *)
Theorem C28_canonical_spec_is_exact_byte_set : forall clen s, valid_spec s -> -1 <= clen <= int64_max ->
  let '(c, good, ub) := spec_canonize clen (repr s) in
  ub = false /\
  (good = true -> 0 <= fst c /\ 0 < snd c /\ fst c + snd c <= clen /\ forall p, in_canon c p <-> wants clen s p) /\
  (good = false -> forall p, ~ wants clen s p).
Proof. exact spec_canonize_spec. Qed.
Print Assumptions C28_canonical_spec_is_exact_byte_set.

(* --- the whole pipeline: order-preserving, one exact range per satisfiable spec --- *)
Theorem C28_canon_specs_exact : forall value clen, -1 <= clen <= int64_max ->
  match header_specs value with
  | None => range_run value clen = (None, false)
  | Some specs =>
      exists cs, range_run value clen = (Some (map repr specs, (match cs with [] => false | _ => true end, cs)), false) /\
                 canon_of clen specs cs
  end.
Proof. exact range_run_spec. Qed.
Print Assumptions C28_canon_specs_exact.

(* --- the property as worded: non-empty, within the representation, union = requested satisfiable bytes --- *)
Theorem C28_canonical_ranges_cover_exactly_the_requested_bytes : forall value clen specs,
  -1 <= clen <= int64_max -> header_specs value = Some specs ->
  exists cs, range_run value clen = (Some (map repr specs, (match cs with [] => false | _ => true end, cs)), false) /\
    Forall (fun c => 0 <= fst c /\ 0 < snd c /\ fst c + snd c <= clen) cs /\
    (forall p, (exists c, In c cs /\ in_canon c p) <-> (exists s, In s specs /\ wants clen s p)).
Proof. exact range_canon_exact. Qed.
Print Assumptions C28_canonical_ranges_cover_exactly_the_requested_bytes.

(* --- no signed overflow, no value-changing conversion, no failed assert, for any header and length --- *)
Theorem C28_range_no_overflow : forall value clen, -1 <= clen <= int64_max -> snd (range_run value clen) = false.
Proof. exact range_no_overflow. Qed.
Print Assumptions C28_range_no_overflow.

(* --- the hypotheses are satisfiable; concrete values --- *)
(* "bytes=0-99,200-, -5" on 1000 bytes *)
Definition C28_ex_value : bytes := [98;121;116;101;115;61;48;45;57;57;44;50;48;48;45;44;32;45;53]%N.
Example C28_ex_specs : header_specs C28_ex_value = Some [RRange 0 99; RFrom 200; RSuffix 5].
Proof. vm_compute. reflexivity. Qed.
Example C28_ex_run : range_run C28_ex_value 1000 =
  (Some ([(0, 100); (200, -1); (-1, 5)], (true, [(0, 100); (200, 800); (995, 5)])), false).
Proof. vm_compute. reflexivity. Qed.
Example C28_ex_wants : wants 1000 (RSuffix 5) 997 /\ ~ wants 1000 (RFrom 200) 199.
Proof. unfold wants. lia. Qed.
(* "bytes=0-99,1x-5": one invalid element, header ignored *)
Example C28_ex_invalid :
  let v := [98;121;116;101;115;61;48;45;57;57;44;49;120;45;53]%N in
  In [49;120;45;53]%N (elements (dropN 6 (c_str v))) /\ spec_of_text [49;120;45;53]%N = None /\ range_run v 1000 = (None, false).
Proof. vm_compute. repeat split. right. left. reflexivity. Qed.
(* "bytes=0-9223372036854775807": the case that used to overflow *)
Example C28_ex_int64_max :
  range_run [98;121;116;101;115;61;48;45;57;50;50;51;51;55;50;48;51;54;56;53;52;55;55;53;56;48;55]%N 1000
  = (Some ([(0, -1)], (true, [(0, 1000)])), false).
Proof. vm_compute. reflexivity. Qed.
Example C28_ex_valid_spec : valid_spec (RRange 0 99) /\ -1 <= 1000 <= int64_max.
Proof. unfold valid_spec, int64_max, two63. lia. Qed.
Example C28_ex_clean_text : nonul [49;45;50;44;32;51;45]%N = true /\ noq [49;45;50;44;32;51;45]%N = true.
Proof. vm_compute. split; reflexivity. Qed.
