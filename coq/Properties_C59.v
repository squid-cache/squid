(* Properties_C59.v — C59: timed events fire in order and never after cancellation.
   Statements, closed by `exact` or by the few lines that assemble them; proofs live in EventProofs.v.  Model: EventModel.v (src/event.cc, src/EventLoop.cc).
   ev_lt x y  :=  x is due earlier than y, or at the same time and was scheduled earlier.
   ev_reachable s := s is the state after some history of operations from an empty scheduler. *)
Require Import SquidV.Bytes SquidV.EventModel SquidV.EventProofs.
Require Import SquidV.gen.Event_gen.
From Coq Require Import Sorting.Sorted.
Local Open Scope Z_scope.

(* --- the queue is always in (due time, scheduling order) order, for every history ------------------ *)
Theorem C59_queue_in_due_order_fifo : forall s, ev_reachable s ->
  StronglySorted ev_lt (s_q s) /\ Forall (fun x => (e_id x < s_next s)%N) (s_q s).
Proof. exact queue_ordered. Qed.
Print Assumptions C59_queue_in_due_order_fifo.

(* --- an event never fires before its due time (any state, reachable or not) ------------------------ *)
Theorem C59_never_early : forall s s1 r d, ev_step s OCheck = (s1, RCheck r d) ->
  Forall (fun x => e_when x <= s_now s) d /\ s_q s = d ++ s_q s1 /\ s_pend s1 = s_pend s ++ d /\ r <> CAssert.
Proof. exact never_early. Qed.
Print Assumptions C59_never_early.

(* ... where the due time is the one schedule() computed: every dequeued event is one of the events created
   by the schedule() calls of the history, with e_when = clock at that call + when (0 for when <= 0) *)
Theorem C59_never_early_history : forall t0 ops s d q' r,
  snd (ev_run (ev_init t0) ops) = s -> ev_check_events (s_now s) (s_inv s) (s_q s) = (d, q', r) ->
  Forall (fun x => In x (ev_created t0 0%N ops) /\ e_when x <= s_now s) d.
Proof. exact never_early_history. Qed.
Print Assumptions C59_never_early_history.

(* --- events fire in due-time order, equal times in scheduling order -------------------------------- *)
Theorem C59_fires_in_due_order_fifo : forall s s1 r d, ev_reachable s -> ev_step s OCheck = (s1, RCheck r d) ->
  StronglySorted ev_lt d /\ (forall x y, In x d -> In y (s_q s1) -> ev_lt x y).
Proof. exact fires_in_order. Qed.
Print Assumptions C59_fires_in_due_order_fifo.

(* --- nothing that is due is left behind, except behind a heavy event ------------------------------- *)
Theorem C59_check_takes_all_due_until_heavy : forall s s1 r d, ev_reachable s -> ev_step s OCheck = (s1, RCheck r d) ->
  (d = [] /\ (forall y, In y (s_q s) -> e_when y > s_now s)) \/
  (exists d0 z, d = d0 ++ [z] /\ forallb (fun x => negb (ev_heavy (s_inv s) x)) d0 = true /\
                (ev_heavy (s_inv s) z = true \/ forall y, In y (s_q s1) -> e_when y > s_now s)).
Proof. exact check_takes_all_due. Qed.
Print Assumptions C59_check_takes_all_due_until_heavy.

(* --- schedule() inserts behind all events with the same or an earlier time and touches nothing else - *)
Theorem C59_schedule_inserts_stably : forall s f a w wt cb s1 out, ev_reachable s ->
  ev_step s (OSched f a w wt cb) = (s1, out) ->
  let e := mkEv (s_next s) f a (ev_timestamp (s_now s) w) wt cb in
  out = RSched (s_next s) /\
  s_q s1 = filter (fun x => e_when x <=? e_when e) (s_q s) ++ e :: filter (fun x => e_when x >? e_when e) (s_q s) /\
  s_pend s1 = s_pend s /\ s_now s1 = s_now s.
Proof. exact schedule_inserts_stably. Qed.
Print Assumptions C59_schedule_inserts_stably.

(* --- cancelling leaves all other events scheduled -------------------------------------------------- *)
Theorem C59_cancel_all_leaves_others : forall s f s1 out, ev_step s (OCancel f 0%N) = (s1, out) ->
  s_q s1 = filter (fun x => negb (e_func x =? f)%N) (s_q s) /\ out = RCancel false /\
  s_pend s1 = s_pend s /\ s_now s1 = s_now s /\ s_next s1 = s_next s.
Proof. exact cancel_all_leaves_others. Qed.
Print Assumptions C59_cancel_all_leaves_others.

Theorem C59_cancel_one_leaves_others : forall s f a s1 out, a <> 0%N -> ev_step s (OCancel f a) = (s1, out) ->
  s_pend s1 = s_pend s /\ s_now s1 = s_now s /\ s_next s1 = s_next s /\
  ((forallb (ev_nomatch f a) (s_q s) = true /\ s_q s1 = s_q s /\ out = RCancel true) \/
   (exists l1 x l2, s_q s = l1 ++ x :: l2 /\ forallb (ev_nomatch f a) l1 = true /\
                    e_func x = f /\ e_arg x = a /\ s_q s1 = l1 ++ l2 /\ out = RCancel false)).
Proof. exact cancel_one_leaves_others. Qed.
Print Assumptions C59_cancel_one_leaves_others.

(* --- a cancelled event never fires ------------------------------------------------------------------
   partial: for events that are still in the scheduler's queue when cancel() is called.  Whatever
   operations follow, the event is never queued, pending or dequeued again. *)
Theorem C59_cancelled_never_fires_partial : forall s f a s1 out x ops, ev_reachable s ->
  ev_step s (OCancel f a) = (s1, out) -> In x (s_q s) -> ~ In x (s_q s1) ->
  let s2 := snd (ev_run s1 ops) in
  ~ In (e_id x) (map e_id (s_pend s2 ++ s_q s2)) /\
  forall d q' r, ev_check_events (s_now s2) (s_inv s2) (s_q s2) = (d, q', r) -> ~ In (e_id x) (map e_id d).
Proof. exact cancelled_never_fires_partial. Qed.
Print Assumptions C59_cancelled_never_fires_partial.

Theorem C59_cancel_all_then_only_new : forall s f s1 out ops, ev_reachable s -> ev_step s (OCancel f 0%N) = (s1, out) ->
  forall y, In y (s_q (snd (ev_run s1 ops))) -> e_func y = f ->
  In y (ev_created (s_now s1) (s_next s1) ops) \/ In y (s_pend s).
Proof. exact cancel_all_then_only_new. Qed.
Print Assumptions C59_cancel_all_then_only_new.

(* refuted as literally stated: schedule, checkEvents (the event becomes a queued AsyncCall), cancel (not
   found: debug_trap), dispatch: the handler runs.  event.h documents cancel as "cancel a scheduled but not
   dispatched event". *)
Theorem C59_cancelled_never_fires_refuted :
  exists ops, fst (ev_run (ev_init 0) ops) =
    [RSched 0%N; RCheck (CRes ev_idle) [mkEv 0%N 1%N 1%N 0 0 false]; RCancel true; RDispatch [(1%N, 1%N)]].
Proof. exact cancelled_never_fires_refuted. Qed.
Print Assumptions C59_cancelled_never_fires_refuted.

(* --- timeRemaining: 0 iff the head is due, idle iff empty, otherwise rounded up to whole ms --------- *)
Theorem C59_time_remaining_exact : forall now q,
  match q with
  | [] => ev_time_remaining now q = CRes ev_idle
  | x :: _ =>
    (e_when x <= now /\ ev_time_remaining now q = CRes 0) \/
    (e_when x > now /\
     ((1000 * (e_when x - now) > 1024 * ev_int_max /\ ev_time_remaining now q = CUndef) \/
      (exists ms, ev_time_remaining now q = CRes ms /\ 1 <= ms <= ev_int_max /\
                  1024 * ms >= 1000 * (e_when x - now) /\
                  (ms = 1 \/ 1024 * (ms - 1) < 1000 * (e_when x - now)))))
  end.
Proof. exact remaining_spec. Qed.
Print Assumptions C59_time_remaining_exact.

(* --- EventLoop::runOnce: the loop bound is never hit, assert(event) never fails -------------------- *)
Theorem C59_loop_pass_total : forall s s1 out, ev_step s OLoop = (s1, out) ->
  out <> RLoop LFuel /\ out <> RLoop LAssert /\
  forall q' i dl fr, out = RLoop (LDone q' i dl fr) -> exists dd, s_q s = dd ++ q' /\ s_q s1 = q' /\ s_pend s1 = [].
Proof. exact loop_pass_total. Qed.
Print Assumptions C59_loop_pass_total.

Theorem C59_dispatch_in_dequeue_order : forall s s1 out, ev_step s ODispatch = (s1, out) ->
  out = RDispatch (map (fun x => (e_func x, e_arg x)) (filter (ev_callable (s_inv s)) (s_pend s))) /\
  s_pend s1 = [] /\ s_q s1 = s_q s.
Proof. exact dispatch_in_order. Qed.
Print Assumptions C59_dispatch_in_dequeue_order.

(* --- the hypotheses are satisfiable by non-trivial values ------------------------------------------ *)
Definition ex_ops : list eop :=
  [OSched 1%N 1%N 2048 0 false; OSched 2%N 1%N 1024 1 false; OSched 1%N 2%N 1024 0 false;
   OSched 3%N 0%N 0 0 false; OClock 6024].
Definition ex_state : est := snd (ev_run (ev_init 5000) ex_ops).

Example C59_ex_reachable : ev_reachable ex_state.
Proof. exists 5000, ex_ops. reflexivity. Qed.

(* the zero-delay event first, then the two events due at 6024 in scheduling order; the first of them is
   heavy, so checkEvents stops behind it although the next one is due as well *)
Example C59_ex_queue : map e_id (s_q ex_state) = [3%N; 1%N; 2%N; 0%N].
Proof. vm_compute. reflexivity. Qed.

Example C59_ex_check : exists s1 r, ev_step ex_state OCheck = (s1, RCheck r (firstn 2 (s_q ex_state))) /\ r = CRes 0.
Proof. eexists. eexists. vm_compute. split; reflexivity. Qed.

Example C59_ex_cancel_one : exists s1, ev_step ex_state (OCancel 1%N 2%N) = (s1, RCancel false) /\
  map e_id (s_q s1) = [3%N; 1%N; 0%N] /\ In (nth 2 (s_q ex_state) (mkEv 0%N 0%N 0%N 0 0 false)) (s_q ex_state).
Proof. eexists. vm_compute. repeat split; auto. Qed.

Example C59_ex_cancel_all : exists s1, ev_step ex_state (OCancel 1%N 0%N) = (s1, RCancel false) /\
  map e_id (s_q s1) = [3%N; 1%N].
Proof. eexists. vm_compute. split; reflexivity. Qed.

Example C59_ex_loop : exists s1 q', ev_step ex_state OLoop = (s1, RLoop (LDone q' false 0 [(3%N, 0%N); (2%N, 1%N); (1%N, 2%N)])).
Proof. eexists. eexists. vm_compute. reflexivity. Qed.

Example C59_ex_remaining : ev_time_remaining 5000 (s_q (snd (ev_run (ev_init 5000) [OSched 1%N 1%N 1025 0 false]))) = CRes 1001.
Proof. vm_compute. reflexivity. Qed.
