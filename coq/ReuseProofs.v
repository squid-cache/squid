(* ReuseProofs.v — proofs for C11 (store / reuse decision). *)
Require Import SquidV.Bytes SquidV.HopModel SquidV.HopProofs SquidV.ReuseModel.
Require Import SquidV.gen.Reuse_gen SquidV.gen.ReuseCfg_gen.
Require Import ZifyBool ZifyN ZifyNat.
Local Open Scope N_scope.

(* an element of a Cache-Control list "is the directive d": it is d, or d followed by '=' (letter case ignored) *)
Definition is_directive (d item : bytes) : bool := ci_eqb item d || ci_prefix item (d ++ [61]).
Definition no_eq (d : bytes) : bool := forallb (fun c => negb (c =? 61)) d.

Definition d_no_store : bytes := [110;111;45;115;116;111;114;101].
Definition d_private : bytes := [112;114;105;118;97;116;101].
Definition d_public : bytes := [112;117;98;108;105;99].
Definition d_must_revalidate : bytes := [109;117;115;116;45;114;101;118;97;108;105;100;97;116;101].
Definition d_s_maxage : bytes := [115;45;109;97;120;97;103;101].
Definition d_no_cache : bytes := [110;111;45;99;97;99;104;101].

Lemma to_lower_61 c : (to_lower c =? to_lower 61) = (c =? 61).
Proof. unfold to_lower. destruct ((65 <=? c) && (c <=? 90)) eqn:E; cbn; lia. Qed.

Lemma ci_eqb_refl a : ci_eqb a a = true.
Proof. exact (HopProofs.ci_eqb_refl a). Qed.

Lemma ci_eqb_sym a : forall b, ci_eqb a b = ci_eqb b a.
Proof. exact (HopProofs.ci_eqb_sym a). Qed.

Lemma ci_prefix_nil l : ci_prefix l [] = true.
Proof. destruct l; reflexivity. Qed.

Lemma find_eq_shift l : forall i, find_eq l i = match find_eq l 0 with Some k => Some (k + i) | None => None end.
Proof.
  induction l as [|c r IH]; intros i; cbn [find_eq]; [reflexivity|].
  destruct (c =? 61); [f_equal; lia|].
  rewrite (IH (i + 1)), (IH (0 + 1)). destruct (find_eq r 0); [f_equal; lia|reflexivity].
Qed.

(* the name part of an item: everything before the first '=' *)
Lemma name_part_cons x item :
  takeN (item_nlen (x :: item)) (x :: item) = if x =? 61 then [] else x :: takeN (item_nlen item) item.
Proof.
  unfold item_nlen. cbn [find_eq]. destruct (x =? 61); [reflexivity|].
  rewrite (find_eq_shift item (0 + 1)). destruct (find_eq item 0) as [k|].
  - replace (k + (0 + 1)) with (N.succ k) by lia. cbn [takeN]. now rewrite N.pred_succ, (proj2 (N.eqb_neq _ 0) (N.neq_succ_0 k)).
  - cbn [lenN takeN]. now rewrite N.pred_succ, (proj2 (N.eqb_neq _ 0) (N.neq_succ_0 _)).
Qed.

(* it matches d exactly when d has no '=' and the item is the directive d *)
Lemma name_is_directive d : forall item,
  ci_eqb (takeN (item_nlen item) item) d = no_eq d && is_directive d item.
Proof.
  unfold is_directive. induction d as [|y d IH]; intros [|x item]; try reflexivity.
  - rewrite name_part_cons. cbn [no_eq forallb ci_eqb ci_prefix app andb orb].
    rewrite to_lower_61, ci_prefix_nil, andb_true_r. now destruct (x =? 61).
  - cbn [app ci_eqb ci_prefix orb]. now rewrite andb_false_r.
  - rewrite name_part_cons. cbn [no_eq forallb ci_eqb ci_prefix app]. fold (no_eq d). rewrite <- andb_orb_distrib_r.
    destruct (x =? 61) eqn:Ex.
    + (* the name part is empty, and '=' matches only '=', which d may not start with *)
      apply N.eqb_eq in Ex. subst x. rewrite (N.eqb_sym (to_lower 61)), to_lower_61.
      destruct (y =? 61); cbn [negb andb]; [reflexivity|now rewrite andb_false_r].
    + cbn [ci_eqb]. rewrite IH. destruct (y =? 61) eqn:Ey.
      * apply N.eqb_eq in Ey. subst y. now rewrite to_lower_61, Ex.
      * cbn [negb andb]. now destruct (to_lower x =? to_lower y), (no_eq d).
Qed.

Lemma cc_lookup_ci tbl a b : ci_eqb a b = true -> cc_lookup tbl a = cc_lookup tbl b.
Proof.
  intros H. induction tbl as [|[nm id] r IH]; cbn [cc_lookup]; [reflexivity|].
  rewrite (ci_eqb_trans_l a b nm H). now rewrite IH.
Qed.

Lemma directive_type d : no_eq d = true -> forall item,
  is_directive d item = true -> item_type item = cc_type_by_name d.
Proof.
  intros Hd item H. unfold item_type, cc_type_by_name. apply cc_lookup_ci.
  now rewrite name_is_directive, Hd, H.
Qed.

Lemma cc_lookup_found tbl name id : cc_lookup tbl name = id -> id <> CC_OTHER ->
  exists nm, In (nm, id) tbl /\ ci_eqb name nm = true.
Proof.
  induction tbl as [|[nm i] r IH]; cbn [cc_lookup]; intros H Hne; [congruence|].
  destruct (ci_eqb name nm) eqn:E.
  - subst i. exists nm. split; [now left|exact E].
  - destruct (IH H Hne) as [nm' [Hin He]]. exists nm'. split; [now right|exact He].
Qed.

(* the regenerated table maps exactly these names to these ids *)
Lemma tbl_no_store : cc_type_by_name d_no_store = CC_NO_STORE. Proof. vm_compute. reflexivity. Qed.
Lemma tbl_private : cc_type_by_name d_private = CC_PRIVATE. Proof. vm_compute. reflexivity. Qed.
Lemma tbl_public : cc_type_by_name d_public = CC_PUBLIC. Proof. vm_compute. reflexivity. Qed.
Lemma tbl_must_revalidate : cc_type_by_name d_must_revalidate = CC_MUST_REVALIDATE. Proof. vm_compute. reflexivity. Qed.
Lemma tbl_s_maxage : cc_type_by_name d_s_maxage = CC_S_MAXAGE. Proof. vm_compute. reflexivity. Qed.
Lemma tbl_no_cache : cc_type_by_name d_no_cache = CC_NO_CACHE. Proof. vm_compute. reflexivity. Qed.

(* each id has exactly one name in the regenerated table (needed for the converse direction) *)
Definition names_of (id : N) : list bytes := map fst (filter (fun p : bytes * N => snd p =? id) cc_attrs).
Lemma only_name_public : names_of CC_PUBLIC = [d_public]. Proof. vm_compute. reflexivity. Qed.
Lemma only_name_must_revalidate : names_of CC_MUST_REVALIDATE = [d_must_revalidate]. Proof. vm_compute. reflexivity. Qed.
Lemma only_name_s_maxage : names_of CC_S_MAXAGE = [d_s_maxage]. Proof. vm_compute. reflexivity. Qed.

Lemma type_is_directive item id d : item_type item = id -> id <> CC_OTHER -> names_of id = [d] ->
  is_directive d item = true.
Proof.
  intros Ht Hne Hn. unfold item_type, cc_type_by_name in Ht.
  destruct (cc_lookup_found _ _ _ Ht Hne) as [nm [Hin He]].
  assert (Hnm : In nm (names_of id)).
  { unfold names_of. apply in_map_iff. exists (nm, id). split; [reflexivity|].
    apply filter_In. split; [exact Hin|cbn; apply N.eqb_refl]. }
  rewrite Hn in Hnm. destruct Hnm as [Hd|[]]. subst nm.
  rewrite name_is_directive in He. now apply andb_prop in He.
Qed.

Lemma isset_no_store c : cc_isset c CC_NO_STORE = m_no_store c. Proof. reflexivity. Qed.
Lemma isset_private c : cc_isset c CC_PRIVATE = m_private c. Proof. reflexivity. Qed.
Lemma isset_public c : cc_isset c CC_PUBLIC = m_public c. Proof. reflexivity. Qed.
Lemma isset_must_revalidate c : cc_isset c CC_MUST_REVALIDATE = m_must_revalidate c. Proof. reflexivity. Qed.
Lemma isset_s_maxage c : cc_isset c CC_S_MAXAGE = is_some (v_s_maxage c). Proof. reflexivity. Qed.

(* case analysis following the if-cascade of cc_step *)
Ltac cc_cascade t :=
  destruct (cc_isset _ t && negb (t =? CC_OTHER)) eqn:Edup;
  [| destruct (t =? CC_MAX_AGE) eqn:E1;
     [| destruct (t =? CC_S_MAXAGE) eqn:E2;
        [| destruct (t =? CC_MAX_STALE) eqn:E3;
           [| destruct (t =? CC_MIN_FRESH) eqn:E4;
              [| destruct (t =? CC_STALE_IF_ERROR) eqn:E5;
                 [| destruct (t =? CC_PRIVATE) eqn:E6;
                    [| destruct (t =? CC_NO_CACHE) eqn:E7 ]]]]]]].

(* a directive without argument: the step sets its mask bit exactly when the item is of that type *)
Definition flag_bit (m : cc -> bool) (id : N) : Prop :=
  forall c itc, m (cc_step c itc) = m c || (item_type (fst itc) =? id).

Lemma step_flags :
  flag_bit m_no_store CC_NO_STORE /\ flag_bit m_private CC_PRIVATE /\ flag_bit m_public CC_PUBLIC /\
  flag_bit m_must_revalidate CC_MUST_REVALIDATE.
Proof.
  repeat split; intros c [it ctx]; cbn [fst]; unfold cc_step; set (t := item_type it); clearbody t.
  (* the item is of that type: a duplicate when the bit is set already, else the branch of the type sets it *)
  all: match goal with |- ?m _ = ?m ?c || (?t =? ?id) =>
         destruct (t =? id) eqn:Ens;
         [apply N.eqb_eq in Ens; subst t; change (cc_isset c id) with (m c); destruct (m c) eqn:Em;
          cbn -[cc_isset parse_quoted int_arg]; [exact Em|reflexivity]|]
       end.
  (* another type: no branch touches the bit *)
  all: rewrite orb_false_r; cc_cascade t; cbn [m_no_store m_private m_public m_must_revalidate]; try reflexivity;
    try discriminate; rewrite Ens; apply orb_false_r.
Qed.

(* s-maxage: the bit can only come from an s-maxage item (a malformed one leaves it clear) *)
Lemma step_s_maxage_sound c itc :
  is_some (v_s_maxage (cc_step c itc)) = true ->
  is_some (v_s_maxage c) = true \/ item_type (fst itc) = CC_S_MAXAGE.
Proof.
  destruct itc as [it ctx]. cbn [fst]. unfold cc_step. set (t := item_type it). clearbody t.
  cc_cascade t; cbn [v_s_maxage]; intros H; try (left; exact H).
  right. now apply N.eqb_eq.
Qed.

Definition has_type (id : N) (l : list (bytes * bytes)) : bool := existsb (fun itc => item_type (fst itc) =? id) l.

Lemma fold_flag m id : flag_bit m id -> forall l c, m (fold_left cc_step l c) = m c || has_type id l.
Proof.
  intros Hm. induction l as [|x l IH]; intros c; cbn [fold_left has_type existsb]; [now rewrite orb_false_r|].
  rewrite IH, Hm. unfold has_type. now rewrite orb_assoc.
Qed.
Lemma fold_s_maxage_sound l : forall c, is_some (v_s_maxage (fold_left cc_step l c)) = true ->
  is_some (v_s_maxage c) = true \/ has_type CC_S_MAXAGE l = true.
Proof.
  induction l as [|x l IH]; intros c H; cbn [fold_left] in H; [now left|].
  destruct (IH _ H) as [H1|H1].
  - destruct (step_s_maxage_sound _ _ H1) as [H2|H2]; [now left|right].
    cbn [has_type existsb]. rewrite H2, N.eqb_refl. reflexivity.
  - right. cbn [has_type existsb]. fold (has_type CC_S_MAXAGE l). rewrite H1. apply orb_true_r.
Qed.

(* has_type in terms of the items and the directive vocabulary *)
Lemma has_type_directive d id s : no_eq d = true -> cc_type_by_name d = id ->
  (exists item, In item (cc_items s) /\ is_directive d item = true) -> has_type id (ritems s) = true.
Proof.
  intros Hd Hid [item [Hin Hdir]]. unfold has_type. apply existsb_exists.
  unfold cc_items in Hin. apply in_map_iff in Hin. destruct Hin as [itc [Hf Hin]].
  exists itc. split; [exact Hin|]. rewrite Hf, (directive_type d Hd item Hdir), Hid. apply N.eqb_refl.
Qed.
Lemma has_type_directive_conv d id s : id <> CC_OTHER -> names_of id = [d] ->
  has_type id (ritems s) = true -> exists item, In item (cc_items s) /\ is_directive d item = true.
Proof.
  intros Hne Hn H. unfold has_type in H. apply existsb_exists in H. destruct H as [itc [Hin Ht]].
  apply N.eqb_eq in Ht. exists (fst itc). split.
  - unfold cc_items. apply in_map. exact Hin.
  - exact (type_is_directive _ _ _ Ht Hne Hn).
Qed.

(* ---------- completeness: a no-store / private element is always seen ---------- *)
Lemma parse_sees d id m s : no_eq d = true -> cc_type_by_name d = id -> flag_bit m id ->
  (forall c, m c = true -> cc_mask_nonzero c = true) ->
  (exists item, In item (cc_items s) /\ is_directive d item = true) ->
  exists c, cc_parse s = Some c /\ m c = true.
Proof.
  intros Hd Hid Hm Hmask H. pose proof (has_type_directive d id s Hd Hid H) as Ht.
  assert (Hb : m (cc_fold s) = true) by (unfold cc_fold; rewrite (fold_flag m id Hm), Ht; apply orb_true_r).
  exists (cc_fold s). split; [|exact Hb]. unfold cc_parse. now rewrite (Hmask _ Hb).
Qed.
Theorem parse_sees_no_store s :
  (exists item, In item (cc_items s) /\ is_directive d_no_store item = true) ->
  exists c, cc_parse s = Some c /\ m_no_store c = true.
Proof.
  apply (parse_sees d_no_store CC_NO_STORE m_no_store s eq_refl tbl_no_store (proj1 step_flags)).
  intros c Hc. unfold cc_mask_nonzero. now rewrite Hc, !orb_true_r.
Qed.
Theorem parse_sees_private s :
  (exists item, In item (cc_items s) /\ is_directive d_private item = true) ->
  exists c, cc_parse s = Some c /\ m_private c = true.
Proof.
  apply (parse_sees d_private CC_PRIVATE m_private s eq_refl tbl_private (proj1 (proj2 step_flags))).
  intros c Hc. unfold cc_mask_nonzero. now rewrite Hc, !orb_true_r.
Qed.

(* ---------- soundness: public / must-revalidate / s-maxage bits come from such an element ---------- *)
Theorem parse_permission_sound s c : cc_parse s = Some c ->
  (m_public c || m_must_revalidate c || is_some (v_s_maxage c)) = true ->
  exists item, In item (cc_items s) /\
    (is_directive d_public item || is_directive d_must_revalidate item || is_directive d_s_maxage item) = true.
Proof.
  unfold cc_parse. destruct (cc_mask_nonzero (cc_fold s)); [|discriminate]. intros Hc H. injection Hc as <-.
  unfold cc_fold in H.
  destruct (m_public _) eqn:E1.
  { rewrite (fold_flag _ _ (proj1 (proj2 (proj2 step_flags)))) in E1. cbn [cc_empty m_public orb] in E1.
    destruct (has_type_directive_conv d_public CC_PUBLIC s ltac:(discriminate) only_name_public E1) as [it [Hi Hd]].
    exists it. split; [exact Hi|]. now rewrite Hd. }
  destruct (m_must_revalidate _) eqn:E2.
  { rewrite (fold_flag _ _ (proj2 (proj2 (proj2 step_flags)))) in E2. cbn [cc_empty m_must_revalidate orb] in E2.
    destruct (has_type_directive_conv d_must_revalidate CC_MUST_REVALIDATE s ltac:(discriminate) only_name_must_revalidate E2)
      as [it [Hi Hd]].
    exists it. split; [exact Hi|]. rewrite Hd. now rewrite orb_true_r. }
  cbn [orb] in H. destruct (fold_s_maxage_sound _ _ H) as [H1|H1]; [cbn in H1; discriminate|].
  destruct (has_type_directive_conv d_s_maxage CC_S_MAXAGE s ltac:(discriminate) only_name_s_maxage H1) as [it [Hi Hd]].
  exists it. split; [exact Hi|]. rewrite Hd. now rewrite !orb_true_r.
Qed.

Local Open Scope Z_scope.

Definition cached (d : decision) : bool :=
  match d with CachePositively | CacheNegatively => true | _ => false end.

(* what HttpStateData::reusableReply requires before it answers cachePositively / cacheNegatively *)
Lemma reusable_reply_cached cf h q p e now :
  cached (reusable_reply cf h q p e now) = true ->
  released_earlier h = false /\ q_cachable q = true /\ saw_date_go_back h = false /\ surrogate_no_store h = false /\
  (ignore_cache_control h = false ->
     occ (q_cc q) m_no_store false = false /\ occ (p_cc p) has_no_cache_with_params false = false /\
     occ (p_cc p) m_no_store false = false /\ occ (p_cc p) m_private false = false) /\
  (q_flag_auth q = true ->
     ignore_cache_control h = false /\
     exists c, p_cc p = Some c /\
       (m_public c || m_must_revalidate c || (use_http_violations && has_no_cache_without_params c)
        || is_some (v_s_maxage c)) = true).
Proof.
  unfold reusable_reply, refresh_override. cbn [negb]. rewrite !andb_true_r.
  destruct (released_earlier h) eqn:E0; [cbn; discriminate|]. cbn [orb].
  destruct (q_cachable q) eqn:E1; [|cbn; discriminate]. cbn [negb].
  destruct (saw_date_go_back h) eqn:E2; [cbn; discriminate|].
  destruct (surrogate_no_store h) eqn:E3; [cbn; discriminate|].
  destruct (negb (ignore_cache_control h) && occ (q_cc q) m_no_store false) eqn:E4; [cbn; discriminate|].
  destruct (negb (ignore_cache_control h) && occ (p_cc p) has_no_cache_with_params false) eqn:E5; [cbn; discriminate|].
  destruct (negb (ignore_cache_control h) && occ (p_cc p) m_no_store false) eqn:E6; [cbn; discriminate|].
  destruct (negb (ignore_cache_control h) && occ (p_cc p) m_private false) eqn:E7; [cbn; discriminate|].
  intros H.
  split; [reflexivity|]. split; [reflexivity|]. split; [reflexivity|]. split; [reflexivity|]. split.
  - intros Hi. rewrite Hi in *. cbn [negb andb] in *. repeat split; assumption.
  - intros Ha. rewrite Ha in H.
    destruct (p_cc p) as [c|]; [|cbn in H; discriminate].
    destruct (ignore_cache_control h); [cbn in H; discriminate|].
    split; [reflexivity|]. exists c. split; [reflexivity|].
    destruct (m_public c); [reflexivity|].
    destruct (m_must_revalidate c); [reflexivity|].
    destruct (use_http_violations && has_no_cache_without_params c); [reflexivity|].
    destruct (is_some (v_s_maxage c)); [reflexivity|]. cbn in H. discriminate.
Qed.

Lemma status_decision_negative cf p e now :
  status_decision cf p e now = CacheNegatively -> 0 < negative_ttl cf.
Proof.
  unfold status_decision. cbv zeta.
  repeat match goal with
         | |- (if ?b then _ else _) = CacheNegatively -> _ =>
             let E := fresh "E" in destruct b eqn:E; [try (intros X; discriminate X)|try (intros X; discriminate X)]
         end.
  all: intros _; apply andb_prop in E3 || apply andb_prop in E2; lia.
Qed.

Lemma reusable_reply_negative cf h q p e now :
  reusable_reply cf h q p e now = CacheNegatively -> 0 < negative_ttl cf.
Proof.
  unfold reusable_reply. cbv zeta.
  repeat match goal with
         | |- (if ?b then ReuseNot else _) = CacheNegatively -> _ => destruct b; [intros X; discriminate X|]
         | |- (if ?b then DoNotCacheButShare else _) = CacheNegatively -> _ => destruct b; [intros X; discriminate X|]
         end.
  apply status_decision_negative.
Qed.

Lemma first_entry_public cf h q p now :
  e_public (first_entry cf h q p now) = true ->
  exists e0, cached (reusable_reply cf h q p e0 now) = true.
Proof.
  unfold first_entry. destruct (timestamps p now) as [ts exp]. cbn [e_public].
  match goal with |- context [reusable_reply cf h q p ?e now] => exists e end.
  destruct (reusable_reply _ _ _ _ _ _); [discriminate|reflexivity|reflexivity|discriminate].
Qed.

Lemma first_entry_negcached cf h q p now :
  negative_ttl cf <= 0 -> e_negcached (first_entry cf h q p now) = false.
Proof.
  intros Hn. unfold first_entry. destruct (timestamps p now) as [ts exp]. cbn [e_negcached].
  match goal with |- context [reusable_reply cf h q p ?e now] => destruct (reusable_reply cf h q p e now) eqn:E end;
    try reflexivity.
  apply reusable_reply_negative in E. lia.
Qed.

Lemma first_entry_always cf h q p now c :
  ignore_cache_control h = false -> p_cc p = Some c ->
  e_revalidate_always (first_entry cf h q p now) = has_no_cache_without_params c || m_private c.
Proof.
  intros Hi Hc. unfold first_entry. destruct (timestamps p now) as [ts exp]. cbn [e_revalidate_always].
  rewrite Hi, Hc. reflexivity.
Qed.

(* the second request: an entry that is not public is never found *)
Lemma second_not_public cf e q now2 :
  e_public e = false -> second_request cf e q now2 = (if q_only_if_cached q then Refused else Miss).
Proof.
  intros H. unfold second_request. rewrite H. cbn [negb]. destruct (q_flag_no_cache q); reflexivity.
Qed.

(* ENTRY_REVALIDATE_ALWAYS forces refreshCheck to answer STALE_MUST_REVALIDATE *)
Lemma refresh_check_always cf e rq now delta :
  e_revalidate_always e = true -> refresh_check cf e rq now delta = STALE_MUST_REVALIDATE.
Proof.
  intros H. unfold refresh_check.
  match goal with |- context [refresh_staleness ?a ?b ?c ?d] => destruct (refresh_staleness a b c d) as [st sf] end.
  rewrite H. reflexivity.
Qed.

Lemma second_revalidate_always cf e q now2 :
  e_revalidate_always e = true -> e_negcached e = false -> second_request cf e q now2 <> Hit.
Proof.
  intros Ha Hn. unfold second_request. rewrite Hn, (refresh_check_always cf e (Some q) now2 0 Ha). change cfg_offline_mode with false.
  cbn [andb negb reason_is_fresh].
  destruct (q_flag_no_cache q); destruct (q_only_if_cached q); destruct (negb (e_public e));
    destruct (e_last_modified e <? 0); discriminate.
Qed.

Definition has_directive (d : bytes) (vals : list bytes) : Prop :=
  exists item, In item (cc_items (join_values vals)) /\ is_directive d item = true.

Lemma cc_of_values_sees d (m : cc -> bool) vals :
  (forall s, (exists item, In item (cc_items s) /\ is_directive d item = true) -> exists c, cc_parse s = Some c /\ m c = true) ->
  has_directive d vals -> exists c, cc_of_values vals = Some c /\ m c = true.
Proof.
  intros Hsees H. unfold cc_of_values. destruct vals as [|v r]; [|exact (Hsees _ H)].
  destruct H as [it [[] _]].
Qed.

(* not stored -> the second request goes to the origin unconditionally (or the first one was never forwarded) *)
Lemma not_cached_outcome cf h q p now gap :
  (forall e0, cached (reusable_reply cf h q p e0 now) = false) ->
  two_requests cf h q p now gap = (if q_only_if_cached q then NotForwarded else Miss).
Proof.
  intros H. unfold two_requests. destruct (q_only_if_cached q) eqn:Eo; [reflexivity|].
  rewrite second_not_public, Eo; [reflexivity|].
  destruct (e_public (first_entry cf h q p now)) eqn:E; [|reflexivity].
  destruct (first_entry_public _ _ _ _ _ E) as [e0 He0]. rewrite H in He0. discriminate.
Qed.

Theorem response_no_store_never_reused cf h q p now gap :
  ignore_cache_control h = false -> has_directive d_no_store (p_cc_vals p) ->
  two_requests cf h q p now gap = (if q_only_if_cached q then NotForwarded else Miss).
Proof.
  intros Hi Hd. apply not_cached_outcome. intros e0.
  destruct (cached (reusable_reply cf h q p e0 now)) eqn:E; [|reflexivity].
  destruct (reusable_reply_cached _ _ _ _ _ _ E) as (_ & _ & _ & _ & Hcc & _).
  destruct (Hcc Hi) as (_ & _ & Hns & _).
  destruct (cc_of_values_sees _ _ _ parse_sees_no_store Hd) as [c [Hc Hb]]. unfold p_cc in Hns. rewrite Hc in Hns. cbn [occ] in Hns.
  congruence.
Qed.

Theorem response_private_never_reused cf h q p now gap :
  ignore_cache_control h = false -> has_directive d_private (p_cc_vals p) ->
  two_requests cf h q p now gap = (if q_only_if_cached q then NotForwarded else Miss).
Proof.
  intros Hi Hd. apply not_cached_outcome. intros e0.
  destruct (cached (reusable_reply cf h q p e0 now)) eqn:E; [|reflexivity].
  destruct (reusable_reply_cached _ _ _ _ _ _ E) as (_ & _ & _ & _ & Hcc & _).
  destruct (Hcc Hi) as (_ & _ & _ & Hpr).
  destruct (cc_of_values_sees _ _ _ parse_sees_private Hd) as [c [Hc Hb]]. unfold p_cc in Hpr. rewrite Hc in Hpr. cbn [occ] in Hpr.
  congruence.
Qed.

(* request no-store: flags.cachable is vetoed, the entry is created with RELEASE_REQUEST; no hypothesis on hstate *)
Theorem request_no_store_never_reused cf h q p now gap :
  has_directive d_no_store (q_cc_vals q) ->
  two_requests cf h q p now gap = (if q_only_if_cached q then NotForwarded else Miss).
Proof.
  intros Hd. apply not_cached_outcome. intros e0.
  destruct (cached (reusable_reply cf h q p e0 now)) eqn:E; [|reflexivity].
  destruct (reusable_reply_cached _ _ _ _ _ _ E) as (_ & Hq & _).
  destruct (cc_of_values_sees _ _ _ parse_sees_no_store Hd) as [c [Hc Hb]].
  unfold q_cachable, q_cc in Hq. rewrite Hc in Hq. cbn [occ] in Hq. rewrite Hb in Hq.
  rewrite andb_false_r in Hq. discriminate.
Qed.

(* Authorization: a hit needs public, must-revalidate or s-maxage in the response (default negative_ttl = 0) *)
Theorem authorization_hit_needs_permission cf h q p now gap :
  negative_ttl cf <= 0 -> q_has_authorization q = true ->
  two_requests cf h q p now gap = Hit ->
  has_directive d_public (p_cc_vals p) \/ has_directive d_must_revalidate (p_cc_vals p)
  \/ has_directive d_s_maxage (p_cc_vals p).
Proof.
  intros Hneg Hauth Hhit. unfold two_requests in Hhit.
  destruct (q_only_if_cached q) eqn:Eo; [discriminate|].
  destruct (e_public (first_entry cf h q p now)) eqn:Ep.
  2:{ rewrite second_not_public, Eo in Hhit by exact Ep. discriminate. }
  destruct (first_entry_public _ _ _ _ _ Ep) as [e0 He0].
  destruct (reusable_reply_cached _ _ _ _ _ _ He0) as (_ & _ & _ & _ & _ & Ha).
  assert (Hfa : q_flag_auth q = true) by (unfold q_flag_auth; rewrite Hauth; reflexivity).
  destruct (Ha Hfa) as (Hi & c & Hc & Hperm).
  destruct (m_public c || m_must_revalidate c || is_some (v_s_maxage c)) eqn:Eperm.
  - (* the permission is in the text *)
    unfold p_cc, cc_of_values in Hc. destruct (p_cc_vals p) as [|v r] eqn:Ev; [discriminate|].
    destruct (parse_permission_sound _ _ Hc Eperm) as [it [Hin Hd]].
    destruct (is_directive d_public it) eqn:D1; [left; exists it; now split|].
    destruct (is_directive d_must_revalidate it) eqn:D2; [right; left; exists it; now split|].
    right; right. exists it. split; [exact Hin|exact Hd].
  - (* only the USE_HTTP_VIOLATIONS no-cache exemption: stored with ENTRY_REVALIDATE_ALWAYS, never a hit *)
    exfalso.
    assert (Hnc : has_no_cache_without_params c = true).
    { destruct (m_public c); [discriminate|]. destruct (m_must_revalidate c); [discriminate|].
      cbn [orb] in *. rewrite Eperm in Hperm. rewrite orb_false_r in Hperm. now apply andb_prop in Hperm. }
    apply (second_revalidate_always cf (first_entry cf h q p now) q (now + gap)); [| |exact Hhit].
    + rewrite (first_entry_always cf h q p now c Hi Hc), Hnc. reflexivity.
    + now apply first_entry_negcached.
Qed.

(* ... and the hypothesis on negative_ttl is needed: with negative caching configured, an authenticated 404 carrying only
   no-cache is served as a negative hit (checkNegativeHit precedes refreshCheck). Not the default configuration. *)
Definition wit_cf : config :=
  {| negative_ttl := 300; minimum_expiry_time := 60; conf_max_stale := 604800; r_min := 0; r_pct_ppm := 200000;
     r_max := 259200; r_max_stale := -1 |}.
Definition wit_q : request :=
  {| q_method := [71;69;84]%N; q_cc_vals := []; q_pragma_vals := []; q_has_authorization := true; q_has_userinfo := false;
     q_ims := false |}.
Definition wit_p (status : N) (ccv : list bytes) : reply :=
  {| p_status := status; p_cc_vals := ccv; p_pragma_vals := []; p_date := Some 1700000000; p_expires := ExpAbsent;
     p_last_modified := None; p_content_type := None; p_content_length := 5 |}.

Local Open Scope N_scope.

Lemma delim3_simple c : simple_char c = true -> is_delim3 c = is_delim2 44 c.
Proof. unfold simple_char, is_delim3, is_delim2, is_xspace. intros H. lia. Qed.

Lemma ritems_fuel_simple f : forall l, simple l = true -> map fst (ritems_fuel f l) = items_fuel f 44 l.
Proof.
  induction f as [|f IH]; intros l Hs; [reflexivity|].
  cbn [ritems_fuel items_fuel].
  assert (Hd : drop_while is_delim3 l = drop_while (is_delim2 44) l).
  { apply drop_while_ext. intros c Hin. apply delim3_simple.
    unfold simple in Hs. rewrite forallb_forall in Hs. now apply Hs. }
  rewrite Hd.
  pose proof (simple_drop (is_delim2 44) l Hs) as Hs1.
  set (l1 := drop_while (is_delim2 44) l) in *. clearbody l1.
  pose proof (scan_simple l1 [] Hs1) as Hsc.
  destruct (scan_item 44 false l1 []) as [item rest].
  injection Hsc as Hitem Hrest.
  assert (Hsr : simple rest = true) by (rewrite Hrest; now apply simple_span_snd).
  destruct (rtrim item) as [|i0 it]; [reflexivity|].
  cbn [map fst]. now rewrite IH.
Qed.

(* for list text without DQUOTE / NUL / line breaks, the reader sees the comma-split, OWS-trimmed, non-empty elements *)
Theorem cc_items_is_ref l : simple l = true -> cc_items l = ref_items l.
Proof.
  intros H. unfold cc_items, ritems. rewrite (ritems_fuel_simple _ _ (eq_ind_r (fun x => simple x = true) H (c_str_simple l H))).
  rewrite <- (list_items_is_ref l H). reflexivity.
Qed.

(* ---------- the loop bound of ritems is never the reason the list ends ---------- *)
Lemma ritems_fuel_enough : forall f l k, (length l < f)%nat -> ritems_fuel (f + k) l = ritems_fuel f l.
Proof.
  induction f as [|f IH]; intros l k Hl; [lia|].
  cbn [Nat.add ritems_fuel].
  pose proof (drop_while_length is_delim3 l) as Hd.
  destruct (scan_item 44 false (drop_while is_delim3 l) []) as [item rest] eqn:Es.
  destruct (rtrim item) as [|i0 it] eqn:Er; [reflexivity|].
  pose proof (scan_item_shorter _ _ _ _ Es ltac:(rewrite Er; discriminate)) as Hlt.
  f_equal. apply IH. lia.
Qed.

(* more fuel never yields more items: the bound S (length l) of `ritems` is not what ends the list *)
Theorem ritems_fuel_sufficient l k : ritems_fuel (S (length (c_str l)) + k) (c_str l) = ritems l.
Proof.
  unfold ritems.
  pose proof (c_str_length l) as Hc.
  rewrite (ritems_fuel_enough (S (length (c_str l))) (c_str l) k) by lia.
  replace (S (length l)) with (S (length (c_str l)) + (length l - length (c_str l)))%nat by lia.
  now rewrite ritems_fuel_enough by lia.
Qed.

Local Open Scope N_scope.
Lemma byte_at_beyond p i : lenN p <= i -> byte_at p i = 0.
Proof. intros H. unfold byte_at. destruct (nthN i p) eqn:E; [apply nthN_lt in E; lia|reflexivity]. Qed.

Definition run_cond (p : bytes) (len e : N) : bool :=
  let c := byte_at p e in (e <? len) && negb (c =? 92) && negb (c =? 34) && ((31 <? c) || (c =? 9)) && negb (c =? 127).
Lemma run_end_unfold f p len e :
  qs_run_end (S f) p len e = if run_cond p len e then qs_run_end f p len (e + 1) else e.
Proof. reflexivity. Qed.
Lemma run_end_ge f : forall p len e, e <= qs_run_end f p len e.
Proof.
  induction f as [|f IH]; intros p len e; [cbn [qs_run_end]; lia|].
  rewrite run_end_unfold. destruct (run_cond p len e); [specialize (IH p len (e + 1)); lia|lia].
Qed.
Lemma run_end_stay f p len e : run_cond p len e = false -> qs_run_end f p len e = e.
Proof. intros H. destruct f as [|f]; [reflexivity|]. rewrite run_end_unfold, H. reflexivity. Qed.
Lemma run_end_advance f p len e : run_cond p len e = true -> e < qs_run_end (S f) p len e.
Proof. intros H. rewrite run_end_unfold, H. pose proof (run_end_ge f p len (e + 1)). lia. Qed.

Lemma lenN_pos_length (p : bytes) : 0 < lenN p -> exists f, length p = S f.
Proof. destruct p as [|x p]; cbn [lenN length]; [lia|]. intros _. now exists (length p). Qed.

Lemma qs_loop_fuel : forall fuel p len pos val,
  (N.to_nat (lenN p) + 1 - N.to_nat pos < fuel)%nat -> qs_loop fuel p len pos val <> QsFuel.
Proof.
  induction fuel as [|f IH]; intros p len pos val Hm; [lia|].
  cbn [qs_loop].
  destruct (negb (byte_at p pos =? 34) && (pos <? len)) eqn:Eloop.
  2:{ destruct (byte_at p pos =? 34); discriminate. }
  apply andb_prop in Eloop. destruct Eloop as [E34 Elen].
  destruct (lenN p <=? pos) eqn:Eb.
  { (* reading the terminating NUL: a CTL octet *)
    assert (Hb : byte_at p pos = 0) by (apply byte_at_beyond; lia).
    repeat (rewrite !Hb; repeat match goal with |- context [0 =? ?k] => change (0 =? k) with false end; cbv iota).
    rewrite run_end_stay by (unfold run_cond; rewrite Hb; lia).
    rewrite Hb. cbn. discriminate. }
  assert (Hlt : pos < lenN p) by lia.
  destruct (byte_at p pos =? 13) eqn:E13.
  { destruct ((len <? pos + 1) || negb (byte_at p (pos + 1) =? 10)) eqn:Ec; [discriminate|].
    apply orb_false_elim in Ec. destruct Ec as [_ Ec]. apply negb_false_iff in Ec. rewrite Ec.
    destruct ((len <? pos + 1 + 1) || _); [discriminate|]. apply IH. lia. }
  destruct (byte_at p pos =? 10) eqn:E10.
  { destruct ((len <? pos + 1) || _); [discriminate|]. apply IH. lia. }
  destruct (byte_at p pos =? 92) eqn:E92.
  { match goal with |- context [if ?b then None else Some (pos + 1)] => destruct b; [discriminate|] end.
    match goal with |- context [qs_run_end ?a ?b ?c ?d] => pose proof (run_end_ge a b c d) as Hge; set (e := qs_run_end a b c d) in * end.
    destruct (_ || (byte_at p e =? 127)); [discriminate|]. apply IH. lia. }
  (* ordinary octet at pos *)
  destruct (run_cond p len pos) eqn:Erc.
  - destruct (lenN_pos_length p ltac:(lia)) as [f' Hf']. rewrite Hf'.
    pose proof (run_end_advance f' p len pos Erc) as Hadv.
    set (e := qs_run_end (S f') p len pos) in *.
    destruct (_ || (byte_at p e =? 127)); [discriminate|]. apply IH. lia.
  - rewrite run_end_stay by exact Erc.
    unfold run_cond in Erc. cbv zeta in Erc. rewrite Elen, E92 in Erc. apply negb_true_iff in E34. rewrite E34 in Erc.
    cbn [negb andb] in Erc.
    assert (Hctl : ((byte_at p pos <=? 31) && negb (byte_at p pos =? 13) && negb (byte_at p pos =? 10)
                    && negb (byte_at p pos =? 9) || (byte_at p pos =? 127)) = true) by lia.
    rewrite Hctl. discriminate.
Qed.

Theorem parse_quoted_never_out_of_fuel p len : parse_quoted p len <> QsFuel.
Proof.
  unfold parse_quoted. destruct (negb (byte_at p 0 =? 34)); [discriminate|].
  apply qs_loop_fuel. rewrite lenN_length. lia.
Qed.

(* the recorded fuel_out flag is therefore never set *)
Lemma cc_step_fuel c itc : fuel_out c = false -> fuel_out (cc_step c itc) = false.
Proof.
  intros H. destruct itc as [it ctx]. unfold cc_step. set (t := item_type it). clearbody t.
  cc_cascade t; cbn [fuel_out]; try exact H; rewrite H; cbn [orb];
    (destruct (find_eq it 0) as [i|]; [|reflexivity]);
    match goal with |- context [parse_quoted ?a ?b] => pose proof (parse_quoted_never_out_of_fuel a b) as Hq; destruct (parse_quoted a b) end;
    try reflexivity; congruence.
Qed.
Lemma cc_fold_fuel l : forall c, fuel_out c = false -> fuel_out (fold_left cc_step l c) = false.
Proof. induction l as [|x l IH]; intros c H; cbn [fold_left]; [exact H|]. apply IH. now apply cc_step_fuel. Qed.
Theorem cc_parse_total s c : cc_parse s = Some c -> fuel_out c = false.
Proof.
  unfold cc_parse. destruct (cc_mask_nonzero (cc_fold s)); [|discriminate]. intros H. injection H as <-.
  unfold cc_fold. now apply cc_fold_fuel.
Qed.

Local Open Scope Z_scope.
(* "sent with directive d": some comma-separated, OWS-trimmed, non-empty element of the combined field value is d or d=... *)
Definition sent_with (d : bytes) (vals : list bytes) : Prop :=
  exists item, In item (ref_items (join_values vals)) /\ is_directive d item = true.

Lemma sent_with_iff d vals : simple (join_values vals) = true -> sent_with d vals <-> has_directive d vals.
Proof. intros Hs. unfold sent_with, has_directive. now rewrite cc_items_is_ref. Qed.

Theorem forbidden_never_hit cf h q p now gap :
  ignore_cache_control h = false ->
  simple (join_values (p_cc_vals p)) = true -> simple (join_values (q_cc_vals q)) = true ->
  sent_with d_no_store (p_cc_vals p) \/ sent_with d_private (p_cc_vals p) \/ sent_with d_no_store (q_cc_vals q) ->
  two_requests cf h q p now gap <> Hit /\
  (q_only_if_cached q = false -> two_requests cf h q p now gap = Miss).
Proof.
  intros Hi Hsp Hsq H.
  assert (E : two_requests cf h q p now gap = (if q_only_if_cached q then NotForwarded else Miss)).
  { destruct H as [H|[H|H]].
    - apply response_no_store_never_reused; [exact Hi|now apply sent_with_iff].
    - apply response_private_never_reused; [exact Hi|now apply sent_with_iff].
    - apply request_no_store_never_reused. now apply sent_with_iff. }
  rewrite E. split; [destruct (q_only_if_cached q); discriminate|]. intros Ho. now rewrite Ho.
Qed.

Lemma second_request_cases cf e q now2 : q_only_if_cached q = false ->
  second_request cf e q now2 = Hit \/ second_request cf e q now2 = Miss \/ second_request cf e q now2 = Revalidate.
Proof.
  intros Ho. unfold second_request. rewrite Ho.
  destruct (q_flag_no_cache q); [right; left; reflexivity|].
  destruct (negb (e_public e)); [right; left; reflexivity|].
  destruct (e_negcached e && (e_expires e <=? now2)%Z); [right; left; reflexivity|].
  destruct (e_negcached e && (now2 <? e_expires e)%Z && negb (q_nocache_hack q)); [left; reflexivity|].
  set (r := refresh_check cf e (Some q) now2 0). clearbody r.
  destruct (negb cfg_offline_mode && negb (reason_is_fresh r)); [|left; reflexivity].
  destruct (e_last_modified e <? 0)%Z; [right; left; reflexivity|right; right; reflexivity].
Qed.

Theorem authorization_never_hit_without_permission cf h q p now gap :
  negative_ttl cf <= 0 -> q_has_authorization q = true ->
  simple (join_values (p_cc_vals p)) = true ->
  ~ sent_with d_public (p_cc_vals p) -> ~ sent_with d_must_revalidate (p_cc_vals p) -> ~ sent_with d_s_maxage (p_cc_vals p) ->
  two_requests cf h q p now gap <> Hit /\
  (q_only_if_cached q = false ->
   two_requests cf h q p now gap = Miss \/ two_requests cf h q p now gap = Revalidate).
Proof.
  intros Hn Ha Hs N1 N2 N3.
  assert (Hnh : two_requests cf h q p now gap <> Hit).
  { intros Hh. destruct (authorization_hit_needs_permission cf h q p now gap Hn Ha Hh) as [H|[H|H]];
      [apply N1|apply N2|apply N3]; now apply sent_with_iff. }
  split; [exact Hnh|]. intros Ho.
  unfold two_requests in *. rewrite Ho in *.
  destruct (second_request_cases cf (first_entry cf h q p now) q (now + gap) Ho) as [H|[H|H]];
    [congruence|now left|now right].
Qed.

Local Open Scope N_scope.
Definition ex_q (auth : bool) (ccv : list bytes) : request :=
  {| q_method := [71;69;84]; q_cc_vals := ccv; q_pragma_vals := []; q_has_authorization := auth; q_has_userinfo := false;
     q_ims := false |}.
Definition ex_p (ccv : list bytes) : reply := wit_p 200 ccv.
Definition t_max_age_3600 : bytes := [109;97;120;45;97;103;101;61;51;54;48;48].                  (* max-age=3600 *)
Definition t_max_age_no_store : bytes := t_max_age_3600 ++ [44;32;78;111;45;83;116;111;114;101]. (* max-age=3600, No-Store *)
Definition t_private_arg : bytes := [80;82;73;86;65;84;69;61;34;120;34].                         (* PRIVATE="x" *)
Definition run (q : request) (p : reply) : outcome := two_requests default_config plain_hstate q p 1700000000%Z 1%Z.
