(* Properties_C48.v — C48: byte-string values (SBuf) behave as independent values.
   Statements, closed by `exact` or by the few lines that assemble them; the model is SbufModel.v (src/sbuf/SBuf.cc, MemBlob.cc), proofs are in SbufProofs.v.

   Vocabulary: a state is a heap of ref-counted blobs plus a list of SBuf variables; `absv st` is the
   list of the variables' contents (what an observer sees); `SInv st` is the representation invariant
   (lock count of every blob = number of variables referring to it + 1 for the static prototype pointer
   on blob 0; every variable's [off, off+len) lies inside its blob's used area; used <= capacity);
   `spec_vals` applies an operation to a plain list of independent byte strings. *)
Require Import SquidV.Bytes SquidV.SbufModel SquidV.SbufProofs.
Require Import SquidV.gen.Sbuf_gen.
Local Open Scope N_scope.

(* --- fresh variables are independent empty values --- *)
Theorem C48_initial_state : forall alloc_cap nv,
  SInv (init_state alloc_cap nv) /\ absv (init_state alloc_cap nv) = repeat [] nv.
Proof. exact (fun a nv => conj (init_inv a nv) (init_absv a nv)). Qed.

(* --- copy-on-write (SBuf::cow, behind setAt/reserve*/rawSpace/append): for ANY heap satisfying the
   invariant with ANY set of extra lock holders, ANY variable i and ANY requested size, cow keeps the
   invariant, keeps i's contents, keeps every other variable's contents and every blob that has a second
   holder byte-for-byte, whether it returns or throws; on return i is the only variable on its blob,
   sits at the blob's end, and (given an allocator that returns at least what is asked) has the
   requested room --- *)
Theorem C48_cow_keeps_all_values : forall alloc_cap h vs ex i s ns0 r (isok : bool),
  Inv h vs ex -> (i < length vs)%nat -> nth i vs sb0 = s ->
  cow alloc_cap h s ns0 = (if isok then Ok r else Throw r) ->
  keeps h vs ex i r /\
  (isok = true -> tail (fst r) (snd r) /\ sole vs i (snd r) /\ slen (snd r) = slen s /\
                  ((forall n, n <= maxSize -> n <= cap32 alloc_cap n) ->
                   clamp_newsize s ns0 - slen s <=
                   bcap (getb (fst r) (sstore (snd r))) - bsize (getb (fst r) (sstore (snd r))))).
Proof.
  intros alloc_cap h vs ex i s ns0 r isok I Hi <- E.
  pose proof (cow_spec alloc_cap h vs ex i ns0 I Hi) as C. cbn zeta in C. rewrite E in C.
  destruct isok; [split; [apply C|intros _; apply C]|split; [exact C|discriminate]].
Qed.

(* --- append (SBuf::lowAppend behind append/push_back/assign from a char pointer): for ANY source pointer — external
   memory, another variable's storage, or this variable's OWN storage as long as something (the Locker)
   holds a second lock — the target becomes old ++ source bytes, every other variable keeps its
   contents, the invariant is kept; a throw leaves all contents as they were; no read outside a live
   object ever happens --- *)
Theorem C48_append_is_list_append_even_when_aliased : forall alloc_cap h vs ex i s p n,
  Inv h vs ex -> (i < length vs)%nat -> nth i vs sb0 = s -> src_ok h s p n ->
  match lowAppend alloc_cap h s p n with
  | Ok r => Inv (fst r) (upd vs i (snd r)) ex /\ others_same h (fst r) vs i /\
            content (fst r) (snd r) = content h s ++ read_src h p n /\ (length h <= length (fst r))%nat
  | Throw r => Inv (fst r) (upd vs i (snd r)) ex /\ others_same h (fst r) vs i /\
               content (fst r) (snd r) = content h s /\ (length h <= length (fst r))%nat
  | Undef => False
  end.
Proof. intros alloc_cap h vs ex i s p n I Hi <-. exact (lowAppend_spec alloc_cap h vs ex i p n I Hi). Qed.

(* --- one operation on variables = the same operation on independent values.
   `covered` = every modelled operation whose indices name existing variables (rawAppend: the caller
   writes at most the n bytes it asked for) EXCEPT toLower, toUpper and c_str, which are modelled and
   differentially tested but not lifted here (hence _partial). Covered: assign(ptr,n), v[i]=v[j]
   (incl. i=j), append(SBuf) (incl. a.append(a)), append(ptr,n), append/assign from a pointer into
   another or the SAME variable's storage, push_back, consume, chop, substr, trim (incl. a.trim(a)),
   setAt, clear, reserveSpace, reserveCapacity, reserve(req), rawAppendStart+Finish, all const operations.
   `spec_after` applies the operation to a list of independent byte strings (spec_vals); an operation
   that threw changes nothing (assign(ptr,n) has already cleared its target: spec_throw); a skipped
   pointer operation / a short rawAppendStart change nothing. --- *)
Theorem C48_step_refines_values_partial : forall alloc_cap st o, SInv st -> covered st o ->
  SInv (fst (step alloc_cap st o)) /\ snd (step alloc_cap st o) <> RUndef /\
  absv (fst (step alloc_cap st o)) = spec_after (absv st) o (snd (step alloc_cap st o)).
Proof. exact step_refines. Qed.

(* --- any sequence of covered operations on any number of variables, from any state satisfying the
   invariant: contents after the sequence are those of the same sequence on independent values --- *)
Theorem C48_run_refines_values_partial : forall alloc_cap ops st, SInv st -> covered_run alloc_cap st ops ->
  SInv (fst (run alloc_cap st ops)) /\ Forall (fun x => x <> RUndef) (snd (run alloc_cap st ops)) /\
  absv (fst (run alloc_cap st ops)) = spec_run (absv st) ops (snd (run alloc_cap st ops)).
Proof. exact run_refines. Qed.

(* --- setAt (copy-on-write then poke): target becomes pokeN, everybody else unchanged, a throw changes
   nothing, and afterwards the target is the only variable on its blob --- *)
Theorem C48_setAt_writes_only_the_target : forall alloc_cap h vs ex i s pos c,
  Inv h vs ex -> (i < length vs)%nat -> nth i vs sb0 = s ->
  RS h vs ex i (pokeN (content h s) pos c) (content h s) (sb_setAt alloc_cap h s pos c) /\
  (forall x, sb_setAt alloc_cap h s pos c = Ok x ->
     tail (fst x) (snd x) /\ sole vs i (snd x) /\ slen (snd x) = slen s).
Proof. exact sb_setAt_RS. Qed.

(* --- the <cctype> maps SBuf::toLower/toUpper and memcasecmp apply (regenerated from the platform) are
   the ASCII case maps on all 256 byte values; hence case-insensitive comparison is byte-wise
   comparison of the lower-cased values (was false before /repo commit 9d80e16) --- *)
Theorem C48_case_maps_are_ascii : forall c, c < 256 ->
  (if c_isupper c then to_char (c_tolower c) else c) = lower_byte c /\
  (if c_islower c then to_char (c_toupper c) else c) = upper_byte c /\
  c_tolower_u c = Z.of_N (lower_byte c).
Proof. exact case_tables_ascii. Qed.
Theorem C48_casecmp_is_cmp_of_lowercased : forall a b,
  Forall (fun c => c < 256) a -> Forall (fun c => c < 256) b ->
  cmp_with c_tolower_u a b = cmp_with Z.of_N (map lower_byte a) (map lower_byte b).
Proof. exact casecmp_is_cmp_of_lowercased. Qed.

(* non-vacuity: the hypotheses are satisfiable by concrete non-trivial states and operations
   (the former counterexamples chop(5, npos-1) and rawAppend(0, "") on a shared blob are now covered) *)
Example C48_covered_example :
  covered_run harness_alloc_cap (init_h 2)
    [OApl 0 hello; OSub 1 0 0 5; ORaw 1 0 []; OApl 1 [88; 89; 90]; OChp 0 5 4294967294; OApp 1 1; OSat 0 0 74; OTrm 1 1 true true].
Proof. cbn [covered_run]. repeat split; try (vm_compute; lia); try (vm_compute; intro X; discriminate X). Qed.
Example C48_run_example :
  absv (fst (run harness_alloc_cap (init_h 2)
    [OApl 0 hello; OSub 1 0 0 5; ORaw 1 0 []; OApl 1 [88; 89; 90]; OChp 0 5 4294967294; OApp 1 1; OSat 0 0 74; OTrm 1 1 true true]))
  = [[74; 119; 111; 114; 108; 100]; []].
Proof. vm_compute. reflexivity. Qed.
Example C48_src_ok_self_alias_example :   (* a.append(a) under the Locker: the source is this's own, doubly held blob *)
  let st := fst (step_h (init_h 1) (OApl 0 hello)) in
  src_ok (lock (hp st) (sstore (getv st 0))) (getv st 0) (SPtr (sstore (getv st 0)) 0) 11.
Proof.
  cbn zeta. cbn [src_ok]. right. split; [vm_compute; lia|]. split; [vm_compute; intro X; discriminate X|].
  right. vm_compute. intro X; discriminate X.
Qed.

Print Assumptions C48_initial_state.
Print Assumptions C48_cow_keeps_all_values.
Print Assumptions C48_append_is_list_append_even_when_aliased.
Print Assumptions C48_step_refines_values_partial.
Print Assumptions C48_run_refines_values_partial.
Print Assumptions C48_setAt_writes_only_the_target.
Print Assumptions C48_case_maps_are_ascii.
Print Assumptions C48_casecmp_is_cmp_of_lowercased.
