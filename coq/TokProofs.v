(* TokProofs.v — what the Tokenizer model (TokModel.v) computes, as specifications over span / takeN / dropN:
   prefix_spec for tok_prefix, tail_run / tail_rest for the trailing operations, soundness and its converse
   (tok_prefix_sound, tok_prefix_complete), and stability of the reads under extension of the buffer. *)
Require Import SquidV.Bytes SquidV.TokModel.
Require Import ZifyBool.
Local Open Scope N_scope.

Lemma find_first_span p l :
  find_first (fun c => negb (p c)) l =
  match snd (span p l) with [] => None | _ :: _ => Some (lenN (fst (span p l))) end.
Proof.
  induction l as [|x l IH]; cbn [find_first span]; [reflexivity|].
  destruct (p x) eqn:E; cbn [negb].
  - rewrite IH. destruct (span p l) as [a b]; cbn [fst snd lenN]. destruct b; reflexivity.
  - reflexivity.
Qed.

Definition prefix_spec (set : cset) (limit : N) (buf : bytes) : option (bytes * bytes) :=
  let run := fst (span set (takeN limit buf)) in
  match run with [] => None | _ :: _ => Some (run, dropN (lenN run) buf) end.

Lemma tok_prefix_eq_spec set limit buf : tok_prefix set limit buf = prefix_spec set limit buf.
Proof.
  unfold tok_prefix, prefix_spec, findFirstNotOf, substr0.
  rewrite find_first_span.
  pose proof (span_app set (takeN limit buf)) as Happ.
  pose proof (takeN_dropN limit buf) as Htd.
  destruct (span set (takeN limit buf)) as [a b] eqn:S; cbn [fst snd] in *.
  destruct b as [|y b].
  - rewrite app_nil_r in Happ. subst a.
    destruct buf as [|x buf]; [reflexivity|].
    destruct (limit =? 0) eqn:L.
    + apply N.eqb_eq in L; subst. reflexivity.
    + assert (Hne : takeN limit (x :: buf) <> []) by (cbn [takeN]; rewrite L; discriminate).
      destruct (takeN limit (x :: buf)) as [|t ts] eqn:T; [congruence|].
      f_equal. f_equal. rewrite <- T. rewrite lenN_takeN.
      destruct (N.min_spec limit (lenN (x :: buf))) as [[H1 H2]|[H1 H2]]; rewrite H2; [reflexivity|].
      rewrite !dropN_all by lia. reflexivity.
  - destruct a as [|t ts]; [reflexivity|].
    remember (lenN (t :: ts)) as k eqn:K.
    destruct k as [|kp]; [cbn [lenN] in K; lia|].
    f_equal. f_equal. rewrite K. rewrite <- Htd, <- Happ, <- app_assoc. apply takeN_app_exact.
Qed.

(* the consequences a caller relies on *)
Theorem tok_prefix_sound set limit buf t r :
  tok_prefix set limit buf = Some (t, r) ->
  t ++ r = buf /\ t <> [] /\ forallb set t = true /\ lenN t <= limit /\
  (lenN t = limit \/ match r with [] => True | y :: _ => set y = false end).
Proof.
  rewrite tok_prefix_eq_spec. unfold prefix_spec.
  pose proof (span_app set (takeN limit buf)) as Happ.
  pose proof (span_all set (takeN limit buf)) as Hall.
  pose proof (span_stop set (takeN limit buf)) as Hstop.
  pose proof (takeN_dropN limit buf) as Htd.
  pose proof (lenN_takeN limit buf) as Hlen.
  destruct (span set (takeN limit buf)) as [a b]; cbn [fst snd] in *.
  destruct a as [|x a]; [discriminate|]. intros H; inversion H; subst t r; clear H.
  assert (E : buf = (x :: a) ++ (b ++ dropN limit buf)) by (rewrite app_assoc, Happ, Htd; reflexivity).
  pose proof (dropN_app_exact (x :: a) (b ++ dropN limit buf)) as Hd. rewrite <- E in Hd.
  change (N.succ (lenN a)) with (lenN (x :: a)).
  split; [|split; [discriminate|split; [exact Hall|]]].
  - rewrite Hd. symmetry. exact E.
  - assert (Hle : lenN (x :: a) <= limit).
    { rewrite <- Happ, lenN_app in Hlen. lia. }
    split; [exact Hle|].
    rewrite Hd.
    destruct b as [|y b]; cbn [app].
    + destruct (N.eq_dec (lenN (x :: a)) limit) as [->|Hne]; [left; reflexivity|right].
      rewrite app_nil_r in Happ. rewrite <- Happ in Hlen.
      rewrite dropN_all by lia. exact I.
    + right. exact Hstop.
Qed.

Theorem tok_prefix_none set limit buf :
  tok_prefix set limit buf = None ->
  buf = [] \/ limit = 0 \/ match buf with y :: _ => set y = false | [] => True end.
Proof.
  rewrite tok_prefix_eq_spec. unfold prefix_spec.
  destruct buf as [|y buf]; [left; reflexivity|]. cbn [takeN].
  destruct (limit =? 0) eqn:L; [apply N.eqb_eq in L; right; left; exact L|].
  cbn [span]. destruct (set y) eqn:E; [|right; right; reflexivity].
  destruct (span set (takeN (N.pred limit) buf)); cbn [fst]. discriminate.
Qed.

Theorem tok_prefix_complete set limit t r :
  t <> [] -> forallb set t = true -> lenN t <= limit ->
  lenN t = limit \/ match r with [] => True | y :: _ => set y = false end ->
  tok_prefix set limit (t ++ r) = Some (t, r).
Proof.
  intros Hne Hall Hle Hstop. rewrite tok_prefix_eq_spec. unfold prefix_spec. cbv zeta.
  rewrite takeN_app_ge by exact Hle.
  rewrite (span_app_stop set t (takeN (limit - lenN t) r) Hall).
  - cbn [fst]. destruct t; [congruence|]. now rewrite dropN_app_exact.
  - destruct r as [|y r]; [exact I|]. cbn [takeN]. destruct (N.eqb_spec (limit - lenN t) 0); [exact I|].
    destruct Hstop as [Hl|Hy]; [lia|exact Hy].
Qed.

Lemma tok_prefix_none_head set limit y r : set y = false -> tok_prefix set limit (y :: r) = None.
Proof.
  intros Hy. rewrite tok_prefix_eq_spec. unfold prefix_spec. cbn [takeN].
  destruct (limit =? 0); [reflexivity|]. cbn [span]. now rewrite Hy.
Qed.

(* a result that leaves something unread is the same on every longer buffer *)
Lemma tok_prefix_ext_some set limit b x t r :
  tok_prefix set limit b = Some (t, r) -> r <> [] -> tok_prefix set limit (b ++ x) = Some (t, r ++ x).
Proof.
  intros H Hr. apply tok_prefix_sound in H as (<- & Hne & Hall & Hle & Hstop).
  rewrite <- app_assoc. apply tok_prefix_complete; try assumption.
  destruct r; [congruence|exact Hstop].
Qed.

Lemma tok_prefix_ext_none set limit b x :
  tok_prefix set limit b = None -> b <> [] -> tok_prefix set limit (b ++ x) = None.
Proof.
  intros H Hb. apply tok_prefix_none in H. destruct b as [|y b]; [congruence|].
  destruct H as [H|[->|H]]; [discriminate| now rewrite tok_prefix_eq_spec | now apply tok_prefix_none_head].
Qed.

Lemma tok_skipChar_ext c b x :
  b <> [] -> tok_skipChar c (b ++ x) = (fst (tok_skipChar c b), snd (tok_skipChar c b) ++ x).
Proof. destruct b as [|y b]; [congruence|]. intros _. cbn [app tok_skipChar]. destruct (y =? c); reflexivity. Qed.

Theorem tok_skipAll_spec set buf :
  tok_skipAll set buf = (lenN (fst (span set buf)), snd (span set buf)).
Proof.
  unfold tok_skipAll, findFirstNotOf. rewrite find_first_span.
  pose proof (span_app set buf) as Happ.
  destruct (span set buf) as [a b]; cbn [fst snd] in *.
  destruct b as [|y b].
  - rewrite app_nil_r in Happ. subst. reflexivity.
  - destruct a as [|x a]; [cbn in *; subst; reflexivity|].
    remember (lenN (x :: a)) as k eqn:K. destruct k as [|kp]; [cbn [lenN] in K; lia|].
    f_equal. rewrite K, <- Happ. apply dropN_app_exact.
Qed.

Lemma takeN_dropN_len {A} (a b : list A) :
  takeN (lenN (a ++ b) - lenN b) (a ++ b) = a /\ dropN (lenN (a ++ b) - lenN b) (a ++ b) = b.
Proof.
  rewrite lenN_app. replace (lenN a + lenN b - lenN b) with (lenN a) by lia.
  split; [apply takeN_app_exact | apply dropN_app_exact].
Qed.

(* the maximal run of set members at the end of l, and what precedes it *)
Definition tail_run (set : cset) (l : bytes) : bytes := rev (fst (span set (rev l))).
Definition tail_rest (set : cset) (l : bytes) : bytes := rev (snd (span set (rev l))).

Lemma tail_split set l : tail_rest set l ++ tail_run set l = l.
Proof.
  unfold tail_rest, tail_run. rewrite <- rev_app_distr, span_app. apply rev_involutive.
Qed.

Lemma tail_run_all set l : forallb set (tail_run set l) = true.
Proof.
  unfold tail_run. rewrite forallb_forall. intros x Hx. apply in_rev in Hx.
  pose proof (span_all set (rev l)) as H. rewrite forallb_forall in H. apply H, Hx.
Qed.

Lemma tail_rest_stop set l :
  match rev (tail_rest set l) with [] => True | y :: _ => set y = false end.
Proof. unfold tail_rest. rewrite rev_involutive. apply span_stop. Qed.

Theorem tok_skipAllTrailing_spec set buf :
  tok_skipAllTrailing set buf = (lenN (tail_run set buf), tail_rest set buf).
Proof.
  unfold tok_skipAllTrailing.
  pose proof (tail_split set buf) as Hs.
  assert (Hl : lenN (fst (span set (rev buf))) = lenN (tail_run set buf)) by (unfold tail_run; now rewrite lenN_rev).
  rewrite Hl.
  destruct (lenN (tail_run set buf) =? 0) eqn:E.
  - apply N.eqb_eq in E. rewrite E. apply lenN_nil_iff in E. rewrite E, app_nil_r in Hs. now rewrite Hs.
  - f_equal. destruct (takeN_dropN_len (tail_rest set buf) (tail_run set buf)) as [A _].
    rewrite Hs in A. exact A.
Qed.

Theorem tok_suffix_spec_nolimit set limit buf :
  lenN buf <= limit ->
  tok_suffix set limit buf =
  match tail_run set buf with [] => None | _ :: _ => Some (tail_run set buf, tail_rest set buf) end.
Proof.
  intros Hlim. unfold tok_suffix.
  replace (limit <? lenN buf) with false by (symmetry; apply N.ltb_ge; lia).
  pose proof (tail_split set buf) as Hs.
  assert (Hl : lenN (fst (span set (rev buf))) = lenN (tail_run set buf)) by (unfold tail_run; now rewrite lenN_rev).
  rewrite Hl.
  destruct (tail_run set buf) as [|x t] eqn:T; [reflexivity|].
  destruct (lenN (x :: t) =? 0) eqn:E; [apply N.eqb_eq in E; cbn [lenN] in E; lia|].
  destruct (takeN_dropN_len (tail_rest set buf) (x :: t)) as [A B].
  rewrite Hs in A, B. now rewrite A, B.
Qed.

Theorem tok_suffix_sound set limit buf t r :
  tok_suffix set limit buf = Some (t, r) ->
  r ++ t = buf /\ t <> [] /\ forallb set t = true /\ lenN t <= limit.
Proof.
  unfold tok_suffix. set (n := lenN buf).
  set (sp := if limit <? n then dropN (n - limit) buf else buf).
  set (found := lenN (fst (span set (rev sp)))).
  destruct (found =? 0) eqn:E; [discriminate|]. apply N.eqb_neq in E.
  intros H; inversion H; subst t r; clear H.
  assert (Hsp : exists pre, buf = pre ++ sp /\ lenN sp <= limit).
  { unfold sp. destruct (limit <? n) eqn:L.
    - exists (takeN (n - limit) buf). split; [now rewrite takeN_dropN|].
      apply N.ltb_lt in L. pose proof (takeN_dropN (n - limit) buf) as HH.
      assert (lenN (takeN (n - limit) buf) = n - limit) by (rewrite lenN_takeN; fold n; lia).
      assert (n = lenN (takeN (n - limit) buf) + lenN (dropN (n - limit) buf)) by (unfold n at 1; rewrite <- HH at 1; apply lenN_app).
      lia.
    - exists []. split; [reflexivity|]. apply N.ltb_ge in L. unfold n in L. exact L. }
  destruct Hsp as [pre [Hb Hsl]].
  pose proof (tail_split set sp) as Hs.
  assert (Hf : found = lenN (tail_run set sp)) by (unfold found, tail_run; now rewrite lenN_rev).
  assert (Hbuf : buf = (pre ++ tail_rest set sp) ++ tail_run set sp) by (rewrite <- app_assoc, Hs; exact Hb).
  assert (Hn : n - found = lenN (pre ++ tail_rest set sp)).
  { unfold n. rewrite Hbuf at 1. rewrite lenN_app, Hf. lia. }
  pose proof (takeN_app_exact (pre ++ tail_rest set sp) (tail_run set sp)) as Ht.
  pose proof (dropN_app_exact (pre ++ tail_rest set sp) (tail_run set sp)) as Hd.
  rewrite <- Hbuf, <- Hn in Ht, Hd. rewrite Ht, Hd.
  split; [symmetry; exact Hbuf|].
  split; [intros C; rewrite C in Hf; cbn [lenN] in Hf; lia|].
  split; [apply tail_run_all|].
  rewrite <- Hf. assert (lenN sp = lenN (tail_rest set sp) + found) by (rewrite <- Hs at 1; rewrite lenN_app, Hf; reflexivity). lia.
Qed.

Lemma find_first_pos p l k :
  find_first p l = Some k -> takeN k l = fst (span (fun c => negb (p c)) l) /\ dropN k l = snd (span (fun c => negb (p c)) l).
Proof.
  revert k; induction l as [|x l IH]; intros k; cbn [find_first span]; [discriminate|].
  destruct (p x) eqn:E; cbn [negb].
  - intros H; inversion H; subst. cbn. split; reflexivity.
  - destruct (find_first p l) as [j|] eqn:F; cbn [option_map]; [|discriminate].
    intros H; inversion H; subst. destruct (IH j eq_refl) as [A B].
    cbn [takeN dropN]. destruct (N.succ j =? 0) eqn:Z; [apply N.eqb_eq in Z; lia|].
    rewrite N.pred_succ. destruct (span (fun c => negb (p c)) l) as [a b]; cbn [fst snd] in *. now rewrite A, B.
Qed.

Lemma find_first_hit p l k : find_first p l = Some k -> exists y r, dropN k l = y :: r /\ p y = true.
Proof.
  revert k; induction l as [|x l IH]; intros k; cbn [find_first]; [discriminate|].
  destruct (p x) eqn:E.
  - intros H; inversion H; subst. exists x, l. split; [reflexivity|exact E].
  - destruct (find_first p l) as [j|] eqn:G; cbn [option_map]; [|discriminate].
    intros H; inversion H; subst k. cbn [dropN].
    destruct (N.succ j =? 0) eqn:Z; [apply N.eqb_eq in Z; lia|]. rewrite N.pred_succ. apply IH. reflexivity.
Qed.

Theorem tok_token_sound delims buf t r :
  tok_token delims buf = Some (t, r) ->
  exists d1 d2,
    buf = d1 ++ t ++ d2 ++ r /\
    forallb delims d1 = true /\ forallb delims d2 = true /\ d2 <> [] /\
    forallb (fun c => negb (delims c)) t = true /\ t <> [] /\
    match r with [] => True | y :: _ => delims y = false end.
Proof.
  unfold tok_token. rewrite tok_skipAll_spec. cbn [snd].
  pose proof (span_app delims buf) as H1. pose proof (span_all delims buf) as A1.
  pose proof (span_stop delims buf) as S1.
  destruct (span delims buf) as [d1 b1]; cbn [fst snd] in *.
  unfold findFirstOf. destruct (find_first delims b1) as [k|] eqn:F; [|discriminate].
  destruct (find_first_pos _ _ _ F) as [T D].
  pose proof (span_app (fun c => negb (delims c)) b1) as H2.
  pose proof (span_all (fun c => negb (delims c)) b1) as A2.
  pose proof (span_stop (fun c => negb (delims c)) b1) as S2.
  rewrite T, D. destruct (span (fun c => negb (delims c)) b1) as [tk b2]; cbn [fst snd] in *.
  rewrite tok_skipAll_spec. cbn [snd].
  pose proof (span_app delims b2) as H3. pose proof (span_all delims b2) as A3.
  pose proof (span_stop delims b2) as S3.
  destruct (span delims b2) as [d2 b3]; cbn [fst snd] in *.
  intros H; inversion H; subst t r; clear H.
  exists d1, d2. split; [rewrite H3, H2; symmetry; exact H1|].
  split; [exact A1|]. split; [exact A3|].
  (* b2 is non-empty and starts with a delimiter because find_first succeeded *)
  assert (Hb2 : exists y b2', b2 = y :: b2' /\ delims y = true).
  { destruct (find_first_hit _ _ _ F) as [y [r' [Hd Hy]]]. rewrite D in Hd. eauto. }
  destruct Hb2 as [y [b2' [-> Hy]]].
  split.
  { intros C; subst d2. cbn [app] in H3. subst b3. rewrite Hy in S3. discriminate. }
  split; [exact A2|]. split; [|exact S3].
  intros C. rewrite C in H2. cbn [app] in H2. rewrite <- H2 in S1. cbn in S1. congruence.
Qed.

Lemma tok_skip_nonempty t b : t <> [] -> tok_skip t b = (starts_with b t, if starts_with b t then dropN (lenN t) b else b).
Proof.
  intros Ht. unfold tok_skip. destruct (starts_with b t); [|reflexivity].
  destruct t; [congruence|]. cbn [lenN]. destruct (N.succ (lenN t) =? 0) eqn:E; [apply N.eqb_eq in E; lia|reflexivity].
Qed.

Lemma tok_skip_self p y : tok_skip p (p ++ y) = (negb (lenN p =? 0), y).
Proof. unfold tok_skip. now rewrite starts_with_app, dropN_app_exact. Qed.

Lemma tok_skip_inv p buf r : tok_skip p buf = (true, r) -> buf = p ++ r.
Proof.
  unfold tok_skip. destruct (starts_with buf p) eqn:S; [|discriminate].
  intros [= _ <-]. apply starts_with_split, S.
Qed.

Lemma skipChar_inv c buf r : tok_skipChar c buf = (true, r) -> buf = c :: r.
Proof.
  destruct buf as [|y b]; cbn [tok_skipChar]; [discriminate|].
  destruct (N.eqb_spec y c) as [->|]; [|discriminate]. now intros [= <-].
Qed.

Lemma tok_skipSuffix_sound suf t t' : tok_skipSuffix suf t = (true, t') -> t = t' ++ suf.
Proof.
  unfold tok_skipSuffix. destruct (lenN t <? lenN suf); [discriminate|].
  destruct (list_eqb (dropN (lenN t - lenN suf) t) suf) eqn:E; [|discriminate].
  intros [= _ <-]. apply list_eqb_eq in E. rewrite <- E at 2. symmetry. apply takeN_dropN.
Qed.

Lemma tok_skipSuffix_app suf z : suf <> [] -> tok_skipSuffix suf (z ++ suf) = (true, z).
Proof.
  intros Hne. unfold tok_skipSuffix. rewrite lenN_app.
  assert (lenN z + lenN suf <? lenN suf = false) as -> by lia.
  replace (lenN z + lenN suf - lenN suf) with (lenN z) by lia.
  rewrite dropN_app_exact, takeN_app_exact, list_eqb_refl.
  destruct suf; [congruence|]. cbn [lenN]. destruct (N.succ (lenN suf) =? 0) eqn:E; [lia|]. reflexivity.
Qed.

Lemma tok_skipOneTrailing_sound set t t' :
  tok_skipOneTrailing set t = (true, t') -> exists c, t = t' ++ [c] /\ set c = true.
Proof.
  unfold tok_skipOneTrailing, last_byte. destruct (rev t) as [|c r] eqn:R; [discriminate|].
  destruct (set c) eqn:Sc; [|discriminate]. intros [= <-]. exists c. split; [|exact Sc].
  assert (Ht : t = rev r ++ [c]) by (rewrite <- (rev_involutive t), R; reflexivity).
  rewrite Ht at 2 3. rewrite lenN_app. cbn [lenN].
  replace (lenN (rev r) + N.succ 0 - 1) with (lenN (rev r)) by lia. now rewrite takeN_app_exact.
Qed.

Lemma tok_skipOneTrailing_app set x c : set c = true -> tok_skipOneTrailing set (x ++ [c]) = (true, x).
Proof.
  intros Hc. unfold tok_skipOneTrailing, last_byte. rewrite rev_app_distr. cbn [rev app]. rewrite Hc.
  f_equal. rewrite lenN_app. cbn [lenN]. replace (lenN x + N.succ 0 - 1) with (lenN x) by lia.
  apply takeN_app_exact.
Qed.

Definition ends_outside (set : cset) (z : bytes) : Prop :=
  match rev z with [] => True | y :: _ => set y = false end.

Lemma ends_outside_app set z c : set c = false -> ends_outside set (z ++ [c]).
Proof. intros H. unfold ends_outside. rewrite rev_app_distr. cbn [rev app]. exact H. Qed.

Lemma ends_outside_forall (set q : cset) z :
  (forall c, q c = true -> set c = false) -> forallb q z = true -> ends_outside set z.
Proof.
  intros Hq Hz. unfold ends_outside. destruct (rev z) as [|y r] eqn:R; [exact I|].
  apply Hq. rewrite forallb_forall in Hz. apply Hz. apply in_rev. rewrite R. left; reflexivity.
Qed.

Lemma tail_run_app set z r : forallb set r = true -> ends_outside set z ->
  tail_run set (z ++ r) = r /\ tail_rest set (z ++ r) = z.
Proof.
  intros Hr Hz. unfold tail_run, tail_rest. rewrite rev_app_distr.
  rewrite (span_app_stop set (rev r) (rev z)); [|rewrite forallb_forall in *; intros y Hy; apply Hr, in_rev, Hy|exact Hz].
  cbn [fst snd]. now rewrite !rev_involutive.
Qed.

Lemma tok_skipAllTrailing_app set z r : forallb set r = true -> ends_outside set z ->
  tok_skipAllTrailing set (z ++ r) = (lenN r, z).
Proof.
  intros Hr Hz. rewrite tok_skipAllTrailing_spec. destruct (tail_run_app set z r Hr Hz) as [-> ->]. reflexivity.
Qed.
