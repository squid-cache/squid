(* VaryProofs.v — proofs for C13 (Vary) *)
Require Import SquidV.Bytes SquidV.HopModel SquidV.HopProofs SquidV.TokModel SquidV.QuoteModel SquidV.QuoteProofs.
Require Import SquidV.VaryModel.
Require Import SquidV.gen.HdrTable_gen SquidV.gen.Vary_gen.
Require Import ZifyBool ZifyN ZifyNat.
Local Open Scope N_scope.

Lemma x_accelerator_vary_off : x_accelerator_vary = false.
Proof. reflexivity. Qed.
Lemma escape_is_contextfree_on_probe : vary_esc_contextfree_probe = true.
Proof. reflexivity. Qed.

(* every byte is emitted either as itself (never a percent sign, never a double quote) or as a %XX triplet that decodes to it *)
Definition esc_entry_ok (c : N) : bool :=
  (c =? 0) || (esc_item_rt c (tbl_entry vary_esc_tbl c) && forallb (fun x => negb (x =? 34)) (tbl_entry vary_esc_tbl c)).
Lemma esc_table_ok : forallb esc_entry_ok all_bytes = true.
Proof. vm_compute. reflexivity. Qed.
Lemma esc_nul_entry : tbl_entry vary_esc_tbl 0 = [].
Proof. reflexivity. Qed.

Lemma esc_entry_facts c : c < 256 /\ c <> 0 ->
  esc_item_rt c (tbl_entry vary_esc_tbl c) = true /\ forallb (fun x => negb (x =? 34)) (tbl_entry vary_esc_tbl c) = true.
Proof.
  intros [Hc H0]. pose proof (forallb_bytes _ esc_table_ok c Hc) as H. unfold esc_entry_ok in H.
  apply orb_prop in H as [H|H]; [lia|]. now apply andb_prop in H.
Qed.

Definition val_ok (v : bytes) : Prop := bytes_ok v /\ nul_free v.

Lemma escape_noquote v : bytes_ok v -> forallb (fun x => negb (x =? 34)) (vary_escape v) = true.
Proof.
  intros Hb. apply forallb_concat_map. intros c Hc.
  exact (proj2 (esc_entry_facts c (proj1 (Forall_forall _ _) (cstr_ok _ Hb) c Hc))).
Qed.

Lemma escape_decodes v : val_ok v -> unesc_list (vary_escape v) = v.
Proof.
  intros [Hb Hn]. unfold vary_escape. rewrite (cstr_nul_free v Hn).
  apply (unesc_list_concat_map _ _ _ (fun c H => proj1 (esc_entry_facts c H))).
  apply Forall_and; assumption.
Qed.

Lemma escape_injective v1 v2 : val_ok v1 -> val_ok v2 -> vary_escape v1 = vary_escape v2 -> v1 = v2.
Proof.
  intros H1 H2 H. rewrite <- (escape_decodes v1 H1), <- (escape_decodes v2 H2). now rewrite H.
Qed.

(* two quote-free strings followed by a quote: the first quote delimits them *)
Lemma split_at_quote a : forall b r1 r2,
  forallb (fun x => negb (x =? 34)) a = true -> forallb (fun x => negb (x =? 34)) b = true ->
  a ++ 34 :: r1 = b ++ 34 :: r2 -> a = b /\ r1 = r2.
Proof.
  induction a as [|x a IH]; intros [|y b] r1 r2 Ha Hb H; cbn [app] in H.
  - injection H as H. now split.
  - injection H as Hy _. subst y. cbn in Hb. discriminate.
  - injection H as Hx _. subst x. cbn in Ha. discriminate.
  - injection H as Hxy H. subst y. cbn [forallb] in Ha, Hb.
    apply andb_prop in Ha. apply andb_prop in Hb.
    destruct (IH b r1 r2 (proj2 Ha) (proj2 Hb) H) as [E1 E2]. subst. now split.
Qed.

(* String / strListAdd: closed form of the joined value *)
Definition sepcat (vals : list bytes) : bytes := concat (map (fun v => [44; 32] ++ v) vals).

Lemma join_list_sepcat v vals : join_list (v :: vals) = v ++ sepcat vals.
Proof.
  revert v. induction vals as [|w r IH]; intros v.
  - cbn. now rewrite app_nil_r.
  - change (join_list (v :: w :: r)) with (v ++ [44; 32] ++ join_list (w :: r)).
    rewrite IH. unfold sepcat. cbn [map concat]. now rewrite <- !app_assoc.
Qed.

(* what Squid reads for a field with the given (C string) line values, in order: undefined when there is
   no line; otherwise the values joined by ", " after dropping the leading empty lines *)
Fixpoint drop_nil (vals : list bytes) : list bytes :=
  match vals with
  | [] :: r => drop_nil r
  | _ => vals
  end.
Definition joined_spec (vals : list bytes) : sstr :=
  match vals with
  | [] => None
  | _ => Some (join_list (drop_nil vals))
  end.

Lemma cstr_idem v : cstr (cstr v) = cstr v.
Proof. apply cstr_nul_free, cstr_is_nul_free. Qed.

Lemma add_all_nonempty c r vals :
  fold_left str_list_add (map cstr vals) (Some (c :: r)) = Some ((c :: r) ++ sepcat (map cstr vals)).
Proof.
  revert c r. induction vals as [|v vals IH]; intros c r; cbn [map fold_left].
  - unfold sepcat. cbn. now rewrite app_nil_r.
  - cbn [str_list_add]. rewrite cstr_idem.
    destruct ((c :: r) ++ [44; 32] ++ cstr v) as [|c' r'] eqn:E; [destruct r; discriminate|].
    rewrite IH, <- E. unfold sepcat. cbn [map concat]. now rewrite <- !app_assoc.
Qed.

Lemma add_all_fresh s vals : s = None \/ s = Some [] ->
  fold_left str_list_add (map cstr vals) s = match vals with [] => s | _ => Some (join_list (drop_nil (map cstr vals))) end.
Proof.
  revert s. induction vals as [|v vals IH]; intros s Hs; [reflexivity|].
  cbn [map fold_left].
  assert (E : str_list_add s (cstr v) = Some (cstr v)) by (destruct Hs; subst s; cbn [str_list_add]; now rewrite cstr_idem).
  rewrite E. cbn [drop_nil]. destruct (cstr v) as [|c t] eqn:Ev.
  - destruct vals; [reflexivity|]. apply IH. now right.
  - rewrite join_list_sepcat. apply add_all_nonempty.
Qed.

Definition line_values (p : hdr -> bool) (hs : list hdr) : list bytes := map (fun h => cstr (h_value h)) (filter p hs).

Lemma add_matching_fold p hs s : add_matching p hs s = fold_left str_list_add (map cstr (map h_value (filter p hs))) s.
Proof.
  revert s. induction hs as [|h hs IH]; intros s; [reflexivity|].
  cbn [add_matching filter]. destruct (p h); [|apply IH].
  cbn [map fold_left]. rewrite IH. f_equal.
  destruct s as [[|c r]|]; cbn [str_list_add]; now rewrite cstr_idem.
Qed.

Lemma add_matching_spec p hs : add_matching p hs None = joined_spec (line_values p hs).
Proof.
  rewrite add_matching_fold, add_all_fresh by now left.
  unfold joined_spec, line_values. rewrite map_map.
  destruct (filter p hs); reflexivity.
Qed.

(* well-formed request blocks: values are NUL-free byte strings *)
Definition block_ok (hs : list hdr) : Prop := Forall (fun h => val_ok (h_value h)) hs.
Definition sstr_ok (s : sstr) : Prop := match s with None => True | Some v => val_ok v end.

Lemma val_ok_app a b : val_ok a -> val_ok b -> val_ok (a ++ b).
Proof. intros [A1 A2] [B1 B2]. split; apply Forall_app; split; assumption. Qed.
Lemma val_ok_cstr v : val_ok v -> val_ok (cstr v).
Proof. intros [A1 A2]. split; [apply cstr_bytes_ok, A1|apply cstr_is_nul_free]. Qed.
Lemma val_ok_sep : val_ok [44; 32].
Proof. split; repeat constructor; lia. Qed.

Lemma str_list_add_ok s v : sstr_ok s -> val_ok v -> sstr_ok (str_list_add s v).
Proof.
  intros Hs Hv. destruct s as [[|c r]|]; cbn [str_list_add sstr_ok]; try (apply val_ok_cstr, Hv).
  apply val_ok_app; [exact Hs|]. apply val_ok_app; [exact val_ok_sep|apply val_ok_cstr, Hv].
Qed.

Lemma add_matching_ok p hs : block_ok hs -> forall s, sstr_ok s -> sstr_ok (add_matching p hs s).
Proof.
  induction 1 as [|h hs Hh Hhs IH]; intros s Hs; cbn [add_matching]; [exact Hs|].
  apply IH. destruct (p h); [apply str_list_add_ok; assumption|exact Hs].
Qed.

Lemma get_by_name_ok hs name : block_ok hs -> sstr_ok (get_by_name hs name).
Proof.
  intros Hb. unfold get_by_name.
  destruct (negb (lookup_id hdr_table name =? hdr_OTHER) && has_id hs (lookup_id hdr_table name)).
  - unfold get_str_or_list. destruct (is_list_hdr _).
    + unfold get_list. destruct (has_id hs _); [|exact I]. apply add_matching_ok; [exact Hb|exact I].
    + destruct (find _ hs) as [e|] eqn:Ef; [|exact I].
      apply find_some in Ef as [Ef _]. unfold block_ok in Hb. rewrite Forall_forall in Hb. specialize (Hb e Ef).
      destruct (h_value e) as [|c r]; cbn [s_copy sstr_ok]; [exact I|exact Hb].
  - apply add_matching_ok; [exact Hb|exact I].
Qed.

(* the mark as a string: closed form and injectivity *)
Definition valpart (v : sstr) : bytes :=
  match v with
  | Some value => [61; 34] ++ vary_escape value ++ [34]
  | None => []
  end.
Definition piece (hs : list hdr) (item : bytes) : bytes := lower item ++ valpart (get_by_name hs (lower item)).

Fixpoint tail_str (first : bool) (items : list bytes) (hs : list hdr) : bytes :=
  match items with
  | [] => []
  | it :: r => (if first then [] else [44; 32]) ++ piece hs it ++ tail_str false r hs
  end.

Definition items_ok (items : list bytes) : Prop := Forall (fun it => it <> []) items.

Lemma is_nil_app_r a b : b <> [] -> is_nil (a ++ b) = false.
Proof. intros H. destruct a; cbn [app is_nil]; [destruct b; [contradiction|reflexivity]|reflexivity]. Qed.

Lemma assemble_closed items : items_ok items -> ~ In star items -> forall vstr hs,
  assemble items vstr hs = vstr ++ tail_str (is_nil vstr) items hs.
Proof.
  induction 1 as [|it items Hit Hitems IH]; intros Hstar vstr hs; cbn [assemble tail_str].
  - now rewrite app_nil_r.
  - destruct (list_eqb it star) eqn:E; [apply list_eqb_eq in E; exfalso; apply Hstar; now left|].
    rewrite IH by (intros Hin; apply Hstar; now right).
    assert (Hl : lower it <> []) by (destruct it; [contradiction|discriminate]).
    assert (Hnn : is_nil (add_value (add_name vstr (lower it)) (get_by_name hs (lower it))) = false).
    { unfold add_value. destruct (get_by_name hs (lower it)).
      - apply is_nil_app_r. discriminate.
      - unfold add_name. apply is_nil_app_r, Hl. }
    rewrite Hnn. unfold piece, add_value, add_name, valpart.
    destruct (get_by_name hs (lower it)); destruct vstr; cbn [is_nil]; cbn [app]; rewrite <- ?app_assoc; cbn [app];
      rewrite ?app_nil_r; reflexivity.
Qed.

Lemma assemble_star items : In star items -> forall vstr hs, assemble items vstr hs = star.
Proof.
  induction items as [|it items IH]; intros Hin vstr hs; [destruct Hin|]. cbn [assemble].
  destruct (list_eqb it star) eqn:E; [reflexivity|].
  destruct Hin as [Hin|Hin]; [subst it; rewrite list_eqb_refl in E; discriminate|]. apply IH, Hin.
Qed.

(* the tail after a value is empty or starts with a comma: it cannot be mistaken for an equals-quoted value *)
Lemma tail_false_head items hs : tail_str false items hs = [] \/ exists r, tail_str false items hs = 44 :: r.
Proof. destruct items as [|it r]; [now left|right]. cbn [tail_str app]. eauto. Qed.

Lemma tail_inj items : forall first hs1 hs2, block_ok hs1 -> block_ok hs2 ->
  tail_str first items hs1 = tail_str first items hs2 ->
  forall it, In it items -> get_by_name hs1 (lower it) = get_by_name hs2 (lower it).
Proof.
  induction items as [|it0 items IH]; intros first hs1 hs2 Hb1 Hb2 H it Hin; [destruct Hin|].
  cbn [tail_str] in H. apply app_inv_head in H. unfold piece in H. rewrite <- !app_assoc in H.
  apply app_inv_head in H.
  pose proof (get_by_name_ok hs1 (lower it0) Hb1) as Ho1. pose proof (get_by_name_ok hs2 (lower it0) Hb2) as Ho2.
  assert (G : get_by_name hs1 (lower it0) = get_by_name hs2 (lower it0) /\ tail_str false items hs1 = tail_str false items hs2).
  { destruct (get_by_name hs1 (lower it0)) as [v1|], (get_by_name hs2 (lower it0)) as [v2|]; cbn [valpart sstr_ok] in *.
    - cbn [app] in H. injection H as H. rewrite <- !app_assoc in H. cbn [app] in H.
      destruct (split_at_quote _ _ _ _ (escape_noquote v1 (proj1 Ho1)) (escape_noquote v2 (proj1 Ho2)) H) as [E1 E2].
      apply (escape_injective v1 v2 Ho1 Ho2) in E1. subst v2. now split.
    - exfalso. cbn [app] in H. destruct (tail_false_head items hs2) as [E|[r E]]; rewrite E in H; discriminate.
    - exfalso. cbn [app] in H. destruct (tail_false_head items hs1) as [E|[r E]]; rewrite E in H; discriminate.
    - now split. }
  destruct G as [G1 G2]. destruct Hin as [<-|Hin]; [exact G1|]. exact (IH false hs1 hs2 Hb1 Hb2 G2 it Hin).
Qed.

(* items of a strListGetItem loop are never empty *)
Lemma items_fuel_nonempty fuel : forall del l, items_ok (items_fuel fuel del l).
Proof.
  induction fuel as [|f IH]; intros del l; cbn [items_fuel]; [constructor|].
  destruct (scan_item del false (drop_while (is_delim2 del) l) []) as [item rest].
  destruct (rtrim item) as [|c r]; [constructor|]. constructor; [discriminate|apply IH].
Qed.
Lemma vary_items_ok vv : items_ok (vary_items vv).
Proof. unfold vary_items. destruct (vary_value vv); [apply items_fuel_nonempty|constructor]. Qed.

Lemma make_mark_closed vv hs : ~ In star (vary_items vv) -> make_mark vv hs = tail_str true (vary_items vv) hs.
Proof. intros H. unfold make_mark. now rewrite (assemble_closed _ (vary_items_ok vv) H). Qed.
Lemma make_mark_star vv hs : In star (vary_items vv) -> make_mark vv hs = star.
Proof. intros H. unfold make_mark. now apply assemble_star. Qed.

Theorem mark_injective vv hs1 hs2 : block_ok hs1 -> block_ok hs2 -> ~ In star (vary_items vv) ->
  make_mark vv hs1 = make_mark vv hs2 ->
  forall item, In item (vary_items vv) -> get_by_name hs1 (lower item) = get_by_name hs2 (lower item).
Proof.
  intros Hb1 Hb2 Hs H. rewrite !make_mark_closed in H by exact Hs. exact (tail_inj _ true hs1 hs2 Hb1 Hb2 H).
Qed.

(* a mark that is not "*" was built without meeting "*" *)
Lemma mark_not_star vv hs : make_mark vv hs <> star -> ~ In star (vary_items vv).
Proof. intros H Hin. apply H. now apply make_mark_star. Qed.

(* the nominated names: for quote-free Vary text the strListGetItem loop is comma-split / OWS-trim /
   drop-empty (C04's reading theorem), then lower-cased by assembleVaryKey *)
Theorem vary_names_spec vv s : vary_value vv = Some s -> simple s = true -> vary_items vv = ref_items s.
Proof. intros H Hs. unfold vary_items. rewrite H. now apply list_items_is_ref. Qed.

Lemma ci_eqb_len a : forall b, ci_eqb a b = true -> lenN a = lenN b.
Proof.
  induction a as [|x a IH]; intros [|y b] H; cbn [ci_eqb] in H; try discriminate; [reflexivity|].
  apply andb_prop in H. cbn [lenN]. now rewrite (IH b (proj2 H)).
Qed.

Lemma add_matching_ext p q hs s : (forall h, In h hs -> p h = q h) -> add_matching p hs s = add_matching q hs s.
Proof.
  revert s. induction hs as [|h hs IH]; intros s H; [reflexivity|]. cbn [add_matching].
  rewrite (H h (or_introl eq_refl)). apply IH. intros h' Hin. apply H. now right.
Qed.

(* unregistered field name: every line whose name equals it ignoring case, joined *)
Theorem read_unregistered hs name : lookup_id hdr_table name = hdr_OTHER ->
  get_by_name hs name = joined_spec (line_values (fun h => ci_eqb (h_name h) name) hs).
Proof.
  intros Hid. unfold get_by_name. rewrite Hid, N.eqb_refl. cbn [negb andb].
  rewrite <- add_matching_spec. apply add_matching_ext. intros h _. unfold name_matches.
  destruct (ci_eqb (h_name h) name) eqn:E; [|now rewrite andb_false_r].
  unfold hdr_id. rewrite (lookup_id_ci hdr_table _ _ E), Hid, N.eqb_refl, (ci_eqb_len _ _ E), N.eqb_refl. reflexivity.
Qed.

(* no line carries the id the name maps to: the walk by name adds nothing, and no line is selected by id *)
Lemma absent_id hs name : has_id hs (lookup_id hdr_table name) = false ->
  add_matching (name_matches name) hs None = None /\
  filter (fun h => hdr_id h =? lookup_id hdr_table name) hs = [] /\
  find (fun h => hdr_id h =? lookup_id hdr_table name) hs = None.
Proof.
  unfold has_id. induction hs as [|h hs IH]; cbn [existsb add_matching filter find]; [now repeat split|].
  intros H. apply orb_false_elim in H as [H1 H2]. rewrite H1.
  assert (name_matches name h = false) as ->; [|exact (IH H2)].
  destruct (name_matches name h) eqn:Hm; [|reflexivity]. unfold name_matches in Hm. apply andb_prop in Hm as [_ Hc].
  unfold hdr_id in H1. rewrite (lookup_id_ci _ _ _ Hc), N.eqb_refl in H1. discriminate.
Qed.

(* registered list header (Accept, Accept-Encoding, Accept-Language, ...): every line with that header id, joined *)
Theorem read_registered_list hs name : lookup_id hdr_table name <> hdr_OTHER -> is_list_hdr (lookup_id hdr_table name) = true ->
  get_by_name hs name = joined_spec (line_values (fun h => hdr_id h =? lookup_id hdr_table name) hs).
Proof.
  intros Hid Hl. unfold get_by_name. apply N.eqb_neq in Hid. rewrite Hid. cbn [negb andb].
  destruct (has_id hs (lookup_id hdr_table name)) eqn:Eh.
  - unfold get_str_or_list, get_list. rewrite Hl, Eh. apply add_matching_spec.
  - destruct (absent_id hs name Eh) as (-> & Hf & _). unfold line_values. now rewrite Hf.
Qed.

(* registered single-value header (Cookie, User-Agent, Referer, ...): the FIRST line only; empty reads as absent *)
Theorem read_registered_single hs name : lookup_id hdr_table name <> hdr_OTHER -> is_list_hdr (lookup_id hdr_table name) = false ->
  get_by_name hs name =
  match find (fun h => hdr_id h =? lookup_id hdr_table name) hs with
  | Some e => match h_value e with [] => None | v => Some v end
  | None => None
  end.
Proof.
  intros Hid Hl. unfold get_by_name. apply N.eqb_neq in Hid. rewrite Hid. cbn [negb andb].
  destruct (has_id hs (lookup_id hdr_table name)) eqn:Eh.
  - unfold get_str_or_list. rewrite Hl. destruct (find _ hs) as [e|]; [|reflexivity].
    destruct (h_value e); reflexivity.
  - now destruct (absent_id hs name Eh) as (-> & _ & ->).
Qed.

Theorem match_only_same_mark e req_mark hs m :
  vary_evaluate_match e req_mark hs = (VARY_MATCH, m) ->
  m = e_mark e /\ m <> [] /\ e_vary e <> [] /\ (req_mark = [] -> m = make_mark (e_vary e) hs) /\ (req_mark <> [] -> m = req_mark).
Proof.
  unfold vary_evaluate_match. destruct (e_vary e) as [|v0 vr] eqn:Ev; cbn [negb orb].
  - destruct (negb (is_nil req_mark)); [discriminate|discriminate].
  - destruct (is_nil (e_mark e)) eqn:Em.
    + destruct (negb (is_nil req_mark)); [discriminate|]. destruct (negb (is_nil (make_mark (v0 :: vr) hs))); discriminate.
    + destruct req_mark as [|c r]; cbn [is_nil].
      * destruct (make_mark (v0 :: vr) hs) as [|c r] eqn:Emk; cbn [is_nil negb]; [discriminate|].
        destruct (list_eqb (c :: r) (e_mark e)) eqn:El; [|discriminate].
        intros H. injection H as <-. apply list_eqb_eq in El. repeat split; try discriminate; try assumption; congruence.
      * destruct (list_eqb (c :: r) (e_mark e)) eqn:El; [|discriminate].
        intros H. injection H as <-. apply list_eqb_eq in El. repeat split; try discriminate; try assumption; congruence.
Qed.

(* the store invariant for one URL whose origin always sends the Vary values vv *)
Definition slot_ok (vv : list bytes) (hist : list (list hdr)) (k : bytes) (e : entry) : Prop :=
  (vv = [] /\ k = [] /\ e_vary e = [] /\ e_mark e = [] /\ exists hi, nthN (e_src e) hist = Some hi)
  \/ (vv <> [] /\ k = [] /\ e = marker vv)
  \/ (vv <> [] /\ k = e_mark e /\ e_vary e = vv /\ e_mark e <> [] /\ e_reval e = list_eqb (e_mark e) star /\
      exists hi, nthN (e_src e) hist = Some hi /\ e_mark e = make_mark vv hi).
Definition inv (vv : list bytes) (hist : list (list hdr)) (st : store) : Prop :=
  forall k e, In (k, e) st -> slot_ok vv hist k e.

Lemma lookup_in st k e : lookup st k = Some e -> In (k, e) st.
Proof.
  induction st as [|[k' e'] st IH]; cbn [lookup]; [discriminate|].
  destruct (list_eqb k k') eqn:E; [|intros H; right; apply IH, H].
  apply list_eqb_eq in E. subst k'. intros H. injection H as <-. now left.
Qed.

Lemma nthN_app_some {A} (a b : list A) i x : nthN i a = Some x -> nthN i (a ++ b) = Some x.
Proof. intros H. now rewrite nthN_app_l by exact (nthN_lt _ _ _ H). Qed.

Lemma slot_ok_mono vv hist hs k e : slot_ok vv hist k e -> slot_ok vv (hist ++ [hs]) k e.
Proof.
  intros [H|[H|H]].
  - left. destruct H as (H1 & H2 & H3 & H4 & hi & H5). repeat split; try assumption. exists hi. now apply nthN_app_some.
  - right. now left.
  - right. right. destruct H as (H1 & H2 & H3 & H4 & H5 & hi & H6 & H7). repeat split; try assumption.
    exists hi. split; [now apply nthN_app_some|assumption].
Qed.

(* a stored variant answers a non-empty request mark with MATCH or CANCEL, by comparing the marks *)
Lemma variant_verdict e c r hs : e_vary e <> [] -> e_mark e <> [] ->
  vary_evaluate_match e (c :: r) hs = (if list_eqb (c :: r) (e_mark e) then VARY_MATCH else VARY_CANCEL, c :: r).
Proof.
  intros Hv Hm. unfold vary_evaluate_match. destruct (e_vary e); [contradiction|]. destruct (e_mark e); [contradiction|].
  cbn [is_nil negb orb]. now destruct (list_eqb _ _).
Qed.

Lemma make_mark_novary hs : make_mark [] hs = [].
Proof. reflexivity. Qed.

(* a body served from the store was stored for a request with the same mark, and that mark is not "*" *)
Lemma cache_hit_sound vv hist st hs e m : inv vv hist st ->
  cache_hit 3 st [] hs = (Hit e, m) ->
  exists hi, nthN (e_src e) hist = Some hi /\ make_mark vv hi = make_mark vv hs /\ make_mark vv hs <> star.
Proof.
  intros Hinv. cbn [cache_hit].
  destruct (lookup st []) as [e0|] eqn:L0; [|discriminate].
  pose proof (Hinv _ _ (lookup_in _ _ _ L0)) as S0.
  destruct S0 as [S0|[S0|S0]].
  - (* a non-varying object *)
    destruct S0 as (Hvv & _ & Hev & Hem & hi & Hsrc). subst vv.
    unfold vary_evaluate_match. rewrite Hev, Hem. cbn [negb orb is_nil].
    destruct (e_reval e0); [discriminate|]. intros H. injection H as <- _.
    exists hi. split; [exact Hsrc|]. rewrite !make_mark_novary. split; [reflexivity|discriminate].
  - (* the marker: compute the mark and look again *)
    destruct S0 as (Hvv & _ & He0). subst e0.
    unfold vary_evaluate_match at 1. cbn [marker e_vary e_mark is_nil negb orb].
    destruct vv as [|v0 vr]; [contradiction|]. cbn [negb orb].
    destruct (make_mark (v0 :: vr) hs) as [|c r] eqn:Emk; cbn [is_nil negb]; [discriminate|].
    destruct (lookup st (c :: r)) as [e1|] eqn:L1; [|discriminate].
    pose proof (Hinv _ _ (lookup_in _ _ _ L1)) as S1.
    destruct S1 as [S1|[S1|S1]]; [destruct S1 as (? & ? & _); discriminate|destruct S1 as (_ & ? & _); discriminate|].
    destruct S1 as (_ & Hk & Hev & Hne & Hrv & hi & Hsrc & Hmk).
    rewrite variant_verdict by (rewrite ?Hev; assumption).
    destruct (list_eqb (c :: r) (e_mark e1)); [|discriminate].
    destruct (e_reval e1) eqn:Er; [discriminate|]. intros H. injection H as <- _.
    exists hi. split; [exact Hsrc|]. rewrite <- Hmk, <- Hk. split; [reflexivity|].
    intros Hs. rewrite <- Hk, Hs in Hrv. cbn in Hrv. discriminate.
  - (* a variant is never stored under the empty key *)
    exfalso. destruct S0 as (_ & Hk & _ & Hne & _). now apply Hne.
Qed.

Lemma inv_remove vv hist st k : inv vv hist st -> inv vv hist (remove st k).
Proof. intros H k' e Hin. unfold remove in Hin. apply filter_In in Hin. apply H, Hin. Qed.
Lemma inv_put vv hist st k e : inv vv hist st -> slot_ok vv hist k e -> inv vv hist (put st k e).
Proof. intros H Hs k' e' [Hin|Hin]; [injection Hin as <- <-; exact Hs|apply H, Hin]. Qed.
Lemma inv_mono vv hist hs st : inv vv hist st -> inv vv (hist ++ [hs]) st.
Proof. intros H k e Hin. apply slot_ok_mono, H, Hin. Qed.

Lemma store_reply_inv vv hist st rm hs : inv vv hist st ->
  inv vv (hist ++ [hs]) (store_reply st rm vv hs (lenN hist)).
Proof.
  intros Hinv. apply (inv_mono _ _ hs) in Hinv. unfold store_reply. destruct vv as [|v0 vr] eqn:Evv.
  - apply inv_put; [exact Hinv|]. left. cbn [e_vary e_mark e_src]. repeat split. exists hs. apply nthN_app_len.
  - rewrite <- Evv in *. assert (Hne : vv <> []) by (rewrite Evv; discriminate).
    destruct (is_nil (make_mark vv hs)) eqn:En; [exact Hinv|].
    set (changed := negb (is_nil rm) && negb (list_eqb rm (make_mark vv hs))).
    set (st1 := if changed then remove st [] else st).
    assert (H1 : inv vv (hist ++ [hs]) st1) by (unfold st1; destruct changed; [apply inv_remove|]; exact Hinv).
    set (st2 := match lookup st1 [] with None => put st1 [] (marker vv) | Some _ => st1 end).
    assert (H2 : inv vv (hist ++ [hs]) st2).
    { unfold st2. destruct (lookup st1 []); [exact H1|]. apply inv_put; [exact H1|]. right. left. now repeat split. }
    match goal with |- inv _ _ (put _ ?k _) => assert (Hkey : k = make_mark vv hs) end.
    { unfold changed. destruct rm as [|c r]; cbn [is_nil negb andb]; [reflexivity|].
      destruct (list_eqb (c :: r) (make_mark vv hs)) eqn:El; cbn [negb is_nil]; [|reflexivity].
      now apply list_eqb_eq in El. }
    rewrite Hkey. apply inv_put; [exact H2|]. right. right. cbn [e_vary e_mark e_reval e_src].
    repeat split; try assumption; try reflexivity.
    + intros E. rewrite E in En. discriminate.
    + exists hs. split; [apply nthN_app_len|reflexivity].
Qed.

Lemma run_sound vv : forall todo hist st, inv vv hist st ->
  forall j i hj, nthN j (run vv st (lenN hist) todo) = Some i -> nthN j todo = Some hj -> i <> lenN hist + j ->
  exists hi, nthN i (hist ++ todo) = Some hi /\ i < lenN hist + j /\
             make_mark vv hi = make_mark vv hj /\ make_mark vv hj <> star.
Proof.
  induction todo as [|hs todo IH]; intros hist st Hinv j i hj Hsrc Hreq Hne; [discriminate|].
  cbn [run] in Hsrc. destruct (process st vv hs (lenN hist)) as [src st'] eqn:Ep.
  cbn [nthN] in Hsrc, Hreq. destruct (j =? 0) eqn:Hj.
  - apply N.eqb_eq in Hj. subst j. injection Hsrc as ->. injection Hreq as ->.
    unfold process in Ep. destruct (cache_hit 3 st [] hj) as [[e|e| |] m] eqn:Ec;
      try (injection Ep as <- _; rewrite N.add_0_r in Hne; contradiction).
    injection Ep as <- _. destruct (cache_hit_sound vv hist st hj e m Hinv Ec) as (hi & H1 & H2 & H3).
    exists hi. split; [now apply nthN_app_some|]. split; [apply nthN_lt in H1; lia|]. now split.
  - assert (Hinv' : inv vv (hist ++ [hs]) st').
    { unfold process in Ep. destruct (cache_hit 3 st [] hs) as [[e|e| |] m];
        injection Ep as _ <-; try apply store_reply_inv; try exact Hinv. now apply inv_mono. }
    assert (Hlen : lenN (hist ++ [hs]) = lenN hist + 1) by (rewrite lenN_app; reflexivity).
    replace (lenN hist + 1) with (lenN (hist ++ [hs])) in Hsrc by exact Hlen.
    destruct (IH (hist ++ [hs]) st' Hinv' (N.pred j) i hj Hsrc Hreq) as (hi & H1 & H2 & H3 & H4); [lia|].
    exists hi. rewrite <- app_assoc in H1. split; [exact H1|]. split; [lia|]. now split.
Qed.

Lemma inv_empty vv : inv vv [] [].
Proof. intros k e []. Qed.

(* every response served from the cache was stored for a request with the same mark, which is not "*" *)
Theorem run_hits_same_mark vv reqs j i hj :
  nthN j (run vv [] 0 reqs) = Some i -> nthN j reqs = Some hj -> i <> j ->
  exists hi, nthN i reqs = Some hi /\ i < j /\ make_mark vv hi = make_mark vv hj /\ make_mark vv hj <> star.
Proof.
  intros H1 H2 H3. destruct (run_sound vv reqs [] [] (inv_empty vv) j i hj H1 H2) as (hi & G1 & G2 & G3 & G4).
  - cbn [lenN]. lia.
  - exists hi. cbn [lenN app] in *. repeat split; try assumption; try lia.
Qed.

(* ... hence every nominated field reads the same in both requests *)
Theorem run_hits_fields_read_equal vv reqs j i hj : Forall block_ok reqs ->
  nthN j (run vv [] 0 reqs) = Some i -> nthN j reqs = Some hj -> i <> j ->
  exists hi, nthN i reqs = Some hi /\ i < j /\ ~ In star (vary_items vv) /\
    forall item, In item (vary_items vv) -> get_by_name hi (lower item) = get_by_name hj (lower item).
Proof.
  intros Hok H1 H2 H3. destruct (run_hits_same_mark vv reqs j i hj H1 H2 H3) as (hi & G1 & G2 & G3 & G4).
  exists hi. split; [exact G1|]. split; [exact G2|]. pose proof (mark_not_star vv hj G4) as Hs. split; [exact Hs|].
  rewrite Forall_forall in Hok.
  exact (mark_injective vv hi hj (Hok _ (nthN_in _ _ _ G1)) (Hok _ (nthN_in _ _ _ H2)) Hs G3).
Qed.

(* Vary: * (anywhere in the list): nothing is ever served from the cache *)
Theorem star_never_served_from_cache vv reqs j i :
  In star (vary_items vv) -> nthN j (run vv [] 0 reqs) = Some i -> j < lenN reqs -> i = j.
Proof.
  intros Hs H1 Hj. destruct (N.eq_dec i j) as [E|E]; [exact E|exfalso].
  destruct (nthN_some reqs j Hj) as [hj H2].
  destruct (run_hits_same_mark vv reqs j i hj H1 H2 E) as (_ & _ & _ & _ & G4).
  apply G4. now apply make_mark_star.
Qed.

(* the full-strength statement is false for registered single-value headers *)
Definition b (l : list nat) : bytes := map N.of_nat l.
Definition n_cookie := b [67;111;111;107;105;101]%nat.
Definition n_user_agent := b [85;115;101;114;45;65;103;101;110;116]%nat.
Definition lines_of (name : bytes) (hs : list hdr) : list bytes := map h_value (filter (fun h => ci_eqb (h_name h) name) hs).

(* Vary: Cookie; request 0 `Cookie: a=1`; request 1 `Cookie: a=1` + `Cookie: b=2` is served request 0's body *)
Definition w_cookie1 : list hdr := [{| h_name := n_cookie; h_value := b [97;61;49]%nat |}].
Definition w_cookie2 : list hdr := w_cookie1 ++ [{| h_name := n_cookie; h_value := b [98;61;50]%nat |}].
Theorem singleton_extra_lines_refuted :
  exists vv hs1 hs2, block_ok hs1 /\ block_ok hs2 /\ vary_items vv = [n_cookie] /\
    run vv [] 0 [hs1; hs2] = [0; 0] /\ lines_of n_cookie hs1 <> lines_of n_cookie hs2.
Proof.
  exists [n_cookie], w_cookie1, w_cookie2.
  split; [repeat constructor; cbn; lia|]. split; [repeat constructor; cbn; lia|].
  split; [vm_compute; reflexivity|]. split; [vm_compute; reflexivity|]. vm_compute. discriminate.
Qed.

(* Vary: User-Agent; request 0 has no User-Agent; request 1 `User-Agent:` (empty) is served request 0's body *)
Definition w_ua_empty : list hdr := [{| h_name := n_user_agent; h_value := [] |}].
Theorem singleton_empty_refuted :
  exists vv hs1 hs2, block_ok hs1 /\ block_ok hs2 /\ vary_items vv = [n_user_agent] /\
    run vv [] 0 [hs1; hs2] = [0; 0] /\ lines_of n_user_agent hs1 = [] /\ lines_of n_user_agent hs2 = [[]].
Proof.
  exists [n_user_agent], [], w_ua_empty.
  split; [constructor|]. split; [repeat constructor|].
  split; [vm_compute; reflexivity|]. split; [vm_compute; reflexivity|]. split; vm_compute; reflexivity.
Qed.

(* for unregistered and registered list headers equal reading is: same presence, same joined value *)
Theorem same_reading_partial hs1 hs2 name :
  lookup_id hdr_table name = hdr_OTHER \/ is_list_hdr (lookup_id hdr_table name) = true ->
  get_by_name hs1 name = get_by_name hs2 name ->
  let sel := if lookup_id hdr_table name =? hdr_OTHER then (fun h => ci_eqb (h_name h) name)
             else (fun h => hdr_id h =? lookup_id hdr_table name) in
  (line_values sel hs1 = [] <-> line_values sel hs2 = []) /\
  join_list (drop_nil (line_values sel hs1)) = join_list (drop_nil (line_values sel hs2)).
Proof.
  intros Hk H sel.
  assert (G : joined_spec (line_values sel hs1) = joined_spec (line_values sel hs2)).
  { unfold sel. destruct (lookup_id hdr_table name =? hdr_OTHER) eqn:E.
    - apply N.eqb_eq in E. now rewrite <- !read_unregistered.
    - apply N.eqb_neq in E. destruct Hk as [Hk|Hk]; [contradiction|]. now rewrite <- !read_registered_list. }
  unfold joined_spec in G.
  destruct (line_values _ hs1) as [|a1 r1], (line_values _ hs2) as [|a2 r2]; try discriminate.
  - split; [tauto|reflexivity].
  - injection G as G. split; [split; discriminate|exact G].
Qed.

(* concrete values for the Examples in Properties_C13.v *)
Definition n_xfoo := b [88;45;70;111;111]%nat.                       (* X-Foo *)
Definition n_xfoo_lc := b [120;45;102;111;111]%nat.                  (* x-foo *)
Definition n_noise := b [88;45;78;111;105;115;101]%nat.              (* X-Noise *)
Definition n_accept_encoding := b [65;99;99;101;112;116;45;69;110;99;111;100;105;110;103]%nat.
Definition ex_req (v : list nat) (noise : list nat) : list hdr :=
  [{| h_name := n_noise; h_value := b noise |}; {| h_name := n_xfoo_lc; h_value := b v |}].
Definition ex_vary_xfoo : list bytes := [b [32;88;45;70;111;111;32;44]%nat].      (* " X-Foo ," *)
Definition ex_vary_star : list bytes := [b [88;45;70;111;111;44;32;42]%nat].       (* "X-Foo, *" *)
Definition ex_quote_pct : list nat := [97;34;37;233]%nat.                          (* a, DQUOTE, percent, 0xE9 *)
