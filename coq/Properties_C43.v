(* Properties_C43.v — C43: integer-range ACLs match exactly the configured ranges.
   Statements, closed by `exact` or by the few lines that assemble them; proofs live in IntrangeProofs.v. *)
Require Import SquidV.Bytes SquidV.TokModel SquidV.IntrangeModel SquidV.IntrangeProofs.
Local Open Scope Z_scope.

(* --- what a token lists: N or A-B split at the first '-', C integer numerals, 16-bit, ordered --- *)
Theorem C43_token_lists_a_16bit_range : forall t lo hi,
  tok_range t = Some (lo, hi) <->
  (0 <= lo <= hi /\ hi <= 65535) /\
  ((~ In 45%N t /\ numeral t = Some lo /\ hi = lo) \/
   (exists a b, t = a ++ 45%N :: b /\ ~ In 45%N a /\ numeral a = Some lo /\ numeral b = Some hi)).
Proof. exact tok_range_meaning. Qed.
Print Assumptions C43_token_lists_a_16bit_range.

(* --- xatos accepts exactly the numerals whose value fits 16 bits, and returns that value --- *)
Theorem C43_xatos_reads_16bit_numerals : forall s, clean s = true ->
  xatos s = match numeral s with Some p => if (0 <=? p) && (p <=? 65535) then Some p else None | None => None end.
Proof. exact xatos_spec. Qed.
Print Assumptions C43_xatos_reads_16bit_numerals.

(* --- the configuration is accepted exactly when every token lists a range --- *)
Theorem C43_accepted_iff_every_token_lists_a_range : forall toks, forallb clean toks = true ->
  (exists rs, fst (ir_parse toks [] false) = Some rs) <-> (forall t, In t toks -> tok_range t <> None).
Proof. exact intrange_accept_iff. Qed.
Print Assumptions C43_accepted_iff_every_token_lists_a_range.

(* --- one stored half-open range per token, in order: [lo, hi+1) --- *)
Theorem C43_stored_ranges_are_the_listed_ranges : forall toks rs, forallb clean toks = true ->
  fst (ir_parse toks [] false) = Some rs ->
  Forall2 (fun t r => exists lo hi, tok_range t = Some (lo, hi) /\ r = (lo, hi + 1)) toks rs.
Proof. exact intrange_stored. Qed.
Print Assumptions C43_stored_ranges_are_the_listed_ranges.

(* --- the property: match(i) <-> i lies in the union of the listed ranges; any list, order, overlap --- *)
Theorem C43_match_iff_in_union_of_listed_ranges : forall toks rs i, forallb clean toks = true ->
  fst (ir_parse toks [] false) = Some rs -> - two31 <= i < int_max ->
  (fst (ir_match rs i) = true <-> exists t lo hi, In t toks /\ tok_range t = Some (lo, hi) /\ lo <= i <= hi).
Proof. exact intrange_match_iff. Qed.
Print Assumptions C43_match_iff_in_union_of_listed_ranges.

(* --- no int overflow while parsing, nor in match(i) for any i < INT_MAX (so for every 16-bit i) --- *)
Theorem C43_no_int_overflow_below_int_max : forall toks, forallb clean toks = true ->
  snd (ir_parse toks [] false) = false /\
  forall rs i, fst (ir_parse toks [] false) = Some rs -> - two31 <= i < int_max -> snd (ir_match rs i) = false.
Proof. exact intrange_no_overflow. Qed.
Print Assumptions C43_no_int_overflow_below_int_max.

(* --- the bound is sharp: match(INT_MAX) computes INT_MAX + 1 (unreachable from the port ACLs) --- *)
Theorem C43_match_overflows_at_int_max : forall rs, snd (ir_match rs int_max) = true.
Proof. exact ir_match_int_max_overflows. Qed.
Print Assumptions C43_match_overflows_at_int_max.

(* --- the hypotheses are satisfiable: "80 1-1024 443" --- *)
Example C43_ex_tokens : forallb clean [[56;48]; [49;45;49;48;50;52]; [52;52;51]]%N = true.
Proof. vm_compute. reflexivity. Qed.
Example C43_ex_parse :
  ir_parse [[56;48]; [49;45;49;48;50;52]; [52;52;51]]%N [] false = (Some [(80, 81); (1, 1025); (443, 444)], false).
Proof. vm_compute. reflexivity. Qed.
Example C43_ex_range : tok_range [49;45;49;48;50;52]%N = Some (1, 1024).
Proof. vm_compute. reflexivity. Qed.
Example C43_ex_match : map (fun i => fst (ir_match [(80, 81); (1, 1025); (443, 444)] i)) [0; 1; 80; 1024; 1025; 65535]
                       = [false; true; true; true; false; false].
Proof. vm_compute. reflexivity. Qed.
Example C43_ex_rejected : fst (ir_parse [[53;45;49]]%N [] false) = None /\ tok_range [53;45;49]%N = None.
Proof. vm_compute. split; reflexivity. Qed.
