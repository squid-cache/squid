(* MemhdrProofs.v — mem_hdr (MemhdrModel.v) refines a partial map offset -> byte (C49).

   Abstraction: [content l z] is the byte stored at offset z by the in-order node
   list l = inorder (h_nodes h). Invariant [Inv]: the list is sorted by offset,
   nodes are pairwise disjoint, non-empty, at most SM_PAGE_SIZE long and hold
   exactly nodeBuffer.length bytes; Splay::elements is the number of nodes;
   inmem_hi is the end of the last node.  Under that invariant NodeCompare has
   monotone sign along the in-order sequence, so the generic splay theorems of
   SplayProofs.v make every lookup exact. *)
Require Import SquidV.Bytes SquidV.SplayModel SquidV.SplayProofs SquidV.MemhdrModel SquidV.gen.Memhdr_gen.
Require Import ZifyBool ZifyN ZifyNat.
Local Open Scope Z_scope.

Definition pmap := Z -> option N.

Definition spec_write (m : pmap) (off : Z) (data : bytes) : pmap :=
  fun z => if (off <=? z) && (z <? off + Z.of_N (lenN data)) then nthN (Z.to_N (z - off)) data else m z.

(* the stored bytes from [off] on, at most [n] of them, up to the first missing one *)
Fixpoint read_spec (m : pmap) (off : Z) (n : nat) : bytes :=
  match n with
  | O => []
  | S k => match m off with Some b => b :: read_spec m (off + 1) k | None => [] end
  end.

Definition PAGE : Z := Z.of_N sm_page_size.
Lemma page_size_positive : (0 < sm_page_size)%N.
Proof. reflexivity. Qed.

Lemma data_capacity_ok : (sm_page_size <= mem_node_data_capacity)%N.
Proof. unfold N.le. vm_compute. discriminate. Qed.

Definition node_ok (n : node) : Prop :=
  n_length n = lenN (n_data n) /\ 0 < n_len n <= PAGE.

Fixpoint wf_from (lo : Z) (l : list node) : Prop :=
  match l with
  | [] => True
  | n :: r => lo <= n_off n /\ node_ok n /\ wf_from (n_end n) r
  end.

Fixpoint end_from (lo : Z) (l : list node) : Z :=
  match l with
  | [] => lo
  | n :: r => end_from (n_end n) r
  end.

Definition inside (n : node) (z : Z) : Prop := n_off n <= z < n_end n.

Fixpoint content (l : list node) (z : Z) : option N :=
  match l with
  | [] => None
  | n :: r => if (n_off n <=? z) && (z <? n_end n) then nthN (Z.to_N (z - n_off n)) (n_data n)
              else content r z
  end.

Definition Inv (h : mem_hdr) : Prop :=
  wf_from 0 (inorder (h_nodes h)) /\
  h_count h = lenN (inorder (h_nodes h)) /\
  h_hi h = end_from 0 (inorder (h_nodes h)).

Definition cont (h : mem_hdr) : pmap := content (inorder (h_nodes h)).

Lemma nthN_none {A} (l : list A) (i : N) : (lenN l <= i)%N -> nthN i l = None.
Proof. apply Bytes.nthN_none. Qed.

Lemma option_ext (x y : option N) : (forall b, x = Some b <-> y = Some b) -> x = y.
Proof.
  intros H. destruct x as [a|], y as [b|]; try reflexivity.
  - symmetry. exact (proj1 (H a) eq_refl).
  - discriminate (proj1 (H a) eq_refl).
  - discriminate (proj2 (H b) eq_refl).
Qed.

Lemma wf_from_weaken lo lo' l : lo' <= lo -> wf_from lo l -> wf_from lo' l.
Proof. destruct l as [|n r]; cbn [wf_from]; [auto|]. intros H (H1 & H2 & H3). split; [lia| split; assumption]. Qed.

Lemma wf_from_rehead lo lo' l :
  wf_from lo l -> match l with [] => True | n :: _ => lo' <= n_off n end -> wf_from lo' l.
Proof. destruct l as [|n r]; cbn [wf_from]; [auto|]. intros (H1 & H2 & H3) H. split; [assumption| split; assumption]. Qed.

Lemma wf_from_app lo a b : wf_from lo (a ++ b) <-> wf_from lo a /\ wf_from (end_from lo a) b.
Proof.
  revert lo. induction a as [|n a IH]; intros lo; cbn [app wf_from end_from]; [tauto|].
  rewrite IH. tauto.
Qed.

Lemma end_from_app lo a b : end_from lo (a ++ b) = end_from (end_from lo a) b.
Proof. revert lo. induction a as [|n a IH]; intros lo; cbn [app end_from]; [reflexivity| apply IH]. Qed.

Lemma end_from_nonempty lo lo' l : l <> [] -> end_from lo l = end_from lo' l.
Proof. destruct l; [congruence| reflexivity]. Qed.

Lemma end_from_ge lo l : wf_from lo l -> lo <= end_from lo l.
Proof.
  revert lo. induction l as [|n r IH]; intros lo; cbn [wf_from end_from]; [lia|].
  intros (H1 & (_ & H2) & H3). specialize (IH _ H3). unfold n_end in *. lia.
Qed.

Lemma wf_from_In lo l n : wf_from lo l -> In n l ->
  lo <= n_off n /\ node_ok n /\ n_end n <= end_from lo l.
Proof.
  revert lo. induction l as [|x r IH]; intros lo; cbn [wf_from end_from In]; [tauto|].
  intros (H1 & H2 & H3) [<-|Hin].
  - repeat split; try assumption; try apply H2. apply end_from_ge, H3.
  - destruct (IH _ H3 Hin) as (A & B & C). repeat split; try assumption; try apply B.
    destruct H2 as (_ & H2). unfold n_end in *. lia.
Qed.

Lemma end_from_le lo l x : lo <= x -> (forall n, In n l -> n_end n <= x) -> end_from lo l <= x.
Proof.
  revert lo. induction l as [|n r IH]; intros lo Hlo H; cbn [end_from]; [exact Hlo|].
  apply IH; [apply H; left; reflexivity| intros m Hm; apply H; right; exact Hm].
Qed.

(* every later node starts at or after the end of an earlier one *)
Lemma wf_from_later lo x r : wf_from lo (x :: r) ->
  forall y, In y r -> n_end x <= n_off y /\ node_ok y.
Proof.
  cbn [wf_from]. intros (_ & _ & W) y Hy. destruct (wf_from_In _ _ _ W Hy) as (A & B & _). auto.
Qed.

Lemma wf_from_split lo a x b : wf_from lo (a ++ x :: b) ->
  (forall y, In y a -> n_end y <= n_off x /\ node_ok y /\ lo <= n_off y) /\
  node_ok x /\ lo <= n_off x /\
  (forall y, In y b -> n_end x <= n_off y /\ node_ok y).
Proof.
  rewrite wf_from_app. cbn [wf_from]. intros (Wa & Hx & Hok & Wb). pose proof (end_from_ge _ _ Wa).
  split; [|split; [exact Hok| split; [lia|]]]; intros y Hy.
  - destruct (wf_from_In _ _ _ Wa Hy) as (A & B & C). split; [lia| split; assumption].
  - destruct (wf_from_In _ _ _ Wb Hy) as (A & B & _). split; assumption.
Qed.

Lemma content_some_in l z b : content l z = Some b ->
  exists n, In n l /\ inside n z /\ nthN (Z.to_N (z - n_off n)) (n_data n) = Some b.
Proof.
  induction l as [|n r IH]; cbn [content]; [discriminate|].
  destruct ((n_off n <=? z) && (z <? n_end n)) eqn:E.
  - intros H. exists n. split; [left; reflexivity|]. split; [unfold inside; lia| exact H].
  - intros H. destruct (IH H) as (m & Hm & Hi & Hb). exists m. split; [right; exact Hm| auto].
Qed.

Lemma content_in lo l n z : wf_from lo l -> In n l -> inside n z ->
  content l z = nthN (Z.to_N (z - n_off n)) (n_data n).
Proof.
  revert lo. induction l as [|x r IH]; intros lo W Hin Hz; [destruct Hin|].
  cbn [content]. destruct Hin as [<-|Hin].
  - unfold inside in Hz. replace ((n_off x <=? z) && (z <? n_end x)) with true by lia. reflexivity.
  - destruct (wf_from_later _ _ _ W n Hin) as (Hl & _). unfold inside in Hz.
    destruct W as (_ & (_ & Hx) & W).
    replace ((n_off x <=? z) && (z <? n_end x)) with false by lia. apply (IH _ W Hin). exact Hz.
Qed.

Lemma content_none l z : (forall n, In n l -> ~ inside n z) -> content l z = None.
Proof.
  induction l as [|x r IH]; intros H; cbn [content]; [reflexivity|].
  assert (Hx : ~ inside x z) by (apply H; left; reflexivity). unfold inside in Hx.
  replace ((n_off x <=? z) && (z <? n_end x)) with false by lia. apply IH. intros n Hn. apply H. right. exact Hn.
Qed.

Lemma node_byte n z : node_ok n -> inside n z -> exists b, nthN (Z.to_N (z - n_off n)) (n_data n) = Some b.
Proof.
  intros (Hl & Hp) Hz. apply nthN_some. unfold inside, n_end, n_len in *. lia.
Qed.

(* present = some node contains the offset *)
Lemma content_present lo l z : wf_from lo l ->
  (content l z <> None <-> exists n, In n l /\ inside n z).
Proof.
  intros W. split.
  - destruct (content l z) as [b|] eqn:E; [|congruence]. intros _.
    destruct (content_some_in _ _ _ E) as (n & Hn & Hi & _). exists n. auto.
  - intros (n & Hn & Hi). rewrite (content_in _ _ _ _ W Hn Hi).
    destruct (wf_from_In _ _ _ W Hn) as (_ & Hok & _).
    destruct (node_byte n z Hok Hi) as (b & ->). discriminate.
Qed.

Lemma content_absent lo l z : wf_from lo l ->
  (content l z = None <-> forall n, In n l -> ~ inside n z).
Proof.
  intros W. split.
  - intros E n Hn Hi. apply (proj2 (content_present _ _ z W)); [exists n; auto| exact E].
  - apply content_none.
Qed.

Lemma content_below lo l z : wf_from lo l -> z < lo -> content l z = None.
Proof.
  intros W Hz. apply content_none. intros n Hn Hi. destruct (wf_from_In _ _ _ W Hn) as (H & _). unfold inside in Hi. lia.
Qed.

Lemma content_beyond lo l z : wf_from lo l -> end_from lo l <= z -> content l z = None.
Proof.
  intros W Hz. apply content_none. intros n Hn Hi. destruct (wf_from_In _ _ _ W Hn) as (_ & _ & H). unfold inside in Hi. lia.
Qed.

Definition meets (qs qe : Z) (n : node) : Prop := Z.max qs (n_off n) < Z.min qe (n_end n).

Lemma node_compare_cases qs qe n :
  (node_compare qs qe n = 0 /\ meets qs qe n) \/
  (node_compare qs qe n = -1 /\ ~ meets qs qe n /\ qs < n_off n) \/
  (node_compare qs qe n = 1 /\ ~ meets qs qe n /\ n_off n <= qs).
Proof.
  unfold node_compare, range_size, meets.
  destruct (Z.min qe (n_end n) >? Z.max qs (n_off n)) eqn:E1.
  - destruct (Z.min qe (n_end n) - Z.max qs (n_off n) >? 0) eqn:E2; [left; split; [reflexivity| lia]| lia].
  - cbn [Z.gtb Z.compare]. destruct (qs <? n_off n) eqn:E3; [right; left| right; right]; (split; [reflexivity| lia]).
Qed.

Lemma node_compare_zero qs qe n : node_compare qs qe n = 0 <-> meets qs qe n.
Proof. destruct (node_compare_cases qs qe n) as [(E & H)|[(E & H & _)|(E & H & _)]]; rewrite E; split; intros; try assumption; try lia; contradiction. Qed.

Lemma node_compare_pos qs qe n : node_compare qs qe n > 0 <-> ~ meets qs qe n /\ n_off n <= qs.
Proof. destruct (node_compare_cases qs qe n) as [(E & H)|[(E & H & G)|(E & H & G)]]; rewrite E; split; intros; try lia; tauto. Qed.

Lemma node_compare_neg qs qe n : node_compare qs qe n < 0 <-> ~ meets qs qe n /\ qs < n_off n.
Proof. destruct (node_compare_cases qs qe n) as [(E & H)|[(E & H & G)|(E & H & G)]]; rewrite E; split; intros; try lia; tauto. Qed.

(* the sign of NodeCompare(query, .) never increases along a well-formed node list *)
Lemma wf_mono qs qe lo l : wf_from lo l -> mono (node_compare qs qe) l.
Proof.
  revert lo. induction l as [|x r IH]; intros lo W; cbn [mono]; [exact I|].
  split; [|destruct W as (_ & _ & W); exact (IH _ W)].
  rewrite Forall_forall. intros y Hy.
  destruct (wf_from_later _ _ _ W y Hy) as (Hl & (_ & Hy2)).
  destruct W as (_ & (_ & Hx2) & _).
  destruct (node_compare_cases qs qe x) as [(E & H)|[(E & H & G)|(E & H & G)]];
  destruct (node_compare_cases qs qe y) as [(E' & H')|[(E' & H' & G')|(E' & H' & G')]];
  rewrite E, E'; cbn [Z.sgn]; unfold meets, n_end in *; lia.
Qed.

Lemma meets_point loc n : meets loc (loc + 1) n <-> inside n loc.
Proof. unfold meets, inside. lia. Qed.

(* nodes.find(&target, NodeCompare) on a well-formed tree *)
Lemma find_spec qs qe lo t t' r : wf_from lo (inorder t) -> sp_find (node_compare qs qe) t = (t', r) ->
  inorder t' = inorder t /\
  match r with
  | Some n => In n (inorder t) /\ meets qs qe n
  | None => forall n, In n (inorder t) -> ~ meets qs qe n
  end.
Proof.
  intros W E. pose proof (sp_find_inorder (node_compare qs qe) t) as Hi. rewrite E in Hi. cbn [fst] in Hi.
  split; [exact Hi|]. destruct r as [n|].
  - destruct (sp_find_some (node_compare qs qe) t n) as (Hz & Hin); [rewrite E; reflexivity|].
    split; [exact Hin| apply node_compare_zero, Hz].
  - intros n Hn Hm. apply (sp_find_none (node_compare qs qe) t (wf_mono qs qe lo _ W)) with (x := n); [rewrite E; reflexivity| exact Hn|].
    apply node_compare_zero, Hm.
Qed.

Lemma leftmost_hd t : leftmost t = hd_error (inorder t).
Proof.
  induction t as [|l IHl x r IHr]; [reflexivity|]. cbn [leftmost inorder].
  destruct l as [|ll lx lr]; [reflexivity|]. rewrite IHl. cbn [inorder].
  destruct (inorder ll ++ lx :: inorder lr) as [|a q] eqn:E; [destruct (inorder ll); discriminate| reflexivity].
Qed.

Lemma rightmost_end lo t : t <> Leaf -> match rightmost t with Some n => n_end n = end_from lo (inorder t) | None => False end.
Proof.
  revert lo. induction t as [|l IHl x r IHr]; intros lo Ht; [congruence|]. cbn [rightmost inorder].
  rewrite end_from_app. cbn [end_from].
  destruct r as [|rl rx rr]; [reflexivity|]. apply IHr. discriminate.
Qed.

Lemma single_shape (t : tree node) :
  match t with
  | Leaf => inorder t = []
  | Node Leaf x Leaf => inorder t = [x]
  | Node _ _ _ => (2 <= length (inorder t))%nat
  end.
Proof.
  destruct t as [|l x r]; [reflexivity|]. destruct l as [|ll lx lr].
  - destruct r as [|rl rx rr]; [reflexivity|]. cbn [inorder]. repeat (rewrite ?app_length; cbn [length app]). lia.
  - cbn [inorder]. repeat (rewrite ?app_length; cbn [length app]). lia.
Qed.

Lemma inorder_tree_map f (t : tree node) : inorder (tree_map f t) = map f (inorder t).
Proof.
  induction t as [|l IHl x r IHr]; [reflexivity|]. cbn [tree_map inorder]. rewrite IHl, IHr, map_app. reflexivity.
Qed.

(* set_node on a list where only the middle element has that offset *)
Lemma set_node_split n' t a x b : inorder t = a ++ x :: b -> n_off x = n_off n' ->
  (forall y, In y a -> n_off y <> n_off n') -> (forall y, In y b -> n_off y <> n_off n') ->
  inorder (set_node n' t) = a ++ n' :: b.
Proof.
  intros Hi Hx Ha Hb. unfold set_node. rewrite inorder_tree_map, Hi, map_app. cbn [map].
  rewrite Hx, Z.eqb_refl.
  assert (Hid : forall l, (forall y, In y l -> n_off y <> n_off n') ->
                map (fun n => if n_off n =? n_off n' then n' else n) l = l).
  { intros l Hl. rewrite <- (map_id l) at 2. apply map_ext_in. intros y Hy.
    specialize (Hl y Hy). destruct (n_off y =? n_off n') eqn:E; [lia| reflexivity]. }
  rewrite (Hid a Ha), (Hid b Hb). reflexivity.
Qed.

Definition insideb (n : node) (z : Z) : bool := (n_off n <=? z) && (z <? n_end n).

Lemma wf_from_remove_mid lo a x b : wf_from lo (a ++ x :: b) -> wf_from lo (a ++ b).
Proof.
  rewrite !wf_from_app. cbn [wf_from]. intros (Wa & Hx & (_ & Hp) & Wb). split; [exact Wa|].
  apply (wf_from_weaken (n_end x)); [unfold n_end; lia| exact Wb].
Qed.

Lemma content_mid lo a x b z : wf_from lo (a ++ x :: b) ->
  content (a ++ x :: b) z =
  if insideb x z then nthN (Z.to_N (z - n_off x)) (n_data x) else content (a ++ b) z.
Proof.
  revert lo. induction a as [|w a IH]; intros lo W; cbn [app content]; [reflexivity|].
  pose proof (wf_from_later _ _ _ W x ltac:(apply in_or_app; right; left; reflexivity)) as (Hl & _).
  destruct W as (_ & (_ & Hw) & W). rewrite (IH _ W). fold (insideb w z).
  destruct (insideb w z) eqn:Ew; [|reflexivity].
  destruct (insideb x z) eqn:Ex; [|reflexivity]. unfold insideb, n_end in *. lia.
Qed.

Definition clear (l : list node) (a b : Z) : Prop := forall n, In n l -> ~ meets a b n.

Lemma clear_iff lo l a b : wf_from lo l ->
  (clear l a b <-> forall z, a <= z < b -> content l z = None).
Proof.
  intros W. split.
  - intros C z Hz. apply content_none. intros n Hn Hi. apply (C n Hn). unfold meets, inside in *. lia.
  - intros H n Hn Hm.
    assert (Hi : inside n (Z.max a (n_off n))) by (unfold meets, inside in *; lia).
    assert (Hz : a <= Z.max a (n_off n) < b) by (unfold meets in *; lia).
    apply (proj2 (content_present _ _ (Z.max a (n_off n)) W)); [exists n; auto| apply H, Hz].
Qed.

(* case "location fits within an extant node": the node ending at [cur] grows by [k] bytes *)
Lemma grow_node a c b cur k src :
  wf_from 0 (a ++ c :: b) -> n_end c = cur -> (0 < k)%N -> (k <= lenN src)%N ->
  (n_length c + k <= sm_page_size)%N -> clear (a ++ c :: b) cur (cur + Z.of_N (lenN src)) ->
  let c' := mkNode (n_off c) (n_length c + k)%N (n_data c ++ takeN k src) in
  wf_from 0 (a ++ c' :: b) /\
  (forall z, content (a ++ c' :: b) z = spec_write (content (a ++ c :: b)) cur (takeN k src) z) /\
  end_from 0 (a ++ c' :: b) =
    if end_from 0 (a ++ c :: b) <=? cur then cur + Z.of_N k else end_from 0 (a ++ c :: b).
Proof.
  intros W He Hk Hks Hp C c'.
  destruct (wf_from_split _ _ _ _ W) as (Sa & (Hcl & Hcp) & Hc0 & Sb).
  assert (Hend : n_end c' = cur + Z.of_N k) by (unfold n_end, n_len in *; cbn [n_off n_length c']; lia).
  assert (Hok : node_ok c').
  { split; [cbn [n_length n_data c']; rewrite lenN_app, lenN_takeN; lia|].
    unfold n_len, PAGE in *. cbn [n_length c']. lia. }
  assert (Hb : forall y, In y b -> cur + Z.of_N (lenN src) <= n_off y).
  { intros y Hy. destruct (Sb y Hy) as (H1 & (_ & H2)).
    assert (~ meets cur (cur + Z.of_N (lenN src)) y) by (apply C, in_or_app; right; right; exact Hy).
    unfold meets, n_end in *. lia. }
  assert (W' : wf_from 0 (a ++ c' :: b)).
  { rewrite wf_from_app in W |- *. destruct W as (Wa & Wc). split; [exact Wa|].
    cbn [wf_from] in Wc |- *. destruct Wc as (Wc1 & _ & Wb).
    split; [exact Wc1|]. split; [exact Hok|].
    apply (wf_from_rehead _ _ _ Wb). destruct b as [|y b]; [exact I|].
    specialize (Hb y (or_introl eq_refl)). lia. }
  split; [exact W'|]. split.
  - intros z. rewrite (content_mid _ _ _ _ z W'). unfold spec_write.
    rewrite lenN_takeN. replace (N.min k (lenN src)) with k by lia.
    rewrite (content_mid _ _ _ _ z W).
    unfold insideb. rewrite Hend. cbn [n_off n_data c'].
    destruct ((cur <=? z) && (z <? cur + Z.of_N k)) eqn:E1.
    + replace ((n_off c <=? z) && (z <? cur + Z.of_N k)) with true by (unfold n_end, n_len in *; lia).
      rewrite nthN_app_r by (unfold n_end, n_len in *; lia). f_equal. unfold n_end, n_len in *. lia.
    + destruct ((n_off c <=? z) && (z <? n_end c)) eqn:E2.
      * replace ((n_off c <=? z) && (z <? cur + Z.of_N k)) with true by lia.
        apply nthN_app_l. unfold n_end, n_len in *. lia.
      * replace ((n_off c <=? z) && (z <? cur + Z.of_N k)) with false by lia. reflexivity.
  - rewrite !end_from_app. cbn [end_from]. rewrite Hend. destruct b as [|y b]; cbn [end_from].
    + rewrite He, Z.leb_refl. reflexivity.
    + pose proof (Hb y (or_introl eq_refl)) as Hy.
      assert (Wb : wf_from (n_end c) (y :: b)).
      { rewrite wf_from_app in W. destruct W as (_ & W). cbn [wf_from] in W. apply W. }
      destruct (wf_from_In _ _ _ Wb (or_introl eq_refl)) as (_ & (_ & Hyp) & Hle). cbn [end_from] in Hle.
      replace (end_from (n_end y) b <=? cur) with false by (unfold n_end in *; lia). reflexivity.
Qed.

(* case "we need a new node": a node [cur, cur+k) is inserted at its place *)
Lemma insert_node a b cur k src :
  wf_from 0 (a ++ b) -> 0 <= cur -> (0 < k)%N -> (k <= lenN src)%N -> (k <= sm_page_size)%N ->
  (forall y, In y a -> n_off y <= cur) -> (forall y, In y b -> cur < n_off y) ->
  clear (a ++ b) cur (cur + Z.of_N (lenN src)) ->
  let v' := mkNode cur k (takeN k src) in
  wf_from 0 (a ++ v' :: b) /\
  (forall z, content (a ++ v' :: b) z = spec_write (content (a ++ b)) cur (takeN k src) z) /\
  (forall y, In y a -> n_off y <> cur) /\
  end_from 0 (a ++ v' :: b) = if end_from 0 (a ++ b) <=? cur then cur + Z.of_N k else end_from 0 (a ++ b).
Proof.
  intros W Hc Hk Hks Hp Ha Hb C v'.
  assert (Hend : n_end v' = cur + Z.of_N k) by reflexivity.
  assert (Hok : node_ok v').
  { split; [cbn [n_length n_data v']; rewrite lenN_takeN; lia|]. unfold n_len, PAGE. cbn [n_length v']. lia. }
  pose proof W as W0. rewrite wf_from_app in W. destruct W as (Wa & Wb).
  assert (Ha2 : forall y, In y a -> n_end y <= cur).
  { intros y Hy. destruct (wf_from_In _ _ _ Wa Hy) as (_ & (_ & Hyp) & _).
    assert (~ meets cur (cur + Z.of_N (lenN src)) y) by (apply C, in_or_app; left; exact Hy).
    specialize (Ha y Hy). unfold meets, n_end in *. lia. }
  assert (Hb2 : forall y, In y b -> cur + Z.of_N (lenN src) <= n_off y).
  { intros y Hy. destruct (wf_from_In _ _ _ Wb Hy) as (_ & (_ & Hyp) & _).
    assert (~ meets cur (cur + Z.of_N (lenN src)) y) by (apply C, in_or_app; right; exact Hy).
    specialize (Hb y Hy). unfold meets, n_end in *. lia. }
  assert (Hea : end_from 0 a <= cur) by (apply end_from_le; [exact Hc| exact Ha2]).
  assert (W' : wf_from 0 (a ++ v' :: b)).
  { rewrite wf_from_app. split; [exact Wa|]. cbn [wf_from]. split; [exact Hea|]. split; [exact Hok|].
    apply (wf_from_rehead _ _ _ Wb). destruct b as [|y b]; [exact I|].
    specialize (Hb2 y (or_introl eq_refl)). lia. }
  split; [exact W'|]. split; [|split].
  - intros z. rewrite (content_mid _ _ _ _ z W'). unfold spec_write, insideb.
    rewrite lenN_takeN. replace (N.min k (lenN src)) with k by lia. rewrite Hend. reflexivity.
  - intros y Hy. destruct (wf_from_In _ _ _ Wa Hy) as (_ & (_ & Hyp) & _). specialize (Ha2 y Hy). unfold n_end in *. lia.
  - rewrite !end_from_app. cbn [end_from]. rewrite Hend. destruct b as [|y b]; cbn [end_from].
    + replace (end_from 0 a <=? cur) with true by lia. reflexivity.
    + destruct (wf_from_In _ _ _ Wb (or_introl eq_refl)) as (_ & (_ & Hyp) & Hle). cbn [end_from] in Hle.
      specialize (Hb y (or_introl eq_refl)).
      replace (end_from (n_end y) b <=? cur) with false by (unfold n_end in *; lia). reflexivity.
Qed.

Lemma appendNode_fresh t hi c cur : wf_from 0 (inorder t) ->
  exists t' a b,
    appendNode (mkHdr t hi c) (mkNode cur 0%N []) = (mkHdr t' hi (c + 1)%N, true) /\
    inorder t = a ++ b /\ inorder t' = a ++ mkNode cur 0%N [] :: b /\
    (forall y, In y a -> n_off y <= cur) /\ (forall y, In y b -> cur < n_off y).
Proof.
  intros W. unfold appendNode. cbn [h_nodes h_hi h_count n_off].
  set (v := mkNode cur 0%N []). set (cmp := node_compare cur (n_end v)).
  destruct (sp_insert cmp v t) as [t' dup] eqn:E.
  destruct dup as [old|].
  - exfalso. destruct (sp_insert_found cmp v t t' old E) as (_ & Hz & _).
    apply node_compare_zero in Hz. unfold meets, n_end, n_len in Hz. cbn [n_off n_length v] in Hz. lia.
  - destruct (sp_insert_new cmp v t t' (wf_mono _ _ _ _ W) E) as (a & b & H1 & H2 & Fa & Fb).
    exists t', a, b. split; [reflexivity|]. split; [exact H1|]. split; [exact H2|].
    rewrite Forall_forall in Fa, Fb. split; intros y Hy.
    + specialize (Fa y Hy). apply node_compare_pos in Fa. apply Fa.
    + specialize (Fb y Hy). apply node_compare_neg in Fb. apply Fb.
Qed.

Lemma inv_count h : Inv h -> ((h_count h =? 0)%N = true <-> inorder (h_nodes h) = []).
Proof. intros (_ & Hc & _). rewrite <- lenN_nil_iff. lia. Qed.

(* one iteration of the loop of mem_hdr::write *)
Section WriteIter.
Variables (h : mem_hdr) (cur : Z) (src : bytes).
Hypotheses (HI : Inv h) (Hcur : 0 <= cur) (Hsrc : src <> [])
           (Cz : forall z, cur <= z < cur + Z.of_N (lenN src) -> cont h z = None).

Definition wrote_ok (h2 : mem_hdr) (wrote : N) : Prop :=
  (0 < wrote <= lenN src)%N /\ Inv h2 /\ forall z, cont h2 z = spec_write (cont h) cur (takeN wrote src) z.

Let Hls : (0 < lenN src)%N.
Proof. destruct src; [congruence| cbn [lenN]; lia]. Qed.

Let C : clear (inorder (h_nodes h)) cur (cur + Z.of_N (lenN src)).
Proof. destruct HI as (W & _). apply (clear_iff _ _ _ _ W), Cz. Qed.

(* "we need a new node", on any tree t1 with the same in-order sequence *)
Lemma write_new_node t1 : inorder t1 = inorder (h_nodes h) ->
  exists h1 h2 wrote, appendNode (with_nodes h t1) (mkNode cur 0%N []) = (h1, true) /\
    (inorder (h_nodes h) = [] -> leftmost (h_nodes h1) = Some (mkNode cur 0%N [])) /\
    writeAvailable h1 (mkNode cur 0%N []) cur src = Ok (h2, wrote) /\ wrote_ok h2 wrote.
Proof.
  intros Hi1. pose proof HI as (W & Hcnt & Hhi). pose proof page_size_positive as Hpage.
  unfold with_nodes.
  destruct (appendNode_fresh t1 (h_hi h) (h_count h) cur ltac:(rewrite Hi1; exact W))
    as (t' & a & b & Ea & Hab & Hi' & Ha & Hb).
  rewrite Hi1 in Hab. exists (mkHdr t' (h_hi h) (h_count h + 1)%N).
  set (k := N.min (lenN src) sm_page_size).
  assert (Hk : (0 < k <= lenN src)%N /\ (k <= sm_page_size)%N) by (unfold k; lia).
  pose proof C as C'. rewrite Hab in W, C'.
  destruct (insert_node a b cur k src W Hcur ltac:(lia) ltac:(lia) ltac:(lia) Ha Hb C')
    as (W' & Hcont & Hane & Hend).
  eexists _, k. split; [exact Ea|]. split; [|split].
  { intros Hnil. rewrite Hnil in Hab. destruct a; [|discriminate]. cbn [app] in Hab. subst b.
    rewrite leftmost_hd. cbn [h_nodes]. rewrite Hi'. reflexivity. }
  { unfold writeAvailable, canAccept, n_space, n_end, n_len. cbn [n_off n_length n_data h_nodes h_hi h_count].
    replace (cur =? cur + Z.of_N 0) with true by lia.
    replace ((0 <? sm_page_size - 0)%N) with true by lia. cbn [negb andb app].
    replace (N.min (lenN src) (sm_page_size - 0)) with k by (unfold k; lia).
    replace (0 + k)%N with k by lia. reflexivity. }
  assert (Hi2 : inorder (set_node (mkNode cur k (takeN k src)) t') = a ++ mkNode cur k (takeN k src) :: b).
  { apply set_node_split with (x := mkNode cur 0%N []); [exact Hi'| reflexivity| |].
    - intros y Hy. cbn [n_off]. apply Hane, Hy.
    - intros y Hy. cbn [n_off]. specialize (Hb y Hy). lia. }
  split; [lia|]. split.
  - unfold Inv. cbn [h_nodes h_count h_hi]. rewrite Hi2. split; [exact W'|]. split.
    + rewrite Hcnt, Hab, !lenN_app. cbn [lenN]. lia.
    + rewrite Hend, Hhi, Hab. reflexivity.
  - intros z. unfold cont. cbn [h_nodes]. rewrite Hi2, Hab. apply Hcont.
Qed.

(* "location fits within an extant node": the node c ends at [cur] and has room *)
Lemma write_into_node t1 c : inorder t1 = inorder (h_nodes h) -> In c (inorder (h_nodes h)) ->
  canAccept c cur = true ->
  exists h2 wrote, writeAvailable (with_nodes h t1) c cur src = Ok (h2, wrote) /\ wrote_ok h2 wrote.
Proof.
  intros Hi1 Hin Eacc. pose proof HI as (W & Hcnt & Hhi). pose proof page_size_positive as Hpage.
  unfold canAccept in Eacc. apply andb_prop in Eacc. destruct Eacc as (Ee & Es).
  assert (Hend : n_end c = cur) by lia.
  destruct (in_split _ _ Hin) as (a & b & Hab). pose proof C as C'. rewrite Hab in W, C'.
  destruct (wf_from_split _ _ _ _ W) as (Sa & (Hcl & Hcp) & _ & Sb).
  set (k := N.min (lenN src) (n_space c)).
  assert (Hk : (0 < k <= lenN src)%N /\ (n_length c + k <= sm_page_size)%N) by (unfold k, n_space in *; lia).
  destruct (grow_node a c b cur k src W Hend ltac:(lia) ltac:(lia) ltac:(lia) C') as (W' & Hcont & Hend').
  set (c' := mkNode (n_off c) (n_length c + k)%N (n_data c ++ takeN k src)) in *.
  eexists _, k. split.
  { unfold writeAvailable, canAccept. unfold n_end in Hend |- *.
    replace (cur =? n_off c + n_len c) with true by lia. rewrite Es. cbn [negb andb].
    fold k c'. cbn [with_nodes h_nodes h_hi h_count]. reflexivity. }
  assert (Hi2 : inorder (set_node c' t1) = a ++ c' :: b).
  { apply set_node_split with (x := c); [rewrite Hi1; exact Hab| reflexivity| |].
    - intros y Hy. destruct (Sa y Hy) as (H1 & (_ & H2) & _). cbn [n_off c']. unfold n_end in *. lia.
    - intros y Hy. destruct (Sb y Hy) as (H1 & (_ & H2)). cbn [n_off c']. unfold n_end, n_len in *. lia. }
  split; [lia|]. split.
  - unfold Inv. cbn [h_nodes h_count h_hi]. rewrite Hi2. split; [exact W'|]. split.
    + rewrite Hcnt, Hab, !lenN_app. cbn [lenN]. reflexivity.
    + rewrite Hend', Hhi, Hab. reflexivity.
  - intros z. unfold cont. cbn [h_nodes]. rewrite Hi2, Hab. apply Hcont.
Qed.

Lemma write_iter :
  exists h1 target h2 wrote,
    nodeToRecieve h cur = Ok (h1, target) /\ writeAvailable h1 target cur src = Ok (h2, wrote) /\ wrote_ok h2 wrote.
Proof.
  pose proof HI as (W & _). unfold nodeToRecieve. destruct (h_count h =? 0)%N eqn:Ec.
  - (* case 1: nothing in memory *)
    destruct (write_new_node (h_nodes h) eq_refl) as (h1 & h2 & wrote & Ea & Hl & Ew & Hw).
    replace (with_nodes h (h_nodes h)) with h in Ea by (destruct h; reflexivity).
    rewrite Ea, Hl by (apply (inv_count h HI), Ec). eauto 8.
  - (* case 2 *)
    destruct (if cur >? 0 then sp_find (node_compare (cur - 1) cur) (h_nodes h) else (h_nodes h, None))
      as [t1 cand] eqn:Ef.
    assert (Hf : inorder t1 = inorder (h_nodes h) /\
                 match cand with Some c => In c (inorder (h_nodes h)) | None => True end).
    { destruct (cur >? 0).
      - destruct (find_spec _ _ _ _ _ _ W Ef) as (H1 & H2). split; [exact H1|].
        destruct cand as [c|]; [apply H2|exact I].
      - inversion Ef; subst. split; [reflexivity| exact I]. }
    destruct Hf as (Hi1 & Hcand).
    destruct (write_new_node t1 Hi1) as (h1 & h2 & wrote & Ea & _ & Ew & Hw). rewrite Ea.
    destruct cand as [c|]; [|eauto 8]. destruct (canAccept c cur) eqn:Eacc; [|eauto 8].
    destruct (write_into_node t1 c Hi1 Hcand Eacc) as (h2' & wrote' & Ew' & Hw'). eauto 8.
Qed.
End WriteIter.

Lemma inv_with_nodes h t1 : inorder t1 = inorder (h_nodes h) -> Inv h ->
  Inv (with_nodes h t1) /\ cont (with_nodes h t1) = cont h.
Proof.
  intros Hi (W & Hc & Hh). unfold Inv, cont, with_nodes. cbn [h_nodes h_hi h_count]. rewrite Hi. auto.
Qed.

Lemma spec_write_nil m off z : spec_write m off [] z = m z.
Proof. unfold spec_write. cbn [lenN]. replace ((off <=? z) && (z <? off + Z.of_N 0)) with false by lia. reflexivity. Qed.

Lemma spec_write_split m off src k z : (k <= lenN src)%N ->
  spec_write (spec_write m off (takeN k src)) (off + Z.of_N k) (dropN k src) z = spec_write m off src z.
Proof.
  intros Hk. unfold spec_write. rewrite lenN_takeN, lenN_dropN.
  replace (N.min k (lenN src)) with k by lia.
  destruct ((off + Z.of_N k <=? z) && (z <? off + Z.of_N k + Z.of_N (lenN src - k))) eqn:E1.
  - replace ((off <=? z) && (z <? off + Z.of_N (lenN src))) with true by lia.
    rewrite nthN_dropN. f_equal. lia.
  - destruct ((off <=? z) && (z <? off + Z.of_N k)) eqn:E2.
    + replace ((off <=? z) && (z <? off + Z.of_N (lenN src))) with true by lia. apply nthN_takeN. lia.
    + replace ((off <=? z) && (z <? off + Z.of_N (lenN src))) with false by lia. reflexivity.
Qed.

Lemma write_loop_ok fuel : forall h cur src, Inv h -> 0 <= cur -> (length src < fuel)%nat ->
  (forall z, cur <= z < cur + Z.of_N (lenN src) -> cont h z = None) ->
  exists h', write_loop fuel h cur src = Ok h' /\ Inv h' /\ forall z, cont h' z = spec_write (cont h) cur src z.
Proof.
  induction fuel as [|f IH]; intros h cur src HI Hcur Hf C; [lia|].
  destruct src as [|b0 src0].
  - exists h. split; [reflexivity|]. split; [exact HI|]. intros z. symmetry. apply spec_write_nil.
  - cbn [write_loop]. set (src := b0 :: src0) in *.
    destruct (write_iter h cur src HI Hcur ltac:(discriminate) C)
      as (h1 & target & h2 & wrote & E1 & E2 & Hw & HI2 & Hc2).
    rewrite E1, E2. replace (wrote =? 0)%N with false by lia.
    destruct (IH h2 (cur + Z.of_N wrote) (dropN wrote src) HI2 ltac:(lia)) as (h' & E3 & HI3 & Hc3).
    { assert (length (dropN wrote src) = N.to_nat (lenN src - wrote)) by (rewrite <- lenN_dropN; apply eq_sym, lenN_nat).
      assert (length src = N.to_nat (lenN src)) by (apply eq_sym, lenN_nat). lia. }
    { intros z Hz. rewrite lenN_dropN in Hz. rewrite Hc2. unfold spec_write. rewrite lenN_takeN.
      replace ((cur <=? z) && (z <? cur + Z.of_N (N.min wrote (lenN src)))) with false by lia. apply C. lia. }
    exists h'. split; [exact E3|]. split; [exact HI3|].
    intros z. rewrite Hc3. rewrite <- (spec_write_split (cont h) cur src wrote z) by lia.
    unfold spec_write at 1 3. rewrite Hc2. reflexivity.
Qed.

Theorem mh_write_spec h off data : Inv h ->
  match mh_write h off data with
  | AssertFail => off < 0
  | FatalDump => 0 <= off /\ exists z, off <= z < off + Z.of_N (lenN data) /\ cont h z <> None
  | Ok h' => 0 <= off /\ (forall z, off <= z < off + Z.of_N (lenN data) -> cont h z = None) /\
             Inv h' /\ forall z, cont h' z = spec_write (cont h) off data z
  | Stuck => False
  end.
Proof.
  intros HI. pose proof HI as (W & _). unfold mh_write.
  destruct (off <? 0) eqn:E0; [lia|].
  destruct (sp_find (node_compare off (off + Z.of_N (lenN data))) (h_nodes h)) as [t1 hit] eqn:Ef.
  destruct (find_spec _ _ _ _ _ _ W Ef) as (Hi1 & Hhit).
  destruct hit as [n|].
  - destruct Hhit as (Hin & Hm). split; [lia|].
    exists (Z.max off (n_off n)). split; [unfold meets in Hm; lia|].
    apply (proj2 (content_present _ _ _ W)). exists n. split; [exact Hin|]. unfold meets, inside in *. lia.
  - destruct (inv_with_nodes h t1 Hi1 HI) as (HI1 & Hc1).
    pose proof (proj1 (clear_iff _ _ _ _ W) Hhit) as C. fold (cont h) in C.
    destruct (write_loop_ok (S (length data)) (with_nodes h t1) off data HI1 ltac:(lia) ltac:(lia)) as (h' & E & HI' & Hc').
    { rewrite Hc1. exact C. }
    rewrite E. split; [lia|]. split; [exact C|]. split; [exact HI'|]. intros z. rewrite Hc', Hc1. reflexivity.
Qed.

Lemma getBlock_spec l t cur : wf_from 0 l -> inorder t = l -> 0 <= cur \/ l = [] ->
  exists t' p, getBlock cur t = Ok (t', p) /\ inorder t' = l /\
    match p with Some n => In n l /\ inside n cur | None => content l cur = None end.
Proof.
  intros W <- Hcur. unfold getBlock, find_range. destruct t as [|l x r].
  - exists Leaf, None. auto.
  - destruct Hcur as [Hcur|Hcur]; [|apply inorder_nil in Hcur; discriminate]. replace (cur <? 0) with false by lia.
    destruct (sp_find (node_compare cur (cur + 1)) (Node l x r)) as [t' res] eqn:Ef.
    destruct (find_spec _ _ _ _ _ _ W Ef) as (Hi & Hr). exists t', res. split; [reflexivity|]. split; [exact Hi|].
    destruct res as [n|].
    + destruct Hr as (Hin & Hm). split; [exact Hin| apply meets_point, Hm].
    + apply content_none. intros n Hn Hins. apply (Hr n Hn). apply meets_point, Hins.
Qed.

Lemma getBlock_negative loc t : t <> Leaf -> loc < 0 -> getBlock loc t = AssertFail.
Proof. intros Ht Hl. unfold getBlock, find_range. destruct t; [congruence|]. replace (loc <? 0) with true by lia. reflexivity. Qed.

Lemma read_spec_none m off n : m off = None -> read_spec m off n = [].
Proof. intros H. destruct n; cbn [read_spec]; [reflexivity| rewrite H; reflexivity]. Qed.

Lemma read_spec_chunk m chunk : forall loc n,
  (forall i, (i < lenN chunk)%N -> m (loc + Z.of_N i) = nthN i chunk) -> (length chunk <= n)%nat ->
  read_spec m loc n = chunk ++ read_spec m (loc + Z.of_N (lenN chunk)) (n - length chunk).
Proof.
  induction chunk as [|b chunk IH]; intros loc n H Hn.
  - cbn [lenN app length]. replace (loc + Z.of_N 0) with loc by lia. replace (n - 0)%nat with n by lia. reflexivity.
  - destruct n as [|n]; [cbn [length] in Hn; lia|]. cbn [read_spec].
    pose proof (H 0%N ltac:(cbn [lenN]; lia)) as H0. cbn [nthN N.eqb] in H0. replace (loc + Z.of_N 0) with loc in H0 by lia.
    rewrite H0. cbn [app length Nat.sub]. f_equal.
    rewrite (IH (loc + 1) n).
    + cbn [lenN]. f_equal. f_equal. lia.
    + intros i Hi. specialize (H (N.succ i) ltac:(cbn [lenN]; lia)). cbn [nthN] in H.
      replace (N.succ i =? 0)%N with false in H by lia. replace (N.pred (N.succ i)) with i in H by lia.
      rewrite <- H. f_equal. lia.
    + cbn [length] in Hn. lia.
Qed.

Definition after (loc : Z) (l : list node) : nat := length (filter (fun n => loc <? n_end n) l).

Lemma after_mono loc loc' l : loc <= loc' -> (after loc' l <= after loc l)%nat.
Proof.
  intros H. unfold after. induction l as [|x l IH]; cbn [filter length]; [lia|].
  destruct (loc' <? n_end x) eqn:E1; destruct (loc <? n_end x) eqn:E2; cbn [length]; lia.
Qed.

Lemma after_lt loc loc' l n : In n l -> loc < n_end n -> n_end n <= loc' ->
  (after loc' l < after loc l)%nat.
Proof.
  intros Hin H1 H2. assert (H3 : loc <= loc') by lia. induction l as [|x l IH]; [destruct Hin|].
  unfold after in *. cbn [filter]. destruct Hin as [->|Hin].
  - replace (loc' <? n_end n) with false by lia. replace (loc <? n_end n) with true by lia. cbn [length].
    pose proof (after_mono loc loc' l H3). unfold after in *. lia.
  - specialize (IH Hin). destruct (loc' <? n_end x) eqn:E1; destruct (loc <? n_end x) eqn:E2; cbn [length]; lia.
Qed.

Lemma after_le_length loc l : (after loc l <= length l)%nat.
Proof. unfold after. induction l as [|x l IH]; cbn [filter length]; [lia|]. destruct (loc <? n_end x); cbn [length]; lia. Qed.

Lemma copyAvailable_spec l n loc togo : wf_from 0 l -> In n l -> inside n loc -> (0 < togo)%N ->
  exists chunk, copyAvailable n loc togo = Ok chunk /\
    lenN chunk = N.min togo (Z.to_N (n_end n - loc)) /\ (0 < lenN chunk)%N /\
    forall i, (i < lenN chunk)%N -> content l (loc + Z.of_N i) = nthN i chunk.
Proof.
  intros W Hin Hins Htg. destruct (wf_from_In _ _ _ W Hin) as (_ & (Hl & Hp) & _).
  unfold copyAvailable. unfold inside in Hins.
  replace (n_off n >? loc) with false by lia. replace (n_end n >? loc) with true by lia. cbn [negb].
  set (co := Z.to_N (loc - n_off n)). set (k := N.min togo (n_length n - co)).
  exists (takeN k (dropN co (n_data n))). split; [reflexivity|].
  assert (Hlen : lenN (takeN k (dropN co (n_data n))) = k).
  { rewrite lenN_takeN, lenN_dropN. unfold k. rewrite <- Hl. lia. }
  rewrite Hlen. unfold n_end, n_len in *.
  split; [unfold k, co; lia|]. split; [unfold k, co; lia|].
  intros i Hi. rewrite (content_in _ _ n _ W Hin) by (unfold inside, n_end, n_len, k, co in *; lia).
  rewrite nthN_takeN by exact Hi. rewrite nthN_dropN. f_equal. unfold co. lia.
Qed.

(* [p] is what getBlock answered for [loc] *)
Lemma copy_loop_ok l : wf_from 0 l -> forall fuel t p togo loc acc, inorder t = l ->
  match p with Some n => In n l /\ inside n loc | None => content l loc = None end ->
  togo = 0%N \/ (after loc l < fuel)%nat ->
  exists t', copy_loop fuel t p togo loc acc = Ok (t', acc ++ read_spec (content l) loc (N.to_nat togo)) /\
             inorder t' = l.
Proof.
  intros W. induction fuel as [|f IH]; intros t p togo loc acc Hi Hp Hf;
    (destruct p as [n|]; cbn [copy_loop]; [|exists t; rewrite (read_spec_none _ _ _ Hp), app_nil_r; auto]);
    (destruct (togo =? 0)%N eqn:Etg;
     [exists t; replace (N.to_nat togo) with O by lia; cbn [read_spec]; rewrite app_nil_r; auto|]); [lia|].
  destruct Hp as (Hin & Hins).
  destruct (copyAvailable_spec l n loc togo W Hin Hins ltac:(lia)) as (chunk & Ec & Hlen & Hpos & Hbytes).
  rewrite Ec. replace (lenN chunk =? 0)%N with false by lia.
  set (loc' := loc + Z.of_N (lenN chunk)).
  assert (Hloc : 0 <= loc').
  { destruct (wf_from_In _ _ _ W Hin) as (H0 & _). unfold inside in Hins. unfold loc'. lia. }
  destruct (getBlock_spec l t loc' W Hi (or_introl Hloc)) as (t' & p' & Eg & Hi' & Hp'). rewrite Eg.
  rewrite (read_spec_chunk (content l) chunk loc (N.to_nat togo) Hbytes) by (rewrite <- lenN_nat; lia).
  rewrite app_assoc.
  replace (N.to_nat togo - length chunk)%nat with (N.to_nat (togo - lenN chunk)) by (rewrite <- lenN_nat; lia).
  apply IH; [exact Hi'| exact Hp'|].
  (* bytes still wanted: the chunk ran to the end of its node, so fewer nodes lie ahead *)
  destruct (N.eq_dec (togo - lenN chunk) 0) as [Hrest|Hrest]; [left; exact Hrest| right].
  unfold inside in Hins. fold loc'.
  pose proof (after_lt loc loc' l n Hin ltac:(lia) ltac:(unfold loc'; lia)). lia.
Qed.

Theorem mh_copy_spec h off len : Inv h ->
  match mh_copy h off len with
  | AssertFail => len = 0%N \/ inorder (h_nodes h) = [] \/ off < 0
  | FatalDump => (0 < len)%N /\ 0 <= off /\ inorder (h_nodes h) <> [] /\ cont h off = None
  | Ok (h', got) => (0 < len)%N /\ cont h off <> None /\
                    got = read_spec (cont h) off (N.to_nat len) /\
                    Inv h' /\ forall z, cont h' z = cont h z
  | Stuck => False
  end.
Proof.
  intros HI. pose proof HI as (W & Hcnt & _). unfold mh_copy.
  destruct (off + Z.of_N len >? off) eqn:E0; cbn [negb]; [|left; lia].
  destruct (h_count h =? 0)%N eqn:Ec.
  - right. left. apply (inv_count h HI), Ec.
  - assert (Hne : inorder (h_nodes h) <> []) by (intros Hn; apply (inv_count h HI) in Hn; congruence).
    destruct (Z.ltb_spec off 0) as [Hneg|Hpos].
    + rewrite getBlock_negative; [right; right; exact Hneg| | exact Hneg].
      intros Ht. apply Hne. rewrite Ht. reflexivity.
    + destruct (getBlock_spec _ (h_nodes h) off W eq_refl (or_introl Hpos)) as (t1 & p & Eg & Hi1 & Hp). rewrite Eg.
      destruct p as [n|].
      * destruct Hp as (Hin & Hins).
        destruct (copy_loop_ok _ W (S (tree_size t1)) t1 (Some n) len off [] Hi1 (conj Hin Hins)) as (t2 & El & Hi2).
        { right. pose proof (after_le_length off (inorder (h_nodes h))). rewrite <- inorder_length, Hi1. lia. }
        rewrite El. cbn [app]. split; [lia|]. split.
        { apply (proj2 (content_present _ _ _ W)). exists n. auto. }
        split; [reflexivity|].
        destruct (inv_with_nodes h t2 Hi2 HI) as (HI2 & Hc2). split; [exact HI2|]. intros z. rewrite Hc2. reflexivity.
      * split; [lia|]. split; [exact Hpos|]. split; [exact Hne| exact Hp].
Qed.

(* the walk stops at a missing byte: the range is covered only if it is empty *)
Lemma contig_hole l cur a b : a <= cur -> (a < b -> cur < b) -> content l cur = None ->
  ((range_size a b =? 0) = true <-> forall z, a <= z < b -> content l z <> None).
Proof.
  intros Ha Hb Hp. unfold range_size. destruct (b >? a) eqn:Eab.
  - split; [lia|]. intros H. exfalso. apply (H cur); [lia| exact Hp].
  - split; [|reflexivity]. intros _ z Hz. lia.
Qed.

Lemma contig_loop_ok l : wf_from 0 l -> forall fuel t cur a b,
  inorder t = l -> 0 <= cur \/ l = [] -> a <= cur -> (a < b -> cur < b) ->
  (forall z, a <= z < cur -> content l z <> None) -> (after cur l <= fuel)%nat ->
  exists t' r, contig_loop fuel t cur a b = Ok (t', r) /\ inorder t' = l /\
    (r = true <-> forall z, a <= z < b -> content l z <> None).
Proof.
  intros W. induction fuel as [|f IH]; intros t cur a b Hi Hcur Ha Hb Hpre Hf;
    destruct (getBlock_spec l t cur W Hi Hcur) as (t' & p & Eg & Hi' & Hp); cbn [contig_loop]; rewrite Eg;
    (destruct p as [n|];
     [|exists t', (range_size a b =? 0); split; [reflexivity|]; split; [exact Hi'|]; apply (contig_hole l cur); assumption]).
  - (* the last permitted iteration: no stored node ends after cur *)
    destruct Hp as (Hin & Hins). unfold inside in Hins. pose proof (after_lt cur (n_end n) l n Hin ltac:(lia) ltac:(lia)). lia.
  - destruct Hp as (Hin & Hins).
    assert (Hcov : forall z, a <= z < n_end n -> content l z <> None).
    { intros z Hz. destruct (Z.ltb_spec z cur) as [Hlt|Hge]; [apply Hpre; lia|].
      apply (proj2 (content_present _ _ _ W)). exists n. split; [exact Hin|]. unfold inside in *. lia. }
    destruct (n_end n >=? b) eqn:Edone.
    + exists t', true. split; [reflexivity|]. split; [exact Hi'|]. split; [|reflexivity].
      intros _ z Hz. apply Hcov. lia.
    + unfold inside in Hins.
      assert (Hn0 : 0 <= n_end n) by (destruct (wf_from_In _ _ _ W Hin) as (H0 & _); lia).
      apply (IH t' (n_end n) a b Hi' (or_introl Hn0)); [lia| lia| exact Hcov|].
      pose proof (after_lt cur (n_end n) l n Hin ltac:(lia) ltac:(lia)). lia.
Qed.

Theorem mh_hasContig_spec h a b : Inv h ->
  match mh_hasContig h a b with
  | AssertFail => a < 0 /\ inorder (h_nodes h) <> []
  | Ok (h', r) => (0 <= a \/ inorder (h_nodes h) = []) /\
                  (r = true <-> forall z, a <= z < b -> cont h z <> None) /\
                  Inv h' /\ forall z, cont h' z = cont h z
  | FatalDump => False
  | Stuck => False
  end.
Proof.
  intros HI. pose proof HI as (W & _). unfold mh_hasContig.
  destruct (Z.ltb_spec a 0) as [Hneg|Hpos]; [destruct (inorder (h_nodes h)) as [|x q] eqn:El|].
  - (* negative start, empty object *)
    destruct (contig_loop_ok _ W (S (tree_size (h_nodes h))) (h_nodes h) a a b El
                (or_intror eq_refl) ltac:(lia) ltac:(lia) ltac:(intros; lia) ltac:(cbn; lia)) as (t' & r & E & Hi' & Hr).
    rewrite E. split; [right; reflexivity|]. split; [unfold cont; rewrite El; exact Hr|].
    destruct (inv_with_nodes h t' ltac:(rewrite Hi', El; reflexivity) HI) as (HI' & Hc'). split; [exact HI'|].
    intros z. rewrite Hc'. reflexivity.
  - (* negative start, stored nodes: mem_node::start() asserts *)
    cbn [contig_loop]. rewrite getBlock_negative; [split; [exact Hneg| discriminate]| | exact Hneg].
    intros Ht. rewrite Ht in El. discriminate.
  - destruct (contig_loop_ok _ W (S (tree_size (h_nodes h))) (h_nodes h) a a b eq_refl
                (or_introl Hpos) ltac:(lia) ltac:(lia) ltac:(intros; lia)) as (t' & r & E & Hi' & Hr).
    { pose proof (after_le_length a (inorder (h_nodes h))). rewrite <- inorder_length. lia. }
    rewrite E. split; [left; exact Hpos|]. split; [exact Hr|].
    destruct (inv_with_nodes h t' Hi' HI) as (HI' & Hc'). split; [exact HI'|].
    intros z. rewrite Hc'. reflexivity.
Qed.

Lemma content_last lo l : wf_from lo l -> l <> [] -> content l (end_from lo l - 1) <> None.
Proof.
  revert lo. induction l as [|x r IH]; intros lo W Hne; [congruence|].
  apply (proj2 (content_present _ _ _ W)). cbn [end_from].
  destruct r as [|y r].
  - exists x. split; [left; reflexivity|]. destruct W as (_ & (_ & Hp) & _). cbn [end_from]. unfold inside, n_end in *. lia.
  - destruct W as (_ & _ & Wr).
    destruct (proj1 (content_present _ _ _ Wr) (IH _ Wr ltac:(discriminate))) as (n & Hn & Hi).
    exists n. split; [right; exact Hn| exact Hi].
Qed.

Theorem mh_endOffset_spec h : Inv h ->
  exists e, mh_endOffset h = Ok e /\
    (forall z, e <= z -> cont h z = None) /\
    (inorder (h_nodes h) <> [] -> cont h (e - 1) <> None) /\
    (inorder (h_nodes h) = [] -> e = 0).
Proof.
  intros (W & _ & Hhi). unfold mh_endOffset.
  assert (E : match rightmost (h_nodes h) with Some n => n_end n | None => 0 end = end_from 0 (inorder (h_nodes h))).
  { destruct (h_nodes h) as [|l x r] eqn:Et; [reflexivity|].
    pose proof (rightmost_end 0 (Node l x r) ltac:(discriminate)) as H.
    destruct (rightmost (Node l x r)); [exact H| destruct H]. }
  rewrite E, Hhi, Z.eqb_refl. eexists. split; [reflexivity|]. split; [|split].
  - intros z Hz. apply (content_beyond _ _ _ W Hz).
  - intros Hne. apply (content_last _ _ W Hne).
  - intros ->. reflexivity.
Qed.

Lemma mh_lowestOffset_spec h : Inv h ->
  (forall z, z < mh_lowestOffset h -> cont h z = None) /\
  (inorder (h_nodes h) <> [] -> cont h (mh_lowestOffset h) <> None) /\
  (inorder (h_nodes h) = [] -> mh_lowestOffset h = 0).
Proof.
  intros (W & _). unfold mh_lowestOffset, cont. rewrite leftmost_hd.
  destruct (inorder (h_nodes h)) as [|x r]; cbn [hd_error].
  - split; [reflexivity|]. split; [congruence| reflexivity].
  - split; [|split; [|discriminate]].
    + intros z Hz. apply (content_below (n_off x)); [|exact Hz].
      apply (wf_from_rehead _ _ _ W). lia.
    + intros _. apply (proj2 (content_present _ _ _ W)). exists x. split; [left; reflexivity|].
      destruct W as (_ & (_ & Hp) & _). unfold inside, n_end. lia.
Qed.

Lemma free_loop_unfold fuel h target : free_loop fuel h target =
  match inorder (h_nodes h) with
  | [] => Ok h
  | [_] => Ok h
  | s :: _ :: _ =>
      if n_end s >? target then Ok h
      else match fuel with
           | O => Stuck
           | S f =>
               let '(t', removed) := sp_remove (node_compare (n_off s) (n_end s)) (h_nodes h) in
               if removed then free_loop f (mkHdr t' (h_hi h) (h_count h - 1)%N) target else Stuck
           end
  end.
Proof.
  pose proof (single_shape (h_nodes h)) as Hs. pose proof (leftmost_hd (h_nodes h)) as Hl.
  destruct fuel as [|f]; cbn [free_loop];
  (destruct (h_nodes h) as [|l x r] eqn:Et; [reflexivity|]);
  (destruct l as [|ll lx lr]; [destruct r as [|rl rx rr]; [reflexivity|]|]);
  rewrite Hl; (destruct (inorder _) as [|s [|s2 q]]; cbn [length] in Hs; try lia); reflexivity.
Qed.

Definition free_post (h : mem_hdr) (target : Z) (h' : mem_hdr) (d : list node) : Prop :=
  Inv h' /\
  inorder (h_nodes h) = d ++ inorder (h_nodes h') /\
  (forall n, In n d -> n_end n <= target) /\
  (inorder (h_nodes h) <> [] -> inorder (h_nodes h') <> []) /\
  h_hi h' = h_hi h /\
  match inorder (h_nodes h') with
  | [] => True
  | [_] => True
  | x :: _ :: _ => target < n_end x
  end.

Lemma free_post_refl h target : Inv h ->
  match inorder (h_nodes h) with [] => True | [_] => True | x :: _ :: _ => target < n_end x end ->
  free_post h target h [].
Proof.
  intros HI Hm. unfold free_post. split; [exact HI|]. split; [reflexivity|]. split; [intros n []|].
  split; [auto|]. split; [reflexivity| exact Hm].
Qed.

Lemma free_loop_ok fuel : forall h target, Inv h -> (length (inorder (h_nodes h)) <= fuel)%nat ->
  exists h' d, free_loop fuel h target = Ok h' /\ free_post h target h' d.
Proof.
  induction fuel as [|f IH]; intros h target HI Hf; rewrite free_loop_unfold;
    pose proof (free_post_refl h target HI) as R;
    (destruct (inorder (h_nodes h)) as [|s [|s2 q]] eqn:El;
     [exists h, []; (split; [reflexivity| apply R; exact I]) .. |]);
    (destruct (n_end s >? target) eqn:Et; [exists h, []; split; [reflexivity| apply R; lia]|]); clear R.
  - cbn [length] in Hf. lia.
  - pose proof HI as (W & Hcnt & Hhi). rewrite El in W, Hcnt, Hhi.
    pose proof (wf_from_later _ _ _ W) as Later.
    destruct W as (W0 & (Hsl & Hsp) & Wr).
    destruct (sp_remove_spec (node_compare (n_off s) (n_end s)) (h_nodes h) [] s (s2 :: q)) as (t' & Er & Hi').
    { exact El. }
    { apply node_compare_zero. unfold meets, n_end in *. lia. }
    { constructor. }
    { rewrite Forall_forall. intros y Hy. destruct (Later y Hy) as (H1 & (_ & H2)).
      apply node_compare_neg. unfold meets, n_end in *. lia. }
    rewrite Er. cbn [app] in Hi'.
    set (h1 := mkHdr t' (h_hi h) (h_count h - 1)%N).
    assert (HI1 : Inv h1).
    { unfold Inv, h1. cbn [h_nodes h_hi h_count]. rewrite Hi'. split; [|split].
      - apply (wf_from_weaken (n_end s)); [unfold n_end; lia| exact Wr].
      - rewrite Hcnt. cbn [lenN]. lia.
      - rewrite Hhi. cbn [end_from]. reflexivity. }
    destruct (IH h1 target HI1) as (h' & d & E & HI' & Hd & Hdn & Hne & Hhi' & Hhead).
    { unfold h1. cbn [h_nodes]. rewrite Hi'. cbn [length] in Hf |- *. lia. }
    exists h', (s :: d). split; [exact E|]. unfold free_post. rewrite El.
    split; [exact HI'|]. split; [|split; [|split; [|split]]].
    + unfold h1 in Hd. cbn [h_nodes] in Hd. rewrite Hi' in Hd. cbn [app]. rewrite <- Hd. reflexivity.
    + intros n [<-|Hn]; [lia| apply Hdn, Hn].
    + intros _. apply Hne. unfold h1. cbn [h_nodes]. rewrite Hi'. discriminate.
    + rewrite Hhi'. reflexivity.
    + exact Hhead.
Qed.

Lemma content_suffix d l' z : wf_from 0 (d ++ l') ->
  (forall b, content l' z = Some b -> content (d ++ l') z = Some b) /\
  ((forall n, In n d -> ~ inside n z) -> content l' z = content (d ++ l') z).
Proof.
  intros W. pose proof W as W2. rewrite wf_from_app in W2. destruct W2 as (_ & Wl).
  assert (Hsub : forall b, content l' z = Some b -> content (d ++ l') z = Some b).
  { intros b Hb. destruct (content_some_in _ _ _ Hb) as (n & Hn & Hi & Hv).
    rewrite (content_in _ _ n _ W); [exact Hv| apply in_or_app; right; exact Hn| exact Hi]. }
  split; [exact Hsub|]. intros Hd.
  destruct (content (d ++ l') z) as [b|] eqn:E.
  - destruct (content_some_in _ _ _ E) as (n & Hn & Hi & Hv).
    apply in_app_or in Hn. destruct Hn as [Hn|Hn]; [exfalso; exact (Hd n Hn Hi)|].
    rewrite (content_in _ _ n _ Wl Hn Hi). exact Hv.
  - destruct (content l' z) as [b|] eqn:E2; [|reflexivity]. discriminate (Hsub b eq_refl).
Qed.

Theorem mh_free_spec h target : Inv h ->
  match mh_free h target with
  | Ok (h', lo) =>
      Inv h' /\
      (* nothing at or above the target is released or changed *)
      (forall z, target <= z -> cont h' z = cont h z) /\
      (* what remains below is unchanged *)
      (forall z b, cont h' z = Some b -> cont h z = Some b) /\
      (* whole leading nodes ending at or below the target go; the last node stays *)
      (exists d, inorder (h_nodes h) = d ++ inorder (h_nodes h') /\ forall n, In n d -> n_end n <= target) /\
      (inorder (h_nodes h) <> [] -> inorder (h_nodes h') <> []) /\
      h_hi h' = h_hi h /\
      (* the answer is the lowest stored offset *)
      (forall z, z < lo -> cont h' z = None) /\
      (inorder (h_nodes h) <> [] -> cont h' lo <> None) /\
      (inorder (h_nodes h) = [] -> lo = 0)
  | AssertFail => False
  | FatalDump => False
  | Stuck => False
  end.
Proof.
  intros HI. unfold mh_free.
  destruct (free_loop_ok (S (tree_size (h_nodes h))) h target HI) as (h' & d & E & HI' & Hd & Hdn & Hne & Hhi & _).
  { rewrite inorder_length. lia. }
  rewrite E. pose proof HI as (W & _). pose proof HI' as (W' & _). rewrite Hd in W.
  split; [exact HI'|]. split; [|split; [|split; [|split; [|split]]]].
  - intros z Hz. unfold cont. rewrite Hd. apply (content_suffix d _ z W).
    intros n Hn Hi. specialize (Hdn n Hn). unfold inside in Hi. lia.
  - intros z b Hb. unfold cont in *. rewrite Hd. apply (content_suffix d _ z W), Hb.
  - exists d. auto.
  - exact Hne.
  - exact Hhi.
  - destruct (mh_lowestOffset_spec h' HI') as (L1 & L2 & L3). split; [exact L1|]. split.
    + intros Hn. apply L2, Hne, Hn.
    + intros Hn. apply L3. rewrite Hn in Hd. destruct d; [|discriminate]. cbn [app] in Hd. symmetry. exact Hd.
Qed.

Definition stored (m : pmap) : Prop := exists z, m z <> None.
Definition vacant (m : pmap) : Prop := forall z, m z = None.
Definition same (m m' : pmap) : Prop := forall z, m' z = m z.

(* [spec_step m o r m']: on the map m, operation o may answer r and leave m'.
   The only freedom is in OFree (how much below the target is released). *)
Definition spec_step (m : pmap) (o : op) (r : out) (m' : pmap) : Prop :=
  match o, r with
  | OWrite off data, RWrite =>
      0 <= off /\ (forall z, off <= z < off + Z.of_N (lenN data) -> m z = None) /\
      (forall z, m' z = spec_write m off data z)
  | OWrite off data, RFatal =>
      0 <= off /\ (exists z, off <= z < off + Z.of_N (lenN data) /\ m z <> None) /\ same m m'
  | OWrite off data, RAssert => off < 0 /\ same m m'
  | OFree target, RFree lo =>
      (forall z, target <= z -> m' z = m z) /\
      (forall z b, m' z = Some b -> m z = Some b) /\
      (forall e, (forall z, e <= z -> m z = None) -> m (e - 1) <> None -> m' (e - 1) <> None) /\
      (forall z, z < lo -> m' z = None) /\
      (stored m -> m' lo <> None) /\
      (vacant m -> lo = 0)
  | OCopy off len, RCopy got =>
      (0 < len)%N /\ m off <> None /\ got = read_spec m off (N.to_nat len) /\ same m m'
  | OCopy off len, RFatal => (0 < len)%N /\ 0 <= off /\ stored m /\ m off = None /\ same m m'
  | OCopy off len, RAssert => (len = 0%N \/ vacant m \/ off < 0) /\ same m m'
  | OHas a b, RHas ans =>
      (0 <= a \/ vacant m) /\ (ans = true <-> forall z, a <= z < b -> m z <> None) /\ same m m'
  | OHas a b, RAssert => a < 0 /\ stored m /\ same m m'
  | OEnd, REnd e =>
      (forall z, e <= z -> m z = None) /\ (stored m -> m (e - 1) <> None) /\ (vacant m -> e = 0) /\ same m m'
  | OLow, RLow lo =>
      (forall z, z < lo -> m z = None) /\ (stored m -> m lo <> None) /\ (vacant m -> lo = 0) /\ same m m'
  | _, _ => False
  end.

Inductive spec_trace : pmap -> list op -> list out -> pmap -> Prop :=
| st_nil m : spec_trace m [] [] m
| st_stop m o rest r m' : spec_step m o r m' -> abnormal r = true -> spec_trace m (o :: rest) [r] m'
| st_cons m o rest r m1 rs m' : spec_step m o r m1 -> abnormal r = false ->
    spec_trace m1 rest rs m' -> spec_trace m (o :: rest) (r :: rs) m'.

Lemma stored_iff h : Inv h -> (stored (cont h) <-> inorder (h_nodes h) <> []).
Proof.
  intros (W & _). unfold stored, cont. split.
  - intros (z & Hz) Hn. rewrite Hn in Hz. apply Hz. reflexivity.
  - intros Hne. exists (end_from 0 (inorder (h_nodes h)) - 1). apply (content_last _ _ W Hne).
Qed.

Lemma vacant_iff h : Inv h -> (vacant (cont h) <-> inorder (h_nodes h) = []).
Proof.
  intros HI. unfold vacant. split.
  - intros Hv. destruct (inorder (h_nodes h)) as [|x q] eqn:E; [reflexivity|]. exfalso.
    destruct (proj2 (stored_iff h HI)) as (z & Hz); [rewrite E; discriminate|]. apply Hz, Hv.
  - intros Hn z. unfold cont. rewrite Hn. reflexivity.
Qed.

Lemma inv_empty : Inv mh_empty.
Proof. unfold Inv, mh_empty. cbn. auto. Qed.

Lemma cont_empty z : cont mh_empty z = None.
Proof. reflexivity. Qed.

Theorem step_refines h o : Inv h ->
  Inv (fst (mh_step h o)) /\ spec_step (cont h) o (snd (mh_step h o)) (cont (fst (mh_step h o))).
Proof.
  intros HI. pose proof (stored_iff h HI) as Hst. pose proof (vacant_iff h HI) as Hva.
  assert (Hsame : same (cont h) (cont h)) by (intros z; reflexivity).
  destruct o as [off data|target|off len|a b| |]; unfold mh_step, lift.
  - pose proof (mh_write_spec h off data HI) as H.
    destruct (mh_write h off data) as [h'| | |]; cbn [fst snd spec_step]; tauto.
  - pose proof (mh_free_spec h target HI) as H. destruct (mh_free h target) as [[h' lo]| | |]; [|destruct H..].
    cbn [fst snd spec_step]. rewrite Hst, Hva.
    destruct H as (HI' & H1 & H2 & (d & Hd & Hdn) & Hne & Hhi & L1 & L2 & L3).
    split; [exact HI'|]. split; [exact H1|]. split; [exact H2|]. split; [|tauto].
    (* the end of the stored data is inmem_hi before and after, and the last node stays *)
    intros e He1 He2.
    assert (Hl : inorder (h_nodes h) <> []) by (apply Hst; exists (e - 1); exact He2).
    pose proof HI as (W & _ & Hh). pose proof HI' as (W' & _ & Hh').
    assert (Ee : e = h_hi h).
    { pose proof (content_last _ _ W Hl) as Hlast. rewrite <- Hh in Hlast.
      destruct (Z.lt_trichotomy e (h_hi h)) as [Hlt|[Heq|Hgt]]; [|exact Heq|].
      - exfalso. apply Hlast. apply He1. lia.
      - exfalso. apply He2. apply (content_beyond _ _ _ W). rewrite <- Hh. lia. }
    subst e. rewrite <- Hhi, Hh'. apply (content_last _ _ W'). apply Hne, Hl.
  - pose proof (mh_copy_spec h off len HI) as H.
    destruct (mh_copy h off len) as [[h' got]| | |]; cbn [fst snd spec_step]; rewrite ?Hst, ?Hva; tauto.
  - pose proof (mh_hasContig_spec h a b HI) as H.
    destruct (mh_hasContig h a b) as [[h' ans]| | |]; cbn [fst snd spec_step]; rewrite ?Hst, ?Hva; tauto.
  - destruct (mh_endOffset_spec h HI) as (e & E & H). rewrite E. cbn [fst snd spec_step]. rewrite Hst, Hva. tauto.
  - cbn [fst snd spec_step]. rewrite Hst, Hva. pose proof (mh_lowestOffset_spec h HI). tauto.
Qed.

Theorem run_refines ops : forall h, Inv h ->
  Inv (snd (mh_run h ops)) /\ spec_trace (cont h) ops (fst (mh_run h ops)) (cont (snd (mh_run h ops))).
Proof.
  induction ops as [|o rest IH]; intros h HI; cbn [mh_run].
  - cbn [fst snd]. split; [exact HI| constructor].
  - destruct (step_refines h o HI) as (HI1 & Hs). destruct (mh_step h o) as [h1 r]. cbn [fst snd] in HI1, Hs.
    destruct (abnormal r) eqn:Ea.
    + cbn [fst snd]. split; [exact HI1| apply st_stop; assumption].
    + destruct (IH h1 HI1) as (HI2 & Ht). destruct (mh_run h1 rest) as [rs hf]. cbn [fst snd] in *.
      split; [exact HI2| eapply st_cons; eassumption].
Qed.

Lemma spec_trace_never_stuck m ops outs m' : spec_trace m ops outs m' -> ~ In RStuck outs.
Proof.
  induction 1 as [m|m o rest r m' Hs Ha|m o rest r m1 rs m' Hs Ha Ht IH].
  - intros [].
  - intros [E|[]]. subst r. destruct o; exact Hs.
  - intros [E|Hin]; [subst r; destruct o; exact Hs| exact (IH Hin)].
Qed.

Theorem histories_refine ops :
  Inv (snd (mh_run mh_empty ops)) /\
  spec_trace (fun _ => None) ops (fst (mh_run mh_empty ops)) (cont (snd (mh_run mh_empty ops))) /\
  ~ In RStuck (fst (mh_run mh_empty ops)).
Proof.
  destruct (run_refines ops mh_empty inv_empty) as (HI & Ht). split; [exact HI|]. split; [exact Ht|].
  exact (spec_trace_never_stuck _ _ _ _ Ht).
Qed.

(* the stored nodes of every reachable header: sorted, disjoint, 1..SM_PAGE_SIZE bytes, length field exact *)
Theorem reachable_nodes_wf ops :
  let h := snd (mh_run mh_empty ops) in
  wf_from 0 (inorder (h_nodes h)) /\ h_count h = lenN (inorder (h_nodes h)) /\
  h_hi h = end_from 0 (inorder (h_nodes h)).
Proof. exact (proj1 (histories_refine ops)). Qed.

Theorem reachable_nodes_fit ops n :
  In n (inorder (h_nodes (snd (mh_run mh_empty ops)))) ->
  n_length n = lenN (n_data n) /\ (0 < n_length n <= mem_node_data_capacity)%N /\ 0 <= n_off n.
Proof.
  intros Hin. destruct (reachable_nodes_wf ops) as (W & _).
  destruct (wf_from_In _ _ _ W Hin) as (H0 & (Hl & Hp) & _).
  pose proof data_capacity_ok. unfold n_len, PAGE in Hp. split; [exact Hl|]. split; [lia| exact H0].
Qed.
