(* Properties_C42.v — C42: IP-address ACLs match exactly the configured address sets.
   Statements, closed by `exact` or by the few lines that assemble them; proofs live in AclipProofs.v (and the shared splay library SplayProofs.v).

   Vocabulary (AclipModel.v / AclipProofs.v):
     addresses and masks are 128-bit numbers (IPv4 a.b.c.d = ::ffff:a.b.c.d), TOP = 2^128;
     pmask h = 2^128 - 2^h is the prefix mask with h host bits;
     a configured value is  CNet a h      the network a/(128-h)  (a single address when h = 0), or
                            CRange a b h  the addresses a..b (h = 0) / the networks a/(128-h)..b/(128-h);
     cv_ok c: no host bits below the mask, ends ordered, everything below 2^128 (and a range that ends at
       0.0.0.0 starts there: a second address 0.0.0.0 or :: means "no second address" to the code);
     cv_in x c: x belongs to the set c stands for (an interval, stated without masks);
     cv_val c: the (addr1, addr2, mask) triple acl_ip_data::FactoryParse() stores for c;
     acl_parse / acl_match: ACLIP::parse() / ACLIP::match() over the splay tree;
   Since /repo 98f97cc the ACL code orders addresses with matchIPAddr() (the numeric order of the
   128-bit values) instead of Ip::Address::operator< <= > >=, which special-case 0.0.0.0 and
   255.255.255.255 and are not an order; the side condition the main theorems used to carry is gone. *)
Require Import SquidV.Bytes SquidV.SplayModel SquidV.SplayProofs SquidV.AclipModel SquidV.AclipProofs.
Local Open Scope N_scope.

(* ===== masks ===== *)

(* applying a prefix mask rounds down to a multiple of 2^h *)
Theorem C42_prefix_mask_rounds_down : forall a h, a < TOP -> h <= 128 ->
  applyMask a (pmask h) = a / 2 ^ h * 2 ^ h.
Proof. exact land_pmask. Qed.
Print Assumptions C42_prefix_mask_rounds_down.

(* turnMaskedBitsOn() on an address without host bits yields the last address of its network *)
Theorem C42_host_bits_filled : forall a h, h <= 128 -> a mod 2 ^ h = 0 ->
  turnMaskedBitsOn a (pmask h) = a + (2 ^ h - 1).
Proof. exact turn_on_pmask. Qed.
Print Assumptions C42_host_bits_filled.

(* the interval semantics of a network is the CIDR one: same (128-h)-bit prefix *)
Theorem C42_network_is_common_prefix : forall a h x, a mod 2 ^ h = 0 ->
  (cv_in x (CNet a h) <-> x / 2 ^ h = a / 2 ^ h).
Proof. exact cv_in_net. Qed.
Print Assumptions C42_network_is_common_prefix.

(* DecodeMask("/k"): for 0 < k <= width the mask is the prefix mask with width-k host bits *)
Theorem C42_cidr_mask : forall k (v4 : bool), 0 < k -> k <= (if v4 then 32 else 128) ->
  mask_of_cidr k v4 = Some (pmask ((if v4 then 32 else 128) - k)).
Proof. exact mask_of_cidr_pmask. Qed.
Print Assumptions C42_cidr_mask.

(* ===== one value ===== *)

(* firstAddress()/lastAddress() of the stored triple are the two ends of the configured set *)
Theorem C42_first_last_are_the_set_ends : forall c, cv_ok c ->
  first_addr (cv_val c) = cv_lo c /\ last_addr (cv_val c) = cv_hi c /\
  (forall x, cv_in x c <-> cv_lo c <= x <= cv_hi c).
Proof. intros c H. split; [apply cv_first, H|]. split; [apply cv_last, H|]. reflexivity. Qed.
Print Assumptions C42_first_last_are_the_set_ends.

(* aclIpAddrNetworkCompare(client, value): negative below the set, zero inside, positive above *)
Theorem C42_network_compare_sign : forall c p, cv_ok c -> p < TOP ->
  ((net_cmp p (cv_val c) < 0)%Z <-> p < cv_lo c) /\
  ((net_cmp p (cv_val c) = 0)%Z <-> cv_in p c) /\
  ((net_cmp p (cv_val c) > 0)%Z <-> cv_hi c < p).
Proof. exact netcompare_sign. Qed.
Print Assumptions C42_network_compare_sign.

(* SplayInserter::Compare(a, b): -1 / +1 when one set lies entirely before the other, 0 iff they overlap *)
Theorem C42_compare_zero_iff_overlap : forall c1 c2, cv_ok c1 -> cv_ok c2 ->
  ((icompare (cv_val c1) (cv_val c2) < 0)%Z <-> cv_hi c1 < cv_lo c2) /\
  ((icompare (cv_val c1) (cv_val c2) > 0)%Z <-> cv_hi c2 < cv_lo c1) /\
  ((icompare (cv_val c1) (cv_val c2) = 0)%Z <-> exists x, cv_in x c1 /\ cv_in x c2).
Proof. exact compare_overlap. Qed.
Print Assumptions C42_compare_zero_iff_overlap.

(* SplayInserter::IsSubset(a, b) is inclusion of the sets *)
Theorem C42_is_subset_is_inclusion : forall c1 c2, cv_ok c1 -> cv_ok c2 ->
  (is_subset (cv_val c1) (cv_val c2) = true <-> cv_lo c2 <= cv_lo c1 /\ cv_hi c1 <= cv_hi c2).
Proof. exact subset_is_inclusion. Qed.
Print Assumptions C42_is_subset_is_inclusion.

(* ===== comparators on stored sequences ===== *)

(* on sorted pairwise-disjoint values the sign of the lookup comparator never increases
   (the condition under which the shared splay library finds an element iff one compares equal) *)
Theorem C42_lookup_comparator_monotone_on_disjoint : forall cs p,
  Forall cv_ok cs -> p < TOP -> sd (map cv_val cs) ->
  mono (net_cmp p) (map cv_val cs).
Proof. intros cs p Hok Hp S. apply (mono_net_cmp p _ Hp); [apply good_cv_all, Hok| exact S]. Qed.
Print Assumptions C42_lookup_comparator_monotone_on_disjoint.

(* the same for the insertion comparator Compare(new value, .) *)
Theorem C42_insert_comparator_monotone_on_disjoint : forall cs c,
  cv_ok c -> Forall cv_ok cs -> sd (map cv_val cs) ->
  mono (icompare (cv_val c)) (map cv_val cs).
Proof. intros cs c Hc Hok S. apply mono_icompare; [apply good_cv, Hc| apply good_cv_all, Hok| exact S]. Qed.
Print Assumptions C42_insert_comparator_monotone_on_disjoint.

(* ===== parse(): Merge keeps the stored ranges disjoint with the same union ===== *)

(* For every token list whose values are configured values without host bits (any order, duplicates,
   overlaps; global words anywhere): parse() ends normally (no exception, no freed-but-stored value,
   loop bound not reached), the flags are those of the global words, and the stored ranges are sorted,
   pairwise disjoint and cover exactly the union of the configured sets. *)
Theorem C42_parse_disjoint_same_union : forall toks cs,
  Forall tok_parsed toks -> vals_of toks = map cv_val cs -> Forall cv_ok cs ->
  exists t n, acl_parse toks = POk (any4 toks) (any6 toks) t n /\
    (forall x, In x (inorder t) -> first_addr x <= last_addr x) /\
    (forall A x B y C, inorder t = A ++ x :: B ++ y :: C -> last_addr x < first_addr y) /\
    (forall q, (exists w, In w (inorder t) /\ first_addr w <= q <= last_addr w) <-> (exists c, In c cs /\ cv_in q c)).
Proof.
  intros toks cs HP HV Hok. destruct (acl_parse_ok toks cs HP HV Hok) as (t & n & E & St).
  exists t, n. split; [exact E|]. destruct (stored_disjoint cs t St) as [D1 D2].
  split; [exact D1|]. split; [exact D2|]. exact (proj2 St).
Qed.
Print Assumptions C42_parse_disjoint_same_union.

(* ===== the property ===== *)

(* match(address) <-> address in the union of the configured sets, or its family selected by
   all / ipv4 / ipv6 -- for all lists of values without host bits, all orders, all addresses. *)
Theorem C42_match_iff_in_union : forall toks cs p,
  Forall tok_parsed toks -> vals_of toks = map cv_val cs -> Forall cv_ok cs ->
  p < TOP ->
  exists t n, acl_parse toks = POk (any4 toks) (any6 toks) t n /\
    (snd (acl_match (any4 toks) (any6 toks) t p) = true <->
       (any4 toks = true /\ any6 toks = true) \/ (any4 toks = true /\ isIPv4 p = true) \/
       (any6 toks = true /\ isIPv4 p = false) \/ (exists c, In c cs /\ cv_in p c)).
Proof. exact acl_correct. Qed.
Print Assumptions C42_match_iff_in_union.

(* ... also for any sequence of lookups (each one re-shapes the tree) *)
Theorem C42_match_sequence : forall cs f4 f6 ps t,
  stored_ok cs t -> Forall (fun p => p < TOP) ps ->
  Forall2 (fun p b => b = true <-> acl_spec f4 f6 cs p) ps (snd (acl_match_seq f4 f6 t ps)).
Proof. exact acl_match_seq_ok. Qed.
Print Assumptions C42_match_sequence.

(* the global words *)
Theorem C42_global_words :
  parse_global s_all = Some (true, true) /\ parse_global s_ipv4 = Some (true, false) /\
  parse_global s_ipv6 = Some (false, true) /\ parse_global tok_x = None.
Proof. repeat split; reflexivity. Qed.
Print Assumptions C42_global_words.

(* ===== regressions: the cases that went wrong before 98f97cc, computed ===== *)

(* "acl x src ::1 0.0.0.0" matches ::1; "acl x src ::1-::5" does not match 0.0.0.0;
   "acl x src 2001:db8::1-2001:db8::5" does not match 255.255.255.255 *)
Theorem C42_fixed_anyaddr_noaddr_cases :
  (let cs := [CNet 1 0; CNet V4ANY 0] in
   exists t n, acl_parse (plain_toks cs) = POk false false t n /\ snd (acl_match false false t 1) = true) /\
  (let cs := [CRange 1 5 0] in
   exists t n, acl_parse (plain_toks cs) = POk false false t n /\ snd (acl_match false false t V4ANY) = false) /\
  (let cs := [CRange db8_1 db8_5 0] in
   exists t n, acl_parse (plain_toks cs) = POk false false t n /\ snd (acl_match false false t V4NO) = false).
Proof.
  cbv zeta. repeat split; (eexists; eexists; split; [vm_compute; reflexivity|]; vm_compute; reflexivity).
Qed.
Print Assumptions C42_fixed_anyaddr_noaddr_cases.

(* ===== what remains false for the code as it is ===== *)

(* "::/0": prefix length 0 becomes the all-ones mask, so the value is the single address :: and
   not the network of all addresses *)
Theorem C42_prefix_length_zero_refuted :
  mask_of_cidr 0 false = Some (pmask 0) /\ mask_of_cidr 0 true = Some (pmask 0) /\
  IpVal 0 0 (pmask 0) = cv_val (CNet 0 0) /\
  cv_in 1 (CNet 0 128) /\ ~ cv_in 1 (CNet 0 0).
Proof.
  split; [reflexivity|]. split; [reflexivity|]. split; [reflexivity|]. split.
  - unfold cv_in, cv_lo, cv_hi. change (2 ^ 128) with TOP. rewrite TOP_val. lia.
  - rewrite cv_in_net0. lia.
Qed.
Print Assumptions C42_prefix_length_zero_refuted.

(* outside the property (a reversed range is not a valid value) but worth knowing:
   "acl x src 10.0.0.9-10.0.0.1 10.0.0.0/8" makes Merge() free a value the tree still holds *)
Theorem C42_reversed_range_frees_stored_value :
  acl_parse [(tok_x, SV [IpVal (V4ANY + 167772169) (V4ANY + 167772161) ALL1]);
             (tok_x, SV [IpVal (V4ANY + 167772160) 0 (pmask 24)])] = PDangling.
Proof. vm_compute. reflexivity. Qed.
Print Assumptions C42_reversed_range_frees_stored_value.

(* ===== the hypotheses are satisfiable ===== *)
(* 10.0.0.0/8, 192.168.7.16-192.168.7.23, 2001:db8::1, 0.0.0.0, ::1-::5 *)
Example C42_ex_values_ok :
  Forall cv_ok [CNet net10 24; CRange blk_lo blk_hi 0; CNet db8_1 0; CNet V4ANY 0; CRange 1 5 0].
Proof. exact ex_values_ok. Qed.

Example C42_ex_plain_tokens : forall cs,
  Forall tok_parsed (plain_toks cs) /\ vals_of (plain_toks cs) = map cv_val cs.
Proof. exact ex_plain_tokens. Qed.
