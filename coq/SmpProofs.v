(* SmpProofs.v — proofs for SmpModel.v (C18, C19). *)
Require Import SquidV.Bytes SquidV.RwlockModel SquidV.SmpModel.
Require Import ZifyBool ZifyN ZifyNat Lia.
Local Open Scope N_scope.

Lemma lock_unlock_shared : forall l l', lockShared l = (l', true) -> unlockShared l' = l.
Proof.
  intros [r w a] l' H. unfold lockShared in H. cbn [wr ap rd] in H.
  destruct (negb w || a); inversion H; subst. unfold unlockShared; cbn [rd wr ap].
  f_equal. lia.
Qed.

Fixpoint cnt (f : hold -> bool) (hs : list hold) : N :=
  match hs with [] => 0 | h :: r => (if f h then 1 else 0) + cnt f r end.
Definition isR h := match h with HRead => true | _ => false end.
Definition isW h := match h with HWrite | HAppend => true | _ => false end.
Definition isA h := match h with HAppend => true | _ => false end.

Definition ind (b : bool) : N := if b then 1 else 0.

Lemma cnt_hset : forall f hs p h, p < lenN hs ->
  cnt f (hset hs p h) + ind (f (hget hs p)) = cnt f hs + ind (f h).
Proof.
  unfold hset, hget, ind. intros f hs; induction hs as [|y r IH]; intros p h Hp; cbn [lenN] in Hp; [lia|].
  cbn [updN nthN]. destruct (p =? 0) eqn:E.
  - cbn [cnt]. lia.
  - cbn [cnt]. specialize (IH (N.pred p) h). assert (N.pred p < lenN r) by lia. specialize (IH H). lia.
Qed.

Lemma hget_hset_same : forall hs p h, p < lenN hs -> hget (hset hs p h) p = h.
Proof.
  unfold hset, hget. induction hs as [|y r IH]; intros p h Hp; cbn [lenN] in Hp; [lia|].
  cbn [updN]. destruct (p =? 0) eqn:E; cbn [nthN]; rewrite E; [reflexivity|]. apply IH. lia.
Qed.
Lemma hget_hset_other : forall hs p q h, p <> q -> hget (hset hs p h) q = hget hs q.
Proof.
  unfold hset, hget. induction hs as [|y r IH]; intros p q h Hpq; [reflexivity|].
  cbn [updN]. destruct (p =? 0) eqn:E; cbn [nthN]; destruct (q =? 0) eqn:F; try reflexivity; try lia.
  apply IH. lia.
Qed.
Lemma lenN_hset : forall hs p h, lenN (hset hs p h) = lenN hs.
Proof.
  unfold hset. induction hs as [|y r IH]; intros p h; [reflexivity|].
  cbn [updN]. destruct (p =? 0); cbn [lenN]; [reflexivity| now rewrite IH].
Qed.
Lemma cnt_pos_exists : forall f hs, 0 < cnt f hs -> exists p, f (hget hs p) = true.
Proof.
  induction hs as [|y r IH]; cbn [cnt]; intros H; [lia|].
  destruct (f y) eqn:E.
  - exists 0. unfold hget. cbn. exact E.
  - destruct IH as [p Hp]; [lia|]. exists (p + 1). unfold hget in *. cbn [nthN].
    replace (p + 1 =? 0) with false by lia. replace (N.pred (p + 1)) with p by lia. exact Hp.
Qed.
Lemma hget_none : forall hs p, lenN hs <= p -> hget hs p = HNone.
Proof. intros hs p H. unfold hget. now rewrite nthN_none. Qed.

(* taking a counted holder out lowers the count by one *)
Lemma cnt_take : forall f hs p, f HNone = false -> f (hget hs p) = true -> cnt f hs = cnt f (hset hs p HNone) + 1.
Proof.
  intros f hs p Hn Hp. destruct (N.lt_ge_cases p (lenN hs)) as [L|L]; [|rewrite hget_none in Hp by exact L; congruence].
  pose proof (cnt_hset f hs p HNone L) as H. rewrite Hn, Hp in H. cbn [ind] in H. lia.
Qed.

Lemma cnt_pos_of_holder : forall f hs k, f HNone = false -> f (hget hs k) = true -> 0 < cnt f hs.
Proof. intros f hs k Hn Hk. rewrite (cnt_take f hs k Hn Hk). lia. Qed.

Lemma cnt_two : forall f hs p q, f HNone = false -> p <> q ->
  f (hget hs p) = true -> f (hget hs q) = true -> 2 <= cnt f hs.
Proof.
  intros f hs p q Hn Hpq Hp Hq. rewrite (cnt_take f hs p Hn Hp).
  rewrite <- (hget_hset_other hs p q HNone Hpq) in Hq. pose proof (cnt_pos_of_holder f _ q Hn Hq). lia.
Qed.

Lemma isA_isW : forall h, isA h = true -> isW h = true.
Proof. now destruct h. Qed.

Record pinv (s : pop) : Prop := mkPinv {
  i_rd : rd (lk (pe s)) = cnt isR (ph s);
  i_wr : (if wr (lk (pe s)) then 1 else 0) = cnt isW (ph s);
  i_ap : (if ap (lk (pe s)) then 1 else 0) = cnt isA (ph s);
  i_apw : ap (lk (pe s)) = true -> wr (lk (pe s)) = true;
  i_excl : wr (lk (pe s)) = true -> ap (lk (pe s)) = false -> rd (lk (pe s)) = 0;
  i_used : wr (lk (pe s)) = true -> used (pe s) = true;
  i_ver : forall p, isW (hget (ph s) p) = true -> ever (pe s) = p
}.

Lemma cnt_repeat_none : forall f n, f HNone = false -> cnt f (repeat HNone n) = 0.
Proof. intros f n H; induction n; cbn [repeat cnt]; [reflexivity| rewrite H, IHn; reflexivity]. Qed.

Lemma hget_repeat : forall n p, hget (repeat HNone n) p = HNone.
Proof.
  unfold hget. induction n; intros p; cbn [repeat nthN]; [reflexivity|].
  destruct (p =? 0); [reflexivity| apply IHn].
Qed.

Lemma pinv_init : forall n, pinv (pinit n).
Proof.
  intros n. unfold pinit. constructor; cbn [pe ph lk e_empty l_idle rd wr ap used ever];
    try rewrite cnt_repeat_none by reflexivity; try reflexivity; try discriminate.
  intros p H. rewrite hget_repeat in H. discriminate.
Qed.

Ltac lock_unf := unfold openForReading, openForWriting, openOrCreateForReading, startAppending, closeForWriting,
  switchWritingToReading, closeForReading, abortWriting, freeEntry, freeEntryByKey, closeForReadingAndFreeIdle,
  lockShared, unlockShared, lockExclusive, unlockExclusive, switchExclusiveToShared, lockStartAppending, stopAppending,
  unlockSharedAndSwitchToExclusive, set_lk, set_wtbf, set_data, rewind, e_complete, e_writing in *.

Lemma no_writer_holder : forall hs q, cnt isW hs = 0 -> isW (hget hs q) = true -> False.
Proof. intros hs q H0 Hq. pose proof (cnt_pos_of_holder isW hs q eq_refl Hq). lia. Qed.

Ltac cbnE := cbn [fst snd pe ph lk rd wr ap used wtbf halted ever elen] in *.

Lemma holder_facts : forall e hs, pinv (mkPop e hs) -> forall p,
  (hget hs p = HWrite -> wr (lk e) = true /\ ap (lk e) = false) /\
  (hget hs p = HAppend -> wr (lk e) = true /\ ap (lk e) = true) /\
  (hget hs p = HRead -> 0 < rd (lk e)).
Proof.
  intros e hs [Ird Iwr Iap Iapw Iex Ius Iver] p. cbn [pe ph] in *.
  assert (HW : isW (hget hs p) = true -> wr (lk e) = true).
  { intros H. pose proof (cnt_pos_of_holder isW hs p eq_refl H). destruct (wr (lk e)); [reflexivity|lia]. }
  split; [|split].
  - intros H. split; [apply HW; rewrite H; reflexivity|].
    destruct (ap (lk e)) eqn:Ea; [|reflexivity]. exfalso.
    destruct (cnt_pos_exists isA hs) as [q Hq]; [lia|].
    assert (p <> q) by (intros ->; rewrite H in Hq; discriminate).
    assert (isW (hget hs p) = true) by (rewrite H; reflexivity).
    pose proof (cnt_two isW hs p q eq_refl H0 H1 (isA_isW _ Hq)). destruct (wr (lk e)); lia.
  - intros H. split; [apply HW; rewrite H; reflexivity|].
    assert (isA (hget hs p) = true) by (rewrite H; reflexivity).
    pose proof (cnt_pos_of_holder isA hs p eq_refl H0). destruct (ap (lk e)); [reflexivity|lia].
  - intros H. assert (isR (hget hs p) = true) by (rewrite H; reflexivity).
    pose proof (cnt_pos_of_holder isR hs p eq_refl H0). lia.
Qed.

(* process p trades holder state hget hs p for h while the anchor goes from e to e': the invariant survives when the
   three lock counters move by the same amounts as the holder counts, and the chain's version is p for a new writer
   and unchanged while another process may be writing *)
Lemma pinv_hset : forall e e' hs p h, pinv (mkPop e hs) -> p < lenN hs ->
  rd (lk e') + ind (isR (hget hs p)) = rd (lk e) + ind (isR h) ->
  ind (wr (lk e')) + ind (isW (hget hs p)) = ind (wr (lk e)) + ind (isW h) ->
  ind (ap (lk e')) + ind (isA (hget hs p)) = ind (ap (lk e)) + ind (isA h) ->
  (ap (lk e') = true -> wr (lk e') = true) ->
  (wr (lk e') = true -> ap (lk e') = false -> rd (lk e') = 0) ->
  (wr (lk e') = true -> used e' = true) ->
  (isW h = true -> ever e' = p) ->
  (isW (hget hs p) = true \/ wr (lk e) = false \/ ever e' = ever e) ->
  pinv (mkPop e' (hset hs p h)).
Proof.
  intros e e' hs p h [Ird Iwr Iap Iapw Iex Ius Iver] Hp HR HW HA Hapw Hex Hus Hnew Hold. cbn [pe ph] in *.
  fold (ind (wr (lk e))) in Iwr. fold (ind (ap (lk e))) in Iap.
  pose proof (cnt_hset isR hs p h Hp) as CR. pose proof (cnt_hset isW hs p h Hp) as CW.
  pose proof (cnt_hset isA hs p h Hp) as CA.
  constructor; cbn [pe ph]; try assumption.
  - clear -Ird HR CR. lia.
  - fold (ind (wr (lk e'))). clear -Iwr HW CW. lia.
  - fold (ind (ap (lk e'))). clear -Iap HA CA. lia.
  - intros q Hq. destruct (N.eq_dec p q) as [<-|Hne].
    + rewrite hget_hset_same in Hq by assumption. auto.
    + rewrite hget_hset_other in Hq by assumption. destruct Hold as [Hw|[Hw|Hv]].
      * exfalso. pose proof (cnt_two isW hs p q eq_refl Hne Hw Hq). clear -Iwr H. destruct (wr (lk e)); cbn [ind] in Iwr; lia.
      * exfalso. apply (no_writer_holder hs q); [rewrite Hw in Iwr; symmetry; exact Iwr | exact Hq].
      * rewrite Hv. auto.
Qed.

Lemma pinv_same_holders : forall e e' hs, pinv (mkPop e hs) -> lk e' = lk e ->
  (wr (lk e) = true -> used e' = true /\ ever e' = ever e) -> pinv (mkPop e' hs).
Proof.
  intros e e' hs [Ird Iwr Iap Iapw Iex Ius Iver] Hl Hw. cbn [pe ph] in *.
  constructor; cbn [pe ph]; rewrite ?Hl; try assumption.
  - intros H. apply Hw, H.
  - intros q Hq. pose proof (cnt_pos_of_holder isW hs q eq_refl Hq). destruct (wr (lk e)); [|lia].
    destruct Hw as [_ ->]; auto.
Qed.

Lemma pstep1_inv : forall s p o, pinv s -> pinv (fst (pstep1 s p o)).
Proof.
  intros [e hs] p o I. unfold pstep1. cbn [pe ph].
  destruct (N.leb (lenN hs) p) eqn:Hlen; [exact I|]. assert (Hp : p < lenN hs) by lia.
  pose proof (holder_facts e hs I p) as (HFw & HFa & HFr). pose proof I as [_ _ _ Iapw Iex Ius Iver].
  destruct e as [[r w a] u wt ha ev el]. cbnE.
  destruct (hget hs p) eqn:Hh; destruct o; cbn [fst]; try exact I.
  (* what p holds fixes the lock's flags; an idle p leaves them open *)
  all: try (destruct (HFw eq_refl) as [-> ->]); try (destruct (HFa eq_refl) as [-> ->]); try specialize (HFr eq_refl).
  all: try (destruct w, a; try (discriminate (Iapw eq_refl)); destruct u; try (discriminate (Ius eq_refl))).
  all: lock_unf; lock_unf; cbnE; cbn [negb orb andb].
  all: repeat match goal with |- context [if ?b then _ else _] => destruct b eqn:? end; cbn [fst snd]; try exact I.
  all: first [ apply (pinv_hset _ _ _ _ _ I Hp); rewrite ?Hh
             | apply (pinv_same_holders _ _ _ I) ]; cbn [lk rd wr ap used ever isR isW isA ind]; auto; try lia; try discriminate.
  intros _. apply Iver. rewrite Hh. reflexivity.
Qed.

Lemma prun_inv : forall sched s, pinv s -> pinv (fst (prun s sched)).
Proof.
  induction sched as [|[p o] r IH]; intros s I; cbn [prun fst]; [exact I|].
  destruct (pstep1 s p o) as [s1 ob] eqn:E1. destruct (prun s1 r) as [s2 obs] eqn:E2. cbn [fst].
  specialize (IH s1). rewrite E2 in IH. apply IH. pose proof (pstep1_inv s p o I) as H. rewrite E1 in H. exact H.
Qed.

Theorem pop_one_writer : forall n sched p q, let s := fst (prun (pinit n) sched) in
  p <> q -> isW (hget (ph s) p) = true -> isW (hget (ph s) q) = true -> False.
Proof.
  intros n sched p q s Hne Hp Hq. pose proof (prun_inv sched (pinit n) (pinv_init n)) as I. fold s in I.
  pose proof (cnt_two isW (ph s) p q eq_refl Hne Hp Hq). destruct I as [_ Iwr _ _ _ _ _].
  destruct (wr (lk (pe s))); lia.
Qed.

Theorem pop_reader_only_with_appending_writer : forall n sched p q, let s := fst (prun (pinit n) sched) in
  hget (ph s) p = HRead -> isW (hget (ph s) q) = true -> hget (ph s) q = HAppend.
Proof.
  intros n sched p q s Hp Hq. pose proof (prun_inv sched (pinit n) (pinv_init n)) as I. fold s in I.
  destruct s as [e hs]. cbn [ph] in *.
  pose proof (holder_facts e hs I p) as [_ [_ HFr]]. pose proof (holder_facts e hs I q) as [HFw _].
  specialize (HFr Hp). destruct (hget hs q) eqn:Eq; try discriminate; [|reflexivity].
  destruct (HFw eq_refl) as [Hw Ha]. destruct I as [_ _ _ _ Iex _ _]. cbn [pe] in Iex. specialize (Iex Hw Ha). lia.
Qed.

(* what a successful openForReading saw *)
Definition obs_sound (s : pop) (ob : pobs) : Prop :=
  match ob with
  | ObsNone => True
  | ObsOpenR p v len c =>
      used (pe s) = true /\ wtbf (pe s) = false /\ v = ever (pe s) /\ len = elen (pe s) /\
      (c = true -> forall q, isW (hget (ph s) q) = false) /\
      (c = false -> hget (ph s) v = HAppend)
  end.

Lemma step_obs_sound : forall s p o, pinv s -> obs_sound s (snd (pstep1 s p o)).
Proof.
  intros [e hs] p o I. unfold pstep1. cbn [pe ph].
  destruct (N.leb (lenN hs) p) eqn:Hlen; [exact Logic.I|].
  destruct (hget hs p) eqn:Hh; destruct o; cbn [snd obs_sound]; try exact Logic.I;
    try (match goal with |- context [let '(_, _) := ?x in _] => destruct x as [? []] end; exact Logic.I).
  destruct (openForReading e) as [e' ok] eqn:Eo. destruct ok; [|exact Logic.I]. cbn [snd obs_sound pe ph].
  destruct I as [Ird Iwr Iap Iapw Iex Ius Iver]. cbn [pe ph] in *.
  destruct e as [[r w a] u wt ha ev el]. unfold openForReading, lockShared, e_complete in *. cbnE.
  destruct (negb w || a) eqn:E1; cbn [negb] in Eo; [|discriminate].
  destruct (negb u || wt) eqn:E2; [discriminate|].
  destruct u, wt; try discriminate. repeat split.
  - intros Hc q. destruct w; [discriminate|]. destruct (isW (hget hs q)) eqn:Eq; [|reflexivity].
    exfalso. eapply no_writer_holder; [|exact Eq]. lia.
  - intros Hc. destruct w; [|discriminate]. cbn in E1. subst a.
    destruct (cnt_pos_exists isA hs) as [q Hq]; [lia|].
    rewrite (Iver q (isA_isW _ Hq)). destruct (hget hs q); try discriminate; reflexivity.
Qed.

Fixpoint all_obs_sound (s : pop) (sched : list (N * mop)) : Prop :=
  match sched with
  | [] => True
  | (p, o) :: r => obs_sound s (snd (pstep1 s p o)) /\ all_obs_sound (fst (pstep1 s p o)) r
  end.

(* purged entries are not opened *)
Definition dead (e : ent) : bool := negb (used e) || wtbf e.
Definition creates (o : mop) : bool := match o with MOpenW | MOpenOrCreate => true | _ => false end.

Lemma dead_no_open : forall s p o, dead (pe s) = true -> creates o = false ->
  snd (pstep1 s p o) = ObsNone /\ dead (pe (fst (pstep1 s p o))) = true.
Proof.
  intros [e hs] p o Hd Hc. unfold pstep1. cbn [pe ph].
  destruct (N.leb (lenN hs) p); [split; [reflexivity|exact Hd]|].
  destruct e as [[r w a] u wt ha ev el]. unfold dead in *. cbnE.
  destruct (hget hs p); destruct o; try discriminate Hc; cbn [fst snd pe]; try (split; [reflexivity|exact Hd]);
  lock_unf; cbnE; destruct w, a, u, wt; cbn [negb orb andb fst snd] in *; try discriminate Hd;
  repeat match goal with |- context [if ?b then _ else _] => destruct b eqn:? end; cbnE; cbn [negb orb andb fst snd pe];
  split; reflexivity.
Qed.

Lemma free_makes_dead : forall s p o, p < lenN (ph s) -> (o = MFree \/ o = MFreeByKey) ->
  dead (pe (fst (pstep1 s p o))) = true.
Proof.
  intros [e hs] p o Hp Ho. unfold pstep1. cbn [pe ph] in *.
  replace (N.leb (lenN hs) p) with false by lia.
  destruct e as [[r w a] u wt ha ev el]. unfold dead.
  destruct Ho as [-> | ->]; destruct (hget hs p); cbn [fst pe]; lock_unf; cbnE;
  destruct w, u, wt; cbn [negb orb andb fst snd]; try reflexivity;
  repeat match goal with |- context [if ?b then _ else _] => destruct b eqn:? end; cbnE; cbn [negb orb andb]; reflexivity.
Qed.

Theorem pop_purged_not_opened : forall s p o sched,
  p < lenN (ph s) -> (o = MFree \/ o = MFreeByKey) ->
  forallb (fun x => negb (creates (snd x))) sched = true ->
  forall ob, In ob (snd (prun (fst (pstep1 s p o)) sched)) -> ob = ObsNone.
Proof.
  intros s p o sched Hp Ho Hs. pose proof (free_makes_dead s p o Hp Ho) as Hd.
  generalize dependent (fst (pstep1 s p o)). clear Hp Ho.
  induction sched as [|[q o'] r IH]; intros s1 Hd ob Hin; cbn [prun snd] in Hin; [contradiction|].
  cbn [forallb snd] in Hs. apply andb_true_iff in Hs as [Hc Hr].
  destruct (dead_no_open s1 q o' Hd) as [Hob Hd']; [destruct (creates o'); [discriminate|reflexivity]|].
  destruct (pstep1 s1 q o') as [s2 ob1] eqn:E1. destruct (prun s2 r) as [s3 obs] eqn:E2. cbn [fst snd] in *.
  destruct Hin as [<-|Hin]; [exact Hob|].
  specialize (IH Hr s2 Hd' ob). rewrite E2 in IH. apply IH. exact Hin.
Qed.

(* lock bridge to the C54 atomic model (bounded: up to 4 concurrent readers) *)
Definition shared_eqb (a b : shared) : bool :=
  (readers a =? readers b)%Z && Bool.eqb (writing a) (writing b) && Bool.eqb (appending a) (appending b) &&
  Bool.eqb (updating a) (updating b) && (readLevel a =? readLevel b)%Z && (writeLevel a =? writeLevel b)%Z.
Definition mode_eqb (a b : mode) : bool :=
  match a, b with
  | MIdle, MIdle | MShared, MShared | MHeaders, MHeaders | MExcl, MExcl | MAppend, MAppend | MBusy, MBusy => true
  | _, _ => false
  end.
Definition res_eqb (x : option (shared * mode * bool)) (s : shared) (m : mode) (r : bool) : bool :=
  match x with
  | Some (s', m', r') => shared_eqb s' s && mode_eqb m' m && Bool.eqb r' r
  | None => false
  end.
Definition wmode (l : alock) : mode := if ap l then MAppend else MExcl.

(* every method of the method-level lock = the atomic-operation model of C54 run alone from the corresponding state *)
Definition bridge_ok (l : alock) : bool :=
  let wf := implb (ap l) (wr l) in
  implb wf (
    res_eqb (call (conc l) MIdle OpLS) (conc (fst (lockShared l))) (if snd (lockShared l) then MShared else MIdle) (snd (lockShared l)) &&
    res_eqb (call (conc l) MIdle OpLX) (conc (fst (lockExclusive l))) (if snd (lockExclusive l) then MExcl else MIdle) (snd (lockExclusive l)) &&
    implb (0 <? rd l) (res_eqb (call (conc l) MShared OpUS) (conc (unlockShared l)) MIdle true) &&
    implb (0 <? rd l) (res_eqb (call (conc l) MShared OpSX) (conc (fst (unlockSharedAndSwitchToExclusive l)))
                               (if snd (unlockSharedAndSwitchToExclusive l) then MExcl else MIdle)
                               (snd (unlockSharedAndSwitchToExclusive l))) &&
    implb (wr l) (res_eqb (call (conc l) (wmode l) OpUX) (conc (unlockExclusive l)) MIdle true) &&
    implb (wr l) (res_eqb (call (conc l) (wmode l) OpSW) (conc (switchExclusiveToShared l)) MShared true) &&
    implb (wr l && negb (ap l)) (res_eqb (call (conc l) MExcl OpSA) (conc (lockStartAppending l)) MAppend true) &&
    implb (wr l && ap l) (res_eqb (call (conc l) MAppend OpSP) (conc (fst (stopAppending l)))
                                   (if snd (stopAppending l) then MExcl else MBusy) (snd (stopAppending l)))).

Definition all_locks : list alock :=
  flat_map (fun r => flat_map (fun w => map (fun a => mkL r w a) [true; false]) [true; false]) [0; 1; 2; 3; 4].

Lemma bridge_sweep : forallb bridge_ok all_locks = true.
Proof. vm_compute. reflexivity. Qed.

Theorem lock_bridge_bounded : forall r w a, r <= 4 -> bridge_ok (mkL r w a) = true.
Proof.
  intros r w a Hr. pose proof bridge_sweep as H. rewrite forallb_forall in H. apply H.
  unfold all_locks. apply in_flat_map. exists r. split.
  - assert (r = 0 \/ r = 1 \/ r = 2 \/ r = 3 \/ r = 4) as [->|[->|[->|[->| ->]]]] by lia; cbn; auto 6.
  - apply in_flat_map. exists w. split; [destruct w; cbn; auto|]. destruct a; cbn; auto.
Qed.

Lemma last_or_nil_spec : forall (c : chain), c <> [] -> c = fst (last_or_nil c) ++ [snd (last_or_nil c)].
Proof.
  induction c as [|s r IH]; intros H; [congruence|].
  destruct r as [|s2 r2]; [reflexivity|].
  specialize (IH ltac:(discriminate)).
  change (last_or_nil (s :: s2 :: r2)) with (let '(a, b) := last_or_nil (s2 :: r2) in (s :: a, b)).
  destruct (last_or_nil (s2 :: r2)) as [a b]. cbn [fst snd app] in *. f_equal. exact IH.
Qed.

Lemma copy_to_shm_ok : forall fuel psz c data, 0 < psz -> (length data < fuel)%nat ->
  exists c', copy_to_shm fuel psz c data = Some c' /\ concat c' = concat c ++ data.
Proof.
  induction fuel as [|f IH]; intros psz c data Hp Hf; [lia|].
  destruct data as [|d0 dr]; [exists c; cbn; split; [reflexivity| now rewrite app_nil_r]|].
  cbn [copy_to_shm]. remember (d0 :: dr) as data eqn:Ed.
  assert (Hlen : 0 < lenN data) by (subst; cbn [lenN]; lia).
  destruct (last_or_nil c) as [pre lastS] eqn:El.
  assert (Hdrop : forall k, 0 < k -> (length (dropN k data) < f)%nat).
  { intros k Hk. pose proof (lenN_dropN k data). rewrite !lenN_length in H. subst data. cbn [length] in *. lia. }
  destruct ((psz - lenN lastS =? 0) || match c with [] => true | _ => false end) eqn:Eb.
  - assert (Hk : 0 < N.min psz (lenN data)) by lia.
    replace (N.min psz (lenN data) =? 0) with false by lia.
    destruct (IH psz (c ++ [takeN (N.min psz (lenN data)) data]) (dropN (N.min psz (lenN data)) data) Hp (Hdrop _ Hk)) as [c' [E1 E2]].
    exists c'. split; [exact E1|]. rewrite E2, (concat_snoc (A:=N)), <- app_assoc, takeN_dropN. reflexivity.
  - apply orb_false_iff in Eb as [Er Ec]. destruct c as [|s0 r0]; [discriminate|].
    assert (Hk : 0 < N.min (psz - lenN lastS) (lenN data)) by lia.
    destruct (IH psz (pre ++ [lastS ++ takeN (N.min (psz - lenN lastS) (lenN data)) data])
                 (dropN (N.min (psz - lenN lastS) (lenN data)) data) Hp (Hdrop _ Hk)) as [c' [E1 E2]].
    exists c'. split; [exact E1|]. rewrite E2.
    pose proof (last_or_nil_spec (s0 :: r0) ltac:(discriminate)) as Hs. rewrite El in Hs. cbn [fst snd] in Hs.
    rewrite Hs. rewrite !(concat_snoc (A:=N)), <- !app_assoc, takeN_dropN. reflexivity.
Qed.

(* the writer: local object obj, `offset` bytes of it already in the chain *)
Theorem shm_write_ok : forall psz c offset obj, 0 < psz -> concat c = takeN offset obj ->
  exists c', shm_write psz c offset obj = Some c' /\ chain_bytes c' = obj.
Proof.
  intros psz c offset obj Hp Hc. unfold shm_write, chain_bytes.
  destruct (copy_to_shm_ok (S (length obj)) psz c (dropN offset obj) Hp) as [c' [E1 E2]].
  { pose proof (lenN_dropN offset obj). rewrite !lenN_length in H. lia. }
  exists c'. split; [exact E1|]. rewrite E2, Hc, takeN_dropN. reflexivity.
Qed.

Lemma prefix_split : forall (pre x have rest : bytes), pre ++ x = have ++ rest -> lenN pre <= lenN have ->
  exists m, have = pre ++ m /\ x = m ++ rest.
Proof.
  induction pre as [|a pre IH]; intros x have rest H Hl.
  - exists have. split; [reflexivity| exact H].
  - destruct have as [|b have]; [cbn [lenN] in Hl; lia|]. cbn [app] in H. injection H as -> H.
    cbn [lenN] in Hl. destruct (IH x have rest H ltac:(lia)) as [m [-> ->]]. exists m. split; reflexivity.
Qed.

Lemma copy_from_shm_ok : forall c pre have rest, pre ++ concat c = have ++ rest -> lenN pre <= lenN have ->
  copy_from_shm c (lenN pre) have = pre ++ concat c.
Proof.
  induction c as [|s r IH]; intros pre have rest H Hl; cbn [copy_from_shm concat] in *.
  - rewrite app_nil_r in *. destruct (prefix_split pre [] have rest ltac:(now rewrite app_nil_r) Hl) as [m [-> Hm]].
    destruct m; [now rewrite app_nil_r| discriminate].
  - destruct (lenN have <? lenN pre + lenN s) eqn:E.
    + destruct (prefix_split pre (s ++ concat r) have rest H Hl) as [m [-> Hm]].
      rewrite lenN_app in E.
      destruct (prefix_split m rest s (concat r) (eq_sym Hm) ltac:(lia)) as [t [-> _]].
      replace (lenN (pre ++ m) - lenN pre) with (lenN m) by (rewrite lenN_app; lia).
      rewrite dropN_app_exact.
      replace (lenN pre + lenN (m ++ t)) with (lenN (pre ++ m ++ t)) by (rewrite !lenN_app; lia).
      rewrite <- app_assoc.
      rewrite (IH (pre ++ m ++ t) (pre ++ m ++ t) (concat r)); [now rewrite <- !app_assoc| reflexivity | lia].
    + replace (lenN pre + lenN s) with (lenN (pre ++ s)) by (rewrite lenN_app; lia).
      rewrite (IH (pre ++ s) have rest); [now rewrite <- app_assoc| now rewrite <- app_assoc | rewrite lenN_app; lia].
Qed.

(* the reader: whatever prefix it already holds, one copyFromShm pass gives it exactly what the chain holds *)
Theorem shm_read_ok : forall c have rest, chain_bytes c = have ++ rest -> copy_from_shm c 0 have = chain_bytes c.
Proof.
  intros c have rest H. unfold chain_bytes in *.
  pose proof (copy_from_shm_ok c [] have rest H) as E. cbn [lenN app] in E. apply E. lia.
Qed.

(* writer delivers the object in two arbitrary instalments, the reader looks after the first and after the second *)
