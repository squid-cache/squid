(* SbufProofs.v — proofs about SbufModel.v (C48): representation invariant, per-method
   effect lemmas, refinement of every operation to operations on independent byte lists. *)
Require Import SquidV.Bytes SquidV.SbufModel.
Require Import SquidV.gen.Sbuf_gen.
Require Import ZifyBool ZifyN ZifyNat.
Local Open Scope N_scope.
Ltac Zify.zify_post_hook ::= Z.div_mod_to_equations.

Lemma dropN_all {A} n (l : list A) : lenN l <= n -> dropN n l = [].
Proof. exact (Bytes.dropN_all n l). Qed.

(* the window [off, off+len) of d *)
Definition window (off len : N) (d : bytes) : bytes := takeN len (dropN off d).

Lemma window_len off len (d : bytes) : off + len <= lenN d -> lenN (window off len d) = len.
Proof. unfold window. intros H. rewrite lenN_takeN, lenN_dropN. lia. Qed.
Lemma window_zero off (d : bytes) : window off 0 d = [].
Proof. apply takeN_0. Qed.
Lemma window_whole len (d : bytes) : lenN d = len -> window 0 len d = d.
Proof. unfold window. intros H. rewrite dropN_0. apply takeN_all. lia. Qed.
Lemma window_drop off len (d : bytes) : window 0 len (dropN off d) = window off len d.
Proof. unfold window. now rewrite dropN_0. Qed.
Lemma window_app off len (d x : bytes) : off + len <= lenN d -> window off len (d ++ x) = window off len d.
Proof. unfold window. intros H. rewrite dropN_app_le, takeN_app_le; rewrite ?lenN_dropN; (reflexivity || lia). Qed.
Lemma window_tail_app off len (d w : bytes) :
  off + len = lenN d -> window off (len + lenN w) (d ++ w) = window off len d ++ w.
Proof.
  unfold window. intros H. assert (L : lenN (dropN off d) = len) by (rewrite lenN_dropN; lia).
  rewrite dropN_app_le, takeN_app_ge, (takeN_all len) by lia.
  f_equal. apply takeN_all. lia.
Qed.
Lemma window_take off len (d : bytes) : window off len (takeN (off + len) d) = window off len d.
Proof. unfold window. rewrite dropN_takeN, takeN_takeN. f_equal. lia. Qed.
Lemma window_window off len o2 l2 (d : bytes) :
  o2 + l2 <= len -> window o2 l2 (window off len d) = window (off + o2) l2 d.
Proof. unfold window. intros H. rewrite dropN_takeN, takeN_takeN, dropN_dropN. f_equal. lia. Qed.
(* chop(pos0, n0) of a window, with both arguments clipped to what is there *)
Lemma window_clip off len (d : bytes) pos0 n0 :
  window (off + N.min pos0 len) (N.min n0 (len - N.min pos0 len)) d = takeN n0 (dropN pos0 (window off len d)).
Proof.
  unfold window. rewrite dropN_takeN, takeN_takeN, dropN_dropN.
  destruct (N.le_ge_cases pos0 len) as [H|H].
  - now rewrite (N.min_l pos0 len H).
  - replace (N.min n0 (len - pos0)) with 0 by lia. replace (N.min n0 (len - N.min pos0 len)) with 0 by lia.
    now rewrite !takeN_0.
Qed.

Lemma length_upd {A} (l : list A) i x : length (upd l i x) = length l.
Proof. revert i; induction l as [|y l IH]; intros [|i]; cbn [upd length]; auto. Qed.
Lemma nth_upd {A} (l : list A) i x d k : (i < length l)%nat ->
  nth k (upd l i x) d = if Nat.eqb k i then x else nth k l d.
Proof.
  revert i k; induction l as [|y l IH]; intros i k H; cbn [length] in H; [lia|].
  destruct i as [|i], k as [|k]; cbn [upd nth Nat.eqb]; auto. apply IH. lia.
Qed.
Lemma nth_upd_same {A} (l : list A) i x d : (i < length l)%nat -> nth i (upd l i x) d = x.
Proof. intros H. now rewrite nth_upd, Nat.eqb_refl. Qed.
Lemma nth_upd_other {A} (l : list A) i x d k : k <> i -> nth k (upd l i x) d = nth k l d.
Proof.
  revert i k; induction l as [|y l IH]; intros [|i] [|k] H; cbn [upd nth]; auto. contradiction.
Qed.
Lemma upd_upd {A} (l : list A) i x y : upd (upd l i x) i y = upd l i y.
Proof. revert i; induction l as [|z l IH]; intros [|i]; cbn [upd]; auto. now rewrite IH. Qed.
Lemma upd_oob {A} (l : list A) i x : (length l <= i)%nat -> upd l i x = l.
Proof. revert i; induction l as [|z l IH]; intros [|i] H; cbn [upd length] in *; auto; [lia|]. rewrite IH; auto. lia. Qed.
Lemma upd_same {A} (l : list A) i d : upd l i (nth i l d) = l.
Proof.
  revert i; induction l as [|x l IH]; intros [|i]; cbn [upd nth]; auto. now rewrite IH.
Qed.

Lemma setb_upd h id b : setb h id b = upd h id b.
Proof. revert id; induction h as [|x h IH]; intros [|id]; cbn [setb upd]; auto. now rewrite IH. Qed.
Lemma length_setb h id b : length (setb h id b) = length h.
Proof. rewrite setb_upd. apply length_upd. Qed.
Lemma getb_setb h id b k : (id < length h)%nat ->
  getb (setb h id b) k = if Nat.eqb k id then b else getb h k.
Proof. rewrite setb_upd. apply nth_upd. Qed.
Lemma getb_app_old h x k : (k < length h)%nat -> getb (h ++ x) k = getb h k.
Proof. unfold getb. intros H. now rewrite app_nth1. Qed.
Lemma getb_app_new h b : getb (h ++ [b]) (length h) = b.
Proof. unfold getb. rewrite app_nth2 by lia. now rewrite Nat.sub_diag. Qed.
Lemma getb_oob h k : (length h <= k)%nat -> getb h k = dead.
Proof. unfold getb. intros H. now apply nth_overflow. Qed.

Lemma length_lock h id : length (lock h id) = length h.
Proof. apply length_setb. Qed.
Lemma length_unlock h id : length (unlock h id) = length h.
Proof. unfold unlock. destruct (_ <=? _); apply length_setb. Qed.
Lemma length_set_data h id d : length (set_data h id d) = length h.
Proof. apply length_setb. Qed.

Lemma getb_lock h id k : (id < length h)%nat ->
  getb (lock h id) k = if Nat.eqb k id then mkBlob (bdata (getb h id)) (bcap (getb h id)) (blocks (getb h id) + 1)
                       else getb h k.
Proof. apply getb_setb. Qed.
Lemma getb_unlock h id k : (id < length h)%nat ->
  getb (unlock h id) k =
    if Nat.eqb k id then
      (if blocks (getb h id) <=? 1 then dead
       else mkBlob (bdata (getb h id)) (bcap (getb h id)) (blocks (getb h id) - 1))
    else getb h k.
Proof.
  intros H. unfold unlock. destruct (blocks (getb h id) <=? 1); rewrite getb_setb by assumption; reflexivity.
Qed.
Lemma getb_set_data h id d k : (id < length h)%nat ->
  getb (set_data h id d) k = if Nat.eqb k id then mkBlob d (bcap (getb h id)) (blocks (getb h id)) else getb h k.
Proof. apply getb_setb. Qed.

Lemma content_window h s : content h s = window (soff s) (slen s) (bdata (getb h (sstore s))).
Proof. reflexivity. Qed.
Lemma content_eq h h' s s' :
  sstore s' = sstore s -> soff s' = soff s -> slen s' = slen s ->
  bdata (getb h' (sstore s)) = bdata (getb h (sstore s)) -> content h' s' = content h s.
Proof. intros E1 E2 E3 E4. rewrite !content_window, E1, E2, E3, E4. reflexivity. Qed.

Definition dl (a b : nat) : N := if Nat.eqb a b then 1 else 0.
Fixpoint refs (vs : list sbuf) (id : nat) : N :=
  match vs with [] => 0 | s :: r => dl (sstore s) id + refs r id end.

Definition wf (h : heap) (s : sbuf) : Prop :=
  (sstore s < length h)%nat /\ soff s + slen s <= bsize (getb h (sstore s)).

(* ex: locks held by something other than the variables (the static InitialStore pointer on
   blob 0, Lockers, temporaries) *)
Record Inv (h : heap) (vs : list sbuf) (ex : nat -> N) : Prop := mkInv {
  inv_cnt : forall id, (id < length h)%nat -> blocks (getb h id) = refs vs id + ex id;
  inv_ex : forall id, (length h <= id)%nat -> ex id = 0;
  inv_wf : forall j, (j < length vs)%nat -> wf h (nth j vs sb0);
  inv_cap : forall id, (id < length h)%nat -> bsize (getb h id) <= bcap (getb h id);
  inv_capb : forall id, (id < length h)%nat -> bcap (getb h id) < two32 }.   (* capacity is a uint32 field *)

Lemma dl_eq a b : a = b -> dl a b = 1.
Proof. intros ->. unfold dl. now rewrite Nat.eqb_refl. Qed.
Lemma dl_neq a b : a <> b -> dl a b = 0.
Proof. intros H. unfold dl. destruct (Nat.eqb_spec a b); [contradiction|reflexivity]. Qed.

Lemma refs_upd vs i s' id : (i < length vs)%nat ->
  refs (upd vs i s') id + dl (sstore (nth i vs sb0)) id = refs vs id + dl (sstore s') id.
Proof.
  revert i; induction vs as [|y vs IH]; intros i H; cbn [length] in H; [lia|].
  destruct i as [|i]; cbn [upd refs nth]; [lia|].
  specialize (IH i ltac:(lia)). lia.
Qed.
Lemma refs_ge1 vs i id : (i < length vs)%nat -> dl (sstore (nth i vs sb0)) id <= refs vs id.
Proof.
  revert i; induction vs as [|y vs IH]; intros i H; cbn [length] in H; [lia|].
  destruct i as [|i]; cbn [refs nth]; [lia|]. specialize (IH i ltac:(lia)). lia.
Qed.
Lemma refs_ge2 vs i j id : (i < length vs)%nat -> (j < length vs)%nat -> i <> j ->
  dl (sstore (nth i vs sb0)) id + dl (sstore (nth j vs sb0)) id <= refs vs id.
Proof.
  revert i j; induction vs as [|y vs IH]; intros i j Hi Hj Hn; cbn [length] in *; [lia|].
  destruct i as [|i], j as [|j]; cbn [refs nth]; try lia.
  - pose proof (refs_ge1 vs j id ltac:(lia)). lia.
  - pose proof (refs_ge1 vs i id ltac:(lia)). lia.
  - specialize (IH i j ltac:(lia) ltac:(lia) ltac:(lia)). lia.
Qed.
Lemma refs_zero_nth vs id j : refs vs id = 0 -> (j < length vs)%nat -> sstore (nth j vs sb0) <> id.
Proof.
  intros R Hj E. pose proof (refs_ge1 vs j id Hj) as G. rewrite dl_eq in G by assumption. lia.
Qed.
(* a variable on a blob accounts for one of its locks *)
Lemma var_lock h vs ex j : Inv h vs ex -> (j < length vs)%nat ->
  1 + ex (sstore (nth j vs sb0)) <= blocks (getb h (sstore (nth j vs sb0))).
Proof.
  intros I Hj. destruct (inv_wf _ _ _ I j Hj) as [W _]. rewrite (inv_cnt _ _ _ I _ W).
  pose proof (refs_ge1 vs j (sstore (nth j vs sb0)) Hj) as G. rewrite dl_eq in G by reflexivity. lia.
Qed.
Lemma refs_oob h vs ex id : Inv h vs ex -> (length h <= id)%nat -> refs vs id = 0.
Proof.
  intros I H. assert (G : forall j, (j < length vs)%nat -> sstore (nth j vs sb0) <> id).
  { intros j Hj. destruct (inv_wf _ _ _ I j Hj) as [W _]. lia. }
  clear I. induction vs as [|y vs IH]; [reflexivity|]. cbn [refs].
  rewrite dl_neq by (apply (G 0%nat); cbn; lia).
  rewrite IH; [reflexivity|]. intros j Hj. apply (G (S j)). cbn. lia.
Qed.

Definition exadd (ex : nat -> N) (id : nat) : nat -> N := fun k => ex k + dl id k.

(* one blob is replaced; the locks held outside the variables change for that blob only *)
Lemma Inv_setb h vs ex ex' id b : Inv h vs ex -> (id < length h)%nat ->
  (forall k, k <> id -> ex' k = ex k) -> blocks b = refs vs id + ex' id ->
  (forall j, (j < length vs)%nat -> sstore (nth j vs sb0) = id ->
             soff (nth j vs sb0) + slen (nth j vs sb0) <= bsize b) ->
  bsize b <= bcap b -> bcap b < two32 ->
  Inv (setb h id b) vs ex'.
Proof.
  intros [I1 I2 I3 I4 I5] H Hex Hb Hv Hc Hc2. constructor.
  - intros k Hk. rewrite length_setb in Hk. rewrite getb_setb by assumption.
    destruct (Nat.eqb_spec k id) as [->|Hn]; [assumption|]. rewrite Hex by assumption. auto.
  - intros k Hk. rewrite length_setb in Hk. rewrite Hex by lia. auto.
  - intros j Hj. destruct (I3 j Hj) as [W1 W2]. split; [now rewrite length_setb|].
    rewrite getb_setb by assumption. destruct (Nat.eqb_spec (sstore (nth j vs sb0)) id); auto.
  - intros k Hk. rewrite length_setb in Hk. rewrite getb_setb by assumption.
    destruct (Nat.eqb_spec k id); auto.
  - intros k Hk. rewrite length_setb in Hk. rewrite getb_setb by assumption.
    destruct (Nat.eqb_spec k id); auto.
Qed.

Lemma Inv_lock h vs ex id : Inv h vs ex -> (id < length h)%nat -> Inv (lock h id) vs (exadd ex id).
Proof.
  intros I H. pose proof I as [I1 _ I3 I4 I5]. apply (Inv_setb h vs ex); unfold exadd; cbn [blocks bcap]; auto.
  - intros k Hn. rewrite dl_neq by auto. lia.
  - rewrite I1, dl_eq by auto. lia.
  - intros j Hj <-. apply I3. assumption.
  - apply I4. assumption.
Qed.

Lemma Inv_unlock h vs ex id : Inv h vs (exadd ex id) -> (id < length h)%nat -> Inv (unlock h id) vs ex.
Proof.
  intros I H. pose proof I as [I1 _ I3 I4 I5]. specialize (I1 id H). unfold exadd in I1. rewrite dl_eq in I1 by reflexivity.
  assert (E : forall k, k <> id -> ex k = exadd ex id k) by (intros k Hn; unfold exadd; rewrite dl_neq by auto; lia).
  unfold unlock. destruct (blocks (getb h id) <=? 1) eqn:B; apply (Inv_setb h vs (exadd ex id)); cbn [blocks bcap dead]; auto; try lia.
  - intros j Hj Ej. pose proof (var_lock h vs _ j I Hj) as V. rewrite Ej in V. unfold exadd in V. rewrite dl_eq in V by reflexivity. lia.
  - unfold bsize; cbn. lia.
  - unfold two32. lia.
  - intros j Hj <-. apply I3. assumption.
  - apply I4. assumption.
Qed.

Lemma Inv_set_data h vs ex id d : Inv h vs ex -> (id < length h)%nat -> lenN d <= bcap (getb h id) ->
  (forall j, (j < length vs)%nat -> sstore (nth j vs sb0) = id ->
             soff (nth j vs sb0) + slen (nth j vs sb0) <= lenN d) ->
  Inv (set_data h id d) vs ex.
Proof.
  intros I H Hc Hv. pose proof I as [I1 _ _ _ I5].
  apply (Inv_setb h vs ex); unfold bsize; cbn [blocks bcap bdata]; auto.
Qed.

(* v[i] takes over the temporary s', which already holds one lock on its blob; the lock v[i] held on
   its old blob is now an extra one *)
Lemma Inv_move h vs ex i s' : Inv h vs (exadd ex (sstore s')) -> (i < length vs)%nat -> wf h s' ->
  Inv h (upd vs i s') (exadd ex (sstore (nth i vs sb0))).
Proof.
  intros [I1 I2 I3 I4 I5] Hi W. unfold exadd in *. constructor; auto.
  - intros k Hk. rewrite I1 by assumption. pose proof (refs_upd vs i s' k Hi). lia.
  - intros k Hk. specialize (I2 k Hk). destruct (I3 i Hi) as [W' _]. rewrite dl_neq by lia. lia.
  - intros j Hj. rewrite length_upd in Hj. rewrite nth_upd by assumption.
    destruct (Nat.eqb j i); auto.
Qed.

Lemma Inv_new h vs ex c : Inv h vs ex -> c < two32 -> Inv (h ++ [mkBlob [] c 0]) vs ex.
Proof.
  intros I Hc. pose proof I as [I1 I2 I3 I4 I5].
  assert (G : forall k, (k < length (h ++ [mkBlob [] c 0]))%nat ->
            (k < length h)%nat /\ getb (h ++ [mkBlob [] c 0]) k = getb h k \/
            k = length h /\ getb (h ++ [mkBlob [] c 0]) k = mkBlob [] c 0).
  { intros k Hk. rewrite app_length in Hk; cbn [length] in Hk.
    destruct (Nat.eq_dec k (length h)) as [->|Hn]; [right; auto using getb_app_new|left].
    split; [lia|apply getb_app_old; lia]. }
  constructor.
  - intros k Hk. destruct (G k Hk) as [[L ->]|[-> ->]]; auto. cbn [blocks].
    rewrite (refs_oob h vs ex), I2 by (auto; lia). lia.
  - intros k Hk. rewrite app_length in Hk. apply I2. lia.
  - intros j Hj. destruct (I3 j Hj) as [W1 W2]. split; [rewrite app_length; lia|].
    rewrite getb_app_old by assumption. assumption.
  - intros k Hk. destruct (G k Hk) as [[L ->]|[-> ->]]; auto. unfold bsize; cbn. lia.
  - intros k Hk. destruct (G k Hk) as [[L ->]|[-> ->]]; auto.
Qed.

Definition others_same (h h' : heap) (vs : list sbuf) (i : nat) : Prop :=
  forall j, (j < length vs)%nat -> j <> i -> content h' (nth j vs sb0) = content h (nth j vs sb0).
(* blobs that are not `this`'s, or that have a second holder, keep their bytes *)
Definition pinned_same (h h' : heap) (sid : nat) : Prop :=
  forall k, (k < length h)%nat -> (k <> sid \/ 2 <= blocks (getb h k)) -> bdata (getb h' k) = bdata (getb h k).
Definition tail (h : heap) (s : sbuf) : Prop := soff s + slen s = bsize (getb h (sstore s)).
Definition sole (vs : list sbuf) (i : nat) (s' : sbuf) : Prop :=
  forall j, (j < length vs)%nat -> j <> i -> sstore (nth j vs sb0) <> sstore s'.

(* what every internal step guarantees, whether it returns or throws *)
Definition keeps (h : heap) (vs : list sbuf) (ex : nat -> N) (i : nat) (r : heap * sbuf) : Prop :=
  Inv (fst r) (upd vs i (snd r)) ex /\ content (fst r) (snd r) = content h (nth i vs sb0) /\
  others_same h (fst r) vs i /\ pinned_same h (fst r) (sstore (nth i vs sb0)) /\
  (length h <= length (fst r))%nat.

Lemma keeps_intro h vs ex i h' s' :
  Inv h' (upd vs i s') ex -> content h' s' = content h (nth i vs sb0) ->
  others_same h h' vs i -> pinned_same h h' (sstore (nth i vs sb0)) -> (length h <= length h')%nat ->
  keeps h vs ex i (h', s').
Proof. unfold keeps; cbn [fst snd]; auto. Qed.

Lemma keeps_refl h vs ex i : Inv h vs ex -> keeps h vs ex i (h, nth i vs sb0).
Proof.
  intros I. unfold keeps; cbn [fst snd]. rewrite upd_same.
  split; [assumption|]. split; [reflexivity|]. split; [intros j _ _; reflexivity|].
  split; [intros k _ _; reflexivity|lia].
Qed.

Lemma keeps_same_var h vs ex i h1 : keeps h vs ex i (h1, nth i vs sb0) -> Inv h1 vs ex.
Proof. intros [J _]. cbn [fst snd] in J. now rewrite upd_same in J. Qed.

(* a step that leaves `this` where it is, followed by any step *)
Lemma keeps_trans h vs ex i h1 r : (i < length vs)%nat ->
  keeps h vs ex i (h1, nth i vs sb0) -> keeps h1 vs ex i r ->
  (2 <= blocks (getb h (sstore (nth i vs sb0))) -> 2 <= blocks (getb h1 (sstore (nth i vs sb0)))) ->
  keeps h vs ex i r.
Proof.
  intros Hi (A1 & A2 & A3 & A4 & A5) (B1 & B2 & B3 & B4 & B5) Hbl. cbn [fst snd] in *.
  unfold keeps. split; [exact B1|]. split; [congruence|]. split; [|split].
  - intros j Hj Hn. rewrite B3 by assumption. auto.
  - intros k Hk Hp. rewrite B4; [apply A4; assumption|lia|].
    destruct Hp as [Hp|Hp]; [left; assumption|].
    destruct (Nat.eq_dec k (sstore (nth i vs sb0))) as [->|]; [right; auto|left; assumption].
  - lia.
Qed.

(* r keeps the invariant with variable i replaced by the new `this`, whose contents are c, and
   leaves every other variable's contents alone *)
Definition sets (h : heap) (vs : list sbuf) (ex : nat -> N) (i : nat) (c : bytes) (r : heap * sbuf) : Prop :=
  Inv (fst r) (upd vs i (snd r)) ex /\ others_same h (fst r) vs i /\
  content (fst r) (snd r) = c /\ (length h <= length (fst r))%nat.

Lemma keeps_sets h vs ex i r : keeps h vs ex i r -> sets h vs ex i (content h (nth i vs sb0)) r.
Proof. intros (K1 & K2 & K3 & _ & K5). exact (conj K1 (conj K3 (conj K2 K5))). Qed.

Lemma sets_trans h vs ex i c1 r1 c2 r2 : (i < length vs)%nat ->
  sets h vs ex i c1 r1 -> sets (fst r1) (upd vs i (snd r1)) ex i c2 r2 -> sets h vs ex i c2 r2.
Proof.
  intros Hi (A1 & A2 & _ & A4) (B1 & B2 & B3 & B4). rewrite upd_upd in B1.
  split; [exact B1|]. split; [|split; [exact B3|lia]].
  intros j Hj Hn. specialize (B2 j). rewrite length_upd, nth_upd_other in B2 by assumption.
  rewrite B2 by assumption. auto.
Qed.

(* RS h vs ex i c_ok c_throw r: r keeps the invariant with variable i replaced by the new `this`,
   leaves every other variable's contents alone, and the new contents of i are c_ok on return,
   c_throw on throw; Undef is impossible *)
Definition RS (h : heap) (vs : list sbuf) (ex : nat -> N) (i : nat) (c_ok c_throw : bytes)
              (r : res (heap * sbuf)) : Prop :=
  match r with
  | Ok x => Inv (fst x) (upd vs i (snd x)) ex /\ others_same h (fst x) vs i /\
            content (fst x) (snd x) = c_ok /\ (length h <= length (fst x))%nat
  | Throw x => Inv (fst x) (upd vs i (snd x)) ex /\ others_same h (fst x) vs i /\
               content (fst x) (snd x) = c_throw /\ (length h <= length (fst x))%nat
  | Undef => False
  end.

Lemma content_other_blob h h' s : bdata (getb h' (sstore s)) = bdata (getb h (sstore s)) -> content h' s = content h s.
Proof. intros E. rewrite !content_window, E. reflexivity. Qed.

Lemma wf_content_len h s : wf h s -> lenN (content h s) = slen s.
Proof. intros [_ W]. rewrite content_window. apply window_len. exact W. Qed.

(* dropping a lock keeps the bytes of every blob that still has a holder *)
Lemma bdata_unlock h id k : (id < length h)%nat -> k <> id \/ 2 <= blocks (getb h id) ->
  bdata (getb (unlock h id) k) = bdata (getb h k).
Proof.
  intros H Hk. rewrite getb_unlock by assumption. destruct (Nat.eqb_spec k id) as [->|]; [|reflexivity].
  destruct (blocks (getb h id) <=? 1) eqn:B; [lia|reflexivity].
Qed.

(* dropping an extra lock never changes what the variables hold *)
Lemma unlock_extra h vs ex id : Inv h vs (exadd ex id) -> (id < length h)%nat ->
  Inv (unlock h id) vs ex /\
  forall j, (j < length vs)%nat -> content (unlock h id) (nth j vs sb0) = content h (nth j vs sb0).
Proof.
  intros I H. split; [apply Inv_unlock; assumption|].
  intros j Hj. apply content_other_blob, bdata_unlock; [assumption|].
  destruct (Nat.eq_dec (sstore (nth j vs sb0)) id) as [E|]; [right|left; assumption].
  pose proof (var_lock h vs _ j I Hj) as V. rewrite E in V. unfold exadd in V. rewrite dl_eq in V by reflexivity. lia.
Qed.

(* v[d] takes over the temporary rv and lets its old blob go *)
Lemma move_var h vs ex d rv : Inv h vs (exadd ex (sstore rv)) -> (d < length vs)%nat -> wf h rv ->
  Inv (unlock h (sstore (nth d vs sb0))) (upd vs d rv) ex /\
  forall k, (k < length vs)%nat ->
    content (unlock h (sstore (nth d vs sb0))) (nth k (upd vs d rv) sb0) = content h (nth k (upd vs d rv) sb0).
Proof.
  intros I Hd W. destruct (inv_wf _ _ _ I d Hd) as [Wo _].
  destruct (unlock_extra _ _ _ _ (Inv_move _ _ _ d rv I Hd W) Wo) as [I2 C]. rewrite length_upd in C. auto.
Qed.

Lemma mb_append_ok h id p n h' : mb_append h id p n = Ok h' ->
  (n = 0 /\ h' = h) \/
  (0 < n /\ n <= bcap (getb h id) - bsize (getb h id) /\ lenN (read_src h p n) = n /\
   h' = set_data h id (bdata (getb h id) ++ read_src h p n)).
Proof.
  unfold mb_append, mb_willFit, mb_spaceSize. destruct (n =? 0) eqn:E0; [intros [= <-]; left; split; [lia|reflexivity]|].
  destruct (n <=? _) eqn:E1; cbn [negb]; [|discriminate].
  destruct (lenN (read_src h p n) <? n) eqn:E2; [discriminate|]. intros [= <-]. right.
  assert (lenN (read_src h p n) <= n).
  { destruct p; cbn [read_src]; rewrite lenN_takeN; lia. }
  repeat split; try lia.
Qed.
Lemma mb_append_throw h id p n h' : mb_append h id p n = Throw h' -> h' = h.
Proof.
  unfold mb_append. destruct (n =? 0); [discriminate|]. destruct (negb _); [now intros [= <-]|].
  destruct (_ <? _); discriminate.
Qed.

(* h' is h with one more blob, b, which no variable refers to *)
Definition fresh (h h' : heap) (b : blob) : Prop :=
  length h' = S (length h) /\ (forall k, (k < length h)%nat -> getb h' k = getb h k) /\ getb h' (length h) = b.

(* MemBlob::Pointer newbuf = new MemBlob(n) *)
Lemma new_locked h vs ex c : Inv h vs ex -> c < two32 ->
  Inv (lock (h ++ [mkBlob [] c 0]) (length h)) vs (exadd ex (length h)) /\
  fresh h (lock (h ++ [mkBlob [] c 0]) (length h)) (mkBlob [] c 1).
Proof.
  intros I Hc. assert (L : length (h ++ [mkBlob [] c 0]) = S (length h)) by (rewrite app_length; cbn [length]; lia).
  split; [apply Inv_lock; [eapply Inv_new; eassumption|lia]|].
  unfold fresh. rewrite length_lock. split; [exact L|]. split.
  - intros k Hk. rewrite getb_lock by lia. destruct (Nat.eqb_spec k (length h)); [lia|]. now apply getb_app_old.
  - rewrite getb_lock, Nat.eqb_refl, getb_app_new by lia. reflexivity.
Qed.

(* newbuf->append(buf(), length()): the new blob now holds a copy of this's bytes *)
Lemma reAlloc_copy h vs ex i c h2 : Inv h vs ex -> (i < length vs)%nat ->
  Inv h2 vs (exadd ex (length h)) -> fresh h h2 (mkBlob [] c 1) ->
  match (if 0 <? slen (nth i vs sb0)
         then mb_append h2 (length h) (SPtr (sstore (nth i vs sb0)) (soff (nth i vs sb0))) (slen (nth i vs sb0))
         else Ok h2) with
  | Ok h3 => Inv h3 vs (exadd ex (length h)) /\ fresh h h3 (mkBlob (content h (nth i vs sb0)) c 1)
  | Throw h3 => h3 = h2
  | Undef => False
  end.
Proof.
  intros I Hi I2 (L2 & G2 & G2n). set (s := nth i vs sb0). pose proof (inv_wf _ _ _ I i Hi) as W. fold s in W.
  pose proof (wf_content_len h s W) as Lc. destruct W as [W1 W2].
  assert (Rd : read_src h2 (SPtr (sstore s) (soff s)) (slen s) = content h s) by (cbn [read_src]; now rewrite G2).
  destruct (0 <? slen s) eqn:El.
  - destruct (mb_append h2 (length h) _ (slen s)) as [h3|h3|] eqn:E3.
    + apply mb_append_ok in E3. destruct E3 as [[E _]|(_ & Hfit & _ & ->)]; [lia|].
      rewrite Rd, G2n in *. unfold bsize in Hfit. cbn [bdata bcap app lenN] in *. split.
      * apply Inv_set_data; [assumption|lia|rewrite G2n; cbn [bcap]; lia|].
        intros j Hj E. destruct (inv_wf _ _ _ I j Hj) as [Wj _]. lia.
      * unfold fresh. rewrite length_set_data. split; [exact L2|]. split.
        -- intros k Hk. rewrite getb_set_data by lia. destruct (Nat.eqb_spec k (length h)); [lia|auto].
        -- now rewrite getb_set_data, Nat.eqb_refl, G2n by lia.
    + now apply mb_append_throw in E3.
    + unfold mb_append in E3. destruct (slen s =? 0); [discriminate|]. destruct (negb _); [discriminate|].
      rewrite Rd, Lc, N.ltb_irrefl in E3. discriminate.
  - split; [exact I2|]. rewrite content_window. replace (slen s) with 0 by lia. rewrite window_zero.
    unfold fresh. auto.
Qed.

Section Methods.
Variable alloc_cap : N -> N.

Lemma cap32_lt n : cap32 alloc_cap n < two32.
Proof. apply N.mod_lt. discriminate. Qed.

Lemma reAlloc_spec h vs ex i ns : Inv h vs ex -> (i < length vs)%nat ->
  let s := nth i vs sb0 in
  match reAlloc alloc_cap h s ns with
  | Ok r => keeps h vs ex i r /\ tail (fst r) (snd r) /\ sole vs i (snd r) /\ slen (snd r) = slen s /\
            soff (snd r) = 0 /\ ns <= maxSize /\ cap32 alloc_cap ns = bcap (getb (fst r) (sstore (snd r)))
  | Throw r => keeps h vs ex i r
  | Undef => False
  end.
Proof.
  intros I Hi s. unfold reAlloc. destruct (maxSize <? ns) eqn:Emax; [apply keeps_refl; assumption|].
  unfold mb_new. destruct (new_locked h vs ex _ I (cap32_lt ns)) as [I2 F2].
  pose proof (reAlloc_copy h vs ex i _ _ I Hi I2 F2) as Cp. fold s in Cp.
  pose proof (wf_content_len h s (inv_wf _ _ _ I i Hi)) as Lc.
  destruct (inv_wf _ _ _ I i Hi) as [W1 _]. fold s in W1.
  set (nid := length h) in *. destruct F2 as (L2 & G2 & _).
  destruct (if 0 <? slen s then _ else _) as [h3|h3|]; [| |contradiction].
  - cbn [fst snd]. destruct Cp as (I3 & L3 & G3 & G3n). fold nid in L3, G3, G3n.
    set (s' := mkSBuf nid 0 (slen s)).
    assert (C3 : content h3 s' = content h s).
    { rewrite content_window. cbn [sstore soff slen s']. rewrite G3n. cbn [bdata]. now apply window_whole. }
    destruct (move_var h3 vs ex i s' I3 Hi) as [I5 Ct].
    { split; cbn [sstore soff slen s']; [lia|]. rewrite G3n. unfold bsize; cbn [bdata]. lia. }
    fold s in I5, Ct. split.
    + apply keeps_intro; [assumption| | | |rewrite length_unlock; lia].
      * specialize (Ct i Hi). rewrite nth_upd_same in Ct by assumption. now rewrite Ct.
      * intros j Hj Hn. specialize (Ct j Hj). rewrite nth_upd_other in Ct by assumption. rewrite Ct.
        apply content_other_blob. destruct (inv_wf _ _ _ I j Hj) as [Wj _]. now rewrite G3.
      * intros k Hk Hp. fold s in Hp. rewrite bdata_unlock, G3; auto; [lia|].
        destruct (Nat.eq_dec k (sstore s)) as [->|]; [right|left; assumption].
        rewrite G3 by assumption. destruct Hp; [contradiction|assumption].
    + assert (Gn : getb (unlock h3 (sstore s)) nid = getb h3 nid).
      { rewrite getb_unlock by lia. destruct (Nat.eqb_spec nid (sstore s)); [lia|reflexivity]. }
      unfold tail. cbn [sstore soff slen s']. rewrite Gn, G3n. unfold bsize. cbn [bdata bcap].
      repeat split; auto; try lia.
      intros j Hj Hn. destruct (inv_wf _ _ _ I j Hj) as [Wj _]. cbn [sstore s']. lia.
  - (* the copy threw: the new blob is destroyed again *)
    subst h3.
    assert (G3 : forall k, (k < nid)%nat -> getb (unlock (lock (h ++ [mkBlob [] (cap32 alloc_cap ns) 0]) nid) nid) k = getb h k).
    { intros k Hk. rewrite getb_unlock by lia. destruct (Nat.eqb_spec k nid); [lia|auto]. }
    apply keeps_intro.
    + unfold s. rewrite upd_same.
      apply Inv_unlock; [assumption|lia].
    + apply content_other_blob. now rewrite G3.
    + intros j Hj _. apply content_other_blob. destruct (inv_wf _ _ _ I j Hj) as [Wj _]. now rewrite G3.
    + intros k Hk _. now rewrite G3.
    + rewrite length_unlock. lia.
Qed.
Lemma Inv_upd_fields h vs ex i s' : Inv h vs ex -> (i < length vs)%nat ->
  sstore s' = sstore (nth i vs sb0) -> soff s' + slen s' <= bsize (getb h (sstore s')) ->
  Inv h (upd vs i s') ex.
Proof.
  intros I Hi Es W. pose proof I as [I1 I2 I3 I4 I5]. constructor; auto.
  - intros k Hk. rewrite I1 by assumption. pose proof (refs_upd vs i s' k Hi) as R. rewrite Es in R. lia.
  - intros j Hj. rewrite length_upd in Hj. rewrite nth_upd by assumption.
    destruct (Nat.eqb_spec j i) as [->|]; [|auto]. destruct (I3 i Hi) as [W1 _]. split; [rewrite Es; assumption|assumption].
Qed.

Lemma Inv_set_data_upd h vs ex i s' d : Inv h vs ex -> (i < length vs)%nat ->
  sstore s' = sstore (nth i vs sb0) -> lenN d <= bcap (getb h (sstore s')) ->
  soff s' + slen s' <= lenN d ->
  (forall j, (j < length vs)%nat -> j <> i -> sstore (nth j vs sb0) = sstore s' ->
             soff (nth j vs sb0) + slen (nth j vs sb0) <= lenN d) ->
  Inv (set_data h (sstore s') d) (upd vs i s') ex.
Proof.
  intros I Hi Es Hc Hs' Ho. destruct (inv_wf _ _ _ I i Hi) as [Wi _]. rewrite <- Es in Wi.
  (* v[i] is parked on an empty window while the blob changes *)
  set (e := mkSBuf (sstore s') 0 0).
  assert (I1 : Inv h (upd vs i e) ex) by (apply Inv_upd_fields; cbn [sstore soff slen e]; auto; lia).
  assert (I2 : Inv (set_data h (sstore s') d) (upd vs i e) ex).
  { apply Inv_set_data; auto. intros j Hj. rewrite length_upd in Hj. rewrite nth_upd by assumption.
    destruct (Nat.eqb_spec j i) as [->|Hn]; [intros _; cbn [soff slen e]; lia|auto]. }
  rewrite <- (upd_upd vs i e s'). apply Inv_upd_fields; rewrite ?length_upd, ?nth_upd_same by assumption; auto.
  rewrite getb_set_data, Nat.eqb_refl by assumption. exact Hs'.
Qed.

(* a sole owner: nobody else refers to the blob and nothing else holds it *)
Lemma sole_owner h vs ex i : Inv h vs ex -> (i < length vs)%nat ->
  blocks (getb h (sstore (nth i vs sb0))) = 1 ->
  sole vs i (nth i vs sb0) /\ ex (sstore (nth i vs sb0)) = 0.
Proof.
  intros I Hi B. destruct (inv_wf _ _ _ I i Hi) as [W _].
  pose proof (inv_cnt _ _ _ I _ W) as C. rewrite B in C.
  pose proof (refs_ge1 vs i (sstore (nth i vs sb0)) Hi) as G1. rewrite dl_eq in G1 by reflexivity.
  split; [|lia]. intros j Hj Hn E.
  pose proof (refs_ge2 vs i j (sstore (nth i vs sb0)) Hi Hj ltac:(auto)) as G2.
  rewrite !dl_eq in G2 by auto. lia.
Qed.

(* in-place rewrite of this's blob by its sole owner, or extension at the end of a shared one *)
Lemma inplace_step h vs ex i s' d : Inv h vs ex -> (i < length vs)%nat ->
  sstore s' = sstore (nth i vs sb0) -> lenN d <= bcap (getb h (sstore s')) ->
  soff s' + slen s' <= lenN d ->
  (sole vs i s' \/ exists x, d = bdata (getb h (sstore s')) ++ x) ->
  sets h vs ex i (window (soff s') (slen s') d) (set_data h (sstore s') d, s').
Proof.
  intros I Hi Es Hc Hs' Hd.
  destruct (inv_wf _ _ _ I i Hi) as [Wi _]. rewrite <- Es in Wi.
  assert (Ho : forall j, (j < length vs)%nat -> j <> i -> sstore (nth j vs sb0) = sstore s' ->
           soff (nth j vs sb0) + slen (nth j vs sb0) <= lenN d /\
           window (soff (nth j vs sb0)) (slen (nth j vs sb0)) d = content h (nth j vs sb0)).
  { intros j Hj Hn E. destruct Hd as [B|[x ->]].
    - exfalso. apply (B j Hj Hn). assumption.
    - destruct (inv_wf _ _ _ I j Hj) as [_ W2]. rewrite E in W2. unfold bsize in W2.
      split; [rewrite lenN_app; lia|]. rewrite window_app by assumption. rewrite content_window, E. reflexivity. }
  split; [|split; [|split]]; cbn [fst snd].
  - apply Inv_set_data_upd; auto. intros j Hj Hn E. apply Ho; assumption.
  - intros j Hj Hn. rewrite (content_window (set_data _ _ _)), getb_set_data by assumption.
    destruct (Nat.eqb_spec (sstore (nth j vs sb0)) (sstore s')) as [E|]; [|reflexivity].
    cbn [bdata]. apply Ho; assumption.
  - rewrite content_window, getb_set_data, Nat.eqb_refl by assumption. reflexivity.
  - rewrite length_set_data. lia.
Qed.

Lemma inplace_keeps h vs ex i s' d : Inv h vs ex -> (i < length vs)%nat ->
  sstore s' = sstore (nth i vs sb0) -> lenN d <= bcap (getb h (sstore s')) ->
  soff s' + slen s' <= lenN d ->
  window (soff s') (slen s') d = content h (nth i vs sb0) ->
  (blocks (getb h (sstore s')) = 1 \/ exists x, d = bdata (getb h (sstore s')) ++ x) ->
  (2 <= blocks (getb h (sstore s')) -> d = bdata (getb h (sstore s'))) ->
  keeps h vs ex i (set_data h (sstore s') d, s').
Proof.
  intros I Hi Es Hc Hs' Hw Hd Hp.
  destruct (inv_wf _ _ _ I i Hi) as [Wi _]. rewrite <- Es in Wi.
  destruct (inplace_step h vs ex i s' d I Hi Es Hc Hs') as (K1 & K3 & K2 & K4).
  { destruct Hd as [B|X]; [left|right; exact X]. rewrite Es in B.
    destruct (sole_owner h vs ex i I Hi B) as [S _]. intros j Hj Hn E. apply (S j Hj Hn). congruence. }
  apply keeps_intro; auto.
  - exact (eq_trans K2 Hw).
  - intros k Hk Hpin. rewrite getb_set_data by assumption.
    destruct (Nat.eqb_spec k (sstore s')) as [->|]; [|reflexivity]. cbn [bdata].
    destruct Hpin as [Hpin|Hpin]; [congruence|]. auto.
Qed.

Definition clamp_newsize (s : sbuf) (ns0 : N) : N :=
  if (ns0 =? npos) || (ns0 <? slen s) then slen s else ns0.

Lemma cow_spec h vs ex i ns0 : Inv h vs ex -> (i < length vs)%nat ->
  let s := nth i vs sb0 in
  match cow alloc_cap h s ns0 with
  | Ok r => keeps h vs ex i r /\ tail (fst r) (snd r) /\ sole vs i (snd r) /\ slen (snd r) = slen s /\
            ((forall n, n <= maxSize -> n <= cap32 alloc_cap n) ->
             clamp_newsize s ns0 - slen s <= bcap (getb (fst r) (sstore (snd r))) - bsize (getb (fst r) (sstore (snd r))))
  | Throw r => keeps h vs ex i r
  | Undef => False
  end.
Proof.
  intros I Hi s. unfold cow. fold (clamp_newsize s ns0). set (ns := clamp_newsize s ns0).
  assert (Hns : slen s <= ns).
  { unfold ns, clamp_newsize. destruct ((ns0 =? npos) || (ns0 <? slen s)) eqn:E; lia. }
  destruct (inv_wf _ _ _ I i Hi) as [W1 W2]. fold s in W1, W2.
  pose proof (inv_cap _ _ _ I _ W1) as Cap.
  (* reallocation, from h itself or from h after syncSize *)
  assert (Re : forall h1, keeps h vs ex i (h1, s) ->
                 (2 <= blocks (getb h (sstore s)) -> 2 <= blocks (getb h1 (sstore s))) ->
                 match reAlloc alloc_cap h1 s ns with
                 | Ok r => keeps h vs ex i r /\ tail (fst r) (snd r) /\ sole vs i (snd r) /\ slen (snd r) = slen s /\
                           ((forall n, n <= maxSize -> n <= cap32 alloc_cap n) ->
                            ns - slen s <= bcap (getb (fst r) (sstore (snd r))) - bsize (getb (fst r) (sstore (snd r))))
                 | Throw r => keeps h vs ex i r
                 | Undef => False
                 end).
  { intros h1 K1 Hb. pose proof (reAlloc_spec h1 vs ex i ns (keeps_same_var _ _ _ _ _ K1) Hi) as R.
    cbn zeta in R. fold s in R.
    assert (Tr : forall r, keeps h1 vs ex i r -> keeps h vs ex i r)
      by (intros r K; exact (keeps_trans h vs ex i h1 r Hi K1 K Hb)).
    destruct (reAlloc alloc_cap h1 s ns) as [r|r|]; [|auto|assumption].
    destruct R as (K & T & So & L & O & Mx & Cp). split; [auto|]. repeat split; auto.
    intros A. unfold tail in T. rewrite <- T, <- Cp, O, L. specialize (A ns Mx). lia. }
  destruct (blocks (getb h (sstore s)) =? 1) eqn:B; [|apply Re; [apply keeps_refl; assumption|auto]].
  apply N.eqb_eq in B.
  destruct (bsize (getb h (sstore s)) <? soff s + slen s) eqn:Esz; [lia|].
  set (d := bdata (getb h (sstore s))) in *.
  set (h1 := set_data h (sstore s) (takeN (soff s + slen s) d)).
  assert (Ld : lenN (takeN (soff s + slen s) d) = soff s + slen s).
  { rewrite lenN_takeN. unfold bsize in W2. fold d in W2. lia. }
  assert (K1 : keeps h vs ex i (h1, s)).
  { unfold h1. unfold bsize in Cap, W2. fold d in Cap, W2.
    apply (inplace_keeps h vs ex i s (takeN (soff s + slen s) d) I Hi); try lia.
    - reflexivity.
    - now rewrite window_take. }
  assert (G1 : getb h1 (sstore s) = mkBlob (takeN (soff s + slen s) d) (bcap (getb h (sstore s))) 1).
  { unfold h1. rewrite getb_set_data, Nat.eqb_refl, B by assumption. reflexivity. }
  destruct (sole_owner h vs ex i I Hi B) as [So _]. fold s in So.
  destruct (ns - slen s <=? bcap (getb h (sstore s)) - (soff s + slen s)) eqn:Efit.
  { split; [exact K1|]. cbn [fst snd]. unfold tail, bsize. rewrite G1; cbn [bdata bcap]. repeat split; auto; lia. }
  destruct (ns - slen s <=? bcap (getb h (sstore s)) - (soff s + slen s) + soff s) eqn:Eshift; [|apply Re; [exact K1|lia]].
  cbn [fst snd]. rewrite G1. cbn [bdata].
  set (s' := mkSBuf (sstore s) 0 (slen s)).
  assert (L1 : length h1 = length h) by (unfold h1; apply length_set_data).
  pose proof (keeps_same_var _ _ _ _ _ K1) as J1.
  assert (Ldd : lenN (dropN (soff s) (takeN (soff s + slen s) d)) = slen s) by (rewrite lenN_dropN, Ld; lia).
  assert (K2 : keeps h1 vs ex i (set_data h1 (sstore s') (dropN (soff s) (takeN (soff s + slen s) d)), s')).
  { unfold bsize in Cap, W2. fold d in Cap, W2.
    apply (inplace_keeps h1 vs ex i s' _ J1 Hi); cbn [sstore soff slen s']; fold s; rewrite ?G1; cbn [bcap blocks bdata]; try lia.
    rewrite window_drop, content_window, G1. reflexivity. }
  cbn [sstore s'] in K2. split.
  - apply (keeps_trans h vs ex i h1 _ Hi K1 K2). intros Hb. fold s in Hb. lia.
  - unfold tail. cbn [sstore soff slen s']. rewrite getb_set_data, Nat.eqb_refl by lia.
    unfold bsize; cbn [bdata bcap]. rewrite G1; cbn [bcap]. repeat split; auto; lia.
Qed.

Lemma rawSpace_spec h vs ex i n : Inv h vs ex -> (i < length vs)%nat ->
  let s := nth i vs sb0 in
  match rawSpace alloc_cap h s n with
  | Ok r => keeps h vs ex i r /\ slen (snd r) = slen s /\ (0 < n -> tail (fst r) (snd r))
  | Throw r => keeps h vs ex i r
  | Undef => False
  end.
Proof.
  intros I Hi s. unfold rawSpace.
  destruct (maxSize <? n); [apply keeps_refl; assumption|].
  destruct (sub32 maxSize n <? slen s); [apply keeps_refl; assumption|].
  destruct (mb_canAppend _ _ _) eqn:Ec.
  { split; [apply keeps_refl; assumption|]. split; [reflexivity|].
    cbn [fst snd]. unfold mb_canAppend in Ec. unfold tail. lia. }
  pose proof (cow_spec h vs ex i (add32 n (slen s)) I Hi) as C. cbn zeta in C. fold s in C.
  destruct (cow alloc_cap h s (add32 n (slen s))) as [r|r|]; [|assumption|assumption].
  destruct C as (K & T & _ & L & _). auto.
Qed.

(* a `const char *` argument that may be read after rawSpace() *)
Definition src_ok (h : heap) (s : sbuf) (p : src) (n : N) : Prop :=
  match p with
  | SLit w => n <= lenN w
  | SPtr sid so => n = 0 \/ ((sid < length h)%nat /\ so + n <= bsize (getb h sid) /\
                            (sid <> sstore s \/ 2 <= blocks (getb h sid)))
  end.

Lemma read_src_len h s p n : src_ok h s p n -> lenN (read_src h p n) = n.
Proof.
  destruct p as [w|sid so]; cbn [src_ok read_src]; intros H.
  - rewrite lenN_takeN. lia.
  - destruct H as [->|(H1 & H2 & _)]; [now rewrite takeN_0|].
    fold (window so n (bdata (getb h sid))). apply window_len. exact H2.
Qed.

(* this sits at the end of its blob's used area and w fits behind it *)
Lemma append_at_tail h vs ex i w : Inv h vs ex -> (i < length vs)%nat ->
  let s := nth i vs sb0 in
  tail h s -> lenN w <= bcap (getb h (sstore s)) - bsize (getb h (sstore s)) ->
  sets h vs ex i (content h s ++ w)
       (set_data h (sstore s) (bdata (getb h (sstore s)) ++ w), mkSBuf (sstore s) (soff s) (slen s + lenN w)).
Proof.
  intros I Hi s T Hfit. destruct (inv_wf _ _ _ I i Hi) as [W1 _]. pose proof (inv_cap _ _ _ I _ W1) as Cap.
  fold s in W1, Cap. unfold tail, bsize in *. rewrite content_window, <- window_tail_app by assumption.
  apply (inplace_step h vs ex i (mkSBuf (sstore s) (soff s) (slen s + lenN w))); cbn [sstore soff slen];
    rewrite ?lenN_app; auto; try lia.
  right. exists w. reflexivity.
Qed.

Lemma lowAppend_spec h vs ex i p n : Inv h vs ex -> (i < length vs)%nat ->
  let s := nth i vs sb0 in
  src_ok h s p n ->
  RS h vs ex i (content h s ++ read_src h p n) (content h s) (lowAppend alloc_cap h s p n).
Proof.
  intros I Hi s Hsrc. unfold lowAppend.
  pose proof (rawSpace_spec h vs ex i n I Hi) as R. cbn zeta in R. fold s in R.
  destruct (rawSpace alloc_cap h s n) as [[h1 s1]|[h1 s1]|]; [|exact (keeps_sets _ _ _ _ _ R)|contradiction].
  destruct R as (K & L & T). cbn [fst snd] in L, T. pose proof (keeps_sets _ _ _ _ _ K) as S1. fold s in S1.
  (* the bytes the code reads now are the bytes the caller pointed at *)
  assert (Rd : read_src h1 p n = read_src h p n).
  { destruct K as (_ & _ & _ & J4 & _). cbn [fst snd] in J4. fold s in J4.
    destruct p as [w|sid so]; [reflexivity|]. cbn [read_src src_ok] in *.
    destruct Hsrc as [->|(H1 & H2 & H3)]; [now rewrite !takeN_0|]. rewrite J4; auto. }
  pose proof (read_src_len h s p n Hsrc) as Rl.
  unfold mb_append. destruct (n =? 0) eqn:E0.
  { apply N.eqb_eq in E0. subst n. cbn [RS].
    assert (Es : mkSBuf (sstore s1) (soff s1) (slen s1 + 0) = s1) by (destruct s1; cbn; f_equal; lia).
    rewrite Es. apply lenN_nil_iff in Rl. rewrite Rl, app_nil_r. exact S1. }
  destruct (negb (mb_willFit (getb h1 (sstore s1)) n)) eqn:Efit; [exact S1|].
  rewrite Rd, Rl, N.ltb_irrefl. unfold mb_willFit, mb_spaceSize in Efit.
  apply (sets_trans h vs ex i _ (h1, s1) _ _ Hi S1). cbn [fst snd].
  pose proof (append_at_tail h1 (upd vs i s1) ex i (read_src h p n)) as A.
  cbn zeta in A. rewrite nth_upd_same, Rl in A by assumption.
  destruct S1 as (J1 & _ & J2 & _). cbn [fst snd] in J1, J2. rewrite <- J2.
  apply A; [exact J1|now rewrite length_upd|apply T; lia|lia].
Qed.
End Methods.

Definition ex0 : nat -> N := fun k => dl 0 k.       (* the static InitialStore pointer *)
Definition absv (st : state) : list bytes := map (content (hp st)) (vars st).
Definition SInv (st : state) : Prop := Inv (hp st) (vars st) ex0.

Lemma content_sb0 h : content h sb0 = [].
Proof. rewrite content_window. apply window_zero. Qed.
Lemma nth_map_content h vs k : nth k (map (content h) vs) [] = content h (nth k vs sb0).
Proof. rewrite <- (content_sb0 h). apply map_nth. Qed.
Lemma nth_absv st j : nth j (absv st) [] = content (hp st) (getv st j).
Proof. unfold absv, getv. rewrite <- (content_sb0 (hp st)). apply map_nth. Qed.

Lemma absv_upd h h' vs i s' c : (i < length vs)%nat -> others_same h h' vs i -> content h' s' = c ->
  map (content h') (upd vs i s') = upd (map (content h) vs) i c.
Proof.
  intros Hi Ho Hc. apply nth_ext with (d := []) (d' := []).
  - now rewrite !map_length, !length_upd, map_length.
  - intros k Hk. rewrite map_length, length_upd in Hk.
    rewrite nth_upd by (rewrite map_length; assumption).
    rewrite !nth_map_content, nth_upd by assumption.
    destruct (Nat.eqb_spec k i) as [->|Hn]; [assumption|]. apply Ho; assumption.
Qed.
Lemma absv_same h h' vs : (forall j, (j < length vs)%nat -> content h' (nth j vs sb0) = content h (nth j vs sb0)) ->
  map (content h') vs = map (content h) vs.
Proof.
  intros H. apply nth_ext with (d := []) (d' := []); [now rewrite !map_length|].
  intros k Hk. rewrite map_length in Hk. rewrite !nth_map_content. apply H; assumption.
Qed.

Lemma sb_clear_spec h vs ex i : Inv h vs ex -> (i < length vs)%nat ->
  let s := nth i vs sb0 in
  sets h vs ex i [] (sb_clear h s) /\ length (fst (sb_clear h s)) = length h /\
  (forall k, k <> sstore s -> getb (fst (sb_clear h s)) k = getb h k) /\
  (2 <= blocks (getb h (sstore s)) -> fst (sb_clear h s) = h).
Proof.
  intros I Hi s. unfold sb_clear. destruct (inv_wf _ _ _ I i Hi) as [W1 _]. fold s in W1.
  destruct (blocks (getb h (sstore s)) =? 1) eqn:B; cbn [fst].
  - apply N.eqb_eq in B. destruct (sole_owner h vs ex i I Hi B) as [So _].
    split; [|split; [apply length_set_data|split; [|lia]]].
    + apply (inplace_step h vs ex i (mkSBuf (sstore s) 0 0) [] I Hi); cbn [sstore soff slen lenN]; try lia; auto.
    + intros k Hk. rewrite getb_set_data by assumption. destruct (Nat.eqb_spec k (sstore s)); [contradiction|reflexivity].
  - split; [|auto]. unfold sets. cbn [fst snd].
    split; [apply Inv_upd_fields; cbn [sstore soff slen]; auto; lia|].
    split; [intros j _ _; reflexivity|]. split; [rewrite content_window; apply window_zero|lia].
Qed.

(* chop() and trim() narrow the window to some s2 inside it and clear() if nothing is left *)
Lemma narrow_spec h vs ex i s2 : Inv h vs ex -> (i < length vs)%nat ->
  sstore s2 = sstore (nth i vs sb0) -> soff s2 + slen s2 <= bsize (getb h (sstore s2)) ->
  sets h vs ex i (content h s2) (if slen s2 =? 0 then sb_clear h s2 else (h, s2)).
Proof.
  intros I Hi Es W. pose proof (Inv_upd_fields h vs ex i s2 I Hi Es W) as I2.
  assert (S2 : sets h vs ex i (content h s2) (h, s2)).
  { split; [exact I2|]. split; [intros j _ _; reflexivity|]. split; [reflexivity|apply Nat.le_refl]. }
  destruct (slen s2 =? 0) eqn:E0; [|exact S2].
  apply (sets_trans h vs ex i _ (h, s2) _ _ Hi S2). cbn [fst snd].
  destruct (sb_clear_spec h (upd vs i s2) ex i I2) as [K _]; [now rewrite length_upd|].
  cbn zeta in K. rewrite nth_upd_same in K by assumption.
  replace (content h s2) with (@nil N); [exact K|].
  symmetry. apply lenN_nil_iff. rewrite content_window. unfold window. rewrite lenN_takeN. lia.
Qed.

(* on an object whose blob has another holder this never touches the heap *)
Lemma narrow_shared h s2 : 2 <= blocks (getb h (sstore s2)) ->
  let r := if slen s2 =? 0 then sb_clear h s2 else (h, s2) in
  fst r = h /\ sstore (snd r) = sstore s2 /\ soff (snd r) + slen (snd r) <= soff s2 + slen s2 /\
  content h (snd r) = content h s2.
Proof.
  intros B. cbn zeta. destruct (slen s2 =? 0) eqn:E0; [|cbn [fst snd]; repeat split; lia].
  unfold sb_clear. destruct (blocks (getb h (sstore s2)) =? 1) eqn:B1; [lia|]. cbn [fst snd sstore soff slen].
  repeat split; try lia. rewrite !content_window. cbn [soff slen]. replace (slen s2) with 0 by lia. now rewrite !window_zero.
Qed.

Lemma sb_chop_narrow (h : heap) (s : sbuf) pos0 n0 : slen s < two32 ->
  let pos := N.min pos0 (slen s) in
  let s2 := mkSBuf (sstore s) (soff s + pos) (N.min n0 (slen s - pos)) in
  sb_chop h s pos0 n0 = (if slen s2 =? 0 then sb_clear h s2 else (h, s2)) /\
  content h s2 = takeN n0 (dropN pos0 (content h s)).
Proof.
  intros Hl. split; [|rewrite !content_window; apply window_clip].
  unfold sb_chop, npos, two32, gen_npos in *. cbn [slen].
  set (pos := if (pos0 =? 4294967295) || (slen s <? pos0) then slen s else pos0) in *.
  assert (Ep : pos = N.min pos0 (slen s)).
  { unfold pos. destruct ((pos0 =? 4294967295) || (slen s <? pos0)) eqn:E; lia. }
  rewrite <- Ep.
  set (n := if (n0 =? 4294967295) || (slen s - pos <? n0) then slen s - pos else n0).
  assert (En : n = N.min n0 (slen s - pos)).
  { unfold n. destruct ((n0 =? 4294967295) || (slen s - pos <? n0)) eqn:E; lia. }
  rewrite <- En. replace ((pos =? slen s) || (n =? 0)) with (n =? 0) by lia. reflexivity.
Qed.

Lemma chop_shared h s pos n : 2 <= blocks (getb h (sstore s)) -> slen s < two32 ->
  soff s + slen s <= bsize (getb h (sstore s)) ->
  fst (sb_chop h s pos n) = h /\ sstore (snd (sb_chop h s pos n)) = sstore s /\
  soff (snd (sb_chop h s pos n)) + slen (snd (sb_chop h s pos n)) <= bsize (getb h (sstore s)) /\
  content h (snd (sb_chop h s pos n)) = takeN n (dropN pos (content h s)).
Proof.
  intros B Hl W. destruct (sb_chop_narrow h s pos n Hl) as [-> <-].
  set (s2 := mkSBuf (sstore s) _ _). destruct (narrow_shared h s2 B) as (A1 & A2 & A3 & A4).
  split; [exact A1|]. split; [exact A2|]. split; [|exact A4]. apply (N.le_trans _ _ _ A3). cbn [soff slen s2]. lia.
Qed.

Section Results.
Variable alloc_cap : N -> N.

Lemma bdata_lock h id k : (id < length h)%nat -> bdata (getb (lock h id) k) = bdata (getb h k).
Proof. intros H. rewrite getb_lock by assumption. destruct (Nat.eqb_spec k id) as [->|]; reflexivity. Qed.
Lemma content_lock h id s : (id < length h)%nat -> content (lock h id) s = content h s.
Proof. intros H. apply content_other_blob. apply bdata_lock. assumption. Qed.
Lemma read_src_lock h id p n : (id < length h)%nat -> read_src (lock h id) p n = read_src h p n.
Proof. intros H. destruct p; cbn [read_src]; [reflexivity|]. now rewrite bdata_lock. Qed.

Lemma with_locker_RS h vs ex i p body c1 c2 : Inv h vs ex -> (i < length vs)%nat ->
  let s := nth i vs sb0 in
  (locker_hits h s p = true ->
     RS (lock h (sstore s)) vs (exadd ex (sstore s)) i c1 c2 (body (lock h (sstore s)))) ->
  (locker_hits h s p = false -> RS h vs ex i c1 c2 (body h)) ->
  RS h vs ex i c1 c2 (with_locker h s p body).
Proof.
  intros I Hi s Hhit Hmiss. unfold with_locker. destruct (locker_hits h s p) eqn:E; [|apply Hmiss; reflexivity].
  specialize (Hhit eq_refl). destruct (inv_wf _ _ _ I i Hi) as [W _]. fold s in W.
  (* ~Locker *)
  assert (G : forall x c, sets (lock h (sstore s)) vs (exadd ex (sstore s)) i c x ->
              sets h vs ex i c (unlock (fst x) (sstore s), snd x)).
  { intros x c (A1 & A2 & A3 & A4). rewrite length_lock in A4. unfold sets. cbn [fst snd].
    destruct (unlock_extra _ _ _ _ A1 ltac:(lia)) as [I2 U]. rewrite length_upd in U.
    split; [exact I2|split; [|split]].
    - intros j Hj Hn. specialize (U j Hj). rewrite nth_upd_other in U by assumption.
      rewrite U, A2 by assumption. apply content_lock. assumption.
    - specialize (U i Hi). rewrite nth_upd_same in U by assumption. now rewrite U.
    - rewrite length_unlock. lia. }
  destruct (body (lock h (sstore s))) as [[h1 a]|[h1 a]|]; [exact (G _ _ Hhit)|exact (G _ _ Hhit)|assumption].
Qed.

(* a pointer argument that lies inside a live blob's used area (or external bytes) *)
Definition src_in (h : heap) (p : src) (n : N) : Prop :=
  match p with
  | SLit w => n <= lenN w
  | SPtr sid so => n = 0 \/ ((sid < length h)%nat /\ so + n <= bsize (getb h sid))
  end.

Lemma sb_append_raw_RS h vs ex i p n : Inv h vs ex -> (i < length vs)%nat ->
  let s := nth i vs sb0 in
  src_in h p n ->
  RS h vs ex i (content h s ++ read_src h p n) (content h s) (sb_append_raw alloc_cap h s p n).
Proof.
  intros I Hi s Hin. unfold sb_append_raw. destruct (inv_wf _ _ _ I i Hi) as [W _]. fold s in W.
  apply with_locker_RS; auto; fold s.
  - intros Hit. rewrite <- (content_lock h (sstore s) s W), <- (read_src_lock h (sstore s) p n W).
    apply lowAppend_spec; [apply Inv_lock; assumption|assumption|]. fold s.
    destruct p as [w|sid so]; cbn [src_in src_ok locker_hits] in *; [assumption|].
    destruct Hin as [->|[H1 H2]]; [left; reflexivity|right].
    apply andb_prop in Hit. destruct Hit as [Hit _]. apply Nat.eqb_eq in Hit. subst sid.
    rewrite length_lock. split; [assumption|]. rewrite getb_lock, Nat.eqb_refl by assumption.
    unfold bsize in *; cbn [bdata blocks]. split; [assumption|]. right.
    pose proof (var_lock h vs ex i I Hi) as G. fold s in G. lia.
  - intros Miss. apply lowAppend_spec; auto. fold s.
    destruct p as [w|sid so]; cbn [src_in src_ok locker_hits] in *; [assumption|].
    destruct Hin as [->|[H1 H2]]; [left; reflexivity|].
    destruct (Nat.eqb_spec sid (sstore s)) as [->|Hn].
    + cbn [andb] in Miss. left. pose proof (inv_cap _ _ _ I _ W). lia.
    + right. auto.
Qed.

Lemma RS_trans h vs ex i c r1 c1 c2 r2 : (i < length vs)%nat -> sets h vs ex i c r1 ->
  RS (fst r1) (upd vs i (snd r1)) ex i c1 c2 r2 -> RS h vs ex i c1 c2 r2.
Proof.
  intros Hi S R. destruct r2; [exact (sets_trans _ _ _ _ _ _ _ _ Hi S R)|exact (sets_trans _ _ _ _ _ _ _ _ Hi S R)|exact R].
Qed.

Lemma sb_assign_raw_RS h vs ex i p n : Inv h vs ex -> (i < length vs)%nat ->
  let s := nth i vs sb0 in
  src_in h p n ->
  RS h vs ex i (read_src h p n) [] (sb_assign_raw alloc_cap h s p n).
Proof.
  intros I Hi s Hin. unfold sb_assign_raw. destruct (inv_wf _ _ _ I i Hi) as [W _]. fold s in W.
  (* clear(), then append: stated for any heap h0 that looks like h to the reader of p *)
  assert (G : forall h0 ex0', Inv h0 vs ex0' -> length h0 = length h ->
              (forall k, bdata (getb h0 k) = bdata (getb h k)) ->
              (forall sid so, p = SPtr sid so -> sid = sstore s -> 0 < n -> 2 <= blocks (getb h0 sid)) ->
              RS h0 vs ex0' i (read_src h p n) []
                 (let '(h1, s1) := sb_clear h0 s in sb_append_raw alloc_cap h1 s1 p n)).
  { intros h0 ex0' I0 L0 D0 P0.
    destruct (sb_clear_spec h0 vs ex0' i I0 Hi) as (K1 & K4 & K6 & K7). cbn zeta in K1, K4, K6, K7. fold s in K1, K4, K6, K7.
    destruct (sb_clear h0 s) as [h1 s1]. cbn [fst] in K4, K6, K7.
    (* the source is still where it was *)
    assert (Rd : read_src h1 p n = read_src h p n /\ src_in h1 p n).
    { destruct p as [w|sid so]; cbn [read_src src_in] in *; [auto|].
      destruct Hin as [->|[H1 H2]]; [split; [now rewrite !takeN_0|left; reflexivity]|].
      destruct (N.eq_dec n 0) as [->|Hn0]; [split; [now rewrite !takeN_0|left; reflexivity]|].
      assert (E : bdata (getb h1 sid) = bdata (getb h sid)).
      { destruct (Nat.eq_dec sid (sstore s)) as [Es|Es].
        - assert (Pb : 2 <= blocks (getb h0 (sstore s))) by (rewrite <- Es; apply (P0 sid so eq_refl Es); lia).
          rewrite (K7 Pb). apply D0.
        - rewrite K6 by assumption. apply D0. }
      split; [rewrite E; reflexivity|]. right. split; [lia|]. unfold bsize in *. rewrite E. assumption. }
    destruct Rd as [Rd Hin1]. apply (RS_trans h0 vs ex0' i [] (h1, s1) _ _ _ Hi K1). cbn [fst snd].
    pose proof (sb_append_raw_RS h1 (upd vs i s1) ex0' i p n) as A. cbn zeta in A.
    destruct K1 as (J1 & _ & J2 & _). cbn [fst snd] in J1, J2.
    rewrite nth_upd_same, J2, Rd in A by assumption. apply A; [exact J1|now rewrite length_upd|exact Hin1]. }
  apply with_locker_RS; auto; fold s.
  - intros Hit.
    apply (G (lock h (sstore s)) (exadd ex (sstore s)) (Inv_lock _ _ _ _ I W) (length_lock _ _)
             (fun k => bdata_lock h (sstore s) k W)).
    intros sid so -> -> Hn. rewrite getb_lock, Nat.eqb_refl by assumption. cbn [blocks].
    pose proof (var_lock h vs ex i I Hi) as Gr. fold s in Gr. lia.
  - intros Miss. apply (G h ex I eq_refl (fun k => eq_refl)).
    intros sid so -> -> Hn. exfalso. cbn [locker_hits src_in] in *. rewrite Nat.eqb_refl in Miss. cbn [andb] in Miss.
    destruct Hin as [->|[H1 H2]]; [lia|]. pose proof (inv_cap _ _ _ I _ W). lia.
Qed.
Lemma move_into_spec h vs ex d rv : Inv h vs (exadd ex (sstore rv)) -> (d < length vs)%nat -> wf h rv ->
  Inv (hp (move_into h vs d rv)) (vars (move_into h vs d rv)) ex /\
  absv (move_into h vs d rv) = upd (map (content h) vs) d (content h rv).
Proof.
  intros I Hd W. destruct (move_var h vs ex d rv I Hd W) as [I2 Ct]. split; [exact I2|].
  unfold absv, move_into; cbn [hp vars]. rewrite (absv_same h) by (intros k Hk; rewrite length_upd in Hk; auto).
  apply absv_upd; [assumption|intros k _ _; reflexivity|reflexivity].
Qed.

Lemma var_len_bound h vs ex j : Inv h vs ex -> (j < length vs)%nat -> slen (nth j vs sb0) < two32.
Proof.
  intros I Hj. destruct (inv_wf _ _ _ I j Hj) as [W1 W2].
  pose proof (inv_cap _ _ _ I _ W1). pose proof (inv_capb _ _ _ I _ W1). lia.
Qed.

Lemma lenN_pokeN (l : bytes) p c : lenN (pokeN l p c) = lenN l.
Proof. revert p; induction l as [|x l IH]; intros p; cbn [pokeN lenN]; [reflexivity|]. destruct (p =? 0); cbn [lenN]; [reflexivity|now rewrite IH]. Qed.
Lemma dropN_pokeN_lt (l : bytes) off p c : off <= p -> dropN off (pokeN l p c) = pokeN (dropN off l) (p - off) c.
Proof.
  revert off p; induction l as [|x l IH]; intros off p H; cbn [pokeN dropN]; [reflexivity|].
  destruct (off =? 0) eqn:E0.
  - apply N.eqb_eq in E0. subst off. rewrite N.sub_0_r. destruct (p =? 0) eqn:Ep; cbn [dropN pokeN]; rewrite ?Ep; reflexivity.
  - destruct (p =? 0) eqn:Ep; [lia|]. cbn [dropN]. rewrite E0. rewrite IH by lia. f_equal. lia.
Qed.
Lemma takeN_pokeN_lt (l : bytes) n p c : p < n -> takeN n (pokeN l p c) = pokeN (takeN n l) p c.
Proof.
  revert n p; induction l as [|x l IH]; intros n p H; cbn [pokeN takeN]; [reflexivity|].
  destruct (n =? 0) eqn:En; [lia|]. destruct (p =? 0) eqn:Ep; cbn [takeN pokeN]; rewrite En, ?Ep; [reflexivity|].
  rewrite IH by lia. reflexivity.
Qed.
Lemma window_pokeN off len (d : bytes) pos c : pos < len ->
  window off len (pokeN d (off + pos) c) = pokeN (window off len d) pos c.
Proof.
  intros H. unfold window. rewrite dropN_pokeN_lt by lia. replace (off + pos - off) with pos by lia.
  apply takeN_pokeN_lt. assumption.
Qed.

Lemma sb_setAt_RS h vs ex i s pos c : Inv h vs ex -> (i < length vs)%nat -> nth i vs sb0 = s ->
  RS h vs ex i (pokeN (content h s) pos c) (content h s) (sb_setAt alloc_cap h s pos c) /\
  (forall x, sb_setAt alloc_cap h s pos c = Ok x ->
     tail (fst x) (snd x) /\ sole vs i (snd x) /\ slen (snd x) = slen s).
Proof.
  intros I Hi <-. set (s := nth i vs sb0). unfold sb_setAt. destruct (pos <? slen s) eqn:Ep; cbn [negb].
  2:{ split; [exact (keeps_sets _ _ _ _ _ (keeps_refl h vs ex i I))|discriminate]. }
  pose proof (cow_spec alloc_cap h vs ex i npos I Hi) as C. cbn zeta in C. fold s in C.
  destruct (cow alloc_cap h s npos) as [[h1 s1]|[h1 s1]|];
    [|split; [exact (keeps_sets _ _ _ _ _ C)|discriminate]|contradiction].
  destruct C as (K & T & So & L & _). cbn [fst snd] in T, So, L. unfold tail in T.
  destruct (bsize (getb h1 (sstore s1)) <=? soff s1 + pos) eqn:Eb; [lia|].
  pose proof (keeps_sets _ _ _ _ _ K) as S1. pose proof S1 as (K1 & _ & K2 & _). cbn [fst snd] in K1, K2. fold s in K2.
  assert (Hi1 : (i < length (upd vs i s1))%nat) by (rewrite length_upd; assumption).
  destruct (inv_wf _ _ _ K1 i Hi1) as [W1 W2]. rewrite nth_upd_same in W1, W2 by assumption.
  pose proof (inv_cap _ _ _ K1 _ W1) as Cap. split.
  - apply (sets_trans h vs ex i _ (h1, s1) _ _ Hi S1). cbn [fst snd].
    rewrite <- K2, content_window, <- window_pokeN by lia.
    apply inplace_step; rewrite ?nth_upd_same, ?lenN_pokeN by assumption; unfold bsize in *; auto.
    left. intros j Hj Hn. rewrite length_upd in Hj. rewrite nth_upd_other by assumption. apply So; assumption.
  - intros x [= <-]. cbn [fst snd]. split; [|split; [exact So|exact L]].
    unfold tail. rewrite getb_set_data, Nat.eqb_refl by assumption. unfold bsize; cbn [bdata]. rewrite lenN_pokeN. exact T.
Qed.
End Results.

Definition lower_byte (c : N) : N := if (65 <=? c) && (c <=? 90) then c + 32 else c.
Definition upper_byte (c : N) : N := if (97 <=? c) && (c <=? 122) then c - 32 else c.
Definition dropwhile (p : N -> bool) (l : bytes) : bytes := snd (span p l).
(* std::string-style trim: strip from the end, then from the beginning, the bytes that occur in R *)
Definition trim_spec (R : bytes) (atBeginning atEnd : bool) (v : bytes) : bytes :=
  let v1 := if atEnd then rev (dropwhile (fun c => memb c R) (rev v)) else v in
  if atBeginning then dropwhile (fun c => memb c R) v1 else v1.

(* effect of an operation that returned normally on a list of independent byte strings *)
Definition spec_vals (vals : list bytes) (o : op) : list bytes :=
  let v k := nth k vals [] in
  match o with
  | OSet i w => upd vals i w
  | OAsg i j => upd vals i (v j)
  | OApp i j => upd vals i (v i ++ v j)
  | OApl i w => upd vals i (v i ++ w)
  | OApr i j off n => upd vals i (v i ++ takeN n (dropN off (v j)))
  | OAsr i j off n => upd vals i (takeN n (dropN off (v j)))
  | OPsh i c => upd vals i (v i ++ [c])
  | OCon d i n => let k := if n =? npos then lenN (v i) else N.min n (lenN (v i)) in
                  upd (upd vals i (dropN k (v i))) d (takeN k (v i))
  | OChp i pos n => upd vals i (takeN n (dropN pos (v i)))
  | OSub d i pos n => upd vals d (takeN n (dropN pos (v i)))
  | OTrm i j b e => upd vals i (trim_spec (v j) b e (v i))
  | OSat i pos c => upd vals i (pokeN (v i) pos c)
  | OLow i => upd vals i (map lower_byte (v i))
  | OUpp i => upd vals i (map upper_byte (v i))
  | OClr i => upd vals i []
  | ORsv _ _ | ORcp _ _ | ORsq _ _ _ _ _ | OCst _ | OQuery _ _ => vals
  | ORaw i n w => upd vals i (v i ++ w)
  end.
(* effect of an operation that threw: nothing changes, except that assign(ptr,n) has already cleared
   the target when its append throws *)
Definition spec_throw (vals : list bytes) (o : op) : list bytes :=
  match o with
  | OSet i _ | OAsr i _ _ _ => upd vals i []
  | _ => vals
  end.
Definition spec_after (vals : list bytes) (o : op) (r : out) : list bytes :=
  match r with
  | RThrow => spec_throw vals o
  | RSkip | RShort => vals
  | _ => spec_vals vals o
  end.

Lemma upd_absv_same st i : upd (absv st) i (content (hp st) (getv st i)) = absv st.
Proof. rewrite <- nth_absv. apply upd_same. Qed.

Lemma trim_end_noalias R rc : trim_end_loop false R rc = dropwhile (fun c => memb c R) rc.
Proof.
  unfold dropwhile. induction rc as [|x r IH]; cbn [trim_end_loop span]; [reflexivity|].
  destruct (memb x R); [|reflexivity]. rewrite IH. destruct (span _ r); reflexivity.
Qed.
Lemma trim_begin_noalias R c : trim_begin_loop false R c = dropwhile (fun c => memb c R) c.
Proof.
  unfold dropwhile. induction c as [|x r IH]; cbn [trim_begin_loop span]; [reflexivity|].
  destruct (memb x R); [|reflexivity]. rewrite IH. destruct (span _ r); reflexivity.
Qed.
Lemma memb_In x l : In x l -> memb x l = true.
Proof. intros H. unfold memb. apply existsb_exists. exists x. split; [assumption|apply N.eqb_refl]. Qed.
Lemma trim_end_alias R rc : trim_end_loop true R rc = [].
Proof.
  induction rc as [|x r IH]; cbn [trim_end_loop]; [reflexivity|].
  rewrite memb_In; [exact IH|]. apply in_rev. rewrite rev_involutive. left; reflexivity.
Qed.
Lemma trim_begin_alias R c : trim_begin_loop true R c = [].
Proof.
  induction c as [|x r IH]; cbn [trim_begin_loop]; [reflexivity|]. rewrite memb_In; [exact IH|left; reflexivity].
Qed.
Lemma dropwhile_all p (l : bytes) : (forall x, In x l -> p x = true) -> dropwhile p l = [].
Proof.
  unfold dropwhile. induction l as [|x r IH]; intros H; cbn [span]; [reflexivity|].
  rewrite (H x) by (left; reflexivity). specialize (IH (fun y Hy => H y (or_intror Hy))).
  destruct (span p r); cbn [snd] in *. assumption.
Qed.
Lemma dropwhile_suffix p (l : bytes) : exists a, l = a ++ dropwhile p l.
Proof. exists (fst (span p l)). unfold dropwhile. symmetry. apply span_app. Qed.

(* the model's trim computes trim_spec with the set of bytes the argument held at the call *)
Lemma trim_model_spec (alias : bool) (R c0 : bytes) (b e : bool) :
  (alias = true -> R = c0) ->
  let c1 := if e then rev (trim_end_loop alias R (rev c0)) else c0 in
  let c2 := if b then trim_begin_loop alias R c1 else c1 in
  c2 = trim_spec R b e c0 /\ exists y x, c0 = y ++ c2 ++ x /\ lenN y = lenN c1 - lenN c2.
Proof.
  intros Ha. cbn zeta. unfold trim_spec.
  assert (E1 : (if e then rev (trim_end_loop alias R (rev c0)) else c0) =
               (if e then rev (dropwhile (fun c => memb c R) (rev c0)) else c0)).
  { destruct e; [|reflexivity]. destruct alias; [|now rewrite trim_end_noalias].
    rewrite trim_end_alias, (Ha eq_refl). rewrite dropwhile_all; [reflexivity|].
    intros x Hx. apply memb_In. apply in_rev. assumption. }
  rewrite E1. set (v1 := if e then rev (dropwhile (fun c => memb c R) (rev c0)) else c0).
  assert (P1 : exists x, c0 = v1 ++ x).
  { unfold v1. destruct e; [|exists []; now rewrite app_nil_r].
    destruct (dropwhile_suffix (fun c => memb c R) (rev c0)) as [a Ea]. exists (rev a).
    rewrite <- rev_app_distr, <- Ea. now rewrite rev_involutive. }
  assert (E2 : (if b then trim_begin_loop alias R v1 else v1) = (if b then dropwhile (fun c => memb c R) v1 else v1)).
  { destruct b; [|reflexivity]. destruct alias; [|now rewrite trim_begin_noalias].
    rewrite trim_begin_alias. rewrite dropwhile_all; [reflexivity|].
    intros x Hx. apply memb_In. rewrite (Ha eq_refl). destruct P1 as [z Pz]. rewrite Pz. apply in_or_app. left; assumption. }
  rewrite E2. split; [reflexivity|].
  set (v2 := if b then dropwhile (fun c => memb c R) v1 else v1).
  assert (P2 : exists y, v1 = y ++ v2).
  { unfold v2. destruct b; [apply dropwhile_suffix|exists []; reflexivity]. }
  destruct P1 as [x Px], P2 as [y Py]. exists y, x. split; [rewrite Px, Py, app_assoc; reflexivity|].
  rewrite Py, lenN_app. lia.
Qed.

(* operations covered by the refinement theorem below (all indices must name existing variables;
   rawAppend: the caller writes at most the n bytes it asked for) *)
Definition covered (st : state) (o : op) : Prop :=
  let nv := length (vars st) in
  match o with
  | OSet i _ | OApl i _ | OPsh i _ | OChp i _ _ | OSat i _ _ | OClr i | ORsv i _ | ORcp i _
  | ORsq i _ _ _ _ | OQuery i _ => (i < nv)%nat
  | OAsg i j | OApp i j | OApr i j _ _ | OAsr i j _ _ | OCon i j _ | OSub i j _ _ | OTrm i j _ _ =>
      (i < nv)%nat /\ (j < nv)%nat
  | ORaw i n w => (i < nv)%nat /\ lenN w <= n
  | OLow _ | OUpp _ | OCst _ => False
  end.

Section StepProofs2.
Variable alloc_cap : N -> N.

Lemma wf_getv st j : SInv st -> (j < length (vars st))%nat -> wf (hp st) (getv st j).
Proof. intros I Hj. exact (inv_wf _ _ _ I j Hj). Qed.

Lemma src_in_var st j off n : SInv st -> (j < length (vars st))%nat -> off + n <= slen (getv st j) ->
  src_in (hp st) (SPtr (sstore (getv st j)) (soff (getv st j) + off)) n /\
  read_src (hp st) (SPtr (sstore (getv st j)) (soff (getv st j) + off)) n = takeN n (dropN off (nth j (absv st) [])).
Proof.
  intros I Hj Hb. destruct (wf_getv st j I Hj) as [W1 W2]. split.
  - cbn [src_in]. right. split; [assumption|lia].
  - cbn [read_src]. rewrite nth_absv, content_window.
    fold (window (soff (getv st j) + off) n (bdata (getb (hp st) (sstore (getv st j))))).
    fold (window off n (window (soff (getv st j)) (slen (getv st j)) (bdata (getb (hp st) (sstore (getv st j)))))).
    symmetry. apply window_window. assumption.
Qed.

Lemma read_lit h w : read_src h (SLit w) (lenN w) = w.
Proof. cbn [read_src]. apply takeN_all. lia. Qed.

Lemma RS_refl h vs ex i (isok : bool) : Inv h vs ex ->
  RS h vs ex i (content h (nth i vs sb0)) (content h (nth i vs sb0))
     (if isok then Ok (h, nth i vs sb0) else Throw (h, nth i vs sb0)).
Proof. intros I. destruct isok; exact (keeps_sets _ _ _ _ _ (keeps_refl h vs ex i I)). Qed.
Lemma cow_RS h vs ex i ns : Inv h vs ex -> (i < length vs)%nat ->
  RS h vs ex i (content h (nth i vs sb0)) (content h (nth i vs sb0)) (cow alloc_cap h (nth i vs sb0) ns).
Proof.
  intros I Hi. pose proof (cow_spec alloc_cap h vs ex i ns I Hi) as C. cbn zeta in C.
  destruct (cow alloc_cap h (nth i vs sb0) ns) as [x|x|]; [destruct C as [C _]| |assumption];
    exact (keeps_sets _ _ _ _ _ C).
Qed.

(* rawAppendStart(n); write w; rawAppendFinish(p, |w|) *)
Lemma sb_rawAppend_spec h vs ex i n w : Inv h vs ex -> (i < length vs)%nat -> lenN w <= n ->
  let s := nth i vs sb0 in
  match sb_rawAppend alloc_cap h s n w with
  | RawOk h' s' => sets h vs ex i (content h s ++ w) (h', s')
  | RawShort h' s' | RawThrow h' s' => sets h vs ex i (content h s) (h', s')
  | RawUndef => False
  end.
Proof.
  intros I Hi Hw s. unfold sb_rawAppend.
  pose proof (rawSpace_spec alloc_cap h vs ex i n I Hi) as R. cbn zeta in R. fold s in R.
  destruct (rawSpace alloc_cap h s n) as [[h1 s1]|[h1 s1]|]; [|exact (keeps_sets _ _ _ _ _ R)|contradiction].
  destruct R as (K & L & T). cbn [fst snd] in L, T. pose proof (keeps_sets _ _ _ _ _ K) as S1. fold s in S1.
  pose proof S1 as (J1 & _ & J2 & _). cbn [fst snd] in J1, J2.
  assert (Hi1 : (i < length (upd vs i s1))%nat) by (rewrite length_upd; assumption).
  destruct (inv_wf _ _ _ J1 i Hi1) as [W1 W2]. rewrite nth_upd_same in W1, W2 by assumption.
  destruct (_ <? n); [exact S1|].
  destruct (negb (mb_canAppend _ _ _)); [exact S1|].
  destruct (lenN w =? 0) eqn:E0.
  { apply N.eqb_eq in E0. apply lenN_nil_iff in E0. subst w. rewrite app_nil_r. exact S1. }
  destruct (N.min maxSize _ <? _) eqn:Emin; [exact S1|].
  destruct (bsize (getb h1 (sstore s1)) <? soff s1 + slen s1) eqn:Eb; [lia|].
  assert (Tl : tail h1 s1) by (apply T; lia).
  rewrite takeN_all by (unfold tail, bsize in Tl; lia).
  apply (sets_trans h vs ex i _ (h1, s1) _ _ Hi S1). cbn [fst snd]. rewrite <- J2.
  pose proof (append_at_tail h1 (upd vs i s1) ex i w J1 Hi1) as A. cbn zeta in A.
  rewrite nth_upd_same in A by assumption. apply A; [exact Tl|unfold tail in Tl; lia].
Qed.

Lemma wf_lock h id s : (id < length h)%nat -> wf h s -> wf (lock h id) s.
Proof. unfold wf, bsize. intros H W. now rewrite length_lock, bdata_lock. Qed.
Lemma absv_lock h id vs : (id < length h)%nat -> map (content (lock h id)) vs = map (content h) vs.
Proof. intros H. apply map_ext. intros s. apply content_lock. assumption. Qed.

(* the step on variables does what spec_after does on values *)
Definition refines (st : state) (o : op) : Prop :=
  SInv (fst (step alloc_cap st o)) /\ snd (step alloc_cap st o) <> RUndef /\
  absv (fst (step alloc_cap st o)) = spec_after (absv st) o (snd (step alloc_cap st o)).

Lemma same_refines st o r : SInv st -> step alloc_cap st o = (st, r) -> r <> RUndef ->
  spec_after (absv st) o r = absv st -> refines st o.
Proof. intros I E Hr Hs. unfold refines. rewrite E. cbn [fst snd]. rewrite Hs. auto. Qed.

(* variable i gets the contents c, nothing else changes *)
Lemma set_var st i c r : (i < length (vars st))%nat -> sets (hp st) (vars st) ex0 i c r ->
  SInv (mkState (fst r) (upd (vars st) i (snd r))) /\
  absv (mkState (fst r) (upd (vars st) i (snd r))) = upd (absv st) i c.
Proof. intros Hi (I' & Ho & Hc & _). split; [exact I'|]. unfold absv; cbn [hp vars]. apply absv_upd; assumption. Qed.

Lemma set_refines st o i r x c : (i < length (vars st))%nat ->
  step alloc_cap st o = (mkState (fst r) (upd (vars st) i (snd r)), x) -> x <> RUndef ->
  sets (hp st) (vars st) ex0 i c r ->
  spec_after (absv st) o x = upd (absv st) i c -> refines st o.
Proof.
  intros Hi E Hx S Hs. destruct (set_var st i c r Hi S) as [A B].
  unfold refines. rewrite E. cbn [fst snd]. rewrite Hs. auto.
Qed.

Lemma fin_refines st o i r c1 c2 : (i < length (vars st))%nat -> step alloc_cap st o = fin st i r ->
  RS (hp st) (vars st) ex0 i c1 c2 r ->
  spec_vals (absv st) o = upd (absv st) i c1 -> spec_throw (absv st) o = upd (absv st) i c2 ->
  refines st o.
Proof.
  intros Hi E R H1 H2. destruct r as [[h1 s1]|[h1 s1]|]; [| |contradiction].
  - apply (set_refines st o i (h1, s1) RVoid c1); auto. discriminate.
  - apply (set_refines st o i (h1, s1) RThrow c2); auto. discriminate.
Qed.

Lemma assign_raw_refines st o i p n : SInv st -> (i < length (vars st))%nat -> src_in (hp st) p n ->
  step alloc_cap st o = fin st i (sb_assign_raw alloc_cap (hp st) (getv st i) p n) ->
  spec_vals (absv st) o = upd (absv st) i (read_src (hp st) p n) ->
  spec_throw (absv st) o = upd (absv st) i [] -> refines st o.
Proof.
  intros I Hi Hp E. exact (fin_refines st o i _ _ _ Hi E (sb_assign_raw_RS alloc_cap _ _ _ i p n I Hi Hp)).
Qed.

Lemma append_raw_refines st o i p n : SInv st -> (i < length (vars st))%nat -> src_in (hp st) p n ->
  step alloc_cap st o = fin st i (sb_append_raw alloc_cap (hp st) (getv st i) p n) ->
  spec_vals (absv st) o = upd (absv st) i (nth i (absv st) [] ++ read_src (hp st) p n) ->
  spec_throw (absv st) o = absv st -> refines st o.
Proof.
  intros I Hi Hp E H1 H2. rewrite nth_absv in H1.
  exact (fin_refines st o i _ _ _ Hi E (sb_append_raw_RS alloc_cap _ _ _ i p n I Hi Hp) H1
           (eq_trans H2 (eq_sym (upd_absv_same st i)))).
Qed.

(* v[i] = v[j] for i <> j *)
Lemma assign_refines st o i j : SInv st -> (i < length (vars st))%nat -> (j < length (vars st))%nat ->
  step alloc_cap st o = (let '(h1, s1) := sb_assign (hp st) (getv st i) (getv st j) in
                         (mkState h1 (upd (vars st) i s1), RVoid)) ->
  spec_vals (absv st) o = upd (absv st) i (nth j (absv st) []) -> refines st o.
Proof.
  intros I Hi Hj E Hs. pose proof (wf_getv st j I Hj) as W. pose proof W as [W1 _].
  destruct (move_into_spec (lock (hp st) (sstore (getv st j))) (vars st) ex0 i (getv st j)) as [M1 M2];
    auto using Inv_lock, wf_lock.
  rewrite absv_lock, content_lock, <- nth_absv in M2 by assumption.
  unfold refines. rewrite E. cbn [sb_assign fst snd spec_after]. rewrite Hs. split; [exact M1|]. split; [discriminate|exact M2].
Qed.

Lemma step_OSet st i w : SInv st -> (i < length (vars st))%nat -> refines st (OSet i w).
Proof.
  intros I Hi. apply (assign_raw_refines st _ i (SLit w) (lenN w) I Hi); cbn [spec_vals]; rewrite ?read_lit; try reflexivity.
  exact (N.le_refl _).
Qed.

Lemma step_OAsg st i j : SInv st -> (i < length (vars st))%nat -> (j < length (vars st))%nat -> refines st (OAsg i j).
Proof.
  intros I Hi Hj. destruct (Nat.eqb_spec i j) as [<-|Hn].
  - apply (same_refines st _ RVoid I); cbn [step spec_after spec_vals]; rewrite ?Nat.eqb_refl;
      (reflexivity || discriminate || apply upd_same).
  - apply (assign_refines st _ i j I Hi Hj); [|reflexivity]. cbn [step]. rewrite (proj2 (Nat.eqb_neq i j) Hn). reflexivity.
Qed.

Lemma step_OApp st i j : SInv st -> (i < length (vars st))%nat -> (j < length (vars st))%nat -> refines st (OApp i j).
Proof.
  intros I Hi Hj. pose proof (wf_content_len _ _ (wf_getv st j I Hj)) as Lj.
  destruct ((slen (getv st i) =? 0) && Nat.eqb (sstore (getv st i)) 0) eqn:Eopt.
  - (* an empty object on the prototype store: assign *)
    assert (Ze : nth i (absv st) [] = []).
    { rewrite nth_absv, content_window. replace (slen (getv st i)) with 0 by lia. apply window_zero. }
    destruct (Nat.eqb_spec i j) as [<-|Hn].
    + refine (set_refines st _ i (hp st, getv st i) RVoid _ Hi _ _ (keeps_sets _ _ _ _ _ (keeps_refl _ _ _ i I)) _).
      * cbn [step]. unfold sb_append. rewrite Eopt, Nat.eqb_refl. reflexivity.
      * discriminate.
      * cbn [spec_after spec_vals]. rewrite Ze. fold (getv st i). rewrite <- nth_absv, Ze. reflexivity.
    + apply (assign_refines st _ i j I Hi Hj).
      * cbn [step]. unfold sb_append. rewrite Eopt, (proj2 (Nat.eqb_neq i j) Hn). reflexivity.
      * cbn [spec_vals]. now rewrite Ze.
  - destruct (src_in_var st j 0 (slen (getv st j)) I Hj ltac:(lia)) as [Sin Srd].
    rewrite N.add_0_r in Sin, Srd. rewrite dropN_0, takeN_all in Srd by (rewrite nth_absv; lia).
    apply (append_raw_refines st _ i _ _ I Hi Sin).
    + cbn [step]. unfold sb_append. rewrite Eopt. reflexivity.
    + cbn [spec_vals]. now rewrite Srd.
    + reflexivity.
Qed.

Lemma step_OApl st i w : SInv st -> (i < length (vars st))%nat -> refines st (OApl i w).
Proof.
  intros I Hi. apply (append_raw_refines st _ i (SLit w) (lenN w) I Hi); cbn [spec_vals]; rewrite ?read_lit; try reflexivity.
  exact (N.le_refl _).
Qed.

Lemma step_OPsh st i c : SInv st -> (i < length (vars st))%nat -> refines st (OPsh i c).
Proof.
  intros I Hi. apply (append_raw_refines st _ i (SLit [c]) 1 I Hi); try reflexivity. cbn [src_in lenN]. lia.
Qed.

Lemma step_OApr st i j off n : SInv st -> (i < length (vars st))%nat -> (j < length (vars st))%nat ->
  refines st (OApr i j off n).
Proof.
  intros I Hi Hj. destruct (slen (getv st j) <? off + n) eqn:E.
  - apply (same_refines st _ RSkip I); cbn [step]; rewrite ?E; (reflexivity || discriminate).
  - destruct (src_in_var st j off n I Hj ltac:(lia)) as [Sin Srd].
    apply (append_raw_refines st _ i _ n I Hi Sin); cbn [step spec_vals]; rewrite ?E, ?Srd; reflexivity.
Qed.

Lemma step_OAsr st i j off n : SInv st -> (i < length (vars st))%nat -> (j < length (vars st))%nat ->
  refines st (OAsr i j off n).
Proof.
  intros I Hi Hj. destruct (slen (getv st j) <? off + n) eqn:E.
  - apply (same_refines st _ RSkip I); cbn [step]; rewrite ?E; (reflexivity || discriminate).
  - destruct (src_in_var st j off n I Hj ltac:(lia)) as [Sin Srd].
    apply (assign_raw_refines st _ i _ n I Hi Sin); cbn [step spec_vals]; rewrite ?E, ?Srd; reflexivity.
Qed.

(* locking a variable's blob for a temporary: the blob is now shared, nothing an observer sees changes *)
Lemma lock_var h vs ex i : Inv h vs ex -> (i < length vs)%nat ->
  let s := nth i vs sb0 in let h1 := lock h (sstore s) in
  Inv h1 vs (exadd ex (sstore s)) /\ (sstore s < length h1)%nat /\ 2 <= blocks (getb h1 (sstore s)) /\
  slen s < two32 /\ soff s + slen s <= bsize (getb h1 (sstore s)) /\ forall x, content h1 x = content h x.
Proof.
  intros I Hi s h1. destruct (inv_wf _ _ _ I i Hi) as [W1 W2]. fold s in W1, W2.
  split; [apply Inv_lock; assumption|]. split; [unfold h1; now rewrite length_lock|].
  split; [|split; [exact (var_len_bound _ _ _ i I Hi)|split]].
  - unfold h1. rewrite getb_lock, Nat.eqb_refl by assumption. cbn [blocks]. pose proof (var_lock h vs ex i I Hi). fold s in H. lia.
  - unfold bsize, h1. now rewrite bdata_lock.
  - intros x. apply content_lock. assumption.
Qed.

Lemma step_OSub st d i pos n : SInv st -> (d < length (vars st))%nat -> (i < length (vars st))%nat ->
  refines st (OSub d i pos n).
Proof.
  intros I Hd Hi. destruct (lock_var _ _ _ i I Hi) as (I1 & L1 & B1 & Lb & W2 & Cl). fold (getv st i) in *.
  set (s := getv st i) in *. set (h1 := lock (hp st) (sstore s)) in *.
  destruct (chop_shared h1 s pos n B1 Lb W2) as (X1 & X2 & X3 & X4).
  unfold refines. cbn [step]. unfold sb_substr. fold s h1.
  destruct (sb_chop h1 s pos n) as [h1' rv]. cbn [fst snd] in *. subst h1'. rewrite <- X2 in I1, L1, X3.
  destruct (move_into_spec h1 (vars st) ex0 d rv I1 Hd (conj L1 X3)) as [M1 M2].
  split; [exact M1|]. split; [discriminate|].
  rewrite M2, X4, Cl. unfold h1. rewrite absv_lock by (rewrite X2 in L1; unfold h1 in L1; now rewrite length_lock in L1).
  cbn [spec_after spec_vals]. now rewrite nth_absv.
Qed.

(* consume(n) = substr(0, n) for the result, chop(n, npos) for this *)
Lemma step_OCon st d i n : SInv st -> (d < length (vars st))%nat -> (i < length (vars st))%nat ->
  refines st (OCon d i n).
Proof.
  intros I Hd Hi. destruct (lock_var _ _ _ i I Hi) as (I1 & L1 & B1 & Lb & W2 & Cl). fold (getv st i) in *.
  pose proof (wf_content_len _ _ (wf_getv st i I Hi)) as Lc.
  set (s := getv st i) in *. set (h1 := lock (hp st) (sstore s)) in *.
  set (k := if n =? npos then slen s else N.min n (slen s)).
  destruct (chop_shared h1 s 0 k B1 Lb W2) as (X1 & X2 & X3 & X4).
  destruct (chop_shared h1 s k npos B1 Lb W2) as (Y1 & Y2 & Y3 & Y4).
  unfold refines. cbn [step]. unfold sb_substr. fold s h1 k.
  destruct (sb_chop h1 s 0 k) as [h1' rv]. cbn [fst snd] in *. subst h1'.
  destruct (sb_chop h1 s k npos) as [h2 s']. cbn [fst snd] in *. subst h2.
  assert (I2 : Inv h1 (upd (vars st) i s') (exadd ex0 (sstore rv))).
  { rewrite X2. apply Inv_upd_fields; auto. now rewrite Y2. }
  rewrite <- X2 in L1, X3.
  destruct (move_into_spec h1 (upd (vars st) i s') ex0 d rv I2 ltac:(now rewrite length_upd) (conj L1 X3)) as [M1 M2].
  split; [exact M1|]. split; [discriminate|].
  rewrite M2. cbn [spec_after spec_vals]. rewrite nth_absv. fold s. rewrite Lc. fold k.
  rewrite (absv_upd h1 h1 (vars st) i s' (dropN k (content (hp st) s)) Hi).
  - rewrite X4, Cl, dropN_0. unfold h1. rewrite absv_lock by (rewrite X2 in L1; unfold h1 in L1; now rewrite length_lock in L1).
    reflexivity.
  - intros j _ _. reflexivity.
  - rewrite Y4, Cl. apply takeN_all. rewrite lenN_dropN, Lc. unfold npos, gen_npos, two32 in *. lia.
Qed.

Lemma step_OChp st i pos n : SInv st -> (i < length (vars st))%nat -> refines st (OChp i pos n).
Proof.
  intros I Hi. destruct (wf_getv st i I Hi) as [W1 W2].
  destruct (sb_chop_narrow (hp st) (getv st i) pos n (var_len_bound _ _ _ i I Hi)) as [E C].
  set (s2 := mkSBuf (sstore (getv st i)) _ _) in E, C.
  pose proof (narrow_spec (hp st) (vars st) ex0 i s2 I Hi eq_refl) as S. rewrite <- E, C in S.
  refine (set_refines st _ i _ RVoid _ Hi _ _ (S _) _); [|discriminate|cbn [sstore soff slen s2]; lia|].
  - cbn [step]. now destruct (sb_chop (hp st) (getv st i) pos n).
  - cbn [spec_after spec_vals]. now rewrite nth_absv.
Qed.

Lemma step_OTrm st i j b e : SInv st -> (i < length (vars st))%nat -> (j < length (vars st))%nat ->
  refines st (OTrm i j b e).
Proof.
  intros I Hi Hj. set (s := getv st i). set (R := content (hp st) (getv st j)).
  destruct (wf_getv st i I Hi) as [W1 W2]. fold s in W1, W2.
  pose proof (wf_content_len _ _ (wf_getv st i I Hi)) as Lc. fold s in Lc.
  assert (Ha : Nat.eqb i j = true -> R = content (hp st) s).
  { intros E. apply Nat.eqb_eq in E. subst j. reflexivity. }
  destruct (trim_model_spec (Nat.eqb i j) R (content (hp st) s) b e Ha) as [T1 (y & x & T2 & T3)].
  cbn zeta in T1, T3.
  set (c1 := if e then rev (trim_end_loop (Nat.eqb i j) R (rev (content (hp st) s))) else content (hp st) s) in *.
  set (c2 := if b then trim_begin_loop (Nat.eqb i j) R c1 else c1) in *.
  set (s2 := mkSBuf (sstore s) (soff s + (lenN c1 - lenN c2)) (lenN c2)).
  assert (Lx : lenN y + lenN c2 + lenN x = slen s) by (rewrite <- Lc, T2, !lenN_app; lia).
  (* the new window is where c2 sits inside the old one *)
  assert (Cw : content (hp st) s2 = c2).
  { rewrite content_window. cbn [sstore soff slen s2]. rewrite <- T3.
    rewrite <- (window_window (soff s) (slen s) (lenN y) (lenN c2)) by lia.
    rewrite <- content_window, T2. unfold window. now rewrite dropN_app_exact, takeN_app_exact. }
  apply (set_refines st _ i (sb_trim (hp st) s R (Nat.eqb i j) b e) RVoid c2 Hi).
  - cbn [step]. fold s R. now destruct (sb_trim (hp st) s R (Nat.eqb i j) b e).
  - discriminate.
  - rewrite <- Cw. apply (narrow_spec (hp st) (vars st) ex0 i s2 I Hi eq_refl). cbn [sstore soff slen s2]. lia.
  - cbn [spec_after spec_vals]. rewrite !nth_absv. fold s R. now rewrite <- T1.
Qed.

Lemma step_OSat st i pos c : SInv st -> (i < length (vars st))%nat -> refines st (OSat i pos c).
Proof.
  intros I Hi. destruct (sb_setAt_RS alloc_cap _ _ _ i _ pos c I Hi eq_refl) as [R _].
  apply (fin_refines st (OSat i pos c) i _ _ _ Hi eq_refl R); cbn [spec_vals spec_throw]; rewrite ?nth_absv, ?upd_absv_same; reflexivity.
Qed.

Lemma step_OClr st i : SInv st -> (i < length (vars st))%nat -> refines st (OClr i).
Proof.
  intros I Hi. destruct (sb_clear_spec (hp st) (vars st) ex0 i I Hi) as [K _].
  refine (set_refines st _ i _ RVoid [] Hi _ _ K _); [|discriminate|reflexivity].
  cbn [step]. fold (getv st i). now destruct (sb_clear (hp st) (getv st i)).
Qed.

(* reserveSpace(), reserveCapacity(), reserve(): cow() or nothing *)
Lemma reserveCapacity_RS h vs ex i n : Inv h vs ex -> (i < length vs)%nat ->
  RS h vs ex i (content h (nth i vs sb0)) (content h (nth i vs sb0)) (sb_reserveCapacity alloc_cap h (nth i vs sb0) n).
Proof.
  intros I Hi. unfold sb_reserveCapacity. destruct (maxSize <? n); [exact (RS_refl _ _ _ i false I)|apply cow_RS; assumption].
Qed.
Lemma reserveSpace_RS h vs ex i n : Inv h vs ex -> (i < length vs)%nat ->
  RS h vs ex i (content h (nth i vs sb0)) (content h (nth i vs sb0)) (sb_reserveSpace alloc_cap h (nth i vs sb0) n).
Proof.
  intros I Hi. unfold sb_reserveSpace. destruct (maxSize <? n); [exact (RS_refl _ _ _ i false I)|].
  destruct (sub32 maxSize n <? _); [exact (RS_refl _ _ _ i false I)|apply reserveCapacity_RS; assumption].
Qed.
Lemma reserve_RS h vs ex i ideal mn mx sh : Inv h vs ex -> (i < length vs)%nat ->
  RS h vs ex i (content h (nth i vs sb0)) (content h (nth i vs sb0)) (sb_reserve alloc_cap h (nth i vs sb0) ideal mn mx sh).
Proof.
  intros I Hi. unfold sb_reserve. destruct (_ && (mn <=? _)); [exact (RS_refl _ _ _ i true I)|].
  destruct (_ && (mx <=? _)); [exact (RS_refl _ _ _ i true I)|apply reserveCapacity_RS; assumption].
Qed.

Lemma step_ORsv st i n : SInv st -> (i < length (vars st))%nat -> refines st (ORsv i n).
Proof.
  intros I Hi. exact (fin_refines st (ORsv i n) i _ _ _ Hi eq_refl (reserveSpace_RS _ _ _ i n I Hi)
                        (eq_sym (upd_absv_same st i)) (eq_sym (upd_absv_same st i))).
Qed.
Lemma step_ORcp st i n : SInv st -> (i < length (vars st))%nat -> refines st (ORcp i n).
Proof.
  intros I Hi. exact (fin_refines st (ORcp i n) i _ _ _ Hi eq_refl (reserveCapacity_RS _ _ _ i n I Hi)
                        (eq_sym (upd_absv_same st i)) (eq_sym (upd_absv_same st i))).
Qed.
Lemma step_ORsq st i ideal mn mx sh : SInv st -> (i < length (vars st))%nat -> refines st (ORsq i ideal mn mx sh).
Proof.
  intros I Hi. pose proof (reserve_RS _ _ _ i ideal mn mx sh I Hi) as R. fold (getv st i) in R.
  unfold refines. cbn [step].
  destruct (sb_reserve alloc_cap (hp st) (getv st i) ideal mn mx sh) as [[h1 s1]|[h1 s1]|]; [| |contradiction];
    destruct (set_var st i _ (h1, s1) Hi R) as [A B]; cbn [fst snd] in *;
    (split; [exact A|]; split; [discriminate|]; rewrite B; apply upd_absv_same).
Qed.

Lemma step_ORaw st i n w : SInv st -> (i < length (vars st))%nat -> lenN w <= n -> refines st (ORaw i n w).
Proof.
  intros I Hi Hw. pose proof (sb_rawAppend_spec (hp st) (vars st) ex0 i n w I Hi Hw) as R. cbn zeta in R. fold (getv st i) in R.
  unfold refines. cbn [step].
  destruct (sb_rawAppend alloc_cap (hp st) (getv st i) n w) as [h1 s1|h1 s1|h1 s1|]; [| | |contradiction];
    destruct (set_var st i _ (h1, s1) Hi R) as [A B]; cbn [fst snd] in *;
    (split; [exact A|]; split; [discriminate|]; rewrite B; cbn [spec_after spec_vals]).
  - now rewrite nth_absv.
  - apply upd_absv_same.
  - apply upd_absv_same.
Qed.

Lemma step_OQuery st i q : SInv st -> (i < length (vars st))%nat -> refines st (OQuery i q).
Proof.
  intros I Hi. apply (same_refines st (OQuery i q) (run_query st i q) I eq_refl); [|destruct (run_query st i q); reflexivity].
  destruct q; cbn [run_query]; try discriminate.
  destruct (pos <? slen (getv st i)) eqn:E; [|discriminate].
  pose proof (wf_content_len _ _ (wf_getv st i I Hi)) as L.
  destruct (nthN pos (content (hp st) (getv st i))) eqn:En; [discriminate|]. exfalso.
  rewrite nthN_nth_error in En. apply nth_error_None in En. rewrite <- lenN_nat in En. lia.
Qed.

Theorem step_refines st o : SInv st -> covered st o ->
  SInv (fst (step alloc_cap st o)) /\ snd (step alloc_cap st o) <> RUndef /\
  absv (fst (step alloc_cap st o)) = spec_after (absv st) o (snd (step alloc_cap st o)).
Proof.
  intros I C. change (refines st o). destruct o; cbn [covered] in C; try contradiction; try destruct C as [C1 C2];
    auto using step_OSet, step_OAsg, step_OApp, step_OApl, step_OApr, step_OAsr, step_OPsh, step_OCon, step_OChp,
      step_OSub, step_OTrm, step_OSat, step_OClr, step_ORsv, step_ORcp, step_ORsq, step_ORaw, step_OQuery.
Qed.
End StepProofs2.

Section Runs.
Variable alloc_cap : N -> N.

Fixpoint run (st : state) (ops : list op) : state * list out :=
  match ops with
  | [] => (st, [])
  | o :: r => let '(st1, x) := step alloc_cap st o in let '(st2, xs) := run st1 r in (st2, x :: xs)
  end.
Fixpoint covered_run (st : state) (ops : list op) : Prop :=
  match ops with
  | [] => True
  | o :: r => covered st o /\ covered_run (fst (step alloc_cap st o)) r
  end.
(* the same sequence on independent values, given which operations threw / were skipped *)
Fixpoint spec_run (vals : list bytes) (ops : list op) (outs : list out) : list bytes :=
  match ops, outs with
  | o :: r, x :: xs => spec_run (spec_after vals o x) r xs
  | _, _ => vals
  end.

Theorem run_refines ops : forall st, SInv st -> covered_run st ops ->
  SInv (fst (run st ops)) /\ Forall (fun x => x <> RUndef) (snd (run st ops)) /\
  absv (fst (run st ops)) = spec_run (absv st) ops (snd (run st ops)).
Proof.
  induction ops as [|o r IH]; intros st I C; cbn [run covered_run spec_run] in *.
  - cbn [fst snd]. auto.
  - destruct C as [C1 C2]. destruct (step_refines alloc_cap st o I C1) as (S1 & S2 & S3).
    destruct (step alloc_cap st o) as [st1 x]. cbn [fst snd] in *.
    destruct (IH st1 S1 C2) as (R1 & R2 & R3). destruct (run st1 r) as [st2 xs]. cbn [fst snd] in *.
    split; [assumption|]. split; [constructor; assumption|]. rewrite R3, S3. reflexivity.
Qed.

Lemma refs_repeat n id : refs (repeat sb0 n) id = dl 0 id * N.of_nat n.
Proof. induction n as [|n IH]; cbn [repeat refs sstore sb0]; [lia|]. rewrite IH. lia. Qed.

Theorem init_inv nv : SInv (init_state alloc_cap nv).
Proof.
  unfold SInv, init_state; cbn [hp vars]. constructor.
  - intros id H. cbn [length] in H. assert (id = 0%nat) as -> by lia. cbn [getb nth blocks].
    rewrite refs_repeat. unfold ex0. rewrite !dl_eq by reflexivity. lia.
  - intros id H. cbn [length] in H. unfold ex0. apply dl_neq. lia.
  - intros j Hj. rewrite nth_repeat. split; cbn [sstore soff slen sb0 length]; [lia|]. lia.
  - intros id H. cbn [length] in H. assert (id = 0%nat) as -> by lia. unfold bsize; cbn [getb nth bdata bcap lenN]. lia.
  - intros id H. cbn [length] in H. assert (id = 0%nat) as -> by lia. cbn [getb nth bcap]. apply N.mod_lt. unfold two32; lia.
Qed.

Theorem init_absv nv : absv (init_state alloc_cap nv) = repeat [] nv.
Proof.
  unfold absv, init_state; cbn [hp vars]. generalize (1 + N.of_nat nv). intros b.
  induction nv as [|n IH]; cbn [repeat map]; [reflexivity|]. rewrite IH, content_sb0. reflexivity.
Qed.
End Runs.

Definition hello : bytes := [104; 101; 108; 108; 111; 32; 119; 111; 114; 108; 100].

(* the <cctype> maps used by toLower()/toUpper() and by memcasecmp() are the ASCII ones on every byte value *)
Definition case_tables_check (c : N) : bool :=
  ((if c_isupper c then to_char (c_tolower c) else c) =? lower_byte c) &&
  ((if c_islower c then to_char (c_toupper c) else c) =? upper_byte c) &&
  (c_tolower_u c =? Z.of_N (lower_byte c))%Z.
Theorem case_tables_ascii : forall c, c < 256 ->
  (if c_isupper c then to_char (c_tolower c) else c) = lower_byte c /\
  (if c_islower c then to_char (c_toupper c) else c) = upper_byte c /\
  c_tolower_u c = Z.of_N (lower_byte c).
Proof.
  intros c Hc. pose proof (forallb_bytes case_tables_check ltac:(vm_compute; reflexivity) c Hc) as H.
  unfold case_tables_check in H. apply andb_prop in H. destruct H as [H H3]. apply andb_prop in H. destruct H as [H1 H2].
  apply N.eqb_eq in H1, H2. apply Z.eqb_eq in H3. auto.
Qed.

(* case-insensitive comparison = byte-wise comparison of the lower-cased values (bytes < 256) *)
Theorem casecmp_is_cmp_of_lowercased : forall a b,
  Forall (fun c => c < 256) a -> Forall (fun c => c < 256) b ->
  cmp_with c_tolower_u a b = cmp_with Z.of_N (map lower_byte a) (map lower_byte b).
Proof.
  induction a as [|x a IH]; intros b Ha Hb; [reflexivity|]. destruct b as [|y b]; [reflexivity|].
  inversion Ha; inversion Hb; subst. cbn [cmp_with map].
  destruct (case_tables_ascii x ltac:(assumption)) as (_ & _ & ->).
  destruct (case_tables_ascii y ltac:(assumption)) as (_ & _ & ->).
  rewrite IH by assumption. reflexivity.
Qed.
