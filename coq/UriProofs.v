(* UriProofs.v — lemmas and proofs about UriModel.v (property C30).
   Three parts, numbered (1)-(3) as in Properties_C30.v: what an accepted URI looks like (host without upper case,
   labels, port range); RFC-shaped URIs scheme://[userinfo@]host[:port]rest and the port that is written in them
   (Section Shape); the canonical form and its re-parse (Section Reparse).  The IP-literal recogniser is not
   modelled: Section WithOracle states the contract assumed of it (ipq). *)
Require Import SquidV.Bytes SquidV.TokModel SquidV.TokProofs SquidV.QuoteModel SquidV.UriModel.
Require Import SquidV.gen.CharSets_gen SquidV.gen.ByteMaps_gen SquidV.gen.Uri_gen.
Require Import ZifyBool ZifyN ZifyNat.
Local Open Scope N_scope.

Lemma takeN_short {A} n (l : list A) : lenN (takeN n l) < n -> takeN n l = l.
Proof. intros H. rewrite lenN_takeN in H. apply takeN_all. lia. Qed.

(* strip_td removes exactly the trailing dots *)

Definition is_dot (c : N) : bool := c =? 46.

Lemma strip_td_spec l : exists t, l = strip_td l ++ t /\ forallb is_dot t = true.
Proof.
  induction l as [|c r IH]; cbn [strip_td].
  - exists []. split; reflexivity.
  - destruct IH as [t [E Ht]]. destruct (strip_td r) as [|y r'] eqn:S.
    + cbn [app] in E. subst r. destruct (c =? 46) eqn:Ec.
      * exists (c :: t). split; [reflexivity|]. cbn [forallb]. unfold is_dot at 1. rewrite Ec, Ht. reflexivity.
      * exists t. split; [reflexivity| exact Ht].
    + exists t. split; [cbn [app] in *; f_equal; exact E| exact Ht].
Qed.

Lemma strip_td_forallb p l : forallb p l = true -> forallb p (strip_td l) = true.
Proof.
  intros H. destruct (strip_td_spec l) as [t [E _]]. rewrite E, forallb_app in H.
  apply andb_true_iff in H as [H _]. exact H.
Qed.

(* the result has no trailing dot: it is a fixed point *)
Lemma strip_td_idem l : strip_td (strip_td l) = strip_td l.
Proof.
  induction l as [|c r IH]; cbn [strip_td]; [reflexivity|].
  destruct (strip_td r) as [|y r'] eqn:S.
  - destruct (c =? 46) eqn:Ec; cbn [strip_td]; [reflexivity| rewrite Ec; reflexivity].
  - change (strip_td (c :: y :: r')) with
      (match strip_td (y :: r') with [] => if c =? 46 then [] else [c] | y' :: r'' => c :: y' :: r'' end).
    rewrite IH. reflexivity.
Qed.

Fixpoint split_dots (l : bytes) : list bytes :=
  match l with
  | [] => [[]]
  | c :: r => if c =? 46 then [] :: split_dots r
              else match split_dots r with x :: xs => (c :: x) :: xs | [] => [[c]] end
  end.
Definition nonempty (l : bytes) : bool := match l with [] => false | _ => true end.
Definition no_empty_label (h : bytes) : bool := forallb nonempty (split_dots h).

Lemma split_dots_cons l : exists x xs, split_dots l = x :: xs.
Proof.
  destruct l as [|c r]; cbn [split_dots]; [eexists; eexists; reflexivity|].
  destruct (c =? 46); [eexists; eexists; reflexivity|].
  destruct (split_dots r); eexists; eexists; reflexivity.
Qed.

Lemma strip_td_fix_tail c r : r <> [] -> strip_td (c :: r) = c :: r -> strip_td r = r.
Proof.
  intros Hr H. cbn [strip_td] in H. destruct (strip_td r) as [|y r'] eqn:S.
  - destruct (c =? 46); [discriminate|]. inversion H. subst r. contradiction.
  - inversion H. reflexivity.
Qed.

Lemma labels_aux l :
  l <> [] -> has_dotdot l = false -> strip_td l = l ->
  forallb nonempty (tl (split_dots l)) = true /\
  (starts_dot l = false -> forallb nonempty (split_dots l) = true).
Proof.
  induction l as [|c r IH]; intros Hne Hdd Hfix; [contradiction|].
  destruct r as [|d r'].
  - cbn [strip_td] in Hfix. unfold starts_dot. cbn [starts_ch split_dots]. destruct (c =? 46); [discriminate|].
    split; reflexivity.
  - assert (Hr : d :: r' <> []) by discriminate.
    cbn [has_dotdot] in Hdd. apply orb_false_iff in Hdd as [Hcd Hdd'].
    destruct (IH Hr Hdd' (strip_td_fix_tail c _ Hr Hfix)) as [IH1 IH2].
    change (starts_dot (c :: d :: r')) with (c =? 46). change (split_dots (c :: d :: r')) with
      (if c =? 46 then [] :: split_dots (d :: r')
       else match split_dots (d :: r') with x :: xs => (c :: x) :: xs | [] => [[c]] end).
    destruct (c =? 46).
    + split; [|discriminate]. apply IH2, Hcd.
    + destruct (split_dots_cons (d :: r')) as [x [xs E]]. rewrite E in *. split; [|intros _]; exact IH1.
Qed.

Lemma labels_ok h :
  h <> [] -> has_dotdot h = false -> starts_dot h = false -> strip_td h = h -> no_empty_label h = true.
Proof. intros H1 H2 H3 H4. exact (proj2 (labels_aux h H1 H2 H4) H3). Qed.

Definition upper (c : N) : bool := (65 <=? c) && (c <=? 90).
Definition no_upper (l : bytes) : Prop := forallb (fun c => negb (upper c)) l = true.

Lemma xtolower_not_upper_256 c : c < 256 -> negb (upper (xtolower c)) = true.
Proof. apply (forallb_bytes (fun c => negb (upper (xtolower c)))). vm_compute. reflexivity. Qed.

Lemma xtolower_not_upper c : negb (upper (xtolower c)) = true.
Proof.
  destruct (N.lt_ge_cases c 256) as [H|H]; [apply xtolower_not_upper_256, H|].
  assert (L : lenN uri_xtolower_tbl = 256) by (vm_compute; reflexivity).
  unfold xtolower. rewrite tbl_get_default by lia. unfold upper. lia.
Qed.

Lemma map_xtolower_no_upper l : no_upper (map xtolower l).
Proof.
  unfold no_upper. induction l as [|x l IH]; cbn [map forallb]; [reflexivity|].
  rewrite xtolower_not_upper, IH. reflexivity.
Qed.

(* finish(): what an accepted URI looks like *)

Lemma lower_host_no_upper c h : no_upper (lower_host c h).
Proof.
  unfold lower_host. destruct (existsb w_space (map xtolower h)); [|apply map_xtolower_no_upper].
  destruct (c_ws c); try apply map_xtolower_no_upper.
  apply forallb_filter, map_xtolower_no_upper.
Qed.

Lemma finish_inv c ipq sch login host port urlpath u :
  finish c ipq sch login host port urlpath = Some u ->
  let h3 := strip_td (lower_host c host) in
  u_scheme u = sch /\ u_login u = login /\ u_port u = Some port /\ 1 <= port <= 65535 /\
  ws_path c urlpath = Some (u_path u) /\
  (u_host u, u_num u) = set_host ipq h3 /\
  has_dotdot h3 = false /\ starts_dot h3 = false /\
  (c_check c = true -> forallb (hostchars c) (lower_host c host) = true) /\
  h3 <> [] /\ lenN h3 < uri_SQUIDHOSTNAMELEN.
Proof.
  intros H h3. unfold finish in H. fold h3 in H.
  destruct (c_check c && negb (forallb (hostchars c) (lower_host c host))) eqn:Hc; [discriminate|].
  destruct (is_nil h3 || (uri_SQUIDHOSTNAMELEN <=? lenN h3)) eqn:Hn; [discriminate|].
  apply orb_false_iff in Hn as [Hn1 Hn2].
  assert (Hne : h3 <> []) by (intros E; rewrite E in Hn1; discriminate).
  assert (Hlt : lenN h3 < uri_SQUIDHOSTNAMELEN) by (apply N.leb_gt; exact Hn2).
  clear Hn1 Hn2.
  destruct (has_dotdot h3 || starts_dot h3) eqn:Hd; [discriminate|].
  destruct ((port <? 1) || (65535 <? port)) eqn:Hp; [discriminate|].
  destruct (ws_path c urlpath) as [p|] eqn:Hw; [|discriminate].
  destruct (set_host ipq h3) as [h num] eqn:Hs.
  inversion H; subst u; clear H. cbn [u_scheme u_login u_port u_path u_host u_num].
  apply orb_false_iff in Hd as [Hd1 Hd2].
  repeat split; try reflexivity; try assumption; clear - Hc Hp; lia.
Qed.

Definition ip_charset (c : N) : bool :=
  ((48 <=? c) && (c <=? 57)) || ((97 <=? c) && (c <=? 102)) || (c =? 58) || (c =? 46).

(* shape of a text that the hostname rules leave alone *)
Definition plain_host (h : bytes) : Prop :=
  h <> [] /\ forallb ip_charset h = true /\ strip_td h = h /\ has_dotdot h = false /\ starts_dot h = false.

Section WithOracle.
  (* Ip::Address::fromHost / isAnyAddr / toHostStr — not modelled.  Assumed contract:
     a canonical text (the IpAddr answer) is either
       - a dotted quad: digits and dots only, no empty label, and recognised as itself, or
       - "[" inner "]" with inner made of 0-9 a-f : . only, containing a ':', not ending in '.',
         and inner is recognised as the same address.
     The check's oracle re-validates both clauses on every answer the harness gives. *)
  Variable ipq : bytes -> ipres.

  Definition v4_text (c : bytes) : Prop :=
    plain_host c /\ existsb (N.eqb colon) c = false /\ ipq c = IpAddr c.
  Definition v6_text (c : bytes) : Prop :=
    exists inner, c = 91 :: inner ++ [93] /\ plain_host inner /\ existsb (N.eqb colon) inner = true /\
                  ipq inner = IpAddr c.
  Definition ipq_contract : Prop := forall q c, ipq q = IpAddr c -> v4_text c \/ v6_text c.

  Lemma ip_charset_no_upper l : forallb ip_charset l = true -> no_upper l.
  Proof.
    apply forallb_impl. intros x H. unfold ip_charset in H. unfold upper. lia.
  Qed.

  Lemma contract_no_upper q c : ipq_contract -> ipq q = IpAddr c -> no_upper c.
  Proof.
    intros HC Hq. destruct (HC q c Hq) as [[[_ [Hcs _]] _]|[inner [E [[_ [Hcs _]] _]]]].
    - apply ip_charset_no_upper, Hcs.
    - subst c. unfold no_upper. cbn [forallb]. rewrite forallb_app. cbn [forallb].
      rewrite (ip_charset_no_upper _ Hcs). reflexivity.
  Qed.

  Lemma set_host_no_upper h : ipq_contract -> no_upper h -> no_upper (fst (set_host ipq h)).
  Proof.
    intros HC Hh. unfold set_host. destruct (ipq h) eqn:E; cbn [fst]; try (apply forallb_takeN_dropN, Hh).
    eapply contract_no_upper; eassumption.
  Qed.

  (* every accepted URI comes out of finish(), the '*' special case or the urn: branch *)
  Definition star_uri : uri :=
    {| u_scheme := scheme_http; u_login := []; u_host := []; u_num := false;
       u_port := default_port scheme_http; u_path := uri_asterisk |}.

  Lemma parse_urn_scheme sch r u : parse_urn ipq sch r = Some u -> s_id (u_scheme u) = uri_PROTO_URN.
  Proof.
    unfold parse_urn. destruct (tok_prefix nidChars 32 r) as [[nid r1]|]; [|discriminate].
    destruct (tok_skipChar colon r1) as [[|] r2]; [|discriminate].
    destruct (lenN nid <? 2); [discriminate|].
    destruct nid as [|c0 nid']; [discriminate|]. destruct (last_of (c0 :: nid')); [|discriminate].
    destruct (alphanum c0 && alphanum n); [|discriminate].
    destruct (set_host ipq (c0 :: nid')). intros H. inversion H. reflexivity.
  Qed.

  Lemma after_login_inv c sch login fh1 urlpath u :
    after_login c ipq sch login fh1 urlpath = Some u ->
    exists h port, finish c ipq sch login h port urlpath = Some u.
  Proof.
    unfold after_login. destruct (split_host_port fh1) as [h ptxt].
    destruct (if starts_ch 91 fh1 then is_nil h else is_nil fh1); [discriminate|].
    destruct (match ptxt with Some p => port_digits p 0 | None => _ end) as [port|]; [|discriminate].
    intros H. exists h, port. exact H.
  Qed.

  Lemma parse_inv c m raw u :
    parse c ipq m raw = Some u ->
    (u = star_uri /\ list_eqb raw uri_asterisk = true) \/
    (exists sch login h port urlpath, finish c ipq sch login h port urlpath = Some u) \/
    s_id (u_scheme u) = uri_PROTO_URN.
  Proof.
    unfold parse. destruct (uri_MAX_URL - 1 <? lenN raw); [discriminate|].
    destruct (is_star_method m && list_eqb raw uri_asterisk) eqn:Est.
    { intros H. inversion H. left. apply andb_true_iff in Est as [_ Est]. split; [reflexivity| exact Est]. }
    destruct (is_connect m).
    - destruct (parse_host_connect ipq raw) as [[rawHost r1]|]; [|discriminate].
      destruct (tok_skipChar colon r1) as [[|] r2]; [|discriminate].
      destruct (parse_port_connect r2) as [[port r3]|]; [|discriminate].
      destruct r3; [|discriminate]. intros H. right. left. do 5 eexists. exact H.
    - destruct (parse_scheme raw) as [[sch rest]|]; [|discriminate].
      destruct (s_id sch =? uri_PROTO_NONE); [discriminate|].
      destruct (s_id sch =? uri_PROTO_URN).
      + intros H. right. right. eapply parse_urn_scheme. exact H.
      + unfold parse_url. destruct (tok_skip [slash; slash] rest) as [[|] B]; [|discriminate].
        destruct (span (fun c0 => negb (host_delim c0)) (cstr B)) as [fh0 src].
        destruct (split_last 64 fh0) as [[a b]|]; intros H;
          apply after_login_inv in H; destruct H as [h [port H]]; right; left; do 5 eexists; exact H.
  Qed.

  (* (1a) accepted => host without upper-case letters *)
  Theorem accepted_host_lowercase c m raw u :
    ipq_contract -> parse c ipq m raw = Some u -> s_id (u_scheme u) <> uri_PROTO_URN ->
    no_upper (u_host u).
  Proof.
    intros HC H Hurn. apply parse_inv in H. destruct H as [H|[H|H]]; [| |contradiction].
    - destruct H as [-> _]. reflexivity.
    - destruct H as [sch [login [h [port [urlpath H]]]]]. apply finish_inv in H.
      destruct H as [_ [_ [_ [_ [_ [Hs _]]]]]].
      replace (u_host u) with (fst (set_host ipq (strip_td (lower_host c h)))) by (rewrite <- Hs; reflexivity).
      apply set_host_no_upper; [exact HC|]. apply strip_td_forallb, lower_host_no_upper.
  Qed.

  (* (1b) accepted => port in 1..65535 *)
  Lemma star_port : u_port star_uri = Some 80.
  Proof. vm_compute. reflexivity. Qed.

  Theorem accepted_port_in_range c m raw u :
    parse c ipq m raw = Some u -> s_id (u_scheme u) <> uri_PROTO_URN ->
    exists p, u_port u = Some p /\ 1 <= p <= 65535.
  Proof.
    intros H Hurn. apply parse_inv in H. destruct H as [H|[H|H]]; [| |contradiction].
    - destruct H as [-> _]. exists 80. split; [apply star_port| lia].
    - destruct H as [sch [login [h [port [urlpath H]]]]]. apply finish_inv in H.
      destruct H as [_ [_ [Hp [Hr _]]]]. exists port. split; assumption.
  Qed.

  (* (1c) accepted (not the asterisk-form), host not an IP literal => non-empty labels only *)
  Theorem accepted_host_labels c m raw u :
    parse c ipq m raw = Some u -> s_id (u_scheme u) <> uri_PROTO_URN ->
    list_eqb raw uri_asterisk = false -> u_num u = false ->
    u_host u <> [] /\ no_empty_label (u_host u) = true /\ lenN (u_host u) < uri_SQUIDHOSTNAMELEN.
  Proof.
    intros H Hurn Hstar Hnum. apply parse_inv in H. destruct H as [H|[H|H]]; [| |contradiction].
    - destruct H as [_ E]. rewrite E in Hstar. discriminate.
    - destruct H as [sch [login [h [port [urlpath H]]]]]. apply finish_inv in H.
      destruct H as [_ [_ [_ [_ [_ [Hs [Hdd [Hsd [_ [Hne Hlt]]]]]]]]]].
      set (h3 := strip_td (lower_host c h)) in *.
      assert (E : u_host u = h3).
      { unfold set_host in Hs. destruct (ipq h3); inversion Hs as [[Eh En]]; try (rewrite Hnum in En; discriminate);
          rewrite Eh; apply takeN_all; clear - Hlt; unfold uri_SQUIDHOSTNAMELEN in Hlt; lia. }
      rewrite E. split; [exact Hne|]. split; [|exact Hlt].
      apply labels_ok; try assumption. unfold h3. apply strip_td_idem.
  Qed.
End WithOracle.

(* refutations (witnesses by computation; each confirmed on the real code, corpus/C30/known.txt) *)

Definition no_ip : bytes -> ipres := fun _ => IpNo.
Lemma no_ip_contract : ipq_contract no_ip.
Proof. intros q c H. discriminate. Qed.

Definition cfg_default : cfg := {| c_check := false; c_underscore := true; c_ws := WsStrip |}.
Definition m_get : N := 1.

(* "http://example.com/a#f": the fragment delimiter is still percent-encoded *)
Definition w_fragment : bytes :=
  [104;116;116;112;58;47;47;101;120;97;109;112;108;101;46;99;111;109;47;97;35;102].
Theorem canonical_reparse_refuted_fragment :
  exists ipq c m raw u u', ipq_contract ipq /\ parse c ipq m raw = Some u /\
    parse c ipq m (canonical m u) = Some u' /\ u_path u' <> u_path u.
Proof.
  exists no_ip, cfg_default, m_get, w_fragment. eexists. eexists.
  split; [exact no_ip_contract|]. split; [vm_compute; reflexivity|].
  split; [vm_compute; reflexivity| vm_compute; discriminate].
Qed.

(* the query delimiter is kept now: "http://example.com/a?b=c" re-parses to itself *)
Definition w_query : bytes :=
  [104;116;116;112;58;47;47;101;120;97;109;112;108;101;46;99;111;109;47;97;63;98;61;99].
Example query_roundtrip :
  exists u, parse cfg_default no_ip m_get w_query = Some u /\ canonical m_get u = w_query /\
            parse cfg_default no_ip m_get (canonical m_get u) = Some u.
Proof. eexists. split; [vm_compute; reflexivity|]. split; vm_compute; reflexivity. Qed.

(* "urn:12:xyz" with an oracle that reads "12" as 0.0.0.12 (as inet_aton does) and satisfies the
   contract: the canonical form "urn:0.0.0.12:xyz" is rejected *)
Definition t_12 : bytes := [49;50].
Definition t_00012 : bytes := [48;46;48;46;48;46;49;50].
Definition ip_12 : bytes -> ipres :=
  fun q => if list_eqb q t_12 || list_eqb q t_00012 then IpAddr t_00012 else IpNo.
Lemma ip_12_contract : ipq_contract ip_12.
Proof.
  intros q c H. unfold ip_12 in H. destruct (list_eqb q t_12 || list_eqb q t_00012); [|discriminate].
  inversion H. subst c. left. unfold v4_text, plain_host.
  split; [split; [discriminate| repeat split; vm_compute; reflexivity]|]. split; vm_compute; reflexivity.
Qed.
Definition w_urn : bytes := [117;114;110;58;49;50;58;120;121;122].
Theorem canonical_reparse_refuted_urn_nid :
  exists ipq c m raw u, ipq_contract ipq /\ parse c ipq m raw = Some u /\
    parse c ipq m (canonical m u) = None.
Proof.
  exists ip_12, cfg_default, m_get, w_urn. eexists.
  split; [exact ip_12_contract|]. split; [vm_compute; reflexivity|]. vm_compute. reflexivity.
Qed.

(* "http://[a:80/" : host "a:80", canonical form "http://a:80/" means host "a" *)
Definition w_colon_host : bytes := [104;116;116;112;58;47;47;91;97;58;56;48;47].
Theorem canonical_reparse_refuted_colon_host :
  exists ipq c m raw u u', ipq_contract ipq /\ parse c ipq m raw = Some u /\
    parse c ipq m (canonical m u) = Some u' /\ u_host u' <> u_host u.
Proof.
  exists no_ip, cfg_default, m_get, w_colon_host. eexists. eexists.
  split; [exact no_ip_contract|]. split; [vm_compute; reflexivity|].
  split; [vm_compute; reflexivity| vm_compute; discriminate].
Qed.

(* RFC-shaped URIs: scheme "://" authority rest — what parse() computes *)

Lemma span_takeN_app {A} (p : A -> bool) a c x n :
  forallb p a = true -> p c = false -> lenN a <= n ->
  fst (span p (takeN n (a ++ c :: x))) = a.
Proof.
  intros Ha Hc Hn. rewrite takeN_app_ge by exact Hn. cbn [takeN]. destruct (n - lenN a =? 0).
  - rewrite app_nil_r, span_forall by exact Ha. reflexivity.
  - rewrite span_app_stop by assumption. reflexivity.
Qed.

Definition head_alpha (l : bytes) : bool := match l with c :: _ => cs_ALPHA c | [] => false end.

(* a scheme name as uriParseScheme accepts it *)
Definition scheme_text (s : bytes) : Prop :=
  forallb schemeChars s = true /\ lenN s <= 16 /\ head_alpha s = true.

Lemma parse_scheme_app s X : scheme_text s -> parse_scheme (s ++ colon :: X) = Some (scheme_of s, X).
Proof.
  intros [Hs [Hl Ha]]. unfold parse_scheme. rewrite tok_prefix_eq_spec. unfold prefix_spec.
  rewrite (span_takeN_app schemeChars s colon X 16 Hs eq_refl Hl).
  destruct s as [|c0 s']; [discriminate|].
  rewrite dropN_app_exact. unfold tok_skipChar. change (colon =? colon) with true. cbv iota.
  cbn [head_alpha] in Ha. rewrite Ha. reflexivity.
Qed.

Lemma tok_skip_slashes Y : tok_skip [slash; slash] (slash :: slash :: Y) = (true, Y).
Proof.
  unfold tok_skip. change (slash :: slash :: Y) with ([slash; slash] ++ Y).
  rewrite starts_with_app, dropN_app_exact. reflexivity.
Qed.

Definition nul_free_b (l : bytes) : bool := forallb (fun c => negb (c =? 0)) l.
Lemma cstr_app_nul_free a b : nul_free_b a = true -> cstr (a ++ b) = a ++ cstr b.
Proof.
  induction a as [|x a IH]; cbn [app]; [reflexivity|]. unfold nul_free_b. cbn [forallb]. intros H.
  apply andb_true_iff in H as [Hx Ha]. cbn [cstr]. apply negb_true_iff in Hx. rewrite Hx, (IH Ha). reflexivity.
Qed.

(* bytes that the authority loop copies into foundHost *)
Definition auth_char (c : N) : bool := negb (host_delim c) && negb (c =? 0).
(* the text after the authority: nothing, or it starts with a delimiter (or NUL) *)
Definition rest_ok (rest : bytes) : Prop :=
  match rest with [] => True | y :: _ => host_delim y = true \/ y = 0 end.

Lemma cstr_rest_stop rest : rest_ok rest ->
  match cstr rest with [] => True | y :: _ => negb (host_delim y) = false end.
Proof.
  destruct rest as [|y r]; cbn [cstr rest_ok]; [trivial|]. intros [H| ->].
  - destruct (y =? 0); [exact I|]. rewrite H. reflexivity.
  - exact I.
Qed.

Lemma split_last_none ch l : existsb (N.eqb ch) l = false -> split_last ch l = None.
Proof.
  induction l as [|x l IH]; cbn [existsb split_last]; [reflexivity|]. intros H.
  apply orb_false_iff in H as [Hx Hl]. rewrite (IH Hl). rewrite N.eqb_sym, Hx. reflexivity.
Qed.

Lemma split_last_app ch a b : existsb (N.eqb ch) b = false -> split_last ch (a ++ ch :: b) = Some (a, b).
Proof.
  intros Hb. induction a as [|x a IH]; cbn [app split_last].
  - rewrite (split_last_none ch b Hb), N.eqb_refl. reflexivity.
  - rewrite IH. reflexivity.
Qed.

Lemma split_first_app ch a b : existsb (N.eqb ch) a = false -> split_first ch (a ++ ch :: b) = Some (a, b).
Proof.
  induction a as [|x a IH]; cbn [app existsb split_first]; intros H.
  - rewrite N.eqb_refl. reflexivity.
  - apply orb_false_iff in H as [Hx Ha]. rewrite N.eqb_sym, Hx, (IH Ha). reflexivity.
Qed.

(* the two RFC shapes of host[:port] *)
Definition no_colon (l : bytes) : bool := negb (existsb (N.eqb colon) l).

Lemma split_host_port_name_port h P :
  starts_ch 91 h = false -> no_colon h = true -> no_colon P = true ->
  split_host_port (h ++ colon :: P) = (h, Some P).
Proof.
  unfold no_colon. intros Hb Hh HP. apply negb_true_iff in Hh, HP. unfold split_host_port.
  assert (E : starts_ch 91 (h ++ colon :: P) = false) by (destruct h; [reflexivity| exact Hb]).
  rewrite E, (split_last_app colon h P HP), Hh. reflexivity.
Qed.

Lemma split_host_port_name h :
  starts_ch 91 h = false -> no_colon h = true -> split_host_port h = (h, None).
Proof.
  unfold no_colon. intros Hb Hh. apply negb_true_iff in Hh. unfold split_host_port.
  rewrite Hb, (split_last_none colon h Hh). reflexivity.
Qed.

Definition no_rbracket (l : bytes) : bool := forallb (fun c => negb (c =? 93)) l.

Lemma split_host_port_literal_port inner P :
  no_rbracket inner = true ->
  split_host_port (91 :: inner ++ 93 :: colon :: P) = (inner, Some P).
Proof.
  intros Hi. unfold split_host_port. change (starts_ch 91 (91 :: inner ++ 93 :: colon :: P)) with true.
  cbv iota. cbn [tl]. rewrite (span_app_stop _ inner (93 :: colon :: P) Hi eq_refl).
  change (93 :: colon :: P) with ([93] ++ colon :: P). rewrite (split_first_app colon [93] P eq_refl). reflexivity.
Qed.

Lemma split_host_port_literal inner :
  no_rbracket inner = true -> split_host_port (91 :: inner ++ [93]) = (inner, None).
Proof.
  intros Hi. unfold split_host_port. change (starts_ch 91 (91 :: inner ++ [93])) with true.
  cbv iota. cbn [tl]. rewrite (span_app_stop _ inner [93] Hi eq_refl). reflexivity.
Qed.

(* the decimal reading of a digit string, the spec side of "the port written in the URI" *)
Definition dec_digit (c : N) : bool := (48 <=? c) && (c <=? 57).
Fixpoint dec_value (l : bytes) (acc : N) : N :=
  match l with [] => acc | c :: r => dec_value r (acc * 10 + (c - 48)) end.

Lemma xisdigit_is_dec_256 c : c < 256 -> Bool.eqb (xisdigit c) (dec_digit c) = true.
Proof. apply (forallb_bytes (fun c => Bool.eqb (xisdigit c) (dec_digit c))). vm_compute. reflexivity. Qed.
Lemma xisdigit_dec c : xisdigit c = true -> dec_digit c = true.
Proof.
  intros H. destruct (N.lt_ge_cases c 256) as [L|L].
  - pose proof (xisdigit_is_dec_256 c L) as E. rewrite H in E. destruct (dec_digit c); [reflexivity| discriminate].
  - unfold xisdigit, uri_xisdigit, mem_tbl in H. rewrite tbl_get_default in H; [discriminate|].
    assert (Len : lenN uri_xisdigit_tbl = 256) by (vm_compute; reflexivity). lia.
Qed.

Lemma port_digits_sound P : forall acc p,
  port_digits P acc = Some p -> forallb dec_digit P = true /\ p = dec_value P acc.
Proof.
  induction P as [|c r IH]; intros acc p; cbn [port_digits forallb dec_value].
  - intros H. inversion H. split; reflexivity.
  - destruct (negb (xisdigit c) || (65535 <? acc)) eqn:E; [discriminate|]. intros H.
    apply orb_false_iff in E as [Ed _]. apply negb_false_iff in Ed.
    destruct (IH _ _ H) as [Hr Hp]. rewrite (xisdigit_dec c Ed), Hr. split; [reflexivity| exact Hp].
Qed.

Section Shape.
  Variable ipq : bytes -> ipres.

  (* parse() on   scheme ":" "//" A rest   where A is what the authority loop copies *)
  Theorem parse_shape c m s A rest :
    is_connect m = false -> scheme_text s ->
    s_id (scheme_of s) <> uri_PROTO_NONE -> s_id (scheme_of s) <> uri_PROTO_URN ->
    forallb auth_char A = true -> rest_ok rest ->
    lenN (s ++ colon :: slash :: slash :: A ++ rest) <= uri_MAX_URL - 1 ->
    parse c ipq m (s ++ colon :: slash :: slash :: A ++ rest) =
      match split_last 64 A with
      | Some (a, b) => after_login c ipq (scheme_of s) (unesc_list a) b (urlpath_of (cstr rest))
      | None => after_login c ipq (scheme_of s) [] A (urlpath_of (cstr rest))
      end.
  Proof.
    intros Hm Hs Hnone Hurn HA Hrest Hlen. unfold parse.
    assert (L : (uri_MAX_URL - 1 <? lenN (s ++ colon :: slash :: slash :: A ++ rest)) = false) by (apply N.ltb_ge; exact Hlen).
    rewrite L, Hm.
    assert (St : list_eqb (s ++ colon :: slash :: slash :: A ++ rest) uri_asterisk = false).
    { apply not_true_is_false. intros E. apply list_eqb_eq in E. destruct s as [|? [|]]; discriminate E. }
    rewrite St, andb_false_r. rewrite (parse_scheme_app s _ Hs).
    apply N.eqb_neq in Hnone, Hurn. rewrite Hnone, Hurn.
    unfold parse_url. rewrite tok_skip_slashes.
    assert (HA' : nul_free_b A = true /\ forallb (fun c0 => negb (host_delim c0)) A = true).
    { split; (eapply forallb_impl; [|exact HA]); intros x Hx; apply andb_true_iff in Hx; apply Hx. }
    rewrite (cstr_app_nul_free A rest (proj1 HA')).
    rewrite (span_app_stop _ A (cstr rest) (proj2 HA') (cstr_rest_stop rest Hrest)). reflexivity.
  Qed.

  (* after_login on  name ":" P  and on  name  *)
  Lemma after_login_name_port c sch login h P urlpath :
    starts_ch 91 h = false -> no_colon h = true -> no_colon P = true ->
    after_login c ipq sch login (h ++ colon :: P) urlpath =
      match port_digits P 0 with
      | Some port => finish c ipq sch login h port urlpath
      | None => None
      end.
  Proof.
    intros Hb Hh HP. unfold after_login. rewrite (split_host_port_name_port h P Hb Hh HP).
    assert (E : starts_ch 91 (h ++ colon :: P) = false) by (destruct h; [reflexivity| exact Hb]).
    rewrite E. assert (N : is_nil (h ++ colon :: P) = false) by (destruct h; reflexivity).
    rewrite N. reflexivity.
  Qed.

  Lemma after_login_name c sch login h urlpath :
    starts_ch 91 h = false -> no_colon h = true -> h <> [] ->
    after_login c ipq sch login h urlpath =
      finish c ipq sch login h (match default_port sch with Some d => d | None => 0 end) urlpath.
  Proof.
    intros Hb Hh Hne. unfold after_login. rewrite (split_host_port_name h Hb Hh), Hb.
    destruct h; [contradiction| reflexivity].
  Qed.

  Lemma after_login_literal_port c sch login inner P urlpath :
    no_rbracket inner = true -> inner <> [] ->
    after_login c ipq sch login (91 :: inner ++ 93 :: colon :: P) urlpath =
      match port_digits P 0 with
      | Some port => finish c ipq sch login inner port urlpath
      | None => None
      end.
  Proof.
    intros Hi Hne. unfold after_login. rewrite (split_host_port_literal_port inner P Hi).
    change (starts_ch 91 (91 :: inner ++ 93 :: colon :: P)) with true. cbv iota.
    destruct inner; [contradiction| reflexivity].
  Qed.

  Lemma after_login_literal c sch login inner urlpath :
    no_rbracket inner = true -> inner <> [] ->
    after_login c ipq sch login (91 :: inner ++ [93]) urlpath =
      finish c ipq sch login inner (match default_port sch with Some d => d | None => 0 end) urlpath.
  Proof.
    intros Hi Hne. unfold after_login. rewrite (split_host_port_literal inner Hi).
    change (starts_ch 91 (91 :: inner ++ [93])) with true. cbv iota.
    destruct inner; [contradiction| reflexivity].
  Qed.

  (* (3) and the port half of (1), for RFC-shaped URIs
         scheme "://" [userinfo "@"] reg-name ":" P rest
     P is the text between the colon and the end of the authority.  If the URI is accepted then
     P is a non-empty string of decimal digits, its value is in 1..65535 and it IS the port. *)
  Definition userinfo_at (ui : bytes) : Prop :=            (* "" or userinfo "@" *)
    ui = [] \/ exists a, ui = a ++ [64] /\ forallb auth_char a = true.
  Definition no_at (l : bytes) : bool := negb (existsb (N.eqb 64) l).

  Lemma userinfo_auth ui : userinfo_at ui -> forallb auth_char ui = true.
  Proof.
    intros [->|[a [-> Ha]]]; [reflexivity|]. rewrite forallb_app, Ha. reflexivity.
  Qed.

  Lemma split_login ui hp : userinfo_at ui -> no_at hp = true ->
    match split_last 64 (ui ++ hp) with Some (_, b) => b = hp | None => ui = [] end.
  Proof.
    unfold no_at. intros Hui Hhp. apply negb_true_iff in Hhp. destruct Hui as [->|[a [-> Ha]]].
    - cbn [app]. rewrite (split_last_none 64 hp Hhp). reflexivity.
    - rewrite <- app_assoc. cbn [app]. rewrite (split_last_app 64 a hp Hhp). reflexivity.
  Qed.

  Lemma no_at_app a b : no_at (a ++ b) = no_at a && no_at b.
  Proof. unfold no_at. rewrite existsb_app. apply negb_orb. Qed.

  Lemma parse_len c m raw u : parse c ipq m raw = Some u -> lenN raw <= uri_MAX_URL - 1.
  Proof. unfold parse. destruct (uri_MAX_URL - 1 <? lenN raw) eqn:E; [discriminate|]. intros _. apply N.ltb_ge, E. Qed.

  (* parse() on   scheme "://" [userinfo "@"] hp rest   hands hp to after_login, with whatever login it read *)
  Lemma parse_shape_login c m s ui hp rest :
    is_connect m = false -> scheme_text s ->
    s_id (scheme_of s) <> uri_PROTO_NONE -> s_id (scheme_of s) <> uri_PROTO_URN ->
    userinfo_at ui -> forallb auth_char hp = true -> no_at hp = true -> rest_ok rest ->
    lenN (s ++ colon :: slash :: slash :: (ui ++ hp) ++ rest) <= uri_MAX_URL - 1 ->
    exists login, parse c ipq m (s ++ colon :: slash :: slash :: (ui ++ hp) ++ rest) =
                  after_login c ipq (scheme_of s) login hp (urlpath_of (cstr rest)).
  Proof.
    intros Hm Hs Hnone Hurn Hui Hhp Hat Hrest Hlen.
    rewrite (parse_shape c m s (ui ++ hp) rest) by (try assumption; rewrite forallb_app, (userinfo_auth ui Hui), Hhp; reflexivity).
    pose proof (split_login ui hp Hui Hat) as Hsl.
    destruct (split_last 64 (ui ++ hp)) as [[a b]|]; [subst b|subst ui]; eexists; reflexivity.
  Qed.

  Lemma port_is_written c sch login h P urlpath u :
    match port_digits P 0 with Some port => finish c ipq sch login h port urlpath | None => None end = Some u ->
    P <> [] /\ forallb dec_digit P = true /\ 1 <= dec_value P 0 <= 65535 /\ u_port u = Some (dec_value P 0).
  Proof.
    intros H. destruct (port_digits P 0) as [port|] eqn:Hpd; [|discriminate].
    destruct (port_digits_sound P 0 port Hpd) as [Hd Hv]. apply finish_inv in H.
    destruct H as (_ & _ & Hp & Hr & _). subst port.
    split; [|split; [exact Hd| split; [exact Hr| exact Hp]]].
    intros ->. cbn [dec_value] in Hr. clear - Hr. lia.
  Qed.

  Theorem shaped_port_is_written c m s ui h P rest u :
    is_connect m = false -> scheme_text s ->
    s_id (scheme_of s) <> uri_PROTO_NONE -> s_id (scheme_of s) <> uri_PROTO_URN ->
    userinfo_at ui ->
    forallb auth_char h = true -> no_at h = true -> no_colon h = true -> starts_ch 91 h = false ->
    forallb auth_char P = true -> no_at P = true -> no_colon P = true ->
    rest_ok rest ->
    parse c ipq m (s ++ colon :: slash :: slash :: (ui ++ h ++ colon :: P) ++ rest) = Some u ->
    P <> [] /\ forallb dec_digit P = true /\ 1 <= dec_value P 0 <= 65535 /\ u_port u = Some (dec_value P 0).
  Proof.
    intros Hm Hs Hnone Hurn Hui Hh Hha Hhc Hhb HP HPa HPc Hrest H.
    assert (Hhp : forallb auth_char (h ++ colon :: P) = true)
      by (rewrite forallb_app; cbn [forallb]; rewrite Hh, HP; reflexivity).
    assert (Hat : no_at (h ++ colon :: P) = true) by (rewrite no_at_app, Hha; exact HPa).
    destruct (parse_shape_login c m s ui _ rest Hm Hs Hnone Hurn Hui Hhp Hat Hrest (parse_len _ _ _ _ H)) as [login E].
    rewrite E, (after_login_name_port c _ login h P _ Hhb Hhc HPc) in H. exact (port_is_written _ _ _ _ _ _ _ H).
  Qed.

  (* the same after an IP literal: P may contain anything but '@' and delimiters *)
  Theorem shaped_literal_port_is_written c m s ui inner P rest u :
    is_connect m = false -> scheme_text s ->
    s_id (scheme_of s) <> uri_PROTO_NONE -> s_id (scheme_of s) <> uri_PROTO_URN ->
    userinfo_at ui ->
    forallb auth_char inner = true -> no_at inner = true -> no_rbracket inner = true ->
    forallb auth_char P = true -> no_at P = true ->
    rest_ok rest ->
    parse c ipq m (s ++ colon :: slash :: slash :: (ui ++ 91 :: inner ++ 93 :: colon :: P) ++ rest) = Some u ->
    P <> [] /\ forallb dec_digit P = true /\ 1 <= dec_value P 0 <= 65535 /\ u_port u = Some (dec_value P 0).
  Proof.
    intros Hm Hs Hnone Hurn Hui Hi Hia Hib HP HPa Hrest H.
    assert (Hhp : forallb auth_char (91 :: inner ++ 93 :: colon :: P) = true)
      by (cbn [forallb]; rewrite forallb_app; cbn [forallb]; rewrite Hi, HP; reflexivity).
    assert (Hat : no_at (91 :: inner ++ 93 :: colon :: P) = true)
      by (change (no_at ([91] ++ inner ++ 93 :: colon :: P) = true); rewrite !no_at_app, Hia; exact HPa).
    destruct (parse_shape_login c m s ui _ rest Hm Hs Hnone Hurn Hui Hhp Hat Hrest (parse_len _ _ _ _ H)) as [login E].
    rewrite E in H.
    (* "[]" : the host-must-be-present test rejects *)
    assert (Hne : inner <> []) by (intros ->; unfold after_login in H; cbn in H; discriminate H).
    rewrite (after_login_literal_port c _ login inner P _ Hib Hne) in H. exact (port_is_written _ _ _ _ _ _ _ H).
  Qed.

  (* without a port: the scheme's default port *)
  Theorem shaped_default_port c m s ui h rest u :
    is_connect m = false -> scheme_text s ->
    s_id (scheme_of s) <> uri_PROTO_NONE -> s_id (scheme_of s) <> uri_PROTO_URN ->
    userinfo_at ui ->
    forallb auth_char h = true -> no_at h = true -> no_colon h = true -> starts_ch 91 h = false ->
    rest_ok rest ->
    parse c ipq m (s ++ colon :: slash :: slash :: (ui ++ h) ++ rest) = Some u ->
    h <> [] /\ u_port u = default_port (scheme_of s) /\ u_scheme u = scheme_of s.
  Proof.
    intros Hm Hs Hnone Hurn Hui Hh Hha Hhc Hhb Hrest H.
    destruct (parse_shape_login c m s ui h rest Hm Hs Hnone Hurn Hui Hh Hha Hrest (parse_len _ _ _ _ H)) as [login E].
    rewrite E in H.
    assert (Hne : h <> []) by (intros ->; unfold after_login in H; cbn in H; discriminate H).
    split; [exact Hne|].
    rewrite (after_login_name c _ login h _ Hhb Hhc Hne) in H. apply finish_inv in H.
    destruct H as (Hsch & _ & Hp & Hr & _). split; [|exact Hsch]. rewrite Hp.
    destruct (default_port (scheme_of s)) as [d|]; [reflexivity| clear - Hr; lia].
  Qed.
End Shape.

(* "%hu" writes the decimal digits of the port, most significant first; read back from the left they give the port *)
Lemma dec_fuel_value f : forall n acc, n < 10 ^ N.of_nat f -> dec_value (dec_fuel f n acc) 0 = dec_value acc n.
Proof.
  induction f as [|f IH]; intros n acc Hn.
  - change (10 ^ N.of_nat 0) with 1 in Hn. now replace n with 0 by lia.
  - rewrite Nat2N.inj_succ, N.pow_succ_r' in Hn. cbn [dec_fuel]. cbv zeta.
    pose proof (N.div_mod n 10 ltac:(lia)) as E. pose proof (N.mod_lt n 10 ltac:(lia)) as L.
    assert (D : forall a, dec_value ((48 + n mod 10) :: acc) a = dec_value acc (a * 10 + n mod 10))
      by (intros a; cbn [dec_value]; f_equal; lia).
    destruct (N.eqb_spec (n / 10) 0) as [Z|Z].
    + rewrite D. f_equal. lia.
    + rewrite IH by (apply N.div_lt_upper_bound; lia). rewrite D. f_equal. lia.
Qed.

Lemma dec_fuel_forallb (P : N -> bool) : (forall d, d < 10 -> P (48 + d) = true) ->
  forall f n acc, forallb P acc = true -> forallb P (dec_fuel f n acc) = true.
Proof.
  intros HP. induction f as [|f IH]; intros n acc Ha; cbn [dec_fuel]; [exact Ha|]. cbv zeta.
  assert (Ha' : forallb P ((48 + n mod 10) :: acc) = true).
  { cbn [forallb]. rewrite Ha, HP by (apply N.mod_lt; lia). reflexivity. }
  destruct (n / 10 =? 0); [exact Ha' | now apply IH].
Qed.

Lemma dec_value_ge l : forall a, a <= dec_value l a.
Proof. induction l as [|x l IH]; intros a; cbn [dec_value]; [lia| specialize (IH (a * 10 + (x - 48))); lia]. Qed.

(* the converse of port_digits_sound: a digit string of value at most 65535 is read to its end *)
Lemma port_digits_complete P : forall acc, forallb xisdigit P = true -> dec_value P acc <= 65535 ->
  port_digits P acc = Some (dec_value P acc).
Proof.
  induction P as [|c r IH]; intros acc Hd Hv; cbn [port_digits dec_value forallb] in *; [reflexivity|].
  apply andb_true_iff in Hd as [Hc Hr]. rewrite Hc. cbn [negb orb].
  pose proof (dec_value_ge r (acc * 10 + (c - 48))) as Hm.
  destruct (N.ltb_spec 65535 acc) as [L|L]; [lia|]. now apply IH.
Qed.

(* what the canonical re-parse needs of each byte of a printed port; checked on the ten digits *)
Definition port_char (c : N) : bool := xisdigit c && negb (c =? colon) && negb (c =? 64) && auth_char c.

Lemma port_char_spec c : port_char c = true ->
  xisdigit c = true /\ (c =? colon) = false /\ (c =? 64) = false /\ auth_char c = true.
Proof. unfold port_char. rewrite !andb_true_iff, !negb_true_iff. tauto. Qed.

Lemma existsb_none {A} (p q : A -> bool) l :
  (forall x, p x = true -> q x = false) -> forallb p l = true -> existsb q l = false.
Proof.
  intros H Hl. apply not_true_is_false. intros E. apply existsb_exists in E as (x & Hin & Hq).
  rewrite forallb_forall in Hl. rewrite (H x (Hl x Hin)) in Hq. discriminate.
Qed.

Lemma port_text p : 1 <= p <= 65535 ->
  port_digits (dec16 p) 0 = Some p /\ no_colon (dec16 p) = true /\
  negb (existsb (N.eqb 64) (dec16 p)) = true /\ forallb auth_char (dec16 p) = true.
Proof.
  intros Hp. unfold dec16, no_colon. rewrite N.mod_small by lia.
  assert (HP : forallb port_char (dec_fuel 5 p []) = true).
  { apply dec_fuel_forallb; [|reflexivity]. intros d Hd.
    assert (C : forallb (fun d => port_char (48 + d)) [0;1;2;3;4;5;6;7;8;9] = true) by (vm_compute; reflexivity).
    rewrite forallb_forall in C. apply C. cbn [In]. lia. }
  pose proof (dec_fuel_value 5 p [] ltac:(cbn; lia)) as Hv. cbn [dec_value] in Hv.
  repeat split.
  - rewrite port_digits_complete, Hv; [reflexivity| |lia].
    eapply forallb_impl; [|exact HP]. intros x Hx. apply port_char_spec, Hx.
  - rewrite (existsb_none port_char); [reflexivity| |exact HP].
    intros x Hx. rewrite N.eqb_sym. apply port_char_spec, Hx.
  - rewrite (existsb_none port_char); [reflexivity| |exact HP].
    intros x Hx. rewrite N.eqb_sym. apply port_char_spec, Hx.
  - eapply forallb_impl; [|exact HP]. intros x Hx. apply port_char_spec, Hx.
Qed.

(* the bytes absolutePath() leaves alone (regenerated: PathChars() plus, since 3db1355, '?') *)
Definition path_kept : cset := mem_tbl bm_uri_path_set.
Definition path_kept_is (c : N) : bool := Bool.eqb (path_kept c) (uri_PathChars c || (c =? 63)).
Lemma path_kept_spec c : c < 256 -> path_kept c = uri_PathChars c || (c =? 63).
Proof.
  intros H. apply Bool.eqb_prop. revert c H. apply (forallb_bytes path_kept_is). vm_compute. reflexivity.
Qed.
Definition path_byte_ok (c : N) : bool :=
  negb (path_kept c) ||
  (list_eqb (tbl_entry bm_uri_path c) [c] && negb (c =? 0) && negb (is_crlf c) && negb (w_space c)).
Lemma path_byte_sweep c : c < 256 -> path_byte_ok c = true.
Proof. apply (forallb_bytes path_byte_ok). vm_compute. reflexivity. Qed.
Lemma pathchars_small c : path_kept c = true -> c < 256.
Proof.
  intros H. destruct (N.lt_ge_cases c 256) as [L|L]; [exact L|].
  unfold path_kept, mem_tbl in H. rewrite tbl_get_default in H; [discriminate|].
  assert (Len : lenN bm_uri_path_set = 256) by (vm_compute; reflexivity). lia.
Qed.
Lemma pathchar_facts c : path_kept c = true ->
  tbl_entry bm_uri_path c = [c] /\ (c =? 0) = false /\ is_crlf c = false /\ w_space c = false.
Proof.
  intros H. pose proof (path_byte_sweep c (pathchars_small c H)) as S. unfold path_byte_ok in S.
  rewrite H in S. cbn [negb orb] in S.
  apply andb_true_iff in S as [S S4]. apply andb_true_iff in S as [S S3]. apply andb_true_iff in S as [S1 S2].
  apply list_eqb_eq in S1. apply negb_true_iff in S2, S3, S4. repeat split; assumption.
Qed.

Definition clean_path (p : bytes) : Prop := starts_ch slash p = true /\ forallb path_kept p = true.

Lemma clean_encode p : forallb path_kept p = true -> uri_encode_path p = p.
Proof.
  unfold uri_encode_path, map_bytes. induction p as [|x p IH]; cbn [forallb map concat]; [reflexivity|].
  intros H. apply andb_true_iff in H as [Hx Hp]. destruct (pathchar_facts x Hx) as [E _].
  rewrite E, (IH Hp). reflexivity.
Qed.
Lemma clean_cstr p : forallb path_kept p = true -> cstr p = p.
Proof.
  intros H. rewrite <- (app_nil_r p) at 1. rewrite cstr_app_nul_free; [apply app_nil_r|].
  unfold nul_free_b. eapply forallb_impl; [|exact H]. intros x Hx. destruct (pathchar_facts x Hx) as (_ & -> & _). reflexivity.
Qed.
Lemma clean_span p : forallb path_kept p = true -> fst (span (fun c => negb (is_crlf c)) p) = p.
Proof.
  intros H. rewrite span_forall; [reflexivity|].
  eapply forallb_impl; [|exact H]. intros x Hx. destruct (pathchar_facts x Hx) as (_ & _ & -> & _). reflexivity.
Qed.
Lemma clean_no_ws p : forallb path_kept p = true -> existsb w_space p = false.
Proof. apply existsb_none. intros x Hx. apply (pathchar_facts x Hx). Qed.

(* the userinfo encoder of absolute() emits only bytes the authority loop copies *)
Definition ui_entry_ok (c : N) : bool := forallb auth_char (tbl_entry bm_uri_userinfo c).
Lemma ui_entry_sweep c : c < 256 -> ui_entry_ok c = true.
Proof. apply (forallb_bytes ui_entry_ok). vm_compute. reflexivity. Qed.
Lemma ui_entry_auth c : forallb auth_char (tbl_entry bm_uri_userinfo c) = true.
Proof.
  destruct (N.lt_ge_cases c 256) as [L|L]; [exact (ui_entry_sweep c L)|].
  unfold tbl_entry. rewrite tbl_get_default; [reflexivity|].
  apply N.le_trans with 256; [|exact L]. vm_compute. discriminate.
Qed.
Lemma encode_userinfo_auth l : forallb auth_char (uri_encode_userinfo l) = true.
Proof.
  apply forallb_concat_map. intros c _. apply ui_entry_auth.
Qed.

(* a host text that the hostname rules of finish() leave exactly as it is *)
Definition settled_host (c : cfg) (h : bytes) : Prop :=
  h <> [] /\ forallb auth_char h = true /\ no_at h = true /\ no_colon h = true /\ starts_ch 91 h = false /\
  lower_host c h = h /\ strip_td h = h /\ has_dotdot h = false /\ starts_dot h = false /\
  (c_check c = true -> forallb (hostchars c) h = true) /\ lenN h < uri_SQUIDHOSTNAMELEN.

Section Reparse.
  Variable ipq : bytes -> ipres.

  (* Re-parsing the canonical form of a URI value whose host is a settled reg-name (or a dotted quad
     that Ip::Address recognises as itself: hypothesis Hhost covers both) and whose path needs no
     encoding gives back the same scheme, host, port and path.  The login is re-read from the
     encoded userinfo (dropped for http/https). *)
  Theorem reparse_canonical c m u port :
    is_connect m = false ->
    scheme_text (s_img (u_scheme u)) -> scheme_of (s_img (u_scheme u)) = u_scheme u ->
    s_id (u_scheme u) <> uri_PROTO_NONE -> s_id (u_scheme u) <> uri_PROTO_URN ->
    u_port u = Some port -> 1 <= port <= 65535 ->
    settled_host c (u_host u) -> set_host ipq (u_host u) = (u_host u, u_num u) ->
    clean_path (u_path u) ->
    lenN (absolute u) <= uri_MAX_URL - 1 ->
    exists login',
      parse c ipq m (absolute u) =
        Some {| u_scheme := u_scheme u; u_login := login'; u_host := u_host u; u_num := u_num u;
                u_port := Some port; u_path := u_path u |}.
  Proof.
    intros Hm Hst Hso Hnone Hurn Hport Hrange Hh Hset [Hp0 Hpc] Hlen.
    destruct Hh as [Hne [Hha [Hhat [Hhc [Hhb [Hlow [Htd [Hdd [Hsd [Hck Hhl]]]]]]]]]].
    set (sch := u_scheme u) in *. set (h := u_host u) in *. set (path := u_path u) in *.
    (* the three parts of absolute() *)
    assert (Epath : absolute_path u = path).
    { unfold absolute_path, path_acc. fold path. destruct path as [|p0 pr] eqn:Ep; [discriminate|].
      rewrite <- Ep. apply clean_encode. rewrite Ep. exact Hpc. }
    set (ui := if ((s_id sch =? uri_PROTO_FTP) || (s_id sch =? uri_PROTO_UNKNOWN)) && negb (is_nil (u_login u))
               then uri_encode_userinfo (u_login u) ++ [64] else []).
    assert (Hui : userinfo_at ui).
    { unfold ui. destruct (_ && _); [right; eexists; split; [reflexivity| apply encode_userinfo_auth]| left; reflexivity]. }
    destruct (port_text port Hrange) as [Hpd [Hpc' [Hpa Hpauth]]].
    set (pp := if opt_n_eqb (Some port) (default_port sch) then [] else colon :: dec16 port).
    assert (Eabs : absolute u = s_img sch ++ colon :: slash :: slash :: (ui ++ h ++ pp) ++ path).
    { unfold absolute. fold sch h. apply N.eqb_neq in Hurn. rewrite Hurn. cbn [negb]. rewrite Epath.
      unfold authority. fold h sch. rewrite Hport. cbn [orb]. fold ui. unfold pp.
      destruct (opt_n_eqb (Some port) (default_port sch)); cbn [negb];
        rewrite <- ?app_assoc; cbn [app]; rewrite ?app_nil_r; reflexivity. }
    rewrite Eabs in Hlen |- *.
    assert (Hrest : rest_ok path).
    { destruct path as [|p0 pr]; [exact I|]. cbn [starts_ch] in Hp0. apply N.eqb_eq in Hp0. subst p0.
      left. reflexivity. }
    assert (HA : forallb auth_char (h ++ pp) = true).
    { rewrite forallb_app, Hha. unfold pp.
      destruct (opt_n_eqb _ _); [reflexivity|]. cbn [forallb]. rewrite Hpauth. reflexivity. }
    assert (Hhp : no_at (h ++ pp) = true).
    { rewrite no_at_app, Hhat. unfold pp. destruct (opt_n_eqb _ _); [reflexivity|exact Hpa]. }
    destruct (parse_shape_login ipq c m (s_img sch) ui (h ++ pp) path Hm Hst) as [login E];
      try rewrite Hso; try assumption.
    exists login. rewrite E, Hso.
    (* the tail of parse() on the re-read text *)
    replace (urlpath_of (cstr path)) with path
      by (rewrite (clean_cstr path Hpc); unfold urlpath_of; rewrite Hp0; symmetry; apply clean_span, Hpc).
    transitivity (finish c ipq sch login h port path).
    { unfold pp. destruct (opt_n_eqb (Some port) (default_port sch)) eqn:Ed.
      - rewrite app_nil_r, (after_login_name ipq c sch login h path Hhb Hhc Hne).
        destruct (default_port sch) as [d|]; [|discriminate]. apply N.eqb_eq in Ed. subst d. reflexivity.
      - rewrite (after_login_name_port ipq c sch login h (dec16 port) path Hhb Hhc Hpc'), Hpd. reflexivity. }
    unfold finish. rewrite Hlow, Htd.
    assert (Nn : is_nil h || (uri_SQUIDHOSTNAMELEN <=? lenN h) = false).
    { destruct h as [|h0 h']; [contradiction|]. apply N.leb_gt. exact Hhl. }
    rewrite Nn, Hdd, Hsd. cbn [orb].
    assert (Ck : c_check c && negb (forallb (hostchars c) h) = false).
    { destruct (c_check c); [rewrite (Hck eq_refl)|]; reflexivity. }
    rewrite Ck. assert (Pr : (port <? 1) || (65535 <? port) = false) by (clear - Hrange; lia). rewrite Pr.
    unfold ws_path. rewrite (clean_no_ws path Hpc), Hset. reflexivity.
  Qed.

  Corollary canonical_fixed_point c m u port :
    is_connect m = false ->
    (s_id (u_scheme u) =? uri_PROTO_FTP) || (s_id (u_scheme u) =? uri_PROTO_UNKNOWN) = false ->
    scheme_text (s_img (u_scheme u)) -> scheme_of (s_img (u_scheme u)) = u_scheme u ->
    s_id (u_scheme u) <> uri_PROTO_NONE -> s_id (u_scheme u) <> uri_PROTO_URN ->
    u_port u = Some port -> 1 <= port <= 65535 ->
    settled_host c (u_host u) -> set_host ipq (u_host u) = (u_host u, u_num u) ->
    clean_path (u_path u) ->
    lenN (absolute u) <= uri_MAX_URL - 1 ->
    exists u', parse c ipq m (absolute u) = Some u' /\ absolute u' = absolute u.
  Proof.
    intros Hm Hnoui Hst Hso Hnone Hurn Hport Hrange Hh Hset Hp Hlen.
    destruct (reparse_canonical c m u port Hm Hst Hso Hnone Hurn Hport Hrange Hh Hset Hp Hlen) as [login' H].
    eexists. split; [exact H|]. unfold absolute, authority, absolute_path, path_acc.
    cbn [u_scheme u_login u_host u_port u_path]. rewrite Hnoui, Hport. cbn [andb]. reflexivity.
  Qed.
End Reparse.
