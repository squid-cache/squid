(* AcldomProofs.v — proofs for C41 (domain-name ACLs) about AcldomModel.v.

   Plan. Every byte gets a key (0 for '.', 1 + xtolower(c) otherwise); a name is
   read as the list of the keys of its characters from the END of the string
   ([rk]). In the lexicographic order of key lists every value denotes a
   half-open interval [lo v, lo v ++ [ext v]) — a single point for a plain
   name, "the root and everything that continues it with a dot" for a value
   with a leading dot — and
     * matchDomainName(h, v) is the position of rk h relative to that interval
       ([mdn_pos]);
     * Compare(a, b) is -1 / +1 when the two intervals are disjoint (in that
       order) and 0 when they overlap ([dcompare_neg], [dcompare_pos]);
     * IsSubset decides inclusion of overlapping intervals ([subset_sound],
       [subset_total]).
   The tree kept by Merge() stays sorted by "interval entirely before"
   ([sd]); both comparators are sign-monotone along such a sequence, so the
   SplayProofs theorems apply. *)
Require Import SquidV.Bytes SquidV.SplayModel SquidV.SplayProofs SquidV.AcldomModel.
Require Import SquidV.gen.AclDom_gen.
Require Import ZifyBool ZifyN ZifyNat.
Local Open Scope N_scope.

Definition lower_ok (c : N) : bool :=
  (lower (lower c) =? lower c) && Bool.eqb (lower c =? dot) (c =? dot).

Lemma lower_ok_all c : lower_ok c = true.
Proof.
  destruct (N.ltb_spec c 256) as [H|H].
  - apply (forallb_bytes lower_ok); [vm_compute; reflexivity| exact H].
  - unfold lower_ok, lower.
    destruct (N.ltb_spec c 256) as [H'|_]; [lia|].
    destruct (N.ltb_spec c 256) as [H'|_]; [lia|].
    rewrite N.eqb_refl. cbn [andb]. apply Bool.eqb_reflx.
Qed.

Lemma lower_idem c : lower (lower c) = lower c.
Proof.
  pose proof (lower_ok_all c) as H. unfold lower_ok in H. apply andb_prop in H. destruct H as [H _].
  apply N.eqb_eq, H.
Qed.

Lemma lower_dot c : lower c = dot <-> c = dot.
Proof.
  pose proof (lower_ok_all c) as H. unfold lower_ok in H. apply andb_prop in H. destruct H as [_ H].
  apply Bool.eqb_prop in H. rewrite <- !N.eqb_eq. rewrite H. reflexivity.
Qed.

Lemma lower_dot_self : lower dot = dot.
Proof. apply lower_dot. reflexivity. Qed.

Definition key (c : N) : N := if c =? dot then 0 else N.succ (lower c).

Lemma key_zero c : key c = 0 <-> c = dot.
Proof. unfold key. destruct (N.eqb_spec c dot); split; intros; try lia; congruence. Qed.

Lemma key_lower c : key (lower c) = key c.
Proof.
  unfold key. rewrite lower_idem.
  destruct (N.eqb_spec c dot) as [->|Hc].
  - rewrite lower_dot_self, N.eqb_refl. reflexivity.
  - destruct (N.eqb_spec (lower c) dot) as [E|_]; [apply (proj1 (lower_dot c)) in E; contradiction| reflexivity].
Qed.

Lemma key_eq_iff x y : key x = key y <-> lower x = lower y.
Proof.
  unfold key.
  destruct (N.eqb_spec x dot) as [->|Hx]; destruct (N.eqb_spec y dot) as [->|Hy].
  - tauto.
  - rewrite lower_dot_self. split; [lia|]. intros E. symmetry in E. apply (proj1 (lower_dot y)) in E. contradiction.
  - rewrite lower_dot_self. split; [lia|]. intros E. apply (proj1 (lower_dot x)) in E. contradiction.
  - split; [lia| intros ->; reflexivity].
Qed.

Fixpoint lex (a b : list N) : comparison :=
  match a, b with
  | [], [] => Eq
  | [], _ :: _ => Lt
  | _ :: _, [] => Gt
  | x :: a', y :: b' => match x ?= y with Eq => lex a' b' | c => c end
  end.

Definition llt (a b : list N) : Prop := lex a b = Lt.
Definition lle (a b : list N) : Prop := lex a b <> Gt.

Lemma lex_refl a : lex a a = Eq.
Proof. induction a as [|x a IH]; cbn [lex]; [reflexivity|]. now rewrite N.compare_refl. Qed.

Lemma lex_eq a : forall b, lex a b = Eq -> a = b.
Proof.
  induction a as [|x a IH]; intros [|y b]; cbn [lex]; try discriminate; [reflexivity|].
  destruct (x ?= y) eqn:E; try discriminate. apply N.compare_eq in E. subst. intros H. f_equal. apply IH, H.
Qed.

Lemma lex_antisym a : forall b, lex b a = CompOpp (lex a b).
Proof.
  induction a as [|x a IH]; intros [|y b]; cbn [lex CompOpp]; try reflexivity.
  rewrite (N.compare_antisym x y). destruct (x ?= y); cbn [CompOpp]; [apply IH| reflexivity| reflexivity].
Qed.

Lemma lex_trans a : forall b c, lex a b = Lt -> lex b c = Lt -> lex a c = Lt.
Proof.
  induction a as [|x a IH]; intros [|y b] [|z c]; cbn [lex]; try discriminate; try reflexivity.
  destruct (x ?= y) eqn:E1; try discriminate.
  - apply N.compare_eq in E1. subst y. destruct (x ?= z); try discriminate; [apply IH| reflexivity].
  - intros _. destruct (y ?= z) eqn:E2; try discriminate.
    + apply N.compare_eq in E2. subst z. rewrite E1. reflexivity.
    + intros _. rewrite N.compare_lt_iff in *. assert (H : x < z) by lia. unfold N.lt in H. rewrite H. reflexivity.
Qed.

Lemma llt_irrefl a : ~ llt a a.
Proof. unfold llt. rewrite lex_refl. discriminate. Qed.

Lemma llt_trans a b c : llt a b -> llt b c -> llt a c.
Proof. apply lex_trans. Qed.

Lemma lle_refl a : lle a a.
Proof. unfold lle. rewrite lex_refl. discriminate. Qed.

Lemma llt_lle a b : llt a b -> lle a b.
Proof. unfold llt, lle. intros ->. discriminate. Qed.

Lemma lle_cases a b : lle a b <-> llt a b \/ a = b.
Proof.
  unfold lle, llt. destruct (lex a b) eqn:E.
  - apply lex_eq in E. split; [auto| discriminate].
  - split; [auto| discriminate].
  - split; [congruence|]. intros [H|H]; [discriminate|]. subst. rewrite lex_refl in E. discriminate.
Qed.

Lemma not_lle a b : ~ lle a b <-> llt b a.
Proof.
  unfold lle, llt. rewrite (lex_antisym a b).
  destruct (lex a b); cbn [CompOpp]; split; intros H; try congruence; try discriminate;
    try (exfalso; apply H; discriminate).
Qed.

Lemma not_llt a b : ~ llt a b <-> lle b a.
Proof.
  unfold lle, llt. rewrite (lex_antisym a b).
  destruct (lex a b); cbn [CompOpp]; split; intros H; try congruence; try discriminate;
    try (exfalso; apply H; reflexivity).
Qed.

Lemma llt_lle_trans a b c : llt a b -> lle b c -> llt a c.
Proof. intros H1 H2. apply lle_cases in H2. destruct H2 as [H2| ->]; [eapply llt_trans; eassumption| exact H1]. Qed.

Lemma lle_llt_trans a b c : lle a b -> llt b c -> llt a c.
Proof. intros H1 H2. apply lle_cases in H1. destruct H1 as [H1| ->]; [eapply llt_trans; eassumption| exact H2]. Qed.

Lemma lle_trans a b c : lle a b -> lle b c -> lle a c.
Proof.
  intros H1 H2. apply lle_cases in H1. destruct H1 as [H1| ->]; [|exact H2].
  apply llt_lle. eapply llt_lle_trans; eassumption.
Qed.

Lemma llt_snoc a e : llt a (a ++ [e]).
Proof. unfold llt. induction a as [|x a IH]; cbn [lex app]; [reflexivity|]. now rewrite N.compare_refl. Qed.

(* position of a point q relative to the half-open interval [P, P ++ [e]) *)
Fixpoint pos (q P : list N) (e : N) : comparison :=
  match q, P with
  | [], [] => Eq
  | [], _ :: _ => Lt
  | x :: _, [] => if x <? e then Eq else Gt
  | x :: q', y :: P' => match x ?= y with Eq => pos q' P' e | c => c end
  end.

Lemma pos_Lt q : forall P e, pos q P e = Lt <-> llt q P.
Proof.
  unfold llt. induction q as [|x q IH]; intros [|y P] e; cbn [pos lex]; try tauto.
  - destruct (x <? e); split; discriminate.
  - destruct (x ?= y); [apply IH| tauto| tauto].
Qed.

Lemma pos_Gt q : forall P e, pos q P e = Gt <-> lle (P ++ [e]) q.
Proof.
  unfold lle. induction q as [|x q IH]; intros [|y P] e; cbn [pos lex app].
  - split; [discriminate| intros H; exfalso; apply H; reflexivity].
  - split; [discriminate| intros H; exfalso; apply H; reflexivity].
  - rewrite (N.compare_antisym x e). destruct (N.ltb_spec x e) as [H|H].
    + unfold N.lt in H. rewrite H. cbn [CompOpp]. split; [discriminate| intros G; exfalso; apply G; reflexivity].
    + destruct (x ?= e) eqn:E; cbn [CompOpp].
      * split; [intros _|reflexivity]. destruct q; discriminate.
      * exfalso. rewrite N.compare_lt_iff in E. lia.
      * split; [intros _; discriminate| reflexivity].
  - rewrite (N.compare_antisym x y). destruct (x ?= y); cbn [CompOpp]; [apply IH| |].
    + split; [discriminate| intros G; exfalso; apply G; reflexivity].
    + split; [intros _; discriminate| reflexivity].
Qed.

Lemma pos_Eq q : forall P e, pos q P e = Eq <-> q = P \/ exists x w, q = P ++ x :: w /\ x < e.
Proof.
  induction q as [|x q IH]; intros [|y P] e; cbn [pos app].
  - split; [auto| reflexivity].
  - split; [discriminate|]. intros [H|(x & w & H & _)]; [discriminate| destruct P; discriminate].
  - destruct (N.ltb_spec x e) as [H|H].
    + split; [intros _; right; exists x, q; auto| reflexivity].
    + split; [discriminate|]. intros [G|(x' & w & G & L)]; [discriminate|]. inversion G; subst. lia.
  - destruct (x ?= y) eqn:E.
    + apply N.compare_eq in E. subst y. rewrite IH. split.
      * intros [->|(x' & w & -> & L)]; [left; reflexivity| right; exists x', w; auto].
      * intros [G|(x' & w & G & L)]; [inversion G; auto| inversion G; subst; right; exists x', w; auto].
    + split; [discriminate|]. intros [G|(x' & w & G & L)]; inversion G; subst; rewrite N.compare_refl in E; discriminate.
    + split; [discriminate|]. intros [G|(x' & w & G & L)]; inversion G; subst; rewrite N.compare_refl in E; discriminate.
Qed.

Definition rk (s : bytes) : list N := map key (rev s).
Definition root1 (v : bytes) : bytes := if first_is_dot v then tl v else v.
Definition lo (v : bytes) : list N := rk (root1 v).
Definition ext (v : bytes) : N := if first_is_dot v then 1 else 0.
Definition hi (v : bytes) : list N := lo v ++ [ext v].
Definition vpos (q : list N) (v : bytes) : comparison := pos q (lo v) (ext v).

(* a domain value: a non-empty name that does not start with '.', optionally preceded by one '.' *)
Definition wf (v : bytes) : Prop := root1 v <> [] /\ first_is_dot (root1 v) = false.

Lemma lo_lt_hi v : llt (lo v) (hi v).
Proof. apply llt_snoc. Qed.

Lemma vpos_Lt q v : vpos q v = Lt <-> llt q (lo v).
Proof. apply pos_Lt. Qed.
Lemma vpos_Gt q v : vpos q v = Gt <-> lle (hi v) q.
Proof. apply pos_Gt. Qed.

Lemma vpos_lo v : vpos (lo v) v = Eq.
Proof. apply pos_Eq. left. reflexivity. Qed.

Local Open Scope Z_scope.

Definition sign_is (c : comparison) (z : Z) : Prop :=
  match c with Lt => z < 0 | Eq => z = 0 | Gt => z > 0 end.

Lemma mdn_loop_pos (fd : bool) : forall rh rP, rh <> [] ->
  rP ++ (if fd then [dot] else []) <> [] ->
  sign_is (pos (map key rh) (map key rP) (if fd then 1%N else 0%N))
          (mdn_loop fd rh (rP ++ (if fd then [dot] else []))).
Proof.
  induction rh as [|x rh IH]; intros rP Hne Hrd; [congruence|]. clear Hne.
  destruct rP as [|y rP].
  - (* only the leading dot of d is left *)
    destruct fd; [|cbn [app] in Hrd; congruence]. cbn [app map pos mdn_loop].
    destruct (N.eqb_spec (lower x) (lower dot)) as [E|E].
    + rewrite lower_dot_self in E. apply (proj1 (lower_dot x)) in E. subst x.
      change (key dot) with 0%N. cbn [N.ltb N.compare]. destruct rh; cbn; reflexivity.
    + rewrite N.eqb_refl.
      assert (Hk : key x <> 0%N) by (rewrite key_zero; intros ->; apply E; reflexivity).
      destruct (N.ltb_spec (key x) 1); [lia|]. cbn. lia.
  - cbn [app map pos]. cbn [mdn_loop].
    destruct (N.eqb_spec (lower x) (lower y)) as [E|E].
    + assert (Ek : key x = key y) by (apply key_eq_iff, E). rewrite Ek, N.compare_refl.
      destruct rh as [|x2 rh].
      * (* h exhausted *)
        cbn [map pos].
        destruct rP as [|y2 rP]; cbn [app map].
        -- destruct fd; cbn; reflexivity.
        -- cbn [lenN]. destruct fd; cbn [andb sign_is].
           ++ destruct (N.eqb_spec (N.succ (lenN (rP ++ [dot]))) 1) as [H|H]; [|cbn; lia].
              exfalso. rewrite lenN_app in H. cbn [lenN] in H. lia.
           ++ rewrite andb_false_r. lia.
      * destruct rP as [|y2 rP].
        -- destruct fd; cbn [app].
           ++ apply (IH [] ltac:(discriminate) ltac:(discriminate)).
           ++ cbn [map pos]. destruct (N.ltb_spec (key x2) 0); [lia|]. cbn. lia.
        -- cbn [app]. apply (IH (y2 :: rP) ltac:(discriminate)). cbn [app]. discriminate.
    + assert (Ek : key x <> key y) by (rewrite key_eq_iff; exact E).
      destruct (N.eqb_spec y dot) as [Hy|Hy].
      * subst y. change (key dot) with 0%N in *.
        destruct (key x ?= 0)%N eqn:C; [apply N.compare_eq in C; congruence| rewrite N.compare_lt_iff in C; lia| cbn; lia].
      * destruct (N.eqb_spec x dot) as [Hx|Hx].
        -- subst x. change (key dot) with 0%N in *.
           destruct (0 ?= key y)%N eqn:C; [apply N.compare_eq in C; congruence| cbn; lia| rewrite N.compare_gt_iff in C; lia].
        -- unfold key. destruct (N.eqb_spec x dot); [contradiction|]. destruct (N.eqb_spec y dot); [contradiction|].
           destruct (N.compare_spec (N.succ (lower x)) (N.succ (lower y))) as [C|C|C]; cbn [sign_is]; lia.
Qed.

Lemma strip_dots_idem h : first_is_dot (strip_dots h) = false.
Proof.
  induction h as [|c h IH]; cbn [strip_dots first_is_dot]; [reflexivity|].
  destruct (N.eqb_spec c dot) as [E|E]; [exact IH|]. cbn [first_is_dot]. apply N.eqb_neq, E.
Qed.

Lemma strip_dots_id h : first_is_dot h = false -> strip_dots h = h.
Proof. destruct h as [|c h]; cbn [first_is_dot strip_dots]; [reflexivity|]. intros ->. reflexivity. Qed.

Lemma rev_root1 d : d <> [] -> rev d = rev (root1 d) ++ (if first_is_dot d then [dot] else []).
Proof.
  destruct d as [|c d]; [congruence|]. intros _. unfold root1. cbn [first_is_dot].
  destruct (N.eqb_spec c dot) as [->|E]; cbn [tl rev]; [reflexivity| now rewrite app_nil_r].
Qed.

(* matchDomainName(h, d) is the position of the (dot-stripped) host relative to the interval of d *)
Theorem mdn_pos h d : d <> [] -> strip_dots h <> [] ->
  sign_is (vpos (rk (strip_dots h)) d) (matchDomainName h d).
Proof.
  intros Hd Hh. unfold matchDomainName.
  destruct (strip_dots h) as [|c h'] eqn:Eh; [congruence|].
  destruct d as [|c0 d']; [congruence|].
  pose proof (rev_root1 (c0 :: d') Hd) as Hr. rewrite Hr.
  unfold vpos, lo, ext, rk.
  assert (Hrh : rev (c :: h') <> []) by (cbn [rev]; destruct (rev h'); discriminate).
  assert (Hrd : rev (root1 (c0 :: d')) ++ (if first_is_dot (c0 :: d') then [dot] else []) <> [])
    by (rewrite <- Hr; cbn [rev]; destruct (rev d'); discriminate).
  exact (mdn_loop_pos (first_is_dot (c0 :: d')) (rev (c :: h')) (rev (root1 (c0 :: d'))) Hrh Hrd).
Qed.

Lemma mdn_empty_host h d : strip_dots h = [] -> matchDomainName h d = -1.
Proof. intros E. unfold matchDomainName. rewrite E. reflexivity. Qed.

Lemma sign_is_lt c z : sign_is c z -> (z < 0 <-> c = Lt).
Proof. destruct c; cbn [sign_is]; intros H; split; intros G; try discriminate; try lia; reflexivity. Qed.
Lemma sign_is_eq c z : sign_is c z -> (z = 0 <-> c = Eq).
Proof. destruct c; cbn [sign_is]; intros H; split; intros G; try discriminate; try lia; reflexivity. Qed.
Lemma sign_is_gt c z : sign_is c z -> (z > 0 <-> c = Gt).
Proof. destruct c; cbn [sign_is]; intros H; split; intros G; try discriminate; try lia; reflexivity. Qed.

(* the value "." (every name ending in a dot) *)
Definition dotv : bytes := [dot].

(* What parse() hands to Merge() for a non-empty token: a well-formed value or ".". *)
Definition wfx (v : bytes) : Prop := wf v \/ v = dotv.

Lemma classic_dotv (a b : bytes) : (a = dotv /\ b = dotv) \/ ~ (a = dotv /\ b = dotv).
Proof.
  destruct (list_eq_dec N.eq_dec a dotv) as [Ha|Ha]; [|right; tauto].
  destruct (list_eq_dec N.eq_dec b dotv) as [Hb|Hb]; [left; auto| right; tauto].
Qed.

Lemma wf_nonempty v : wf v -> v <> [].
Proof. intros [H _] ->. apply H. reflexivity. Qed.

Lemma wfx_nonempty v : wfx v -> v <> [].
Proof. intros [H| ->]; [apply wf_nonempty, H| discriminate]. Qed.

Lemma wf_not_dotv v : wf v -> v <> dotv.
Proof. intros [H _] ->. apply H. reflexivity. Qed.

Lemma wf_strip v : wf v -> strip_dots v = root1 v.
Proof.
  intros [Hne Hd]. unfold root1 in *. destruct v as [|c v]; [reflexivity|].
  cbn [first_is_dot strip_dots tl] in *. destruct (N.eqb_spec c dot) as [E|E].
  - apply strip_dots_id, Hd.
  - reflexivity.
Qed.

Lemma wf_lo_nonempty v : wf v -> lo v <> [].
Proof.
  intros [H _]. unfold lo, rk. destruct (root1 v) as [|c r]; [congruence|].
  cbn [rev]. destruct (rev r); discriminate.
Qed.

(* matchDomainName between two stored-style values; the only pair it gets "wrong" is (".", ".") *)
Lemma mdn_wfx a b : wfx a -> wfx b -> ~ (a = dotv /\ b = dotv) ->
  sign_is (vpos (lo a) b) (matchDomainName a b).
Proof.
  intros [Ha| ->] Hb Hne.
  - pose proof (mdn_pos a b (wfx_nonempty b Hb)) as H.
    rewrite (wf_strip a Ha) in H. apply H. apply Ha.
  - destruct Hb as [Hb| ->]; [|exfalso; apply Hne; auto].
    rewrite (mdn_empty_host dotv b) by (vm_compute; reflexivity).
    unfold vpos. change (lo dotv) with (@nil N).
    pose proof (wf_lo_nonempty b Hb) as Hl. destruct (lo b); [congruence|]. cbn. lia.
Qed.

(* the interval of a lies entirely before the interval of b *)
Definition before (a b : bytes) : Prop := lle (hi a) (lo b).

Lemma before_lo a b : before a b -> llt (lo a) (lo b).
Proof. intros H. eapply llt_lle_trans; [apply lo_lt_hi| exact H]. Qed.

Lemma before_trans a b c : before a b -> before b c -> before a c.
Proof.
  unfold before. intros H1 H2. apply llt_lle.
  eapply lle_llt_trans; [exact H1|]. eapply llt_lle_trans; [apply lo_lt_hi| exact H2].
Qed.

Lemma before_irrefl a : ~ before a a.
Proof. intros H. apply before_lo in H. exact (llt_irrefl _ H). Qed.

Lemma before_dotv_r x : ~ before x dotv.
Proof.
  unfold before, lle, hi. change (lo dotv) with (@nil N). intros H. apply H.
  destruct (lo x); reflexivity.
Qed.

Theorem dcompare_neg a b : wfx a -> wfx b -> ~ (a = dotv /\ b = dotv) -> (dcompare a b < 0 <-> before a b).
Proof.
  intros Ha Hb Hne. pose proof (mdn_wfx a b Ha Hb Hne) as Sab.
  pose proof (mdn_wfx b a Hb Ha ltac:(tauto)) as Sba.
  unfold dcompare. split.
  - destruct (Z.eqb_spec (matchDomainName b a) 0) as [E|E]; [lia|]. intros H.
    apply (sign_is_lt _ _ Sab) in H. apply vpos_Lt in H.
    destruct (vpos (lo b) a) eqn:P.
    + exfalso. apply E. apply (sign_is_eq _ _ Sba). reflexivity.
    + apply vpos_Lt in P. exfalso. exact (llt_irrefl _ (llt_trans _ _ _ H P)).
    + apply vpos_Gt in P. exact P.
  - intros H. pose proof H as H'. apply vpos_Gt in H'. apply (sign_is_gt _ _ Sba) in H'.
    destruct (Z.eqb_spec (matchDomainName b a) 0) as [E|E]; [lia|].
    apply (sign_is_lt _ _ Sab). apply vpos_Lt. apply before_lo, H.
Qed.

Theorem dcompare_pos a b : wfx a -> wfx b -> ~ (a = dotv /\ b = dotv) -> (dcompare a b > 0 <-> before b a).
Proof.
  intros Ha Hb Hne. pose proof (mdn_wfx a b Ha Hb Hne) as Sab.
  pose proof (mdn_wfx b a Hb Ha ltac:(tauto)) as Sba.
  unfold dcompare. split.
  - destruct (Z.eqb_spec (matchDomainName b a) 0) as [E|E]; [lia|]. intros H.
    apply (sign_is_gt _ _ Sab) in H. apply vpos_Gt in H. exact H.
  - intros H. pose proof H as H'. apply vpos_Gt in H'. apply (sign_is_gt _ _ Sab) in H'.
    pose proof (before_lo _ _ H) as L. apply vpos_Lt in L. apply (sign_is_lt _ _ Sba) in L.
    destruct (Z.eqb_spec (matchDomainName b a) 0) as [E|E]; [lia| exact H'].
Qed.

Definition inI (q : list N) (v : bytes) : Prop := vpos q v = Eq.

Theorem dcompare_zero a b : wfx a -> wfx b -> ~ (a = dotv /\ b = dotv) ->
  dcompare a b = 0 -> inI (lo b) a \/ inI (lo a) b.
Proof.
  intros Ha Hb Hne. pose proof (mdn_wfx a b Ha Hb Hne) as Sab.
  pose proof (mdn_wfx b a Hb Ha ltac:(tauto)) as Sba.
  unfold dcompare, inI. destruct (Z.eqb_spec (matchDomainName b a) 0) as [E|E].
  - intros _. left. apply (sign_is_eq _ _ Sba), E.
  - intros H. right. apply (sign_is_eq _ _ Sab), H.
Qed.

Lemma dcompare_refl a : wf a -> dcompare a a = 0.
Proof.
  intros Ha. pose proof (mdn_wfx a a (or_introl Ha) (or_introl Ha)) as S. unfold dcompare.
  assert (E : matchDomainName a a = 0).
  { apply (sign_is_eq _ _ (S ltac:(intros [H _]; exact (wf_not_dotv a Ha H)))), vpos_lo. }
  rewrite E. reflexivity.
Qed.

(* the quirk: "." is not its own duplicate (its root is empty), so it may be stored several times *)
Lemma dcompare_dotv_dotv : dcompare dotv dotv = -1.
Proof. vm_compute. reflexivity. Qed.

(* sequences sorted by "entirely before" (copies of "." may repeat), and sign monotonicity *)
Definition ord (x y : bytes) : Prop := before x y \/ (x = dotv /\ y = dotv).

Fixpoint sd (l : list bytes) : Prop :=
  match l with
  | [] => True
  | x :: r => Forall (ord x) r /\ sd r
  end.

(* Compare() decides the order of the stored sequence *)
Lemma dcompare_ord a b : wfx a -> wfx b ->
  (dcompare a b < 0 -> ord a b) /\ (dcompare a b > 0 -> ord b a).
Proof.
  intros Ha Hb. destruct (classic_dotv a b) as [[-> ->]|Nab].
  - rewrite dcompare_dotv_dotv. split; [right; auto| lia].
  - split; intros H; left; [apply (dcompare_neg a b Ha Hb Nab), H| apply (dcompare_pos a b Ha Hb Nab), H].
Qed.

Theorem mono_dcompare a l : wfx a -> Forall wfx l -> sd l -> mono (dcompare a) l.
Proof.
  intros Ha. apply mono_of_sorted. intros x y Wx Wy [B|[-> ->]]; [|lia].
  assert (Nay : ~ (a = dotv /\ y = dotv)) by (intros [_ ->]; exact (before_dotv_r x B)).
  rewrite (dcompare_neg a y Ha Wy Nay), (dcompare_pos a y Ha Wy Nay).
  destruct (classic_dotv a x) as [[-> ->]|Nax].
  - (* a = x = ".": compare(".", ".") = -1, and y lies after "." *)
    rewrite dcompare_dotv_dotv. split; [intros _; exact B| intros H; destruct (before_dotv_r y H)].
  - rewrite (dcompare_neg a x Ha Wx Nax), (dcompare_pos a x Ha Wx Nax).
    split; intros H; eapply before_trans; eassumption.
Qed.

Theorem mono_host h l : Forall wfx l -> sd l -> mono (host_cmp h) l.
Proof.
  apply mono_of_sorted. intros x y Wx Wy [B|[-> ->]]; [|lia]. unfold host_cmp.
  destruct (strip_dots h) as [|c h'] eqn:Eh; [rewrite !mdn_empty_host by exact Eh; lia|].
  assert (Hh : strip_dots h <> []) by (rewrite Eh; discriminate).
  pose proof (mdn_pos h x (wfx_nonempty x Wx) Hh) as Sx.
  pose proof (mdn_pos h y (wfx_nonempty y Wy) Hh) as Sy.
  rewrite (sign_is_lt _ _ Sx), (sign_is_lt _ _ Sy), (sign_is_gt _ _ Sx), (sign_is_gt _ _ Sy), !vpos_Lt, !vpos_Gt.
  split; intros H.
  - eapply llt_trans; [exact H| apply before_lo, B].
  - eapply lle_trans; [|exact H]. apply llt_lle. eapply lle_llt_trans; [exact B| apply lo_lt_hi].
Qed.

Lemma inI_plain q v : first_is_dot v = false -> (inI q v <-> q = lo v).
Proof.
  intros Hf. unfold inI, vpos, ext. rewrite Hf. rewrite pos_Eq. split; [|auto].
  intros [H|(x & w & _ & L)]; [exact H| lia].
Qed.

Lemma inI_dot q v : first_is_dot v = true -> (inI q v <-> q = lo v \/ exists w, q = lo v ++ 0%N :: w).
Proof.
  intros Hf. unfold inI, vpos, ext. rewrite Hf. rewrite pos_Eq. split.
  - intros [H|(x & w & H & L)]; [auto|]. right. exists w. assert (x = 0%N) by lia. subst x. exact H.
  - intros [H|(w & H)]; [auto|]. right. exists 0%N, w. split; [exact H| lia].
Qed.

Lemma dot_nested a b : first_is_dot a = true -> inI (lo b) a -> forall q, inI q b -> inI q a.
Proof.
  intros Fa Hb q Hq. apply (inI_dot _ _ Fa) in Hb. apply (inI_dot _ _ Fa).
  destruct (first_is_dot b) eqn:Fb.
  - apply (inI_dot _ _ Fb) in Hq.
    destruct Hb as [Hb|(w & Hb)]; rewrite Hb in Hq.
    + exact Hq.
    + right. destruct Hq as [->|(w' & ->)]; [exists w; reflexivity|].
      exists (w ++ 0%N :: w'). rewrite <- app_assoc. reflexivity.
  - apply (inI_plain _ _ Fb) in Hq. subst q. exact Hb.
Qed.

(* a plain value denotes the single point lo a, so overlapping b means lying inside b *)
Lemma plain_nested a b : first_is_dot a = false -> (inI (lo b) a \/ inI (lo a) b) ->
  forall q, inI q a -> inI q b.
Proof.
  intros Fa Ov q Hq. apply (inI_plain _ _ Fa) in Hq. subst q.
  destruct Ov as [Hb|Ha]; [|exact Ha].
  apply (inI_plain _ _ Fa) in Hb. rewrite <- Hb. apply vpos_lo.
Qed.

Lemma lo_length v : length (lo v) = length (root1 v).
Proof. unfold lo, rk. now rewrite map_length, rev_length. Qed.

Lemma lenN_dot v : first_is_dot v = true -> lenN v = N.succ (N.of_nat (length (lo v))).
Proof.
  intros Hf. rewrite lo_length. unfold root1. rewrite Hf. destruct v as [|c v]; [discriminate|].
  cbn [lenN tl]. now rewrite lenN_length.
Qed.

Theorem subset_sound a b : (inI (lo b) a \/ inI (lo a) b) ->
  is_subset a b = true -> forall q, inI q a -> inI q b.
Proof.
  intros Ov. unfold is_subset.
  destruct (first_is_dot a) eqn:Fa; destruct (first_is_dot b) eqn:Fb; cbn [andb negb].
  - intros L q Hq. apply N.leb_le in L.
    destruct Ov as [Hb|Ha].
    + pose proof Hb as Hb'. apply (inI_dot _ _ Fa) in Hb'. destruct Hb' as [E|(w & E)].
      * unfold inI, vpos, ext in *. rewrite Fa in Hq. rewrite Fb, E. exact Hq.
      * exfalso. rewrite (lenN_dot a Fa), (lenN_dot b Fb), E, app_length in L. cbn [length] in L. lia.
    + exact (dot_nested b a Fb Ha q Hq).
  - discriminate.
  - intros _. exact (plain_nested a b Fa Ov).
  - intros _. exact (plain_nested a b Fa Ov).
Qed.

Theorem subset_total a b : is_subset a b = false -> is_subset b a = true.
Proof.
  unfold is_subset.
  destruct (first_is_dot a) eqn:Fa; destruct (first_is_dot b) eqn:Fb; cbn [andb negb]; try discriminate; try reflexivity.
  intros L. apply N.leb_gt in L. apply N.leb_le. lia.
Qed.

(* "." is never the one that gets removed: every non-empty value is "inside" it for IsSubset() *)
Lemma is_subset_dotv v : v <> [] -> is_subset v dotv = true.
Proof.
  intros Hv. unfold is_subset. change (first_is_dot dotv) with true.
  destruct (first_is_dot v); cbn [andb negb]; [|reflexivity].
  destruct v as [|c v]; [congruence|]. cbn [lenN]. apply N.leb_le. change (lenN dotv) with 1%N. lia.
Qed.

Definition inv (t : tree bytes) : Prop := Forall wfx (inorder t) /\ sd (inorder t).
Definition covered (q : list N) (l : list bytes) : Prop := exists x, In x l /\ inI q x.

Lemma covered_app q a b : covered q (a ++ b) <-> covered q a \/ covered q b.
Proof. unfold covered. rewrite <- !Exists_exists. apply Exists_app. Qed.

Lemma covered_cons q x l : covered q (x :: l) <-> inI q x \/ covered q l.
Proof. unfold covered. rewrite <- !Exists_exists. apply Exists_cons. Qed.

Theorem merge_spec : forall fuel t n v, inv t -> wfx v -> (tree_size t < fuel)%nat ->
  exists t' n', merge fuel t n v = MOk t' n' /\ inv t' /\
    (forall q, covered q (inorder t') <-> covered q (inorder t) \/ inI q v).
Proof.
  induction fuel as [|f IH]; intros t n v Hinv Wv Hf; [lia|].
  cbn [merge].
  pose proof (mono_dcompare v (inorder t) Wv (proj1 Hinv) (proj2 Hinv)) as M.
  destruct (sp_insert (dcompare v) v t) as [t1 [old|]] eqn:Ei.
  - destruct (found_stored wfx ord dcompare v t t1 old Hinv Ei) as (Hin & Wold & Hz & Hi).
    assert (Nvo : ~ (v = dotv /\ old = dotv)).
    { intros [-> ->]. rewrite dcompare_dotv_dotv in Hz. discriminate. }
    pose proof (dcompare_zero v old Wv Wold Nvo Hz) as Ov.
    destruct (is_subset v old) eqn:S1.
    + exists t1, n. split; [reflexivity|]. split; [exact (stored_inorder _ _ t t1 Hi Hinv)|].
      intros q. rewrite Hi. split; [auto|]. intros [H|H]; [exact H|].
      exists old. split; [exact Hin|]. exact (subset_sound v old Ov S1 q H).
    + pose proof (subset_total v old S1) as S2. rewrite S2.
      assert (Wo : wf old).
      { destruct Wold as [H| ->]; [exact H|]. rewrite (is_subset_dotv v (wfx_nonempty v Wv)) in S1. discriminate. }
      pose proof (wf_not_dotv old Wo) as Nod.
      (* old is not ".", so around it the order is "entirely before" *)
      destruct (remove_stored wfx ord dcompare (list N) inI old t t1 Hinv Hin Hi (dcompare_refl old Wo))
        as (t2 & Er & Inv2 & Sz & Hrem).
      { intros y Wy [H|[_ H]]; [|contradiction]. apply (dcompare_pos old y (or_introl Wo) Wy); tauto. }
      { intros y Wy [H|[H _]]; [|contradiction]. apply (dcompare_neg old y (or_introl Wo) Wy); tauto. }
      { intros x y [H1|[_ H1]] [H2|[H2 _]]; try contradiction. left. eapply before_trans; eassumption. }
      rewrite Er.
      destruct (IH t2 (n - 1) v Inv2 Wv ltac:(lia)) as (t' & n' & Em & Inv' & Hcov).
      exists t', n'. split; [exact Em|]. split; [exact Inv'|].
      intros q. rewrite Hcov. unfold covered. rewrite (Hrem q).
      assert (Ov' : inI (lo v) old \/ inI (lo old) v) by tauto.
      pose proof (subset_sound old v Ov' S2 q) as Hsub. clear - Hsub. tauto.
  - destruct (insert_stored wfx ord dcompare (list N) inI v t t1 Wv) as (Inv1 & Hc); try assumption;
      [intros y Wy; apply (dcompare_ord v y Wv Wy)| intros y Wy; apply (dcompare_ord v y Wv Wy)|].
    exists t1, (n + 1)%Z. split; [reflexivity|]. split; [exact Inv1| exact Hc].
Qed.

(* lower-casing a value changes neither its well-formedness nor its interval *)
Lemma lower_eqb_dot x : (lower x =? dot)%N = (x =? dot)%N.
Proof.
  destruct (N.eqb_spec x dot) as [->|H]; [rewrite lower_dot_self; apply N.eqb_refl|].
  apply N.eqb_neq. intros G. apply (proj1 (lower_dot x)) in G. contradiction.
Qed.

Lemma first_is_dot_lower v : first_is_dot (lower_str v) = first_is_dot v.
Proof. destruct v as [|c v]; [reflexivity|]. apply lower_eqb_dot. Qed.

Lemma root1_lower v : root1 (lower_str v) = lower_str (root1 v).
Proof.
  unfold root1. rewrite first_is_dot_lower. destruct (first_is_dot v); [|reflexivity].
  destruct v; reflexivity.
Qed.

Lemma rk_lower s : rk (lower_str s) = rk s.
Proof.
  unfold rk, lower_str. rewrite <- map_rev, map_map. apply map_ext. intros c. apply key_lower.
Qed.

Lemma lo_lower v : lo (lower_str v) = lo v.
Proof. unfold lo. rewrite root1_lower. apply rk_lower. Qed.

Lemma ext_lower v : ext (lower_str v) = ext v.
Proof. unfold ext. now rewrite first_is_dot_lower. Qed.

Lemma inI_lower q v : inI q (lower_str v) <-> inI q v.
Proof. unfold inI, vpos. rewrite lo_lower, ext_lower. reflexivity. Qed.

(* skipping redundant leading dots: the result of a non-empty token is well-formed or "." *)
Lemma collapse_cons2 c c2 t :
  collapse_dots (c :: c2 :: t) = if ((c =? dot) && (c2 =? dot))%N then collapse_dots (c2 :: t) else c :: c2 :: t.
Proof. reflexivity. Qed.

Lemma collapse_lower t : collapse_dots (lower_str t) = lower_str (collapse_dots t).
Proof.
  induction t as [|c t IH]; [reflexivity|].
  destruct t as [|c2 t]; [reflexivity|].
  change (lower_str (c :: c2 :: t)) with (lower c :: lower c2 :: lower_str t).
  change (lower_str (c2 :: t)) with (lower c2 :: lower_str t) in IH.
  rewrite !collapse_cons2, !lower_eqb_dot.
  destruct ((c =? dot)%N && (c2 =? dot)%N); [exact IH| reflexivity].
Qed.

Lemma wf_plain c t : c <> dot -> wf (c :: t).
Proof.
  intros E. unfold wf, root1. cbn [first_is_dot]. destruct (N.eqb_spec c dot); [contradiction|].
  split; [discriminate|]. cbn [first_is_dot]. apply N.eqb_neq, E.
Qed.

Lemma wf_dot c t : c <> dot -> wf (dot :: c :: t).
Proof.
  intros E. unfold wf, root1. cbn [first_is_dot]. rewrite N.eqb_refl. cbn [tl].
  split; [discriminate|]. cbn [first_is_dot]. apply N.eqb_neq, E.
Qed.

Lemma collapse_wfx t : t <> [] -> wfx (collapse_dots t).
Proof.
  induction t as [|c t IH]; [congruence|]. intros _.
  destruct t as [|c2 t].
  - cbn [collapse_dots]. destruct (N.eqb_spec c dot) as [->|E]; [right; reflexivity|].
    left. apply wf_plain, E.
  - rewrite collapse_cons2.
    destruct (N.eqb_spec c dot) as [->|E]; cbn [andb].
    + destruct (N.eqb_spec c2 dot) as [->|E2].
      * apply IH. discriminate.
      * left. apply wf_dot, E2.
    + left. apply wf_plain, E.
Qed.

(* what a configured token stands for: its value with redundant leading dots skipped *)
Definition norm (tok : bytes) : bytes := collapse_dots tok.

Lemma inI_norm_lower q tok : inI q (collapse_dots (lower_str tok)) <-> inI q (norm tok).
Proof. unfold norm. rewrite collapse_lower. apply inI_lower. Qed.

Definition nonempty (t : bytes) : Prop := t <> [].

Theorem acl_parse_from_spec : forall toks t n, inv t -> Forall nonempty toks ->
  exists t' n', acl_parse_from t n toks = MOk t' n' /\ inv t' /\
    (forall q, covered q (inorder t') <-> covered q (inorder t) \/ covered q (map norm toks)).
Proof.
  induction toks as [|tok toks IH]; intros t n Hinv W.
  - exists t, n. split; [reflexivity|]. split; [exact Hinv|].
    intros q. split; [auto|]. intros [H|(x & [] & _)]. exact H.
  - inversion W as [|? ? Wt Wr]; subst. cbn [acl_parse_from].
    assert (Wv : wfx (collapse_dots (lower_str tok))).
    { apply collapse_wfx. destruct tok; [exfalso; apply Wt; reflexivity| discriminate]. }
    destruct (merge_spec (merge_fuel t) t n _ Hinv Wv ltac:(unfold merge_fuel; lia))
      as (t1 & n1 & Em & Inv1 & Hc1).
    rewrite Em.
    destruct (IH t1 n1 Inv1 Wr) as (t' & n' & Ep & Inv' & Hc').
    exists t', n'. split; [exact Ep|]. split; [exact Inv'|].
    intros q. rewrite Hc', Hc1. cbn [map]. rewrite covered_cons, inI_norm_lower. clear. tauto.
Qed.

(* the comparison used by match() answers 0 exactly inside the value's interval *)
Lemma mdn_zero host v : v <> [] ->
  (matchDomainName host v = 0 <-> strip_dots host <> [] /\ inI (rk (strip_dots host)) v).
Proof.
  intros Hv. destruct (strip_dots host) as [|c h] eqn:Eh.
  - rewrite (mdn_empty_host host v Eh). split; [discriminate| intros [H _]; congruence].
  - assert (Hh : strip_dots host <> []) by (rewrite Eh; discriminate).
    pose proof (mdn_pos host v Hv Hh) as S. rewrite Eh in S. rewrite (sign_is_eq _ _ S). unfold inI.
    split; [intros H; split; [discriminate| exact H]| intros [_ H]; exact H].
Qed.

Theorem acl_match_spec t host : inv t ->
  inorder (fst (acl_match t host)) = inorder t /\
  (snd (acl_match t host) = true <->
   strip_dots host <> [] /\ covered (rk (strip_dots host)) (inorder t)).
Proof.
  intros [W S]. unfold acl_match.
  pose proof (sp_find_inorder (host_cmp host) t) as Hi.
  pose proof (sp_find_hit (host_cmp host) t (mono_host host _ W S)) as Hh.
  destruct (sp_find (host_cmp host) t) as [t' r]. cbn [fst snd] in *. split; [exact Hi|].
  rewrite Hh. unfold host_cmp, covered. rewrite Forall_forall in W. split.
  - intros (x & Hin & Hx). apply (mdn_zero host x (wfx_nonempty x (W x Hin))) in Hx. destruct Hx. eauto.
  - intros (Hh' & x & Hin & Hx). exists x. split; [exact Hin|]. apply (mdn_zero host x (wfx_nonempty x (W x Hin))). auto.
Qed.

Definition ieq (a b : bytes) : Prop := lower_str a = lower_str b.

(* C41: a value beginning with a dot matches that domain and all its
   sub-domains, any other value matches only itself, case-insensitively.
   (Leading dots of the looked-up name are not part of a host name.) *)
Definition dom_match (v host : bytes) : Prop :=
  let h := strip_dots host in
  h <> [] /\
  if first_is_dot v
  then ieq h (tl v) \/ (exists p, lower_str h = p ++ lower_str v)
  else ieq h v.

Lemma map_key_eq a : forall b, map key a = map key b <-> map lower a = map lower b.
Proof.
  induction a as [|x a IH]; intros [|y b]; cbn [map]; try (split; discriminate); [tauto|].
  split; intros H; inversion H as [[H1 H2]]; f_equal;
    try (apply key_eq_iff; assumption); try (apply IH; assumption).
Qed.

Lemma rk_eq_iff a b : rk a = rk b <-> ieq a b.
Proof.
  unfold rk, ieq, lower_str. rewrite map_key_eq. rewrite !map_rev. split.
  - intros H. apply (f_equal (@rev N)) in H. now rewrite !rev_involutive in H.
  - intros ->. reflexivity.
Qed.

Lemma rk_suffix_iff h r :
  (exists w, rk h = rk r ++ 0%N :: w) <-> (exists p, lower_str h = p ++ dot :: lower_str r).
Proof.
  split.
  - intros (w & H). unfold rk in H.
    destruct (map_eq_app key (rev h) _ _ H) as (l1 & l2 & E & H1 & H2).
    destruct l2 as [|c l2]; [discriminate|]. cbn [map] in H2. assert (Hc : key c = 0%N) by (inversion H2; reflexivity).
    apply key_zero in Hc. subst c.
    apply (f_equal (@rev N)) in E. rewrite rev_involutive, rev_app_distr in E. cbn [rev] in E.
    rewrite <- app_assoc in E. cbn [app] in E.
    exists (lower_str (rev l2)). rewrite E. unfold lower_str at 1. rewrite map_app. cbn [map]. rewrite lower_dot_self.
    f_equal. f_equal. unfold lower_str.
    apply map_key_eq in H1. rewrite map_rev, H1, <- map_rev, rev_involutive. reflexivity.
  - intros (p & H). exists (rk p). rewrite <- (rk_lower h), H. unfold rk.
    rewrite rev_app_distr. cbn [rev]. rewrite map_app, map_app. cbn [map].
    change (key dot) with 0%N. rewrite <- app_assoc. cbn [app].
    fold (rk (lower_str r)). rewrite rk_lower. reflexivity.
Qed.

Theorem inI_dom_match v h : v <> [] ->
  (inI (rk h) v <->
   if first_is_dot v then ieq h (tl v) \/ (exists p, lower_str h = p ++ lower_str v) else ieq h v).
Proof.
  intros Hv. destruct (first_is_dot v) eqn:Fv.
  - rewrite (inI_dot _ _ Fv). unfold lo, root1. rewrite Fv.
    destruct v as [|c r]; [congruence|]. cbn [first_is_dot] in Fv. apply N.eqb_eq in Fv. subst c.
    cbn [tl]. rewrite rk_eq_iff, rk_suffix_iff. cbn [lower_str map]. rewrite lower_dot_self. reflexivity.
  - rewrite (inI_plain _ _ Fv). unfold lo, root1. rewrite Fv. apply rk_eq_iff.
Qed.

Lemma collapse_nonempty t : t <> [] -> collapse_dots t <> [].
Proof. intros H. apply wfx_nonempty, collapse_wfx, H. Qed.

Lemma covered_dom_match host toks : Forall nonempty toks ->
  (strip_dots host <> [] /\ covered (rk (strip_dots host)) (map norm toks)) <->
  (exists tok, In tok toks /\ dom_match (norm tok) host).
Proof.
  intros W. unfold covered, dom_match. rewrite Forall_forall in W. split.
  - intros (Hh & v & Hin & Hq). apply in_map_iff in Hin. destruct Hin as (tok & <- & Hin).
    exists tok. split; [exact Hin|]. split; [exact Hh|].
    apply (inI_dom_match (norm tok) _ (collapse_nonempty tok (W tok Hin))), Hq.
  - intros (tok & Hin & Hh & Hm). split; [exact Hh|]. exists (norm tok). split; [apply in_map, Hin|].
    apply (inI_dom_match (norm tok) _ (collapse_nonempty tok (W tok Hin))), Hm.
Qed.

Definition acl_holds (toks : list bytes) (t : tree bytes) : Prop :=
  inv t /\ forall q, covered q (inorder t) <-> covered q (map norm toks).

Theorem acl_parse_ok toks : Forall nonempty toks ->
  exists t n, acl_parse toks = MOk t n /\ acl_holds toks t.
Proof.
  intros W. destruct (acl_parse_from_spec toks Leaf 0%Z (stored_leaf wfx ord) W) as (t & n & E & Hinv & Hc).
  exists t, n. split; [exact E|]. split; [exact Hinv|].
  intros q. rewrite Hc. split; [|auto]. intros [(x & [] & _)|H]. exact H.
Qed.

Theorem acl_match_correct toks t host : Forall nonempty toks -> acl_holds toks t ->
  acl_holds toks (fst (acl_match t host)) /\
  (snd (acl_match t host) = true <-> exists tok, In tok toks /\ dom_match (norm tok) host).
Proof.
  intros W [Hinv Hc]. destruct (acl_match_spec t host Hinv) as [Hi Hm]. split.
  - destruct Hinv as [W' S]. split; [unfold inv; rewrite Hi; auto|]. intros q. rewrite Hi. apply Hc.
  - rewrite Hm, <- (covered_dom_match host toks W).
    split; intros [H1 H2]; (split; [exact H1|]); apply Hc, H2.
Qed.

(* every answer of a sequence of lookups (each of which re-shapes the tree) is right *)
Theorem acl_match_seq_correct toks : Forall nonempty toks -> forall hosts t, acl_holds toks t ->
  Forall2 (fun host b => b = true <-> exists tok, In tok toks /\ dom_match (norm tok) host)
          hosts (snd (acl_match_seq t hosts)).
Proof.
  intros W. induction hosts as [|h hosts IH]; intros t Ht; cbn [acl_match_seq]; [constructor|].
  destruct (acl_match_correct toks t h W Ht) as [Ht1 Hb].
  destruct (acl_match t h) as [t1 b]. cbn [fst snd] in *.
  specialize (IH t1 Ht1). destruct (acl_match_seq t1 hosts) as [t2 bs]. cbn [snd] in *.
  constructor; assumption.
Qed.

Theorem acl_correct toks : Forall nonempty toks ->
  exists t n, acl_parse toks = MOk t n /\
    forall host, snd (acl_match t host) = true <-> exists tok, In tok toks /\ dom_match (norm tok) host.
Proof.
  intros W. destruct (acl_parse_ok toks W) as (t & n & E & H). exists t, n. split; [exact E|].
  intros host. apply (acl_match_correct toks t host W H).
Qed.

(* leading dots of the looked-up name are ignored by every comparison *)
Lemma mdn_leading_dot host d : matchDomainName (dot :: host) d = matchDomainName host d.
Proof. unfold matchDomainName. cbn [strip_dots]. rewrite N.eqb_refl. reflexivity. Qed.

(* skipping redundant dots only touches values that start with two dots *)
Lemma norm_id tok : (forall r, tok <> dot :: dot :: r) -> norm tok = tok.
Proof.
  intros H. unfold norm. destruct tok as [|c [|c2 t]]; try reflexivity. rewrite collapse_cons2.
  destruct (N.eqb_spec c dot) as [->|E]; [|reflexivity].
  destruct (N.eqb_spec c2 dot) as [->|E2]; [|reflexivity].
  exfalso. exact (H t eq_refl).
Qed.

Definition s_a : bytes := [97%N].                    (* the name a *)
Definition s_dda : bytes := [46%N; 46%N; 97%N].      (* the value ..a *)
Definition s_da : bytes := [46%N; 97%N].             (* the value .a *)

(* one value, any non-empty value: the comparison used by match() answers 0 exactly for
   the names the value stands for *)
Theorem mdn_zero_iff host v : v <> [] -> (matchDomainName host v = 0 <-> dom_match v host).
Proof.
  intros Hv. unfold dom_match. cbn zeta. rewrite (mdn_zero host v Hv), (inI_dom_match v _ Hv). reflexivity.
Qed.

