(* FtpProofs.v — lemmas and proofs about FtpModel.v (C40). *)
Require Import SquidV.Bytes SquidV.TokModel SquidV.TokProofs SquidV.Int64Proofs SquidV.FtpModel.
Require Import SquidV.gen.Ftp_gen SquidV.gen.FtpSrc_gen.
Require Import ZifyBool ZifyN ZifyNat.
Local Open Scope N_scope.

Lemma sat64_id v : (- two63 <= v <= two63 - 1)%Z -> sat64 v = v.
Proof.
  intros H. unfold sat64.
  destruct (v >? two63 - 1)%Z eqn:A; [lia|]. destruct (v <? - two63)%Z eqn:B; [lia|]. reflexivity.
Qed.

Lemma wrap32_id v : (- two31 <= v < two31)%Z -> wrap32 v = v.
Proof.
  intros H. unfold wrap32, two32, two31 in *.
  destruct (v mod 4294967296 >=? 2147483648)%Z eqn:A; Z.div_mod_to_equations; lia.
Qed.

Lemma to_int_id v : (- two31 <= v < two31)%Z -> to_int v = v.
Proof.
  intros H. unfold to_int. rewrite sat64_id by (unfold two31, two63 in *; lia). apply wrap32_id, H.
Qed.

Lemma wrap32_range v : (- two31 <= wrap32 v < two31)%Z.
Proof.
  unfold wrap32, two32, two31. destruct (v mod 4294967296 >=? 2147483648)%Z eqn:A; Z.div_mod_to_equations; lia.
Qed.

(* the number scanner: grammar of what %d / strtol accept *)
Lemma skip_space_split l n :
  exists ws, l = ws ++ fst (skip_space l n) /\ forallb is_c_space ws = true /\
             match fst (skip_space l n) with c :: _ => is_c_space c = false | [] => True end.
Proof.
  revert n; induction l as [|c r IH]; intros n; cbn [skip_space].
  - exists []. cbn. auto.
  - destruct (is_c_space c) eqn:E.
    + destruct (IH (N.succ n)) as (ws & A & B & C). exists (c :: ws). cbn [app forallb].
      rewrite E, B. split; [f_equal; exact A|]. split; [reflexivity|exact C].
    + exists []. cbn [app forallb fst]. rewrite E. auto.
Qed.

(* value of a decimal digit string (most significant first) *)
Definition dec_value (ds : bytes) : Z := fold_left (fun a c => a * 10 + (Z.of_N c - 48))%Z ds 0%Z.

Lemma dec_value_nonneg ds : forallb is_digit ds = true -> (0 <= dec_value ds)%Z.
Proof. intros H. apply dec_value_nonneg_acc; [lia|exact H]. Qed.

(* scan_int accepts exactly: white space, optional sign, a non-empty digit string; the value is the
   mathematical value of the digits (any size), the rest starts with a non-digit *)
Lemma scan_int_shape s v r :
  scan_int s = Some (v, r) ->
  exists ws sg ds,
    s = ws ++ sg ++ ds ++ r /\ forallb is_c_space ws = true /\
    (sg = [] \/ sg = [45] \/ sg = [43]) /\ ds <> [] /\ forallb is_digit ds = true /\
    v = (if list_eqb sg [45] then (- dec_value ds)%Z else dec_value ds) /\
    match r with c :: _ => is_digit c = false | [] => True end.
Proof.
  unfold scan_int. destruct (skip_space_split s 0) as (ws & A & B & _).
  destruct (skip_space s 0) as [l1 n1]. cbn [fst] in A.
  set (sl := match l1 with
             | c :: r0 => if c =? 45 then (true, r0) else if c =? 43 then (false, r0) else (false, l1)
             | [] => (false, l1)
             end).
  assert (SG : exists sg, l1 = sg ++ snd sl /\ (sg = [] \/ sg = [45] \/ sg = [43]) /\ fst sl = list_eqb sg [45]).
  { subst sl. destruct l1 as [|c r0]; [exists []; cbn; auto|].
    destruct (N.eqb_spec c 45) as [->|]; [exists [45]; cbn; auto|].
    destruct (N.eqb_spec c 43) as [->|]; [exists [43]; cbn; auto|]. exists []. cbn. auto. }
  destruct SG as (sg & S1 & S2 & S3). destruct sl as [neg l2]. cbn [fst snd] in *.
  (* the digits are the longest is_digit prefix of what follows the sign *)
  rewrite digit_run_span, lenN_map.
  pose proof (span_app is_digit l2) as D. pose proof (span_all is_digit l2) as D2. pose proof (span_stop is_digit l2) as D5.
  pose proof (dropN_app_exact (fst (span is_digit l2)) (snd (span is_digit l2))) as R. rewrite D in R. rewrite R.
  destruct (fst (span is_digit l2)) as [|c ds]; [discriminate|]. intros [= <- <-].
  exists ws, sg, (c :: ds). rewrite A, S1, <- D at 1.
  repeat split; try assumption; [discriminate|].
  change (dval c :: map dval ds) with (map dval (c :: ds)). now rewrite digits_value_map, S3.
Qed.

Definition zoctet (v : Z) : Prop := (0 <= v <= 255)%Z.

Lemma octet_true h : octet h = true <-> zoctet h.
Proof. unfold octet, zoctet. lia. Qed.

Lemma is_any_v4mapped a b c d :
  zoctet a -> zoctet b -> zoctet c -> zoctet d ->
  is_any (v4mapped a b c d) = false -> ~ (a = 0 /\ b = 0 /\ c = 0 /\ d = 0)%Z.
Proof.
  intros _ _ _ _ H (-> & -> & -> & ->). vm_compute in H. discriminate.
Qed.

(* a clamped long strictly inside the long range is the mathematical value itself: numbers beyond the long range
   are stored by "%ld"/strtol as LONG_MAX / LONG_MIN, which no range check below accepts *)
Lemma sat64_inv v : (- two63 < sat64 v < two63 - 1)%Z -> sat64 v = v.
Proof.
  unfold sat64, two63.
  destruct (v >? _)%Z eqn:E1; [cbv beta iota; intros H; lia|]. destruct (v <? _)%Z eqn:E2; cbv beta iota; intros H; lia.
Qed.

Lemma sat64_octet v : octet (sat64 v) = true -> zoctet v /\ sat64 v = v.
Proof.
  intros H. apply octet_true in H. assert (S : sat64 v = v) by (apply sat64_inv; unfold zoctet, two63 in *; lia).
  rewrite S in H. auto.
Qed.

(* the tail of ParseIpPort: the port computed from the last two numbers is checked, then the address returned *)
Lemma port_check_some (sanity : bool) (port : Z) (a : bytes) r :
  (if (port <=? 0)%Z then None else if sanity && (port <? 1024)%Z then None else Some (a, port)) = Some r ->
  r = (a, port) /\ (1 <= port)%Z /\ (sanity = true -> 1024 <= port)%Z.
Proof.
  destruct (port <=? 0)%Z eqn:E0; [discriminate|]. destruct (sanity && (port <? 1024)%Z) eqn:ES; [discriminate|].
  intros [= <-]. repeat split; [lia|]. intros ->. cbn [andb] in ES. lia.
Qed.

Section Address.
Variable ipf : bytes -> option bytes.
(* contract assumed of the external lookup: none. Every statement below holds for every ipf. *)

(* accepted (with or without forceIp): six numbers were converted and every WRITTEN number is an octet, whatever its
   size in digits; the port is p1*256+p2 in 1..65535 (>= 1024 under ftp_sanitycheck); without forceIp the address is
   exactly h1.h2.h3.h4 and not 0.0.0.0, with forceIp it is the forced one *)
Theorem parse_ip_port_sound sanity force buf a port :
  parse_ip_port ipf sanity force buf = Some (a, port) ->
  exists v1 v2 v3 v4 v5 v6,
    scan_commas 6 buf = [v1; v2; v3; v4; v5; v6] /\
    zoctet v1 /\ zoctet v2 /\ zoctet v3 /\ zoctet v4 /\ zoctet v5 /\ zoctet v6 /\
    port = (v5 * 256 + v6)%Z /\ (1 <= port <= 65535)%Z /\ (sanity = true -> 1024 <= port)%Z /\
    match force with
    | None => a = v4mapped v1 v2 v3 v4 /\ ~ (v1 = 0 /\ v2 = 0 /\ v3 = 0 /\ v4 = 0)%Z
    | Some t => a = assign ipf t
    end.
Proof.
  unfold parse_ip_port.
  destruct (scan_commas 6 buf) as [|v1 [|v2 [|v3 [|v4 [|v5 [|v6 [|v7 l]]]]]]]; cbn [map]; try discriminate.
  destruct ((sat64 v5 <? 0) || (sat64 v6 <? 0) || (sat64 v5 >? 255) || (sat64 v6 >? 255))%Z eqn:EP; [discriminate|].
  destruct (octet (sat64 v1) && octet (sat64 v2) && octet (sat64 v3) && octet (sat64 v4)) eqn:EH; cbn [negb]; [|discriminate].
  apply andb_true_iff in EH as [[[E1 E2]%andb_true_iff E3]%andb_true_iff E4].
  assert (E5 : octet (sat64 v5) = true) by (unfold octet; lia).
  assert (E6 : octet (sat64 v6) = true) by (unfold octet; lia).
  apply sat64_octet in E1 as [O1 S1], E2 as [O2 S2], E3 as [O3 S3], E4 as [O4 S4], E5 as [O5 S5], E6 as [O6 S6].
  rewrite S1, S2, S3, S4, S5, S6. cbv zeta.
  assert (v5 * 256 + v6 <= 65535)%Z by (unfold zoctet in O5, O6; lia).
  destruct force as [t|]; [|destruct (is_any (v4mapped v1 v2 v3 v4)) eqn:EA; [discriminate|]].
  all: intros ([= -> ->] & P1 & P2)%port_check_some; exists v1, v2, v3, v4, v5, v6.
  all: repeat (split; [first [reflexivity | assumption | lia]|]).
  - reflexivity.
  - now apply is_any_v4mapped.
Qed.

(* contrapositive, spelled out: a string with any written number outside 0..255 -- including numbers of any length,
   which "%ld" clamps to LONG_MAX / LONG_MIN -- is refused *)
Theorem parse_ip_port_rejects_non_octets sanity force buf :
  ~ Forall zoctet (scan_commas 6 buf) -> parse_ip_port ipf sanity force buf = None.
Proof.
  intros NF. destruct (parse_ip_port ipf sanity force buf) as [[a port]|] eqn:E; [|reflexivity].
  exfalso. apply NF. destruct (parse_ip_port_sound _ _ _ _ _ E) as (v1 & v2 & v3 & v4 & v5 & v6 & S & R).
  rewrite S. destruct R as (O1 & O2 & O3 & O4 & O5 & O6 & _). repeat (constructor; [assumption|]). constructor.
Qed.

(* a non-zero result strictly inside the long range is a conversion that was not clamped *)
Lemma strtol10_exact s v e :
  strtol10 s = (v, e) -> (v <> 0)%Z -> (- two63 < v < two63 - 1)%Z -> scan_int s = Some (v, e).
Proof.
  unfold strtol10. destruct (scan_int s) as [[m r]|]; intros [= <- <-] NZ R; [|congruence].
  now rewrite (sat64_inv m R).
Qed.

Lemma find_first_eq_split d l k :
  find_first (fun c => c =? d) l = Some k ->
  exists ip rest, l = ip ++ d :: rest /\ lenN ip = k /\ ip = takeN k l /\ rest = dropN (k + 1) l /\
                  forallb (fun c => negb (c =? d)) ip = true.
Proof.
  intros F. destruct (find_first_pos _ _ _ F) as [T _]. destruct (find_first_hit _ _ _ F) as (y & r & H & ->%N.eqb_eq).
  pose proof (lenN_dropN k l) as L. rewrite H in L. cbn [lenN] in L.
  exists (takeN k l), r. rewrite <- H, takeN_dropN, lenN_takeN, <- dropN_dropN, H, T.
  repeat split; [lia|now destruct r|apply span_all].
Qed.

(* accepted EPRT: <d> net-prt <d> address <d> port '|'; the WRITTEN protocol number is 1 or 2 and matches the family
   of the address; the address is what the lookup returned for exactly the delimited text, not a wildcard; the
   MATHEMATICAL value of the port digits is in 1..65535 (>= 1024 under ftp_sanitycheck) *)
Theorem parse_proto_sound sanity buf a port :
  parse_proto_ip_port ipf sanity buf = EOk a port ->
  exists d s pv s2 ip s3 e3,
    buf = d :: s /\
    scan_int s = Some (pv, d :: s2) /\ (pv = 1 \/ pv = 2)%Z /\
    s2 = ip ++ d :: s3 /\ forallb (fun c => negb (c =? d)) ip = true /\ lenN ip < max_ipstrlen /\
    ipf ip = Some a /\ is_any a = false /\ ((pv = 2)%Z <-> is_v4 a = false) /\
    scan_int s3 = Some (port, e3) /\ head0 e3 = 124 /\
    (1 <= port <= 65535)%Z /\ (sanity = true -> 1024 <= port)%Z.
Proof.
  unfold parse_proto_ip_port. destruct buf as [|d s]; [discriminate|].
  destruct (strtol10 s) as [pv e] eqn:E1.
  destruct (negb ((pv =? 1)%Z || (pv =? 2)%Z) || negb (head0 e =? d)) eqn:C1; [discriminate|].
  apply orb_false_iff in C1 as [C1a%negb_false_iff C1b%negb_false_iff].
  apply strtol10_exact in E1; [|unfold two63; lia..].
  (* were *e the terminator, strchr would find nothing after it *)
  destruct e as [|c s2]; [discriminate|]. cbn [head0] in C1b. apply N.eqb_eq in C1b as ->.
  replace (dropN 1 (d :: s2)) with s2 by (cbn; symmetry; apply dropN_0).
  destruct (find_first (fun c => c =? d) s2) as [k|] eqn:F; [|discriminate].
  destruct (find_first_eq_split _ _ _ F) as (ip & s3 & A & B & <- & <- & G).
  destruct (max_ipstrlen <=? k) eqn:C2; [discriminate|].
  unfold assign. destruct (ipf ip) as [a0|] eqn:IPF; [|discriminate].
  destruct (is_any a0) eqn:C3; [discriminate|].
  destruct (negb (Bool.eqb (pv =? 2)%Z (negb (is_v4 a0)))) eqn:C4; [discriminate|].
  destruct (strtol10 s3) as [po e3] eqn:E2.
  destruct (((po <=? 0) || (po >? 65535))%Z || negb (head0 e3 =? 124)) eqn:C5; [discriminate|].
  apply orb_false_iff in C5 as [C5a C5b%negb_false_iff%N.eqb_eq].
  destruct (sanity && (po <? 1024)%Z) eqn:C6; [discriminate|].
  apply strtol10_exact in E2; [|unfold two63; lia..].
  intros [= <- <-].
  assert (FAM : (pv = 2)%Z <-> is_v4 a0 = false).
  { destruct (is_v4 a0), (Z.eqb_spec pv 2); cbn in C4; try discriminate C4; split; congruence. }
  exists d, s, pv, s2, ip, s3, e3. repeat (split; [first [reflexivity | assumption | lia]|]). lia.
Qed.

End Address.

(* concrete strings used by the Examples of Properties_C40.v *)
(* "1,2,3,4,4294967300,0", "4294967297,2,3,4,5,6", "999,2,3,4,5,6": accepted before the repair in /repo *)
Definition w_port_wrap_p1 : bytes := [49;44;50;44;51;44;52;44;52;50;57;52;57;54;55;51;48;48;44;48].
Definition w_port_wrap : bytes := [52;50;57;52;57;54;55;50;57;55;44;50;44;51;44;52;44;53;44;54].
Definition w_forced : bytes := [57;57;57;44;50;44;51;44;52;44;53;44;54].
(* "1.2.3.4" and a lookup that knows only it; "|4294967297|1.2.3.4|8080|" *)
Definition w_ip1234 : bytes := [49;46;50;46;51;46;52].
Definition w_ipf (t : bytes) : option bytes := if list_eqb t w_ip1234 then Some (v4mapped 1 2 3 4) else None.
Definition w_eprt_wrap : bytes :=
  [124;52;50;57;52;57;54;55;50;57;55;124] ++ w_ip1234 ++ [124;56;48;56;48;124].

Lemma unq_body_escape s rest :
  match rest with c :: _ => (c =? 34) = false | [] => True end ->
  unq_body (dq_escape s ++ 34 :: rest) = Some s.
Proof.
  intros R. induction s as [|c s IH]; cbn [dq_escape app unq_body].
  - rewrite N.eqb_refl. destruct rest as [|x r]; [reflexivity|]. rewrite R. reflexivity.
  - destruct (c =? 34) eqn:E.
    + apply N.eqb_eq in E; subst c. cbn [app unq_body]. rewrite !N.eqb_refl. rewrite IH. reflexivity.
    + cbn [app unq_body]. rewrite E, IH. reflexivity.
Qed.

Theorem unescape_roundtrip s rest :
  match rest with c :: _ => (c =? 34) = false | [] => True end ->
  unescape_dq (34 :: dq_escape s ++ 34 :: rest) = s.
Proof.
  intros R. unfold unescape_dq. rewrite N.eqb_refl, unq_body_escape by exact R. reflexivity.
Qed.

Definition nonwsp (c : N) : bool := negb (is_wsp c).

(* pre is empty or ends with a blank / post is empty or starts with a blank *)
Definition ends_blank (pre : bytes) : Prop := pre = [] \/ exists p c, pre = p ++ [c] /\ is_wsp c = true.
Definition starts_blank (post : bytes) : Prop := match post with [] => True | c :: _ => is_wsp c = true end.

(* the token is a non-empty blank-free piece of the line found at its recorded offset,
   delimited by blanks or the ends of the line *)
Definition tok_ok (buf : bytes) (t : tokrec) : Prop :=
  t_tok t <> [] /\ forallb nonwsp (t_tok t) = true /\
  exists pre post, buf = pre ++ t_tok t ++ post /\ lenN pre = t_pos t /\ ends_blank pre /\ starts_blank post.

Lemma rev_nonnil {A} (l : list A) : l <> [] -> rev l <> [].
Proof. destruct l as [|x l]; [congruence|]. cbn [rev]. intros _ C. apply app_eq_nil in C as [_ C]. discriminate. Qed.

Lemma tok_ok_run buf pre cur post :
  buf = pre ++ rev cur ++ post -> cur <> [] -> forallb nonwsp cur = true -> ends_blank pre -> starts_blank post ->
  tok_ok buf {| t_tok := rev cur; t_pos := lenN pre |}.
Proof.
  intros HB NE HC HE SB. unfold tok_ok. cbn [t_tok t_pos].
  split; [now apply rev_nonnil|]. split; [now rewrite forallb_rev|]. exists pre, post. auto.
Qed.

Lemma tokscan_ok buf s : forall pos start cur pre,
  buf = pre ++ rev cur ++ s -> pos = lenN pre + lenN cur -> (cur <> [] -> start = lenN pre) ->
  forallb nonwsp cur = true -> ends_blank pre ->
  forall t, In t (tokscan s pos start cur) -> tok_ok buf t.
Proof.
  induction s as [|c r IH]; intros pos start cur pre HB HP HS HC HE t HI; cbn [tokscan] in HI.
  - destruct cur as [|x cur']; [destruct HI|]. destruct HI as [<-|[]].
    rewrite HS by discriminate. now apply tok_ok_run with (post := []).
  - destruct (is_wsp c) eqn:EW.
    + assert (IHr : In t (tokscan r (pos + 1) (pos + 1) []) -> tok_ok buf t).
      { apply (IH _ _ [] (pre ++ rev cur ++ [c])); [| |congruence|reflexivity|].
        - rewrite HB, <- !app_assoc. reflexivity.
        - rewrite !lenN_app, lenN_rev. cbn [lenN]. lia.
        - right. exists (pre ++ rev cur), c. rewrite <- app_assoc. auto. }
      destruct cur as [|x cur']; [exact (IHr HI)|]. destruct HI as [<-|HI]; [|exact (IHr HI)].
      rewrite HS by discriminate. now apply tok_ok_run with (post := c :: r).
    + apply (IH (pos + 1) (match cur with [] => pos | _ => start end) (c :: cur) pre); try assumption.
      * rewrite HB. cbn [rev]. rewrite <- !app_assoc. reflexivity.
      * cbn [lenN]. lia.
      * intros _. destruct cur as [|x cur']; [cbn [lenN] in HP; lia| apply HS; discriminate].
      * cbn [forallb]. unfold nonwsp at 1. rewrite EW. exact HC.
Qed.

Theorem all_tokens_ok buf t : In t (all_tokens buf) -> tok_ok buf t.
Proof.
  apply (tokscan_ok buf buf 0 0 [] []); try reflexivity. left; reflexivity.
Qed.

Lemma tok_ok_bounds buf t : tok_ok buf t ->
  t_pos t + lenN (t_tok t) <= lenN buf /\ 1 <= lenN (t_tok t) /\
  dropN (t_pos t) buf = t_tok t ++ dropN (t_pos t + lenN (t_tok t)) buf.
Proof.
  intros (NE & _ & pre & post & HB & HL & _ & _).
  assert (L : lenN buf = lenN pre + lenN (t_tok t) + lenN post) by (rewrite HB, !lenN_app; lia).
  split; [lia|]. split.
  - destruct (t_tok t); [congruence|cbn [lenN]; lia].
  - rewrite <- HL. rewrite HB at 1. rewrite dropN_app_exact.
    replace (lenN pre + lenN (t_tok t)) with (lenN (pre ++ t_tok t)) by apply lenN_app.
    rewrite HB, app_assoc, dropN_app_exact. reflexivity.
Qed.

(* the store loop and the 64-token limit *)
Lemma store_loop_val g c : g <= c -> forall ts arr,
  store_loop g c ts arr = Val (arr ++ takeN (g - lenN arr) ts).
Proof.
  intros GC ts; induction ts as [|t r IH]; intros arr; cbn [store_loop takeN].
  - rewrite app_nil_r. reflexivity.
  - destruct (lenN arr <? g) eqn:E1.
    + assert (E2 : (lenN arr <? c) = true) by lia. rewrite E2, IH.
      destruct (g - lenN arr =? 0) eqn:E3; [lia|].
      rewrite <- app_assoc. cbn [app]. rewrite lenN_app. cbn [lenN].
      replace (g - (lenN arr + N.succ 0)) with (N.pred (g - lenN arr)) by lia. reflexivity.
    + destruct (g - lenN arr =? 0) eqn:E3; [|lia]. rewrite app_nil_r. reflexivity.
Qed.

Lemma In_takeN {A} n (l : list A) x : In x (takeN n l) -> In x l.
Proof.
  revert n; induction l as [|y l IH]; intros n; cbn [takeN]; [auto|].
  destruct (n =? 0); [intros []|]. intros [->|H]; [left; reflexivity| right; eapply IH; exact H].
Qed.

(* the array filled by the loop: the first max_tokens tokens of the line, never a store past the array *)
Theorem stored_tokens buf :
  store_loop max_tokens tokens_capacity (all_tokens buf) [] = Val (takeN max_tokens (all_tokens buf)).
Proof.
  rewrite store_loop_val by (vm_compute; discriminate). cbn [app lenN]. rewrite N.sub_0_r. reflexivity.
Qed.

Lemma stored_tokens_len buf : lenN (takeN max_tokens (all_tokens buf)) <= max_tokens.
Proof. rewrite lenN_takeN. lia. Qed.

(* checked primitives never fail inside their bounds *)

Lemma tok_get_ok arr i : (0 <= i < Z.of_N (lenN arr))%Z -> exists t, tok_get arr i = Val t /\ In t arr.
Proof.
  intros H. unfold tok_get. destruct (i <? 0)%Z eqn:E; [lia|].
  destruct (nthN_some arr (Z.to_N i)) as (x & Hx); [lia|]. rewrite Hx. exists x. eauto using nthN_in.
Qed.

Lemma cstr_at_ok buf off : off <= lenN buf -> cstr_at buf off = Val (dropN off buf).
Proof. intros H. unfold cstr_at. destruct (off <=? lenN buf) eqn:E; [reflexivity|lia]. Qed.

Lemma snprintf_ok s : snprintf_chk tbuf_size tbuf_size s = Val (takeN (tbuf_size - 1) s, lenN s).
Proof. reflexivity. Qed.

(* ftpListParseParts: no access outside its objects *)
Section Bounds.
Variables (skipws : bool) (buf : bytes) (arr : list tokrec).
Hypothesis arr_ok : forall t, In t arr -> tok_ok buf t.

Lemma unix_body_in_bounds i : (3 <= i)%Z -> (i + 2 < Z.of_N (lenN arr))%Z -> unix_body skipws buf arr i <> OOB.
Proof.
  intros H3 Hn. unfold unix_body.
  destruct (tok_get_ok arr (i - 1)%Z) as (sz & Gsz & Isz); [lia|].
  destruct (tok_get_ok arr i) as (mo & Gmo & Imo); [lia|].
  destruct (tok_get_ok arr (i + 1)%Z) as (dy & Gdy & Idy); [lia|].
  destruct (tok_get_ok arr (i + 2)%Z) as (yr & Gyr & Iyr); [lia|].
  destruct (tok_get_ok arr 0%Z) as (t0 & Gt0 & It0); [lia|].
  rewrite Gsz, Gmo, Gdy, Gyr. cbn [bind].
  destruct (negb (is_month (t_tok mo))); [discriminate|].
  destruct (negb (re_integer (t_tok sz))); [discriminate|].
  destruct (negb (re_integer (t_tok dy))); [discriminate|].
  destruct (negb (re_time (t_tok yr))); [discriminate|].
  destruct (tok_ok_bounds _ _ (arr_ok _ Imo)) as (Bmo & _ & _).
  destruct (tok_ok_bounds _ _ (arr_ok _ Iyr)) as (Byr & _ & _).
  rewrite cstr_at_ok by lia. cbn [bind]. rewrite !snprintf_ok. cbn [bind].
  match goal with |- (if ?c then _ else _) <> _ => destruct c end; [|discriminate].
  rewrite Gt0. cbn [bind]. rewrite cstr_at_ok by lia. cbn [bind].
  match goal with |- (let '(_, _) := ?x in _) <> _ => destruct x end. discriminate.
Qed.

Lemma unix_loop_in_bounds idx :
  (forall i, In i idx -> (3 <= i)%Z /\ (i + 2 < Z.of_N (lenN arr))%Z) -> unix_loop skipws buf arr idx <> OOB.
Proof.
  induction idx as [|i r IH]; intros H; cbn [unix_loop]; [discriminate|].
  destruct (H i (or_introl eq_refl)) as [A B].
  pose proof (unix_body_in_bounds i A B) as NB.
  destruct (unix_body skipws buf arr i) as [st|]; [|congruence]. cbn [bind].
  destruct st; try discriminate. apply IH. intros j Hj. apply H. right. exact Hj.
Qed.

Lemma unix_indices_range i : In i (unix_indices (lenN arr)) -> (3 <= i)%Z /\ (i + 2 < Z.of_N (lenN arr))%Z.
Proof.
  unfold unix_indices. rewrite in_map_iff. intros (k & <- & Hk). apply in_seq in Hk. lia.
Qed.

Lemma dos_try_in_bounds : dos_try arr <> OOB.
Proof.
  unfold dos_try. destruct (3 <? lenN arr) eqn:E; [|discriminate].
  destruct (tok_get_ok arr 0%Z) as (t0 & G0 & _); [lia|].
  destruct (tok_get_ok arr 1%Z) as (t1 & G1 & _); [lia|].
  destruct (tok_get_ok arr 2%Z) as (t2 & G2 & _); [lia|].
  destruct (tok_get_ok arr 3%Z) as (t3 & G3 & _); [lia|].
  rewrite G0, G1. cbn [bind]. destruct (re_dosdate (t_tok t0) && re_dostime (t_tok t1)); [|discriminate].
  rewrite G2, G3. cbn [bind]. rewrite snprintf_ok. cbn [bind]. discriminate.
Qed.
End Bounds.

Definition seg_ok (buf : bytes) (f : tokrec) : Prop :=
  exists pre post, buf = pre ++ t_tok f ++ post /\ lenN pre = t_pos f.

Lemma segscan_ok buf s : forall pos start cur pre,
  buf = pre ++ rev cur ++ s -> pos = lenN pre + lenN cur -> start = lenN pre ->
  forall f, In f (segscan s pos start cur) -> seg_ok buf f.
Proof.
  induction s as [|c r IH]; intros pos start cur pre HB HP HS f HI; cbn [segscan] in HI.
  - destruct HI as [<-|[]]. exists pre, []. cbn [t_tok t_pos]. auto.
  - destruct (c =? 44) eqn:E.
    + destruct HI as [<-|HI].
      * exists pre, (c :: r). cbn [t_tok t_pos]. auto.
      * apply (IH (pos + 1) (pos + 1) [] (pre ++ rev cur ++ [c])); try assumption.
        -- rewrite HB. cbn [rev app]. rewrite <- !app_assoc. reflexivity.
        -- rewrite !lenN_app, lenN_rev. cbn [lenN]. lia.
        -- rewrite !lenN_app, lenN_rev. cbn [lenN]. lia.
    + apply (IH (pos + 1) start (c :: cur) pre); try assumption.
      * rewrite HB. cbn [rev]. rewrite <- !app_assoc. reflexivity.
      * cbn [lenN]. lia.
Qed.

Lemma eplf_fact_in_bounds buf st f : seg_ok buf f -> eplf_fact buf st f <> OOB.
Proof.
  intros (pre & post & HB & HL). unfold eplf_fact.
  destruct (lenN (t_tok f) <? 1) eqn:E; [discriminate|].
  assert (L : lenN buf = lenN pre + lenN (t_tok f) + lenN post) by (rewrite HB, !lenN_app; lia).
  rewrite cstr_at_ok by lia. cbn [bind].
  repeat match goal with |- (if ?c then _ else _) <> _ => destruct c end; discriminate.
Qed.

Lemma eplf_loop_in_bounds buf fs : (forall f, In f fs -> seg_ok buf f) -> forall st, eplf_loop buf st fs <> OOB.
Proof.
  induction fs as [|f r IH]; intros H st; cbn [eplf_loop]; [discriminate|].
  pose proof (eplf_fact_in_bounds buf st f (H f (or_introl eq_refl))) as NB.
  destruct (eplf_fact buf st f) as [st'|]; [|congruence]. cbn [bind]. apply IH. intros g Hg. apply H. right. exact Hg.
Qed.

Lemma eplf_try_in_bounds buf : eplf_try buf <> OOB.
Proof.
  unfold eplf_try. destruct buf as [|c rest]; [discriminate|].
  destruct (N.eq_dec c 43) as [->|NE].
  - pose proof (eplf_loop_in_bounds (43 :: rest) (segscan rest 1 1 [])) as H.
    match goal with |- bind (eplf_loop _ ?st _) _ <> _ => specialize (H (segscan_ok (43 :: rest) rest 1 1 [] [43] eq_refl eq_refl eq_refl) st) end.
    destruct (eplf_loop _ _ _) as [st'|]; [|congruence]. cbn [bind]. destruct (e_name st'); discriminate.
  - destruct c as [|p]; [discriminate|]. do 6 (destruct p as [p|p|]; try discriminate). congruence.
Qed.

(* the property: for every line and both flags, no read or write outside the line (terminator included),
   the tokens[] array or tbuf[] *)
Theorem list_parse_in_bounds nlst skipws buf : list_parse nlst skipws buf <> OOB.
Proof.
  unfold list_parse. destruct buf as [|b0 br]; [discriminate|]. set (buf := b0 :: br).
  destruct nlst; [discriminate|].
  rewrite stored_tokens. cbn [bind]. set (arr := takeN max_tokens (all_tokens buf)).
  assert (AO : forall t, In t arr -> tok_ok buf t).
  { intros t Ht. apply all_tokens_ok. eapply In_takeN. exact Ht. }
  pose proof (unix_loop_in_bounds skipws buf arr AO (unix_indices (lenN arr)) (unix_indices_range arr)) as NB.
  destruct (unix_loop skipws buf arr (unix_indices (lenN arr))) as [st|]; [|congruence]. cbn [bind].
  (* both remaining outcomes of the Unix loop go on to the DOS and EPLF attempts *)
  destruct st; try discriminate.
  all: pose proof (dos_try_in_bounds buf arr AO) as ND; destruct (dos_try arr) as [d|]; [|congruence]; cbn [bind].
  all: destruct d; [discriminate|apply eplf_try_in_bounds].
Qed.

Lemma strstr_split h p k : strstr h p = Some k -> exists pre rest, h = pre ++ p ++ rest /\ lenN pre = k.
Proof.
  revert k; induction h as [|x h IH]; intros k; cbn [strstr].
  - destruct (starts_with [] p) eqn:E; [|discriminate]. intros H; inversion H; subst k.
    exists [], (dropN (lenN p) []). split; [exact (starts_with_split _ _ E)|reflexivity].
  - destruct (starts_with (x :: h) p) eqn:E.
    + intros H; inversion H; subst k.
      exists [], (dropN (lenN p) (x :: h)). split; [exact (starts_with_split _ _ E)|reflexivity].
    + destruct (strstr h p) as [j|] eqn:S; cbn [option_map]; [|discriminate].
      intros H; inversion H; subst k. destruct (IH j eq_refl) as (pre & rest & R & L).
      exists (x :: pre), rest. cbn [app lenN]. split; [f_equal; exact R|lia].
Qed.

Theorem unix_name_is_line_tail skipws buf arr i p :
  unix_body skipws buf arr i = Val (Found p) ->
  exists pre, buf = pre ++ p_name p ++ match p_link p with Some l => arrow ++ l | None => [] end.
Proof.
  unfold unix_body.
  destruct (tok_get arr (i - 1)%Z) as [sz|]; cbn [bind]; [|discriminate].
  destruct (tok_get arr i) as [mo|]; cbn [bind]; [|discriminate].
  destruct (tok_get arr (i + 1)%Z) as [dy|]; cbn [bind]; [|discriminate].
  destruct (tok_get arr (i + 2)%Z) as [yr|]; cbn [bind]; [|discriminate].
  destruct (negb (is_month (t_tok mo))); [discriminate|].
  destruct (negb (re_integer (t_tok sz))); [discriminate|].
  destruct (negb (re_integer (t_tok dy))); [discriminate|].
  destruct (negb (re_time (t_tok yr))); [discriminate|].
  destruct (cstr_at buf (t_pos mo)) as [from|]; cbn [bind]; [|discriminate].
  rewrite !snprintf_ok. cbn [bind].
  match goal with |- (if ?c then _ else _) = _ -> _ => destruct c end; [|discriminate].
  destruct (tok_get arr 0) as [t0|]; cbn [bind]; [|discriminate].
  unfold cstr_at. set (off := t_pos yr + lenN (t_tok yr)).
  destruct (off <=? lenN buf); cbn [bind]; [|discriminate].
  set (after := dropN off buf).
  set (name0 := if skipws then snd (span is_wsp after)
                else match after with c :: r => if is_wsp c then r else after | [] => after end).
  assert (N0 : exists q, buf = q ++ name0).
  { assert (A : buf = takeN off buf ++ after) by (symmetry; apply takeN_dropN).
    subst name0. destruct skipws.
    - exists (takeN off buf ++ fst (span is_wsp after)). rewrite <- app_assoc, span_app. exact A.
    - destruct after as [|c r] eqn:EA; [exists (takeN off buf); exact A|].
      destruct (is_wsp c); [|exists (takeN off buf); exact A].
      exists (takeN off buf ++ [c]). rewrite <- app_assoc. exact A. }
  destruct N0 as (q & Q).
  destruct (head0 (t_tok t0) =? 108).
  - destruct (strstr name0 arrow) as [k|] eqn:S.
    + intros H; inversion H; subst p; clear H. cbn [p_name p_link].
      destruct (strstr_split _ _ _ S) as (pre & rest & R & L).
      exists q. rewrite Q at 1. f_equal. rewrite R at 1.
      assert (T : takeN k name0 = pre) by (rewrite R, <- L; apply takeN_app_exact).
      assert (D : dropN (k + 4) name0 = rest).
      { rewrite R, app_assoc. replace (k + 4) with (lenN (pre ++ arrow)) by (rewrite lenN_app, L; reflexivity).
        apply dropN_app_exact. }
      rewrite T, D. reflexivity.
    + intros H; inversion H; subst p; clear H. cbn [p_name p_link]. exists q. rewrite app_nil_r. exact Q.
  - intros H; inversion H; subst p; clear H. cbn [p_name p_link]. exists q. rewrite app_nil_r. exact Q.
Qed.

(* source-level facts regenerated from the program text *)
Lemma handlers_guarded :
  port_handler_guarded = true /\ eprt_handler_guarded = true /\
  tbuf_writes_are_sized_snprintf = true /\ 0 < tbuf_size /\ max_tokens <= tokens_capacity.
Proof. vm_compute. repeat split; discriminate. Qed.

Lemma parse_proto_nonempty ipf sanity buf : buf <> [] -> parse_proto_ip_port ipf sanity buf <> EPrecondition.
Proof.
  destruct buf as [|d s]; [congruence|]. intros _. unfold parse_proto_ip_port.
  destruct (strtol10 s) as [pl e].
  destruct (negb ((pl =? 1)%Z || (pl =? 2)%Z) || negb (head0 e =? d)); [discriminate|].
  destruct (find_first (fun c => c =? d) (dropN 1 e)) as [k|]; [|discriminate].
  destruct (max_ipstrlen <=? k); [discriminate|].
  destruct (is_any _); [discriminate|]. destruct (negb _); [discriminate|].
  destruct (strtol10 _) as [po e3]. destruct (_ || _); [discriminate|]. destruct (_ && _); discriminate.
Qed.
