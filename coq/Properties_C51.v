(* Properties_C51.v — C51: the bounded LRU/TTL map (src/base/ClpMap.h) behaves like its
   specification.  Statements, closed by `exact` or by the few lines that assemble them; proofs live in ClpmapProofs.v.

   All theorems hold for EVERY instantiation of the template: any Value type V, any
   MemoryUsedBy function vmem, any sizeof(Entry)/sizeof(IndexItem) esz/isz, any maximal
   time_t tmax.  A history starts with a constructor call (capacity cap, optional default
   TTL dttl; bttl is the built-in default TTL) at clock t0, followed by any list of
   operations: get, add, add-with-default-TTL, del, setMemLimit, and setting the clock to
   ANY value (forwards, backwards, negative).  op_ok / cap <= U64MAX only say that capacities
   are uint64_t values; dttl_ok is the constructor's own precondition (it asserts it). *)
Require Import SquidV.Bytes SquidV.ClpmapModel SquidV.ClpmapProofs.
Require Import SquidV.gen.Clpmap_gen.
Local Open Scope N_scope.

(* 1. Refinement: after every operation of every history, the model of ClpMap returned the same
      get()/add() result, reports the same memoryUsed() and holds the same entries in the same
      LRU order (with the same expiry times and accounted sizes) as the reference
      LRU/TTL/capacity specification (ClpmapModel.v, part 2). *)
Theorem C51_refines_lru_ttl_capacity_spec :
  forall (V : Type) (vmem : V -> N) (esz isz : N) (tmax : Z)
         (t0 : Z) (cap : N) (dttl : option Z) (bttl : Z) (ops : list (op V)),
    cap <= U64MAX -> dttl_ok dttl -> Forall op_ok ops ->
    fst (clp_run vmem esz isz tmax (t0, clp_new t0 cap dttl bttl) ops) =
    fst (spec_run vmem esz isz tmax (t0, spec_new cap dttl bttl) ops).
Proof. exact refines_spec. Qed.

(* 2. Accounting: in every reachable state memoryUsed() is exactly the sum of the stored
      entries' accounted sizes and never exceeds memLimit(); no assert() of the code fired,
      the trim() loop bound was never hit (stat = StOk), and keys are unique (the index and the
      list agree). *)
Theorem C51_memory_accounted_and_within_capacity :
  forall (V : Type) (vmem : V -> N) (esz isz : N) (tmax : Z)
         (t0 : Z) (cap : N) (dttl : option Z) (bttl : Z) (ops : list (op V)),
    cap <= U64MAX -> dttl_ok dttl -> Forall op_ok ops ->
    let m := snd (snd (clp_run vmem esz isz tmax (t0, clp_new t0 cap dttl bttl) ops)) in
    memUsed m = total (entries m) /\ memUsed m <= memLimit m /\ memLimit m <= U64MAX /\
    stat m = StOk /\ NoDup (map e_key (entries m)).
Proof. exact invariants. Qed.

(* 3. Purging: whatever operation o is applied in whatever reachable state, the entries it does
      not address (all entries for setMemLimit/clock; all but key k for get/add/del on k) keep
      their relative order and lose only a suffix `purged` of the LRU order -- the least
      recently used ones; and nothing is purged needlessly: victims exist only for setMemLimit
      and successful add, and keeping even the most recently used victim on top of the kept
      entries (and the added one) would exceed the capacity (purge_justified). *)
Theorem C51_only_least_recently_used_suffix_purged :
  forall (V : Type) (vmem : V -> N) (esz isz : N) (tmax : Z)
         (t0 : Z) (cap : N) (dttl : option Z) (bttl : Z) (ops : list (op V)) (o : op V),
    cap <= U64MAX -> dttl_ok dttl -> Forall op_ok ops -> op_ok o ->
    let w := snd (clp_run vmem esz isz tmax (t0, clp_new t0 cap dttl bttl) ops) in
    let w' := fst (clp_step vmem esz isz tmax w o) in
    let res := snd (clp_step vmem esz isz tmax w o) in
    exists purged,
      others (op_key o) (entries (snd w)) = others (op_key o) (entries (snd w')) ++ purged /\
      purge_justified vmem esz isz o res (memLimit (snd w'))
                      (others (op_key o) (entries (snd w'))) purged.
Proof. exact only_lru_purged. Qed.

(* 2b. "Accounted" means what it should: every stored entry is accounted at exactly
       key length + MemoryUsedBy(value) + sizeof(Entry) + sizeof(IndexItem), a positive uint64_t
       (so, with 2., memoryUsed() is the exact sum of those sizes over the stored entries). *)
Theorem C51_every_entry_accounted_at_its_size :
  forall (V : Type) (vmem : V -> N) (esz isz : N) (tmax : Z)
         (t0 : Z) (cap : N) (dttl : option Z) (bttl : Z) (ops : list (op V)),
    cap <= U64MAX -> dttl_ok dttl -> Forall op_ok ops ->
    Forall (fun e => size_of vmem esz isz (e_key e) (e_val e) = Some (e_mem e) /\ 0 < e_mem e)
           (entries (snd (snd (clp_run vmem esz isz tmax (t0, clp_new t0 cap dttl bttl) ops)))).
Proof. exact entries_accounted. Qed.

(* 1b. What get() serves, in plain terms: in every reachable state, get(k) returns value v
       only if an entry (k, v) is stored whose expiry time has not passed (now <= expires), and
       returns nothing only if every stored entry with key k (there is at most one) has expired. *)
Theorem C51_get_serves_exactly_the_unexpired_entry :
  forall (V : Type) (vmem : V -> N) (esz isz : N) (tmax : Z)
         (t0 : Z) (cap : N) (dttl : option Z) (bttl : Z) (ops : list (op V)) (k : bytes),
    cap <= U64MAX -> dttl_ok dttl -> Forall op_ok ops ->
    let w := snd (clp_run vmem esz isz tmax (t0, clp_new t0 cap dttl bttl) ops) in
    match snd (clp_get (fst w) (snd w) k) with
    | Some v => exists e, In e (entries (snd w)) /\ e_key e = k /\ e_val e = v /\ (fst w <= e_expires e)%Z
    | None => forall e, In e (entries (snd w)) -> e_key e = k -> (e_expires e < fst w)%Z
    end.
Proof. exact get_serves_fresh. Qed.

(* 4. The code's counted memory requirement (a chain of overflow-checked additions) is the
      exact mathematical sum when that is a uint64_t and "nothing" otherwise; the expiry time
      is the saturating sum now + ttl ("never" when the clock is negative). *)
Theorem C51_memory_requirement_is_checked_sum :
  forall (V : Type) (vmem : V -> N) (esz isz : N) (k : bytes) (v : V),
    mem_counted vmem esz isz k v =
    (if lenN k + vmem v + (esz + isz) <=? U64MAX then Some (lenN k + vmem v + (esz + isz)) else None).
Proof. exact mem_counted_size_of. Qed.

Theorem C51_expiry_is_saturating_sum :
  forall (tmax now ttl : Z), (0 <= ttl)%Z ->
    expires_at tmax now ttl = (if (now <? 0)%Z then tmax else Z.min tmax (now + ttl)).
Proof. exact expires_at_deadline. Qed.

(* ---- non-vacuity: the hypotheses are met by concrete histories, with the constants
        regenerated from /repo; sizes are expressed through them so that a changed sizeof
        does not change the expected answers ---- *)
Definition ex_unit : N := 1 + 10 + (clp_entry_size + clp_index_item_size).   (* 1-byte key, 10-byte value *)
Definition ex_run (cap : N) (ops : list (op N)) :=
  map fst (fst (clp_run (fun _ => 10) clp_entry_size clp_index_item_size clp_time_max
                        (100%Z, clp_new 100%Z cap None clp_default_ttl) ops)).

(* capacity for two entries: the third add purges the least recently used one (98, because 97
   was touched by get), the TTL hides entry 99 once the clock passes its deadline *)
Example C51_example_lru_and_ttl :
  ex_run (2 * ex_unit)
         [OAdd [97] 1 5%Z; OAdd [98] 2 5%Z; OGet [97]; OAdd [99] 3 5%Z; OGet [98]; OGet [97];
          OSetClock 105%Z; OGet [99]; OSetClock 106%Z; OGet [99]; OSetLimit 0; OGet [97]]
  = [RAdd true; RAdd true; RGet (Some 1); RAdd true; RGet None; RGet (Some 1);
     RUnit; RGet (Some 3); RUnit; RGet None; RUnit; RGet None].
Proof. vm_compute. reflexivity. Qed.

Example C51_example_hypotheses_hold :
  2 * ex_unit <= U64MAX /\ dttl_ok (Some 0%Z) /\ dttl_ok None /\
  Forall (@op_ok N) [OAdd [97] 1 5%Z; OSetLimit 0; OSetClock (-5)%Z].
Proof.
  split; [vm_compute; discriminate|]. split; [vm_compute; discriminate|]. split; [exact I|].
  repeat constructor. vm_compute. discriminate.
Qed.

(* Behaviour worth knowing (it is what the code does; model and specification agree on it):
   an add() that is rejected -- here because of a negative TTL -- still forgets the previous
   entry of that key, although ClpMap.h documents "false: caching was rejected (the map
   remains unchanged)". *)
Example C51_example_rejected_add_forgets_previous_entry :
  ex_run (2 * ex_unit) [OAdd [97] 1 5%Z; OGet [97]; OAdd [97] 2 (-1)%Z; OGet [97]]
  = [RAdd true; RGet (Some 1); RAdd false; RGet None].
Proof. vm_compute. reflexivity. Qed.

Print Assumptions C51_refines_lru_ttl_capacity_spec.
Print Assumptions C51_memory_accounted_and_within_capacity.
Print Assumptions C51_only_least_recently_used_suffix_purged.
Print Assumptions C51_every_entry_accounted_at_its_size.
Print Assumptions C51_get_serves_exactly_the_unexpired_entry.
Print Assumptions C51_memory_requirement_is_checked_sum.
Print Assumptions C51_expiry_is_saturating_sum.
