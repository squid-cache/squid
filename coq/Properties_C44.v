(* Properties_C44.v — C44: access lists decide by first match, even when checks go asynchronous.
   Statements, closed by `exact` or by the few lines that assemble them; proofs live in AcltreeProofs.v.

   run_check m t bans tbl runs the modelled ACLChecklist (AcltreeModel.v) on the Acl::Tree t with the
   banned actions bans and the leaf scripts tbl: nonBlockingCheck followed by as many
   resumeNonBlockingCheck calls as there are pending lookups (m = MNonBlocking), fastCheck() (MFast) or
   fastCheck(list) (MFastList). It returns None only when the suspend/resume loop runs out of fuel; the
   final state has err = true when a C++ assertion would have failed. decide is the recursive first-match
   evaluation over the values of the leaves. Hypotheses: tree_ok (all rules have actions or none),
   wf_node (a NotNode has its operand), explicit_actions (configured actions are not "implicit") hold for
   every tree the configuration code can build; shared_leaves_sync: a leaf ACL object that is used at several
   places of the tree is synchronous (leaves that may start lookups occur once; NoDup leaf ids suffices). *)
Require Import SquidV.Bytes SquidV.AcltreeModel SquidV.AcltreeProofs.
Local Open Scope N_scope.

(* The non-blocking check terminates without tripping an assertion and calls back with the first-match
   decision, for every tree, every banned-action list and every leaf script: any number of real
   asynchronous lookups per leaf (suspend / resume through the breadcrumb path), lookups that do not
   really go asynchronous, retrying leaves and the async-loop allowance are all covered by leaf_value. *)
Theorem C44_nonblocking_first_match : forall t bans tbl,
  tree_ok t = true -> forallb wf_node (rules t) = true -> explicit_actions t = true ->
  shared_leaves_sync t tbl ->
  exists c a, run_check MNonBlocking t bans tbl = Some c /\ err c = false /\ cbk c = Some a /\
    result a = decide MNonBlocking (fun i => leaf_value true (lookup_script tbl i)) t bans.
Proof. exact nonblocking_first_match. Qed.

(* fastCheck() and fastCheck(list): same decision, a leaf that would need a lookup counts as a mismatch *)
Theorem C44_fast_first_match : forall m t bans tbl,
  m <> MNonBlocking ->
  tree_ok t = true -> forallb wf_node (rules t) = true -> explicit_actions t = true ->
  shared_leaves_sync t tbl ->
  exists c, run_check m t bans tbl = Some c /\ err c = false /\
    result (ans c) = decide m (fun i => leaf_value false (lookup_script tbl i)) t bans.
Proof. exact fast_first_match. Qed.

(* When every lookup really goes asynchronous, however many lookups each leaf needs, the decision is the
   first-match evaluation over the plain truth values of the leaves. *)
Theorem C44_async_lookups_invisible : forall t bans tbl,
  tree_ok t = true -> forallb wf_node (rules t) = true -> explicit_actions t = true ->
  shared_leaves_sync t tbl ->
  (forall i, In i (tree_leaf_ids t) -> forallb is_real (attempts (lookup_script tbl i)) = true) ->
  exists c a, run_check MNonBlocking t bans tbl = Some c /\ err c = false /\ cbk c = Some a /\
    result a = decide MNonBlocking (fun i => truth (lookup_script tbl i)) t bans.
Proof. exact nonblocking_async_invisible. Qed.

(* Two schedules that differ only in which leaves go asynchronous, and how often, give the same decision. *)
Theorem C44_schedule_independent : forall t bans tbl tbl',
  tree_ok t = true -> forallb wf_node (rules t) = true -> explicit_actions t = true ->
  shared_leaves_sync t tbl -> shared_leaves_sync t tbl' ->
  (forall i, In i (tree_leaf_ids t) ->
     truth (lookup_script tbl i) = truth (lookup_script tbl' i) /\
     forallb is_real (attempts (lookup_script tbl i)) = true /\
     forallb is_real (attempts (lookup_script tbl' i)) = true) ->
  exists c a c' a', run_check MNonBlocking t bans tbl = Some c /\ cbk c = Some a /\
    run_check MNonBlocking t bans tbl' = Some c' /\ cbk c' = Some a' /\ result a = result a'.
Proof. exact schedule_independent. Qed.

(* With synchronous leaves the fast checks evaluate the plain truth values. *)
Theorem C44_fast_sync_truth : forall m t bans tbl,
  m <> MNonBlocking ->
  tree_ok t = true -> forallb wf_node (rules t) = true -> explicit_actions t = true ->
  shared_leaves_sync t tbl ->
  (forall i, In i (tree_leaf_ids t) -> attempts (lookup_script tbl i) = []) ->
  exists c, run_check m t bans tbl = Some c /\ err c = false /\
    result (ans c) = decide m (fun i => truth (lookup_script tbl i)) t bans.
Proof. exact fast_sync_truth. Qed.

(* What decide means: the action of the least rule that is not banned and whose expression holds; if there
   is none, the reverse of the last action (DUNNO when that is neither allow nor deny or there are no
   actions), or DENIED for fastCheck(list). *)
Theorem C44_decide_is_first_match : forall m v t bans,
  match first_from v (rule_banned t bans) 0 (rules t) with
  | Some q =>
      (exists x, nthN q (rules t) = Some x /\ rule_banned t bans q = false /\ eval v x = true) /\
      (forall p y, p < q -> nthN p (rules t) = Some y -> rule_banned t bans p = true \/ eval v y = false) /\
      decide m v t bans = match actions t with
                          | [] => (Allowed, 0, false)
                          | _ => (acode (nth_action t q), akind (nth_action t q), false)
                          end
  | None =>
      (forall p y, nthN p (rules t) = Some y -> rule_banned t bans p = true \/ eval v y = false) /\
      decide m v t bans = match m with
                          | MFastList => (Denied, 0, false)
                          | _ => (opposite (acode (last (actions t) (action Dunno 0))), 0, true)
                          end
  end.
Proof. exact decide_is_first_match. Qed.

(* An empty access list: neither allow nor deny. *)
Theorem C44_empty_list_is_dunno : forall i bans tbl,
  exists c a, run_check MNonBlocking (mkTree i [] []) bans tbl = Some c /\ err c = false /\ cbk c = Some a /\
    result a = (Dunno, 0, true).
Proof. exact empty_list_is_dunno. Qed.

(* hypotheses that are easy to check *)
Theorem C44_distinct_leaves_suffice : forall t tbl, NoDup (tree_leaf_ids t) -> shared_leaves_sync t tbl.
Proof. exact NoDup_shared_leaves_sync. Qed.

Theorem C44_shared_leaves_checkable : forall t tbl, shared_leaves_sync_b t tbl = true -> shared_leaves_sync t tbl.
Proof. exact shared_leaves_check. Qed.

(* ---------- non-vacuity: concrete instances ---------- *)
(* http_access allow A !B C ; http_access deny any-of(C, D): A needs two lookups, B one, D one that does not
   really go async; the synchronous C is shared by both rules *)
Definition ex_tree : tree :=
  mkTree 1 [Inner 2 KAnd [Leaf 10; Inner 3 KNot [Leaf 11]; Leaf 12]; Inner 4 KAnd [Inner 5 KAnyOf [Leaf 12; Leaf 13]]]
         [action Allowed 0; action Denied 0].
Definition ex_tbl : list (N * lscript) :=
  [(10, mkScript true false [Real; Real]); (11, mkScript true false [Real]);
   (12, mkScript false false []); (13, mkScript true false [Fake])].

Example C44_example_hypotheses :
  tree_ok ex_tree = true /\ forallb wf_node (rules ex_tree) = true /\ explicit_actions ex_tree = true /\
  shared_leaves_sync ex_tree ex_tbl.
Proof.
  repeat split; try reflexivity. apply shared_leaves_check. vm_compute. reflexivity.
Qed.

Example C44_example_run :
  option_map (fun c => (err c, option_map result (cbk c), susp c, starts c)) (run_check MNonBlocking ex_tree [] ex_tbl)
  = Some (false, Some (Allowed, 0, true), 3, 4).
Proof. vm_compute. reflexivity. Qed.

Example C44_example_decide :
  decide MNonBlocking (fun i => leaf_value true (lookup_script ex_tbl i)) ex_tree [] = (Allowed, 0, true).
Proof. vm_compute. reflexivity. Qed.

Example C44_example_fast :
  option_map (fun c => (err c, result (ans c))) (run_check MFast ex_tree [] ex_tbl) = Some (false, (Allowed, 0, true))
  /\ decide MFast (fun i => leaf_value false (lookup_script ex_tbl i)) ex_tree [] = (Allowed, 0, true).
Proof. split; vm_compute; reflexivity. Qed.

Print Assumptions C44_nonblocking_first_match.
Print Assumptions C44_fast_first_match.
Print Assumptions C44_async_lookups_invisible.
Print Assumptions C44_schedule_independent.
Print Assumptions C44_fast_sync_truth.
Print Assumptions C44_decide_is_first_match.
Print Assumptions C44_empty_list_is_dunno.
Print Assumptions C44_distinct_leaves_suffice.
Print Assumptions C44_shared_leaves_checkable.
