(* IntrangeProofs.v — proofs for C43 (ACLIntRange). *)
Require Import SquidV.Bytes SquidV.TokModel SquidV.Int64Proofs SquidV.IntrangeModel.
Require Import ZifyBool ZifyN.
Local Open Scope Z_scope.

(* value of a string of decimal digits *)
Definition dec_value (ds : bytes) : Z := fold_left (fun a c => a * 10 + (Z.of_N c - 48)) ds 0.
Definition all_digits (ds : bytes) : bool :=
  match ds with [] => false | _ => forallb is_digit ds end.
(* a C integer numeral: optional sign, 1*DIGIT, nothing else *)
Definition numeral (s : bytes) : option Z :=
  match s with
  | [] => None
  | c :: ds =>
      if (c =? 45)%N then (if all_digits ds then Some (- dec_value ds) else None)
      else if (c =? 43)%N then (if all_digits ds then Some (dec_value ds) else None)
      else if all_digits s then Some (dec_value s) else None
  end.
(* the closed range a token lists: "N" or "A-B" split at the first '-', 16-bit, ordered *)
Definition tok_range (t : bytes) : option (Z * Z) :=
  let '(a, rest) := span (fun c => negb (c =? 45)%N) t in
  match numeral a, (match rest with [] => numeral a | _ :: b => numeral b end) with
  | Some lo, Some hi => if (0 <=? lo) && (lo <=? hi) && (hi <=? 65535) then Some (lo, hi) else None
  | _, _ => None
  end.
(* tokens as ConfigParser delivers them: no NUL, no isspace() byte *)
Definition clean_char (c : N) : bool := negb (c =? 0)%N && negb (is_c_space c).
Definition clean (t : bytes) : bool := forallb clean_char t.

Lemma dec_value_nonneg ds : all_digits ds = true -> 0 <= dec_value ds.
Proof. destruct ds; [discriminate|]. apply dec_value_nonneg_acc. lia. Qed.

Lemma c_string_clean t : clean t = true -> c_string t = t.
Proof.
  induction t as [|c r IH]; intros H; cbn [c_string]; [reflexivity|].
  cbn [clean forallb] in H. apply andb_prop in H as [Hc Hr]. unfold clean_char in Hc.
  destruct (c =? 0)%N eqn:E; [cbn in Hc; discriminate|]. now rewrite (IH Hr).
Qed.

(* saturation as glibc does it *)
Definition sat_pos (v : Z) : Z := if v >? two63 - 1 then two63 - 1 else v.
Definition sat_neg (v : Z) : Z := if v >? two63 then - two63 else - v.
Definition sat64 (v : Z) : Z := if v >? two63 - 1 then two63 - 1 else if v <? - two63 then - two63 else v.

Lemma sat_pos_64 v : 0 <= v -> sat_pos v = sat64 v.
Proof.
  intros H. unfold sat_pos, sat64. destruct (v >? two63 - 1); [reflexivity|].
  destruct (Z.ltb_spec v (- two63)); [unfold two63 in *; lia| reflexivity].
Qed.

Lemma sat_neg_64 v : 0 <= v -> sat_neg v = sat64 (- v).
Proof.
  intros H. unfold sat_neg, sat64.
  destruct (Z.gtb_spec v two63), (Z.gtb_spec (- v) (two63 - 1)), (Z.ltb_spec (- v) (- two63));
    unfold two63 in *; lia.
Qed.

(* the sign dispatch of strtoll10 as boolean tests: (negative, text after the sign, characters skipped) *)
Definition sign_of (l : bytes) : bool * bytes * N :=
  match l with
  | c :: r => if (c =? 45)%N then (true, r, 1%N) else if (c =? 43)%N then (false, r, 1%N) else (false, l, 0%N)
  | [] => (false, l, 0%N)
  end.

Lemma sign_split (l1 : bytes) :
  (match l1 with
   | 45%N :: r => (true, r, N.succ 0)
   | 43%N :: r => (false, r, N.succ 0)
   | _ => (false, l1, 0%N)
   end) = sign_of l1.
Proof.
  destruct l1 as [|c r]; [reflexivity|]. destruct c as [|p]; [reflexivity|].
  do 7 (try (destruct p as [p|p|])); reflexivity.
Qed.

(* strtoll10 on clean text, in terms of the leading sign and the maximal digit run *)
Lemma strtoll10_clean l :
  clean l = true ->
  strtoll10 l =
  let '(neg, l2, n2) := sign_of l in
  let d := fst (span is_digit l2) in
  match d with
  | [] => (0, 0%N, false)
  | _ => if neg then (sat_neg (dec_value d), (n2 + lenN d)%N, dec_value d >? two63)
         else (sat_pos (dec_value d), (n2 + lenN d)%N, dec_value d >? two63 - 1)
  end.
Proof.
  intros Hcl. unfold strtoll10. rewrite (c_string_clean l Hcl).
  assert (Hsk : skip_space l 0%N = (l, 0%N)).
  { destruct l as [|c r]; [reflexivity|]. cbn [skip_space].
    cbn [clean forallb] in Hcl. apply andb_prop in Hcl as [Hc _]. unfold clean_char in Hc.
    destruct (is_c_space c); [rewrite andb_false_r in Hc; discriminate|reflexivity]. }
  rewrite Hsk, sign_split. destruct (sign_of l) as [[neg l2] n2].
  rewrite digit_run_span. cbv zeta.
  destruct (fst (span is_digit l2)) as [|y ys] eqn:Ed; [reflexivity|].
  change (dval y :: map dval ys) with (map dval (y :: ys)).
  rewrite digits_value_map, lenN_map. fold (dec_value (y :: ys)).
  unfold sat_neg, sat_pos.
  destruct neg.
  - destruct (dec_value (y :: ys) >? two63); reflexivity.
  - destruct (dec_value (y :: ys) >? two63 - 1); reflexivity.
Qed.

(* xatoll on clean text [pre ++ l2], [pre] being the sign if there is one: the digit run has to be
   all of [l2] *)
Lemma xatoll_signed l neg pre l2 : clean l = true -> l = pre ++ l2 -> sign_of l = (neg, l2, lenN pre) ->
  xatoll l = if all_digits l2 then Some (if neg then sat_neg (dec_value l2) else sat_pos (dec_value l2)) else None.
Proof.
  intros Hcl El Es. unfold xatoll. rewrite (strtoll10_clean l Hcl), (c_string_clean l Hcl), Es, El. cbv zeta.
  pose proof (span_app is_digit l2) as Ea. pose proof (span_all is_digit l2) as Hd.
  pose proof (span_stop is_digit l2) as Hs.
  destruct (span is_digit l2) as [d rest]. cbn [fst snd] in *. subst l2.
  assert (Edrop : dropN (lenN pre + lenN d) (pre ++ d ++ rest) = rest)
    by (rewrite app_assoc, <- lenN_app; apply dropN_app_exact).
  assert (Eall : all_digits (d ++ rest) = match d, rest with _ :: _, [] => true | _, _ => false end).
  { unfold all_digits. destruct d as [|y ys]; cbn [app].
    - destruct rest as [|z r]; [reflexivity|]. cbn [forallb]. now rewrite Hs.
    - change (y :: ys ++ rest) with ((y :: ys) ++ rest). rewrite forallb_app, Hd.
      destruct rest as [|z r]; [reflexivity|]. cbn [forallb andb]. now rewrite Hs. }
  rewrite Eall. destruct d as [|y ys]; [reflexivity|].
  assert (En : (lenN pre + lenN (y :: ys) =? 0)%N = false) by (cbn [lenN]; lia).
  destruct neg; rewrite En, Edrop; (destruct rest; [now rewrite app_nil_r| reflexivity]).
Qed.

Lemma xatoll_clean s : clean s = true ->
  xatoll s = match numeral s with Some v => Some (sat64 v) | None => None end.
Proof.
  intros Hcl. destruct s as [|c r]; [reflexivity|]. unfold numeral.
  destruct (c =? 45)%N eqn:E45; [|destruct (c =? 43)%N eqn:E43].
  - rewrite (xatoll_signed (c :: r) true [c] r Hcl eq_refl) by (cbn [sign_of]; now rewrite E45).
    destruct (all_digits r) eqn:Ea; [|reflexivity]. f_equal. apply sat_neg_64, dec_value_nonneg, Ea.
  - rewrite (xatoll_signed (c :: r) false [c] r Hcl eq_refl) by (cbn [sign_of]; now rewrite E45, E43).
    destruct (all_digits r) eqn:Ea; [|reflexivity]. f_equal. apply sat_pos_64, dec_value_nonneg, Ea.
  - rewrite (xatoll_signed (c :: r) false [] (c :: r) Hcl eq_refl) by (cbn [sign_of]; now rewrite E45, E43).
    destruct (all_digits (c :: r)) eqn:Ea; [|reflexivity]. f_equal. apply sat_pos_64, dec_value_nonneg, Ea.
Qed.

Lemma land_high_zero p : 0 <= p -> (Z.land p (-65536) =? 0) = (p <=? 65535).
Proof.
  intros Hp. change (-65536) with (Z.lnot (Z.ones 16)).
  rewrite <- Z.ldiff_land, Z.ldiff_ones_r by lia.
  rewrite Z.shiftr_div_pow2, Z.shiftl_mul_pow2 by lia. change (2 ^ 16) with 65536.
  destruct (p <=? 65535) eqn:E.
  - assert (p / 65536 = 0) as -> by (apply Z.div_small; lia). reflexivity.
  - assert (1 <= p / 65536) by (apply Z.div_le_lower_bound; lia). lia.
Qed.

Definition port16 (p : Z) : bool := (0 <=? p) && (p <=? 65535).

Theorem xatos_spec s : clean s = true ->
  xatos s = match numeral s with Some p => if port16 p then Some p else None | None => None end.
Proof.
  intros Hcl. unfold xatos. rewrite (xatoll_clean s Hcl).
  destruct (numeral s) as [v|]; [|reflexivity]. unfold port16, sat64.
  destruct (v >? two63 - 1) eqn:E1.
  - cbn. destruct (0 <=? v) eqn:E2; destruct (v <=? 65535) eqn:E3; unfold two63 in *; try lia; reflexivity.
  - destruct (v <? - two63) eqn:E2.
    + cbn. destruct (0 <=? v) eqn:E3; [unfold two63 in *; lia|reflexivity].
    + destruct (v <? 0) eqn:E3.
      * destruct (0 <=? v) eqn:E4; [lia|reflexivity].
      * rewrite (land_high_zero v) by lia. destruct (0 <=? v) eqn:E4; [|lia].
        destruct (v <=? 65535); reflexivity.
Qed.

Lemma clean_app a b : clean (a ++ b) = clean a && clean b.
Proof. unfold clean. apply forallb_app. Qed.

Lemma clean_span_parts p t : clean t = true ->
  clean (fst (span p t)) = true /\ clean (snd (span p t)) = true.
Proof. intros H. rewrite <- (span_app p t), clean_app in H. now apply andb_prop in H. Qed.

Lemma clean_tail c r : clean (c :: r) = true -> clean r = true.
Proof. cbn [clean forallb]. intros H. now apply andb_prop in H. Qed.

Lemma range_test lo hi : (0 <=? lo) && (lo <=? hi) && (hi <=? 65535) = port16 lo && (port16 hi && (hi >=? lo)).
Proof. unfold port16. lia. Qed.

(* an unsigned short promoted to int: the increment cannot overflow *)
Lemma add32_port p : port16 p = true -> add32 p 1 = (p + 1, false).
Proof.
  unfold port16, add32, fits32, wrap32, two31, two32, int_max. intros H.
  f_equal; [rewrite Z.mod_small by lia|]; lia.
Qed.

(* the half-open range stored for a token is [lo, hi+1) of the closed range it lists; nothing overflows *)
Theorem ir_parse_token_spec t : clean t = true ->
  ir_parse_token t = (match tok_range t with Some (lo, hi) => Some (lo, hi + 1) | None => None end, false).
Proof.
  intros Hcl. unfold ir_parse_token, tok_range. rewrite (c_string_clean t Hcl).
  destruct (clean_span_parts (fun c => negb (c =? 45)%N) t Hcl) as [Ha Hb].
  destruct (span (fun c => negb (c =? 45)%N) t) as [a rest]. cbn [fst snd] in Ha, Hb.
  rewrite (xatos_spec a Ha). destruct (numeral a) as [lo|]; [|reflexivity].
  destruct rest as [|x b].
  - rewrite range_test. destruct (port16 lo) eqn:Elo; cbn [andb]; [|reflexivity].
    rewrite Z.geb_leb, Z.leb_refl, (add32_port lo Elo). reflexivity.
  - rewrite (xatos_spec b (clean_tail x b Hb)).
    destruct (numeral b) as [hi|]; [rewrite range_test|]; destruct (port16 lo); cbn [andb]; try reflexivity.
    destruct (port16 hi) eqn:Ehi; cbn [andb]; [|reflexivity].
    destruct (hi >=? lo); [rewrite (add32_port hi Ehi)|]; reflexivity.
Qed.

Definition stored (t : bytes) : option (Z * Z) :=
  match tok_range t with Some (lo, hi) => Some (lo, hi + 1) | None => None end.

Fixpoint all_stored (toks : list bytes) : option (list (Z * Z)) :=
  match toks with
  | [] => Some []
  | t :: r => match stored t, all_stored r with
              | Some x, Some xs => Some (x :: xs)
              | _, _ => None
              end
  end.

Lemma ir_parse_acc toks : forall acc ub, forallb clean toks = true ->
  ir_parse toks acc ub = (match all_stored toks with Some xs => Some (rev acc ++ xs) | None => None end, ub).
Proof.
  induction toks as [|t r IH]; intros acc ub Hcl; cbn [ir_parse all_stored].
  - now rewrite app_nil_r.
  - cbn [forallb] in Hcl. apply andb_prop in Hcl as [Ht Hr].
    rewrite (ir_parse_token_spec t Ht). fold (stored t).
    destruct (stored t) as [x|]; [|now rewrite orb_false_r].
    rewrite (IH (x :: acc) (ub || false) Hr), orb_false_r. cbn [rev].
    destruct (all_stored r) as [xs|]; [|reflexivity]. now rewrite <- app_assoc.
Qed.

Theorem ir_parse_spec toks : forallb clean toks = true ->
  ir_parse toks [] false = (all_stored toks, false).
Proof.
  intros H. rewrite (ir_parse_acc toks [] false H). destruct (all_stored toks); reflexivity.
Qed.

Lemma all_stored_some toks rs : all_stored toks = Some rs ->
  Forall2 (fun t r => exists lo hi, tok_range t = Some (lo, hi) /\ r = (lo, hi + 1)) toks rs.
Proof.
  revert rs. induction toks as [|t r IH]; intros rs; cbn [all_stored].
  - intros [= <-]. constructor.
  - unfold stored. destruct (tok_range t) as [[lo hi]|] eqn:Et; [|discriminate].
    destruct (all_stored r) as [xs|]; [|discriminate]. intros [= <-].
    constructor; [exists lo, hi; split; [exact Et|reflexivity] | apply IH; reflexivity].
Qed.

Lemma all_stored_none toks : all_stored toks = None <-> exists t, In t toks /\ tok_range t = None.
Proof.
  induction toks as [|t r IH]; cbn [all_stored].
  - split; [discriminate|]. intros (t & [] & _).
  - unfold stored. destruct (tok_range t) as [[lo hi]|] eqn:Et.
    + destruct (all_stored r) as [xs|].
      * split; [discriminate|]. intros (t' & [<-|Hin] & Hn); [congruence|].
        destruct IH as [_ IH]. discriminate IH. now exists t'.
      * split; [|reflexivity]. intros _. destruct IH as [IH _]. destruct (IH eq_refl) as (t' & Hin & Hn).
        exists t'. split; [now right|exact Hn].
    + split; [|reflexivity]. intros _. exists t. split; [now left|exact Et].
Qed.

Lemma tok_range_bounds t lo hi : tok_range t = Some (lo, hi) -> 0 <= lo <= hi /\ hi <= 65535.
Proof.
  unfold tok_range. destruct (span _ t) as [a rest]. destruct (numeral a) as [l|]; [|discriminate].
  destruct (match rest with [] => Some l | _ :: b => numeral b end) as [h|]; [|discriminate].
  destruct ((0 <=? l) && (l <=? h) && (h <=? 65535)) eqn:E; [|discriminate]. intros [= <- <-]. lia.
Qed.

Definition wf_range (r : Z * Z) : Prop := 0 <= fst r < snd r /\ snd r <= 65536.

Lemma sub32_1 e s : e - s = 1 -> (let '(d, o) := sub32 e s in (negb (d mod two64 =? 0), o)) = (true, false).
Proof. intros H. unfold sub32. rewrite H. reflexivity. Qed.

Lemma ir_hit_spec el i : wf_range el -> - two31 <= i < int_max ->
  ir_hit el (i, i + 1) = ((fst el <=? i) && (i <? snd el), false).
Proof.
  intros [Hs He] Hi. unfold ir_hit. cbn [fst snd]. unfold two31, int_max in Hi.
  destruct (Z.gtb_spec (Z.min (snd el) (i + 1)) (Z.max (fst el) i)) as [E|E]; [rewrite sub32_1 by lia|];
    destruct (Z.leb_spec (fst el) i), (Z.ltb_spec i (snd el)); try reflexivity; lia.
Qed.

Lemma ir_scan_spec rs i ub : Forall wf_range rs -> - two31 <= i < int_max ->
  ir_scan rs (i, i + 1) ub = (existsb (fun r => (fst r <=? i) && (i <? snd r)) rs, ub).
Proof.
  intros Hwf Hi. revert ub. induction Hwf as [|el rs Hel Hrs IH]; intros ub; cbn [ir_scan existsb]; [reflexivity|].
  rewrite (ir_hit_spec el i Hel Hi).
  destruct ((fst el <=? i) && (i <? snd el)); cbn [orb]; [now rewrite orb_false_r|].
  now rewrite IH, orb_false_r.
Qed.

Theorem ir_match_spec rs i : Forall wf_range rs -> - two31 <= i < int_max ->
  ir_match rs i = (existsb (fun r => (fst r <=? i) && (i <? snd r)) rs, false).
Proof.
  intros Hwf Hi. unfold ir_match, add32.
  assert (Hw : wrap32 (i + 1) = i + 1) by (unfold wrap32, two31, two32, int_max in *; rewrite Z.mod_small by lia; lia).
  assert (Hf : negb (fits32 (i + 1)) = false) by (unfold fits32, two31, int_max in *; lia).
  rewrite Hw, Hf. apply ir_scan_spec; assumption.
Qed.

(* at INT_MAX the very first addition overflows, whatever the list *)
Theorem ir_match_int_max_overflows rs : snd (ir_match rs int_max) = true.
Proof.
  unfold ir_match. cbn [add32]. set (tf := (int_max, wrap32 (int_max + 1))).
  assert (G : forall l ub, ub = true -> snd (ir_scan l tf ub) = true).
  { induction l as [|el l IH]; intros ub ->; cbn [ir_scan]; [reflexivity|].
    destruct (ir_hit el tf) as [h o]. destruct h; [reflexivity|]. now apply IH. }
  unfold add32. apply G. reflexivity.
Qed.

Lemma stored_wf toks rs : all_stored toks = Some rs -> Forall wf_range rs.
Proof.
  intros H. apply all_stored_some in H. induction H as [|t r ts rs' (lo & hi & Ht & ->) _ IH]; constructor; [|exact IH].
  apply tok_range_bounds in Ht. unfold wf_range. cbn [fst snd]. lia.
Qed.

Lemma existsb_stored toks rs i : all_stored toks = Some rs ->
  existsb (fun r => (fst r <=? i) && (i <? snd r)) rs = true <->
  exists t lo hi, In t toks /\ tok_range t = Some (lo, hi) /\ lo <= i <= hi.
Proof.
  intros H. apply all_stored_some in H. induction H as [|t r ts rs' (lo & hi & Ht & ->) _ IH]; cbn [existsb].
  - split; [discriminate|]. intros (t & lo & hi & [] & _).
  - cbn [fst snd]. rewrite orb_true_iff, IH. split.
    + intros [Hh|(t' & lo' & hi' & Hin & Ht' & Hi)].
      * exists t, lo, hi. split; [now left|]. split; [exact Ht|lia].
      * exists t', lo', hi'. split; [now right|]. split; assumption.
    + intros (t' & lo' & hi' & [<-|Hin] & Ht' & Hi).
      * left. rewrite Ht in Ht'. injection Ht' as <- <-. lia.
      * right. exists t', lo', hi'. repeat split; assumption || lia.
Qed.

Theorem intrange_accept_iff toks : forallb clean toks = true ->
  (exists rs, fst (ir_parse toks [] false) = Some rs) <-> (forall t, In t toks -> tok_range t <> None).
Proof.
  intros Hcl. rewrite (ir_parse_spec toks Hcl). cbn [fst]. split.
  - intros (rs & Hrs) t Hin Hn. assert (all_stored toks = None) by (apply all_stored_none; now exists t). congruence.
  - intros H. destruct (all_stored toks) as [rs|] eqn:E; [now exists rs|].
    apply all_stored_none in E. destruct E as (t & Hin & Hn). exfalso. exact (H t Hin Hn).
Qed.

Theorem intrange_stored toks rs : forallb clean toks = true ->
  fst (ir_parse toks [] false) = Some rs ->
  Forall2 (fun t r => exists lo hi, tok_range t = Some (lo, hi) /\ r = (lo, hi + 1)) toks rs.
Proof. intros Hcl. rewrite (ir_parse_spec toks Hcl). cbn [fst]. apply all_stored_some. Qed.

Theorem intrange_match_iff toks rs i : forallb clean toks = true ->
  fst (ir_parse toks [] false) = Some rs -> - two31 <= i < int_max ->
  (fst (ir_match rs i) = true <-> exists t lo hi, In t toks /\ tok_range t = Some (lo, hi) /\ lo <= i <= hi).
Proof.
  intros Hcl Hp Hi. rewrite (ir_parse_spec toks Hcl) in Hp. cbn [fst] in Hp.
  rewrite (ir_match_spec rs i (stored_wf toks rs Hp) Hi). cbn [fst]. apply existsb_stored. exact Hp.
Qed.

Theorem intrange_no_overflow toks : forallb clean toks = true ->
  snd (ir_parse toks [] false) = false /\
  forall rs i, fst (ir_parse toks [] false) = Some rs -> - two31 <= i < int_max -> snd (ir_match rs i) = false.
Proof.
  intros Hcl. rewrite (ir_parse_spec toks Hcl). cbn [fst snd]. split; [reflexivity|].
  intros rs i Hp Hi. now rewrite (ir_match_spec rs i (stored_wf toks rs Hp) Hi).
Qed.

Lemma forallb_no45 a : forallb (fun c => negb (c =? 45)%N) a = true <-> ~ In 45%N a.
Proof.
  rewrite forallb_forall. split.
  - intros H Hin. specialize (H _ Hin). discriminate.
  - intros H c Hc. destruct (N.eqb_spec c 45) as [->|]; [contradiction| reflexivity].
Qed.

Lemma span_45_shape t :
  (~ In 45%N t /\ span (fun c => negb (c =? 45)%N) t = (t, [])) \/
  (exists a b, t = a ++ 45%N :: b /\ ~ In 45%N a /\ span (fun c => negb (c =? 45)%N) t = (a, 45%N :: b)).
Proof.
  pose proof (span_app (fun c => negb (c =? 45)%N) t) as Ea. pose proof (span_all (fun c => negb (c =? 45)%N) t) as Hd.
  pose proof (span_stop (fun c => negb (c =? 45)%N) t) as Hs.
  destruct (span _ t) as [a rest]. cbn [fst snd] in *. apply forallb_no45 in Hd. destruct rest as [|y b].
  - left. rewrite app_nil_r in Ea. subst a. auto.
  - right. exists a, b. apply negb_false_iff, N.eqb_eq in Hs. subst y. auto.
Qed.

Definition lists_range (t : bytes) (lo hi : Z) : Prop :=
  (0 <= lo <= hi /\ hi <= 65535) /\
  ((~ In 45%N t /\ numeral t = Some lo /\ hi = lo) \/
   (exists a b, t = a ++ 45%N :: b /\ ~ In 45%N a /\ numeral a = Some lo /\ numeral b = Some hi)).

Theorem tok_range_meaning t lo hi : tok_range t = Some (lo, hi) <-> lists_range t lo hi.
Proof.
  unfold lists_range, tok_range. split.
  - intros H. destruct (span_45_shape t) as [[Hn Hs]|(a & b & Ht & Hn & Hs)]; rewrite Hs in H.
    + destruct (numeral t) as [l|] eqn:En; [|discriminate].
      destruct ((0 <=? l) && (l <=? l) && (l <=? 65535)) eqn:E; [|discriminate]. injection H as <- <-.
      split; [lia|]. left. repeat split; assumption.
    + destruct (numeral a) as [l|] eqn:Ea; [|discriminate]. destruct (numeral b) as [h|] eqn:Eb; [|discriminate].
      destruct ((0 <=? l) && (l <=? h) && (h <=? 65535)) eqn:E; [|discriminate]. injection H as <- <-.
      split; [lia|]. right. exists a, b. repeat split; assumption.
  - intros [Hb [(Hn & Hnum & ->)|(a & b & -> & Hn & Ha & Hbn)]].
    + rewrite (span_forall _ t (proj2 (forallb_no45 t) Hn)), Hnum.
      destruct ((0 <=? lo) && (lo <=? lo) && (lo <=? 65535)) eqn:E; [reflexivity|lia].
    + rewrite (span_app_stop _ a (45%N :: b) (proj2 (forallb_no45 a) Hn) eq_refl), Ha, Hbn.
      destruct ((0 <=? lo) && (lo <=? hi) && (hi <=? 65535)) eqn:E; [reflexivity|lia].
Qed.
