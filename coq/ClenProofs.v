(* ClenProofs.v — specification and proofs for ClenModel.v (C26). *)
Require Import SquidV.Bytes SquidV.ClenModel.
Require Import SquidV.gen.CharSets_gen.
Require Import ZifyBool ZifyN ZifyNat.
Local Open Scope N_scope.

(* optional white space before / after the number: RFC 9110 OWS = SP / HTAB, in both parser modes
   (the mode argument is kept for the callers; it is not used) *)
Definition ows_before (relaxed : bool) (c : N) : bool := (c =? 32) || (c =? 9).
Definition ows_after (relaxed : bool) (c : N) : bool := (c =? 32) || (c =? 9).

(* "item is OWS 1*DIGIT OWS and its number is v, which fits a signed 64-bit integer" *)
Definition is_token (relaxed : bool) (item : bytes) (v : Z) : Prop :=
  exists w ds t, item = w ++ ds ++ t /\
    forallb (ows_before relaxed) w = true /\ ds <> [] /\ forallb c_isdigit ds = true /\
    forallb (ows_after relaxed) t = true /\ dec_val ds = v /\ (v < two63)%Z.

(* reading a field value as RFC 9110 lists do: split at commas, trim white space, ignore empty elements;
   a value without a comma is one occurrence *)
Fixpoint split_on (d : N) (l : bytes) : list bytes :=
  match l with
  | [] => [[]]
  | c :: r => if c =? d then [] :: split_on d r
              else match split_on d r with p :: ps => (c :: p) :: ps | [] => [[c]] end
  end.
Definition blank (p : bytes) : bool := forallb c_isspace p.
Definition trim (p : bytes) : bytes := rtrim (ltrim p).
Definition occurrences (f : bytes) : list bytes :=
  if existsb (N.eqb 44) f then map trim (filter (fun p => negb (blank p)) (split_on 44 f)) else [f].

(* the interpreter "uses v": sawGood && !sawBad && value = v *)
Definition uses (st : clst) (v : Z) : Prop :=
  cl_sawBad st = false /\ cl_sawGood st = true /\ cl_value st = v.

Definition tables_check (c : N) : bool :=
  Bool.eqb (cs_DIGIT c) (c_isdigit c) && Bool.eqb (cs_WSP c) ((c =? 32) || (c =? 9)).

Lemma tables_ok c : tables_check c = true.
Proof.
  destruct (N.ltb_spec c 256) as [H|H].
  - exact (forallb_bytes tables_check ltac:(vm_compute; reflexivity) c H).
  - unfold tables_check, cs_DIGIT, cs_WSP, mem_tbl.
    rewrite !tbl_get_default by (vm_compute lenN; exact H).
    unfold c_isdigit. lia.
Qed.

Lemma digit_tbl c : cs_DIGIT c = c_isdigit c.
Proof.
  pose proof (tables_ok c) as H. unfold tables_check in H.
  apply andb_prop in H as [H _]. now apply Bool.eqb_prop.
Qed.
Lemma wsp_tbl c : cs_WSP c = ((c =? 32) || (c =? 9)).
Proof.
  pose proof (tables_ok c) as H. unfold tables_check in H.
  apply andb_prop in H as [_ H]. now apply Bool.eqb_prop.
Qed.
Lemma ws_tbl relaxed c : cl_ws relaxed c = ows_before relaxed c.
Proof. exact (wsp_tbl c). Qed.
Lemma delim_tbl relaxed c : cl_delim relaxed c = ows_after relaxed c.
Proof. exact (wsp_tbl c). Qed.

Lemma ws_not_digit relaxed c : ows_before relaxed c = true -> c_isdigit c = false.
Proof. unfold ows_before, c_isdigit; lia. Qed.
Lemma token_span relaxed ds t : forallb c_isdigit ds = true -> forallb (ows_after relaxed) t = true ->
  span c_isdigit (ds ++ t) = (ds, t).
Proof.
  intros Hd Ht. apply span_app_stop; [exact Hd|]. destruct t as [|y t']; [exact I|].
  cbn [forallb] in Ht. apply andb_prop in Ht as [Hy _]. exact (ws_not_digit relaxed y Hy).
Qed.

Lemma find_digits_sound relaxed l d :
  find_digits (cl_ws relaxed) l = Some d ->
  exists w c r, l = w ++ d /\ d = c :: r /\ c_isdigit c = true /\ forallb (ows_before relaxed) w = true.
Proof.
  induction l as [|c l IH]; cbn [find_digits]; [discriminate|].
  rewrite digit_tbl, ws_tbl. destruct (c_isdigit c) eqn:Ed.
  - intros [= <-]. exists [], c, l. repeat split; assumption.
  - destruct (ows_before relaxed c) eqn:Ew; [|discriminate]. intros H.
    destruct (IH H) as (w & c' & r & -> & -> & Hc & Hw).
    exists (c :: w), c', r. cbn [app forallb]. rewrite Ew, Hw. repeat split; assumption.
Qed.

Lemma find_digits_complete relaxed w c r :
  forallb (ows_before relaxed) w = true -> c_isdigit c = true ->
  find_digits (cl_ws relaxed) (w ++ c :: r) = Some (c :: r).
Proof.
  intros Hw Hc. induction w as [|x w IH]; cbn [app find_digits].
  - now rewrite digit_tbl, Hc.
  - cbn [forallb] in Hw. apply andb_prop in Hw as [Hx Hw].
    rewrite digit_tbl, ws_tbl, (ws_not_digit _ _ Hx), Hx. exact (IH Hw).
Qed.

Lemma find_digits_none relaxed l :
  find_digits (cl_ws relaxed) l = None ->
  forall w c r, l = w ++ c :: r -> forallb (ows_before relaxed) w = true -> c_isdigit c = true -> False.
Proof.
  intros H w c r -> Hw Hc. rewrite (find_digits_complete _ _ _ _ Hw Hc) in H. discriminate.
Qed.

Lemma c_str_digits l : fst (span c_isdigit (c_str l)) = fst (span c_isdigit l).
Proof.
  induction l as [|c l IH]; cbn [c_str span]; [reflexivity|].
  destruct (c =? 0) eqn:E0.
  - assert (c_isdigit c = false) as -> by (unfold c_isdigit; lia). reflexivity.
  - cbn [span]. destruct (c_isdigit c); [|reflexivity].
    destruct (span c_isdigit (c_str l)), (span c_isdigit l). cbn [fst] in *. now rewrite IH.
Qed.

Lemma dec_val_nonneg_acc ds : forall a, (0 <= a)%Z -> forallb c_isdigit ds = true ->
  (0 <= fold_left (fun a c => a * 10 + (Z.of_N c - 48))%Z ds a)%Z.
Proof.
  induction ds as [|c ds IH]; intros a Ha Hd; cbn [fold_left]; [exact Ha|].
  cbn [forallb] in Hd. apply andb_prop in Hd as [Hc Hd]. apply IH; [|exact Hd].
  unfold c_isdigit in Hc. lia.
Qed.
Lemma dec_val_nonneg ds : forallb c_isdigit ds = true -> (0 <= dec_val ds)%Z.
Proof. apply dec_val_nonneg_acc. lia. Qed.

Lemma skip_ws_app w : forall l n, forallb c_isspace w = true ->
  skip_ws (w ++ l) n = skip_ws l (n + lenN w).
Proof.
  induction w as [|x w IH]; intros l n H; cbn [app lenN]; [f_equal; lia|].
  cbn [forallb] in H. apply andb_prop in H as [Hx Hw]. cbn [skip_ws]. rewrite Hx, (IH _ _ Hw). f_equal. lia.
Qed.

Lemma c_str_app_nonul a b : forallb (fun c => negb (c =? 0)) a = true -> c_str (a ++ b) = a ++ c_str b.
Proof.
  induction a as [|x a IH]; cbn [app forallb]; [reflexivity|]. intros H. apply andb_prop in H as [Hx Ha].
  cbn [c_str]. destruct (x =? 0); [discriminate|]. now rewrite (IH Ha).
Qed.

Lemma before_space relaxed c : ows_before relaxed c = true -> c_isspace c = true.
Proof. unfold ows_before, c_isspace; lia. Qed.
Lemma before_nonul relaxed c : ows_before relaxed c = true -> negb (c =? 0) = true.
Proof. unfold ows_before; lia. Qed.

(* strtoll on optional white space followed by a digit: the maximal digit run, unless it overflows *)
Lemma parse_offset_ws_digits relaxed w c r :
  forallb (ows_before relaxed) w = true -> c_isdigit c = true ->
  let ds := fst (span c_isdigit (c :: r)) in
  parse_offset (w ++ c :: r) =
  if (dec_val ds >? two63 - 1)%Z then None else Some (dec_val ds, lenN w + lenN ds).
Proof.
  intros Hw Hc ds. unfold parse_offset, c_strtoll.
  rewrite (c_str_app_nonul w _ (forallb_impl _ _ w (before_nonul relaxed) Hw)).
  rewrite (skip_ws_app w _ 0 (forallb_impl _ _ w (before_space relaxed) Hw)).
  assert (E0 : (c =? 0) = false) by (unfold c_isdigit in Hc; lia).
  assert (Es : c_isspace c = false) by (unfold c_isdigit in Hc; unfold c_isspace; lia).
  assert (E45 : (c =? 45) = false) by (unfold c_isdigit in Hc; lia).
  assert (E43 : (c =? 43) = false) by (unfold c_isdigit in Hc; lia).
  cbn [c_str]. rewrite E0. cbn [skip_ws]. rewrite Es, E45, E43.
  replace (c :: c_str r) with (c_str (c :: r)) by (cbn [c_str]; now rewrite E0).
  rewrite c_str_digits. fold ds.
  assert (Hne : lenN ds <> 0).
  { unfold ds. cbn [span]. rewrite Hc. destruct (span c_isdigit r). cbn [fst lenN]. lia. }
  destruct ds as [|y ys]; [contradiction|].
  destruct (dec_val (y :: ys) >? two63 - 1)%Z; [reflexivity|].
  destruct (0 + lenN w + lenN (y :: ys) =? 0) eqn:En; [lia|]. reflexivity.
Qed.

Lemma parse_offset_digit_led c r :
  c_isdigit c = true ->
  let ds := fst (span c_isdigit (c :: r)) in
  parse_offset (c :: r) = if (dec_val ds >? two63 - 1)%Z then None else Some (dec_val ds, lenN ds).
Proof. exact (parse_offset_ws_digits false [] c r eq_refl). Qed.

(* the syntactic part of checkValue: the number it extracts, or None when it sets sawBad *)
Definition cv_parse (relaxed : bool) (item : bytes) : option Z :=
  match find_digits (cl_ws relaxed) item with
  | None => None
  | Some d =>
    match parse_offset d with
    | None => None
    | Some (v, n) =>
      if (v <? 0)%Z then None
      else if negb (good_suffix (cl_delim relaxed) (dropN n d)) then None else Some v
    end
  end.

Definition cv_dup (relaxed : bool) (st : clst) (v : Z) : clst :=
  let conflicting := negb (cl_value st =? v)%Z in
  {| cl_value := cl_value st;
     cl_problem := if conflicting then 2 else if cl_problem st =? 0 then 1 else cl_problem st;
     cl_sawBad := negb relaxed || conflicting; cl_needsSan := true; cl_sawGood := true |}.
Definition cv_first (st : clst) (v : Z) : clst :=
  {| cl_value := v; cl_problem := cl_problem st; cl_sawBad := cl_sawBad st;
     cl_needsSan := cl_needsSan st; cl_sawGood := true |}.

Lemma check_value_unfold relaxed st item :
  check_value relaxed st item =
  match cv_parse relaxed item with
  | None => (false, set_bad st)
  | Some v => if cl_sawGood st then (false, cv_dup relaxed st v) else (true, cv_first st v)
  end.
Proof.
  unfold check_value, cv_parse.
  destruct (find_digits (cl_ws relaxed) item) as [d|]; [|reflexivity].
  destruct (parse_offset d) as [[v n]|]; [|reflexivity].
  destruct (v <? 0)%Z; [reflexivity|].
  destruct (negb (good_suffix (cl_delim relaxed) (dropN n d))); reflexivity.
Qed.

Lemma span_fst_snd {A} (p : A -> bool) l : span p l = (fst (span p l), snd (span p l)).
Proof. destruct (span p l); reflexivity. Qed.

Theorem cv_parse_token relaxed item v : cv_parse relaxed item = Some v <-> is_token relaxed item v.
Proof.
  unfold cv_parse. split.
  - destruct (find_digits (cl_ws relaxed) item) as [d|] eqn:Ef; [|discriminate].
    destruct (find_digits_sound _ _ _ Ef) as (w & c & r & -> & -> & Hc & Hw).
    rewrite (parse_offset_digit_led c r Hc). cbv zeta.
    set (ds := fst (span c_isdigit (c :: r))). set (t := snd (span c_isdigit (c :: r))).
    assert (Hsplit : c :: r = ds ++ t) by (symmetry; apply span_app).
    destruct (dec_val ds >? two63 - 1)%Z eqn:Eb; [discriminate|].
    destruct (dec_val ds <? 0)%Z eqn:En; [discriminate|].
    rewrite Hsplit, dropN_app_exact. unfold good_suffix.
    destruct (forallb (cl_delim relaxed) t) eqn:Et; cbn [negb]; [|discriminate].
    intros [= <-]. exists w, ds, t. split; [reflexivity|]. repeat split.
    + exact Hw.
    + unfold ds. cbn [span]. rewrite Hc. destruct (span c_isdigit r). cbn [fst]. discriminate.
    + apply span_all.
    + rewrite <- Et. apply forallb_ext. intros x. symmetry. apply delim_tbl.
    + lia.
  - intros (w & ds & t & -> & Hw & Hne & Hd & Ht & <- & Hlt).
    destruct ds as [|c ds']; [contradiction|]. cbn [app].
    pose proof (token_span relaxed _ t Hd Ht) as Hsp. pose proof (dec_val_nonneg _ Hd).
    cbn [forallb] in Hd. apply andb_prop in Hd as [Hc _].
    rewrite (find_digits_complete relaxed w c (ds' ++ t) Hw Hc).
    rewrite (parse_offset_digit_led c (ds' ++ t) Hc). cbv zeta.
    cbn [app] in Hsp. rewrite Hsp. cbn [fst].
    destruct (dec_val (c :: ds') >? two63 - 1)%Z eqn:Eb; [lia|].
    destruct (dec_val (c :: ds') <? 0)%Z eqn:En; [lia|].
    change (c :: ds' ++ t) with ((c :: ds') ++ t). rewrite dropN_app_exact. unfold good_suffix.
    rewrite (forallb_ext _ _ t (delim_tbl relaxed)), Ht. reflexivity.
Qed.

Inductive summary := SNone | SGood (v : Z) | SBad.
Definition abs (st : clst) : summary :=
  if cl_sawBad st then SBad else if cl_sawGood st then SGood (cl_value st) else SNone.
Definition step (relaxed : bool) (s : summary) (o : option Z) : summary :=
  match s, o with
  | SBad, _ => SBad
  | _, None => SBad
  | SNone, Some v => SGood v
  | SGood v, Some v' => if relaxed && (v =? v')%Z then SGood v else SBad
  end.

Lemma step_bad relaxed os : fold_left (step relaxed) os SBad = SBad.
Proof. induction os as [|o os IH]; cbn [fold_left step]; [reflexivity| exact IH]. Qed.

Lemma abs_check_value relaxed st item : cl_sawBad st = false ->
  abs (snd (check_value relaxed st item)) = step relaxed (abs st) (cv_parse relaxed item).
Proof.
  intros Hb. rewrite check_value_unfold. unfold abs. rewrite Hb.
  destruct (cv_parse relaxed item) as [v|].
  - destruct (cl_sawGood st) eqn:Eg; cbn [snd cv_dup cv_first cl_sawBad cl_sawGood cl_value step].
    + destruct relaxed, (cl_value st =? v)%Z; reflexivity.
    + now rewrite Hb.
  - cbn [snd set_bad cl_sawBad]. destruct (cl_sawGood st); reflexivity.
Qed.

(* items of a list that the loop of checkList actually hands to checkValue *)
Fixpoint examined (items : list bytes) : list bytes :=
  match items with
  | [] => []
  | raw :: more => match rtrim raw with [] => [] | it => it :: examined more end
  end.

Lemma abs_check_items relaxed : forall items st, cl_sawBad st = false ->
  abs (check_items relaxed st items) =
  fold_left (step relaxed) (map (cv_parse relaxed) (examined items)) (abs st).
Proof.
  induction items as [|raw more IH]; intros st Hb; cbn [check_items examined map fold_left]; [reflexivity|].
  destruct (rtrim raw) as [|x xs] eqn:Er; [reflexivity|].
  cbn [map fold_left]. rewrite <- (abs_check_value relaxed st (x :: xs) Hb).
  destruct (check_value relaxed st (x :: xs)) as [ok st'] eqn:Ec. cbn [snd].
  destruct (cl_sawBad st') eqn:Eb'.
  - assert (Hok : ok = false).
    { rewrite check_value_unfold in Ec. destruct (cv_parse relaxed (x :: xs)); [|now inversion Ec].
      destruct (cl_sawGood st); inversion Ec; subst; [reflexivity|].
      cbn [cv_first cl_sawBad] in Eb'. congruence. }
    subst ok. cbn [negb andb]. unfold abs at 2. rewrite Eb', step_bad. unfold abs. now rewrite Eb'.
  - rewrite andb_false_r. apply IH. exact Eb'.
Qed.

(* the occurrences a field contributes, as the code reads them *)
Definition field_occ (relaxed : bool) (f : bytes) : list (option Z) :=
  if has_comma f then
    (if relaxed then map (cv_parse relaxed) (examined (split_items Lead [] (c_str f))) else [None])
  else [cv_parse relaxed f].

Lemma abs_check_field relaxed st f :
  abs (snd (check_field relaxed st f)) = fold_left (step relaxed) (field_occ relaxed f) (abs st).
Proof.
  unfold check_field, field_occ. destruct (cl_sawBad st) eqn:Hb.
  - cbn [snd]. unfold abs. rewrite Hb. now rewrite step_bad.
  - destruct (has_comma f).
    + unfold check_list. destruct relaxed; cbn [negb snd].
      * now rewrite abs_check_items by exact Hb.
      * cbn [fold_left]. unfold abs. cbn [set_bad cl_sawBad]. rewrite Hb.
        destruct (cl_sawGood st); reflexivity.
    + cbn [fold_left]. apply abs_check_value. exact Hb.
Qed.

Lemma abs_check_fields relaxed : forall vs st,
  abs (snd (check_fields relaxed st vs)) =
  fold_left (step relaxed) (concat (map (field_occ relaxed) vs)) (abs st).
Proof.
  induction vs as [|f vs IH]; intros st; cbn [check_fields map concat fold_left]; [reflexivity|].
  destruct (check_field relaxed st f) as [k st1] eqn:E1.
  destruct (check_fields relaxed st1 vs) as [ks st2] eqn:E2. cbn [snd].
  rewrite fold_left_app. rewrite <- (abs_check_field relaxed st f), E1. cbn [snd].
  rewrite <- IH, E2. reflexivity.
Qed.

(* from a good state the automaton stays there iff every further occurrence has the same value and, in
   strict mode, there is none *)
Lemma fold_good relaxed v os :
  fold_left (step relaxed) os (SGood v) =
  if forallb (fun o => match o with Some w => (v =? w)%Z | None => false end) os
     && (relaxed || (lenN os =? 0))
  then SGood v else SBad.
Proof.
  induction os as [|o os IH]; cbn [fold_left forallb lenN]; [now rewrite orb_true_r|].
  destruct o as [w|]; cbn [step]; [|apply step_bad].
  destruct relaxed; cbn [andb orb].
  - destruct (v =? w)%Z; [exact IH|apply step_bad].
  - rewrite step_bad. replace (N.succ (lenN os) =? 0) with false by lia. now rewrite andb_false_r.
Qed.

Theorem fold_none_spec relaxed os v :
  fold_left (step relaxed) os SNone = SGood v <->
  os <> [] /\ (forall o, In o os -> o = Some v) /\ (relaxed = false -> lenN os = 1).
Proof.
  destruct os as [|[v'|] os]; cbn [fold_left step].
  - split; [discriminate| intros [H _]; contradiction].
  - rewrite fold_good. split.
    + destruct (forallb _ os && (relaxed || (lenN os =? 0))) eqn:E; [|discriminate]. intros [= ->].
      apply andb_prop in E as [E1 E2]. rewrite forallb_forall in E1.
      split; [discriminate|]. split; [|intros ->; cbn [orb lenN] in *; lia].
      intros o [<-|Hi]; [reflexivity|]. specialize (E1 o Hi). destruct o as [w|]; [|discriminate]. f_equal. lia.
    + intros (_ & H1 & H2). assert (v' = v) by (specialize (H1 _ (or_introl eq_refl)); congruence). subst v'.
      replace (forallb _ os) with true.
      * destruct relaxed; [reflexivity|]. specialize (H2 eq_refl). cbn [lenN] in H2.
        now replace (lenN os =? 0) with true by lia.
      * symmetry. apply forallb_forall. intros o Hi. rewrite (H1 o (or_intror Hi)). apply Z.eqb_refl.
  - rewrite step_bad. split; [discriminate|]. intros (_ & H1 & _).
    specialize (H1 None (or_introl eq_refl)). discriminate.
Qed.

Lemma fold_none_none relaxed os : fold_left (step relaxed) os SNone = SNone <-> os = [].
Proof.
  destruct os as [|[v|] os]; cbn [fold_left step]; [tauto| |]; (split; [|discriminate]).
  - rewrite fold_good. destruct (_ && _); discriminate.
  - now rewrite step_bad.
Qed.

Lemma abs_uses st v : abs st = SGood v <-> uses st v.
Proof.
  unfold abs, uses. destruct (cl_sawBad st), (cl_sawGood st); split; intros H;
    try discriminate; try (destruct H as (? & ? & ?); discriminate).
  - inversion H. auto.
  - destruct H as (_ & _ & ->). reflexivity.
Qed.

Lemma uses_fold relaxed vs v : uses (snd (check_fields relaxed cl_init vs)) v <->
  fold_left (step relaxed) (concat (map (field_occ relaxed) vs)) SNone = SGood v.
Proof. now rewrite <- abs_uses, abs_check_fields. Qed.

Lemma before_nc relaxed c : ows_before relaxed c = true -> negb (c =? 44) = true.
Proof. unfold ows_before; lia. Qed.
Lemma digit_nc c : c_isdigit c = true -> negb (c =? 44) = true.
Proof. unfold c_isdigit; lia. Qed.

Lemma token_no_comma relaxed f v : is_token relaxed f v -> has_comma f = false.
Proof.
  intros (w & ds & t & -> & Hw & _ & Hd & Ht & _).
  assert (H : forallb (fun c => negb (c =? 44)) (w ++ ds ++ t) = true).
  { rewrite !forallb_app.
    rewrite (forallb_impl _ _ w (before_nc relaxed) Hw).
    rewrite (forallb_impl _ _ ds digit_nc Hd).
    rewrite (forallb_impl _ _ t (before_nc relaxed) Ht). reflexivity. }
  unfold has_comma. induction (w ++ ds ++ t) as [|c l IH]; cbn [c_str existsb]; [reflexivity|].
  cbn [forallb] in H. apply andb_prop in H as [Hc Hl].
  destruct (c =? 0); cbn [existsb]; [reflexivity|]. rewrite (IH Hl).
  destruct (44 =? c) eqn:E; [lia| reflexivity].
Qed.

Lemma field_occ_nolist relaxed f : has_comma f = false -> field_occ relaxed f = [cv_parse relaxed f].
Proof. intros H. unfold field_occ. now rewrite H. Qed.

Lemma field_occ_strict_len f : lenN (field_occ false f) = 1.
Proof. unfold field_occ. destruct (has_comma f); reflexivity. Qed.

(* strict mode, complete characterisation: used iff exactly one field, which is a single token *)
Theorem strict_iff vs v :
  uses (snd (check_fields false cl_init vs)) v <-> exists f, vs = [f] /\ is_token false f v.
Proof.
  rewrite uses_fold, fold_none_spec. split.
  - intros (Hne & Hall & Hlen). specialize (Hlen eq_refl).
    destruct vs as [|f [|g vs']].
    + contradiction.
    + exists f. split; [reflexivity|]. cbn [map concat] in Hall. rewrite app_nil_r in Hall.
      unfold field_occ in Hall. destruct (has_comma f) eqn:Ec.
      * specialize (Hall None (or_introl eq_refl)). discriminate.
      * apply cv_parse_token. apply Hall. now left.
    + exfalso. cbn [map concat] in Hlen. rewrite !lenN_app, !field_occ_strict_len in Hlen. lia.
  - intros (f & -> & Ht). cbn [map concat]. rewrite app_nil_r.
    rewrite (field_occ_nolist _ _ (token_no_comma _ _ _ Ht)).
    apply cv_parse_token in Ht. rewrite Ht. split; [discriminate|]. split; [|reflexivity].
    intros o [<-|[]]. reflexivity.
Qed.

(* relaxed mode, when the occurrences examined are those of a list of items: used iff there is at least one
   item and all are tokens of value v *)
Lemma relaxed_uses_tokens vs items v : concat (map (field_occ true) vs) = map (cv_parse true) items ->
  (uses (snd (check_fields true cl_init vs)) v <-> items <> [] /\ forall o, In o items -> is_token true o v).
Proof.
  intros Hocc. rewrite uses_fold, fold_none_spec, Hocc. split.
  - intros (Hne & Hall & _). split; [intros ->; now apply Hne|].
    intros o Ho. apply cv_parse_token, Hall. now apply in_map.
  - intros (Hne & Hall). split; [destruct items; [contradiction|discriminate]|]. split; [|discriminate].
    intros o Ho. apply in_map_iff in Ho as (it & <- & Hit). apply cv_parse_token. now apply Hall.
Qed.

Theorem relaxed_nolist_iff vs v :
  (forall f, In f vs -> has_comma f = false) ->
  (uses (snd (check_fields true cl_init vs)) v <-> vs <> [] /\ forall f, In f vs -> is_token true f v).
Proof.
  intros Hnc. apply relaxed_uses_tokens. induction vs as [|f vs IH]; cbn [map concat]; [reflexivity|].
  rewrite (field_occ_nolist true f (Hnc f (or_introl eq_refl))). cbn [app]. f_equal.
  apply IH. intros g Hg. apply Hnc. now right.
Qed.

(* any mode, any fields: whatever is used is the value of every occurrence the code examined *)
Theorem used_value_is_every_examined relaxed vs v :
  uses (snd (check_fields relaxed cl_init vs)) v ->
  concat (map (field_occ relaxed) vs) <> [] /\
  forall o, In o (concat (map (field_occ relaxed) vs)) -> o = Some v.
Proof.
  rewrite uses_fold, fold_none_spec. tauto.
Qed.

(* no value is used and nothing is flagged only if the code examined no occurrence at all *)
Theorem not_flagged_not_used_means_nothing relaxed vs :
  let st := snd (check_fields relaxed cl_init vs) in
  cl_sawBad st = false -> cl_sawGood st = false -> concat (map (field_occ relaxed) vs) = [].
Proof.
  intros st Hb Hg. apply (fold_none_none relaxed). rewrite <- (abs_check_fields relaxed vs cl_init : _ = fold_left _ _ SNone).
  fold st. unfold abs. now rewrite Hb, Hg.
Qed.

(* hence: at least one examined occurrence and no common token value ==> sawBad (bad framing) *)
Theorem ambiguous_is_flagged relaxed vs :
  concat (map (field_occ relaxed) vs) <> [] ->
  (forall v, ~ uses (snd (check_fields relaxed cl_init vs)) v) ->
  cl_sawBad (snd (check_fields relaxed cl_init vs)) = true.
Proof.
  intros Hne Hno. destruct (cl_sawBad (snd (check_fields relaxed cl_init vs))) eqn:Hb; [reflexivity|].
  destruct (cl_sawGood (snd (check_fields relaxed cl_init vs))) eqn:Hg.
  - exfalso. apply (Hno (cl_value (snd (check_fields relaxed cl_init vs)))). repeat split; assumption.
  - exfalso. apply Hne. now apply not_flagged_not_used_means_nothing.
Qed.

Lemma dec_val_snoc ds d : dec_val (ds ++ [d]) = (dec_val ds * 10 + (Z.of_N d - 48))%Z.
Proof. unfold dec_val. rewrite fold_left_app. reflexivity. Qed.

Lemma dec_digits_S k n :
  dec_digits (S k) n = if n <? 10 then [48 + n] else dec_digits k (n / 10) ++ [48 + n mod 10].
Proof. reflexivity. Qed.

Lemma dec_digits_spec : forall fuel n, n < 10 ^ N.of_nat (S fuel) ->
  dec_val (dec_digits (S fuel) n) = Z.of_N n /\ forallb c_isdigit (dec_digits (S fuel) n) = true /\
  dec_digits (S fuel) n <> [].
Proof.
  induction fuel as [|k IH]; intros n Hn; rewrite dec_digits_S; destruct (n <? 10) eqn:E.
  1, 3: repeat split; [unfold dec_val; cbn [fold_left]; lia| cbn [forallb]; unfold c_isdigit; lia| discriminate].
  - change (10 ^ N.of_nat 1) with 10 in Hn. lia.
  - assert (Hk : n / 10 < 10 ^ N.of_nat (S k)).
    { rewrite (Nat2N.inj_succ (S k)), N.pow_succ_r' in Hn. apply N.div_lt_upper_bound; lia. }
    destruct (IH _ Hk) as (Hv & Hd & Hne). repeat split.
    + rewrite dec_val_snoc, Hv. pose proof (N.div_mod n 10). lia.
    + rewrite forallb_app, Hd. cbn [forallb]. unfold c_isdigit. pose proof (N.mod_lt n 10). lia.
    + intros H. apply app_eq_nil in H as [_ H]. discriminate.
Qed.

Lemma int64_to_a_digits v : (0 <= v < two63)%Z ->
  dec_val (int64_to_a v) = v /\ forallb c_isdigit (int64_to_a v) = true /\ int64_to_a v <> [].
Proof.
  intros Hv. unfold int64_to_a.
  assert (Hn : Z.to_N v < 10 ^ N.of_nat 20)
    by (unfold two63 in Hv; change (10 ^ N.of_nat 20) with 100000000000000000000; lia).
  destruct (dec_digits_spec 19 _ Hn) as (Hval & Hd & Hne). rewrite Hval, Z2N.id by lia. auto.
Qed.

Lemma digits_token relaxed v : (0 <= v < two63)%Z -> is_token relaxed (int64_to_a v) v.
Proof.
  intros Hv. destruct (int64_to_a_digits v Hv) as (Hval & Hd & Hne).
  exists [], (int64_to_a v), []. rewrite app_nil_r. repeat split; try assumption; lia.
Qed.

(* getInt64 on a single-token field: strtoll skips the same leading white space *)
Lemma token_parse_offset relaxed f v : is_token relaxed f v -> exists n, parse_offset f = Some (v, n).
Proof.
  intros (w & ds & t & -> & Hw & Hne & Hd & Ht & <- & Hlt).
  destruct ds as [|c ds']; [contradiction|].
  pose proof Hd as Hd0. cbn [forallb] in Hd. apply andb_prop in Hd as [Hc _].
  change ((c :: ds') ++ t) with (c :: ds' ++ t).
  rewrite (parse_offset_ws_digits relaxed w c (ds' ++ t) Hw Hc). cbv zeta.
  change (c :: ds' ++ t) with ((c :: ds') ++ t). rewrite (token_span relaxed _ t Hd0 Ht). cbn [fst].
  destruct (dec_val (c :: ds') >? two63 - 1)%Z eqn:Eb; [lia|eauto].
Qed.

Lemma parse_int64_to_a v : (0 <= v < two63)%Z -> exists n, parse_offset (int64_to_a v) = Some (v, n).
Proof. intros Hv. exact (token_parse_offset false _ v (digits_token false v Hv)). Qed.

Definition is_cl (e : entry) : bool := hid_eqb (e_id e) HCL.
Definition cl_values (es : list entry) : list bytes := map e_value (filter is_cl es).

Lemma check_items_mono relaxed : forall items st, cl_sawGood st = true ->
  cl_sawGood (check_items relaxed st items) = true /\ cl_value (check_items relaxed st items) = cl_value st.
Proof.
  induction items as [|raw more IH]; intros st Hg; cbn [check_items]; [now split|].
  destruct (rtrim raw) as [|x xs]; [now split|].
  rewrite check_value_unfold, Hg. destruct (cv_parse relaxed (x :: xs)) as [v|].
  - destruct (negb false && cl_sawBad (cv_dup relaxed st v)); [now split|].
    destruct (IH (cv_dup relaxed st v) eq_refl) as [H1 H2]. now split.
  - cbn [negb andb set_bad cl_sawBad]. now split.
Qed.

Lemma check_field_mono relaxed st f : cl_sawGood st = true ->
  fst (check_field relaxed st f) = false /\
  cl_sawGood (snd (check_field relaxed st f)) = true /\ cl_value (snd (check_field relaxed st f)) = cl_value st.
Proof.
  intros Hg. unfold check_field. destruct (cl_sawBad st); [now repeat split|].
  destruct (has_comma f).
  - unfold check_list. destruct relaxed; cbn [negb fst snd]; [|now repeat split].
    destruct (check_items_mono true (split_items Lead [] (c_str f)) (set_san st) Hg) as [H1 H2]. now repeat split.
  - rewrite check_value_unfold, Hg. destruct (cv_parse relaxed f); now repeat split.
Qed.

Lemma check_field_keep relaxed st f st1 : check_field relaxed st f = (true, st1) ->
  cl_sawGood st = false /\ exists v, cv_parse relaxed f = Some v /\ st1 = cv_first st v.
Proof.
  unfold check_field. destruct (cl_sawBad st); [discriminate|]. destruct (has_comma f).
  - unfold check_list. destruct (negb relaxed); discriminate.
  - rewrite check_value_unfold. destruct (cv_parse relaxed f) as [v|]; [|discriminate].
    destruct (cl_sawGood st); [discriminate|]. intros [= <-]. eauto.
Qed.

(* the Content-Length test in the loop of HttpHeader::parse as a relation between the entries, the
   interpreter state, the entries kept and the state after them; cl says which entries are Content-Length
   fields, val is an entry's value.  entries_loop below and HdrparseModel.h_entries_loop both compute it. *)
Inductive kept_of {E} (cl : E -> bool) (val : E -> bytes) (relaxed : bool)
  : list E -> clst -> list E -> clst -> Prop :=
| kept_nil st : kept_of cl val relaxed [] st [] st
| kept_other e es st k s : cl e = false ->
    kept_of cl val relaxed es st k s -> kept_of cl val relaxed (e :: es) st (e :: k) s
| kept_field e es st keep st1 k s : cl e = true -> check_field relaxed st (val e) = (keep, st1) ->
    keep || relaxed = true -> kept_of cl val relaxed es st1 k s ->
    kept_of cl val relaxed (e :: es) st (if keep then e :: k else k) s.

Section Kept.
Context {E : Type} (cl : E -> bool) (val : E -> bytes) (relaxed : bool).
Lemma kept_state es st k s : kept_of cl val relaxed es st k s ->
  s = snd (check_fields relaxed st (map val (filter cl es))).
Proof.
  induction 1 as [st|e es st k s Hc _ IH|e es st keep st1 k s Hc Ec _ _ IH]; cbn [filter]; rewrite ?Hc;
    [reflexivity|exact IH|].
  cbn [map check_fields]. rewrite Ec, IH. now destruct (check_fields relaxed st1 _).
Qed.

Lemma kept_others es st k s : kept_of cl val relaxed es st k s -> filter (fun e => negb (cl e)) k = filter (fun e => negb (cl e)) es.
Proof.
  induction 1 as [st|e es st k s Hc _ IH|e es st keep st1 k s Hc _ _ _ IH]; [reflexivity| |].
  - cbn [filter]. now rewrite Hc, IH.
  - cbn [filter]. rewrite Hc. destruct keep; [cbn [filter]; rewrite Hc|]; exact IH.
Qed.

Lemma kept_incl es st k s : kept_of cl val relaxed es st k s -> incl k es.
Proof.
  induction 1 as [st|e es st k s _ _ IH|e es st keep st1 k s _ _ _ _ IH]; [apply incl_refl| |destruct keep].
  1, 2: apply incl_cons; [now left|]. all: now apply incl_tl.
Qed.

Lemma kept_app_others l es st k s : forallb (fun e => negb (cl e)) l = true ->
  kept_of cl val relaxed es st k s -> kept_of cl val relaxed (l ++ es) st (l ++ k) s.
Proof.
  intros Hl K. induction l as [|e l IH]; [exact K|]. cbn [forallb] in Hl. apply andb_prop in Hl as [He Hl].
  apply kept_other; [now apply negb_true_iff in He|exact (IH Hl)].
Qed.

Lemma kept_after_good es st k s : kept_of cl val relaxed es st k s -> cl_sawGood st = true ->
  filter cl k = [] /\ cl_sawGood s = true /\ cl_value s = cl_value st.
Proof.
  induction 1 as [st|e es st k s Hc _ IH|e es st keep st1 k s Hc Ec _ _ IH]; intros Hg; [now repeat split| |].
  - cbn [filter]. rewrite Hc. exact (IH Hg).
  - destruct (check_field_mono relaxed st (val e) Hg) as (Hk & Hg1 & Hv1). rewrite Ec in Hk, Hg1, Hv1.
    cbn [fst snd] in Hk, Hg1, Hv1. subst keep. rewrite <- Hv1. exact (IH Hg1).
Qed.

(* at most one Content-Length entry is kept, and it carries the value the interpreter settled on *)
Lemma kept_cl es st k s : kept_of cl val relaxed es st k s -> cl_sawGood st = false ->
  filter cl k = [] \/
  exists e, filter cl k = [e] /\ cv_parse relaxed (val e) = Some (cl_value s) /\ cl_sawGood s = true.
Proof.
  induction 1 as [st|e es st k s Hc _ IH|e es st keep st1 k s Hc Ec _ K IH]; intros Hg; [now left| |].
  - cbn [filter]. rewrite Hc. exact (IH Hg).
  - destruct keep.
    + destruct (check_field_keep _ _ _ _ Ec) as (_ & v & Hv & ->).
      destruct (kept_after_good _ _ _ _ K eq_refl) as (A & B & C).
      right. exists e. cbn [filter]. rewrite Hc, A, C. now repeat split.
    + destruct (cl_sawGood st1) eqn:Eg1; [left; exact (proj1 (kept_after_good _ _ _ _ K Eg1))|exact (IH eq_refl)].
Qed.
End Kept.

Lemma entries_loop_kept relaxed : forall es st k s,
  entries_loop relaxed es st = Some (k, s) -> kept_of is_cl e_value relaxed es st k s.
Proof.
  induction es as [|e es IH]; intros st k s; cbn [entries_loop]; [intros [= <- <-]; constructor|].
  pose proof (eq_refl : is_cl e = hid_eqb (e_id e) HCL) as Hc. destruct (e_id e); cbn [hid_eqb] in Hc.
  2, 3: destruct (entries_loop relaxed es st) as [[k' s']|] eqn:K; [|discriminate];
        intros [= <- <-]; exact (kept_other _ _ _ _ _ _ _ _ Hc (IH _ _ _ K)).
  destruct (check_field relaxed st (e_value e)) as [keep st1] eqn:Ec. destruct keep.
  - destruct (entries_loop relaxed es st1) as [[k' s']|] eqn:K; [|discriminate].
    intros [= <- <-]. exact (kept_field _ _ _ _ _ _ true _ _ _ Hc Ec eq_refl (IH _ _ _ K)).
  - destruct relaxed; [|discriminate]. intros K. exact (kept_field _ _ _ _ _ _ false _ _ _ Hc Ec eq_refl (IH _ _ _ K)).
Qed.

Lemma kept_te relaxed es st k s : kept_of is_cl e_value relaxed es st k s -> has_id HTE k = has_id HTE es.
Proof.
  intros K. unfold has_id.
  rewrite <- (existsb_filter_imp _ (fun e => negb (is_cl e)) k), <- (existsb_filter_imp _ (fun e => negb (is_cl e)) es),
    (kept_others _ _ _ _ _ _ _ K); [reflexivity| |]; intros e; unfold is_cl; now destruct (e_id e).
Qed.

Lemma filter_cl_del l : filter is_cl (del_id HCL l) = [].
Proof.
  unfold del_id, is_cl. induction l as [|e l IH]; cbn [filter]; [reflexivity|].
  destruct (hid_eqb (e_id e) HCL) eqn:E; cbn [negb filter]; [exact IH| now rewrite E].
Qed.
Lemma filter_cl_del_te l : filter is_cl (del_id HTE l) = filter is_cl l.
Proof.
  unfold del_id, is_cl. induction l as [|e l IH]; cbn [filter]; [reflexivity|].
  destruct (e_id e) eqn:Ei; cbn [hid_eqb negb filter]; rewrite ?Ei; cbn [hid_eqb]; now rewrite IH.
Qed.
Lemma first_cl_filter l : first_cl l = match filter is_cl l with e :: _ => Some (e_value e) | [] => None end.
Proof. reflexivity. Qed.

Lemma occ_some relaxed f v : In (Some v) (field_occ relaxed f) -> exists it, cv_parse relaxed it = Some v.
Proof.
  unfold field_occ. destruct (has_comma f).
  - destruct relaxed.
    + intros H. apply in_map_iff in H as (it & H & _). eauto.
    + intros [H|[]]. discriminate.
  - intros [H|[]]. eauto.
Qed.

Lemma used_in_range relaxed vs v :
  uses (snd (check_fields relaxed cl_init vs)) v -> (0 <= v < two63)%Z.
Proof.
  intros H. destruct (used_value_is_every_examined _ _ _ H) as [Hne Hall].
  destruct (concat (map (field_occ relaxed) vs)) as [|o os] eqn:E; [contradiction|].
  assert (Ho : o = Some v) by (apply Hall; now left).
  assert (Hin : In (Some v) (concat (map (field_occ relaxed) vs))) by (rewrite E, Ho; now left).
  apply in_concat in Hin as (l & Hl & Hv). apply in_map_iff in Hl as (f & <- & _).
  destruct (occ_some _ _ _ Hv) as (it & Hit). apply cv_parse_token in Hit.
  destruct Hit as (w & ds & t & _ & _ & _ & Hd & _ & <- & Hlt). split; [now apply dec_val_nonneg| exact Hlt].
Qed.

Lemma kept_range {E} (cl : E -> bool) val relaxed es k st : kept_of cl val relaxed es cl_init k st ->
  cl_sawBad st = false -> cl_sawGood st = true -> (0 <= cl_value st < two63)%Z.
Proof.
  intros K Hb Hg. apply (used_in_range relaxed (map val (filter cl es))).
  rewrite <- (kept_state _ _ _ _ _ _ _ K). now repeat split.
Qed.

(* soundness at the level callers see: a framing length is reported only when the interpreter uses it,
   there is no Transfer-Encoding, the message does not prohibit Content-Length, nothing is flagged *)
Theorem header_length_sound relaxed proh es r :
  parse_entries relaxed proh es = Some r -> content_length r <> (-1)%Z ->
  proh = false /\ has_id HTE es = false /\ h_conflicting r = false /\
  uses (snd (check_fields relaxed cl_init (cl_values es))) (content_length r).
Proof.
  unfold parse_entries. destruct (entries_loop relaxed es cl_init) as [[kept st]|] eqn:E; [|discriminate].
  intros [= <-]. apply entries_loop_kept in E. pose proof (kept_state _ _ _ _ _ _ _ E) as Hst. fold (cl_values es) in Hst.
  pose proof (kept_te _ _ _ _ _ E) as Hte. rewrite <- Hst.
  unfold post_process, content_length. destruct proh.
  - cbn [h_entries]. rewrite first_cl_filter, filter_cl_del_te, filter_cl_del. congruence.
  - rewrite Hte. destruct (has_id HTE es).
    + cbn [h_entries]. rewrite first_cl_filter, filter_cl_del. congruence.
    + destruct (cl_sawBad st) eqn:Hb.
      * cbn [h_entries]. rewrite first_cl_filter, filter_cl_del. congruence.
      * destruct (cl_needsSan st) eqn:Hs.
        -- cbn [h_entries h_conflicting]. rewrite first_cl_filter, filter_app, filter_cl_del. cbn [app].
           destruct (cl_sawGood st) eqn:Hg; cbn [filter]; [|congruence].
           unfold is_cl. cbn [e_id hid_eqb e_value].
           destruct (parse_int64_to_a _ (kept_range _ _ _ _ _ _ E Hb Hg)) as (n & ->). intros _. repeat split; assumption.
        -- cbn [h_entries h_conflicting]. rewrite first_cl_filter.
           destruct (kept_cl _ _ _ _ _ _ _ E eq_refl) as [->|(e & -> & Hv & Hg)]; [congruence|].
           apply cv_parse_token in Hv. destruct (token_parse_offset _ _ _ Hv) as (n & ->).
           intros _. repeat split; assumption.
Qed.

(* the "otherwise" half: without Transfer-Encoding / prohibition, when the interpreter uses no value,
   callers see no length, and the header is flagged unless no occurrence was examined at all *)
Theorem header_unusable_flagged relaxed es r :
  parse_entries relaxed false es = Some r -> has_id HTE es = false ->
  (forall v, ~ uses (snd (check_fields relaxed cl_init (cl_values es))) v) ->
  content_length r = (-1)%Z /\
  (h_conflicting r = true \/ concat (map (field_occ relaxed) (cl_values es)) = []).
Proof.
  unfold parse_entries. destruct (entries_loop relaxed es cl_init) as [[kept st]|] eqn:E; [|discriminate].
  intros [= <-] Hnte Hno. apply entries_loop_kept in E. pose proof (kept_state _ _ _ _ _ _ _ E) as Hst. fold (cl_values es) in Hst.
  pose proof (kept_te _ _ _ _ _ E) as Hte. rewrite <- Hst in Hno.
  unfold post_process, content_length. rewrite Hte, Hnte.
  destruct (cl_sawBad st) eqn:Hb.
  - cbn [h_entries h_conflicting]. rewrite first_cl_filter, filter_cl_del. split; [reflexivity| now left].
  - assert (Hg : cl_sawGood st = false).
    { destruct (cl_sawGood st) eqn:Hg; [|reflexivity]. exfalso. apply (Hno (cl_value st)). now repeat split. }
    assert (Hnone : concat (map (field_occ relaxed) (cl_values es)) = []).
    { apply not_flagged_not_used_means_nothing; rewrite <- Hst; assumption. }
    destruct (cl_needsSan st).
    + cbn [h_entries h_conflicting]. rewrite Hg, app_nil_r, first_cl_filter, filter_cl_del. now split; [|right].
    + cbn [h_entries h_conflicting]. rewrite first_cl_filter.
      destruct (kept_cl _ _ _ _ _ _ _ E eq_refl) as [->|(e & _ & _ & Hg')]; [now split; [|right]| congruence].
Qed.

(* Transfer-Encoding present, or Content-Length prohibited: Content-Length is never used *)
Theorem header_te_or_prohibited relaxed proh es r :
  parse_entries relaxed proh es = Some r -> proh = true \/ has_id HTE es = true ->
  content_length r = (-1)%Z /\ first_cl (h_entries r) = None.
Proof.
  unfold parse_entries. destruct (entries_loop relaxed es cl_init) as [[kept st]|] eqn:E; [|discriminate].
  intros [= <-] H. pose proof (kept_te _ _ _ _ _ (entries_loop_kept _ _ _ _ _ E)) as Hte.
  unfold post_process, content_length. destruct proh.
  - cbn [h_entries]. rewrite first_cl_filter, filter_cl_del_te, filter_cl_del. now split.
  - destruct H as [H|H]; [discriminate|]. rewrite Hte, H. cbn [h_entries].
    rewrite first_cl_filter, filter_cl_del. now split.
Qed.

(* every header block: hdr_parse is block_entries followed by parse_entries *)
Lemma hdr_parse_entries relaxed req proh block r :
  hdr_parse relaxed req proh block = Some r ->
  exists es, block_entries relaxed req block = Some es /\ parse_entries relaxed proh es = Some r.
Proof. unfold hdr_parse. destruct (block_entries relaxed req block) as [es|]; [eauto| discriminate]. Qed.

Theorem block_length_sound relaxed req proh block r :
  hdr_parse relaxed req proh block = Some r -> content_length r <> (-1)%Z ->
  exists es, block_entries relaxed req block = Some es /\
    proh = false /\ has_id HTE es = false /\ h_conflicting r = false /\
    uses (snd (check_fields relaxed cl_init (cl_values es))) (content_length r).
Proof.
  intros H Hn. destruct (hdr_parse_entries _ _ _ _ _ H) as (es & He & Hp).
  exists es. split; [exact He|]. exact (header_length_sound _ _ _ _ Hp Hn).
Qed.

(* the former counterexample (fixed in /repo by "fix: strListGetItem() stopped iterating at a list element
   made of VT/FF only"): "1,<VT>,5" is now examined to the end and flagged *)
Definition vt_block : bytes :=
  [67;111;110;116;101;110;116;45;76;101;110;103;116;104;58;32;49;44;11;44;53;13;10;13;10].
Lemma vt_list_flagged : cl_sawBad (snd (check_fields true cl_init [[49; 44; 11; 44; 53]])) = true.
Proof. vm_compute. reflexivity. Qed.
Lemma block_vt_list_flagged :
  exists r, hdr_parse true false false vt_block = Some r /\ content_length r = (-1)%Z /\ h_conflicting r = true.
Proof.
  destruct (hdr_parse true false false vt_block) as [r|] eqn:E; [|vm_compute in E; discriminate].
  exists r. split; [reflexivity|]. vm_compute in E. inversion E. vm_compute. now split.
Qed.

Lemma tables_spec relaxed c :
  cs_DIGIT c = c_isdigit c /\ cl_ws relaxed c = ows_before relaxed c /\ cl_delim relaxed c = ows_after relaxed c.
Proof. exact (conj (digit_tbl c) (conj (ws_tbl relaxed c) (delim_tbl relaxed c))). Qed.

Definition piece_item (p : bytes) : list bytes :=
  match snd (span is_lead p) with [] => [] | q => [q] end.
Definition lead_items (ps : list bytes) : list bytes := concat (map piece_item ps).

Lemma split_on_cons d l : exists p ps, split_on d l = p :: ps.
Proof.
  induction l as [|c r IH]; cbn [split_on]; [eauto|].
  destruct (c =? d); [eauto|]. destruct IH as (p & ps & ->). eauto.
Qed.

Definition noquote (l : bytes) : Prop := forallb (fun c => negb (c =? 34)) l = true.

Lemma split_items_noquote : forall l, noquote l ->
  (forall acc, split_items Unq acc l =
     match split_on 44 l with p :: ps => (rev acc ++ p) :: lead_items ps | [] => [] end) /\
  split_items Lead [] l = lead_items (split_on 44 l).
Proof.
  unfold noquote. induction l as [|c r IH]; intros Hq.
  - split; [intros acc|]; cbn [split_items split_on]; [now rewrite app_nil_r| reflexivity].
  - cbn [forallb] in Hq. apply andb_prop in Hq as [Hc Hr]. destruct (IH Hr) as [IHu IHl].
    destruct (split_on_cons 44 r) as (p & ps & Ep).
    assert (E34 : (c =? 34) = false) by lia.
    split.
    + intros acc. cbn [split_items split_on]. rewrite E34. destruct (c =? 44) eqn:E44.
      * rewrite IHl, app_nil_r. reflexivity.
      * rewrite IHu, Ep. cbn [rev]. now rewrite <- app_assoc.
    + cbn [split_items split_on]. destruct (is_lead c) eqn:El.
      * rewrite IHl. destruct (c =? 44) eqn:E44.
        -- unfold lead_items. cbn [map concat]. reflexivity.
        -- rewrite Ep. unfold lead_items. cbn [map concat]. f_equal.
           unfold piece_item. cbn [span]. rewrite El. destruct (span is_lead p). reflexivity.
      * rewrite E34. assert (E44 : (c =? 44) = false) by (unfold is_lead in El; lia).
        rewrite E44, IHu, Ep. cbn [rev app]. unfold lead_items. cbn [map concat]. f_equal.
        unfold piece_item. cbn [span]. rewrite El. reflexivity.
Qed.

Lemma span_ext_on {A} (p q : A -> bool) l : (forall x, In x l -> p x = q x) -> span p l = span q l.
Proof.
  induction l as [|x l IH]; intros H; cbn [span]; [reflexivity|].
  rewrite <- (H x (or_introl eq_refl)). destruct (p x); [|reflexivity].
  rewrite IH; [reflexivity|]. intros y Hy. apply H. now right.
Qed.

Lemma span_snd_last {A} (p : A -> bool) a c : p c = false -> snd (span p (a ++ [c])) <> [].
Proof.
  intros Hc. induction a as [|x a IH]; cbn [app span].
  - rewrite Hc. discriminate.
  - destruct (p x); [|discriminate]. destruct (span p (a ++ [c])). exact IH.
Qed.

Lemma rtrim_nonempty c q : c_isspace c = false -> rtrim (c :: q) <> [].
Proof.
  intros Hc. unfold rtrim. cbn [rev]. intros H.
  apply (span_snd_last c_isspace (rev q) c Hc).
  destruct (snd (span c_isspace (rev q ++ [c]))) as [|y ys]; [reflexivity|].
  cbn [rev] in H. destruct (rev ys); discriminate.
Qed.

Lemma blank_ltrim p : blank p = true <-> ltrim p = [].
Proof.
  unfold blank, ltrim. induction p as [|c p IH]; cbn [forallb span]; [tauto|].
  destruct (c_isspace c); cbn [andb]; [|split; discriminate].
  destruct (span c_isspace p). exact IH.
Qed.

(* characters of a list piece for which the code's leading-delimiter set and xisspace agree *)
Definition plain (c : N) : bool := negb (c =? 44).

Lemma lead_space_plain c : plain c = true -> is_lead c = c_isspace c.
Proof. unfold plain, is_lead, c_isspace. lia. Qed.

Lemma examined_piece p rest : forallb plain p = true ->
  examined (piece_item p ++ rest) = (if blank p then [] else [trim p]) ++ examined rest.
Proof.
  intros Hp. unfold piece_item.
  assert (E : snd (span is_lead p) = ltrim p).
  { unfold ltrim. f_equal. apply span_ext_on. intros x Hx. apply lead_space_plain.
    rewrite forallb_forall in Hp. now apply Hp. }
  rewrite E. destruct (blank p) eqn:Eb.
  - apply blank_ltrim in Eb. rewrite Eb. reflexivity.
  - destruct (ltrim p) as [|c q] eqn:El.
    + apply blank_ltrim in El. congruence.
    + cbn [app examined]. unfold trim. rewrite El.
      assert (Hc : c_isspace c = false).
      { pose proof (span_stop c_isspace p) as Hs. unfold ltrim in El. rewrite El in Hs. exact Hs. }
      destruct (rtrim (c :: q)) eqn:Er; [exfalso; exact (rtrim_nonempty c q Hc Er)|]. reflexivity.
Qed.

Lemma examined_lead_items ps : Forall (fun p => forallb plain p = true) ps ->
  examined (lead_items ps) = map trim (filter (fun p => negb (blank p)) ps).
Proof.
  induction 1 as [|p ps Hp _ IH]; [reflexivity|].
  unfold lead_items. cbn [map concat filter]. fold (lead_items ps).
  rewrite (examined_piece p _ Hp), IH. destruct (blank p); reflexivity.
Qed.

Lemma split_on_pieces (P : N -> bool) d l : forallb P l = true ->
  Forall (fun p => forallb (fun c => P c && negb (c =? d)) p = true) (split_on d l).
Proof.
  induction l as [|c r IH]; intros H; cbn [split_on].
  - constructor; [reflexivity| constructor].
  - cbn [forallb] in H. apply andb_prop in H as [Hc Hr]. specialize (IH Hr).
    destruct (c =? d) eqn:E.
    + constructor; [reflexivity| exact IH].
    + destruct (split_on d r) as [|p ps]; [constructor; [cbn [forallb]; now rewrite Hc, E| constructor]|].
      inversion IH as [|? ? Hp Hps]; subst. constructor; [|exact Hps].
      cbn [forallb]. now rewrite Hc, E, Hp.
Qed.

(* the hypothesis of the partial theorem: what HttpHeader::parse guarantees (no NUL) plus the exclusion of
   double quotes (quoted strings) in list-like fields *)
Definition clean (f : bytes) : Prop :=
  forallb (fun c => negb (c =? 0)) f = true /\
  (existsb (N.eqb 44) f = true -> forallb (fun c => negb (c =? 34)) f = true).

Lemma c_str_nonul f : forallb (fun c => negb (c =? 0)) f = true -> c_str f = f.
Proof.
  intros H. rewrite <- (app_nil_r f) at 1. rewrite (c_str_app_nonul f [] H). apply app_nil_r.
Qed.

Lemma field_occ_clean f : clean f -> field_occ true f = map (cv_parse true) (occurrences f).
Proof.
  intros [Hn Hq]. unfold field_occ, occurrences, has_comma. rewrite (c_str_nonul f Hn).
  destruct (existsb (N.eqb 44) f) eqn:Ec; [|reflexivity]. specialize (Hq eq_refl). f_equal.
  rewrite (proj2 (split_items_noquote f Hq)). apply examined_lead_items.
  pose proof (split_on_pieces _ 44 f Hq) as HF. revert HF. apply Forall_impl. intros p.
  apply forallb_impl. intros x. unfold plain. lia.
Qed.

Theorem relaxed_lists_partial vs v :
  (forall f, In f vs -> clean f) ->
  (uses (snd (check_fields true cl_init vs)) v <->
   concat (map occurrences vs) <> [] /\ forall o, In o (concat (map occurrences vs)) -> is_token true o v).
Proof.
  intros Hc. apply relaxed_uses_tokens. rewrite concat_map, map_map. f_equal. apply map_ext_in.
  intros f Hf. exact (field_occ_clean f (Hc f Hf)).
Qed.
